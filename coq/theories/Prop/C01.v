(* C01 - Compiled pure-Python code behaves exactly like CPython: the closure-conversion part.
   run_cells  = MiniPy under CPython's scheme (symtable classification + cells), Lib/MiniPy.v
   run_scopes = MiniPy under the compiler's scheme (scope objects + outer_scope hops), Model/M_Closure.v
   Outcomes (Done value trace | Failed exception trace | NoFuel | IsStuck) are compared by equality, so
   out-of-fuel and stuck runs are covered: they coincide on both sides.
   Proofs: Proof/P_Closure.v; for the unpacking part below Proof/P_Unpack.v, which also defines the
   hypotheses wf, st_ok and plain_tuplesub.

   Full property (false on the tree because of finding del_unbound_global_attributeerror):
     forall n prog main, run_scopes false n prog main = run_cells n prog main. *)
From Coq Require Import ZArith List Bool.
From CyVerif Require Import Lib.MiniPy Model.M_Closure Proof.P_Closure.
From CyVerif Require Import Model.M_Unpack Proof.P_Unpack.
Import ListNotations.

(* the compiler's scheme with the del-of-unbound-global repair: indistinguishable from CPython's cells,
   for all programs, all entry expressions, all fuel *)
Theorem C01_closure_conversion_correct_fixed : forall (n : nat) (prog : list stmt) (main : expr),
  run_scopes true n prog main = run_cells n prog main.
Proof.
  intros n prog main. destruct (closure_conversion true n prog main) as [E|(X & _)]; [exact E|discriminate].
Qed.
Print Assumptions C01_closure_conversion_correct_fixed.

(* the tree as it is: equal, or the run ends at the same point with the same trace and the only
   difference is AttributeError instead of NameError (del of an unbound module global) *)
Theorem C01_closure_conversion_correct_partial : forall (n : nat) (prog : list stmt) (main : expr),
  run_scopes false n prog main = run_cells n prog main \/
  exists t, run_cells n prog main = Failed NameError t /\
            run_scopes false n prog main = Failed AttributeError t.
Proof.
  intros n prog main. destruct (closure_conversion false n prog main) as [E|(_ & H)]; [left|right]; assumption.
Qed.
Print Assumptions C01_closure_conversion_correct_partial.

Theorem C01_closure_conversion_refuted :
  exists n prog main, run_scopes false n prog main <> run_cells n prog main.
Proof. exists 5, [SDel 0], ENone. vm_compute. discriminate. Qed.
Print Assumptions C01_closure_conversion_refuted.

(* Scope.lookup through the outer_scope chain finds a variable exactly when symtable resolves the name
   to an enclosing function (so from_closure entries = free variables) *)
Theorem C01_hops_agree_with_owner : forall (ctx : sctx) (x : ident),
  has_owner ctx x = true <-> exists k, lookup_outer ctx x = Some k.
Proof. exact has_owner_iff. Qed.
Print Assumptions C01_hops_agree_with_owner.

(* non-trivial instance: a counter closure two levels deep (own scope object + one outer_scope hop),
     def f(a):
         def g():
             def h():
                 nonlocal a
                 a += 1
                 return a
             return h
         return g()
     k = f(10); log(k()); main = k() + k()
   gives 25 with trace [11] under both schemes *)
Example C01_nonvacuous :
  let prog := [SDef 0 [1] [SDef 2 [] [SDef 3 [] [SNonlocal 1; SAug 1 Add (EInt 1); SReturn (EName 1)];
                                       SReturn (EName 3)];
                           SReturn (ECall (EName 2) [])];
               SAssign 4 (ECall (EName 0) [EInt 10]);
               SExpr (ELog (ECall (EName 4) []))] in
  let main := EBin Add (ECall (EName 4) []) (ECall (EName 4) []) in
  run_cells 100 prog main = Done (VInt 25) [VInt 11] /\
  run_scopes false 100 prog main = Done (VInt 25) [VInt 11].
Proof. vm_compute. split; reflexivity. Qed.

(* ---------------------------------------------------------------------------------------------------
   Sequence unpacking (Model/M_Unpack.v): the code generated for  T = rhs,  for T in ...,  [.. for T in ..]
   by SequenceNode.generate_assignment_code computes Python's unpacking.
   cy_assign  = the generated protocol (exact tuple/list fast path by size check + item copy; generic
                iterator path with its "need more than k values" / "too many values" decisions; starred
                path: left targets by iteration, rest into a list, length guard, right targets read
                from its end) applied to nested targets left to right;
   ref_assign = unpacking as the language reference defines it, by the number of items.
   Outcome = (trace of observable iterator next-calls and bindings in order, Done | exception | Stuck);
   erase forgets the wording of CPython's message but keeps the number it reports (got / expected).
   Unbounded in the number and nesting of targets and in the number of items; wf is what Python
   guarantees about exact tuples/lists, st_ok the soundness of the static type of the right-hand side. *)
Theorem C01_unpack_one_level_correct : forall (st : stype) (nl : nat) (star : option nat) (v : val),
  wf v -> st_ok st v ->
  obs v (cy_unpack st nl star v) = obs v (map_res erase (ref_unpack nl star v)).
Proof. exact P_Unpack.cy_unpack_correct. Qed.
Print Assumptions C01_unpack_one_level_correct.

Theorem C01_unpack_nested_correct : forall (st : stype) (t : target) (v : val),
  wf v -> st_ok st v -> cy_assign st t v = map_a erase (ref_assign t v).
Proof. exact P_Unpack.cy_assign_correct. Qed.
Print Assumptions C01_unpack_nested_correct.

(* no read outside ob_item (the indices len-(i+1) and 0..n-1 are in range whenever the guards pass) and
   the unpacked temps always match the targets one to one *)
Theorem C01_unpack_safe : forall (st : stype) (t : target) (v : val),
  wf v -> st_ok st v ->
  snd (cy_assign st t v) <> AStuck /\ snd (cy_assign st t v) <> AExc COutOfBounds.
Proof. exact P_Unpack.cy_assign_safe. Qed.
Print Assumptions C01_unpack_safe.

Theorem C01_unpack_starred_is_new_list : forall st nl nr v c vals, wf v -> st_ok st v ->
  cy_unpack st nl (Some nr) v = (c, Vals vals) -> exists l, nth_error vals nl = Some (new_list l).
Proof. exact P_Unpack.starred_is_new_list. Qed.
Print Assumptions C01_unpack_starred_is_new_list.

(* the length guard of the starred path is tight: with len <= n_right instead of len < n_right the
   statement fails at the boundary (a, *b, c = [1, 2]) *)
Theorem C01_unpack_star_guard_tight : exists nl nr v, wf v /\
  snd (cy_star_g true nl nr v) <> snd (map_res erase (ref_unpack nl (Some nr) v)).
Proof. exact P_Unpack.cy_star_guard_tight. Qed.
Print Assumptions C01_unpack_star_guard_tight.

(* for k, v in obj.items() on a non-dict: the pair goes through __Pyx_unpack_tuple2.
   Full statement (false on the tree, finding items_loop_tuple_subclass_iter_ignored):
     forall ls rs v, wf v -> length ls + length rs = 2 ->
       cy_items_assign false (TSeq ls None rs) v = map_a erase (ref_assign (TSeq ls None rs) v).
   Proved for the tree (fx = false) when the item is not a tuple subclass overriding __iter__, and for
   the proposed PyTuple_CheckExact (fx = true) without that restriction. *)
Theorem C01_unpack_items_loop_partial : forall fx ls rs v, wf v -> (fx = false -> plain_tuplesub v) ->
  length ls + length rs = 2 ->
  cy_items_assign fx (TSeq ls None rs) v = map_a erase (ref_assign (TSeq ls None rs) v).
Proof. exact P_Unpack.cy_items_assign_correct. Qed.
Print Assumptions C01_unpack_items_loop_partial.

Theorem C01_unpack_items_loop_refuted : exists v, wf v /\
  snd (cy_tuple2 false v) <> snd (map_res erase (ref_unpack 2 None v)).
Proof. exact P_Unpack.cy_tuple2_refuted. Qed.
Print Assumptions C01_unpack_items_loop_refuted.

(* non-trivial instance:  (a, *b), *c, d = [iter-object 9 yielding 1 2 3, 4, 5]  binds a=1 b=[2,3]
   c=[4] d=5 after four observable next-calls on object 9 *)
Example C01_unpack_nonvacuous :
  let it := VSeq {| h_kind := KOther; h_id := 9; h_logs := true; h_end := EndStop |} []
                 [VAtom 1; VAtom 2; VAtom 3] in
  let t := TSeq [TSeq [TName 0] (Some 1) []] (Some 2) [TName 3] in
  cy_assign SObj t (new_list [it; VAtom 4; VAtom 5])
  = ([EvNext 9; EvNext 9; EvNext 9; EvNext 9; EvBind 0 (VAtom 1);
      EvBind 1 (new_list [VAtom 2; VAtom 3]); EvBind 2 (new_list [VAtom 4]); EvBind 3 (VAtom 5)], ADone).
Proof. vm_compute. reflexivity. Qed.
