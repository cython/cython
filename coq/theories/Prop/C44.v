(* C44 — Tracebacks and code positions point at the right source: the location-table encoder
   (Cython/Compiler/LineTable.py) against CPython 3.12's table readers.
   Only statements; definitions of the vocabulary (wf_pos, sorted_from, chain) and the
   proofs live in Proof/P_LineTable.v (C44_bytes_wellformed spells out its table_wf), the executable model in Model/M_LineTable.v.

   build_line_table fx : fx = false is the code as it is (long form carries end_lineno to the next
   entry), fx = true the proposed one-line repair (carries start_lineno). *)
From Coq Require Import ZArith List Bool Lia.
From CyVerif Require Import Lib.CInt Model.M_LineTable Proof.P_LineTable.
Import ListNotations.
Open Scope Z_scope.

(* vocabulary, spelled out: a position is well formed iff 0 <= start <= end line, columns >= 0 *)
Theorem C44_wf_pos_def : forall sl el sc ec,
  wf_pos (sl, el, sc, ec) <-> (0 <= sl /\ sl <= el /\ 0 <= sc /\ 0 <= ec).
Proof. intros. unfold wf_pos. tauto. Qed.
Print Assumptions C44_wf_pos_def.

(* sorted_from first ps: start lines non-decreasing, the first one >= firstlineno *)
Theorem C44_sorted_from_def : forall first p r,
  sorted_from first [] /\
  (sorted_from first (p :: r) <-> (first <= p_start p /\ sorted_from (p_start p) r)).
Proof. intros. unfold sorted_from. cbn. tauto. Qed.
Print Assumptions C44_sorted_from_def.

(* MAIN (repaired encoder): for EVERY list of well-formed positions sorted by start line the
   encoder succeeds and CPython's co_positions() reader returns exactly the list; the line reader
   used by co_lines()/PyCode_Addr2Line returns exactly the start lines.  Unbounded in length,
   line numbers and columns. *)
Theorem C44_decode_encode : forall ps first,
  Forall wf_pos ps -> sorted_from first ps ->
  exists bs, build_line_table true ps first = EOk bs /\
             decode_positions first bs = DOk ps /\
             decode_lines first bs = LOk (map p_start ps).
Proof. exact decode_encode_fixed. Qed.
Print Assumptions C44_decode_encode.

(* The same statement for the code as it is (fx = false) is FALSE:
     forall ps first, Forall wf_pos ps -> sorted_from first ps ->
       exists bs, build_line_table false ps first = EOk bs /\ decode_positions first bs = DOk ps
   (finding F1).  It holds when every position is on a single line - which is all that the
   compiler itself records (ParseTreeTransforms._build_positions emits (line, line, col, col')). *)
Theorem C44_decode_encode_current_partial : forall ps first,
  Forall wf_pos ps -> Forall (fun p => p_end p = p_start p) ps -> sorted_from first ps ->
  exists bs, build_line_table false ps first = EOk bs /\
             decode_positions first bs = DOk ps /\
             decode_lines first bs = LOk (map p_start ps).
Proof. exact decode_encode_current_single_line. Qed.
Print Assumptions C44_decode_encode_current_partial.

(* F1: a multi-line span followed by another entry is decoded wrongly ... *)
Theorem C44_decode_encode_current_refuted :
  exists ps first, Forall wf_pos ps /\ sorted_from first ps /\
    exists bs, build_line_table false ps first = EOk bs /\ decode_positions first bs <> DOk ps.
Proof. exact decode_encode_current_refuted. Qed.
Print Assumptions C44_decode_encode_current_refuted.

(* ... or a start-sorted list is rejected by the encoder's own assertion *)
Theorem C44_encode_current_rejects_sorted_refuted :
  exists ps first, Forall wf_pos ps /\ sorted_from first ps /\
    build_line_table false ps first = EAssertionError.
Proof. exact encode_current_rejects_sorted_refuted. Qed.
Print Assumptions C44_encode_current_rejects_sorted_refuted.

(* byte well-formedness, both variants, under the variant's own assertion chain (chain true =
   sorted_from; chain false = every start line >= the previous END line): the output is a
   concatenation of one entry per position, each a start byte in 128..255 with length field 0
   followed by payload bytes in 0..127; every byte is a latin-1 code point *)
Theorem C44_bytes_wellformed : forall fx ps first,
  Forall wf_pos ps -> chain fx first ps ->
  exists bs, build_line_table fx ps first = EOk bs /\
    (exists entries, bs = concat entries /\ length entries = length ps /\
       Forall (fun e => exists h t, e = h :: t /\ 128 <= h < 256 /\ Z.land h 7 = 0 /\
                                    Forall (fun b => 0 <= b < 128) t) entries) /\
    Forall (fun b => 0 <= b < 256) bs.
Proof. exact bytes_wellformed. Qed.
Print Assumptions C44_bytes_wellformed.

(* the fuel parameters of the model are never exhausted, on any input at all *)
Theorem C44_model_total : forall fx ps first bs,
  build_line_table fx ps first <> EOutOfFuel /\
  decode_positions first bs <> DOutOfFuel /\ decode_lines first bs <> LOutOfFuel.
Proof.
  intros. split; [apply build_never_out_of_fuel|].
  split; [apply decode_never_out_of_fuel|apply lines_never_out_of_fuel].
Qed.
Print Assumptions C44_model_total.

(* non-vacuity: all three entry forms, a multi-line span, a 3-byte varint *)
Example C44_nonvacuous :
  let ps := [(5, 5, 0, 3); (5, 5, 3, 4); (6, 6, 100, 200); (9, 11, 0, 1); (5000, 5001, 300, 2)] in
  Forall wf_pos ps /\ sorted_from 3 ps /\
  build_line_table true ps 3 =
    EOk [224; 0; 3; 128; 49; 240; 2; 0; 101; 1; 73; 3; 240; 6; 2; 1; 2; 240; 126; 91; 2; 1; 109; 4; 3] /\
  decode_positions 3 [224; 0; 3; 128; 49; 240; 2; 0; 101; 1; 73; 3; 240; 6; 2; 1; 2; 240; 126; 91; 2; 1; 109; 4; 3]
    = DOk ps.
Proof. cbv zeta. split; [repeat constructor; cbn; lia|]. split; [cbn; lia|]. split; vm_compute; reflexivity. Qed.
