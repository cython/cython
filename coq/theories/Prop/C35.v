(* C35 - Reference counts stay balanced on every path, including errors.

   Level: partial.  The theorems are about the model of the code generator's ownership discipline
   (Model/M_Refs.v: temp machine + refnanny ledger + gen for strict operations, tuple/list displays, calls,
   local assignment, attribute/item stores, if, for-in with break/continue/return, return).  They hold for ALL
   trees of that fragment, ALL fault oracles (any set of failing calls/allocations: in particular "the k-th
   call raises" for every k, and no fault), all iteration counts and all aliasing choices of results.
   The __exit__ call of the with statement (WithExitCallNode, its unmanaged result temp and the truth test of the
   result) is modelled on its own (exit_call / with_stat) and proved balanced on every outcome for every oracle;
   the with statement as a whole is executable in the model but NOT yet part of the gen_stmt induction (the
   except label needs a frame property of bodies on their error exit that the statement lemmas do not carry).
   Not covered by a theorem (tested only by props/C35.py): try/except/finally, with bodies, unpacking,
   comprehensions, augmented assignment, method/keyword/star calls, C utility code.  The full property over
   all of Cython is FALSE on the current tree: the return value stashed by TryFinallyStatNode (also used by
   "with") lives in an unmanaged temp and leaks when the finally clause / __exit__ raises
   (finding finally_raises_after_return, replayed on the real code by props/C35.py). *)
From Coq Require Import List Bool Arith.
From CyVerif Require Import Model.M_Refs Proof.P_Refs.
Import ListNotations.

(* every path of every function of the fragment: the machine never over-releases, never passes NULL to a
   non-X macro, never reads a temp or local whose object it does not own, never overwrites a live slot
   (no FStuck); at exit no temp and no local holds a reference, the result reference has been handed to the
   caller, the ledger of every object is 0 (each acquired reference released exactly once) and the
   refnanny replay of the whole event trace reports no "too many decrefs". *)
Theorem C35_balanced_on_every_path :
  forall (body : stmt) (O : orc) (fuel nargs none : nat),
    jumps_ok false body = true ->
    match run_fun O fuel nargs (gen_fun none body) with
    | Done _ s => temps s = [] /\ locs s = [] /\ res s = None /\
                  (forall o, bal (tr s) o = 0) /\ nanny_errs (tr s) = 0
    | FStuck _ => False
    | FFuel => True
    end.
Proof. exact P_Refs.balanced_all. Qed.
Print Assumptions C35_balanced_on_every_path.

(* the instance used by the correspondence run: the k-th fallible call raises (k = None: no fault) *)
Theorem C35_balanced_for_every_fault_position :
  forall (body : stmt) (k : option nat) (decisions : list nat) (fuel nargs none : nat),
    jumps_ok false body = true ->
    match run_fun (orc_of k decisions) fuel nargs (gen_fun none body) with
    | Done _ s => temps s = [] /\ locs s = [] /\ res s = None /\
                  (forall o, bal (tr s) o = 0) /\ nanny_errs (tr s) = 0
    | FStuck _ => False
    | FFuel => True
    end.
Proof. intros. apply P_Refs.balanced_all; auto. Qed.
Print Assumptions C35_balanced_for_every_fault_position.

(* the invariant "sum of owned references = live temps + owned locals + result" (P_Refs.Inv) holds after the
   code of every expression, on the normal and on the error exit, from every state that satisfies it; on the
   normal exit exactly the result temp has become live, on the error exit the result slot is still empty
   (P_Refs.BT L s: the temps holding a reference in s are exactly those of L; P_Refs.B L s: and res s = None) *)
Theorem C35_ledger_equals_slots_invariant :
  forall (e : expr) (A : astate) (c : list instr) (r : rand) (A' : astate),
    gen_expr e A = (c, r, A') -> wfA A ->
    forall (O : orc) (L : nat -> Prop), (forall u, L u -> inuse A u) ->
    forall s, Inv s -> B L s ->
      match run O c s with
      | Norm s' => Inv s' /\ B (fun u => L u \/ r = RTmp u) s'
      | Err s' => Inv s' /\ res s' = None
      | _ => False
      end.
Proof.
  intros e A c r A' G W O L HL. destruct (proj1 P_Refs.gen_ok e A c r A' G W) as (_ & _ & _ & T).
  exact (T O L HL).
Qed.
Print Assumptions C35_ledger_equals_slots_invariant.

(* the allocator side of the discipline: after an expression exactly its result temp is in use in addition *)
Theorem C35_temps_released_exactly_once :
  forall (e : expr) (A : astate) (c : list instr) (r : rand) (A' : astate),
    gen_expr e A = (c, r, A') -> wfA A ->
    wfA A' /\ (forall u, inuse A' u <-> inuse A u \/ r = RTmp u) /\ (forall u, r = RTmp u -> ~ inuse A u).
Proof.
  intros e A c r A' G W. destruct (proj1 P_Refs.gen_ok e A c r A' G W) as (a & b & c0 & _). auto.
Qed.
Print Assumptions C35_temps_released_exactly_once.

(* statements leave the set of live temps unchanged, clear all of them before a return, and keep the
   invariant on every outcome *)
Theorem C35_statement_outcomes :
  forall (st : stmt) (A : astate) (c : code) (A' : astate) (inl : bool),
    gen_stmt st A = (c, A') -> wfA A -> jumps_ok inl st = true ->
    forall (O : orc) (fuel : nat) (s : state), Inv s -> B (inuse A) s ->
      match exec O fuel c s with
      | Norm s' => Inv s' /\ B (inuse A) s'
      | Brk s' | Cnt s' => inl = true /\ Inv s' /\ B (inuse A) s'
      | Err s' => Inv s' /\ res s' = None
      | Ret s' => Inv s' /\ BT (fun _ => False) s'
      | Stuck _ => False
      | Fuel => True
      end.
Proof.
  intros st A c A' inl G W J O fuel. destruct (P_Refs.gen_stmt_ok st A c A' inl G W J) as (_ & S).
  exact (S O fuel).
Qed.
Print Assumptions C35_statement_outcomes.

(* WithExitCallNode as emitted (both uses: normal exit, test = false, args = []; except branch, test = true,
   args = [tuple temp]): for EVERY oracle (the call fails / the truth test of the returned object fails / it answers
   either way) and every state satisfying the ledger invariant in which exit_var and the args tuple are live,
   the code ends (normally or at the error label) with the invariant intact: exactly exit_var and the args tuple
   released, the unmanaged result reference released, result slot untouched; it is never stuck *)
Theorem C35_with_exit_call_balanced :
  forall (O : orc) (test : bool) (te : nat) (args : list nat) (s : state) (L : nat -> Prop),
    Inv s -> BT L s -> NoDup (te :: args) -> (forall t, In t (te :: args) -> L t) ->
    match exit_call O false test te args s with
    | Norm s' | Err s' => Inv s' /\ BT (fun u => L u /\ ~ In u (te :: args)) s' /\ res s' = res s
    | _ => False
    end.
Proof. exact P_Refs.exit_call_ok. Qed.
Print Assumptions C35_with_exit_call_balanced.

(* the emission order with the error test of the truth value in FRONT of DECREF(result_var) is refuted: from a
   state satisfying the invariant, with the truth test raising, the error label is reached with a reference
   (object 12) that no temp, local or result slot accounts for *)
Theorem C35_with_exit_late_decref_refuted :
  Inv wit_state /\
  exists s', exit_call wit_orc true true 0 [1] wit_state = Err s' /\
             temps s' = [] /\ locs s' = [] /\ res s' = None /\ bal (tr s') 12 = 1.
Proof. split; [exact P_Refs.wit_state_inv|]. eexists. split; [vm_compute; reflexivity|]. vm_compute. auto. Qed.
Print Assumptions C35_with_exit_late_decref_refuted.

(* ... and at statement level: "with a: <raise>" whose __exit__ result fails its truth test (call 2): the variant
   reaches the error label owning object 11 without a slot; the emitted order is balanced on the same input *)
Theorem C35_with_stat_late_decref_refuted :
  (exists s', (wit_with true = Err s') /\ (bal (tr s') 11 = 1) /\ (cnt 11 (temps s') = 0) /\
              (cnt 11 (locs s') = 0) /\ (res s' = None)) /\
  (exists s', (wit_with false = Err s') /\
              (forallb (fun o => Nat.eqb (bal (tr s') o) (cnt o (temps s'))) (seq 0 20) = true) /\
              (length (tr s') = 11)).
Proof. split; (eexists; split; [vm_compute; reflexivity|]; vm_compute; auto). Qed.
Print Assumptions C35_with_stat_late_decref_refuted.

(* non-vacuity: "for v0 in a + b: if v0: break; else: return (v0, c(v0))" with the 4th call failing runs to
   the error exit with a non-trivial trace; the fault-free run returns a value *)
Definition ex_body : stmt :=
  SFor 0 (EOp (ECons (EArg 0) (ECons (EArg 1) ENil)))
    (SIf (ELoc 0) SBreak
         (SReturn (ESeq (ECons (ELoc 0) (ECons (ECall (EArg 2) (ECons (ELoc 0) ENil)) ENil))))).
Example C35_nonvacuous :
  jumps_ok false ex_body = true /\
  (exists s, run_fun (orc_of (Some 4) [0; 0; 1; 2; 0]) 50 5 (gen_fun 4 ex_body) = Done false s /\ length (tr s) = 8) /\
  (exists s, run_fun (orc_of None [0; 0; 1; 2; 0]) 50 5 (gen_fun 4 ex_body) = Done true s /\ length (tr s) = 14).
Proof. split; [reflexivity|]. split; eexists; split; vm_compute; reflexivity. Qed.
