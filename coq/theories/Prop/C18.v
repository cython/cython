(* C18 — String formatting produces exactly CPython's text (C-integer formatting).
   Statements; the proofs live in Proof/P_IntFmtDigits.v, P_IntFmt.v, P_IntFmtUtf8.v (C integers)
   and Proof/P_FStr.v (f-string assembly).
   Characters are code points: 'd'=100 'o'=111 'x'=120 'X'=88, ' '=32, '0'=48, '-'=45. *)
From Coq Require Import ZArith List Bool.
From CyVerif Require Import Lib.CInt Model.M_IntFmt Proof.P_IntFmtDigits Proof.P_IntFmt Proof.P_IntFmtUtf8
  Gen.Gen_IntFmt Model.M_FStr Proof.P_FStr.
Import ListNotations.
Open Scope Z_scope.

(* __Pyx__PyUnicode_From_<T>(value, width, padding_char, format_char) returns exactly CPython's
   format(value, spec) text -- for EVERY bit width w >= 1 (sizeof(T) = ceil(w/8)), both
   signednesses, every value of the type, every width, every padding character and each of
   d/o/x/X.  The result is a Text, hence: no write below digits[0] of the sizeof(T)*3+2 byte
   buffer, no table index outside a table, the C assert holds, BuildFromAscii neither reads
   past clength nor leaves a position unwritten, and the loop terminates within its fuel. *)
Theorem C18_format_eq : forall w s v width pad fc,
  1 <= w -> in_range w s v -> (fc = 100 \/ fc = 111 \/ fc = 120 \/ fc = 88) ->
  cint_to_unicode w s v width pad fc = Text (py_format_int v width pad fc).
Proof. exact format_eq. Qed.
Print Assumptions C18_format_eq.

(* the declared buffer always suffices (C36 share), stated on its own *)
Theorem C18_buffer_fits : forall w s v width pad fc e,
  1 <= w -> in_range w s v -> (fc = 100 \/ fc = 111 \/ fc = 120 \/ fc = 88) ->
  cint_to_unicode w s v width pad fc <> Err e.
Proof. exact no_error. Qed.
Print Assumptions C18_buffer_fits.

(* the digits of the produced text are digits of the base (in the right case), denote |v| and
   have no leading zero ("0" only for 0); a '-' precedes them iff v < 0 *)
Theorem C18_digits_correct : forall w s v fc,
  1 <= w -> in_range w s v -> (fc = 100 \/ fc = 111 \/ fc = 120 \/ fc = 88) ->
  exists ds,
    cint_to_unicode w s v 0 32 fc = Text ((if v <? 0 then [45] else []) ++ ds)
    /\ parse_base (fmt_base fc) ds = Z.abs v
    /\ forallb (is_digit_of (fmt_base fc) (fmt_upper fc)) ds = true
    /\ no_leading_zero (Z.abs v) ds.
Proof. exact digits_correct. Qed.
Print Assumptions C18_digits_correct.

(* the specification's digits themselves are sound (base 8, 10, 16; any n >= 0) *)
Theorem C18_spec_digits_sound : forall b u n, (b = 8 \/ b = 10 \/ b = 16) -> 0 <= n ->
  parse_base b (py_digits b u n) = n /\
  forallb (is_digit_of b u) (py_digits b u n) = true /\ no_leading_zero n (py_digits b u n).
Proof.
  intros b u n Hb Hn. apply (py_digits_correct b u Hb (S (Z.to_nat n))).
  rewrite Nat2Z.inj_succ, Z2Nat.id by assumption. split; [assumption|apply Z.lt_succ_diag_r].
Qed.
Print Assumptions C18_spec_digits_sound.

(* 'c': full statement
     forall w s v width pad, in_range w s v ->
       uchar_to_unicode false w s v width pad = py_format_char v width pad
   (OverflowError iff v not in range(0x110000), else the padded character) is FALSE for the
   unrepaired test of finding F17 (uchar_accepts false:  ... || value & ~(T)0x01fffff || ...): *)
Theorem C18_char_range_check_refuted :
  exists w s v width pad, 1 <= w /\ in_range w s v /\
    py_format_char v width pad = COverflowError /\
    uchar_to_unicode false w s v width pad = CText [65].
Proof. exact char_range_refuted. Qed.
Print Assumptions C18_char_range_check_refuted.

Theorem C18_char_range_check_refuted_exception :
  exists w s v width pad, 1 <= w /\ in_range w s v /\
    py_format_char v width pad = COverflowError /\
    uchar_to_unicode false w s v width pad = CValueError.
Proof. exact char_range_refuted_exc. Qed.
Print Assumptions C18_char_range_check_refuted_exception.

(* what holds for the unrepaired test: all values below 0x200000 and all 8/16-bit types *)
Theorem C18_char_range_check_partial : forall w s v width pad,
  1 <= w -> in_range w s v -> (v < 2097152 \/ sizeof w <= 2) ->
  uchar_to_unicode false w s v width pad = py_format_char v width pad.
Proof. exact char_range_partial. Qed.
Print Assumptions C18_char_range_check_partial.

(* the repaired test (uchar_accepts true; the text of Cython/Utility/TypeConversion.c in /repo):
   full statement for every type width, value, width and pad *)
Theorem C18_char_range_check_fixed : forall w s v width pad,
  1 <= w -> in_range w s v ->
  uchar_to_unicode true w s v width pad = py_format_char v width pad.
Proof. exact char_range_fixed. Qed.
Print Assumptions C18_char_range_check_fixed.

(* ---- the padded 'c' path at byte level (__Pyx_PyUnicode_FromOrdinal_Padded: UTF-8 encode into
   char chars[256], memset the padding, PyUnicode_DecodeUTF8 / DecodeLatin1) ---- *)

(* decode (encode cp) = [cp] for EVERY code point the C encoder is given: U+0080..U+10FFFF minus
   the surrogates (which take the PyUnicode_FromOrdinal path); utf8_enc_c = the three branches with
   the guards  value < 0x800 / value < 0x10000 / else  and the masks and shifts as written;
   utf8_decode = strict RFC 3629 decoder (overlong forms, surrogates, > U+10FFFF, truncation,
   stray continuation bytes are errors).  By case analysis on the ranges, not by enumeration. *)
Theorem C18_utf8_decode_encode : forall cp, 128 <= cp <= 1114111 -> is_surrogate cp = false ->
  utf8_decode (utf8_enc_c cp) = Some [cp].
Proof.
  intros cp H S. rewrite <- (app_nil_r (utf8_enc_c cp)). rewrite utf8_roundtrip by assumption. reflexivity.
Qed.
Print Assumptions C18_utf8_decode_encode.

(* the bytes are the RFC 3629 encoding (2, 3 or 4 bytes by range, each a byte) *)
Theorem C18_utf8_bytes : forall cp, 128 <= cp <= 1114111 ->
  utf8_enc_c cp = utf8_ref cp /\ Forall (fun b => 0 <= b <= 255) (utf8_enc_c cp) /\
  length (utf8_enc_c cp) = (if cp <? 2048 then 2%nat else if cp <? 65536 then 3%nat else 4%nat).
Proof. intros cp H. split; [apply enc_is_utf8; assumption|]. split; [apply enc_bytes|apply enc_length]. Qed.
Print Assumptions C18_utf8_bytes.

(* the branch guards are tight: a code point given to a branch one size too short or too long
   never decodes back to itself (so `<` vs `<=` at 0x800 / 0x10000 matters for exactly those values) *)
Theorem C18_utf8_guards_tight : forall cp,
  (2048 <= cp -> utf8_decode (enc2 cp) <> Some [cp]) /\
  (65536 <= cp -> utf8_decode (enc3 cp) <> Some [cp]) /\
  (128 <= cp < 2048 -> utf8_decode (enc3 cp) = None) /\
  (2048 <= cp < 65536 -> utf8_decode (enc4 cp) = None).
Proof. exact guards_tight. Qed.
Print Assumptions C18_utf8_guards_tight.

(* the byte-level helper equals the abstract one for EVERY int value (also negative and beyond
   U+10FFFF: Latin-1 truncation, 21-bit 4-byte form), every ulength >= 2 and every ASCII padding
   character (the compiler only passes ' ' and '0') *)
Theorem C18_char_bytes_refine : forall iv ulength pad, 2 <= ulength -> 0 <= pad <= 127 ->
  from_ordinal_padded_b iv ulength pad = from_ordinal_padded iv ulength pad.
Proof. exact padded_b_refines. Qed.
Print Assumptions C18_char_bytes_refine.

(* full statement for the code as it is: for every C integer type, value, width and ASCII padding
   character f"{v:<pad><width>c}" is CPython's text or OverflowError *)
Theorem C18_char_bytes_eq : forall w s v width pad,
  1 <= w -> in_range w s v -> 0 <= pad <= 127 ->
  uchar_to_unicode_b true w s v width pad = py_format_char v width pad.
Proof. exact char_bytes_fixed. Qed.
Print Assumptions C18_char_bytes_eq.

(* padded length: exactly max(width,1) characters = width-1 padding characters then the code
   point; chars[256] suffices for every width; no decode error, abort or ValueError *)
Theorem C18_char_padded_length : forall w s v width pad l,
  1 <= w -> in_range w s v -> 0 <= pad <= 127 ->
  uchar_to_unicode_b true w s v width pad = CText l ->
  Z.of_nat (length l) = Z.max width 1 /\ last l 0 = v /\ 0 <= v <= 1114111 /\
  firstn (Z.to_nat (width - 1)) l = repeat pad (Z.to_nat (width - 1)).
Proof. exact char_bytes_length. Qed.
Print Assumptions C18_char_padded_length.

Theorem C18_char_bytes_safe : forall w s v width pad,
  1 <= w -> in_range w s v -> 0 <= pad <= 127 ->
  uchar_to_unicode_b true w s v width pad <> CBufferOverflow /\
  uchar_to_unicode_b true w s v width pad <> CUnicodeDecodeError /\
  uchar_to_unicode_b true w s v width pad <> CAbort /\
  uchar_to_unicode_b true w s v width pad <> CValueError.
Proof. exact char_bytes_safe. Qed.
Print Assumptions C18_char_bytes_safe.

(* non-vacuity of the byte-level statements: first/last code point of every encoding length, the
   widest padding the buffer path takes (250 + 4 bytes), and the overlong form C0 80 rejected *)
Example C18_utf8_nonvacuous :
  utf8_enc_c 2047 = [223; 191] /\ utf8_enc_c 2048 = [224; 160; 128] /\
  utf8_enc_c 65535 = [239; 191; 191] /\ utf8_enc_c 65536 = [240; 144; 128; 128] /\
  utf8_enc_c 1114111 = [244; 143; 191; 191] /\
  utf8_decode (enc2 2048) = None /\ utf8_decode [237; 160; 128] = None /\
  uchar_to_unicode_b true 32 true 2048 3 32 = CText [32; 32; 2048] /\
  uchar_to_unicode_b true 32 true 1114111 251 48 = CText (repeat 48 250 ++ [1114111]) /\
  uchar_to_unicode_b true 32 true 1114111 252 48 = CText (repeat 48 251 ++ [1114111]).
Proof. vm_compute. intuition congruence. Qed.

(* the three tables as written in Cython/Utility/TypeConversion.c (Gen/Gen_IntFmt.v is regenerated
   from the source text on every run) are the tables of the model *)
Theorem C18_tables_match_source :
  c_DIGIT_PAIRS_10 = DIGIT_PAIRS_10 /\ c_DIGIT_PAIRS_8 = DIGIT_PAIRS_8 /\ c_DIGITS_HEX = DIGITS_HEX.
Proof. exact c_tables_eq. Qed.
Print Assumptions C18_tables_match_source.

(* non-vacuity: INT64_MIN in octal (22 digits + sign in the 26-byte buffer), zero padding of a
   negative int, upper-case hex of the largest uint64 *)
Example C18_nonvacuous :
  in_range 64 true (-9223372036854775808) /\
  cint_to_unicode 64 true (-9223372036854775808) 0 32 111 =
    Text [45;49;48;48;48;48;48;48;48;48;48;48;48;48;48;48;48;48;48;48;48;48;48] /\
  cint_to_unicode 32 true (-5) 5 48 100 = Text [45;48;48;48;53] /\
  cint_to_unicode 32 true (-5) 5 32 100 = Text [32;32;32;45;53] /\
  cint_to_unicode 8 true (-128) 0 32 111 = Text [45;50;48;48] /\
  py_format_int 18446744073709551615 0 32 88 = [70;70;70;70;70;70;70;70;70;70;70;70;70;70;70;70].
Proof. unfold in_range. vm_compute. intuition congruence. Qed.

(* ------------------------------------------------------------------------------------------------
   f-string assembly (Model/M_FStr.v): an f-string is a list of parts, literal | placeholder(operand,
   conversion, spec).  The compiler rewrites the list (ConstantFolding: constant operands, empty specs,
   literal merging, 0/1/2-part shapes; type analysis: plain formatting of a str name; FinalOptimizePhase:
   repeated formatted values become CloneNodes of the first one, keyed by (name, c_format_spec,
   format_spec node, conversion or s)).
   For EVERY part list, every formatting function fmt of the running interpreter (the text of
   format(conv(x), spec)), every nested-spec valuation and every assignment of static classes to the
   variables -- given only: an integer constant formats as its digits, a plainly formatted string
   literal is itself, and format(x, "") = str(x) for values of builtin types -- the rewritten list
   produces CPython's text, and the sequence of formatting calls on generic objects (the calls that
   run user code: __format__ / __repr__ / __str__) is unchanged. *)
Theorem C18_fstring_rewrites_preserve_text_and_calls :
  forall (fmt : fop -> conv -> text -> text) (dyn : nat -> text) (cls : nat -> vclass),
    (forall t c, fmt (FInt t) c nil = t) ->
    (forall t c, plain c = true -> fmt (FStr t) c nil = t) ->
    (forall v, cls v <> KObj -> fmt (FVar v) CvNone nil = fmt (FVar v) CvS nil) ->
    forall ps, Forall (wf_part cls) ps ->
      shape_text fmt dyn (optimise kflags_real ps) = ref_text fmt dyn ps /\
      shape_events dyn (optimise kflags_real ps) = ref_events dyn ps.
Proof. exact optimise_correct. Qed.
Print Assumptions C18_fstring_rewrites_preserve_text_and_calls.

(* the same for a nested format spec inside a value of a de-duplicated f-string (not visited by the late pass) *)
Theorem C18_fstring_nested_spec_rewrites_preserve_text_and_calls :
  forall (fmt : fop -> conv -> text -> text) (dyn : nat -> text) (cls : nat -> vclass),
    (forall t c, fmt (FInt t) c nil = t) ->
    (forall t c, plain c = true -> fmt (FStr t) c nil = t) ->
    (forall v, cls v <> KObj -> fmt (FVar v) CvNone nil = fmt (FVar v) CvS nil) ->
    forall ps, Forall (wf_part cls) ps ->
      shape_text fmt dyn (optimise_inner ps) = ref_text fmt dyn ps /\
      shape_events dyn (optimise_inner ps) = ref_events dyn ps.
Proof. exact optimise_inner_correct. Qed.
Print Assumptions C18_fstring_nested_spec_rewrites_preserve_text_and_calls.

(* the de-duplication key determines the text: two different positions with equal keys format the
   same variable with the same conversion (up to none = s) and no spec *)
Theorem C18_fstring_dedup_key_determines_text :
  forall (fmt : fop -> conv -> text -> text) (dyn : nat -> text) (cls : nat -> vclass),
    (forall v, cls v <> KObj -> fmt (FVar v) CvNone nil = fmt (FVar v) CvS nil) ->
    forall i j n m k k', i <> j -> wf_node cls n -> wf_node cls m ->
      node_key kflags_real i n = Some k -> node_key kflags_real j m = Some k' -> key_eqb k k' = true ->
      nt0 fmt dyn n = nt0 fmt dyn m.
Proof. exact key_sound. Qed.
Print Assumptions C18_fstring_dedup_key_determines_text.

(* literal merging leaves no empty literal and no two adjacent literals *)
Theorem C18_fstring_literals_merged : forall ps, merged (fold ps).
Proof. intro ps. exact (merge_merged (map fold_part ps)). Qed.
Print Assumptions C18_fstring_literals_merged.

(* the key WITHOUT the conversion character is wrong: f"{s!r}={s}|" with a str argument repeats the repr
   (all hypotheses of the theorem above hold for the witness) *)
Theorem C18_fstring_key_without_conversion_refuted :
  Forall (wf_part w_cls_str) w_parts_conv /\
  (forall t c, w_fmt (FInt t) c nil = t) /\ (forall t c, plain c = true -> w_fmt (FStr t) c nil = t) /\
  (forall v, w_cls_str v <> KObj -> w_fmt (FVar v) CvNone nil = w_fmt (FVar v) CvS nil) /\
  shape_text w_fmt w_dyn (optimise (mk_kflags false true) w_parts_conv) <> ref_text w_fmt w_dyn w_parts_conv.
Proof. exact key_without_conversion_refuted. Qed.
Print Assumptions C18_fstring_key_without_conversion_refuted.

(* de-duplicating generic objects is wrong: a __format__ call disappears *)
Theorem C18_fstring_object_dedup_refuted :
  Forall (wf_part w_cls_obj) w_parts_obj /\
  shape_events w_dyn (optimise (mk_kflags true false) w_parts_obj) <> ref_events w_dyn w_parts_obj.
Proof. exact object_dedup_refuted. Qed.
Print Assumptions C18_fstring_object_dedup_refuted.

(* FINDING padded_c_format_in_join_kind_ignored: with the test  c_format_spec != 'c'  (join_kind false)
   JoinedStrNode takes every formatted C number whose c_format_spec is not exactly c for ASCII; a padded
   3c / 03c value is not.  Full statement (false for that test): every character of the joined text is
   <= max_char (join_kind ...).  Witness f"{v:3c}|{v:3c}|x" with v = 0x20AC: the result is allocated for
   ASCII.  ExprNodes.py in /repo has the repaired test  .endswith('c')  (join_kind true). *)
Theorem C18_fstring_join_kind_padded_c_refuted :
  exists c, In c (concat w_texts_kind) /\ N.ltb (max_char (join_kind false w_nodes_kind w_texts_kind)) c = true.
Proof. exact padded_c_kind_refuted. Qed.
Print Assumptions C18_fstring_join_kind_padded_c_refuted.

Example C18_fstring_nonvacuous :
  optimise kflags_real
    [PLit [97%N]; PPh (OStr nil) CvNone SNone; PLit [98%N]; PPh (OVar 0 KStrOpt) CvNone SNone;
     PPh (OVar 0 KStrOpt) CvR (SLit nil false); PPh (OVar 0 KStrOpt) CvS SNone; PPh (OVar 0 KStrOpt) CvR SNone;
     PPh (OVar 1 KObj) CvNone SNone; PPh (OVar 1 KObj) CvNone SNone] =
  ShJoin [NLit [97%N; 98%N]; NUni 0; NFmt (OVar 0 KStrOpt) CvR None SNone; NClone 1; NClone 2;
          NFmt (OVar 1 KObj) CvNone None SNone; NFmt (OVar 1 KObj) CvNone None SNone].
Proof. reflexivity. Qed.
