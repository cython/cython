(* C08 -- C complex arithmetic matches Python complex.
   Only statements; proofs live in Proof/P_Complex.v.  Doubles are spec_float values (binary64
   SpecFloat operations); "py_" definitions transcribe CPython 3.12 Objects/complexobject.c. *)
From Coq Require Import ZArith Bool List SpecFloat.
From CyVerif Require Import Model.M_FloatOps Model.M_Complex Proof.P_Complex.
Import ListNotations.
Open Scope Z_scope.

(* ===== + - * unary - conjugate ==  (struct helpers): CPython's results bit for bit, all doubles ===== *)
Theorem C08_sum_same : forall a b, c_sum a b = py_c_sum a b.
Proof. exact sum_same. Qed.
Print Assumptions C08_sum_same.

Theorem C08_diff_same : forall a b, c_diff a b = py_c_diff a b.
Proof. exact diff_same. Qed.
Print Assumptions C08_diff_same.

Theorem C08_prod_same : forall a b, c_prod a b = py_c_prod a b.
Proof. exact prod_same. Qed.
Print Assumptions C08_prod_same.

Theorem C08_neg_conj_eq_same : forall a b,
  c_neg a = py_c_neg a /\ c_conj a = py_conj a /\ c_eq a b = py_eq a b.
Proof. intros a b. split; [apply neg_same | split; [apply conj_same | apply eq_same]]. Qed.
Print Assumptions C08_neg_conj_eq_same.

(* ===== division ===== *)
(* ZeroDivisionError (cdivision off) exactly when CPython raises it, for both variants of the helper *)
Theorem C08_zero_division_exact : forall fixed a b,
  div_node fixed false a b = DivZeroDiv <-> py_complex_div a b = PyZeroDiv.
Proof. exact zero_division_exact. Qed.
Print Assumptions C08_zero_division_exact.

(* FULL STATEMENT, false on the current tree (finding F10 and the b.imag == 0 shortcut):
     forall a b, res_match (div_node false false a b) (py_complex_div a b)                      *)

(* repaired __Pyx_c_quot (proposed_fixes/C08-struct_quot_reciprocal_rounding.diff): CPython's outcome for all operands *)
Theorem C08_quot_fixed_same : forall a b, res_match (div_node true false a b) (py_complex_div a b).
Proof. exact div_node_fixed_same. Qed.
Print Assumptions C08_quot_fixed_same.

(* current __Pyx_c_quot: 1j/(1-2.5j) differs in the last bit with all components finite and b's
   non-zero; 0j/(-5e-324j) is nan+nanj instead of -0+0j; (0-0j)/(1-0j) keeps the -0.0 *)
Theorem C08_quot_refuted :
  (exists a b, ~ res_match (div_node false false a b) (py_complex_div a b) /\
               is_fnz (re b) = true /\ is_fnz (im b) = true /\ is_fin (re a) = true /\ is_fin (im a) = true) /\
  (exists a b, div_node false false a b = DivVal (Cx S754_nan S754_nan) /\
               py_complex_div a b = PyVal (Cx (S754_zero true) (S754_zero false))) /\
  (exists a b, im b = S754_zero true /\ ~ res_match (div_node false false a b) (py_complex_div a b)).
Proof. exact quot_old_refuted. Qed.
Print Assumptions C08_quot_refuted.

(* what holds for the current helper: a real divisor (b.imag = +-0.0, b.real finite non-zero) and a
   dividend with finite non-zero parts give CPython's result; and outside the shortcut both sides
   select the same branch of Smith's method.  "partial": the remaining operands are findings. *)
Theorem C08_quot_real_divisor_partial : forall a b,
  feqb (im b) fzero = true -> is_fnz (re b) = true -> is_fnz (re a) = true -> is_fnz (im a) = true ->
  res_match (div_node false false a b) (py_complex_div a b).
Proof. exact div_node_old_real_divisor_partial. Qed.
Print Assumptions C08_quot_real_divisor_partial.

Theorem C08_quot_same_branch_partial : forall b,
  fgeb (fabs (re b)) (fabs (im b)) = fgeb (absf (re b)) (absf (im b)).
Proof. exact quot_same_branch. Qed.
Print Assumptions C08_quot_same_branch_partial.

(* ===== ** with small integral exponents (c_pow fast path vs complex_pow / c_powi) ===== *)
(* FULL STATEMENT, false: forall a n, -4 <= n <= 4 -> pow_match (c_pow a (n+0j)) (py_complex_pow a (n+0j)) *)

Theorem C08_pow0_same : forall a s1 s2,
  c_pow a (Cx (S754_zero s1) (S754_zero s2)) = PowVal c_1 /\
  py_complex_pow a (Cx (S754_zero s1) (S754_zero s2)) = PyVal c_1.
Proof. exact pow0_same. Qed.
Print Assumptions C08_pow0_same.

(* the exact difference for 1..4: CPython multiplies into r = 1+0j, checks for infinities and
   associates a**3 the other way round *)
Theorem C08_pow_small_relation : forall a s,
  (c_pow a (Cx fone (S754_zero s)) = PowVal a /\
   py_complex_pow a (Cx fone (S754_zero s)) = py_ret (py_c_prod c_1 a)) /\
  (c_pow a (Cx ftwo (S754_zero s)) = PowVal (c_prod a a) /\
   py_complex_pow a (Cx ftwo (S754_zero s)) = py_ret (py_c_prod c_1 (c_prod a a))) /\
  (c_pow a (Cx fthree (S754_zero s)) = PowVal (c_prod (c_prod a a) a) /\
   py_complex_pow a (Cx fthree (S754_zero s)) = py_ret (py_c_prod (py_c_prod c_1 a) (c_prod a a))) /\
  (c_pow a (Cx ffour (S754_zero s)) = PowVal (c_prod (c_prod a a) (c_prod a a)) /\
   py_complex_pow a (Cx ffour (S754_zero s)) = py_ret (py_c_prod c_1 (c_prod (c_prod a a) (c_prod a a)))).
Proof.
  intros a s. split; [|split; [|split]].
  - exact (pow_small_relation a s 1 _ ltac:(easy) eq_refl).
  - exact (pow_small_relation a s 2 _ ltac:(easy) eq_refl).
  - exact (pow_small_relation a s 3 _ ltac:(easy) eq_refl).
  - exact (pow_small_relation a s 4 _ ltac:(easy) eq_refl).
Qed.
Print Assumptions C08_pow_small_relation.

(* equal results when the product chain stays finite and non-zero in both components
   (1.0 * x = x needs validity of x: Lib/FloatMulOne.v, Flocq) *)
Theorem C08_pow_small_same_partial : forall a s,
  (nice a -> pow_match (c_pow a (Cx fone (S754_zero s))) (py_complex_pow a (Cx fone (S754_zero s)))) /\
  (nice (c_prod a a) ->
   pow_match (c_pow a (Cx ftwo (S754_zero s))) (py_complex_pow a (Cx ftwo (S754_zero s)))) /\
  (nice a -> has_inf (c_prod (c_prod a a) a) = false ->
   pow_match (c_pow a (Cx fthree (S754_zero s))) (py_complex_pow a (Cx fthree (S754_zero s)))) /\
  (nice (c_prod (c_prod a a) (c_prod a a)) ->
   pow_match (c_pow a (Cx ffour (S754_zero s))) (py_complex_pow a (Cx ffour (S754_zero s)))).
Proof.
  intros a s. split; [|split; [|split]].
  - exact (pow_small_same_partial a s 1 _ (or_introl eq_refl) eq_refl).
  - exact (pow_small_same_partial a s 2 _ (or_intror (or_introl eq_refl)) eq_refl).
  - exact (pow3_same_partial a s).
  - exact (pow_small_same_partial a s 4 _ (or_intror (or_intror eq_refl)) eq_refl).
Qed.
Print Assumptions C08_pow_small_same_partial.

(* (-0.0-1j)**1 = (-0-1j) vs (0-1j);  (1e308j)**2 = (-inf+0j) vs OverflowError;
   0j**-1 = (nan+nanj) vs ZeroDivisionError *)
Theorem C08_pow_small_refuted :
  (exists a, c_pow a (Cx fone fzero) = PowVal a /\
             py_complex_pow a (Cx fone fzero) = PyVal (Cx fzero (im a)) /\ re a = S754_zero true) /\
  (exists a, c_pow a (Cx ftwo fzero) = PowVal (Cx (S754_infinity true) fzero) /\
             py_complex_pow a (Cx ftwo fzero) = PyOverflow) /\
  (exists a, c_pow a (Cx fmone_ fzero) = PowVal (Cx S754_nan S754_nan) /\
             py_complex_pow a (Cx fmone_ fzero) = PyZeroDiv).
Proof. exact pow_small_refuted. Qed.
Print Assumptions C08_pow_small_refuted.

(* ===== conversion to and from Python complex ===== *)
(* struct variant (and the repaired C99 from_parts): Python -> C -> Python is the identity *)
Theorem C08_conversion_identity : forall fixed z,
  to_py (from_py false fixed z) = z /\ to_py (from_py true true z) = z.
Proof. intros fixed z. split; apply conv_identity; reflexivity. Qed.
Print Assumptions C08_conversion_identity.

(* FULL STATEMENT, false for the current C99 from_parts (x + y*I): forall z, from_py true false z = z *)
Theorem C08_from_parts_native_refuted :
  from_py true false (Cx fnzero fone) = Cx fzero fone /\
  from_py true false (Cx fzero (finf_ false)) = Cx S754_nan (finf_ false).
Proof. exact from_parts_native_refuted. Qed.
Print Assumptions C08_from_parts_native_refuted.

Theorem C08_from_parts_native_partial : forall z,
  is_fin (im z) = true -> re z <> S754_zero true -> from_py true false z = z.
Proof. exact from_parts_native_partial. Qed.
Print Assumptions C08_from_parts_native_partial.

(* ===== abs ===== *)
(* with hypot (C99 contract for infinities/NaN as hypotheses) the helper returns CPython's value,
   except that CPython raises OverflowError when the modulus of a finite value overflows *)
Theorem C08_abs_hypot_partial : forall hypot : F -> F -> F,
  (forall s y, hypot (S754_infinity s) y = S754_infinity false) ->
  (forall s x, hypot x (S754_infinity s) = S754_infinity false) ->
  (forall y, is_inf y = false -> hypot S754_nan y = S754_nan) ->
  (forall x, is_inf x = false -> hypot x S754_nan = S754_nan) ->
  forall z,
    py_abs hypot z = AbsVal (c_abs hypot true z) \/
    (py_abs hypot z = AbsOverflow /\ is_fin (re z) = true /\ is_fin (im z) = true /\
     is_fin (c_abs hypot true z) = false).
Proof. exact abs_hypot_same. Qed.
Print Assumptions C08_abs_hypot_partial.

(* the variant compiled against CPython >= 3.11 headers (no HAVE_HYPOT): sqrt(x*x + y*y) *)
Theorem C08_abs_naive_refuted : forall hypot : F -> F -> F,
  hypot fzero f1e308 = f1e308 ->
  py_abs hypot (Cx fzero f1e308) = AbsVal f1e308 /\
  c_abs hypot false (Cx fzero f1e308) = S754_infinity false.
Proof. exact abs_naive_refuted. Qed.
Print Assumptions C08_abs_naive_refuted.

Example C08_nonvacuous :
  nice (Cx fthree fseven) /\ nice (c_prod (Cx fthree fseven) (Cx fthree fseven)) /\
  feqb (im (Cx fthree fzero)) fzero = true /\ is_fnz (re (Cx fthree fzero)) = true /\
  div_node false false (Cx fone fseven) (Cx fthree fzero) <> DivZeroDiv /\
  div_node false false (Cx fone fseven) (Cx fzero fnzero) = DivZeroDiv.
Proof. vm_compute. repeat split; discriminate. Qed.
