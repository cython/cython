(* C45 - Profiling and tracing events are balanced and well-nested.
   Statements; the proofs instantiate theorems of Proof/P_Trace.v (call trees; model in
   Model/M_Trace.v) and, in the second part, of Proof/P_TraceGen.v (the generated code of whole
   programs; model in Model/M_TraceGen.v).

   [ev_cy t fx lt n] = events the generated code emits for call tree n under tool t
   (Legacy = c_profilefunc/c_tracefunc, Monitoring = sys.monitoring C-API); fx=false is the code
   as it is, fx=true the repaired placement of the return event; lt = line events on.
   [parse evs [] [] = Some forest] = evs is a Dyck word with matching function ids, every
   line/raise event names the innermost open activation, and forest is its nesting.

   FULL STATEMENT (false for the code as it is, see C45_early_return_refuted):
     forall t lt n, parse (ev_cy t false lt n) [] [] = Some [shape_of n].
   It holds for every call tree in which no `return` statement executes inside an open
   try/finally ([clean]), and for every call tree under the repaired placement. *)
From Coq Require Import List Bool Arith.
From CyVerif Require Import Model.M_Trace Proof.P_Trace Model.M_TraceGen Proof.P_TraceGen.
Import ListNotations.

(* balanced + matching ids + nesting = the call tree; code as it is, outside the finding class *)
Theorem C45_events_well_nested_partial : forall t lt n,
  clean n = true -> parse (ev_cy t false lt n) [] [] = Some [shape_of n].
Proof. intros t lt n H. apply events_well_nested. intros _. exact H. Qed.
Print Assumptions C45_events_well_nested_partial.

(* the same for ALL call trees with the repaired return-event placement *)
Theorem C45_events_well_nested_repaired : forall t lt n,
  parse (ev_cy t true lt n) [] [] = Some [shape_of n].
Proof. intros t lt n. apply events_well_nested. intros H; discriminate. Qed.
Print Assumptions C45_events_well_nested_repaired.

(* exactly one start and one end event per activation / generator resume segment *)
Theorem C45_one_start_one_end_partial : forall t lt n,
  clean n = true ->
  count_class CStart (ev_cy t false lt n) = size n /\ count_class CEnd (ev_cy t false lt n) = size n.
Proof. intros t lt n H. apply one_start_one_end_per_activation. intros _. exact H. Qed.
Print Assumptions C45_one_start_one_end_partial.

Theorem C45_one_start_one_end_repaired : forall t lt n,
  count_class CStart (ev_cy t true lt n) = size n /\ count_class CEnd (ev_cy t true lt n) = size n.
Proof. intros t lt n. apply one_start_one_end_per_activation. intros H; discriminate. Qed.
Print Assumptions C45_one_start_one_end_repaired.

(* sys.monitoring: the RAISE event of a raising activation comes after everything it did
   (all callee events) and immediately before its PY_UNWIND *)
Theorem C45_raise_event_placement : forall fx lt f s b,
  ev_cy Monitoring fx lt (Node f s b ERaise)
  = start_cy Monitoring s f ++ evs_cy Monitoring fx lt f b ++ [(KRaise, f); (KUnwind, f)].
Proof. exact raise_event_placement. Qed.
Print Assumptions C45_raise_event_placement.

(* legacy tool: no exception event is ever sent, and nothing but call/return without linetrace *)
Theorem C45_legacy_no_exception_event : forall fx lt n,
  count_class COther (ev_cy Legacy fx false n) = 0 /\
  (forall f, ~ In (KRaise, f) (ev_cy Legacy fx lt n)).
Proof. exact legacy_no_exception_event. Qed.
Print Assumptions C45_legacy_no_exception_event.

(* same (kind, function) sequence as CPython for the same call tree; documented differences:
   close() of a never-started generator ([started] excludes it, see C45_unstarted_close_differs),
   sys.monitoring reports throw()/close() as PY_RESUME instead of PY_THROW *)
Theorem C45_equal_cpython_legacy_partial : forall lt n,
  clean n = true -> started n = true -> ev_cy Legacy false lt n = ev_py Legacy lt n.
Proof. intros lt n H S. apply events_equal_cpython_legacy; [intros _; exact H|exact S]. Qed.
Print Assumptions C45_equal_cpython_legacy_partial.

Theorem C45_equal_cpython_legacy_repaired : forall lt n,
  started n = true -> ev_cy Legacy true lt n = ev_py Legacy lt n.
Proof. intros lt n S. apply events_equal_cpython_legacy; [intros H; discriminate|exact S]. Qed.
Print Assumptions C45_equal_cpython_legacy_repaired.

Theorem C45_equal_cpython_monitoring_partial : forall lt n,
  clean n = true -> started n = true ->
  ev_cy Monitoring false lt n = map throw_as_resume (ev_py Monitoring lt n).
Proof. intros lt n H S. apply events_equal_cpython_monitoring; [intros _; exact H|exact S]. Qed.
Print Assumptions C45_equal_cpython_monitoring_partial.

Theorem C45_cpython_events_well_nested : forall lt n,
  started n = true -> parse (ev_py Legacy lt n) [] [] = Some [shape_of n].
Proof. exact cpython_events_well_nested. Qed.
Print Assumptions C45_cpython_events_well_nested.

(* the finding: `return` inside try/finally.  Witnesses replayed on the real code by props/C45.py
   (early_programs): two end events; callee of the finally body outside the activation; a line
   event after the return event; none of it with the repaired placement. *)
Theorem C45_early_return_refuted :
  parse (ev_cy Legacy false false w_double) [] [] = None /\
  count_class CEnd (ev_cy Legacy false false w_double) = 2 /\
  (exists sh, parse (ev_cy Legacy false false w_misnest) [] [] = Some sh /\ sh <> [shape_of w_misnest]) /\
  parse (ev_cy Legacy false true w_line) [] [] = None /\
  parse (ev_cy Legacy true false w_double) [] [] = Some [shape_of w_double] /\
  parse (ev_cy Legacy true false w_misnest) [] [] = Some [shape_of w_misnest] /\
  parse (ev_cy Legacy true true w_line) [] [] = Some [shape_of w_line].
Proof. exact early_return_refuted. Qed.
Print Assumptions C45_early_return_refuted.

Theorem C45_unstarted_close_differs :
  ev_cy Legacy false false w_unstarted = [(KCall, 0); (KCall, 1); (KRet, 1); (KRet, 0)] /\
  ev_py Legacy false w_unstarted = [(KCall, 0); (KRet, 0)].
Proof. exact unstarted_close_differs. Qed.
Print Assumptions C45_unstarted_close_differs.

(* Second part: code-generation level (Model/M_TraceGen.v, Proof/P_TraceGen.v).
   A program is a list of functions (kind, body, tflag); kinds: KFunc (def / cdef / cpdef /
   lambda / method: FuncDefNode) and KGen inlined comp
   (generator, coroutine, async generator, generator expression - real, or inlined into
   any/all/sorted/list/set/dict/str.join: GeneratorBodyDefNode).  [run g fx fn fuel o] = tokens of
   the trace macros the generated C executes for the oracle o (what every call, condition,
   iterator and resume did); g = the guard of the fall-off-the-end return event, all_true for the
   code as it is.  An execution of a program = a tree [xt] of C-level activations (segments);
   [word] = the events it emits.  [complete] only asks that every node names a function and a
   segment that ran to its C return (decided from the outcome, not from the tokens).
   [cvar] = which variant of the generated code (as_is; wrap_fixed; g_not_inlined = the seeded
   guard). *)

(* THE BALANCE THEOREM for programs: every execution of every program emits a Dyck word with
   matching ids, line events inside their activation, empty stack at the end; the nesting is the
   execution tree; exactly one start and one end event per activation / generator segment.
   For every code variant g whose fall-off guard holds for every kind; prog_ok g fx asks
   (a) tflag -> end of body unreachable, (b) fx or no return inside try/finally (finding
   return_inside_try_finally), (c) no cpdef function entered through its Python wrapper unless the
   wrapper's second unwind event is gone (finding cpdef_wrapper_raise_double_return). *)
Theorem C45_program_events_balanced : forall g fx prog x t lt,
  (forall k, cv_fall g k = true) -> prog_ok g fx prog = true -> complete g fx prog x = true ->
  exists n, to_node g fx prog x = Some n /\
            word g fx t lt prog x = ev_cy t fx lt n /\
            parse (word g fx t lt prog x) [] [] = Some [shape_of n] /\
            count_class CStart (word g fx t lt prog x) = size n /\
            count_class CEnd (word g fx t lt prog x) = size n.
Proof. exact program_events_balanced. Qed.
Print Assumptions C45_program_events_balanced.

(* the code as it is, outside the two finding classes *)
Theorem C45_program_events_balanced_partial : forall prog x t lt,
  prog_ok as_is false prog = true -> complete as_is false prog x = true ->
  exists n, to_node as_is false prog x = Some n /\
            parse (word as_is false t lt prog x) [] [] = Some [shape_of n].
Proof.
  intros prog x t lt Hp Hc.
  destruct (program_events_balanced as_is false prog x t lt (fun _ => eq_refl) Hp Hc)
    as (n & A & _ & B & _).
  exists n. split; assumption.
Qed.
Print Assumptions C45_program_events_balanced_partial.

(* each segment reads as a clean M_Trace node *)
Theorem C45_program_node : forall g fx prog,
  (forall k, cv_fall g k = true) -> prog_ok g fx prog = true ->
  forall x, complete g fx prog x = true ->
    exists n, to_node g fx prog x = Some n /\ clean n = true /\
              forall t lt, word g fx t lt prog x = ev_cy t fx lt n.
Proof. intros g fx prog Hg Hp. exact (proj1 (program_node g fx prog Hg Hp)). Qed.
Print Assumptions C45_program_node.

(* the fall-off event is needed for EVERY kind: a guard that is false for one kind leaves the
   start event of a one-statement function of that kind unmatched *)
Theorem C45_falloff_guard_necessary : forall g k,
  cv_fall g k = false -> cv_wrap2 g = false ->
  prog_ok g false (w_prog k) = true /\ complete g false (w_prog k) w_tree = true /\
  word g false Legacy false (w_prog k) w_tree = [(KCall, 0)] /\
  well_nested (word g false Legacy false (w_prog k) w_tree) = false.
Proof. exact falloff_guard_necessary. Qed.
Print Assumptions C45_falloff_guard_necessary.

(* "if tracing and not self.is_inlined and not self.body.is_terminator" on list(genexpr) *)
Theorem C45_not_inlined_guard_refuted :
  prog_ok g_not_inlined false s_prog = true /\
  complete g_not_inlined false s_prog s_tree = true /\
  word g_not_inlined false Legacy false s_prog s_tree = [(KCall, 0); (KCall, 1); (KRet, 0)] /\
  parse (word g_not_inlined false Legacy false s_prog s_tree) [] [] = None /\
  word as_is false Legacy false s_prog s_tree = [(KCall, 0); (KCall, 1); (KRet, 1); (KRet, 0)] /\
  parse (word as_is false Legacy false s_prog s_tree) [] [] = Some [Sh 0 [Sh 1 []]].
Proof. exact seeded_guard_refuted. Qed.
Print Assumptions C45_not_inlined_guard_refuted.

(* finding: a cpdef function that raises, called through its Python wrapper: call, return, return *)
Theorem C45_cpdef_wrapper_double_unwind_refuted :
  complete as_is false c_prog c_tree = true /\
  word as_is false Legacy false c_prog c_tree = [(KCall, 0); (KRet, 0); (KRet, 0)] /\
  parse (word as_is false Legacy false c_prog c_tree) [] [] = None /\
  prog_ok as_is false c_prog = false /\
  prog_ok wrap_fixed false c_prog = true /\
  word wrap_fixed false Legacy false c_prog c_tree = [(KCall, 0); (KRet, 0)] /\
  parse (word wrap_fixed false Legacy false c_prog c_tree) [] [] = Some [Sh 0 []].
Proof. exact cpdef_wrapper_double_unwind_refuted. Qed.
Print Assumptions C45_cpdef_wrapper_double_unwind_refuted.

(* the compiler's is_terminator flag is sound: such a body never completes normally, so the
   guarded fall-off code is never needed when it is omitted *)
Theorem C45_terminator_sound : forall fx gen n d b o,
  is_term b = true -> snd (fst (exec_b fx gen n d b o)) <> ONormal.
Proof. exact term_sound. Qed.
Print Assumptions C45_terminator_sound.

(* an inlined generator expression is ONE C-level activation *)
Theorem C45_inlined_single_segment : forall g fx fn n o c,
  f_kind fn = KGen true c -> count_yield (fst (run g fx fn n o)) = 0.
Proof. exact inlined_single_segment. Qed.
Print Assumptions C45_inlined_single_segment.

(* the fall-off macro is present in the generated text iff guard and not is_terminator (static tie) *)
Theorem C45_epilogue_fall_iff : forall g k tf,
  In EFall (epilogue g k tf) <-> (cv_fall g k = true /\ tf = false).
Proof. exact epilogue_fall_iff. Qed.
Print Assumptions C45_epilogue_fall_iff.

(* f0 calls a generator segment that yields, then f1 which raises into f0's handler, returns *)
Example C45_nonvacuous :
  let n := Node 0 SCall
             (ILine 3 (ICall (Node 2 SGenStart (ICall (Node 1 SCall INil EReturn) INil) EYield)
               (ICall (Node 1 SCall INil ERaise) (ICall (Node 2 SThrow INil ERaise) INil)))) EReturn in
  clean n = true /\ started n = true /\ size n = 5 /\
  ev_cy Legacy false true n =
    [(KCall, 0); (KLine 3, 0); (KCall, 2); (KCall, 1); (KRet, 1); (KRet, 2); (KCall, 1); (KRet, 1);
     (KCall, 2); (KRet, 2); (KRet, 0)] /\
  parse (ev_cy Monitoring false true n) [] [] = Some [shape_of n].
Proof. repeat split; reflexivity. Qed.
