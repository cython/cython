(* C15 — Indexing and slicing of builtin sequences match CPython.
   Only statements; proofs live in Proof/P_Index.v.  n is the container length, v the C value of
   an index expression of a C integer type (width tw, signedness ts), cn = "the index is a
   non-negative literal"; `run n access` is what the helper's action amounts to (element k /
   IndexError / out-of-bounds memory access), `py_index n v` is CPython's o[v].
   fx / fc / fl select, at the three places the _refuted theorems are about, the text with the
   repair (true) or without it (false); which one /repo has is the flag's default in props/C15.py. *)
From Coq Require Import ZArith Bool.
From CyVerif Require Import Lib.CInt Model.M_Index Proof.P_Index.
Open Scope Z_scope.

(* o[i] under the default directives = CPython, for every static/run-time base type, every
   length, every integer type of the index and every value (PY_SSIZE_T_MIN, values that do not
   fit Py_ssize_t included): same element or IndexError, never an out-of-bounds access.
   (list/tuple subclasses through an object-typed variable: only with the repair fx.) *)
Theorem C15_getitem_eq : forall fx k tw ts cn n v,
  0 <= n <= SSZ_MAX -> idx_ok tw ts cn v -> (k = KObjSeqPy -> fx = true) ->
  run n (getitem_int fx k tw ts n v (wa_flag true ts cn) true) = py_index n v.
Proof. exact getitem_eq. Qed.
Print Assumptions C15_getitem_eq.

Theorem C15_setitem_eq : forall fx k tw ts cn n v,
  0 <= n <= SSZ_MAX -> idx_ok tw ts cn v -> (k = KObjSeqPy -> fx = true) ->
  run n (setitem_int fx k tw ts n v (wa_flag true ts cn) true) = py_index n v.
Proof. exact setitem_eq. Qed.
Print Assumptions C15_setitem_eq.

Theorem C15_delitem_eq : forall fx k tw ts cn n v,
  0 <= n <= SSZ_MAX -> idx_ok tw ts cn v -> (k = KObjSeqPy -> fx = true) ->
  run n (delitem_int fx k tw ts n v (wa_flag true ts cn)) = py_index n v.
Proof. exact delitem_eq. Qed.
Print Assumptions C15_delitem_eq.

(* every wraparound/boundscheck combination, on the indices the directives leave defined
   (boundscheck off: in-range index promised) and Pythonic (wraparound off: non-negative) *)
Theorem C15_getitem_directives : forall fx k tw ts n v wa bc,
  0 <= n <= SSZ_MAX -> 1 <= tw -> in_range tw ts v -> (k = KObjSeqPy -> fx = true) ->
  defined wa bc n v -> pythonic wa v ->
  run n (getitem_int fx k tw ts n v wa bc) = py_index n v.
Proof. intros. apply getitem_int_gen; assumption. Qed.
Print Assumptions C15_getitem_directives.

Theorem C15_setitem_directives : forall fx k tw ts n v wa bc,
  0 <= n <= SSZ_MAX -> 1 <= tw -> in_range tw ts v -> (k = KObjSeqPy -> fx = true) ->
  defined wa bc n v -> pythonic wa v ->
  run n (setitem_int fx k tw ts n v wa bc) = py_index n v.
Proof. intros. apply setitem_int_gen; assumption. Qed.
Print Assumptions C15_setitem_directives.

(* i + n of the negative-index wrap never overflows Py_ssize_t (the model wraps explicitly) *)
Theorem C15_index_add_no_overflow : forall n i,
  0 <= n <= SSZ_MAX -> in_ssz i -> i < 0 -> in_ssz (i + n) /\ ssz (i + n) = i + n.
Proof. exact index_add_no_overflow. Qed.
Print Assumptions C15_index_add_no_overflow.

(* fast_access_in_bounds (memory-safety share of C36): with boundscheck on, for any wraparound
   flag and any index value, an item read/written directly by the fast path is item 0 <= j < n;
   deletion has no direct-access path *)
Theorem C15_fast_access_in_bounds : forall fx k tw ts n v wa j,
  0 <= n <= SSZ_MAX -> 1 <= tw -> in_range tw ts v ->
  (fast_index (getitem_int fx k tw ts n v wa true) = Some j -> 0 <= j < n) /\
  (fast_index (setitem_int fx k tw ts n v wa true) = Some j -> 0 <= j < n) /\
  fast_index (delitem_int fx k tw ts n v wa) = None.
Proof.
  intros fx k tw ts n v wa j Hn Hw Hv.
  split; [|split]; [apply getitem_fast_in_bounds | apply setitem_fast_in_bounds | apply delitem_no_fast];
    assumption.
Qed.
Print Assumptions C15_fast_access_in_bounds.

(* CPython's own subscript code (transcribed) is the mathematical py_index *)
Theorem C15_cpython_subscript_spec : forall n i,
  0 <= n <= SSZ_MAX -> cpython_subscript n i = py_index n i.
Proof. exact cpython_subscript_eq. Qed.
Print Assumptions C15_cpython_subscript_spec.

(* FINDING seq_subclass_double_wraparound: through the sq_item/sq_ass_item path a list/tuple
   subclass gets the length added twice: o[-2] on a 1-element LSub is element 0 *)
Theorem C15_seq_subclass_double_wrap_refuted :
  exists n v, 0 <= n <= SSZ_MAX /\ idx_ok 64 true false v /\
    run n (getitem_int false KObjSeqPy 64 true n v (wa_flag true true false) true) = Elem 0 /\
    run n (setitem_int false KObjSeqPy 64 true n v (wa_flag true true false) true) = Elem 0 /\
    run n (delitem_int false KObjSeqPy 64 true n v (wa_flag true true false)) = Elem 0 /\
    py_index n v = IndexError.
Proof. exact seq_subclass_double_wrap_refuted. Qed.
Print Assumptions C15_seq_subclass_double_wrap_refuted.

(* base[start:stop] = CPython's PySlice_Unpack + PySlice_AdjustIndices selection for every
   static base type, length and absent / C / None / int-object bounds -- with the repaired
   __Pyx_crop_slice (fc) for list/tuple and the clamping coercion (fl) for objects beyond
   Py_ssize_t.  Without them (fc = fl = false, no side conditions) the statement is false: see
   the two _refuted theorems. *)
Theorem C15_slice_eq : forall fc fl k n bs be,
  0 <= n <= SSZ_MAX -> bound_ok bs -> bound_ok be ->
  (fl = true \/ (bound_fits bs /\ bound_fits be)) ->
  (fc = true \/ (k <> KList /\ k <> KTuple)) ->
  slice_node fc fl k n bs be = py_slice n bs be.
Proof. intros. apply slice_node_eq; tauto. Qed.
Print Assumptions C15_slice_eq.

(* without either repair, outside the two finding classes *)
Theorem C15_slice_eq_current_partial : forall k n bs be,
  0 <= n <= SSZ_MAX -> bound_ok bs -> bound_ok be -> bound_fits bs -> bound_fits be ->
  ((k = KList \/ k = KTuple) -> ~ crop_overflows n (py_unpack_start bs) (py_unpack_stop be)) ->
  slice_node false false k n bs be = py_slice n bs be.
Proof. intros. apply slice_node_eq; tauto. Qed.
Print Assumptions C15_slice_eq_current_partial.

(* __Pyx_PyUnicode_Substring alone: correct as it is for all C bounds *)
Theorem C15_unicode_substring_eq : forall n a b,
  0 <= n <= SSZ_MAX -> in_ssz a -> in_ssz b ->
  unicode_substring n a b = py_slice n (BCInt a) (BCInt b).
Proof. exact unicode_substring_eq. Qed.
Print Assumptions C15_unicode_substring_eq.

Theorem C15_setslice_eq : forall fl k n bs be,
  0 <= n <= SSZ_MAX -> bound_ok bs -> bound_ok be ->
  (fl = true \/ (bound_fits bs /\ bound_fits be)) ->
  setslice_node fl k n bs be = py_slice_pos n bs be.
Proof. exact setslice_node_eq. Qed.
Print Assumptions C15_setslice_eq.

(* slice memory safety for the repaired helper: copied items are items of the array *)
Theorem C15_slice_in_bounds : forall fl k n bs be f c,
  0 <= n <= SSZ_MAX -> bound_ok bs -> bound_ok be ->
  (fl = true \/ (bound_fits bs /\ bound_fits be)) ->
  slice_node true fl k n bs be = Sel f c -> 0 <= f /\ 0 <= c /\ f + c <= n.
Proof. exact slice_in_bounds. Qed.
Print Assumptions C15_slice_in_bounds.

(* FINDING crop_slice_length_overflow: t[PY_SSIZE_T_MAX:PY_SSIZE_T_MIN] on a typed list/tuple:
   `stop - start` overflows to n + 1 > 0 and n + 1 items are copied from ob_item + MAX *)
Theorem C15_crop_slice_refuted :
  exists n a b, 0 <= n <= SSZ_MAX /\ in_ssz a /\ in_ssz b /\
    listtuple_getslice false n a b = SliceOOB SSZ_MAX (n + 1) /\
    py_slice n (BCInt a) (BCInt b) = Sel 0 0.
Proof. exact crop_slice_refuted. Qed.
Print Assumptions C15_crop_slice_refuted.

(* ... and exactly on that class, for every length and bounds *)
Theorem C15_crop_slice_overflow_class : forall n a b,
  0 <= n <= SSZ_MAX -> in_ssz a -> in_ssz b -> crop_overflows n a b ->
  exists f c, listtuple_getslice false n a b = SliceOOB f c.
Proof. exact listtuple_getslice_current_overflow. Qed.
Print Assumptions C15_crop_slice_overflow_class.

(* FINDING typed_slice_object_bound_overflow: s[-2**63-1 : 2**63] on a typed str (list, tuple,
   bytes, bytearray; also slice assignment/deletion): OverflowError where CPython clamps *)
Theorem C15_typed_slice_bound_overflow_refuted :
  exists k n bs be, 0 <= n <= SSZ_MAX /\ bound_ok bs /\ bound_ok be /\
    slice_node true false k n bs be = OverflowError /\
    setslice_node false KList n bs be = OverflowError /\
    py_slice n bs be = Sel 0 n.
Proof. exact typed_slice_bound_overflow_refuted. Qed.
Print Assumptions C15_typed_slice_bound_overflow_refuted.

(* non-vacuity: ordinary operands satisfy the hypotheses and exercise wrap, bounds and clamping *)
Example C15_nonvacuous :
  0 <= 5 <= SSZ_MAX /\ idx_ok 64 true false (-2) /\ idx_ok 64 true false SSZ_MIN /\
  run 5 (getitem_int false KList 64 true 5 (-2) (wa_flag true true false) true) = Elem 3 /\
  run 5 (getitem_int false KList 64 true 5 SSZ_MIN (wa_flag true true false) true) = IndexError /\
  run 5 (setitem_int false KByteArray 32 false 5 4 (wa_flag true false false) true) = Elem 4 /\
  fast_index (getitem_int false KStr 64 true 5 (-5) true true) = Some 0 /\
  bound_ok (BCInt (-3)) /\ bound_fits (BPyInt 100) /\
  slice_node false false KList 5 (BCInt (-3)) (BPyInt 100) = Sel 2 3 /\
  slice_node false false KStr 5 BAbsent (BCInt (-1)) = Sel 0 4 /\
  ~ crop_overflows 5 (-3) 100.
Proof. unfold idx_ok, in_range, bound_ok, bound_fits, in_ssz, crop_overflows. vm_compute. intuition congruence. Qed.
