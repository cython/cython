(* C13 - Builtin call and method optimisations preserve semantics.
   Only statements; models in Model/M_Builtins.v, proofs in Proof/P_Builtins.v.
   pyx_* = the helper as written in the tree, py_* = Python's semantics written independently.
   Helpers not named here are plain C-API forwarding and are covered differentially only. *)
From Coq Require Import ZArith List Bool.
From CyVerif Require Import Lib.CInt Model.M_Builtins Proof.P_Builtins.
Import ListNotations.
Open Scope Z_scope.

(* 1. list.pop(i) (__Pyx_PyList_PopIndex macro + __Pyx__PyList_PopIndex): every list, every value
   of 'allocated', every C index value: same element, same remaining list, same IndexError *)
Theorem C13_pop_index_eq : forall (A : Type) (l : list A) alloc v,
  zlen l <= ssize_max -> pyx_list_popindex_macro l alloc v = py_list_pop l v.
Proof. intros A. exact pop_index_macro_eq. Qed.
Print Assumptions C13_pop_index_eq.

Theorem C13_pop_index_error_iff : forall (A : Type) (l : list A) alloc v,
  zlen l <= ssize_max ->
  (pyx_list_popindex_macro l alloc v = Raise IndexError <-> ~ (- zlen l <= v < zlen l)).
Proof. intros A. exact pop_index_error_iff. Qed.
Print Assumptions C13_pop_index_error_iff.

(* list.pop() (__Pyx_PyList_Pop) *)
Theorem C13_pop_eq : forall (A : Type) (l : list A) alloc,
  0 <= alloc -> pyx_list_pop l alloc = py_list_pop l (-1).
Proof. intros A. exact pop_eq. Qed.
Print Assumptions C13_pop_eq.

(* 2. bytes.startswith/endswith (__Pyx_PyBytes_SingleTailmatch).
   fixed = false is the length test written `start + sub_len <= end`, fixed = true the test
   `sub_len <= end - start` that /repo carries since the repair of finding
   bytes_tailmatch_start_plus_sublen_overflow.  The full statement for the first form is FALSE:
     forall s sub start stop dir, pyx_bytes_single false s sub start stop dir = Ok (py_tailmatch ...) *)
Theorem C13_bytes_tailmatch_refuted :
  exists s sub start stop dir,
    ssize_min <= start <= ssize_max /\ ssize_min <= stop <= ssize_max /\
    pyx_bytes_single false s sub start stop dir = UB /\
    py_tailmatch s sub start stop dir = false.
Proof. exact bytes_tailmatch_refuted. Qed.
Print Assumptions C13_bytes_tailmatch_refuted.

(* the first form, under the explicit complement of the finding class *)
Theorem C13_bytes_tailmatch_eq_partial : forall s sub start stop dir,
  zlen s + zlen sub <= ssize_max -> ssize_min <= start -> start + zlen sub <= ssize_max ->
  pyx_bytes_single false s sub start stop dir = Ok (py_tailmatch s sub start stop dir).
Proof. exact bytes_tailmatch_eq_partial. Qed.
Print Assumptions C13_bytes_tailmatch_eq_partial.

(* the second form: all start/end, both directions, no UB *)
Theorem C13_bytes_tailmatch_fixed_eq : forall s sub start stop dir,
  pyx_bytes_single true s sub start stop dir = Ok (py_tailmatch s sub start stop dir).
Proof. exact bytes_tailmatch_fixed_eq. Qed.
Print Assumptions C13_bytes_tailmatch_fixed_eq.

(* py_tailmatch is the test on the Python slice whenever the window is well formed *)
Theorem C13_tailmatch_window_is_slice : forall (s : list Z) start stop,
  let n := zlen s in
  let sa := if start <? 0 then (if start + n <? 0 then 0 else start + n) else start in
  let ea := snd (py_slice_adjust n start stop) in
  sa <= ea -> py_slice s start stop = sub_at s sa (ea - sa).
Proof. exact py_slice_window. Qed.
Print Assumptions C13_tailmatch_window_is_slice.

(* tuple of prefixes (bytes and str loops): first element that matches or raises decides *)
Theorem C13_tuple_loop_eq : forall (S : Type) (single : S -> res bool) subs,
  pyx_tuple_loop single subs = py_tuple_match single subs.
Proof. intros S. exact tuple_loop_eq. Qed.
Print Assumptions C13_tuple_loop_eq.

(* 3. b[start:stop].decode(...) (__Pyx_decode_c_bytes) and s[start:stop] (__Pyx_PyUnicode_Substring):
   the decoded/copied range is exactly Python's slice, for all start/stop in Z *)
Theorem C13_decode_c_bytes_range_eq : forall len start stop,
  0 <= len -> pyx_decode_c_bytes_range len start stop = py_slice_range len start stop.
Proof. exact decode_c_bytes_range_eq. Qed.
Print Assumptions C13_decode_c_bytes_range_eq.

Theorem C13_decode_c_bytes_range_in_bounds : forall len start stop o n,
  0 <= len -> pyx_decode_c_bytes_range len start stop = Some (o, n) -> 0 <= o /\ 0 < n /\ o + n <= len.
Proof. exact decode_c_bytes_range_in_bounds. Qed.
Print Assumptions C13_decode_c_bytes_range_in_bounds.

Theorem C13_substring_range_eq : forall len start stop,
  0 <= len -> pyx_substring_range len start stop = py_slice_range len start stop.
Proof. exact substring_range_eq. Qed.
Print Assumptions C13_substring_range_eq.

(* char* slices have no upper clipping (C semantics): equal only when stop lies inside the string *)
Theorem C13_decode_c_string_range_eq_partial : forall len start stop,
  0 <= len -> stop <= len ->
  pyx_decode_c_string_range len start stop = py_slice_range len start stop.
Proof. exact decode_c_string_range_eq_partial. Qed.
Print Assumptions C13_decode_c_string_range_eq_partial.

(* 4. abs() of a signed C integer: Python's value except at the most negative value, where it is
   OverflowError under overflowcheck=True and C undefined behaviour otherwise *)
Theorem C13_abs_c_eq : forall w ovf x,
  (w = 8 \/ w = 16 \/ w = 32 \/ w = 64) -> in_range w true x ->
  x <> min_int (if w <? 32 then 32 else w) true ->
  pyx_abs_c w ovf x = py_abs_c w x /\ pyx_abs_c w ovf x = Ok (Z.abs x).
Proof. intros w ovf x _. apply abs_c_eq. Qed.
Print Assumptions C13_abs_c_eq.

Theorem C13_abs_c_min : forall w,
  (w = 32 \/ w = 64) ->
  pyx_abs_c w true (min_int w true) = py_abs_c w (min_int w true) /\
  py_abs_c w (min_int w true) = Raise OverflowError /\
  pyx_abs_c w false (min_int w true) = UB.
Proof. exact abs_c_min. Qed.
Print Assumptions C13_abs_c_min.

(* 5. ord(): full statement (forall o, pyx_ord false o = py_ord o) is FALSE on the tree
   (finding ord_str_wrong_length_raises_ValueError) *)
Theorem C13_ord_refuted : exists o, pyx_ord false o = Raise ValueError /\ py_ord o = Raise TypeError.
Proof. exact ord_refuted. Qed.
Print Assumptions C13_ord_refuted.

Theorem C13_ord_eq_partial : forall o,
  (forall l, o = OStr l -> zlen l = 1) -> pyx_ord false o = py_ord o.
Proof. exact ord_eq_partial. Qed.
Print Assumptions C13_ord_eq_partial.

Theorem C13_ord_fixed_eq : forall o, pyx_ord true o = py_ord o.
Proof. exact ord_fixed_eq. Qed.
Print Assumptions C13_ord_fixed_eq.

Theorem C13_chr_eq : forall v, pyx_chr v = py_chr v.
Proof. exact chr_eq. Qed.
Print Assumptions C13_chr_eq.

(* 6. dict.get / pop / setdefault default and KeyError logic *)
Theorem C13_dict_get_eq : forall d k dflt, pyx_dict_get d k dflt = py_dict_get d k dflt.
Proof. exact dict_get_eq. Qed.
Print Assumptions C13_dict_get_eq.

Theorem C13_dict_pop_313_eq : forall d k dflt, pyx_dict_pop_313 d k dflt = py_dict_pop d k dflt.
Proof. exact dict_pop_313_eq. Qed.
Print Assumptions C13_dict_pop_313_eq.

Theorem C13_dict_pop_keyerror_iff : forall d z dflt,
  pyx_dict_pop_313 d (KInt z) dflt = Raise KeyError <-> (lookup d z = None /\ dflt = None).
Proof. exact dict_pop_keyerror_iff. Qed.
Print Assumptions C13_dict_pop_keyerror_iff.

Theorem C13_dict_pop_ignore_eq : forall d k dflt,
  pyx_dict_pop_ignore d k =
  match py_dict_pop d k (Some dflt) with Ok (_, d') => Ok d' | Raise e => Raise e | UB => UB end.
Proof. exact dict_pop_ignore_eq. Qed.
Print Assumptions C13_dict_pop_ignore_eq.

Theorem C13_dict_setdefault_eq : forall d k dflt, pyx_dict_setdefault d k dflt = py_dict_setdefault d k dflt.
Proof. exact dict_setdefault_eq. Qed.
Print Assumptions C13_dict_setdefault_eq.

(* 7. min/max: the nested conditional built by _optimise_min_max for m+1 arguments, evaluated with
   ANY comparison function (non-total, non-antisymmetric, raising): same winner as Python's
   left-to-right scan, same exception, same sequence of comparison calls *)
Theorem C13_minmax_unrolled_eq : forall (cmp : Z -> Z -> option bool) (args : nat -> Z) (m : nat) env,
  eval cmp args (build_minmax m) env = py_scan cmp (args 0%nat) (map args (seq 1 m)).
Proof. exact minmax_unrolled_eq. Qed.
Print Assumptions C13_minmax_unrolled_eq.

Theorem C13_minmax_list_eq : forall cmp x rest,
  pyx_minmax cmp (x :: rest) = py_minmax cmp (x :: rest).
Proof. exact minmax_list_eq. Qed.
Print Assumptions C13_minmax_list_eq.

Theorem C13_minmax_ties_keep_first : forall cmp x rest,
  (forall a b, cmp a b = Some false) -> fst (pyx_minmax cmp (x :: rest)) = Ok x.
Proof. exact minmax_ties_keep_first. Qed.
Print Assumptions C13_minmax_ties_keep_first.

(* 8. any()/all() over a single-loop generator expression with optional filter, inlined as a loop
   with early return: same result, same exception, same items evaluated *)
Theorem C13_anyall_inlined_eq : forall filt pred is_any xs,
  pyx_anyall filt pred is_any xs = py_anyall filt pred is_any xs.
Proof. exact anyall_inlined_eq. Qed.
Print Assumptions C13_anyall_inlined_eq.

Theorem C13_anyall_early_exit : forall filt pred is_any pre x post,
  decides filt pred is_any x = true ->
  pyx_anyall filt pred is_any (pre ++ x :: post) = pyx_anyall filt pred is_any (pre ++ [x]).
Proof. exact anyall_early_exit. Qed.
Print Assumptions C13_anyall_early_exit.

(* the hypotheses are satisfiable on non-trivial values: a negative index on a 3-element list, an
   endswith with negative start, a 3-cycle comparison (no minimum exists: Python's scan still answers) *)
Example C13_nonvacuous :
  pyx_list_popindex_macro [10; 20; 30] 3 (-2) = Ok (20, [10; 30]) /\
  pyx_bytes_single false [97; 98; 99] [98; 99] (-2) 100 1 = Ok true /\
  fst (pyx_minmax (fun a b => Some ((a + 1) mod 3 =? b)) [0; 1; 2]) = Ok 2 /\
  pyx_anyall (fun _ => Some true) (fun x => if x =? 2 then None else Some (x =? 1)) true [0; 1; 2] = (Ok true, [0; 1]).
Proof. vm_compute. repeat split. Qed.
