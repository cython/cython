(* C04 — overflowcheck reports exactly the overflowing C arithmetic.
   Only statements; proofs live in Proof/P_Overflow.v, Proof/P_OverflowTd.v (typedef'd types, the
   nogil raise) and Proof/P_CMath.v ('//').
   w = width of the C result type (after the integer promotions: >= width of int), s = signed,
   lw / llw = widths of long / long long; cb, ca, swap = the outcomes of the three
   __builtin_constant_p tests in the portable multiplication (any values).
   wide_ok w lw llw: a strictly wider type used by a widening path has at least twice the width
   (LP64: int 32 -> long 64; LLP64: int/long 32 -> long long 64). *)
From Coq Require Import ZArith Bool.
From CyVerif Require Import Lib.CInt Model.M_CMath Proof.P_CMath Model.M_Overflow Proof.P_Overflow Proof.P_OverflowTd.
Open Scope Z_scope.

(* every base helper (add/sub/mul, signed/unsigned, portable branch as written or builtin branch by
   contract): returns the exact result wrapped to the type and sets the bit iff it does not fit *)
Theorem C04_helpers_exact : forall builtin op w s lw llw cb ca swap a b,
  2 <= w -> wide_ok w lw llw -> in_range w s a -> in_range w s b ->
  base_helper builtin op w s lw llw cb ca swap a b
  = (wrap w s (exact_op op a b), negb (in_rangeb w s (exact_op op a b))).
Proof. exact base_helper_exact. Qed.
Print Assumptions C04_helpers_exact.

(* the two preprocessor branches of Overflow.c agree on every operator, value and bit *)
Theorem C04_portable_eq_builtin : forall op w s lw llw cb ca swap a b,
  2 <= w -> wide_ok w lw llw -> in_range w s a -> in_range w s b ->
  helper false op w s lw llw cb ca swap a b = helper true op w s lw llw cb ca swap a b.
Proof. exact portable_eq_builtin. Qed.
Print Assumptions C04_portable_eq_builtin.

(* soundness: + - * << : a value that is returned is the exact mathematical result *)
Theorem C04_binop_sound : forall builtin op w s lw llw cb ca swap a b v,
  8 <= w -> wide_ok w lw llw -> in_range w s a -> in_range w s b ->
  binop_node builtin op w s lw llw cb ca swap a b = Val v ->
  v = exact_cop op a b /\ in_range w s v /\ exact_defined op b = true.
Proof. exact binop_node_sound. Qed.
Print Assumptions C04_binop_sound.

(* completeness of detection: a result that does not fit (or a negative shift count) raises *)
Theorem C04_binop_complete : forall builtin op w s lw llw cb ca swap a b,
  8 <= w -> wide_ok w lw llw -> in_range w s a -> in_range w s b ->
  ~ in_range w s (exact_cop op a b) \/ exact_defined op b = false ->
  binop_node builtin op w s lw llw cb ca swap a b = Ovf.
Proof. exact binop_node_complete. Qed.
Print Assumptions C04_binop_complete.

(* + - * never raise spuriously: the outcome is decided by the exact result alone *)
Theorem C04_add_sub_mul_exact : forall builtin op w s lw llw cb ca swap a b,
  op <> OLshift -> 2 <= w -> wide_ok w lw llw -> in_range w s a -> in_range w s b ->
  binop_node builtin op w s lw llw cb ca swap a b
  = if in_rangeb w s (exact_cop op a b) then Val (exact_cop op a b) else Ovf.
Proof. exact binop_node_exact. Qed.
Print Assumptions C04_add_sub_mul_exact.

(* '<<' : the bit is set exactly for: result does not fit / negative left operand / 0 << (>= width) *)
Theorem C04_lshift_flag_exactly : forall w s a b,
  8 <= w -> in_range w s a -> in_range w s b -> 0 <= b ->
  (snd (lshift_helper w s a b) = true <->
   ~ in_range w s (a * 2 ^ b) \/ (s = true /\ a < 0) \/ (a = 0 /\ w <= b)).
Proof. exact lshift_flag_iff. Qed.
Print Assumptions C04_lshift_flag_exactly.

(* spurious OverflowError (raised although the exact result fits): exactly this set, on any operator *)
Theorem C04_spurious_exactly : forall builtin op w s lw llw cb ca swap a b,
  8 <= w -> wide_ok w lw llw -> in_range w s a -> in_range w s b ->
  (spurious builtin op w s lw llw cb ca swap a b = true <->
   op = OLshift /\ 0 <= b /\ in_range w s (a * 2 ^ b) /\ ((s = true /\ a < 0) \/ (a = 0 /\ w <= b))).
Proof. exact spurious_exactly. Qed.
Print Assumptions C04_spurious_exactly.

(* no undefined behaviour in the helpers' own operations (C36 share): no signed overflow in any
   intermediate (incl. the wider type), divisions defined, shift counts in range, flag word 0/1 *)
Theorem C04_helpers_ub_free : forall w lw llw cb ca swap s a b,
  8 <= w -> wide_ok w lw llw -> in_range w s a -> in_range w s b ->
  (s = true -> sadd_ub_free w lw llw a b = true /\ ssub_ub_free w a b = true
               /\ smul_ub_free w lw llw cb ca swap a b = true)
  /\ lshift_ub_free w s a b = true.
Proof. exact helpers_ub_free. Qed.
Print Assumptions C04_helpers_ub_free.

(* the platform condition wide_ok is needed: with a wider type of less than twice the width the
   unsigned widening product misses an overflow and the signed one overflows the wider type *)
Theorem C04_widening_needs_double_width_refuted :
  (exists w lw llw a b, 8 <= w /\ w < lw /\ in_range w false a /\ in_range w false b /\
     umul_portable w lw llw false false false a b = (0, false) /\ a * b <> 0)
  /\ (exists w lw llw a b, 8 <= w /\ w < lw /\ in_range w true a /\ in_range w true b /\
     smul_ub_free w lw llw false false false a b = false).
Proof. exact (conj umul_widen_needs_double_width smul_widen_needs_double_width). Qed.
Print Assumptions C04_widening_needs_double_width_refuted.

(* FINDING: unary minus is emitted as plain (-x) under overflowcheck.  Full statement (false for the
   current code, neg_node false):  forall w s a, in_range w s a ->
     neg_node false w s a = if in_rangeb w s (- a) then Val (- a) else Ovf. *)
Theorem C04_unary_neg_refuted :
  (exists w a, 8 <= w /\ in_range w true a /\ neg_node false w true a = Undef)
  /\ (exists w a v, 8 <= w /\ in_range w false a /\ neg_node false w false a = Val v /\ v <> - a
                    /\ ~ in_range w false (- a)).
Proof. exact neg_node_unchecked_refuted. Qed.
Print Assumptions C04_unary_neg_refuted.

(* ... it is right on the complement of the finding classes (wherever -a fits) *)
Theorem C04_unary_neg_partial : forall w s a,
  1 <= w -> in_range w s a -> in_range w s (- a) -> neg_node false w s a = Val (- a).
Proof. intros w s a Hw _. now apply neg_node_fits. Qed.
Print Assumptions C04_unary_neg_partial.

(* ... and the repaired variant (test before negating) satisfies the full statement *)
Theorem C04_unary_neg_checked_exact : forall w s a,
  1 <= w -> in_range w s a ->
  neg_node true w s a = if in_rangeb w s (- a) then Val (- a) else Ovf.
Proof. exact neg_node_checked_exact. Qed.
Print Assumptions C04_unary_neg_checked_exact.

(* abs() on int / long / long long under overflowcheck *)
Theorem C04_abs_exact : forall w a,
  2 <= w -> in_range w true a ->
  abs_node w a = if in_rangeb w true (Z.abs a) then Val (Z.abs a) else Ovf.
Proof. exact abs_node_exact. Qed.
Print Assumptions C04_abs_exact.

(* '//' (and '/' on C integers without true division) is DivNode: ZeroDivisionError iff b = 0,
   OverflowError iff the quotient does not fit, else Python's floor quotient (model and proof of C03) *)
Theorem C04_floordiv : forall w s bconst a b,
  2 <= w -> in_range w s a -> in_range w s b ->
  div_node true w s bconst a b = py_floordiv w s a b.
Proof. exact div_node_python. Qed.
Print Assumptions C04_floordiv.

(* ConsolidateOverflowCheck: with one shared bit tested at the top (fold on) and with one bit per node
   (fold off) the outcome is the same: OverflowError iff some sub-operation sets its bit; a set bit is
   never left untested (run_top never returns None) *)
Theorem C04_fold_preserves : forall builtin w lw llw s env e,
  run_top builtin w lw llw s env (consolidate false (annotate e)) = Some (ref_eval builtin w lw llw s env e)
  /\ run_top builtin w lw llw s env (annotate e) = Some (ref_eval builtin w lw llw s env e).
Proof. exact fold_preserves. Qed.
Print Assumptions C04_fold_preserves.

(* folded nested expression over values of the type: returns only the exact value of the whole
   expression, raises whenever some sub-operation's exact result does not fit *)
Theorem C04_folded_tree_sound_complete : forall builtin w lw llw s env,
  8 <= w -> wide_ok w lw llw -> forall e, leaves_ok w s env e ->
  exists r, run_top builtin w lw llw s env (consolidate false (annotate e)) = Some r /\
    (forall v, r = Some v -> exact_eval w s env e = Some v) /\
    (exact_eval w s env e = None -> r = None).
Proof. exact folded_tree_sound_complete. Qed.
Print Assumptions C04_folded_tree_sound_complete.

(* Binop (typedef'd types): under SizeCheck, for a type at least as wide as int the dispatch is the
   base helper of that width ... *)
Theorem C04_dispatch_sane : forall builtin op iw lw llw w s cb ca swap a b,
  size_sane iw lw llw w = true -> iw <= w ->
  binop_dispatch builtin op iw lw llw w s cb ca swap a b
  = of_pair (base_helper builtin op w s lw llw cb ca swap a b).
Proof. exact dispatch_sane. Qed.
Print Assumptions C04_dispatch_sane.

(* ... and for sizeof(T) < sizeof(int) it is unchecked (never instantiated: the result type of a
   C integer operation is at least int; the check inspects the generated C for it) *)
Theorem C04_dispatch_narrow_unchecked_refuted :
  exists builtin op iw lw llw w s a b v,
    8 <= w /\ w < iw /\ in_range w s a /\ in_range w s b /\
    binop_dispatch builtin op iw lw llw w s false false false a b = R v false /\ v <> exact_op op a b.
Proof. exact dispatch_narrow_unchecked_refuted. Qed.
Print Assumptions C04_dispatch_narrow_unchecked_refuted.

(* the __Pyx_div_<int>_checking_overflow helper (never referenced by the compiler) is wrong for
   negative operands; right on non-negative ones *)
Theorem C04_div_helper_refuted :
  exists w a b v, 8 <= w /\ in_range w true a /\ in_range w true b /\
    sdiv_helper w a b = (v, false) /\ v <> a / b /\ v <> Z.quot a b.
Proof. exact sdiv_helper_refuted. Qed.
Print Assumptions C04_div_helper_refuted.

Theorem C04_div_helper_nonneg_partial : forall w a b,
  1 <= w -> in_range w true a -> in_range w true b -> 0 <= a -> 0 < b ->
  sdiv_helper w a b = (a / b, false).
Proof. exact sdiv_helper_nonneg_partial. Qed.
Print Assumptions C04_div_helper_nonneg_partial.

(* FINDING: a negative operand is converted to an unsigned result type before the helper *)
Theorem C04_negative_operand_conversion_refuted :
  exists w a c v, 8 <= w /\ in_range w false a /\ in_range w true c /\ c < 0 /\
    binop_node true OAdd w false 64 64 false false false a (wrap w false c) = Val v /\ v <> a + c.
Proof. exact negative_operand_conversion_refuted. Qed.
Print Assumptions C04_negative_operand_conversion_refuted.

(* ---- typedef'd integer types (ctypedef aliases, libc.stdint, extern typedefs of inexact declared
   size, Py_ssize_t / size_t / Py_hash_t / ptrdiff_t): the compiler instantiates Binop / LeftShift at
   the typedef name and the if-chain on sizeof(TYPE) chooses the callee.  iw = width of int, w / s =
   real width / signedness of TYPE, size_sane = the import-time SizeCheck. *)

(* the callee chosen by the chain: the base helper of exactly the type's width and signedness, or the
   shortcut for sizeof(TYPE) < sizeof(int) *)
Theorem C04_typedef_callee : forall iw lw llw w s,
  size_sane iw lw llw w = true ->
  dispatch_choice CmpLt iw lw llw w s = if w <? iw then CNarrow else CBase w s.
Proof. exact dispatch_choice_spec. Qed.
Print Assumptions C04_typedef_callee.

(* code as it is, any sane type at least as wide as int (every width 32/64 ..., both signednesses):
   the wrapped exact result, and the bit is set iff the exact result is outside the type *)
Theorem C04_typedef_dispatch_exact : forall builtin op iw lw llw w s cb ca swap a b,
  size_sane iw lw llw w = true -> iw <= w -> 2 <= w -> wide_ok w lw llw ->
  in_range w s a -> in_range w s b ->
  binop_dispatch builtin op iw lw llw w s cb ca swap a b
  = R (wrap w s (exact_op op a b)) (negb (in_rangeb w s (exact_op op a b))).
Proof. exact dispatch_exact. Qed.
Print Assumptions C04_typedef_dispatch_exact.

(* the guard of the shortcut is tight: whatever guard lets a type of width w take the unchecked
   shortcut, for every operator and signedness some operands of the type return a wrong value with
   the bit clear.  Instances: a guard "sizeof(TYPE) <= sizeof(int)" at w = iw (c := CmpLe: int-sized typedefs,
   P_OverflowTd.dispatch_le_guard_refuted), and the code as it is at every w < iw (next statement). *)
Theorem C04_typedef_unchecked_arm_refuted : forall builtin op c iw lw llw w s,
  3 <= w -> cmp_holds c w iw = true ->
  exists a b v, in_range w s a /\ in_range w s b /\
    binop_dispatch_v false c builtin op iw lw llw w s false false false a b = R v false
    /\ v <> exact_op op a b.
Proof. exact unchecked_arm_refuted. Qed.
Print Assumptions C04_typedef_unchecked_arm_refuted.

(* FINDING (extern typedef whose real type is narrower than int): full statement, false for the code
   as it is:  forall w < iw ..., binop_dispatch ... = R (wrap w s exact) (negb (in_rangeb w s exact)) *)
Theorem C04_typedef_narrow_refuted : forall builtin op iw lw llw w s, 3 <= w -> w < iw ->
  exists a b v, in_range w s a /\ in_range w s b /\
    binop_dispatch builtin op iw lw llw w s false false false a b = R v false
    /\ v <> exact_op op a b.
Proof. exact dispatch_narrow_asis_refuted. Qed.
Print Assumptions C04_typedef_narrow_refuted.

(* ... the repaired shortcut (int helper, then test that the result survives the cast to TYPE) makes
   the dispatch exact for EVERY sane width (8/16/32/64 ...) and signedness *)
Theorem C04_typedef_dispatch_repaired_exact : forall builtin op iw lw llw w s cb ca swap a b,
  size_sane iw lw llw w = true -> 2 <= w -> wide_ok w lw llw -> wide_ok iw lw llw ->
  in_range w s a -> in_range w s b ->
  binop_dispatch_v true CmpLt builtin op iw lw llw w s cb ca swap a b
  = R (wrap w s (exact_op op a b)) (negb (in_rangeb w s (exact_op op a b))).
Proof. exact dispatch_fx_exact. Qed.
Print Assumptions C04_typedef_dispatch_repaired_exact.

(* the statement on a typedef'd result type, + - * : exact value iff it fits, OverflowError otherwise
   (as it is: types at least as wide as int = the complement of the finding class; repaired: all) *)
Theorem C04_typedef_node_exact : forall fx builtin op iw lw llw w s cb ca swap a b,
  op <> OLshift -> size_sane iw lw llw w = true -> 2 <= w -> (fx = true \/ iw <= w) ->
  wide_ok w lw llw -> wide_ok iw lw llw -> in_range w s a -> in_range w s b ->
  typedef_node fx CmpLt builtin op iw lw llw w s cb ca swap a b
  = if in_rangeb w s (exact_cop op a b) then Val (exact_cop op a b) else Ovf.
Proof. exact typedef_node_exact. Qed.
Print Assumptions C04_typedef_node_exact.

(* '<<' on a typedef'd type of any width (incl. narrower than int, where the macros are evaluated in
   int): a returned value is exact and fits; a result that does not fit or a negative count raises *)
Theorem C04_typedef_lshift_sound_complete : forall fx c builtin iw lw llw w s cb ca swap a b,
  8 <= w -> in_range w s a -> in_range w s b ->
  (forall v, typedef_node fx c builtin OLshift iw lw llw w s cb ca swap a b = Val v ->
     0 <= b /\ v = a * 2 ^ b /\ in_range w s v)
  /\ (~ in_range w s (a * 2 ^ b) \/ b < 0 ->
      typedef_node fx c builtin OLshift iw lw llw w s cb ca swap a b = Ovf).
Proof. exact typedef_lshift_sound_complete. Qed.
Print Assumptions C04_typedef_lshift_sound_complete.

(* FINDING: the OverflowError of a checked operation inside a nogil section / nogil function is raised
   without the GIL (crash).  Full statement (false for the code as it is, gil_fixed = false):
     forall in_nogil o, nogil_node false in_nogil o = o. *)
Theorem C04_nogil_raise_refuted :
  exists a b, in_range 32 true a /\ in_range 32 true b /\ ~ in_range 32 true (a + b) /\
    nogil_node false true (binop_node true OAdd 32 true 64 64 false false false a b) = Undef.
Proof. exact nogil_node_refuted. Qed.
Print Assumptions C04_nogil_raise_refuted.

(* ... right wherever nothing is raised, and the repaired variant is context independent *)
Theorem C04_nogil_partial_and_repaired : forall gil_fixed in_nogil o,
  (o <> Ovf -> nogil_node gil_fixed in_nogil o = o) /\ nogil_node true in_nogil o = o.
Proof. intros. split; [apply nogil_node_partial | apply nogil_node_fixed]. Qed.
Print Assumptions C04_nogil_partial_and_repaired.

Example C04_typedef_nonvacuous :
  size_sane 32 64 64 32 = true /\ wide_ok 32 64 64 /\ in_range 32 true 2147483647
  /\ typedef_node false CmpLt false OAdd 32 64 64 32 true false false false 2147483647 1 = Ovf
  /\ typedef_node false CmpLe false OAdd 32 64 64 32 true false false false 2147483647 1 = Val (-2147483648)
  /\ typedef_node false CmpLt false OMul 32 64 64 16 false false false false 65535 2 = Val 65534
  /\ typedef_node true CmpLt false OMul 32 64 64 16 false false false false 65535 2 = Ovf
  /\ typedef_node true CmpLt false OMul 32 64 64 16 false false false false 255 257 = Val 65535.
Proof. unfold wide_ok, in_range. vm_compute. intuition congruence. Qed.

(* non-vacuity: LP64 int operands meet the hypotheses; one fitting and one overflowing product, on
   the portable branch with the widening path *)
Example C04_nonvacuous :
  8 <= 32 /\ wide_ok 32 64 64 /\ in_range 32 true 46341 /\ in_range 32 true (-46340)
  /\ binop_node false OMul 32 true 64 64 false false false 46341 46341 = Ovf
  /\ binop_node false OMul 32 true 64 64 false false false 46341 (-46340) = Val (-2147441940)
  /\ binop_node false OLshift 32 true 64 64 false false false (-1) 1 = Ovf.
Proof. unfold wide_ok, in_range. vm_compute. intuition congruence. Qed.
