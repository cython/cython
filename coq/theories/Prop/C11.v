(* C11 -- Emitted C string literals denote exactly the original bytes.
   Only statements; proofs live in Proof/P_CStr.v.  Bytes and characters are numbers (N);
   a byte string is a list of N all < 256.  as_c_string_literal bs limit is the model of
   BytesLiteral.as_c_string_literal (escape_byte_string, split_string_literal with that limit,
   surrounding double quotes); c_read is the reference C reader (translation phases 1, 2, 5, 6). *)
From Coq Require Import NArith List Bool.
From CyVerif Require Import Lib.CInt Model.M_CStr Proof.P_CStr.
Import ListNotations.
Open Scope N_scope.

(* every byte string, every limit >= 6: the literal is produced (the splitter does not run out
   of fuel, the input is in the modelled domain) and a C compiler reads exactly the bytes *)
Theorem C11_emit_reads_back : forall (bs : list N) (limit : nat),
  Forall (fun b => b < 256) bs -> (6 <= limit)%nat ->
  exists txt, as_c_string_literal bs limit = Some txt /\ c_read txt = Some bs.
Proof. exact emit_reads_back. Qed.
Print Assumptions C11_emit_reads_back.

(* the literal has no two adjacent question marks, hence no trigraph; phase 1 leaves it alone *)
Theorem C11_no_trigraph : forall (bs : list N) (limit : nat) (txt : list N),
  Forall (fun b => b < 256) bs -> (6 <= limit)%nat ->
  as_c_string_literal bs limit = Some txt ->
  has_qq txt = false /\ contains_trigraph txt = false /\ phase1 txt = txt.
Proof. exact no_trigraph. Qed.
Print Assumptions C11_no_trigraph.

(* splitting ANY text (not only escape outputs) at any limit >= 6: the chunks concatenate to the
   text, each is at most limit characters and (for a non-empty text) non-empty *)
Theorem C11_chunks_bounded : forall (s : list N) (limit : nat), (6 <= limit)%nat ->
  exists cs, split_chunks s limit = Chunks cs /\ concat cs = s
    /\ Forall (fun c => (length c <= limit)%nat /\ (s <> [] -> (1 <= length c)%nat)) cs.
Proof. exact chunks_bounded. Qed.
Print Assumptions C11_chunks_bounded.

(* termination of the while loop as an explicit obligation: on ANY text, with limit >= 6,
   len(s)+1 iterations suffice (the result is not OutOfFuel) *)
Theorem C11_split_terminates : forall (s : list N) (limit : nat), (6 <= limit)%nat ->
  exists cs, split_loop (S (length s)) s limit = Chunks cs /\ concat cs = s.
Proof. exact split_terminates. Qed.
Print Assumptions C11_split_terminates.

(* the bound 6 is tight: at limit 5 the all-backslash fallback start + limit - limit%2 - 4 is
   start itself and the loop makes no progress on a run of backslashes (the compiler only ever
   calls the function with the default limit 2000, so this is a boundary remark, not a defect) *)
Theorem C11_split_limit5_no_progress :
  exists s, forall fuel, split_loop fuel s 5 = OutOfFuel.
Proof. exists (repeat 92 8). exact split_loop_limit5_stuck. Qed.
Print Assumptions C11_split_limit5_no_progress.

(* MSVC branch of _write_cstring_const: the comma separated character constants denote the same
   bytes (and contain no two adjacent question marks) *)
Theorem C11_char_array_form_equal : forall (bs : list N),
  Forall (fun b => b < 256) bs -> bs <> [] ->
  c_read_chars (char_array_form bs) = Some bs /\ has_qq (char_array_form bs) = false.
Proof. exact char_array_form_equal. Qed.
Print Assumptions C11_char_array_form_equal.

(* escape_char: all 256 character constants *)
Theorem C11_escape_char_reads_back : forall b : N, b < 256 ->
  c_read_char ([39] ++ escape_char b ++ [39]) = Some b.
Proof. exact escape_char_reads_back. Qed.
Print Assumptions C11_escape_char_reads_back.

(* non-vacuity: the bytes ? ? / backslash LF dquote 0x80 NUL 1 at limit 8: the text is split into
   five chunks, contains every kind of escape, and reads back; and the reader really performs
   trigraph replacement: dquote ? ? / dquote dquote is the one-byte string dquote *)
Example C11_nonvacuous :
  let bs := [63; 63; 47; 92; 10; 34; 128; 0; 49] in
  Forall (fun b => b < 256) bs /\ (6 <= 8)%nat
  /\ (exists cs, split_chunks (escape_byte_string bs) 8 = Chunks cs /\ length cs = 5%nat)
  /\ (exists txt, as_c_string_literal bs 8 = Some txt /\ c_read txt = Some bs)
  /\ c_read [34; 63; 63; 47; 34; 34] = Some [34].
Proof.
  cbv zeta. split; [repeat constructor|]. split; [repeat constructor|].
  split; [eexists; split; vm_compute; reflexivity|].
  split; [eexists; split; vm_compute; reflexivity|]. vm_compute. reflexivity.
Qed.
