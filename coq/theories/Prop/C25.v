(* C25 -- compiled functions report faithful names and signatures: the expression printer
   behind embedded signatures and the qualified-name transform.
   Second part (below): the code object behind inspect.signature() - the module-wide bit-field
   struct of code-object descriptions and inspect._signature_from_function.
   Third part (end): the layout of the embedded parameter list (EmbedSignature._fmt_arglist).
   Only statements; proofs live in Proof/P_ExprPrint.v, Proof/P_ExprPrint_Read.v, Proof/P_CodeDescr.v,
   Proof/P_ArgList.v.
   The three repairs named below (proposed_fixes/C25-*.diff) are applied in /repo; "as found" is the
   variant before the repair (flag false), kept in the model for the refutations. *)
From Coq Require Import List NArith ZArith Bool Arith.
From CyVerif Require Import Lib.CInt Model.M_ExprPrint Proof.P_ExprPrint Proof.P_ExprPrint_Read.
From CyVerif Require Import Model.M_CodeDescr Proof.P_CodeDescr.
Import ListNotations.
Open Scope nat_scope.

(* FULL STATEMENT (DESIGN: print_unambiguous), false for the printer as found:
     forall e, wf e = true -> exists fuel0, forall fuel, fuel0 <= fuel ->
       reparse fuel (print false e) = RExpr e.
   Proved for the repaired printer (proposed_fixes/C25-expression_writer_parenthesisation.diff):
   every well-formed default-value tree is read back from its printed token list by the
   grammar reader, with any sufficient fuel (out-of-fuel is the explicit result ROutOfFuel). *)
Theorem C25_print_unambiguous_fixed : forall e, wf e = true ->
  exists fuel0, forall fuel, fuel0 <= fuel -> reparse fuel (print true e) = RExpr e.
Proof. exact print_unambiguous_fixed. Qed.
Print Assumptions C25_print_unambiguous_fixed.

(* ... also as an operand at any grammar level L, followed by anything that cannot continue it *)
Theorem C25_print_unambiguous_fixed_ctx : forall e L rest, wf e = true -> L <= 13 -> stops L rest ->
  exists fuel0, forall fuel, fuel0 <= fuel -> parse fuel L (pr_new L e ++ rest) = Ok e rest.
Proof. exact print_unambiguous_fixed_ctx. Qed.
Print Assumptions C25_print_unambiguous_fixed_ctx.

(* finding F22: the printer as found changes or destroys the expression; one computed witness
   per class: a - (b - c), (a ** b) ** c, a / (b * c), (a if b else c) + 1, a < b < c,
   (a < b) < c, lambda q: q, (a,), (a + b).c, (-1) ** a, [a] * b (printed [a, b]) *)
Theorem C25_print_unambiguous_refuted :
  bad w_sub /\ bad w_pow /\ bad w_divmul /\ bad w_cond /\ bad w_casc /\ bad w_cmpcmp /\
  bad w_lam /\ bad w_tup /\ bad w_attr /\ bad w_negpow /\ bad w_seqmul.
Proof. exact old_refuted. Qed.
Print Assumptions C25_print_unambiguous_refuted.

Theorem C25_old_condexpr_text_does_not_parse :
  reparse 1000 (print false (ECond na (ECond nb nc na) nb)) = RError.
Proof. exact old_cond_syntax_error. Qed.
Print Assumptions C25_old_condexpr_text_does_not_parse.

(* the table dumped from the running code (Gen/Gen_Prec.v) is Python's documented precedence *)
Theorem C25_prec_table_is_pythons :
  (forall o, prec_bin o = py_level_bin o) /\ (forall o, prec_cmp o = 4) /\ (forall o, prec_un o = 11) /\
  prec_bool LOr = 1 /\ prec_bool LAnd = 2 /\ prec_not = 3.
Proof. exact prec_table_is_pythons. Qed.
Print Assumptions C25_prec_table_is_pythons.

(* qualified names: the repaired transform assigns to every def / class / lambda of every
   scope forest exactly the name of the language rule (CPython compiler_set_qualname) *)
Theorem C25_qualname_eq_fixed : forall l, swfs false l = true -> cy_module true l = rule_module l.
Proof. exact qualname_eq_fixed. Qed.
Print Assumptions C25_qualname_eq_fixed.

(* the transform as found: right on every forest without a def under a global declaration ... *)
Theorem C25_qualname_eq_partial : forall l, swfs false l = true -> no_glob_defs l = true ->
  cy_module false l = rule_module l.
Proof. exact qualname_eq_old_partial. Qed.
Print Assumptions C25_qualname_eq_partial.

(* ... and wrong on  def o(): global g; def g(): def h(): ...  *)
Theorem C25_qualname_eq_refuted : swfs false w_scopes = true /\ cy_module false w_scopes <> rule_module w_scopes.
Proof. exact qualname_old_refuted. Qed.
Print Assumptions C25_qualname_eq_refuted.

(* non-vacuity: a well-formed tree with every kind of node that needed care, read back *)
Example C25_nonvacuous :
  let e := ECond (EBin BSub na (EBin BSub nb (ENum KInt true [49%N])))
                 (ECmp na CLt nb (CCons CIsNot (ENot nc) CNil))
                 (ELambda [[113%N]] (ETuple (ECons (EAttr (EBin BPow (EUn UNeg na) nb) [99%N]) ENil))) in
  wf e = true /\ reparse 400 (print true e) = RExpr e /\
  swfs false w_scopes = true /\ cy_module true w_scopes = rule_module w_scopes.
Proof. vm_compute. repeat split; reflexivity. Qed.

(* ------------------------------------------------------------------------------------------ *)
(* the code object: Code.py generate_codeobject_constants / ExprNodes.py CodeObjectNode /       *)
(* ModuleSetupCode.c __Pyx_PyCode_New / inspect._signature_from_function (Model/M_CodeDescr.v)  *)
(* ------------------------------------------------------------------------------------------ *)
Open Scope Z_scope.

(* for every module (list of functions of every kind that gets a code object: def, generator,
   coroutine, async generator, generator expression) and every function in it, the six numbers
   written into the description initialiser are unchanged by the module's bit-field struct, whose
   widths are the bit lengths of the module-wide maxima (generator expressions left out of the
   three argument maxima only) *)
Theorem C25_descr_survives : forall fs f, In f fs -> wf_src f = true ->
  store (widths skip_genexpr fs) (emitted f) = emitted f.
Proof. exact descr_survives. Qed.
Print Assumptions C25_descr_survives.

(* ... for every choice of what is left out, as long as only generator expressions are *)
Theorem C25_descr_survives_any_skip : forall skip fs f, (forall k, skip k = true -> k = KGenExpr) ->
  In f fs -> wf_src f = true -> store (widths skip fs) (emitted f) = emitted f.
Proof. exact descr_survives_gen. Qed.
Print Assumptions C25_descr_survives_any_skip.

(* bit-fields laid out one after the other: reading them back gives each value mod 2^width,
   for all widths and values *)
Theorem C25_pack_unpack : forall ws vs, length ws = length vs -> Forall (fun w => 0 <= w) ws ->
  unpack ws (pack ws vs) = map (fun wv => store_field (fst wv) (snd wv)) (combine ws vs).
Proof. exact pack_unpack. Qed.
Print Assumptions C25_pack_unpack.

Theorem C25_packed_descr_survives : forall fs f, In f fs -> wf_src f = true ->
  unpack (fields (widths skip_genexpr fs)) (pack (fields (widths skip_genexpr fs)) (fields (emitted f)))
  = fields (emitted f).
Proof. exact packed_descr_survives. Qed.
Print Assumptions C25_packed_descr_survives.

(* the struct is not wider than needed: a w-bit argcount field (w > 1) holds a w-bit value *)
Theorem C25_widths_tight_argcount : forall fs, 1 < d_argcount (widths skip_genexpr fs) ->
  exists f, In f fs /\ 2 ^ (d_argcount (widths skip_genexpr fs) - 1) <= d_argcount (emitted f).
Proof. exact widths_tight_argcount. Qed.
Print Assumptions C25_widths_tight_argcount.

(* the code object of every function carries the declared counts, flags, line and names *)
Theorem C25_code_counts_faithful : forall fs f, In f fs -> wf_src f = true -> s_kind f <> KGenExpr ->
  let c := code_of skip_genexpr fs f in
  co_argcount c = zlen (s_po f) + zlen (s_pk f) /\ co_posonlyargcount c = zlen (s_po f) /\
  co_kwonlyargcount c = zlen (s_ko f) /\ co_flags c = flags_of f /\ co_firstlineno c = s_line f /\
  co_varnames c = varnames f.
Proof. exact code_counts_faithful. Qed.
Print Assumptions C25_code_counts_faithful.

(* THE PROPERTY for this region: inspect.signature() (as computed by _signature_from_function from
   __code__, __defaults__, __kwdefaults__) of every function of every module lists exactly the
   declared parameters - names, kinds and default values - whatever else the module contains.
   wf_src = what the parser accepts: defaults on a suffix of the positional parameters, distinct
   keyword-only names; SigError (an IndexError inside inspect) is an explicit result. *)
Theorem C25_signature_faithful : forall fs f, In f fs -> wf_src f = true -> s_kind f <> KGenExpr ->
  compiled_sig skip_genexpr fs f = SigOk (source_sig f).
Proof. exact signature_faithful. Qed.
Print Assumptions C25_signature_faithful.

(* the variant "if not def_node.is_generator" (generators, coroutines and async generators left
   out of the maxima) loses parameters:  def plain(a, b=1)  next to
   def gen(a, b, c=3, d=4, *, key=5, flag=6, **kw): yield *)
Theorem C25_skip_generators_refuted :
  In w_gen w_module /\ wf_src w_gen = true /\ wf_src w_plain = true /\
  survives skip_generators w_module w_gen = false /\
  compiled_sig skip_generators w_module w_gen <> SigOk (source_sig w_gen) /\
  compiled_sig skip_genexpr w_module w_gen = SigOk (source_sig w_gen).
Proof. exact skip_generators_refuted. Qed.
Print Assumptions C25_skip_generators_refuted.

Example C25_codedescr_nonvacuous :
  wf_src w_gen = true /\ s_kind w_gen <> KGenExpr /\ In w_gen w_module /\
  fields (widths skip_genexpr w_module) = [3; 1; 2; 3; 10; 3] /\
  fields (emitted w_gen) = [4; 0; 2; 7; 43; 6] /\
  compiled_sig skip_genexpr w_module w_gen =
    SigOk [(1%N, PosOrKw, None); (2%N, PosOrKw, None); (3%N, PosOrKw, Some 3%N); (4%N, PosOrKw, Some 4%N);
           (5%N, KwOnly, Some 5%N); (6%N, KwOnly, Some 6%N); (7%N, VarKw, None)].
Proof. vm_compute. repeat split; try reflexivity. discriminate. right; left; reflexivity. Qed.

(* ======================================================================================
   Third part: the LAYOUT of the embedded parameter list (AutoDocTransforms.py,
   EmbedSignature._fmt_arglist): which formatted argument goes where, and where the markers
   '/', '*', '*args', '**kwargs' are inserted.  Model/M_ArgList.v, Proof/P_ArgList.v.
   The formatted text of one argument (A) is abstract: its default-value part is the subject
   of the first part. *)
From CyVerif Require Import Model.M_ArgList Proof.P_ArgList.
Open Scope nat_scope.

(* THE PROPERTY for this region: for EVERY source signature (any number of positional-only,
   positional-or-keyword and keyword-only parameters, with or without *args / **kwargs) the list
   _fmt_arglist returns is the canonical rendering - '/' right after the last positional-only
   parameter, '*args' or (with keyword-only parameters and no *args) a bare '*' right in front of
   the keyword-only ones, '**kwargs' last - whenever no argument is hidden: def functions, methods,
   classmethods, staticmethods, cpdef functions, every embedsignature.format. *)
Theorem C25_arglist_canonical : forall (A : Type) (fx hs : bool) (s : sigsrc A),
  fmt_of StarThenSlash fx s hs = canon s.
Proof. exact arglist_canonical. Qed.
Print Assumptions C25_arglist_canonical.

(* methods: a listed self / cls argument is an ordinary first parameter *)
Theorem C25_arglist_visible_self_canonical : forall (A : Type) (fx : bool) (self : A) (s : sigsrc A),
  fmt_of_self StarThenSlash fx self true s false
    = canon {| s_po := self :: s_po s; s_pk := s_pk s; s_va := s_va s; s_ko := s_ko s; s_kw := s_kw s |}
  /\ (s_po s = [] ->
      fmt_of_self StarThenSlash fx self false s false
      = canon {| s_po := []; s_pk := self :: s_pk s; s_va := s_va s; s_ko := s_ko s; s_kw := s_kw s |}).
Proof. exact arglist_visible_self_canonical. Qed.
Print Assumptions C25_arglist_visible_self_canonical.

(* the canonical rendering is read back by the Python parameter-list grammar (one '/', not first,
   before any star; a bare '*' needs a parameter after it; '**' last; None = SyntaxError) as exactly
   the source parameters: names in order, kinds, *args and **kwargs *)
Theorem C25_canon_reads_back : forall (A : Type) (s : sigsrc A), read_sig (canon s) = Some s.
Proof. exact canon_reads_back. Qed.
Print Assumptions C25_canon_reads_back.

(* "the embedded signature text parses to the same parameter list", at the token level *)
Theorem C25_arglist_reads_back : forall (A : Type) (fx hs : bool) (s : sigsrc A),
  read_sig (fmt_of StarThenSlash fx s hs) = Some s.
Proof. exact arglist_reads_back. Qed.
Print Assumptions C25_arglist_reads_back.

(* FULL STATEMENT for a hidden self (format c shows __init__ of a class K as the constructor K(args)
   in the class docstring, hide_self=True), false for the code as found:
     forall self self_po s, (self_po = false -> s_po s = []) ->
       fmt_of_self StarThenSlash false self self_po s true = canon s.
   Refuted (C25_hidden_self_asis_refuted: the hidden self still counts for the marker indices);
   proved for the repaired variant
   (proposed_fixes/C25-c_format_init_hidden_self_shifts_markers.diff) ... *)
Theorem C25_arglist_hidden_self_fixed : forall (A : Type) (self : A) (self_po : bool) (s : sigsrc A),
  (self_po = false -> s_po s = []) ->
  fmt_of_self StarThenSlash true self self_po s true = canon s /\
  read_sig (fmt_of_self StarThenSlash true self self_po s true) = Some s.
Proof.
  intros A self self_po s H. split.
  - exact (@arglist_hidden_self_fixed A self self_po s H).
  - exact (@arglist_hidden_self_fixed_reads_back A self self_po s H).
Qed.
Print Assumptions C25_arglist_hidden_self_fixed.

(* ... and for the code as found on the complement of the finding class: self not positional-only
   and no keyword-only parameters *)
Theorem C25_arglist_hidden_self_asis_partial : forall (A : Type) (self : A) (s : sigsrc A),
  s_po s = [] -> s_ko s = [] ->
  fmt_of_self StarThenSlash false self false s true = canon s.
Proof. exact arglist_hidden_self_asis_partial. Qed.
Print Assumptions C25_arglist_hidden_self_asis_partial.

Theorem C25_hidden_self_asis_refuted :
  fmt_of_self StarThenSlash false 0 false w_init true = [TArg 1; TArg 2; TStar] /\
  read_sig (fmt_of_self StarThenSlash false 0 false w_init true) = None /\
  fmt_of_self StarThenSlash false 0 false w_init2 true = [TArg 1; TArg 2; TVarArgs 9] /\
  read_sig (fmt_of_self StarThenSlash false 0 false w_init2 true) <> Some w_init2 /\
  fmt_of_self StarThenSlash false 0 true
      {| s_po := []; s_pk := [1]; s_va := None; s_ko := []; s_kw := None |} true = [TArg 1; TSlash] /\
  fmt_of_self StarThenSlash true 0 false w_init true = canon w_init /\
  fmt_of_self StarThenSlash true 0 false w_init2 true = canon w_init2.
Proof. exact hidden_self_asis_refuted. Qed.
Print Assumptions C25_hidden_self_asis_refuted.

(* the variant that inserts '/' first and keeps the star index (computed for a list without '/'):
   def f(a, /, b, [star], c) is embedded as f(a, /, [star], b, c) and def h(a, b, /, [star], c) as
   the unparsable h(a, b, [star], /, c) *)
Theorem C25_slash_first_refuted :
  fmt_of SlashThenStar false w_seed false = [TArg 1; TSlash; TStar; TArg 2; TArg 3] /\
  fmt_of SlashThenStar false w_seed false <> canon w_seed /\
  read_sig (fmt_of SlashThenStar false w_seed false)
    = Some {| s_po := [1]; s_pk := []; s_va := None; s_ko := [2; 3]; s_kw := None |} /\
  fmt_of SlashThenStar false w_seed2 false = [TArg 1; TArg 2; TStar; TSlash; TArg 3] /\
  read_sig (fmt_of SlashThenStar false w_seed2 false) = None /\
  fmt_of StarThenSlash false w_seed false = canon w_seed /\
  fmt_of StarThenSlash false w_seed2 false = canon w_seed2.
Proof. exact slash_first_refuted. Qed.
Print Assumptions C25_slash_first_refuted.

Example C25_arglist_nonvacuous :   (* def g(a, b, /, c, [star]args, d, e, [2star]kw) *)
  fmt_of StarThenSlash false
    {| s_po := [1; 2]; s_pk := [3]; s_va := Some 7; s_ko := [4; 5]; s_kw := Some 8 |} false
  = [TArg 1; TArg 2; TSlash; TArg 3; TVarArgs 7; TArg 4; TArg 5; TKwArgs 8].
Proof. vm_compute. reflexivity. Qed.
