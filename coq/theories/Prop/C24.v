(* C24 — Argument binding matches CPython for every signature and call.
   Only statements; proofs live in Proof/P_ArgBind.v and, for the two kwds-dict loops, Proof/P_ArgBindDict.v.

   bind_cy  = the generated wrapper (Nodes.py DefNodeWrapper) + FunctionArguments.c ParseKeywords*,
   bind_py  = CPython's initialize_locals; call_cy/call_py add what CPython's caller does before a
   vectorcall callee is entered (non-str keys never reach a kwnames tuple).
   erase    = what the property observes: the bound values per parameter (declaration order), the
   *args tuple, the **kwargs content in order (not observable when the body never reads it), or the
   exception class TypeError.

   Full statement (all four calling conventions):
     forall V vc pth s (c : call V), wf_sig s = true -> wf_path pth s = true -> wf_entry vc pth = true ->
       keys_nodup (c_kws c) = true -> erase s (call_cy vc pth s c) = erase s (call_py s c).
   Proved in full as C24_bind_eq (last theorem).  The route: (a) every convention except a wrapper with
   named parameters entered with a kwds *dict* (C24_bind_eq_partial), (b) the remaining case reduced to
   one obligation on the two dict loops (C24_bind_eq_given_dict_loops), (c) that obligation discharged:
   C24_dict_to_dict_loop (__Pyx_ParseKeywordDictToDict) and C24_dict_loop (__Pyx_ParseKeywordDict, whose
   counting early exit needs a pigeonhole argument), in Proof/P_ArgBindDict.v. *)
From Coq Require Import List Bool Arith.
From CyVerif Require Import Model.M_ArgBind Proof.P_ArgBind Proof.P_ArgBindDict.
Import ListNotations.

Theorem C24_bind_eq_partial : forall V vc pth s (c : call V),
  wf_sig s = true -> wf_path pth s = true -> wf_entry vc pth = true -> keys_nodup (c_kws c) = true ->
  (pth <> PDict \/ length (all_args s) = 0) ->
  erase s (call_cy vc pth s c) = erase s (call_py s c).
Proof. exact call_eq_partial. Qed.
Print Assumptions C24_bind_eq_partial.

Theorem C24_bind_eq_given_dict_loops : forall V vc pth s (c : call V),
  wf_sig s = true -> wf_path pth s = true -> wf_entry vc pth = true -> keys_nodup (c_kws c) = true ->
  (length (all_args s) <> 0 -> parser_ok pth) ->
  erase s (call_cy vc pth s c) = erase s (call_py s c).
Proof. exact call_eq_param. Qed.
Print Assumptions C24_bind_eq_given_dict_loops.

(* the kwnames-tuple loop is, for str keys, exactly the reference loop (same error kind) ... *)
Theorem C24_tuple_loop : forall V (kws : list (key * V)) names first off ignore values kwds2,
  NoDup names -> all_str kws ->
  parse_tuple kws names first off ignore values kwds2 = parse_ref kws names first off ignore values kwds2.
Proof. exact parse_tuple_ref. Qed.
Print Assumptions C24_tuple_loop.

(* ... and so is CPython's keyword loop, started from the positionally filled slots *)
Theorem C24_cpython_loop : forall V (kws : list (key * V)) names npo nfill slots d,
  NoDup (skipn npo names) -> all_str kws -> keys_nodup kws = true ->
  py_inv kws (skipn npo names) npo nfill slots ->
  py_kw kws names npo slots d = parse_ref kws (skipn npo names) nfill npo false slots d.
Proof. exact py_kw_ref. Qed.
Print Assumptions C24_cpython_loop.

(* the distinct-keys hypothesis is necessary: a kwnames tuple with a repeated name (which PEP 590
   forbids and no Python-level call produces) is bound silently by the generated loop, CPython raises *)
Theorem C24_duplicate_kwnames_refuted : exists s (c : call nat),
  wf_sig s = true /\ keys_nodup (c_kws c) = false /\
  erase s (call_cy true PTuple s c) <> erase s (call_py s c).
Proof.
  exists (mkSig [] [mkParam 1 false] false [] false false).
  exists (mkCall [] [(mkKey 1 KInterned, 7); (mkKey 1 KInterned, 8)]).
  repeat split. vm_compute. discriminate.
Qed.
Print Assumptions C24_duplicate_kwnames_refuted.

(* error side of the two dict loops (the halves of parser_ok PDict that need no counting argument):
   the duplicate test of __Pyx_ValidateDuplicatePosArgs is exact, and __Pyx_RejectUnknownKeyword
   never falls through without an exception when a keyword is bad *)
Theorem C24_dict_validate_dup_exact : forall V (kws : list (key * V)) names first,
  NoDup names ->
  validate_dup kws names first = existsb (fun kv => kw_dup names first (fst kv)) kws.
Proof. exact validate_dup_exact. Qed.
Print Assumptions C24_dict_validate_dup_exact.

Theorem C24_dict_reject_unknown_blames : forall V (kws : list (key * V)) names first,
  NoDup names -> all_str kws ->
  existsb (fun kv => kw_bad names first true (fst kv)) kws = true ->
  reject_unknown kws names first <> EImpossible.
Proof. exact reject_unknown_blames. Qed.
Print Assumptions C24_dict_reject_unknown_blames.

(* the pop loop of __Pyx_ParseKeywordDictToDict, characterised: every name equal to some key gets that
   key's value; exactly those keys leave the dict and the order of the rest is kept *)
Theorem C24_dict_pop_loop : forall V ns idx off (values : list (option V)) d,
  NoDup ns -> keys_nodup d = true ->
  let '(values', d') := dict_pop_all ns idx off values d in
  length values' = length values /\
  (forall a, nth a values' None =
     if (off + idx <=? a) && (a <? off + idx + length ns) && (a <? length values)
     then match dict_get (nth (a - off - idx) ns 0) d with Some v => Some v | None => nth a values None end
     else nth a values None) /\
  d' = filter (fun kv => negb (existsb (key_eq (fst kv)) ns)) d.
Proof. exact dict_pop_all_spec. Qed.
Print Assumptions C24_dict_pop_loop.

(* __Pyx_ParseKeywordDictToDict (kwds dict convention, wrapper with **kwargs) agrees with the reference loop *)
Theorem C24_dict_to_dict_loop : forall V (kws : list (key * V)) names first off ignore values,
  NoDup names -> all_str kws -> keys_nodup kws = true -> first <= length names ->
  sim (parse_keywords PDict kws names first off ignore values (Some []))
      (parse_ref kws names first off ignore values (Some [])).
Proof. exact parser_ok_dict2dict. Qed.
Print Assumptions C24_dict_to_dict_loop.

(* hence the full statement, with no obligation left, for every signature whose body uses its **kwargs:
   all four calling conventions including a kwds dict.  Wrappers without a used **kwargs entered with a
   kwds dict go through the other loop, __Pyx_ParseKeywordDict (C24_dict_loop below). *)
Theorem C24_bind_eq_starstar : forall V vc pth s (c : call V),
  wf_sig s = true -> wf_path pth s = true -> wf_entry vc pth = true -> keys_nodup (c_kws c) = true ->
  s_starstar s && s_kwused s = true ->
  erase s (call_cy vc pth s c) = erase s (call_py s c).
Proof. exact call_eq_starstar. Qed.
Print Assumptions C24_bind_eq_starstar.

Example C24_starstar_nonvacuous :
  let s := mkSig [] [mkParam 1 false; mkParam 2 true] false [mkParam 3 true] true true in
  let c := mkCall [10] [(mkKey 3 KEqual, 20); (mkKey 9 KSub, 21); (mkKey 2 KInterned, 22)] in
  wf_sig s = true /\ wf_path PDict s = true /\ wf_entry false PDict = true /\ keys_nodup (c_kws c) = true /\
  s_starstar s && s_kwused s = true /\
  call_cy false PDict s c = Bound [(1, Given 10); (2, Given 22); (3, Given 20)] None (Some [(mkKey 9 KSub, 21)]).
Proof. vm_compute. repeat split. Qed.

(* __Pyx_ParseKeywordDict (kwds dict, no **kwargs to fill): its counting early exit `extracted < nkw`
   is sound by a pigeonhole argument (distinct names hit by keys are at most as many as the keys, and as
   many exactly when every key matches a name at or after [first]) *)
Theorem C24_dict_loop : forall V (kws : list (key * V)) names first off ignore values,
  NoDup names -> all_str kws -> keys_nodup kws = true -> first <= length names ->
  sim (parse_keywords PDict kws names first off ignore values None)
      (parse_ref kws names first off ignore values None).
Proof. exact parser_ok_dict_none. Qed.
Print Assumptions C24_dict_loop.

(* THE FULL STATEMENT: every well-formed signature, every calling convention (kwnames tuple, kwds dict,
   METH_NOARGS, METH_O), every call with pairwise distinct keys - no obligation left *)
Theorem C24_bind_eq : forall V vc pth s (c : call V),
  wf_sig s = true -> wf_path pth s = true -> wf_entry vc pth = true -> keys_nodup (c_kws c) = true ->
  erase s (call_cy vc pth s c) = erase s (call_py s c).
Proof. exact call_eq_full. Qed.
Print Assumptions C24_bind_eq.

Example C24_nonvacuous :
  let s := mkSig [mkParam 1 false] [mkParam 2 false; mkParam 3 true] true [mkParam 4 true; mkParam 5 false] true true in
  let c := mkCall [10; 11] [(mkKey 5 KSub, 20); (mkKey 9 KEqual, 21); (mkKey 3 KInterned, 22)] in
  wf_sig s = true /\ wf_path PTuple s = true /\ wf_entry true PTuple = true /\ keys_nodup (c_kws c) = true /\
  call_cy true PTuple s c =
    Bound [(1, Given 10); (2, Given 11); (3, Given 22); (4, Default); (5, Given 20)] (Some [])
          (Some [(mkKey 9 KEqual, 21)]).
Proof. vm_compute. repeat split. Qed.
