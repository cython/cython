(* C19 - Comparisons and membership tests match CPython.
   Statements (the examples are evaluated in place); proofs live in Proof/P_Cmp.v (cascades,
   FlattenInListTransform), Proof/P_CmpSw.v (SwitchTransform), Proof/P_CmpInt.v (PyObjectCompare
   on two ints), Proof/P_CmpFloat.v + Proof/P_CmpFloatQ.v (PyObjectCompare on a float and an
   int), Proof/P_CmpFold.v (ConstantFolding.visit_PrimaryCmpNode: constant links of a chain) and
   Proof/P_CmpNot.v (ConstantFolding._handle_NotNode).
   Models: Model/M_Cmp.v, Model/M_CmpInt.v, Model/M_CmpFloat.v, Model/M_CmpFold.v, Model/M_CmpNot.v.
   The flags chk, lhs_outer, fix_and and tail_fix of the model functions select the code as it
   is (false) or the proposed repair (true); drop_left = true is a defective variant of the
   folding, kept to be refuted. *)
From Coq Require Import ZArith List Bool.
From CyVerif Require Import Lib.CInt Lib.PyLong Model.M_Cmp Proof.P_Cmp Proof.P_CmpSw.
From CyVerif Require Import Model.M_CmpInt Proof.P_CmpInt Model.M_CmpFloat Proof.P_CmpFloat Proof.P_CmpFloatQ.
From CyVerif Require Import Model.M_CmpFold Proof.P_CmpFold Model.M_CmpNot Proof.P_CmpNot.
Import ListNotations.
Open Scope Z_scope.

(* ---- cascaded comparisons: PrimaryCmpNode / CascadedCmpNode code = Python reference,
        same value or exception and same trace (operand evaluations, comparison calls,
        truth tests), for every cascade, every comparison and truth oracle ---- *)
Theorem C19_cascade_trace_eq : forall cmp truth (c : cascade),
  snd c <> [] -> run_cascade cmp truth true c = ref_cascade cmp truth c.
Proof. exact cascade_trace_eq. Qed.
Print Assumptions C19_cascade_trace_eq.

(* the code as it is (truth test of the intermediate result unchecked) is right when no
   truth test raises ... *)
Theorem C19_cascade_old_eq_partial : forall cmp truth (c : cascade),
  snd c <> [] -> (forall v x, truth v <> inr x) ->
  run_cascade cmp truth false c = ref_cascade cmp truth c.
Proof. intros. apply run_cascade_eq; [right; assumption|assumption]. Qed.
Print Assumptions C19_cascade_old_eq_partial.

(* ... and wrong otherwise (finding cascade_truth_error_ignored) *)
Theorem C19_cascade_old_refuted : exists cmp truth (c : cascade),
  snd c <> [] /\ run_cascade cmp truth false c <> ref_cascade cmp truth c.
Proof. exact cascade_old_refuted. Qed.
Print Assumptions C19_cascade_old_refuted.

(* each operand at most once, left to right, evaluation stops at some link *)
Theorem C19_cascade_operands_once : forall cmp truth (c : cascade),
  snd c <> [] -> all_logged c ->
  exists n, filter is_opev (fst (run_cascade cmp truth true c))
            = map EvOp (firstn n (map o_id (fst c :: map snd (snd c)))).
Proof. exact cascade_operands_once. Qed.
Print Assumptions C19_cascade_operands_once.

(* ---- FlattenInListTransform (left operand temp outermost = proposed repair):
        x in (a, b, ...) rewritten into the ==/or chain evaluates exactly like CPython's
        containment test, operand evaluation order included.  Hypotheses = complement of the
        other findings: == symmetric and true on identical objects, name/attribute members
        pure, operands of a set display hashable ---- *)
Theorem C19_flatten_in_eq : forall same eqb hashable te (e : intest),
  (forall a b, eqb a b = eqb b a) ->
  (forall a b, same a b = true -> eqb a b = true) ->
  simple_pure e -> set_hashable hashable e ->
  run_flatten same eqb hashable te true e = ref_in same eqb hashable te e.
Proof. intros. apply flatten_eq; assumption. Qed.
Print Assumptions C19_flatten_in_eq.

(* the transform as it is: right when no member needs a temp or the left operand is pure *)
Theorem C19_flatten_in_old_eq_partial : forall same eqb hashable te (e : intest),
  (forall a b, eqb a b = eqb b a) ->
  (forall a b, same a b = true -> eqb a b = true) ->
  simple_pure e -> set_hashable hashable e ->
  (Forall (fun m => m_simple m = true) (i_members e) \/ pure_op (i_lhs e)) ->
  run_flatten same eqb hashable te false e = ref_in same eqb hashable te e.
Proof. intros. apply flatten_old_eq_partial; assumption. Qed.
Print Assumptions C19_flatten_in_old_eq_partial.

(* F25: left operand evaluated after the member temps *)
Theorem C19_flatten_in_order_refuted : exists same eqb hashable te (e : intest),
  (forall a b, eqb a b = eqb b a) /\ (forall a b, same a b = true -> eqb a b = true) /\
  simple_pure e /\ set_hashable hashable e /\
  run_flatten same eqb hashable te false e <> ref_in same eqb hashable te e.
Proof. exact flatten_order_refuted. Qed.
Print Assumptions C19_flatten_in_order_refuted.

(* each remaining hypothesis of C19_flatten_in_eq is necessary (one finding each) *)
Theorem C19_flatten_in_lazy_simple_refuted : exists same eqb hashable te (e : intest),
  (forall a b, eqb a b = eqb b a) /\ (forall a b, same a b = true -> eqb a b = true) /\
  set_hashable hashable e /\
  run_flatten same eqb hashable te true e <> ref_in same eqb hashable te e.
Proof. exact flatten_lazy_simple_refuted. Qed.
Print Assumptions C19_flatten_in_lazy_simple_refuted.

Theorem C19_flatten_in_identity_refuted : exists same eqb hashable te (e : intest),
  (forall a b, eqb a b = eqb b a) /\ simple_pure e /\ set_hashable hashable e /\
  run_flatten same eqb hashable te true e <> ref_in same eqb hashable te e.
Proof. exact flatten_identity_refuted. Qed.
Print Assumptions C19_flatten_in_identity_refuted.

Theorem C19_flatten_in_set_unhashable_refuted : exists same eqb hashable te (e : intest),
  (forall a b, eqb a b = eqb b a) /\ (forall a b, same a b = true -> eqb a b = true) /\
  simple_pure e /\
  run_flatten same eqb hashable te true e <> ref_in same eqb hashable te e.
Proof. exact flatten_set_unhashable_refuted. Qed.
Print Assumptions C19_flatten_in_set_unhashable_refuted.

(* ---- SwitchTransform (and-chains accepted only for != : proposed repair): for every
        if/elif chain, whatever visit_IfStatNode returns (a switch, or the chain with its
        conditions rewritten by the expression visitors) executes the same branch with the
        same trace ---- *)
Theorem C19_switch_eq : forall envv envo envb cls els,
  clauses_wf envv cls ->
  exec_stmt envv envo envb (visit_if true cls els) = exec_clauses envv envo envb cls els.
Proof. exact switch_eq. Qed.
Print Assumptions C19_switch_eq.

Theorem C19_switch_accept_eq : forall envv envo envb cls els s,
  clauses_wf envv cls -> to_switch true cls els = Some s ->
  exec_stmt envv envo envb s = exec_clauses envv envo envb cls els.
Proof. exact to_switch_sound. Qed.
Print Assumptions C19_switch_accept_eq.

(* boolean and conditional expressions (build_simple_switch_statement) *)
Theorem C19_switch_expr_eq : forall envv envo envb c,
  cond_wf envv c -> eval_cond envv envo envb (xform true c) = eval_cond envv envo envb c.
Proof. intros. apply xform_sound. assumption. Qed.
Print Assumptions C19_switch_expr_eq.

(* the code as it is: right on and-free chains, wrong on `x == 1 and x == 2` *)
Theorem C19_switch_old_eq_partial : forall envv envo envb cls els,
  clauses_wf envv cls -> Forall (fun cl => and_free (c_cond cl)) cls ->
  exec_stmt envv envo envb (visit_if false cls els) = exec_clauses envv envo envb cls els.
Proof. intros. rewrite visit_if_and_free by assumption. apply switch_eq. assumption. Qed.
Print Assumptions C19_switch_old_eq_partial.

Theorem C19_switch_and_old_refuted : exists envv envo envb c,
  cond_wf envv c /\ eval_cond envv envo envb (xform false c) <> eval_cond envv envo envb c.
Proof. exact switch_and_old_refuted. Qed.
Print Assumptions C19_switch_and_old_refuted.

(* the C compiler's precondition is DERIVED from has_duplicate_values = false: distinct keys
   (constant_result / enum value / cname) plus key-faithfulness give pairwise distinct case
   values; integer labels are key-faithful by construction *)
Theorem C19_switch_labels_distinct : forall fa cls els subj cases els',
  to_switch fa cls els = Some (SSwitch subj cases els') ->
  faithful (all_labels cases) ->
  stmt_valid (SSwitch subj cases els') = true /\ (2 <= length (all_labels cases))%nat.
Proof. exact switch_labels_distinct. Qed.
Print Assumptions C19_switch_labels_distinct.

Theorem C19_switch_expr_labels_distinct : forall fa c ni s ls,
  try_expr fa c = Some (CSw ni s ls) -> faithful ls ->
  nodupz (map l_val ls) = true /\ (2 <= length ls)%nat.
Proof. exact switch_expr_labels_distinct. Qed.
Print Assumptions C19_switch_expr_labels_distinct.

Theorem C19_lit_labels_faithful : forall ls, Forall (fun l => label_lit l = true) ls -> faithful ls.
Proof. exact lit_labels_faithful. Qed.
Print Assumptions C19_lit_labels_faithful.

Theorem C19_declines_on_duplicates : forall fa cls els l1 l2 pre mid post cv cases,
  collect fa None cls = Some (cv, cases) ->
  all_labels cases = pre ++ l1 :: mid ++ l2 :: post ->
  key_eqb (l_key l1) (l_key l2) = true ->
  to_switch fa cls els = None.
Proof. exact declines_on_duplicates. Qed.
Print Assumptions C19_declines_on_duplicates.

(* key-faithfulness fails for a bytes character against an integer with the same value:
   `b in b"ab" ... elif b == 97` is accepted and yields duplicate case labels (finding) *)
Theorem C19_switch_labels_unfaithful_refuted : exists cls els subj cases els',
  to_switch true cls els = Some (SSwitch subj cases els') /\
  stmt_valid (SSwitch subj cases els') = false.
Proof. exact switch_labels_unfaithful_refuted. Qed.
Print Assumptions C19_switch_labels_unfaithful_refuted.

(* ---- PyObjectCompare on two Python ints (Cython/Utility/Optimize.c:
        __Pyx_PyObject_CompareIntInt<Op> + __Pyx_PyLong_CompareSignAndSize): for every operator,
        every configuration satisfying cfg_ok and every pair of well-formed CPython ints (any
        sign, any number of digits) the helper returns the comparison of the two values and no
        signed Py_ssize_t operation overflows (Some).  rich = PyObject_RichCompare contract,
        reached only without CYTHON_USE_PYLONG_INTERNALS when both operands overflow long long
        on the same side ---- *)
Theorem C19_intint_eq : forall c rich op a b,
  cfg_ok c -> (forall o x y, rich o x y = zop o x y) ->
  wf (i_sh c) a -> wf (i_sh c) b ->
  cmp_intint c rich op a b = Some (zop op (value (i_sh c) a) (value (i_sh c) b)).
Proof. exact intint_correct. Qed.
Print Assumptions C19_intint_eq.

(* the dispatcher's identity shortcut (op1 == op2) agrees with it *)
Theorem C19_intint_identity_eq : forall c rich op (same : bool) a b,
  cfg_ok c -> (forall o x y, rich o x y = zop o x y) ->
  wf (i_sh c) a -> wf (i_sh c) b -> (same = true -> a = b) ->
  cmp_exact c rich op same a b = Some (zop op (value (i_sh c) a) (value (i_sh c) b)).
Proof. exact exact_correct. Qed.
Print Assumptions C19_intint_identity_eq.

(* stated on values (operands = the normalised representation PyLong_From* builds).  The
   correspondence run evaluates cmp_exact on representations that the extracted wfb and value
   certify (wf, value = the operand), i.e. on instances of the previous theorem, and compares
   them with of_Z for operands of up to 8 digits and with lv_tag / ob_digit read from memory *)
Theorem C19_intint_values_eq : forall c op (same : bool) x y,
  cfg_ok c -> (same = true -> x = y) -> cmp_values c op same x y = Some (zop op x y).
Proof. exact values_correct. Qed.
Print Assumptions C19_intint_values_eq.

(* the digit loop, entered at index k-1, compares the numbers formed by the k low digits: every
   digit position down to index 0 takes part *)
Theorem C19_intint_digit_loop : forall sh w a b, 0 <= sh -> sh < w ->
  digits_ok sh (pl_digits a) -> digits_ok sh (pl_digits b) ->
  length (pl_digits a) = length (pl_digits b) ->
  forall k, (k <= length (pl_digits a))%nat ->
  exists d, digit_loop w a b k 0 = Some d /\
            cmp_says w d (mag sh (firstn k (pl_digits a))) (mag sh (firstn k (pl_digits b))).
Proof. exact digit_loop_spec. Qed.
Print Assumptions C19_intint_digit_loop.

(* the configurations: CPython 3.12 LP64 (run), the same without PyLong internals (run),
   pre-3.12 Py_SIZE layout, 15-bit digits on ILP32 *)
Theorem C19_intint_configs :
  cfg_ok lp64_312 /\ cfg_ok lp64_noint /\ cfg_ok lp64_311 /\ cfg_ok ilp32_15.
Proof. exact (conj cfg_ok_lp64_312 (conj cfg_ok_lp64_noint (conj cfg_ok_lp64_311 cfg_ok_ilp32_15))). Qed.
Print Assumptions C19_intint_configs.

(* non-trivial instance: two three-digit ints that differ in the lowest digit only are told
   apart, after three iterations of the digit loop (branch 6) *)
Example C19_intint_nonvacuous :
  cmp_values lp64_312 OpEq false (2 ^ 60 + 1) (2 ^ 60 + 2) = Some false /\
  cmp_values lp64_312 OpLt false (2 ^ 60 + 1) (2 ^ 60 + 2) = Some true /\
  branch_values lp64_312 (2 ^ 60 + 1) (2 ^ 60 + 2) = (6, 3).
Proof. vm_compute. repeat split. Qed.

(* ---- PyObjectCompare on an exact float and an exact int (Cython/Utility/Optimize.c:
        __Pyx_PyObject_CompareFloatInt<Op> / __Pyx_PyObject_CompareIntFloat<Op>).  A double is nan,
        an infinity or a finite dyadic rational n / 2^k (DFin n k; every IEEE double is one).
        For every operator, every such double, every well-formed CPython int (any sign, any
        number of digits) and every configuration satisfying fcfg_ok - CYTHON_USE_PYLONG_INTERNALS
        on or off, lv_tag or ob_size layout - the helper returns the comparison of the two VALUES
        (fop / zfop: cross-multiplied integers, = the order of the rationals, see
        C19_float_oracle_is_rational_order), and never converts an integer to double inexactly
        (Some).  rich = the final PyObject_RichCompare, contract: CPython compares exactly ---- *)
Theorem C19_floatint_eq : forall c rich op f b,
  fcfg_ok c -> (forall o g z, rich o g z = fop o g z) ->
  dbl_ok f -> wf (i_sh (f_i c)) b ->
  cmp_floatint c rich op f b = Some (fop op f (value (i_sh (f_i c)) b)).
Proof. exact floatint_correct. Qed.
Print Assumptions C19_floatint_eq.

Theorem C19_intfloat_eq : forall c rich op a f,
  fcfg_ok c -> (forall o z g, rich o z g = zfop o z g) ->
  dbl_ok f -> wf (i_sh (f_i c)) a ->
  cmp_intfloat c rich op a f = Some (zfop op (value (i_sh (f_i c)) a) f).
Proof. exact intfloat_correct. Qed.
Print Assumptions C19_intfloat_eq.

(* the dispatcher on exact float / int operands in any combination (float-float = the C
   comparison of the doubles; int-int with the identity shortcut) *)
Theorem C19_num_eq : forall c rfz rzf rzz op (same : bool) a b,
  fcfg_ok c -> (forall o g z, rfz o g z = fop o g z) -> (forall o z g, rzf o z g = zfop o z g) ->
  (forall o x y, rzz o x y = zop o x y) ->
  num_ok (i_sh (f_i c)) a -> num_ok (i_sh (f_i c)) b ->
  (same = true -> a = b) -> (same = true -> exists x, a = NInt x) ->
  cmp_num c rfz rzf rzz op same a b = Some (num_op (i_sh (f_i c)) op a b).
Proof. exact num_correct. Qed.
Print Assumptions C19_num_eq.

(* the two preprocessor variants (and the two struct layouts) of each helper agree *)
Theorem C19_floatint_variants_agree : forall c1 c2 rich op f b,
  fcfg_ok c1 -> fcfg_ok c2 -> i_sh (f_i c1) = i_sh (f_i c2) ->
  (forall o g z, rich o g z = fop o g z) -> dbl_ok f -> wf (i_sh (f_i c1)) b ->
  cmp_floatint c1 rich op f b = cmp_floatint c2 rich op f b.
Proof. exact floatint_variants_agree. Qed.
Print Assumptions C19_floatint_variants_agree.

Theorem C19_intfloat_variants_agree : forall c1 c2 rich op a f,
  fcfg_ok c1 -> fcfg_ok c2 -> i_sh (f_i c1) = i_sh (f_i c2) ->
  (forall o z g, rich o z g = zfop o z g) -> dbl_ok f -> wf (i_sh (f_i c1)) a ->
  cmp_intfloat c1 rich op a f = cmp_intfloat c2 rich op a f.
Proof. exact intfloat_variants_agree. Qed.
Print Assumptions C19_intfloat_variants_agree.

Theorem C19_intint_variants_agree : forall c1 c2 rich op a b,
  cfg_ok c1 -> cfg_ok c2 -> i_sh c1 = i_sh c2 ->
  (forall o x y, rich o x y = zop o x y) -> wf (i_sh c1) a -> wf (i_sh c1) b ->
  cmp_intint c1 rich op a b = cmp_intint c2 rich op a b.
Proof. exact intint_variants_agree. Qed.
Print Assumptions C19_intint_variants_agree.

(* the oracle is the order of the rational n / 2^k and the integer z *)
Theorem C19_float_oracle_is_rational_order : forall n k z, 0 <= k ->
  fz_cmp (DFin n k) z = Some (QArith_base.Qcompare (q_of n k) (QArith_base.inject_Z z)) /\
  zf_cmp z (DFin n k) = Some (QArith_base.Qcompare (QArith_base.inject_Z z) (q_of n k)).
Proof. intros n k z H. exact (conj (fz_cmp_rational n k z H) (zf_cmp_rational n k z H)). Qed.
Print Assumptions C19_float_oracle_is_rational_order.

(* configurations: CPython 3.12 LP64 with internals (run) and without (run), pre-3.12 layout *)
Theorem C19_floatint_configs : fcfg_ok f_lp64_312 /\ fcfg_ok f_lp64_noint /\ fcfg_ok f_lp64_311.
Proof. exact (conj fcfg_ok_lp64_312 (conj fcfg_ok_lp64_noint fcfg_ok_lp64_311)). Qed.
Print Assumptions C19_floatint_configs.

(* NOT covered by fcfg_ok, and false there: a 32-bit long (LLP64) without PyLong internals.
   PyLong_AsLongAndOverflow overflows from 2^31 on, but the shortcut taken on overflow assumes
   the int is at least 2^53:  2.0**45 < 2**40  evaluates to True.  (Not reproducible on this
   LP64 machine; the model follows the C text.) *)
Theorem C19_floatint_long32_refuted :
  exists op f z, dbl_ok f /\
    cmp_floatint f_llp64_noint fop op f (of_Z 30 z) <> Some (fop op f z).
Proof. exact floatint_long32_refuted. Qed.
Print Assumptions C19_floatint_long32_refuted.

(* non-trivial instance: -1.5 against -(2**40) (float of small magnitude, negative multi-digit
   int) is decided by the same-sign shortcut (branch 4) with internals and as doubles (7) without *)
Example C19_floatint_nonvacuous :
  let b := of_Z 30 (- 2 ^ 40) in let f := DFin (-3) 1 in
  cmp_floatint f_lp64_312 fop OpLt f b = Some false /\
  cmp_floatint f_lp64_312 fop OpGt f b = Some true /\
  cmp_floatint f_lp64_noint fop OpLt f b = Some false /\
  cmp_intfloat f_lp64_312 zfop OpLt b f = Some true /\
  fbranch f_lp64_312 false f b = 4 /\ fbranch f_lp64_noint false f b = 7.
Proof. vm_compute. repeat split. Qed.

(* the hypotheses are satisfiable on non-trivial values: a 3-link cascade that stops at the
   second link, a flattened test with two member temps, an accepted 3-clause chain *)
Example C19_nonvacuous :
  (let c := (mkOp 0 true (inl 1), [(0, mkOp 1 true (inl 2)); (0, mkOp 2 true (inl 3)); (0, mkOp 3 true (inl 4))]) in
   let cmp := fun (_ : Z) (a b : val) => inl (if a <? 2 then 1 else 0) : val + exn in
   let truth := fun v : val => inl (negb (v =? 0)) : bool + exn in
   snd c <> [] /\
   run_cascade cmp truth true c = ([EvOp 0; EvOp 1; EvCmp 0 1 2; EvTruth 1; EvOp 2; EvCmp 0 2 3; EvTruth 0], OVal 0))
  /\
  (let e := mkIn false (mkOp 0 true (inl 5)) false KTuple
              [mkM false false false (mkOp 1 true (inl 4)); mkM true false false (mkOp 2 false (inl 5));
               mkM false false false (mkOp 3 true (inl 6))] in
   simple_pure e /\ set_hashable (fun _ => true) e /\
   run_flatten Z.eqb Z.eqb (fun _ => true) 900 true e = ([EvOp 0; EvOp 1; EvOp 3], OVal true))
  /\
  (let x := SVar [1] false TyInt in
   let lit := fun z => SLit (mkL (KInt z) z TyInt) in
   let cls := [mkC (CCmpC CopEq x (lit 1) false) 10;
               mkC (COr (CCmpC CopEq x (lit 2) false) (CCmpC CopEq (lit 3) x false)) 20;
               mkC (CInStr false x false [7; 5; 7]) 30] in
   clauses_wf (fun _ => 5) cls /\
   visit_if true cls (Some 40) =
     SSwitch x [([mkL (KInt 1) 1 TyInt], 10); ([mkL (KInt 2) 2 TyInt; mkL (KInt 3) 3 TyInt], 20);
                ([mkL (KInt 5) 5 TyInt; mkL (KInt 7) 7 TyInt], 30)] (Some 40) /\
   exec_stmt (fun _ => 5) (fun _ => 0) (fun _ => false) (visit_if true cls (Some 40)) = ([], Some 30)).
Proof.
  split; [|split].
  - split; [discriminate|vm_compute; reflexivity].
  - split; [|split].
    + split; [discriminate|]. constructor; [discriminate|].
      constructor; [intros _; split; [reflexivity|exists 5; reflexivity]|].
      constructor; [discriminate|constructor].
    + discriminate.
    + vm_compute. reflexivity.
  - split; [|split].
    + constructor; [cbn; auto|]. constructor; [cbn; auto|]. constructor; [cbn; auto|constructor].
    + vm_compute. reflexivity.
    + vm_compute. reflexivity.
Qed.

(* ---- ConstantFolding.visit_PrimaryCmpNode: a comparison chain whose links between two
        constants are folded at compile time (constant-True link dropped, constant-False link
        cuts the chain, the remaining partial cascades joined by `and`) evaluates like the
        unfolded chain - same value or exception, same operand evaluations, same comparison
        calls and truth tests of logging objects - for EVERY chain, every constness assignment,
        every semantics of the non-constant operands, every compile-time oracle that agrees with
        the run-time comparison of the constants, when comparison results are True/False;
        both for the code as it is (tf = false) and the repaired tail (tf = true) ---- *)
Theorem C19_constfold_chain_eq :
  forall ct cmp truth vbool loud,
    (forall b, truth (vbool b) = inl b) -> (forall b, loud (vbool b) = false) ->
    (forall op a b r, cmp op a b = inl r -> exists bb, r = vbool bb) ->
    (forall op a b r, ct op a b = Some r -> cmp op a b = inl (vbool r)) ->
    forall tf (c : chain), snd c <> [] -> chain_ok loud c ->
    obs loud (run_fold cmp truth vbool ct tf false c) = obs loud (ref_cascade cmp truth (plain c)).
Proof. exact fold_correct. Qed.
Print Assumptions C19_constfold_chain_eq.

(* a partial cascade of the folded chain runs on the temp machine of the first theorem *)
Theorem C19_constfold_segment_is_cascade : forall cmp truth vbool (c : cascade),
  snd c <> [] -> eval_node cmp truth vbool (FCasc c) [] = run_cascade cmp truth true c.
Proof. exact fold_segment_is_cascade. Qed.
Print Assumptions C19_constfold_segment_is_cascade.

(* the variant that throws the partial cascades to the left of a constant-False link away
   (`f() < 1 > 2` -> False, f never called) violates the statement under the same hypotheses *)
Theorem C19_constfold_drop_left_refuted :
  exists ct cmp truth vbool loud (c : chain),
    (forall b, truth (vbool b) = inl b) /\ (forall b, loud (vbool b) = false) /\
    (forall op a b r, cmp op a b = inl r -> exists bb, r = vbool bb) /\
    (forall op a b r, ct op a b = Some r -> cmp op a b = inl (vbool r)) /\
    chain_ok loud c /\ snd c <> [] /\
    obs loud (run_fold cmp truth vbool ct false true c) <> obs loud (ref_cascade cmp truth (plain c)).
Proof. exact fold_drop_left_refuted. Qed.
Print Assumptions C19_constfold_drop_left_refuted.

(* FULL statement (comparison results may be arbitrary objects, hypothesis 3 dropped): false for
   the code as it is - `w < 2 > 1` returns the result object of w < 2 untested where Python
   tests it and returns True (finding constfold_true_tail_result_untested; tf = true repairs
   this witness) ... *)
Theorem C19_constfold_objresult_refuted :
  exists ct cmp truth vbool loud (c : chain),
    (forall b, truth (vbool b) = inl b) /\ (forall b, loud (vbool b) = false) /\
    (forall op a b r, ct op a b = Some r -> cmp op a b = inl (vbool r)) /\
    chain_ok loud c /\ snd c <> [] /\
    obs loud (run_fold cmp truth vbool ct false false c) <> obs loud (ref_cascade cmp truth (plain c)) /\
    obs loud (run_fold cmp truth vbool ct true false c) = obs loud (ref_cascade cmp truth (plain c)).
Proof. exact fold_objresult_refuted. Qed.
Print Assumptions C19_constfold_objresult_refuted.

(* ... and also with the repaired tail: a falsy result object inside a partial cascade of two
   links that is followed by another node is truth-tested twice (finding
   constfold_segment_result_tested_twice) *)
Theorem C19_constfold_double_truth_refuted :
  exists ct cmp truth vbool loud (c : chain),
    (forall b, truth (vbool b) = inl b) /\ (forall b, loud (vbool b) = false) /\
    (forall op a b r, ct op a b = Some r -> cmp op a b = inl (vbool r)) /\
    chain_ok loud c /\ snd c <> [] /\
    obs loud (run_fold cmp truth vbool ct true false c) <> obs loud (ref_cascade cmp truth (plain c)).
Proof. exact fold_double_truth_refuted. Qed.
Print Assumptions C19_constfold_double_truth_refuted.

(* hypotheses of C19_constfold_chain_eq are satisfiable on a chain with a call, a constant-True
   and a constant-False link:  f() < 1 > 2  keeps the call *)
Example C19_constfold_nonvacuous :
  chain_ok w_quiet w_chain /\ snd w_chain <> [] /\
  fold w_ct false false w_chain =
    [FCasc (mkOp 0 true (inl 0), [(0, mkOp 1 false (inl 1))]); FBool false] /\
  run_fold w_cmp w_truth w_vbool w_ct false false w_chain = ([EvOp 0; EvCmp 0 0 1; EvTruth 1], OVal 0).
Proof.
  split; [exact (proj2 (proj2 (proj2 (proj2 w_hyps))))|]. split; [discriminate|].
  split; vm_compute; reflexivity.
Qed.

(* ---- ConstantFolding._handle_NotNode: `not (a in b)` -> `a not in b`, `not (a is b)` ->
        `a is not b` (after folding the operand; a literal operand gives the literal `not`;
        everything else keeps its NotNode) has the same value or exception and the same operand
        evaluations as the NotNode, for every folded operand, when `not in` / `is not` are the
        negations of `in` / `is` (language reference) ---- *)
Theorem C19_constfold_not_eq : forall cmp truth vbool,
  (forall b, truth (vbool b) = inl b) ->
  (forall op op' a b, negate_op op = Some op' ->
     match cmp op a b with
     | inr x => cmp op' a b = inr x
     | inl r => exists bb, r = vbool bb /\ cmp op' a b = inl (vbool (negb bb))
     end) ->
  forall ns, obs quiet (eval_nexpr cmp truth vbool (handle_not ns)) =
             obs quiet (eval_nexpr cmp truth vbool (NNot ns)).
Proof. exact handle_not_correct. Qed.
Print Assumptions C19_constfold_not_eq.
