(* C14 -- Optimised loops iterate exactly like Python loops.
   Only statements; proofs live in Proof/P_Range.v.  S/body/st are universally quantified: the body is
   an arbitrary state transformer that sees the value assigned to the target and answers Next
   (fall through / continue) or Break, so one equation covers the sequence of values, their order, the
   final state (incl. the target's final value) and whether the else clause ran. *)
From Coq Require Import ZArith List Bool.
From CyVerif Require Import Lib.CInt Model.M_Prange Model.M_Range Proof.P_Range.
Import ListNotations.
Open Scope Z_scope.

(* for x in range(a, b, s) with a C-typed target of any width/signedness, any a b, any constant s <> 0:
   ForFromStatNode's loop = Python's loop, provided no loop-variable value leaves the C type
   (fwd_safe: a + s*len fits; unsigned descending form: a+|s| and b+|s| fit).
   Full statement without fwd_safe is FALSE on the current tree: see the _refuted theorems (F16). *)
Theorem C14_range_loop_eq_partial : forall (S : Type) (body : Z -> S -> ctl * S) w sg a b s fuel st,
  1 <= w -> s <> 0 -> in_range w sg a -> in_range w sg b ->
  fwd_safe w sg a b s = true ->
  (length (py_range a b s) < fuel)%nat ->
  range_loop body w sg a b s fuel st = done_of (py_for body (py_range a b s) st).
Proof. intros S body. exact (range_loop_eq body). Qed.
Print Assumptions C14_range_loop_eq_partial.

(* object targets: the transform only fires for literal arguments in [-2^30, 2^30); the loop variable is a
   C long; no hypothesis about overflow is needed *)
Theorem C14_object_target_range_eq : forall (S : Type) (body : Z -> S -> ctl * S) a b s fuel st,
  s <> 0 -> - 2 ^ 30 <= a < 2 ^ 30 -> - 2 ^ 30 <= b < 2 ^ 30 -> - 2 ^ 30 <= s < 2 ^ 30 ->
  (length (py_range a b s) < fuel)%nat ->
  range_loop body 64 true a b s fuel st = done_of (py_for body (py_range a b s) st).
Proof. intros S body. exact (object_target_range_eq body). Qed.
Print Assumptions C14_object_target_range_eq.

(* reversed(range(a, b, s)), constant bounds (start bound computed by the compiler) *)
Theorem C14_reversed_const_eq_partial : forall (S : Type) (body : Z -> S -> ctl * S) w sg a b s fuel st,
  1 <= w -> s <> 0 -> in_range w sg a ->
  rev_safe w sg (rev_bound1_const a b s) a s = true ->
  (length (py_range a b s) < fuel)%nat ->
  reversed_loop_const body w sg a b s fuel st = done_of (py_for body (py_reversed_range a b s) st).
Proof. intros S body. exact (reversed_loop_const_eq body). Qed.
Print Assumptions C14_reversed_const_eq_partial.

Theorem C14_object_target_reversed_eq : forall (S : Type) (body : Z -> S -> ctl * S) a b s fuel st,
  s <> 0 -> - 2 ^ 30 <= a < 2 ^ 30 -> - 2 ^ 30 <= b < 2 ^ 30 -> - 2 ^ 30 <= s < 2 ^ 30 ->
  (length (py_range a b s) < fuel)%nat ->
  reversed_loop_const body 64 true a b s fuel st = done_of (py_for body (py_reversed_range a b s) st).
Proof. intros S body. exact (object_target_reversed_eq body). Qed.
Print Assumptions C14_object_target_reversed_eq.

(* reversed(range(a, b, s)), runtime bounds: when the C evaluation of the start bound is exact ... *)
Theorem C14_reversed_runtime_eq_partial : forall (S : Type) (body : Z -> S -> ctl * S) floor w sg cw csg a b s fuel st,
  1 <= w -> s <> 0 -> in_range w sg a ->
  rev_bound1_rt floor cw csg a b s = Some (rev_bound1_const a b s) ->
  rev_safe w sg (rev_bound1_const a b s) a s = true ->
  (length (py_range a b s) < fuel)%nat ->
  reversed_loop_rt body floor w sg cw csg a b s fuel st = done_of (py_for body (py_reversed_range a b s) st).
Proof. intros S body. exact (reversed_loop_rt_eq body). Qed.
Print Assumptions C14_reversed_runtime_eq_partial.

(* ... which it is, for signed bound types and Python's // (floor = true: what /repo emits whatever cdivision
   says), whenever it is free of UB *)
Theorem C14_reversed_bound_exact_unless_overflow : forall cw csg a b s r,
  s <> 0 -> prom_s cw csg = true ->
  rev_bound1_rt true cw csg a b s = Some r -> r = rev_bound1_const a b s.
Proof. exact rev_bound1_rt_signed_exact. Qed.
Print Assumptions C14_reversed_bound_exact_unless_overflow.

(* enumerate(iterable, start): the counter temp, assigned then incremented inside the body *)
Theorem C14_enumerate_eq : forall (S : Type) (body : Z * Z -> S -> ctl * S) w sg typed vals start st,
  1 <= w ->
  (typed = true -> in_range w sg start /\ in_range w sg (start + Z.of_nat (length vals))) ->
  (let '((_, st'), e) := py_for (enum_body w sg typed body) vals (start, st) in (st', e))
  = py_for_pairs body (py_enumerate vals start) st.
Proof. intros S body w sg typed vals start st. apply enumerate_eq. Qed.
Print Assumptions C14_enumerate_eq.

(* observable corollaries for a body that never breaks: values seen = py_range in order, the target keeps the
   last value (or stays unassigned for an empty range), the else clause runs *)
Theorem C14_iterations_final_value_else : forall w sg a b s fuel brk,
  1 <= w -> s <> 0 -> in_range w sg a -> in_range w sg b -> fwd_safe w sg a b s = true ->
  (length (py_range a b s) < fuel)%nat -> Z.of_nat (length (py_range a b s)) < brk ->
  range_loop (log_body brk) w sg a b s fuel l0
  = Done (py_range a b s, last (map Some (py_range a b s)) None) true.
Proof. exact iterations_final_value_else. Qed.
Print Assumptions C14_iterations_final_value_else.

(* the else clause is skipped iff some iteration's body breaks *)
Theorem C14_else_runs_iff_no_break : forall (S : Type) (body : Z -> S -> ctl * S) vals st,
  snd (py_for body vals st) = false <->
  exists pre v post st1, vals = pre ++ v :: post /\ py_for body pre st = (st1, true) /\ fst (body v st1) = Break.
Proof. intros S body. exact (py_for_else_iff body). Qed.
Print Assumptions C14_else_runs_iff_no_break.

(* F16, signed: `no_wrap_in_increment` is false -- the increment leaves int (undefined behaviour) *)
Theorem C14_no_wrap_in_increment_refuted :
  exists a b s, in_range 32 true a /\ in_range 32 true b /\ s <> 0 /\
    range_loop (log_body 10) 32 true a b s 20 l0 = UB.
Proof. exact no_wrap_in_increment_refuted_signed. Qed.
Print Assumptions C14_no_wrap_in_increment_refuted.

(* F16, unsigned: wraps to 0 and keeps iterating; range_loop_eq without fwd_safe is false *)
Theorem C14_range_loop_eq_refuted :
  exists a b s, in_range 32 false a /\ in_range 32 false b /\ s <> 0 /\
    range_loop (log_body 3) 32 false a b s 20 l0 = Done ([4294967294; 0; 2], Some 2) false /\
    py_for (log_body 3) (py_range a b s) l0 = (([4294967294], Some 4294967294), true).
Proof. exact no_wrap_in_increment_refuted_unsigned. Qed.
Print Assumptions C14_range_loop_eq_refuted.

Theorem C14_unsigned_descending_refuted :
  exists a b s, in_range 32 false a /\ in_range 32 false b /\ s <> 0 /\
    range_loop (log_body 10) 32 false a b s 20 l0 = Done l0 true /\
    py_for (log_body 10) (py_range a b s) l0 = (([4294967295; 4294967292], Some 4294967292), true).
Proof. exact unsigned_descending_refuted. Qed.
Print Assumptions C14_unsigned_descending_refuted.

Theorem C14_no_overflow_in_bound_calc_refuted :
  exists a b s, in_range 32 true a /\ in_range 32 true b /\ s <> 0 /\
    rev_bound1_rt true 32 true a b s = None.
Proof. exact no_overflow_in_bound_calc_refuted. Qed.
Print Assumptions C14_no_overflow_in_bound_calc_refuted.

(* floor = false, the C `/` that cdivision=True selected before /repo's repair of finding
   reversed_range_bound_uses_cdivision: an empty range iterates once *)
Theorem C14_reversed_bound_cdivision_refuted :
  exists a b s, in_range 32 true a /\ in_range 32 true b /\ s <> 0 /\
    reversed_loop_rt (log_body 10) false 32 true 32 true a b s 20 l0 = Done ([0], Some 0) true /\
    py_reversed_range a b s = [].
Proof. exact reversed_bound_cdivision_refuted. Qed.
Print Assumptions C14_reversed_bound_cdivision_refuted.

(* the hypotheses are satisfiable on non-trivial values: cdef int i; for i in range(-7, 1000000100, 500000000)
   and reversed(range(10, -5, -4)) *)
Example C14_nonvacuous :
  fwd_safe 32 true (-7) 1000000100 500000000 = true /\
  py_range (-7) 1000000100 500000000 = [-7; 499999993; 999999993] /\
  range_loop (log_body 100) 32 true (-7) 1000000100 500000000 10 l0
    = Done ([-7; 499999993; 999999993], Some 999999993) true /\
  rev_bound1_rt true 32 true 10 (-5) (-4) = Some (rev_bound1_const 10 (-5) (-4)) /\
  rev_safe 32 true (rev_bound1_const 10 (-5) (-4)) 10 (-4) = true /\
  reversed_loop_rt (log_body 3) true 32 true 32 true 10 (-5) (-4) 10 l0 = Done ([-2; 2; 6], Some 6) false.
Proof. vm_compute. repeat split. Qed.
