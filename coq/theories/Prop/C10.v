(* C10 -- String and bytes literals keep their exact values.
   Only statements; proofs in Proof/P_StrLit.v ((5): Proof/P_StrTab.v, Proof/P_LZSS.v), model in
   Model/M_StrLit.v ((5): Model/M_StrTab.v).
   Characters, code points and bytes are numbers (N).
   decode fx k raw body = the scanner ESCAPE token (lex_escape), Parsing._append_escape_sequence,
     the literal builders and the loop of p_string_literal; fx = the proposed octal fix.
   py_value k raw body = the independently written rule of the language reference.
   PARTIAL: the Plex tokenisation is modelled by lex_escape, not derived from the lexicon; bodies
   with a backslash-N-brace name escape are excluded (has_named); the agreement theorem covers the
   non-raw kinds str / u / b (raw and char literals: correspondence run and totality only). *)
From Coq Require Import NArith ZArith List Bool.
From CyVerif Require Import Lib.CInt Model.M_StrLit Proof.P_StrLit.
From CyVerif Require Model.M_LZSS Model.M_StrTab Proof.P_LZSS Proof.P_StrTab.
Import ListNotations.
Open Scope N_scope.

(* (1) full statement, FALSE on the tree as it is:
     forall k raw body, decode false k raw body is not an internal error.
   Refuted: the body backslash 7 7 7 of an unprefixed (and of a bytes) literal raises
   UnicodeEncodeError inside BytesLiteralBuilder.append_charval; Python gives chr(511) / b'\xff'. *)
Theorem C10_decoder_total_refuted : exists body, decode false KStr false body = DInternal.
Proof. exact decoder_total_refuted. Qed.
Print Assumptions C10_decoder_total_refuted.

Theorem C10_decoder_total_refuted_bytes :
  exists body, decode false KBytes false body = DInternal /\ py_value KBytes false body = PyValue [255].
Proof. exact decoder_total_refuted_bytes. Qed.
Print Assumptions C10_decoder_total_refuted_bytes.

(* with the repair (append_charval keeps the low 8 bits on the bytes side): for EVERY kind, raw
   flag and body the decoder neither raises an internal error nor runs out of fuel *)
Theorem C10_decoder_total_fixed : forall k raw body,
  decode true k raw body <> DInternal /\ decode true k raw body <> DOutOfFuel.
Proof. exact decoder_total_fixed. Qed.
Print Assumptions C10_decoder_total_fixed.

(* ... and for every non-raw str / u / b literal body without a name escape it yields exactly the
   code points / bytes of the specification, and rejects exactly the bodies Python rejects *)
Theorem C10_decoder_agrees_fixed_partial : forall k body, k <> KChar -> has_named body = false ->
  match py_value k false body with
  | PyValue v => visible k (decode true k false body) = Some v /\ exists b u, decode true k false body = DOk b u
  | PyReject => decode true k false body = DError
  | _ => True
  end.
Proof. exact decoder_agrees_fixed. Qed.
Print Assumptions C10_decoder_agrees_fixed_partial.

(* (2) UTF-8: the strict decoder inverts the encoder on every string of scalar values; the encoder
   is defined exactly on scalar values, gives bytes, and refuses strings with surrogates ... *)
Theorem C10_utf8_roundtrip : forall cs bs, encode_utf8 cs = Some bs -> decode_utf8 bs = Some cs.
Proof. exact utf8_roundtrip. Qed.
Print Assumptions C10_utf8_roundtrip.

Theorem C10_utf8_encode_defined : forall cs,
  (encode_utf8 cs <> None <-> Forall (fun c => is_scalar c = true) cs)
  /\ (forall bs, encode_utf8 cs = Some bs -> Forall (fun b => b < 256) bs).
Proof. exact utf8_encode_defined. Qed.
Print Assumptions C10_utf8_encode_defined.

Theorem C10_utf8_surrogates_rejected : forall cs, contains_surrogates cs = true -> encode_utf8 cs = None.
Proof. exact utf8_surrogates_rejected. Qed.
Print Assumptions C10_utf8_surrogates_rejected.

(* ... which the compiler therefore carries as str.encode('unicode_escape') text decoded by
   PyUnicode_DecodeUnicodeEscape: the round trip holds for EVERY code point, surrogates included *)
Theorem C10_unicode_escape_roundtrip : forall cs, Forall (fun c => c < 1114112) cs ->
  unicode_escape_decode (uesc_encode cs) = Some cs.
Proof. exact unicode_escape_roundtrip. Qed.
Print Assumptions C10_unicode_escape_roundtrip.

(* (3) the string table, for ALL lists of text and byte constants (any order, empty strings, NUL
   bytes): the table is generated, its bit-fields are legal and hold every length, and the two
   unpacking loops give back exactly the lists.  index_ok: lengths < 2^32, and (tree as it is,
   fx = false) the category is empty or has a non-empty member. *)
Theorem C10_string_table_roundtrip : forall fx texts bstrs,
  Forall (Forall (fun c => is_scalar c = true)) texts ->
  index_ok fx (map utf8_len texts) -> index_ok fx (map nlen bstrs) ->
  exists t, gen_table fx texts bstrs = GOk t
            /\ t_data t = concat (map (flat_map enc_char) texts) ++ concat bstrs
            /\ unpack_table t (t_data t) = Some (texts, bstrs).
Proof. exact string_table_roundtrip. Qed.
Print Assumptions C10_string_table_roundtrip.

(* the side condition is necessary on the tree as it is: one empty bytes constant alone gives a
   zero-width bit-field (the C file does not compile); with width max(1, ...) it round-trips *)
Theorem C10_string_table_refuted : gen_table false [] [[]] = GCompileError /\
  exists t, gen_table true [] [[]] = GOk t /\ unpack_table t (t_data t) = Some ([], [[]]).
Proof. exact string_table_refuted. Qed.
Print Assumptions C10_string_table_refuted.

(* (4) composition with C11 (the C literal is read back) and C12 (LZSS) for EVERY value of
   CYTHON_COMPRESS_STRINGS (user_macro; None = not defined), both forms of the C array (msvc),
   Python before/after 3.14 and every zlib/bz2/zstd that satisfies its contract: module init
   rebuilds exactly the constants *)
Theorem C10_pipeline_identity : forall cd fx msvc py314 user_macro texts bstrs,
  codec_ok cd ->
  Forall (Forall (fun c => is_scalar c = true)) texts -> Forall bytesN bstrs ->
  index_ok fx (map utf8_len texts) -> index_ok fx (map nlen bstrs) ->
  exists im, gen_image fx cd texts bstrs = Some im
             /\ init_table cd msvc py314 user_macro im = Some (texts, bstrs).
Proof. exact pipeline_identity. Qed.
Print Assumptions C10_pipeline_identity.

(* (5) large tables.  The codec is C12's (M_LZSS.compress = Cython/LZSS.py, M_LZSS.dec =
   __pyx_lzss_decompress); M_StrTab.ref_fields is the field decoding of one back reference as the C
   code reads it, M_StrTab.form_of the form LZSS.py picks, M_StrTab.lzss_unpack = decompress + the
   two unpacking loops of module init.
   split (decode (encode (concat table))) = table for EVERY non-empty table, whatever its size,
   whatever distances its repeats have, and whether or not the 200-byte saving test keeps the branch *)
Theorem C10_table_lzss_roundtrip : forall fx texts bstrs,
  Forall (Forall (fun c => is_scalar c = true)) texts -> Forall bytesN bstrs ->
  index_ok fx (map utf8_len texts) -> index_ok fx (map nlen bstrs) ->
  concat (map (flat_map enc_char) texts) ++ concat bstrs <> [] ->
  exists t c, gen_table fx texts bstrs = GOk t /\ lzss_compress (t_data t) = Some c /\ bytesN c
              /\ M_StrTab.lzss_unpack t c = Some (texts, bstrs).
Proof. exact P_StrTab.table_lzss_roundtrip. Qed.
Print Assumptions C10_table_lzss_roundtrip.

(* one back reference: what LZSS.py writes for (end offset eo, length len) is read by the C field
   decoding as exactly (form, eo, len) - for all three forms, every offset up to the 16 KiB window
   and every length; the form fixes the encoded size *)
Theorem C10_backref_fields_exact : forall eo len bs rest, (len <= 258)%Z ->
  M_LZSS.encode_match (eo + len)%Z len = Some bs ->
  exists f, M_StrTab.form_of eo len = Some f
            /\ M_StrTab.ref_fields (bs ++ rest) = Some (f, eo, len, rest)
            /\ Z.of_nat (length bs) = M_StrTab.rform_len f /\ P_LZSS.bytes bs.
Proof. exact P_LZSS.backref_fields_exact. Qed.
Print Assumptions C10_backref_fields_exact.

(* hence distinct references have distinct encodings: no bit of an offset or length field can be
   dropped by the decoder *)
Theorem C10_backref_injective : forall eo len eo' len' bs, (len <= 258)%Z -> (len' <= 258)%Z ->
  M_LZSS.encode_match (eo + len)%Z len = Some bs -> M_LZSS.encode_match (eo' + len')%Z len' = Some bs ->
  eo = eo' /\ len = len'.
Proof. exact P_LZSS.backref_injective. Qed.
Print Assumptions C10_backref_injective.

(* ref_fields is what C12's model of the C loop does on a back-reference round *)
Theorem C10_dec_ref_uses_fields : forall dst_len src f eo len rest flags pos outr out_pos,
  Z.land flags 256 <> 0%Z -> Z.land flags 1 = 0%Z ->
  M_StrTab.ref_fields src = Some (f, eo, len, rest) ->
  M_LZSS.dec dst_len src flags pos outr out_pos =
  M_LZSS.dec_copy dst_len (M_LZSS.dec dst_len rest) flags (pos + M_StrTab.rform_len f)%Z eo (len - 3)%Z outr out_pos.
Proof. exact P_LZSS.dec_ref_uses_fields. Qed.
Print Assumptions C10_dec_ref_uses_fields.

(* the thresholds of the reference forms (the generator places repeats on both sides of each):
   7-bit form up to end offset 127, 2+7-bit form up to 639 with lengths up to 34, 7+7-bit form up to
   16511 with lengths from 4; beyond the window, or length 3 beyond 639, nothing is stored *)
Theorem C10_form_ranges : forall eo len f, M_StrTab.form_of eo len = Some f ->
  match f with
  | M_StrTab.F7 => (0 <= eo <= 127 /\ 3 <= len)%Z
  | M_StrTab.F9 => (128 <= eo <= 639 /\ 3 <= len <= 34)%Z
  | M_StrTab.F14 => (128 <= eo <= 16511 /\ 4 <= len /\ (640 <= eo \/ 35 <= len))%Z
  end.
Proof. exact P_LZSS.form_ranges. Qed.
Print Assumptions C10_form_ranges.

Theorem C10_form_none : forall eo len,
  (M_StrTab.form_of eo len = None <-> M_LZSS.encode_match (eo + len)%Z len = None)
  /\ (M_StrTab.form_of eo len = None <-> (len < 3 \/ eo < 0 \/ 16512 <= eo \/ (640 <= eo /\ len = 3))%Z).
Proof. intros eo len. split; [apply P_LZSS.form_of_encode|apply P_LZSS.form_none]. Qed.
Print Assumptions C10_form_none.

(* the storage-mode threshold: the lzss branch is emitted, and is the default, exactly when it
   saves at least 200 bytes *)
Theorem C10_lzss_stored_iff_saving : forall cd data c, lzss_compress data = Some c ->
  (In (90, c) (compressions cd data) <-> nlen c + 200 <= nlen data)
  /\ (default_compression (compressions cd data) = 90%Z <-> nlen c + 200 <= nlen data).
Proof. exact P_StrTab.lzss_stored_iff_saving. Qed.
Print Assumptions C10_lzss_stored_iff_saving.

(* non-vacuity: a str body with every escape kind decodes to the specified value (a lone
   surrogate and an octal escape above 0o377 included); its value goes through the
   unicode_escape path; a table with an empty text, a NUL byte string and an astral character is
   generated and unpacked under the identity codec with the macro set to 2 *)
Example C10_nonvacuous :
  let body := [97; 92; 110; 92; 52; 48; 48; 92; 120; 52; 49; 92; 117; 100; 56; 48; 48; 92; 85; 48; 48; 48; 49; 102; 54; 48; 48; 92; 113; 92; 10; 233] in
  has_named body = false
  /\ py_value KStr false body = PyValue [97; 10; 256; 65; 55296; 128512; 92; 113; 233]
  /\ visible KStr (decode true KStr false body) = Some [97; 10; 256; 65; 55296; 128512; 92; 113; 233]
  /\ unicode_escape_decode (uesc_encode [97; 55296; 128512]) = Some [97; 55296; 128512]
  /\ codec_ok id_codec
  /\ exists im, gen_image false id_codec [[]; [128512; 0]] [[0; 0]; []] = Some im
                /\ init_table id_codec false false (Some 2%Z) im = Some ([[]; [128512; 0]], [[0; 0]; []]).
Proof.
  cbv zeta. split; [reflexivity|]. split; [vm_compute; reflexivity|]. split; [vm_compute; reflexivity|].
  split; [vm_compute; reflexivity|]. split.
  - intros a d c Hd. unfold id_codec. cbn [ext_compress ext_decompress].
    destruct ((a =? 1) || (a =? 2)) eqn:E; [|discriminate]. intros [= <-]. split.
    + constructor; [|exact Hd]. apply orb_true_iff in E as [E|E]; apply N.eqb_eq in E; subst; reflexivity.
    + now rewrite N.eqb_refl.
  - eexists. split; [vm_compute; reflexivity|]. vm_compute. reflexivity.
Qed.

(* non-vacuity of (5): the reference 8320 bytes back (the first end offset that needs bit 13 of the
   7+7-bit field) is written as 128 192 45 and read back as (F14, 8320, 48); 16511 is the last
   storable end offset, 16512 is not stored *)
Example C10_nonvacuous_farref :
  M_LZSS.encode_match (8320 + 48)%Z 48%Z = Some [128; 192; 45]%Z
  /\ M_StrTab.ref_fields [128; 192; 45]%Z = Some (M_StrTab.F14, 8320, 48, [])%Z
  /\ M_StrTab.form_of 16511%Z 4%Z = Some M_StrTab.F14 /\ M_StrTab.form_of 16512%Z 4%Z = None
  /\ M_StrTab.form_of 639%Z 34%Z = Some M_StrTab.F9 /\ M_StrTab.form_of 640%Z 34%Z = Some M_StrTab.F14
  /\ M_StrTab.form_of 639%Z 35%Z = Some M_StrTab.F14 /\ M_StrTab.form_of 127%Z 258%Z = Some M_StrTab.F7.
Proof. repeat split; vm_compute; reflexivity. Qed.
