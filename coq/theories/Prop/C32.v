(* C32 -- C function exception declarations propagate errors faithfully.
   Only statements.  Decision level: Model/M_ExcSpec.v, Proof/P_ExcSpec.v; value level (the C text of
   the sentinel test): Model/M_ExcTest.v, Proof/P_ExcTest.v; Gen/Gen_ExcSpec.v is the compiler's dumped
   declaration table.
   observe sp k fl cn b st  = epilogue of a function declared with spec sp (return kind k, flavour
   fl: plain / nogil / with gil) whose body ends as b, followed by the call-site check emitted in a
   caller that does (cn = false) or does not (cn = true) hold the GIL; st carries the thread's
   pending exception, the unraisable-hook log, GIL ownership and a counter of thread-state
   accesses made without the GIL.  documented = the user guide's meaning of the declaration. *)
From Coq Require Import ZArith List Bool.
From CyVerif Require Import Lib.CInt Model.M_ExcSpec Model.M_ExcTest Proof.P_ExcSpec Proof.P_ExcTest Gen.Gen_ExcSpec.
Import ListNotations.
Open Scope Z_scope.

(* Every specification (noexcept, except v, except? v, except * -- any sentinel incl. NaN, opaque
   constants, (unsigned)-1), every return kind, function flavour, caller context, body outcome and
   return value: the caller observes Raise e iff the body raised and the spec propagates; otherwise
   Return r with nothing pending; a noexcept function hands e to the unraisable hook once and
   returns the default; the GIL is held at every thread-state access and restored.  The user
   contract of plain "except v" (the body never returns v) is the explicit hypothesis contract_okb. *)
Theorem C32_spec_faithful : forall sp k fl cn b st,
  wf_specb sp k = true -> chk_plus (ec sp) = false ->
  cython_body b = true -> body_val_okb k b = true ->
  ctx_okb fl cn = true -> clean cn st ->
  contract_okb sp k b = true ->
  observe sp k fl cn b st = documented sp k b st.
Proof. exact spec_faithful. Qed.
Print Assumptions C32_spec_faithful.

(* except? v returning v legitimately is not reported as an error *)
Theorem C32_sentinel_legit_ok : forall s k fl cn r st,
  wf_specb {| ev := Some s; ec := ChkYes |} k = true ->
  val_okb k r = true -> c_test k s r = true ->
  ctx_okb fl cn = true -> clean cn st ->
  observe {| ev := Some s; ec := ChkYes |} k fl cn (Return r) st = {| o_err := false; o_val := r; o_st := st |}.
Proof. exact sentinel_legit_ok. Qed.
Print Assumptions C32_sentinel_legit_ok.

(* noexcept: reported exactly once to the unraisable hook, cleared, default value returned *)
Theorem C32_noexcept_reports : forall sp k fl cn e st,
  wf_specb sp k = true -> propagates sp k = false ->
  ctx_okb fl cn = true -> clean cn st ->
  let o := observe sp k fl cn (Raise e) st in
  o_err o = false /\ o_val o = noexcept_value k /\
  pending (o_st o) = None /\ unraisable (o_st o) = unraisable st ++ [e] /\
  gil (o_st o) = gil st /\ viol (o_st o) = viol st.
Proof. exact noexcept_reports. Qed.
Print Assumptions C32_noexcept_reports.

(* propagating specs deliver exactly the raised exception and report nothing *)
Theorem C32_raise_propagates : forall sp k fl cn e st,
  wf_specb sp k = true -> chk_plus (ec sp) = false -> propagates sp k = true ->
  ctx_okb fl cn = true -> clean cn st ->
  let o := observe sp k fl cn (Raise e) st in
  o_err o = true /\ pending (o_st o) = Some e /\ unraisable (o_st o) = unraisable st /\
  gil (o_st o) = gil st /\ viol (o_st o) = viol st.
Proof. exact raise_propagates. Qed.
Print Assumptions C32_raise_propagates.

(* the error value stored by the epilogue always satisfies the caller's test (NaN included) *)
Theorem C32_sentinel_test_self : forall k s, sent_okb k s = true -> c_test k s (sent_val s) = true.
Proof. exact c_test_self. Qed.
Print Assumptions C32_sentinel_test_self.

(* without the contract the statement is false: except -1 returning -1 takes the error path with
   no exception set (documented misuse, not a defect) *)
Theorem C32_except_v_needs_contract :
  exists sp k fl cn r st,
    wf_specb sp k = true /\ chk_plus (ec sp) = false /\ val_okb k r = true /\ ctx_okb fl cn = true /\ clean cn st /\
    contract_okb sp k (Return r) = false /\
    o_err (observe sp k fl cn (Return r) st) = true /\ pending (o_st (observe sp k fl cn (Return r) st)) = None.
Proof. exact except_v_sentinel_return_is_error. Qed.
Print Assumptions C32_except_v_needs_contract.

(* an exception already pending at the call (stale): reported by exactly the calls whose emitted
   condition holds, left pending by the others *)
Theorem C32_stale_characterised : forall sp k fl cn r e0 st,
  wf_specb sp k = true -> chk_plus (ec sp) = false -> val_okb k r = true ->
  ctx_okb fl cn = true -> pending st = Some e0 -> gil st = negb cn ->
  observe sp k fl cn (Return r) st = {| o_err := check_fires sp k r; o_val := r; o_st := st |}.
Proof. intros sp k fl cn r e0 st _ Hplus Hv _. exact (stale_characterised sp k fl cn r e0 st Hplus Hv). Qed.
Print Assumptions C32_stale_characterised.

(* declaration normalisation: whatever is accepted is well-formed (in the domain of the theorems) *)
Theorem C32_normalise_wf : forall f k c sp,
  kind_okb k = true -> normalise f k c = Some sp -> wf_specb sp k = true.
Proof. exact normalise_wf. Qed.
Print Assumptions C32_normalise_wf.

(* the default: except? -1 / except? -1.0 / except? NULL / except * / (objects) NULL ... *)
Theorem C32_default_spec_chosen : forall k,
  kind_okb k = true -> normalise plain_flags k CNone = Some (default_spec k).
Proof. exact default_spec_chosen. Qed.
Print Assumptions C32_default_spec_chosen.

(* ... which propagates, needs no user contract and falls in the proved cases *)
Theorem C32_default_spec_in_domain : forall k b,
  kind_okb k = true ->
  wf_specb (default_spec k) k = true /\ chk_plus (ec (default_spec k)) = false /\
  propagates (default_spec k) k = true /\ contract_okb (default_spec k) k b = true.
Proof. exact default_spec_in_domain. Qed.
Print Assumptions C32_default_spec_in_domain.

(* legacy_implicit_noexcept / cdef extern: no clause = noexcept for non-object returns *)
Theorem C32_implicit_noexcept : forall f k,
  (legacy f = true \/ extern f = true) -> is_obj k = false ->
  normalise f k CNone = Some {| ev := None; ec := ChkNo |}.
Proof. exact implicit_noexcept. Qed.
Print Assumptions C32_implicit_noexcept.

(* a function assigned to a pointer / declaration of another, compatible specification
   (CFuncType._is_exception_compatible_with) still behaves as its own declaration documents *)
Theorem C32_compat_sound : forall fsp psp k fl cn b st,
  wf_specb fsp k = true -> wf_specb psp k = true ->
  chk_plus (ec fsp) = false -> chk_plus (ec psp) = false ->
  exc_compatible fsp psp = true ->
  cython_body b = true -> body_val_okb k b = true ->
  ctx_okb fl cn = true -> clean cn st ->
  contract_okb fsp k b = true ->
  observe_via psp fsp k fl cn b st = documented fsp k b st.
Proof. exact compat_sound. Qed.
Print Assumptions C32_compat_sound.

(* C++ "except +" / "+*" / "+PyExc", reduced to the catch-order table of __Pyx_CppExn2PyErr *)
Theorem C32_cpp_faithful_reduced_partial : forall h k cn b st,
  kind_okb k = true -> cpp_body_okb h b = true -> body_val_okb k b = true -> clean cn st ->
  observe {| ev := None; ec := ChkPlus h |} k FPlain cn b st
  = documented {| ev := None; ec := ChkPlus h |} k b st.
Proof. exact cpp_faithful_reduced. Qed.
Print Assumptions C32_cpp_faithful_reduced_partial.

(* the compiler's own table (Gen_ExcSpec.decl_rows: exception_value/exception_check of every
   clause x return kind x declaration context, dumped on every run; None = rejected) equals
   normalise -- finite, by computation; fails to compile exactly when a row differs *)
Theorem C32_decl_table_matches : forallb decl_row_ok decl_rows = true.
Proof. vm_compute. reflexivity. Qed.
Print Assumptions C32_decl_table_matches.

Theorem C32_decl_table_rows : forall f k c res,
  In (f, k, c, res) decl_rows -> ofspec_eqb (normalise f k c) res = true.
Proof.
  intros f k c res H.
  exact (proj1 (forallb_forall decl_row_ok decl_rows) C32_decl_table_matches (f, k, c, res) H).
Qed.
Print Assumptions C32_decl_table_rows.

(* ---- value level (Model/M_ExcTest.v): the emitted C text  result == ((T)constant)  evaluated with C's
   typing of constants, integer promotion, usual arithmetic conversions and casts.  rt = return type,
   tc = type the constant is cast to, e = the constant expression (ceval e = its C type and value),
   stored rt e = what the callee's error path leaves in the result (constant converted to rt). *)

(* every integer return type (any width >= 1, either signedness), every constant expression, every cast type
   that does not change the stored value (in particular tc = rt), every returned value r of the return type:
   the emitted test is true exactly when r is the stored sentinel *)
Theorem C32_value_cast_exact : forall rt tc e te v r,
  1 <= iw rt -> 1 <= iw tc -> in_ty rt r = true -> ceval e = Some (te, v) ->
  conv tc v = conv rt v ->
  eq_test rt r (emitted (Some tc) e) = Some (r =? conv rt v).
Proof. exact cast_exact. Qed.
Print Assumptions C32_value_cast_exact.

Theorem C32_value_cast_ret_matches_stored : forall rt e te v r,
  1 <= iw rt -> in_ty rt r = true -> ceval e = Some (te, v) ->
  (fires (Some rt) rt e r = true <-> stored rt e = Some r).
Proof. exact cast_ret_matches_stored. Qed.
Print Assumptions C32_value_cast_ret_matches_stored.

(* the value of a constant expression lies in its C type (no hidden totalisation in ceval) *)
Theorem C32_value_const_in_range : forall e t v, ceval e = Some (t, v) -> 1 <= iw t /\ in_ty t v = true.
Proof. exact ceval_in_range. Qed.
Print Assumptions C32_value_const_in_range.

(* the cast is needed: without it, for EVERY unsigned return type narrower than int and EVERY negative
   constant of a signed type, the test is false for every returned value *)
Theorem C32_value_nocast_never_fires : forall rt e te v r,
  1 <= iw rt -> iw rt < 32 -> isg rt = false -> in_ty rt r = true ->
  ceval e = Some (te, v) -> isg te = true -> v < 0 ->
  eq_test rt r (emitted None e) = Some false.
Proof. exact nocast_never_fires. Qed.
Print Assumptions C32_value_nocast_never_fires.

(* a cast to a type in which the constant is not a value of the return type, compared in a signed type *)
Theorem C32_value_out_of_range_never_fires : forall rt tc e te v r,
  1 <= iw rt -> 1 <= iw tc -> in_ty rt r = true -> ceval e = Some (te, v) ->
  isg (uac (promote rt) (promote tc)) = true -> in_ty rt (conv tc v) = false ->
  eq_test rt r (emitted (Some tc) e) = Some false.
Proof. exact out_of_range_never_fires. Qed.
Print Assumptions C32_value_out_of_range_never_fires.

(* witnesses: unsigned char, -1, returned 255 (uncast text); unsigned char, (long)(-(1 + 1)), 254 (the
   code as it is for constant EXPRESSIONS, which the compiler types long -- finding
   sentinel_cast_to_constant_type) *)
Theorem C32_value_nocast_refuted :
  exists rt e r, in_ty rt r = true /\ stored rt e = Some r /\ fires None rt e r = false.
Proof. exact nocast_refuted. Qed.
Print Assumptions C32_value_nocast_refuted.

Theorem C32_value_cast_const_refuted :
  exists rt tc e r, in_ty rt r = true /\ stored rt e = Some r /\ fires (Some tc) rt e r = false.
Proof. exact cast_const_refuted. Qed.
Print Assumptions C32_value_cast_const_refuted.

(* the abstract sentinel test of the decision-level model IS the emitted C test *)
Theorem C32_value_test_is_model_test : forall rt tc e te v r,
  1 <= iw rt -> 1 <= iw tc -> in_ty rt r = true -> ceval e = Some (te, v) -> conv tc v = conv rt v ->
  c_test (kind_of rt) (Sent (VInt (conv rt v)) false) (VInt r) = fires (Some tc) rt e r.
Proof. exact c_test_is_emitted_test. Qed.
Print Assumptions C32_value_test_is_model_test.

(* composition: callee epilogue + the emitted text at the call site = the documented outcome, for every
   integer return type, constant, except v / except? v, flavour, caller context, body and value *)
Theorem C32_value_faithful : forall rt tc e te v ck fl cn b st,
  1 <= iw rt -> 1 <= iw tc -> ceval e = Some (te, v) -> conv tc v = conv rt v ->
  chk_plus ck = false ->
  let fsp := {| ev := Some (Sent (VInt (conv rt v)) false); ec := ck |} in
  cython_body b = true -> body_val_okb (kind_of rt) b = true ->
  ctx_okb fl cn = true -> clean cn st -> contract_okb fsp (kind_of rt) b = true ->
  observe_value (Some tc) rt e ck fl cn b st = Some (documented fsp (kind_of rt) b st).
Proof. exact value_faithful. Qed.
Print Assumptions C32_value_faithful.

(* without the hypothesis conv tc v = conv rt v the statement is false: a raised exception is hidden *)
Theorem C32_value_cast_const_hides_exception_refuted :
  exists rt tc e ck fl cn ex st o,
    clean cn st /\ ctx_okb fl cn = true /\
    observe_value (Some tc) rt e ck fl cn (Raise ex) st = Some o /\
    o_err o = false /\ pending (o_st o) = Some ex.
Proof. exact cast_const_hides_exception. Qed.
Print Assumptions C32_value_cast_const_hides_exception_refuted.

Theorem C32_value_nocast_hides_exception_refuted :
  exists rt e ck fl cn ex st o,
    clean cn st /\ ctx_okb fl cn = true /\
    observe_value None rt e ck fl cn (Raise ex) st = Some o /\
    o_err o = false /\ pending (o_st o) = Some ex.
Proof. exact nocast_hides_exception. Qed.
Print Assumptions C32_value_nocast_hides_exception_refuted.

(* floating return types; V = C doubles, feq = C ==, to_f32 = rounding to float (any functions): with the
   cast to the return type the stored error value always satisfies the test (NaN included); with the cast
   to double (the code as it is for a float function and a non-NaN constant) iff rounding keeps the constant *)
Theorem C32_float_cast_ret_self : forall (V : Type) (feq : V -> V -> bool) (to_f32 : V -> V) rt c,
  float_test V feq to_f32 true (Some rt) c (float_stored V to_f32 rt c) = true.
Proof. exact float_cast_ret_self. Qed.
Print Assumptions C32_float_cast_ret_self.

Theorem C32_float_cast_const_self : forall (V : Type) (feq : V -> V -> bool) (to_f32 : V -> V) m c,
  feq c c = true ->
  float_test V feq to_f32 m (Some F64) c (float_stored V to_f32 F32 c) = feq (to_f32 c) c.
Proof. exact float_cast_const_self. Qed.
Print Assumptions C32_float_cast_const_self.

Example C32_nonvacuous :
  let sp := {| ev := Some (Sent (VDbl DNaN) true); ec := ChkYes |} in
  let st := {| pending := None; unraisable := []; gil := false; viol := O |} in
  wf_specb sp KFloat = true /\ ctx_okb FNogil true = true /\ clean true st /\
  contract_okb sp KFloat (Return (VDbl DNaN)) = true /\ c_test KFloat (Sent (VDbl DNaN) true) (VDbl DNaN) = true /\
  o_err (observe sp KFloat FNogil true (Return (VDbl DNaN)) st) = false /\
  o_err (observe sp KFloat FNogil true (Raise 7) st) = true /\
  unraisable (o_st (observe {| ev := None; ec := ChkNo |} KStruct FNogil true (Raise 7) st)) = [7] /\
  decl_rows <> [].
Proof. unfold clean. repeat split; try reflexivity. discriminate. Qed.
