(* C06 — C double arithmetic and float parsing match CPython.
   Only statements; proofs live in Proof/P_FloatOps.v and Proof/P_AsDouble.v. *)
From Coq Require Import ZArith Bool List SpecFloat.
From CyVerif Require Import Model.M_FloatOps Model.M_AsDouble Proof.P_FloatOps Proof.P_AsDouble.
Import ListNotations.
Open Scope Z_scope.

(* ===== a % b on C doubles (CMath.c ModFloat + ModNode's zero test) ===== *)

(* FULL STATEMENT, false on the current tree (finding F2):
     forall fmod a b, mod_node fmod false a b = py_float_rem fmod a b                      *)

(* repaired ModFloat (proposed_fixes/C06-mod_float.diff) = CPython's float_rem, for all doubles
   (valid or not), whatever libm's fmod returns: value, sign of zero, NaN, ZeroDivisionError *)
Theorem C06_mod_float_eq_python : forall (fmod : F -> F -> F) a b,
  mod_node fmod true a b = py_float_rem fmod a b.
Proof. exact mod_new_eq_py. Qed.
Print Assumptions C06_mod_float_eq_python.

(* current ModFloat: 0.0 % inf and 5.0 % inf give nan, 1.0 % -1.0 gives +0.0 (exact fmod) *)
Theorem C06_mod_float_refuted :
  exists a b, fvalid a = true /\ fvalid b = true /\ mod_node_x false a b <> py_float_rem_x a b.
Proof. exact mod_old_refuted_ex. Qed.
Print Assumptions C06_mod_float_refuted.

Theorem C06_mod_float_refuted_witnesses :
  mod_node_x false fzero (finf false) = FVal S754_nan /\ py_float_rem_x fzero (finf false) = FVal fzero /\
  mod_node_x false ffive (finf false) = FVal S754_nan /\ py_float_rem_x ffive (finf false) = FVal ffive /\
  mod_node_x false fone fmone = FVal (S754_zero false) /\ py_float_rem_x fone fmone = FVal (S754_zero true).
Proof. exact mod_old_refuted. Qed.
Print Assumptions C06_mod_float_refuted_witnesses.

(* current ModFloat, exactly: with r = fmod(a, b) it agrees with CPython iff NOT
     (b infinite, r not NaN, no adjustment by b)  or  (r = +0 and b a negative finite number).
   Only hypothesis: fmod(a, NaN) = NaN (C99 F.9.7.1).  "partial": this is the theorem for the
   tree as it is, on the exact complement of finding F2 (and its converse inside the class). *)
Theorem C06_mod_float_current_partial : forall (fmod : F -> F -> F),
  (forall a, fmod a S754_nan = S754_nan) ->
  forall a b, fvalid b = true ->
  (mod_old_bad (fmod a b) b = false -> mod_node fmod false a b = py_float_rem fmod a b) /\
  (feqb b fzero = false -> mod_old_bad (fmod a b) b = true ->
     mod_node fmod false a b <> py_float_rem fmod a b).
Proof. exact mod_old_characterised. Qed.
Print Assumptions C06_mod_float_current_partial.

(* ===== a // b on C doubles (DivNode: floor(a / b)) ===== *)

(* FULL STATEMENT, false on the current tree (finding F3):
     forall a b, floordiv_node fmod floor false a b = py_float_floor_div fmod floor a b     *)
Theorem C06_floordiv_refuted :
  exists a b, fvalid a = true /\ fvalid b = true /\
    floordiv_node_x false a b <> py_float_floor_div_x a b.
Proof. exact floordiv_old_refuted_ex. Qed.
Print Assumptions C06_floordiv_refuted.

(* -1.0 // inf = -0.0 (CPython -1.0);  1.0 // 0.1 = 10.0 (CPython 9.0) *)
Theorem C06_floordiv_refuted_witnesses :
  floordiv_node_x false fmone (finf false) = FVal (S754_zero true) /\
  py_float_floor_div_x fmone (finf false) = FVal fmone /\
  floordiv_node_x false fone ftenth = FVal (S754_finite false 5629499534213120 (-49)) /\
  py_float_floor_div_x fone ftenth = FVal (S754_finite false 5066549580791808 (-49)).
Proof. exact floordiv_old_refuted. Qed.
Print Assumptions C06_floordiv_refuted_witnesses.

(* the proposed helper is float_floor_div's computation (same libm calls, same order) *)
Theorem C06_floordiv_helper_eq_python : forall (fmod : F -> F -> F) (ffloor : F -> F) a b,
  floordiv_node fmod ffloor true a b = py_float_floor_div fmod ffloor a b.
Proof. exact floordiv_new_eq_py. Qed.
Print Assumptions C06_floordiv_helper_eq_python.

(* ===== float(bytes / bytearray / str): the pre-scanner ===== *)

(* FULL STATEMENTS, false on the current tree (F4, F5, separator stripping):
     scan_bytes false data = Parse s' -> s' = remove_us (strip ..) /\ us_ok (strip ..) = true
     scan_str false false false data <> OOBWrite                                              *)

(* repaired: whatever the bytes scanner hands to PyOS_string_to_double is the input without the
   surrounding Py_ISSPACE characters and without underscores, and every underscore of the input
   stands between two ASCII digits (CPython's rule, pystrtod.c) *)
Theorem C06_fast_parse_sound_bytes : forall data s',
  scan_bytes true data = Parse s' ->
  s' = remove_us (strip isspace_b data) /\ us_ok (strip isspace_b data) = true.
Proof. exact scan_bytes_sound. Qed.
Print Assumptions C06_fast_parse_sound_bytes.

(* the same for float(str) (ASCII strings take the bytes path) *)
Theorem C06_fast_parse_sound_str : forall data s',
  scan_str true true true data = Parse s' ->
  let sp := if is_ascii data then isspace_b else isspace_u_new in
  s' = remove_us (strip sp data) /\ us_ok (strip sp data) = true.
Proof. exact scan_str_sound. Qed.
Print Assumptions C06_fast_parse_sound_str.

(* no read past the terminator, no write past the number buffer: bytes path as it is (both
   underscore rules), unicode path once the loop bound is `i < end`; for ALL inputs *)
Theorem C06_fast_parse_no_oob_bytes : forall fix_us data,
  scan_bytes fix_us data <> OOBWrite /\ scan_bytes fix_us data <> OOBRead.
Proof. exact scan_bytes_no_oob. Qed.
Print Assumptions C06_fast_parse_no_oob_bytes.

Theorem C06_fast_parse_no_oob_str : forall fix_us fix_sp data,
  scan_str true fix_us fix_sp data <> OOBWrite /\ scan_str true fix_us fix_sp data <> OOBRead.
Proof. exact scan_str_no_oob. Qed.
Print Assumptions C06_fast_parse_no_oob_str.

(* F4: "1e+_5" reaches the parser as "1e+5" *)
Theorem C06_fast_parse_sound_refuted :
  exists data s', scan_bytes false data = Parse s' /\ us_ok (strip isspace_b data) = false.
Proof. exact scan_bytes_old_refuted. Qed.
Print Assumptions C06_fast_parse_sound_refuted.

(* F5: one space + 39 (40) digits: write at index 40 of number[40] (index length+1 of the
   length+1 byte heap buffer); 38 digits: in bounds but the terminator is part of the "number" *)
Theorem C06_fast_parse_no_oob_refuted :
  scan_str false false false (8195 :: repeat 49 39) = OOBWrite /\
  scan_str false false false (8195 :: repeat 49 40) = OOBWrite /\
  scan_str false false false (8195 :: repeat 49 38) = Parse (repeat 49 38 ++ [0]).
Proof. exact scan_str_old_oob_refuted. Qed.
Print Assumptions C06_fast_parse_no_oob_refuted.

(* separator stripping: " inf\x1c" is returned as inf; CPython's pre-scan keeps the 0x1c, which is
   not an inf/nan spelling; the repaired scanner falls back to CPython *)
Theorem C06_separator_stripped_refuted : forall todecimal,
  scan_str false false false [8195; 105; 110; 102; 28] = Special false false /\
  py_scan_str todecimal [8195; 105; 110; 102; 28] = PyParse [105; 110; 102; 28] /\
  infnan_spelling [105; 110; 102; 28] = None /\
  scan_str true true true [8195; 105; 110; 102; 28] = Fallback.
Proof. exact scan_str_old_separator_refuted. Qed.
Print Assumptions C06_separator_stripped_refuted.

(* non-vacuity: the repaired scanners do hand strings to the parser, and the operands of the
   float theorems include ordinary values *)
Example C06_nonvacuous :
  scan_bytes true [32; 49; 95; 48; 46; 53; 32] = Parse [49; 48; 46; 53] /\
  scan_str true true true [8195; 49; 95; 48; 160] = Parse [49; 48] /\
  fvalid ffive = true /\ fvalid ftenth = true /\
  mod_node_x true ffive ftenth = py_float_rem_x ffive ftenth /\
  mod_old_bad (fmod_exact ffive ftenth) ftenth = false.
Proof. vm_compute. repeat split. Qed.
