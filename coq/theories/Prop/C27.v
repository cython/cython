(* C27 - cpdef calls reach the most-derived override.  Statements only.
   run_cy cached fx h : what the generated code invokes (C body directly vs Python-level override)
   for every call in a history, incl. the pre-filter and (cached = true) the dict-version cache;
   run_py h : the implementation Python attribute lookup selects (MRO search, instance dict
   shadowing of non-data descriptors), on the plain class/instance dict contents.

   The full statement
     forall h ops, wf_hier h = true -> run_cy cached false h (w0 h) ops = run_py h (p0 h) ops
   is FALSE for the code as it is, for both values of cached (C27_*_refuted below). *)
From Coq Require Import ZArith List Bool.
From CyVerif Require Import Model.M_Override Proof.P_Override Model.M_VTable Proof.P_VTable.
Import ListNotations.
Open Scope Z_scope.

(* cache compiled out (CYTHON_USE_DICT_VERSIONS = 0: the default build on CPython >= 3.12):
   for ALL well-formed hierarchies without a plain-def re-definition of m in an extension type and
   ALL histories, every call (from Python, from C through the vtable, K.m(o)) runs the
   implementation Python lookup selects *)
Theorem C27_dispatch_eq_nocache_partial : forall h fx ops, wf_hier h = true -> no_ext_def h = true ->
  run_cy false fx h (w0 h) ops = run_py h (p0 h) ops.
Proof.
  intros h fx ops Hwf Hnd. apply (run_sim h Hwf fx false false); auto using inv_w0, rel_w0; discriminate.
Qed.
Print Assumptions C27_dispatch_eq_nocache_partial.

(* the missing part is really false: `def m` in a cdef subclass (documented restriction) *)
Theorem C27_dispatch_eq_ext_def_refuted : exists h ops, wf_hier h = true /\
  run_cy false false h (w0 h) ops <> run_py h (p0 h) ops.
Proof.
  exists [mkcls Ext [0%nat] MCpdef false NoDict; mkcls Ext [1%nat; 0%nat] (MDef 5) false NoDict],
         [New 1; CallC 0].
  split; [vm_compute; reflexivity|]. vm_compute. discriminate.
Qed.
Print Assumptions C27_dispatch_eq_ext_def_refuted.

(* dict-version cache on: equality for all histories that set/delete m only on classes without
   subclasses (instance mutations, creations and calls unrestricted) *)
Theorem C27_dispatch_eq_cached_partial : forall h ops, wf_hier h = true -> no_ext_def h = true ->
  forallb (leaf_op h) ops = true ->
  run_cy true false h (w0 h) ops = run_py h (p0 h) ops.
Proof. intros h ops Hwf Hnd Hl. apply (run_sim h Hwf false true true); auto using inv_w0, rel_w0. Qed.
Print Assumptions C27_dispatch_eq_cached_partial.

Theorem C27_cached_eq_uncached_partial : forall h ops, wf_hier h = true -> no_ext_def h = true ->
  forallb (leaf_op h) ops = true ->
  run_cy true false h (w0 h) ops = run_cy false false h (w0 h) ops.
Proof. intros. rewrite C27_dispatch_eq_cached_partial, C27_dispatch_eq_nocache_partial; auto. Qed.
Print Assumptions C27_cached_eq_uncached_partial.

(* ... and false without the restriction: the cache keys on the dict of type(obj) only, a
   mutation of a base class leaves it valid.  T <- P <- Q, q = Q(); C call; P.m = f; C call *)
Theorem C27_dispatch_eq_cached_refuted : exists h ops, wf_hier h = true /\ no_ext_def h = true /\
  run_cy true false h (w0 h) ops <> run_py h (p0 h) ops /\
  run_cy false false h (w0 h) ops = run_py h (p0 h) ops.
Proof.
  exists [mkcls Ext [0%nat] MCpdef false NoDict; mkcls Py [1%nat; 0%nat] MNone false Managed;
          mkcls Py [2%nat; 1%nat; 0%nat] MNone false Managed],
         [New 2; CallC 0; SetClass 1 (Fn 7); CallC 0].
  split; [vm_compute; reflexivity|]. split; [vm_compute; reflexivity|].
  split; [vm_compute; discriminate|vm_compute; reflexivity].
Qed.
Print Assumptions C27_dispatch_eq_cached_refuted.

(* pre-filter soundness, both builds, every reachable state of every history: when the filter
   says "cannot be overridden" (static type without instance dict), Python lookup resolves to the
   wrapper of the very C body that sits in the vtable slot *)
Theorem C27_prefilter_sound_partial : forall h cached fx ops oi o k, wf_hier h = true -> no_ext_def h = true ->
  nth_error (w_objs (exec_cy cached fx h (w0 h) ops)) oi = Some o ->
  prefilter h (os_cls o) = false -> vslot h (os_cls o) = Some k ->
  lookup h (cd_w (exec_cy cached fx h (w0 h) ops)) (os_cls o) (inst_m o) = TWrap k.
Proof. exact prefilter_sound. Qed.
Print Assumptions C27_prefilter_sound_partial.

Theorem C27_prefilter_sound_refuted : exists h ops oi o k, wf_hier h = true /\
  nth_error (w_objs (exec_cy false false h (w0 h) ops)) oi = Some o /\
  prefilter h (os_cls o) = false /\ vslot h (os_cls o) = Some k /\
  lookup h (cd_w (exec_cy false false h (w0 h) ops)) (os_cls o) (inst_m o) <> TWrap k.
Proof.
  exists [mkcls Ext [0%nat] MCpdef false NoDict; mkcls Ext [1%nat; 0%nat] (MDef 5) false NoDict],
         [New 1], 0%nat, (mkos 1 None), 0%nat.
  split; [vm_compute; reflexivity|]. split; [vm_compute; reflexivity|]. split; [vm_compute; reflexivity|].
  split; [vm_compute; reflexivity|]. vm_compute. discriminate.
Qed.
Print Assumptions C27_prefilter_sound_refuted.

(* the repaired variant fx (cache the result only for types whose bases are all immutable static
   types; proposed_fixes/C27-stale_cache_base_class_mutation.diff): ALL histories *)
Theorem C27_dispatch_eq_cached_fx : forall h ops, wf_hier h = true -> no_ext_def h = true ->
  run_cy true true h (w0 h) ops = run_py h (p0 h) ops.
Proof. intros h ops Hwf Hnd. apply (run_sim h Hwf true true true); auto using inv_w0, rel_w0. Qed.
Print Assumptions C27_dispatch_eq_cached_fx.

(* the invariant carrying the cached theorems: established initially, preserved by every step
   (leaf-class mutations for the code as it is, any mutation for fx), and it makes every step
   agree with the Python semantics *)
Theorem C27_cache_invariant_step : forall h fx cached cv w s o, wf_hier h = true ->
  Inv h fx cv w -> Rel w s -> (cached = true -> cv = true) ->
  (cv = true -> leaf_op h o = true \/ fx = true) -> no_ext_def h = true ->
  snd (step_cy cached fx h w o) = snd (step_py h s o) /\
  Inv h fx cv (fst (step_cy cached fx h w o)) /\ Rel (fst (step_cy cached fx h w o)) (fst (step_py h s o)).
Proof. intros h fx cached cv w s o Hwf. exact (step_sim h Hwf fx cached cv w s o). Qed.
Print Assumptions C27_cache_invariant_step.

(* hypotheses are satisfiable on a non-trivial value: depth-3 hierarchy with an instance dict,
   a cpdef override in a cdef subclass, a Python subclass, class and instance mutations *)
Example C27_nonvacuous :
  let h := [mkcls Ext [0%nat] MCpdef false NoDict; mkcls Ext [1%nat; 0%nat] MCpdef false NoDict;
            mkcls Py [2%nat; 1%nat; 0%nat] MNone false Managed] in
  let ops := [New 2; New 1; CallC 0; CallC 0; SetInst 0 9; CallC 0; DelInst 0; CallC 0; SetClass 2 (Fn 7); CallC 0; CallPy 0;
              SetClass 2 (Wrap 0); CallC 0; DelClass 2; CallC 0; CallC 1; CallVia 0 0] in
  wf_hier h = true /\ no_ext_def h = true /\ forallb (leaf_op h) ops = true /\
  run_cy true false h (w0 h) ops = [RBody 1; RBody 1; RFn 9; RBody 1; RFn 7; RFn 7; RBody 0; RBody 1; RBody 1; RBody 0].
Proof. vm_compute. repeat split; reflexivity. Qed.

(* the repaired variant still caches: second C call on a direct Python subclass is a cache hit
   (same results as without cache on a history with a base-class mutation) *)
Example C27_fx_on_witness :
  let h := [mkcls Ext [0%nat] MCpdef false NoDict; mkcls Py [1%nat; 0%nat] MNone false Managed;
            mkcls Py [2%nat; 1%nat; 0%nat] MNone false Managed] in
  let ops := [New 2; CallC 0; SetClass 1 (Fn 7); CallC 0; New 1; CallC 1; CallC 1] in
  run_cy true true h (w0 h) ops = [RBody 0; RFn 7; RFn 7; RFn 7].
Proof. vm_compute. reflexivity. Qed.

(* ---------- how a C-level call reaches the method: vtable slots, adapters, static types ----------
   chain = the declarations of m along the extension types from the root down (cdef / cpdef, number of
   optional arguments, final); build = the vtable as Symtab.declare_cfunction +
   CFuncDefNode.generate_wrapper_functions + generate_exttype_vtable_init_code fill it (one slot per C
   signature, adapters in the older slots); vt_call askip ch t = what a call through a reference
   statically typed t runs on an object whose extension type has chain ch (askip = the constant the
   adapter passes for skip_dispatch, false = '0' in the code as it is); vt_ref = the most-derived
   declaration: the cdef body, or the cpdef C entry point with skip_dispatch = 0.
   For ALL chains the compiler accepts, ALL static types: *)
Theorem C27_vtable_call_correct : forall ch t, wf_chain ch None = true -> vt_call false ch t = vt_ref ch t.
Proof. exact vt_call_correct. Qed.
Print Assumptions C27_vtable_call_correct.

(* an adapter passing skip_dispatch = 1: cdef m; cpdef m in the subclass; call through the base type *)
Theorem C27_vtable_adapter_skip_refuted : exists ch t, wf_chain ch None = true /\ vt_call true ch t <> vt_ref ch t.
Proof. exact vt_call_askip_refuted. Qed.
Print Assumptions C27_vtable_adapter_skip_refuted.

(* end to end: every history of class / instance mutations, Python-level calls and C-level calls
   through ANY static type (VCallT t o) invokes what Python lookup selects - the cdef body when the
   most-derived C declaration is a plain cdef method (not visible to Python) *)
Theorem C27_vdispatch_eq_nocache_partial : forall h vd fx ops, wf_hier h = true -> wf_vt h vd = true ->
  no_ext_def h = true ->
  vrun_cy false false fx h vd (w0 h) ops = vrun_py h vd (p0 h) ops.
Proof.
  intros h vd fx ops Hwf Hvt Hnd. apply (vrun_sim h Hwf vd Hvt fx false false); auto using inv_w0, rel_w0; discriminate.
Qed.
Print Assumptions C27_vdispatch_eq_nocache_partial.

Theorem C27_vdispatch_eq_cached_fx : forall h vd ops, wf_hier h = true -> wf_vt h vd = true ->
  no_ext_def h = true ->
  vrun_cy false true true h vd (w0 h) ops = vrun_py h vd (p0 h) ops.
Proof.
  intros h vd ops Hwf Hvt Hnd. apply (vrun_sim h Hwf vd Hvt true true true); auto using inv_w0, rel_w0.
Qed.
Print Assumptions C27_vdispatch_eq_cached_fx.

(* A: cdef m; B(A): cpdef m; class P(B) overrides m; P(); C call through B and through A *)
Theorem C27_vdispatch_adapter_skip_refuted : exists h vd ops, wf_hier h = true /\ wf_vt h vd = true /\
  no_ext_def h = true /\
  vrun_cy true false false h vd (w0 h) ops <> vrun_py h vd (p0 h) ops /\
  vrun_cy false false false h vd (w0 h) ops = vrun_py h vd (p0 h) ops.
Proof. exact vdispatch_askip_refuted. Qed.
Print Assumptions C27_vdispatch_adapter_skip_refuted.

(* three slots (cdef, cdef + 1 optional argument, cpdef + 1 optional argument), the newest one
   re-used by a fourth class: all older slots hold adapters to the most-derived implementation *)
Example C27_vtable_nonvacuous :
  let ch := [(0%nat, VDecl false 0 false); (1%nat, VDecl false 1 false); (2%nat, VDecl true 1 false);
             (3%nat, VDecl true 1 false)] in
  wf_chain ch None = true /\
  map s_ent (build false ch []) = [EImpl 3; EAdapt 3 (SkConst false) OpFwd; EAdapt 3 (SkConst false) OpNull] /\
  map s_cls (build false ch []) = [2%nat; 1%nat; 0%nat] /\
  vt_call false ch 0 = Some (VEntry 3 false) /\ vt_call false ch 3 = Some (VEntry 3 false).
Proof. vm_compute. repeat split; reflexivity. Qed.
