(* C34 - fused functions dispatch to the matching specialisation.
   Statements; proofs live in Proof/P_Fused.v and Proof/P_FusedArgs.v (witnesses are checked by
   evaluation where they stand).  Models: Model/M_Fused.v, Model/M_FusedArgs.v. *)
From Coq Require Import ZArith List Bool Permutation.
From CyVerif Require Import Model.M_Fused Proof.P_Fused Model.M_FusedArgs Proof.P_FusedArgs.
Import ListNotations.
Open Scope Z_scope.

(* the member order used by the dispatcher (list.sort with the partial __lt__ of PyrexTypes)
   is a rearrangement of the declared members, for any comparison function *)
Theorem C34_sort_permutation : forall (lt : ctype -> ctype -> bool) ms, Permutation (pysort lt ms) ms.
Proof. exact (@pysort_perm ctype). Qed.
Print Assumptions C34_sort_permutation.

(* the binary search of the sort model never runs out of fuel *)
Theorem C34_sort_fuel : forall (lt : ctype -> ctype -> bool) x a f1 f2 l r,
  (r - l < f1)%nat -> (r - l < f2)%nat -> bsearch lt f1 x a l r = bsearch lt f2 x a l r.
Proof. exact (@bsearch_fuel ctype). Qed.
Print Assumptions C34_sort_fuel.

(* the generated type mapper, for every member list, argument tag, id order and both fast
   path variants: first member in the preference order (duplicates of a py_type_name and
   object skipped) that the argument is an instance of; else the buffer tests over the
   memoryview members; else the object fallback; else None *)
Theorem C34_mapper_decision : forall fx idlt ms a,
  map_fused fx idlt ms a = map_spec fx (pysort (ty_lt idlt) ms) a.
Proof. exact map_fused_spec. Qed.
Print Assumptions C34_mapper_decision.

(* a selected member belongs to the fused type and its C type takes the argument (by type
   tag), provided the numpy fast path is repaired or cannot select a member that the full
   buffer check rejects *)
Theorem C34_selected_member_compatible : forall fx idlt ms a t,
  map_fused fx idlt ms a = Some t -> (fx = true \/ contig_safe ms a) -> In t ms /\ conv t a = COk.
Proof. exact map_fused_sound. Qed.
Print Assumptions C34_selected_member_compatible.

(* all declarations, all argument tuples: a returned signature is a signature of the function;
   for every fused type whose examined argument was mapped, the signature holds exactly that
   member and the member accepts the argument (the predicate under Forall2 is P_Fused.member_ok) *)
Theorem C34_dispatch_sound : forall fx idlt d args sig,
  dispatch_cy fx idlt d args = Spec sig ->
  (fx = true \/ forall ft a, In ft (ftypes d) -> nth_error args (fpos ft) = Some a -> contig_safe (members ft) a) ->
  Forall2 (fun ft t => In t (members ft) /\
             exists a, nth_error args (fpos ft) = Some a /\
               (map_fused fx idlt (members ft) a = Some t /\ conv t a = COk \/
                map_fused fx idlt (members ft) a = None)) (ftypes d) sig.
Proof. exact dispatch_sound. Qed.
Print Assumptions C34_dispatch_sound.

(* parameters sharing a fused type always get the same member *)
Theorem C34_same_fused_type_same_member : forall sig d i j,
  nth_error (params d) i = nth_error (params d) j -> param_type sig d i = param_type sig d j.
Proof. intros sig d i j. unfold param_type. intros ->. reflexivity. Qed.
Print Assumptions C34_same_fused_type_same_member.

(* FULL STATEMENT (false on the tree, see the refuted lemmas below):
     forall idlt ms a, doc_ok ms a (map_fused false idlt ms a).
   Proved part: it holds whenever the preference list keeps each py_type_name group in rank
   order, has no exact match behind a base-class match, and the numpy fast path cannot pick
   a member the full check rejects (three decidable conditions).  Missing: a
   characterisation of the declarations for which list.sort with the partial __lt__ yields
   such a list (numeric lists mixing complex or unsigned types do not). *)
Theorem C34_dispatch_documented_partial : forall fx idlt ms a,
  group_sortedb (pysort (ty_lt idlt) ms) = true ->
  exact_firstb (pysort (ty_lt idlt) ms) a = true ->
  fx || contig_safeb ms a = true ->
  doc_ok ms a (map_fused fx idlt ms a).
Proof.
  intros fx idlt ms a H1 H2 H3. apply map_fused_documented;
    [now apply group_sortedb_ok|now apply exact_firstb_ok|].
  apply orb_true_iff in H3. destruct H3 as [H3|H3]; [now left|right; now apply contig_safeb_ok].
Qed.
Print Assumptions C34_dispatch_documented_partial.

(* member lists without numeric types (and not mixing memoryviews with others) keep their
   declared order, so the conditions above speak about the declaration itself *)
Theorem C34_unordered_members_keep_order : forall idlt ms,
  (forall t, In t ms -> match t with TNum _ => False | _ => True end) ->
  (forall t, In t ms -> is_mem t = true -> forall u, In u ms -> is_mem u = true) ->
  pysort (ty_lt idlt) ms = ms.
Proof. exact ty_lt_unordered. Qed.
Print Assumptions C34_unordered_members_keep_order.

(* explicit indexing: func[idx] is a signature whose key is exactly the index, KeyError
   exactly when there is none *)
Theorem C34_index_exact : forall (K : Type) (keq : K -> K -> bool) (name : ctype -> K) sigs idx,
  (forall x y, keq x y = true <-> x = y) ->
  match getitem keq name sigs idx with
  | IFound s => In s sigs /\ map name s = idx
  | IKeyError => forall s, In s sigs -> map name s <> idx
  end.
Proof. exact (@getitem_exact). Qed.
Print Assumptions C34_index_exact.

(* findings: the unchanged dispatcher against the documented rules *)
Theorem C34_biggest_int_refuted :
  exists ms a t, map_fused false idlt0 ms a = Some t /\ ~ doc_ok ms a (Some t).
Proof.
  exists [t_short; t_dcomplex; t_long], AInt, t_short.
  destruct refuted_numeric_order as [H1 [_ H3]]. now split.
Qed.
Print Assumptions C34_biggest_int_refuted.

(* {short, unsigned long}: 40000 is sent to the short specialisation *)
Theorem C34_unsigned_refuted : map_fused false idlt0 [t_short; t_ulong] AInt = Some t_short /\
                               doc_choice [t_short; t_ulong] AInt = Some t_ulong.
Proof. split; reflexivity. Qed.
Print Assumptions C34_unsigned_refuted.

(* {bint, long}: True is not given to the exact match bint *)
Theorem C34_bool_exact_match_refuted : map_fused false idlt0 [t_bint; t_long] ABool = Some t_long /\
                                       doc_choice [t_bint; t_long] ABool = Some t_bint.
Proof. split; reflexivity. Qed.
Print Assumptions C34_bool_exact_match_refuted.

(* {A0, A1(A0)}: an A1 instance is given to the base class specialisation *)
Theorem C34_subclass_exact_match_refuted :
  map_fused false idlt0 [TExt 0; TExt 1] (AInst [1; 0]%nat) = Some (TExt 0) /\
  doc_choice [TExt 0; TExt 1] (AInst [1; 0]%nat) = Some (TExt 1).
Proof. split; reflexivity. Qed.
Print Assumptions C34_subclass_exact_match_refuted.

(* {long[::1], long[:]} with a non-contiguous int64 ndarray: the numpy fast path selects
   long[::1], whose conversion raises ValueError; the documented choice long[:] exists.
   With the repaired fast path the call runs long[:] *)
Theorem C34_fastpath_contiguity_refuted :
  call_cy false idlt0 d_mem [a_strided] = ValueErr /\
  doc_call d_mem [a_strided] = Ran [TMem (NInt 6 1) 1 MStrided] /\
  call_cy true idlt0 d_mem [a_strided] = Ran [TMem (NInt 6 1) 1 MStrided].
Proof. repeat split; reflexivity. Qed.
Print Assumptions C34_fastpath_contiguity_refuted.

(* a fused type with a single member: "no match" is a wildcard for match_signatures *)
Theorem C34_single_member_wildcard_refuted :
  map_fused false idlt0 [t_double] AInt = None /\
  dispatch_cy false idlt0 d_single [AInt; AFloat] = Spec [t_double; t_double] /\
  doc_call d_single [AInt; AFloat] = TypeErr.
Proof. repeat split; reflexivity. Qed.
Print Assumptions C34_single_member_wildcard_refuted.

(* ---------- how the dispatcher obtains the dispatched-on value (make_fused_cpdef loop +
   _unpack_argument; Model/M_FusedArgs.v).  Signatures: any list of parameters (fused or not,
   positional-only / positional-or-keyword / keyword-only, with or without default, any number of
   fused types used any number of times) + *args / **kwargs; calls: any positional list and
   keyword dict.  [wf_sig]: keyword-only parameters last, distinct names (the grammar). ---------- *)

(* each generated block reads the first parameter of its fused type, under its own index and
   name, and the defaults-tuple slot "number of earlier parameters with a default" *)
Theorem C34_unpack_blocks : forall (V : Type) (s : fsig V) pl,
  In pl (plans true s) ->
  exists p, nth_error (s_params s) (pl_idx pl) = Some p /\ pl_name pl = p_name p /\ pl_kind pl = p_kind p /\
            p_fused p = Some (pl_ft pl) /\
            pl_def pl = (if has_default p
                         then Some (length (defaults_tuple (firstn (pl_idx pl) (s_params s)))) else None).
Proof. exact plans_spec. Qed.
Print Assumptions C34_unpack_blocks.

(* FULL STATEMENT (false on the tree for kinds_fix = false, see the two refuted lemmas below):
     forall s args kwargs vals pl, wf_sig s -> bind_py s args kwargs = Some vals -> In pl (plans true s) ->
       run_plan false pl ... = FVal (the value CPython binds to parameter pl_idx).
   Proved: it holds for the repaired block (kinds_fix = true) on every signature and call, and for
   the block as it is on every call outside the two finding classes ([hazard_free]: a
   keyword-only dispatched parameter while surplus positionals reach its index; a
   positional-only one whose name is a **kwargs key). *)
Theorem C34_fetched_value_is_bound_value : forall (V : Type) kinds_fix (s : fsig V) args kwargs vals pl,
  wf_sig s = true ->
  bind_py s args kwargs = Some vals ->
  In pl (plans true s) ->
  kinds_fix = true \/ hazard_free pl args kwargs = true ->
  exists v, nth_error vals (pl_idx pl) = Some v /\
            run_plan kinds_fix pl args kwargs (defaults_tuple (s_params s)) = FVal v.
Proof. exact fetch_bound. Qed.
Print Assumptions C34_fetched_value_is_bound_value.

(* consequently the whole call (fetch, type mapping, signature matching, call of the selected
   specialisation) is the all-positional dispatcher of the theorems above applied to the values
   CPython binds to the fused parameters ... *)
Theorem C34_call_reduces_to_bound_values :
  forall (V : Type) (tag_of : V -> atag) kinds_fix fastfix idlt mss (s : fsig V) args kwargs vals,
  wf_sig s = true ->
  bind_py s args kwargs = Some vals ->
  kinds_fix = true \/ forallb (fun pl => hazard_free pl args kwargs) (plans true s) = true ->
  call2_cy tag_of true kinds_fix fastfix idlt mss s args kwargs =
  call_cy fastfix idlt (decl_of mss s) (fused_vals tag_of (s_params s) vals).
Proof. exact call2_reduces. Qed.
Print Assumptions C34_call_reduces_to_bound_values.

(* ... and a call that CPython's binding rejects never runs a specialisation *)
Theorem C34_unbindable_call_raises :
  forall (V : Type) (tag_of : V -> atag) ca kinds_fix fastfix idlt mss (s : fsig V) args kwargs sg,
  bind_py s args kwargs = None -> call2_cy tag_of ca kinds_fix fastfix idlt mss s args kwargs <> Ran sg.
Proof. exact call2_bind_error. Qed.
Print Assumptions C34_unbindable_call_raises.

(* the loop variant that counts only the defaults of dispatch-relevant parameters is wrong:
   f(tag = 7, num_t x = 3) called as f() hands the dispatcher tag's default *)
Theorem C34_count_relevant_defaults_only_refuted :
  wf_sig s_seed = true /\ bind_py s_seed [] [] = Some [7; 3]%nat /\
  (exists pl, plans false s_seed = [pl] /\ hazard_free pl (@nil nat) [] = true /\
              run_plan true pl [] [] (defaults_tuple (s_params s_seed)) = FVal 7%nat) /\
  (exists pl, plans true s_seed = [pl] /\ run_plan true pl [] [] (defaults_tuple (s_params s_seed)) = FVal 3%nat).
Proof. vm_compute. repeat split; eexists; repeat split. Qed.
Print Assumptions C34_count_relevant_defaults_only_refuted.

(* findings: f( *args, num_t x = 3) called as f(5) dispatches on 5; f(num_t x = 3, /, **kw) called
   as f(x = 5) dispatches on 5; the bound value is 3 in both; the repaired block fetches 3 *)
Theorem C34_kwonly_read_from_star_args_refuted :
  wf_sig s_kwonly = true /\ bind_py s_kwonly [5]%nat [] = Some [3]%nat /\
  exists pl, plans true s_kwonly = [pl] /\
             run_plan false pl [5]%nat [] (defaults_tuple (s_params s_kwonly)) = FVal 5%nat /\
             run_plan true pl [5]%nat [] (defaults_tuple (s_params s_kwonly)) = FVal 3%nat.
Proof. vm_compute. repeat split; eexists; repeat split. Qed.
Print Assumptions C34_kwonly_read_from_star_args_refuted.

Theorem C34_posonly_read_from_kwargs_refuted :
  wf_sig s_posonly = true /\ bind_py s_posonly [] [(0, 5)]%nat = Some [3]%nat /\
  exists pl, plans true s_posonly = [pl] /\
             run_plan false pl [] [(0, 5)]%nat (defaults_tuple (s_params s_posonly)) = FVal 5%nat /\
             run_plan true pl [] [(0, 5)]%nat (defaults_tuple (s_params s_posonly)) = FVal 3%nat.
Proof. vm_compute. repeat split; eexists; repeat split. Qed.
Print Assumptions C34_posonly_read_from_kwargs_refuted.

(* non-vacuity of the fetch theorem: def f(a, b = 8, *args, num_t x = 3, **kw) called as f(1, x = 4)
   binds (1, 8, 4); the only block fetches 4 from the keyword dict *)
Example C34_fetch_nonvacuous :
  let s := mkSig [mkParam 0 KPosKw None None; mkParam 1 KPosKw None (Some 8); mkParam 2 KKwOnly (Some 0) (Some 3)]%nat true true in
  wf_sig s = true /\ bind_py s [1]%nat [(2, 4)]%nat = Some [1; 8; 4]%nat /\
  exists pl, plans true s = [pl] /\ hazard_free pl [1]%nat [(2, 4)]%nat = true /\
             run_plan false pl [1]%nat [(2, 4)]%nat (defaults_tuple (s_params s)) = FVal 4%nat.
Proof. vm_compute. repeat split. eexists. repeat split. Qed.

(* non-vacuity: cython.numeric meets the three conditions for a bool argument and the
   documented choice (long, the biggest int type) comes out *)
Example C34_nonvacuous :
  let ms := [t_short; t_int; t_long; TNum (NFloat 10); t_double; TNum (NComplex 10); t_dcomplex] in
  group_sortedb (pysort (ty_lt idlt0) ms) = true /\ exact_firstb (pysort (ty_lt idlt0) ms) ABool = true /\
  false || contig_safeb ms ABool = true /\ map_fused false idlt0 ms ABool = Some t_long /\
  dispatch_cy false idlt0 {| ftypes := [{| members := ms; fpos := 0 |}]; params := [0%nat; 0%nat] |} [ABool; AFloat]
    = Spec [t_long].
Proof. vm_compute. repeat split; reflexivity. Qed.
