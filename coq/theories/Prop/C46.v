(* C46 — cythonize rebuilds exactly the modules whose inputs changed.
   Only statements; proofs live in Proof/P_DepTree.v (the closure algorithm and the rebuild test) and
   Proof/P_DepScan.v (extraction of the graph from sources, second half of this file); the model of
   DependencyTree.transitive_merge(_helper) / newest_dependency / the rebuild test of
   cythonize() is Model/M_DepTree.v, that of parse_dependencies / find_pxd Model/M_DepScan.v.

   Vocabulary (Proof/P_DepTree.v):
     reach outgoing n m        m is reachable from n (reflexive, transitive) along `outgoing`
     reach_av outgoing A n m   the same inside the graph with the nodes satisfying A removed
     cache_ok outgoing extract seen
                               every entry seen[k] is, as a set, U { extract m | reach k m }
     stack_ok V st             the stack dict has distinct keys inside V and depth indices < len
     blocked st loop s         s is a stack node whose depth index is >= that of `loop`
   A finite graph is a node list V closed under `outgoing`; nothing else is assumed: cycles,
   self-loops, diamonds, duplicate successors, any iteration order, any item sets. *)
From Coq Require Import List ZArith Bool.
From CyVerif Require Import Lib.CInt Model.M_DepTree Proof.P_DepTree Model.M_DepScan Proof.P_DepScan.
Import ListNotations.

(* Main theorem.  Any sequence of all_dependencies() queries on one tree, starting from the empty
   _transitive_cache, with fuel = |V| + 1: no query runs out of fuel or hits a KeyError (the
   result is QOk), the i-th answer is exactly the union of extract(m) over the m reachable from
   the i-th queried node, and every entry left in the shared cache is such a closure. *)
Theorem C46_closure_correct :
  forall (outgoing : node -> list node) (extract : node -> nset) (V : list node),
    (forall v, In v V -> incl (outgoing v) V) ->
    forall qs, incl qs V ->
    exists ans seen',
      run_queries outgoing extract (fuel_for V) [] qs = QOk ans seen' /\
      cache_ok outgoing extract seen' /\
      Forall2 (fun q d => forall x, In x d <-> exists m, reach outgoing q m /\ In x (extract m)) qs ans.
Proof. exact closure_correct. Qed.
Print Assumptions C46_closure_correct.

(* One query on ANY cache whose entries are closures (in particular every cache an earlier
   history left behind): exact answer, loop = None at top level, cache still consistent. *)
Theorem C46_query_on_any_consistent_cache :
  forall outgoing extract V,
    (forall v, In v V -> incl (outgoing v) V) ->
    forall seen q, In q V -> cache_ok outgoing extract seen ->
    exists deps seen',
      transitive_merge outgoing extract (fuel_for V) seen q = Ok deps None seen' /\
      cache_ok outgoing extract seen' /\
      forall x, In x deps <-> exists m, reach outgoing q m /\ In x (extract m).
Proof. exact transitive_merge_correct. Qed.
Print Assumptions C46_query_on_any_consistent_cache.

(* The (deps, loop) contract of transitive_merge_helper in an arbitrary well-formed state
   (any consistent cache, any stack): it terminates within the fuel bound without KeyError;
   deps lies inside the closure of n; deps contains extract(m) for every m reachable from n without
   entering a stack node at or below `loop`; `loop`, if any, is a stack node reachable from n;
   loop = None makes deps the exact closure; the cache stays consistent. *)
Theorem C46_helper_contract :
  forall outgoing extract V,
    (forall v, In v V -> incl (outgoing v) V) ->
    forall n seen st, In n V -> cache_ok outgoing extract seen -> stack_ok V st ->
    exists deps loop seen',
      tmh outgoing extract (fuel_for V) n seen st = Ok deps loop seen' /\
      cache_ok outgoing extract seen' /\
      (forall x, In x deps -> exists m, reach outgoing n m /\ In x (extract m)) /\
      (forall m, reach_av outgoing (blocked st loop) n m -> incl (extract m) deps) /\
      (forall l, loop = Some l -> (exists d, lookup l st = Some d) /\ reach outgoing n l) /\
      (loop = None -> forall x, In x deps <-> exists m, reach outgoing n m /\ In x (extract m)).
Proof. exact helper_contract. Qed.
Print Assumptions C46_helper_contract.

(* The answer for q does not depend on which queries were made before it. *)
Theorem C46_order_independent :
  forall outgoing extract V qs1 qs2 q,
    (forall v, In v V -> incl (outgoing v) V) -> incl qs1 V -> incl qs2 V -> In q V ->
    exists a1 a2 ans1 ans2 s1 s2,
      run_queries outgoing extract (fuel_for V) [] (qs1 ++ [q]) = QOk (ans1 ++ [a1]) s1 /\
      run_queries outgoing extract (fuel_for V) [] (qs2 ++ [q]) = QOk (ans2 ++ [a2]) s2 /\
      forall x, In x a1 <-> In x a2.
Proof. exact order_independent. Qed.
Print Assumptions C46_order_independent.

(* The rebuild test of cythonize() without force, on a dependency set containing the source:
   compile iff some dependency is strictly newer than the C file (c_ts = -1: no usable C file). *)
Theorem C46_rebuild_iff_newer :
  forall (c_ts : Z) (ts : nat -> Z) (source : nat) (deps : nset),
    In source deps ->
    exists b, rebuild_decision false c_ts ts source deps = Some b /\
              (b = true <-> exists x, In x deps /\ (c_ts < ts x)%Z).
Proof. exact rebuild_iff_newer. Qed.
Print Assumptions C46_rebuild_iff_newer.

Theorem C46_rebuild_forced :
  forall c_ts ts source deps, In source deps -> rebuild_decision true c_ts ts source deps = Some true.
Proof. exact rebuild_forced. Qed.
Print Assumptions C46_rebuild_forced.

(* End to end on the model: after any earlier queries on the tree, the module q is regenerated
   iff some item of some node reachable from q is newer than its C file. *)
Theorem C46_cythonize_exact :
  forall outgoing extract V (before : list node) q (c_ts : Z) (ts : nat -> Z),
    (forall v, In v V -> incl (outgoing v) V) -> incl before V -> In q V ->
    In q (extract q) ->
    exists ans d seen b,
      run_queries outgoing extract (fuel_for V) [] (before ++ [q]) = QOk (ans ++ [d]) seen /\
      rebuild_decision false c_ts ts q d = Some b /\
      (b = true <-> exists n x, reach outgoing q n /\ In x (extract n) /\ (c_ts < ts x)%Z).
Proof. exact cythonize_exact. Qed.
Print Assumptions C46_cythonize_exact.

(* Finding from_cimport_submodule_untracked (the scanner, which the theorems above take as the given
   `outgoing`): for "from pk cimport q0" the tree as it is does not list pk/q0.pxd although the
   compiler reads it, so a newer pk/q0.pxd leaves m.c stale.  Witness replayed on the real cythonize
   by props/C46.py (project "witness"). *)
Theorem C46_from_cimport_scan_refuted :
  exists ans seen x,
    run_queries (wit_out false) (wit_ext false) (fuel_for [0; 1; 2]) [] [0] = QOk [ans] seen /\
    In x wit_files_read /\ ~ In x ans /\
    wit_rebuild false 20 (fun f => if Nat.eqb f 2 then 30 else 10)%Z = Some false.
Proof. exact from_cimport_scan_refuted. Qed.
Print Assumptions C46_from_cimport_scan_refuted.

(* the same project with the repaired scanner (proposed_fixes/C46-from_cimport_submodule_untracked.diff) *)
Theorem C46_from_cimport_scan_fixed :
  exists ans seen,
    run_queries (wit_out true) (wit_ext true) (fuel_for [0; 1; 2]) [] [0] = QOk [ans] seen /\
    (forall x, In x ans <-> In x wit_files_read) /\
    forall c_ts ts, exists b, wit_rebuild true c_ts ts = Some b /\
      (b = true <-> exists x, In x wit_files_read /\ (c_ts < ts x)%Z).
Proof. exact from_cimport_scan_fixed. Qed.
Print Assumptions C46_from_cimport_scan_fixed.

(* ------------------------------------------------------------------------------------------------
   Second region: extraction of the graph from sources (Model/M_DepScan.v, Proof/P_DepScan.v).
   Vocabulary: a str is a list of characters with 0 = '.'; ident w = w is non-empty and has no dot;
   render level path = level dots followed by '.'.join(path) (the text after "from" / "cimport");
   import_rule level path pkg = the qualified name Python's / Cython's import rule gives to
   (level, path) inside package pkg (None: beyond the top-level package);
   scan r stmts = what parse_dependencies records; find_pxd_cands f module pkg = the qualified names
   find_pxd hands to Context.find_pxd_file, in order (f: finding repaired or not, see below). *)

(* parse_dependencies + find_pxd, "from <level dots><path> cimport ..., w, ...": for EVERY level >= 1
   within the package depth and EVERY module path (the empty one included) the "package.name"
   candidate of w is recorded, and find_pxd resolves it to exactly the submodule the import rule names. *)
Theorem C46_from_cimport_submodule_tracked :
  forall (fixed : bool) (level : nat) (path names pkg : list str) (w : str),
    1 <= level -> level <= length pkg -> idents path -> ident w -> In w names ->
    exists c q,
      In c (sc_cimports (scan SepEndsWithDot [SFrom (render level path) names])) /\
      import_rule level (path ++ [w]) pkg = Some q /\
      find_pxd_cands fixed c pkg = Some [join_dots q].
Proof. exact from_cimport_submodule_tracked. Qed.
Print Assumptions C46_from_cimport_submodule_tracked.

(* the same for an absolute "from a.b cimport w": candidates package-of-the-file first, then absolute *)
Theorem C46_from_cimport_submodule_tracked_abs :
  forall (fixed : bool) (path names pkg : list str) (w : str),
    path <> [] -> idents path -> ident w -> In w names ->
    exists c,
      In c (sc_cimports (scan SepEndsWithDot [SFrom (render 0 path) names])) /\
      find_pxd_cands fixed c pkg = Some [join_dots (pkg ++ path ++ [w]); join_dots (path ++ [w])].
Proof. exact from_cimport_submodule_tracked_abs. Qed.
Print Assumptions C46_from_cimport_submodule_tracked_abs.

(* the separator rule "sep = '' only if <from> == '.'" is wrong: for "from .. cimport s" inside p.q no
   recorded candidate resolves to p.s (whichever variant of find_pxd) *)
Theorem C46_sep_only_one_dot_refuted :
  exists level path names pkg w q,
    1 <= level /\ level <= length pkg /\ idents path /\ ident w /\ In w names /\ idents pkg /\
    import_rule level (path ++ [w]) pkg = Some q /\
    forall fixed c, In c (sc_cimports (scan SepOnlyOneDot [SFrom (render level path) names])) ->
                    find_pxd_cands fixed c pkg <> Some [join_dots q].
Proof. exact sep_only_one_dot_refuted. Qed.
Print Assumptions C46_sep_only_one_dot_refuted.

(* find_pxd on a relative name with a module part: one candidate, the import rule's name *)
Theorem C46_resolve_relative :
  forall fixed level path pkg,
    1 <= level -> level <= length pkg -> path <> [] -> idents path ->
    exists q, import_rule level path pkg = Some q /\
              find_pxd_cands fixed (render level path) pkg = Some [join_dots q].
Proof. exact resolve_relative. Qed.
Print Assumptions C46_resolve_relative.

Theorem C46_resolve_absolute :
  forall fixed path pkg, path <> [] -> idents path ->
    find_pxd_cands fixed (render 0 path) pkg = Some [join_dots (pkg ++ path); join_dots path].
Proof. exact resolve_absolute. Qed.
Print Assumptions C46_resolve_absolute.

(* Finding bare_dots_package_off_by_one: "from . cimport x" records "." (the package whose
   __init__.pxd the compiler reads); the code as it is resolves dots-only names one package too high
   (C46_resolve_dots_only_as_is; witness C46_dots_only_refuted replayed by props/C46.py); the repaired
   find_pxd (proposed_fixes/C46-bare_dots_package_off_by_one.diff) obeys the rule for every level. *)
Theorem C46_resolve_dots_only_as_is :
  forall level pkg, 1 <= level ->
    find_pxd_cands false (render level []) pkg
    = if level <=? length pkg then Some [join_dots (firstn (length pkg - level) pkg)] else None.
Proof. exact resolve_dots_only_as_is. Qed.
Print Assumptions C46_resolve_dots_only_as_is.

Theorem C46_dots_only_refuted :
  exists level pkg q, 1 <= level /\ level <= length pkg /\ idents pkg /\
    import_rule level [] pkg = Some q /\
    find_pxd_cands false (render level []) pkg <> Some [join_dots q].
Proof. exact dots_only_refuted. Qed.
Print Assumptions C46_dots_only_refuted.

Theorem C46_resolve_dots_only_fixed :
  forall level pkg, 1 <= level -> level <= length pkg ->
    exists q, import_rule level [] pkg = Some q /\
              find_pxd_cands true (render level []) pkg = Some [join_dots q].
Proof. exact resolve_dots_only_fixed. Qed.
Print Assumptions C46_resolve_dots_only_fixed.

(* find_pxd over any file system vs the file the compiler opens.  Relative names: always equal. *)
Theorem C46_find_pxd_relative_matches_compiler :
  forall fixed ll3 fs level path pkg,
    1 <= level -> level <= length pkg -> path <> [] -> idents path ->
    find_pxd fixed fs (render level path) pkg = compiler_resolve ll3 fs level path pkg.
Proof. exact find_pxd_relative_matches_compiler. Qed.
Print Assumptions C46_find_pxd_relative_matches_compiler.

(* Absolute names.  Full statement (false under language_level 3):
     forall fixed ll3 fs path pkg, path <> [] -> idents path ->
       find_pxd fixed fs (render 0 path) pkg = compiler_resolve ll3 fs 0 path pkg.
   Proved: under language_level 2 always; under 3 when the importing file is not in a package or no
   module of that name exists inside its package.  The rest is finding
   absolute_cimport_shadowed_by_package_sibling (C46_find_pxd_absolute_ll3_refuted). *)
Theorem C46_find_pxd_absolute_matches_compiler_partial :
  forall fixed ll3 fs path pkg, path <> [] -> idents path ->
    ll3 = false \/ pkg = [] \/ fs (join_dots (pkg ++ path)) = false ->
    find_pxd fixed fs (render 0 path) pkg = compiler_resolve ll3 fs 0 path pkg.
Proof. exact find_pxd_absolute_matches_compiler_partial. Qed.
Print Assumptions C46_find_pxd_absolute_matches_compiler_partial.

Theorem C46_find_pxd_absolute_ll3_refuted :
  exists fs path pkg, path <> [] /\ idents path /\ idents pkg /\
    forall fixed, find_pxd fixed fs (render 0 path) pkg <> compiler_resolve true fs 0 path pkg.
Proof. exact find_pxd_absolute_ll3_refuted. Qed.
Print Assumptions C46_find_pxd_absolute_ll3_refuted.

(* package(filename) = the maximal run of package directories directly above the file *)
Theorem C46_package_of_spec :
  forall dirs, exists n, n <= length dirs /\
    package_of dirs = rev (map fst (firstn n dirs)) /\
    Forall (fun d => snd d = true) (firstn n dirs) /\
    (forall d, nth_error dirs n = Some d -> snd d = false).
Proof. exact package_of_spec. Qed.
Print Assumptions C46_package_of_spec.

Example C46_scan_nonvacuous :
  idents [[7]] /\ ident [8] /\
  sc_cimports (scan SepEndsWithDot [SFrom (render 2 []) [[8]]; SFrom (render 1 [[7]]) [[8]; [9]]; SCimport [[7; 0; 8]]])
    = [[0; 0]; [0; 0; 8]; [0; 7]; [0; 7; 0; 8]; [0; 7; 0; 9]; [7; 0; 8]] /\
  find_pxd_cands false [0; 0; 8] [[1]; [2]] = Some [[1; 0; 8]] /\
  find_pxd_cands false [0; 0; 0; 8] [[1]; [2]] = Some [[8]] /\
  find_pxd_cands false [0; 0; 0; 0; 8] [[1]; [2]] = None.
Proof.
  split; [constructor; [apply ident_single; discriminate|constructor]|].
  split; [apply ident_single; discriminate|]. vm_compute. repeat split.
Qed.

(* non-vacuity (graphs ex_out / ex_cyc of Model/M_DepTree.v): a 2-cycle below a diamond and a self-loop; queried 3, 0, 1 on one
   cache.  Hypotheses hold; answers as computed; and the fuel bound |V|+1 is not slack: with
   fuel |V| the same first query is out of fuel on a 4-cycle. *)
Example C46_nonvacuous :
  (forall v, In v [0; 1; 2; 3] -> incl (ex_out v) [0; 1; 2; 3]) /\
  incl [3; 0; 1] [0; 1; 2; 3] /\
  run_queries ex_out ex_ext (fuel_for [0; 1; 2; 3]) [] [3; 0; 1]
    = QOk [[3; 1]; [0; 1; 3; 2]; [1; 3]]
          [(0, [0; 1; 3; 2]); (2, [2; 3; 1]); (1, [1; 3]); (3, [3; 1])] /\
  run_queries ex_cyc ex_ext 4 [] [0] = QFail /\
  rebuild_decision false 5 (fun n => Z.of_nat n) 0 [0; 1; 3; 2] = Some false /\
  rebuild_decision false 2 (fun n => Z.of_nat n) 0 [0; 1; 3; 2] = Some true.
Proof.
  split.
  { intros v [<-|[<-|[<-|[<-|[]]]]]; simpl; intros x Hx; simpl in Hx; intuition (subst; simpl; auto). }
  split.
  { intros x Hx; simpl in *; intuition. }
  vm_compute. repeat split.
Qed.
