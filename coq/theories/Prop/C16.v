(* C16 — Typed memoryview indexing and slicing match buffer semantics.
   Only statements; proofs live in Proof/P_MemSlice.v.  Model: Model/M_MemSlice.v
   (slice_dim/index_dim = __pyx_memoryview_slice_memviewslice, SliceIndex, SimpleSlice;
    slice_nd = generate_buffer_slice_code / memview_slice; py_* = CPython sliceobject.c).
   fixes_all  = the code with proposed_fixes/C16-*.diff applied,
   fixes_none = the code before them (the flag values are chosen in props/C16.py). *)
From Coq Require Import ZArith List Bool.
From CyVerif Require Import Lib.CInt Model.M_MemSlice Proof.P_MemSlice.
Import ListNotations.
Open Scope Z_scope.

(* For ALL integers shape >= 0, start, stop, step and all have_start/have_stop/have_step
   combinations, the repaired per-dimension computation yields exactly
   (slicelength, first index, index step) of slice(start, stop, step).indices(shape) --
   including the ValueError for a zero step (both sides None). *)
Theorem C16_slice_dim_eq : forall shape start stop step hs he hst,
  0 <= shape ->
  slice_triple fixes_all shape start stop step hs he hst
  = py_slice_indices shape (opt hs start) (opt he stop) (opt hst step).
Proof. exact slice_triple_eq. Qed.
Print Assumptions C16_slice_dim_eq.

(* the same against the ssize_t API PySlice_Unpack + PySlice_AdjustIndices, for every
   PY_SSIZE_T_MAX = M that holds the extent (the API clamps a step below -M) *)
Theorem C16_slice_dim_eq_unpack_adjust : forall M shape start stop step hs he hst,
  0 <= shape <= M -> (hst = true -> - M <= step) ->
  slice_triple fixes_all shape start stop step hs he hst
  = py_slice_ssize M shape (opt hs start) (opt he stop) (opt hst step).
Proof. exact slice_triple_ssize_eq. Qed.
Print Assumptions C16_slice_dim_eq_unpack_adjust.

(* the two CPython formulations agree *)
Theorem C16_unpack_adjust_is_indices : forall M length a b c,
  0 <= length <= M -> (forall s, c = Some s -> - M <= s) ->
  py_slice_ssize M length a b c = py_slice_indices length a b c.
Proof. exact py_slice_ssize_eq. Qed.
Print Assumptions C16_unpack_adjust_is_indices.

(* what is stored in dst (new shape, stride*step, data offset start*stride) addresses, as
   i-th element, base element first + i*step -- any code variant; when the normalised start is -1
   (negative step, start before the first item: the view is empty by C16_offsets_in_bounds) the data
   pointer / suboffset is not moved at all *)
Theorem C16_element_set_eq : forall fx shape stride start stop step hs he hst n s' o,
  slice_dim fx shape stride start stop step hs he hst = DSlice n s' o ->
  exists first istep,
    slice_triple fx shape start stop step hs he hst = Some (n, first, istep) /\
    (0 <= first -> forall i, o + i * s' = (first + i * istep) * stride) /\
    (first < 0 -> o = 0).
Proof. exact element_eq. Qed.
Print Assumptions C16_element_set_eq.

(* every element of the repaired view is an element of the base dimension (C36 share) *)
Theorem C16_offsets_in_bounds : forall shape start stop step hs he hst n first istep i,
  0 <= shape ->
  slice_triple fixes_all shape start stop step hs he hst = Some (n, first, istep) ->
  0 <= i < n -> 0 <= first + i * istep < shape.
Proof. exact offsets_in_bounds. Qed.
Print Assumptions C16_offsets_in_bounds.

(* "Step may not be zero": ValueError iff a step is given and is 0; a slice never raises IndexError *)
Theorem C16_zero_step_raises : forall fx shape stride start stop step hs he hst,
  (slice_dim fx shape stride start stop step hs he hst = DErr ValueError <-> (hst = true /\ step = 0))
  /\ slice_dim fx shape stride start stop step hs he hst <> DErr IndexError.
Proof. intros. split; [apply zero_step_raises|apply slice_dim_never_index_error]. Qed.
Print Assumptions C16_zero_step_raises.

(* integer index: IndexError iff outside [-shape, shape); otherwise the offset of the
   wrapped index, which lies in [0, shape) *)
Theorem C16_index_oob_raises : forall shape stride i, 0 <= shape ->
  (index_dim shape stride i = DErr IndexError <-> ~ (- shape <= i < shape)) /\
  (- shape <= i < shape ->
   index_dim shape stride i = DIndex ((if i <? 0 then i + shape else i) * stride)
   /\ 0 <= (if i <? 0 then i + shape else i) < shape).
Proof.
  intros shape stride i Hs. split; [apply index_oob_raises | apply index_dim_in_range]; exact Hs.
Qed.
Print Assumptions C16_index_oob_raises.

(* the SimpleSlice template (bare ':') is the general computation with nothing given *)
Theorem C16_simple_slice_eq : forall fx shape stride, 0 <= shape ->
  slice_dim fx shape stride 0 0 0 false false false = simple_slice shape stride.
Proof. exact simple_slice_eq. Qed.
Print Assumptions C16_simple_slice_eq.

(* N dimensions (int / slice / None per position, after ellipsis expansion): every element of
   the result view is the base element selected by Python/NumPy basic indexing (base_index),
   lies inside the base, and is read at the same byte offset. *)
Theorem C16_nd_elements : forall ixs dims off off' rdims,
  Forall (fun d => 0 <= fst d) dims ->
  slice_nd fixes_all dims ixs off = NdOk off' rdims ->
  forall js, in_box rdims js ->
  exists ks, base_index (map fst dims) ixs js = Some ks /\ in_box dims ks /\
             elem_offset off' rdims js = elem_offset off dims ks.
Proof. exact slice_nd_elements. Qed.
Print Assumptions C16_nd_elements.

(* N dimensions: ValueError only from a zero step, IndexError only from an integer index *)
Theorem C16_nd_errors : forall ixs dims off e,
  slice_nd fixes_all dims ixs off = NdErr e ->
  (e = ValueError -> exists a b, In (ISlice a b (Some 0)) ixs) /\
  (e = IndexError -> exists i, In (IInt i) ixs).
Proof. exact slice_nd_errors. Qed.
Print Assumptions C16_nd_errors.

(* no Py_ssize_t overflow in the index arithmetic of the slice branch (either code variant):
   start+shape, stop+shape, shape-1, the normalised bounds, stop-start, the quotient, step*quotient,
   the remainder and quotient+1 all fit in 64 bits when the arguments do and shape <= PY_SSIZE_T_MAX-1.
   (stride*step and start*stride depend on the buffer geometry and are not covered.)  C36 share *)
Theorem C16_slice_dim_no_overflow : forall fx shape start stop step hs he hst,
  in_range 64 true start -> in_range 64 true stop -> in_range 64 true step ->
  0 <= shape <= max_int 64 true - 1 -> (hst = true -> step <> 0) ->
  Forall (in_range 64 true) (slice_intermediates fx shape start stop step hs he hst).
Proof. exact slice_no_overflow. Qed.
Print Assumptions C16_slice_dim_no_overflow.

(* For the code before the repairs the full statement C16_slice_dim_eq is FALSE:
     forall shape start stop step hs he hst, 0 <= shape ->
       slice_triple fixes_none shape start stop step hs he hst = py_slice_indices shape ... *)

(* finding F7 (class neg_step_bound_below_minus_len): without the clamp repair, a[:-12:-1] *)
Theorem C16_slice_dim_eq_clamp_refuted : forall fe, exists shape start stop step hs he hst,
  0 <= shape /\ (hst = true -> step <> 0) /\
  slice_triple {| fx_clamp := false; fx_ceil := fe |} shape start stop step hs he hst
  <> py_slice_indices shape (opt hs start) (opt he stop) (opt hst step).
Proof. exact clamp_unfixed_refuted. Qed.
Print Assumptions C16_slice_dim_eq_clamp_refuted.

(* finding (class empty_slice_rounds_up): without the rounding repair, a[3:2:2] *)
Theorem C16_slice_dim_eq_ceil_refuted : forall fc, exists shape start stop step hs he hst,
  0 <= shape /\ (hst = true -> step <> 0) /\
  slice_triple {| fx_clamp := fc; fx_ceil := false |} shape start stop step hs he hst
  <> py_slice_indices shape (opt hs start) (opt he stop) (opt hst step).
Proof. exact ceil_unfixed_refuted. Qed.
Print Assumptions C16_slice_dim_eq_ceil_refuted.

(* ... and then an element outside the base is addressed: a[5:4:2] on 5 elements reads a[5] *)
Theorem C16_offsets_in_bounds_ceil_refuted : forall fc,
  exists shape start stop step hs he hst n first istep i,
  0 <= shape /\
  slice_triple {| fx_clamp := fc; fx_ceil := false |} shape start stop step hs he hst = Some (n, first, istep)
  /\ 0 <= i < n /\ ~ (0 <= first + i * istep < shape).
Proof. exact bounds_unfixed_refuted. Qed.
Print Assumptions C16_offsets_in_bounds_ceil_refuted.

(* outside the two classes the unrepaired code is right: f7_class = negative step with a given
   start/stop below -shape; ceil_class = exact quotient (stop'-start')/step' strictly inside (-1, 0) *)
Theorem C16_slice_dim_eq_current_partial : forall shape start stop step hs he hst,
  0 <= shape ->
  f7_class shape start stop step hs he hst = false ->
  (forall s' e' st' n, slice_bounds fixes_all shape start stop step hs he hst = Some (s', e', st', n) ->
                       ceil_class s' e' st' = false) ->
  slice_triple fixes_none shape start stop step hs he hst
  = py_slice_indices shape (opt hs start) (opt he stop) (opt hst step).
Proof. exact slice_triple_current_partial. Qed.
Print Assumptions C16_slice_dim_eq_current_partial.

(* non-vacuity: a reversed, strided slice of a 2-D base; a[::-2, 1] on shape (5, 4), C order, 8-byte items *)
Example C16_nonvacuous :
  slice_triple fixes_all 5 0 (-12) (-1) false true true = Some (5, 4, -1)
  /\ py_slice_indices 5 None (Some (-12)) (Some (-1)) = Some (5, 4, -1)
  /\ slice_nd fixes_all [(5, 32); (4, 8)] [ISlice None None (Some (-2)); IInt 1] 0 = NdOk 136 [(3, -64)]
  /\ in_box [(3, -64)] [2]
  /\ base_index [5; 4] [ISlice None None (Some (-2)); IInt 1] [2] = Some [0; 1]
  /\ elem_offset 136 [(3, -64)] [2] = elem_offset 0 [(5, 32); (4, 8)] [0; 1].
Proof. vm_compute. intuition congruence. Qed.
