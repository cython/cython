(* C22 -- Exception handling semantics match CPython.
   Only statements.  Proofs: Proof/P_Exc.v (the scheme against CPython, over Model/M_Exc.v),
   Proof/P_ExcLab.v (the label level against the scheme, Model/M_ExcLab.v) and Proof/P_ExcVars.v (the
   temp level against the scheme, Model/M_ExcVars.v).

   exec_ref  = CPython 3.12 (top exc_info item pushed/popped around handlers and around finally
               with a pending exception, implicit chaining in PyErr_SetObject);
   run_sch fx sx = the generated code (desugar = WithTransform + as-name try/finally, then
               ExceptionSave/GetException/ExceptionReset/ExceptionSwap and the handler temps);
               fx = ReraiseStatNode repaired, sx = ExceptionSave repaired.
   same_obs  = same outcome incl. identity of the propagating exception, same core (every
               exception's __context__/__cause__/__suppress_context__, names, the log of blocks,
               probes and __exit__ calls with heap snapshots) and same sys.exc_info() afterwards.

   gen / exec_lab / run_lab (M_ExcLab) = the label level of the same generated code: gen mirrors
               the label allocations and assignments of TryExceptStatNode / ExceptClauseNode /
               TryFinallyStatNode / WithStatNode .generate_execution_code over the label state
               cgs (error, return, break, continue label, counter); exec_lab dispatches on the
               LABEL an exit jumps to.  tr g o = the jump that stands for outcome o under the
               labels of g; wf g = the current labels were allocated before.

   All statements of the language are covered: raise / raise from / bare raise, try/except
   (typed, bare, as-name with the implicit deletion), else, finally, with-blocks (WithTransform:
   pass-through, swallowing and raising __exit__), loops with return/break/continue, probes; any
   nesting.  (except* is not in the language: differential testing only.)

   annot / exec_a / run_tmp (M_ExcVars) = the exception STATE at the level of the generated temps:
               annot mirrors the assignments of code.funcstate.exc_vars (ExceptClauseNode: the
               temps filled by GetException; TryFinallyStatNode: its own temps for the EXCEPTION
               copy of the finally clause only) and resolves every bare raise, at generation time,
               to the temps it reads or to the dynamic __Pyx_ReraiseException(); exec_a runs the
               annotated code over a store of temps (one variable per allocating construct).
               keep = true: the variant that keeps an enclosing handler's exc_vars for the
               exception copy. *)
From Coq Require Import List Bool.
From CyVerif Require Import Model.M_Exc Model.M_ExcLab Model.M_ExcVars Proof.P_Exc Proof.P_ExcLab Proof.P_ExcVars.
Import ListNotations.

(* all programs, all calling contexts
   (h = pre-existing exceptions, t = top exc_info item, b = topmost item underneath),
   with the repaired ReraiseStatNode *)
Theorem C22_repaired_scheme_matches_cpython : forall sx s h t b,
  same_obs (run_ref s h t b) (run_sch true sx s h t b).
Proof. exact repaired_matches_reference. Qed.
Print Assumptions C22_repaired_scheme_matches_cpython.

(* ReraiseStatNode before its repair (fx = false): the same, unless the zeroed handler temps are reached *)
Theorem C22_unrepaired_reraise_matches_cpython_unless_crash : forall sx s h t b,
  fst (run_sch false sx s h t b) <> OCrash ->
  same_obs (run_ref s h t b) (run_sch false sx s h t b).
Proof. exact current_matches_reference_unless_crash. Qed.
Print Assumptions C22_unrepaired_reraise_matches_cpython_unless_crash.

(* finding: a bare raise after a caught bare raise in the same handler restores zeroed temps *)
Theorem C22_current_scheme_refuted :
  exists s h t b, fst (run_sch false false s h t b) = OCrash /\
                  fst (run_ref s h t b) = ORaise 0.
Proof. exact current_reraise_refuted. Qed.
Print Assumptions C22_current_scheme_refuted.

(* general form: any related pair of states (inside handlers, zeroed or live temps ...) *)
Theorem C22_refinement_invariant : forall fx sx s r c,
  Rel fx sx r c ->
  (fx = false /\ fst (exec_sch fx sx (desugar s) c) = OCrash) \/
  same_obs (exec_ref s r) (exec_sch fx sx (desugar s) c).
Proof. exact scheme_refines_reference_core. Qed.
Print Assumptions C22_refinement_invariant.

(* the top exc_info item is put back exactly when nothing is handled underneath (or with the
   repaired ExceptionSave) ... *)
Theorem C22_top_item_restored : forall fx sx s h t b,
  (b = None \/ sx = true) ->
  fst (run_sch fx sx s h t b) <> OCrash ->
  top (snd (run_sch fx sx s h t b)) = t /\ top (snd (run_ref s h t b)) = t.
Proof. exact top_item_restored. Qed.
Print Assumptions C22_top_item_restored.

(* ... finding: called from a generator frame, the outer exception is left in the frame's item *)
Theorem C22_top_item_refuted :
  exists s h t b fx, fst (run_sch fx false s h t b) <> OCrash /\
    top (snd (run_sch fx false s h t b)) <> top (snd (run_ref s h t b)).
Proof. exact top_item_refuted. Qed.
Print Assumptions C22_top_item_refuted.

(* generated try/finally: the result comes from exactly one run of the finally clause, started
   in the core state the body left *)
Theorem C22_finally_runs_once : forall fx sx body fin c o c1,
  exec_sch fx sx body c = (o, c1) -> o <> OCrash ->
  exists cin pending,
    co cin = co c1 /\
    (fst (exec_sch fx sx (CFinally true body fin) c) = OCrash \/
     (fst (exec_sch fx sx (CFinally true body fin) c) = after pending (fst (exec_sch fx sx fin cin)) /\
      co (snd (exec_sch fx sx (CFinally true body fin) c)) = co (snd (exec_sch fx sx fin cin)))).
Proof. exact finally_runs_once. Qed.
Print Assumptions C22_finally_runs_once.

Theorem C22_return_in_finally_swallows : forall fx sx body fin c e c1 c2,
  exec_sch fx sx body c = (ORaise e, c1) ->
  exec_sch fx sx fin (set_cur (Some (Some e)) (set_top (Some e) c1)) = (ORet, c2) ->
  exec_sch fx sx (CFinally true body fin) c = (ORet, set_top (top c1) (set_cur (cur c1) c2)).
Proof. exact return_in_finally_swallows. Qed.
Print Assumptions C22_return_in_finally_swallows.

(* ---- label / handler selection ----
   every statement (with-blocks included), at every clause position (= every label state g the
   enclosing statements can set up) and in every machine state: the label code generated for it
   leaves by exactly the label standing for the outcome of the structural scheme -- the handler
   set that is active at a position is the one the structure says *)
Theorem C22_label_code_selects_scheme_continuation : forall fx sx s g c, wf g ->
  exec_lab fx sx (fst (gen false s g)) c =
  (tr g (fst (exec_sch fx sx s c)), snd (exec_sch fx sx s c)).
Proof. exact gen_selects_scheme_continuation. Qed.
Print Assumptions C22_label_code_selects_scheme_continuation.

(* the label state after a statement is the one before it (only the counter grows) *)
Theorem C22_label_state_restored : forall s g,
  let g' := snd (gen false s g) in
  g_err g' = g_err g /\ g_ret g' = g_ret g /\ g_brk g' = g_brk g /\ g_cont g' = g_cont g /\
  g_next g <= g_next g'.
Proof. exact gen_restores_labels. Qed.
Print Assumptions C22_label_state_restored.

(* whole functions: label level = structural scheme, for ALL programs *)
Theorem C22_label_code_equals_scheme : forall fx sx s h t b,
  run_lab false fx sx s h t b = run_sch fx sx s h t b.
Proof. exact run_lab_eq_run_sch. Qed.
Print Assumptions C22_label_code_equals_scheme.

(* ... hence the continuation selected at the label level is CPython's *)
Theorem C22_label_code_matches_cpython : forall sx s h t b,
  same_obs (run_ref s h t b) (run_lab false true sx s h t b).
Proof. exact lab_matches_reference. Qed.
Print Assumptions C22_label_code_matches_cpython.

(* exits taken in an else clause never reach the except clauses of the same statement *)
Theorem C22_else_exits_bypass_own_handlers : forall fx sx body hs orelse g c c1 o c2,
  wf g ->
  exec_sch fx sx body c = (ONorm, c1) -> exec_sch fx sx orelse c1 = (o, c2) ->
  o <> ONorm -> o <> OCrash ->
  exec_lab fx sx (fst (gen false (CTry body hs orelse) g)) c =
  (tr g o, set_top (if sx then top c else handled c) c2).
Proof. exact else_exits_bypass_own_handlers. Qed.
Print Assumptions C22_else_exits_bypass_own_handlers.

(* the model depends on WHERE the error label is switched: generated with the switch after the
   else clause, an else clause raising a class its own handler matches is swallowed *)
Theorem C22_late_error_label_switch_refuted :
  exists s h t b,
    fst (run_lab true true true s h t b) = ONorm /\ fst (run_ref s h t b) = ORaise 0 /\
    fst (run_lab false true true s h t b) = ORaise 0.
Proof. exact late_switch_refuted. Qed.
Print Assumptions C22_late_error_label_switch_refuted.

(* ---- exception state in the generated temps ----
   whole functions, ALL programs: the code with exc_vars resolved at generation time computes the
   outcome of the structural scheme, and (unless the zeroed-temps state of the unrepaired
   ReraiseStatNode is reached) its whole final state *)
Theorem C22_temp_code_equals_scheme : forall fx sx s h t b,
  fst (run_tmp false fx sx s h t b) = fst (run_sch fx sx s h t b) /\
  (fst (run_sch fx sx s h t b) <> OCrash ->
   run_sch fx sx s h t b =
   (fst (run_tmp false fx sx s h t b), set_cur None (snd (run_tmp false fx sx s h t b)))).
Proof. exact run_tmp_eq_run_sch. Qed.
Print Assumptions C22_temp_code_equals_scheme.

(* general form: any statement at any clause position (ev = the exc_vars value the enclosing
   clauses installed, n = constructs generated so far), any machine state whose temps ev hold
   what the scheme's cur holds *)
Theorem C22_temp_code_simulates_scheme : forall fx sx s ev n c tm, ev_lt ev n ->
  sim ev n tm (exec_sch fx sx s (proj ev tm c)) (exec_a fx sx (fst (annot false s ev n)) c tm).
Proof. intros fx sx. exact (proj1 (main_sim fx sx)). Qed.
Print Assumptions C22_temp_code_simulates_scheme.

(* ... hence every bare raise re-raises, every probe sees and every __context__ records the
   exception CPython has current at that point *)
Theorem C22_temp_code_matches_cpython : forall sx s h t b,
  same_obs (run_ref s h t b) (run_tmp false true sx s h t b).
Proof. exact tmp_matches_reference. Qed.
Print Assumptions C22_temp_code_matches_cpython.

(* a bare raise as the finally clause, on the exception path, re-raises the exception propagating
   through the statement, under any enclosing handler and in any state *)
Theorem C22_reraise_in_finally_is_the_propagating_one : forall fx sx body ev n c tm e,
  fst (fst (exec_a fx sx (fst (annot false body ev (S n))) c tm)) = ORaise e ->
  fst (fst (exec_a fx sx (fst (annot false (CFinally true body CReraise) ev n)) c tm)) = ORaise e.
Proof. exact reraise_in_finally_propagating. Qed.
Print Assumptions C22_reraise_in_finally_is_the_propagating_one.

(* the model depends on WHICH exc_vars the exception copy of a finally clause is generated with:
   keeping the enclosing handler's, try/finally in a handler re-raises the handler's exception *)
Theorem C22_kept_outer_exc_vars_refuted :
  exists s h t b,
    fst (run_tmp true true true s h t b) = ORaise 0 /\
    fst (run_ref s h t b) = ORaise 1 /\
    fst (run_tmp false true true s h t b) = ORaise 1.
Proof. exact keep_outer_exc_vars_refuted. Qed.
Print Assumptions C22_kept_outer_exc_vars_refuted.

(* non-trivial instance: nested handlers, as-name, finally, a with-block whose __exit__ lets the
   exception through, chaining; both runs raise the same exception with the same context *)
Example C22_nonvacuous :
  let s := SFinally
             (STry (SWith 7 XPass (SRaise (RNew 3) NoCause))
                   (HCons (Some 3) (Some 1)
                      (SSeq SProbe (SRaise (RNew 4) (FromVar 1))) HNil) SSkip)
             SProbe in
  fst (run_sch false false s [] None None) = ORaise 1 /\
  fst (run_lab false true true s [] None None) = ORaise 1 /\
  fst (run_ref s [] None None) = ORaise 1 /\
  e_ctx (get (heap (co (snd (run_ref s [] None None)))) 1) = Some 0.
Proof. vm_compute. auto. Qed.
