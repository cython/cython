(* C21 - Unbound local variables fail exactly where CPython fails: the flow-analysis part.
   Model: Model/M_Flow.v (ControlFlow.initialize / reaching_definitions / map_one and the cf_is_null,
   cf_maybe_null hints of check_definitions).  All theorems hold for EVERY finite CFG, every block
   order and every gen/kill assignment.

   CFG construction (Model/M_FlowCFG.v = ControlFlowAnalysis.visit_* for references, assignments, del,
   if, while/for..else, try/except/else, try/finally, with (desugared), break, continue, return,
   raise + the unreachable-block part of normalize): for the REPAIRED builder (fx = true,
   proposed_fixes/C21-jump_through_nested_finally.diff) every execution of a function body is covered
   by the graph (C21_cfg_covers_paths) and therefore every name read while unbound carries a
   cf_maybe_null / cf_is_null hint (C21_unbound_use_is_checked), under the decidable side condition
   graph_ok that the extracted model evaluates on every program.  For the builder AS IT IS (fx = false)
   the statement is false: C21_asis_*_refuted (findings jump_skips_outer_finally,
   exception_in_finally_ending_in_jump).
   NOT proved: graph_ok (build ...) = true for all programs (edges leave from block ends etc.; checked
   at run time); an as-is theorem restricted to programs outside the two finding classes; statements
   outside the modelled language (match, comprehensions, closures, augmented assignment) are tested
   only. *)
From Coq Require Import NArith List Bool Arith.
From CyVerif Require Import Model.M_Flow Proof.P_Flow.
From CyVerif Require Import Model.M_FlowCFG Proof.P_FlowCFG Proof.P_FlowCFG_Sim Proof.P_FlowCFG_Bridge.
Import ListNotations.

(* the "while dirty" loop finishes within len(blocks)*bits+1 passes (rd_fuel), whatever the graph *)
Theorem C21_fixpoint_reached_terminates : forall (nbits : nat) (bs : list rblock),
  (forall b, In b bs -> bits_below nbits (r_gen b)) ->
  exists r, reaching_definitions nbits bs = Some r.
Proof. exact rd_terminates. Qed.
Print Assumptions C21_fixpoint_reached_terminates.

(* its result solves the data-flow equations: i_input = OR of the parents' i_output,
   i_output = (i_input & ~i_kill) | i_gen, the entry point keeps i_output = i_gen *)
Theorem C21_fixpoint_reached_equations : forall nbits bs outs ins,
  (forall b, In b bs -> bits_below nbits (r_gen b)) ->
  reaching_definitions nbits bs = Some (outs, ins) -> rd_equations bs outs ins.
Proof. exact rd_fixpoint. Qed.
Print Assumptions C21_fixpoint_reached_equations.

(* ... and it is the least solution *)
Theorem C21_fixpoint_reached_least : forall nbits bs outs ins Sol,
  reaching_definitions nbits bs = Some (outs, ins) ->
  sub (r_gen (nth 0 bs rb0)) (getN Sol 0) ->
  (forall i b, 1 <= i < length bs -> nth_error bs i = Some b ->
     sub (transfer b (or_parents Sol (r_parents b))) (getN Sol i)) ->
  le_outs outs Sol.
Proof. exact rd_least. Qed.
Print Assumptions C21_fixpoint_reached_least.

(* a definition that survives some CFG path from a generating block (for Uninitialized bits: the
   entry point or a block ending in a deletion) is in i_output of the last block and in i_input of
   each of its children *)
Theorem C21_rd_sound : forall bs outs ins d,
  rd_equations bs outs ins ->
  (forall v, flows bs d v -> N.testbit (getN outs v) d = true) /\
  (forall u v b, flows bs d u -> 1 <= v -> nth_error bs v = Some b -> In u (r_parents b) ->
     N.testbit (getN ins v) d = true).
Proof. exact rd_sound. Qed.
Print Assumptions C21_rd_sound.

(* a reference classified "definitely bound" (no cf_maybe_null, so NameNode emits no check): no CFG
   path delivers the Uninitialized pseudo-definition of the entry to it *)
Theorem C21_no_check_safe : forall bs outs ins mask clo e v b pre u,
  rd_equations bs outs ins ->
  1 <= v -> nth_error bs v = Some b ->
  classify clo false (has_uninit (state_after mask pre (getN ins v)) e)
                     (has_other mask (state_after mask pre (getN ins v)) e) = Bound ->
  flows bs (N.of_nat e) u -> In u (r_parents b) ->
  (forall x, N.testbit x (N.of_nat e) = true -> N.testbit (state_after mask pre x) (N.of_nat e) = true) ->
  False.
Proof. exact no_check_safe. Qed.
Print Assumptions C21_no_check_safe.

(* a reference classified cf_is_null: no CFG path delivers any assignment of the entry to it *)
Theorem C21_is_null_exact : forall bs outs ins mask clo sta e v b pre u k,
  rd_equations bs outs ins ->
  1 <= v -> nth_error bs v = Some b ->
  classify clo sta (has_uninit (state_after mask pre (getN ins v)) e)
                   (has_other mask (state_after mask pre (getN ins v)) e) = DefNull ->
  k <> N.of_nat e -> N.testbit (mask e) k = true ->
  flows bs k u -> In u (r_parents b) ->
  (forall x, N.testbit x k = true -> N.testbit (state_after mask pre x) k = true) ->
  False.
Proof. exact is_null_exact. Qed.
Print Assumptions C21_is_null_exact.

(* the classes the model reports are computed from exactly those states *)
Theorem C21_walk_spec : forall c mask ns x pre p post,
  ns = pre ++ p :: post ->
  nth (length pre) (walk c mask x ns) Bound =
  let e := stat_entry (fst p) in
  classify (nth e (c_closure c) false) (nth e (c_static c) false)
           (has_uninit (state_after mask pre x) e) (has_other mask (state_after mask pre x) e).
Proof. exact walk_spec. Qed.
Print Assumptions C21_walk_spec.

(* ---- CFG construction ------------------------------------------------------------------------- *)

(* every evaluation of a NameNode (read, assignment target, del) that some execution of the body
   performs while the name is unbound is a statement of the graph built by the repaired
   ControlFlowAnalysis, at a position that a path from the entry point reaches with the name unbound.  Executions: any outcome of conditions,
   loop counts, raise points, handler matches; break/continue/return/raise through any nesting of
   try/finally, try/except and loops. *)
Theorem C21_cfg_covers_paths : forall args body tr o s2,
  wf false body = true ->
  exec (IS body) (bind args s_init) tr o s2 ->
  Forall (justified (build true args body)) tr.
Proof. exact cfg_covers_paths. Qed.
Print Assumptions C21_cfg_covers_paths.

(* ... and check_definitions (M_Flow.analyse on that graph, after detaching unreachable blocks) gives
   that statement the cf_maybe_null hint, so NameNode emits the run-time check (reads, del) resp. the
   NULL-tolerant decref of the old value (assignments) *)
Theorem C21_unbound_use_is_checked : forall ne args body tr o s2 l e r,
  wf false body = true ->
  graph_ok ne (build true args body) = true ->
  exec (IS body) (bind args s_init) tr o s2 ->
  In (l, e, false) tr ->
  analyse (cfg_of ne (build true args body)) = Some r ->
  exists b k s c', stat_at (build true args body) b k = Some s /\ label_of s = l /\ entry_of s = e /\
                   cls_at ne (build true args body) r b k = Some c' /\ c' <> Bound.
Proof. exact unbound_use_is_checked. Qed.
Print Assumptions C21_unbound_use_is_checked.

Theorem C21_no_hint_no_unbound_use : forall ne args body tr o s2 l e r,
  wf false body = true ->
  graph_ok ne (build true args body) = true ->
  exec (IS body) (bind args s_init) tr o s2 ->
  analyse (cfg_of ne (build true args body)) = Some r ->
  (forall b k s, stat_at (build true args body) b k = Some s -> label_of s = l ->
                 cls_at ne (build true args body) r b k = Some Bound) ->
  ~ In (l, e, false) tr.
Proof. exact no_hint_no_unbound_use. Qed.
Print Assumptions C21_no_hint_no_unbound_use.

(* the code as it is: break through two nested finally clauses skips the outer one - the read after
   the loop happens with x unbound but is classified "definitely bound" (no check: NULL dereference) *)
Theorem C21_asis_jump_skips_outer_finally_refuted :
  (exists tr s2, exec (IS w1_body) (bind w1_args s_init) tr OExc s2 /\ In (7, 2, false) tr) /\
  exists r, analyse (cfg_of 4 (build false w1_args w1_body)) = Some r /\
    graph_ok 4 (build false w1_args w1_body) = true /\ wf false w1_body = true /\
    forallb (fun q => match q with (s, b, k) =>
               match s with LRef 7 2 => match cls_at 4 (build false w1_args w1_body) r b k with
                                        | Some Bound => true | _ => false end
                          | _ => true end end)
            (all_stats (build false w1_args w1_body)) = true /\
    existsb (fun q => match q with (LRef 7 2, _, _) => true | _ => false end)
            (all_stats (build false w1_args w1_body)) = true.
Proof. split; [exact w1_exec|exact w1_class]. Qed.
Print Assumptions C21_asis_jump_skips_outer_finally_refuted.

(* the code as it is: an exception raised inside a finally clause that ends in return reaches the
   enclosing handler without a CFG edge *)
Theorem C21_asis_exception_in_finally_ending_in_jump_refuted :
  (exists tr s2, exec (IS w2_body) (bind w1_args s_init) tr OExc s2 /\ In (4, 2, false) tr) /\
  exists r, analyse (cfg_of 3 (build false w1_args w2_body)) = Some r /\
    graph_ok 3 (build false w1_args w2_body) = true /\ wf false w2_body = true /\
    forallb (fun q => match q with (s, b, k) =>
               match s with LRef 4 2 => match cls_at 3 (build false w1_args w2_body) r b k with
                                        | Some Bound => true | _ => false end
                          | _ => true end end)
            (all_stats (build false w1_args w2_body)) = true /\
    existsb (fun q => match q with (LRef 4 2, _, _) => true | _ => false end)
            (all_stats (build false w1_args w2_body)) = true.
Proof. split; [exact w2_exec|exact w2_class]. Qed.
Print Assumptions C21_asis_exception_in_finally_ending_in_jump_refuted.

(* the hypotheses of C21_unbound_use_is_checked hold on the first of these programs *)
Example C21_cfg_nonvacuous : graph_ok 4 (build true w1_args w1_body) = true /\ wf false w1_body = true /\
  exists r, analyse (cfg_of 4 (build true w1_args w1_body)) = Some r.
Proof. exact w1_fixed_ok. Qed.

(* x = 1; del x; if c: del x - the CFG dumped from the compiler for it:
   the second "del x" is classified cf_is_null, the read of c definitely bound *)
Example C21_nonvacuous :
  let c := mk_cfg 2 [false; false] [false; false]
             [ mk_block [] [] []; mk_block [0] [SAssign 0; SAssign 1; SRef 1; SDel 1] [];
               mk_block [1] [SRef 0] []; mk_block [2] [SRef 1; SDel 1] []; mk_block [2; 3] [] [] ] in
  exists r, analyse c = Some r /\
    nth 3 (res_cls r) [] = [DefNull; DefNull] /\ nth 2 (res_cls r) [] = [Bound] /\
    rd_equations (res_raw r) (res_out r) (res_in r).
Proof.
  vm_compute analyse. eexists. split; [reflexivity|]. split; [reflexivity|]. split; [reflexivity|].
  cbn [res_raw res_out res_in].
  eapply rd_fixpoint with (nbits := 6).
  - intros b Hb k Hk. simpl in Hb.
    repeat (destruct Hb as [<-|Hb]; [revert k Hk; apply (proj1 (below_check 6 _)); vm_compute; reflexivity|]).
    destruct Hb.
  - vm_compute. reflexivity.
Qed.
