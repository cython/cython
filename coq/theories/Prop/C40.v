(* C40 - safe type inference never changes pure-Python results.
   Only statements; proofs live in Proof/P_Infer.v; Gen/Gen_Infer.v holds the operator typing tables
   dumped from the running compiler (gen_tables).

   FULL statement wanted (false on the code as it is, see C40_safe_span_refuted):
     forall types mo t, In t types -> tsub t (safe_span fx_none types mo) = true
   i.e. the type safe inference gives a local holds every assigned value with unchanged Python
   type and value.  It fails exactly for integers / float objects spanned into a C double. *)
From Coq Require Import ZArith List Bool.
From CyVerif Require Import Lib.CInt Model.M_Infer Proof.P_Infer Gen.Gen_Infer.
Import ListNotations.
Open Scope Z_scope.

(* for ALL lists of assigned types and both values of might_overflow *)
Theorem C40_safe_span_sound_partial : forall fx types mo t,
  In t types ->
  tsub t (safe_span fx types mo) = true \/
  (safe_span fx types mo = TCDouble /\ (t = TPyInt \/ t = TCLong \/ t = TCInt \/ t = TPyFloat)).
Proof. exact safe_span_sound_partial. Qed.
Print Assumptions C40_safe_span_sound_partial.

Theorem C40_safe_span_refuted :
  exists types mo t v, In t types /\ ty_ok t v = true /\ ty_ok (safe_span fx_none types mo) v = false.
Proof. exact safe_span_refuted. Qed.
Print Assumptions C40_safe_span_refuted.

(* repaired variant (proposed_fixes/C40-int_float_span_double): only a float object that may be None
   is still narrowed to a C double *)
Theorem C40_safe_span_sound_fixed : forall fx types mo t,
  fx_float fx = true -> In t types ->
  tsub t (safe_span fx types mo) = true \/ (safe_span fx types mo = TCDouble /\ t = TPyFloat).
Proof. exact safe_span_sound_fixed. Qed.
Print Assumptions C40_safe_span_sound_fixed.

(* a C integer type only for names never used in arithmetic, and only from C integer sources it contains *)
Theorem C40_cint_only_from_cint : forall fx types mo,
  is_cintw (safe_span fx types mo) = true ->
  mo = false /\ forall t, In t types -> is_cintw t = true /\ tsub t (safe_span fx types mo) = true.
Proof. exact safe_span_cint. Qed.
Print Assumptions C40_cint_only_from_cint.

Theorem C40_bint_only_from_bint : forall fx types mo,
  safe_span fx types mo = TCBint -> forall t, In t types -> t = TCBint.
Proof. exact safe_span_bint. Qed.
Print Assumptions C40_bint_only_from_bint.

Theorem C40_double_only_from_float_fixed : forall fx types mo,
  fx_float fx = true -> safe_span fx types mo = TCDouble -> forall t, In t types -> is_floatty t = true.
Proof. exact safe_span_double. Qed.
Print Assumptions C40_double_only_from_float_fixed.

(* tsub means: same Python type (kind) and, for C integers, the value is in range *)
Theorem C40_tsub_sound : forall t r v, tsub t r = true -> ty_ok t v = true -> ty_ok r v = true.
Proof. exact tsub_sound. Qed.
Print Assumptions C40_tsub_sound.

(* expression typing: for every table, store and expression whose nodes satisfy the decidable node
   conditions, the reference value (unbounded ints, Python result kinds) is held unchanged by the
   inferred type *)
Theorem C40_expr_sound : forall T E MO st e v,
  ev st e v -> expr_ok T E MO e = true -> names_ok E MO st e -> ty_ok (ety T E MO e) v = true.
Proof. exact expr_sound. Qed.
Print Assumptions C40_expr_sound.

(* MAIN, for ALL function summaries s, all tables T and every decision vector D the inferer can stop
   at (stable): after any sequence of the function's assignments, evaluated with Python semantics in
   any order, each local holds a value its inferred type represents faithfully.  Side conditions =
   complement of the finding classes: right-hand sides avoid the bad operator typings (expr_ok),
   no int / float-object source for a C double local (span_exc), None only into object locals.
   partial: C-integer-typed arithmetic nodes are excluded by expr_ok; for-range targets are covered
   at their bound expressions; reads follow cf_state (ev_name). *)
Theorem C40_infer_sound_partial : forall fx T s D,
  stable fx T s D MSafe = true ->
  (forall x d, nth x (s_decl s) None = Some d -> d = TObj) ->
  (forall a asg, nth_error (s_assigns s) a = Some asg ->
     expr_ok T (lookup D) (mo_of fx s) (a_rhs asg) = true) ->
  (forall a asg, nth_error (s_assigns s) a = Some asg ->
     span_exc (aty fx T s D a) (lookup D (a_lhs asg)) = false) ->
  (forall a asg, nth_error (s_assigns s) a = Some asg ->
     is_none_rhs (a_rhs asg) = true -> is_pyobj (lookup D (a_lhs asg)) = true) ->
  forall st x v w, steps s (fun _ => None) st -> st x = Some (v, w) -> ty_ok (lookup D x) v = true.
Proof. exact infer_sound_partial. Qed.
Print Assumptions C40_infer_sound_partial.

(* what ty_ok means for the three C types: no wrap, int stays int, float stays float, bool stays bool *)
Theorem C40_c_types_faithful : forall v,
  (ty_ok TCLong v = true -> exists z, v = VInt z /\ - 2 ^ 63 <= z < 2 ^ 63) /\
  (ty_ok TCDouble v = true -> v = VFloat) /\
  (ty_ok TCBint v = true -> exists b, v = VBool b).
Proof.
  intros v. split; [apply ty_ok_cint_value | split; [apply ty_ok_cdouble_value | apply ty_ok_cbint_value]].
Qed.
Print Assumptions C40_c_types_faithful.

(* which operator typings of the running compiler violate the node conditions (finite check) *)
Theorem C40_bad_typings_bin : subset eq3 bad_bin_kinds known_bad_bin = true.
Proof. exact gen_bad_bin_kinds. Qed.
Print Assumptions C40_bad_typings_bin.
Theorem C40_bad_typings_un : subset eq2 (bad_un gen_tables) known_bad_un = true.
Proof. exact gen_bad_un. Qed.
Print Assumptions C40_bad_typings_un.
Theorem C40_bad_typings_cond : subset eq2 (bad_cond gen_tables) known_bad_cond = true
  /\ subset eq2 (bad_bool gen_tables) known_bad_cond = true.
Proof. split; [exact gen_bad_cond | exact gen_bad_bool]. Qed.
Print Assumptions C40_bad_typings_cond.

Theorem C40_neg_bint_refuted : exists v1 v, ty_ok TCBint v1 = true /\ pyun Neg v1 = Some v /\
  ty_ok (un_ty gen_tables Neg TCBint) v = false.
Proof. exact neg_bint_refuted. Qed.
Print Assumptions C40_neg_bint_refuted.
Theorem C40_cond_long_double_refuted :
  exists v, ty_ok TCLong v = true /\ ty_ok (cond_ty gen_tables TCLong TCDouble) v = false.
Proof. exact cond_long_double_refuted. Qed.
Print Assumptions C40_cond_long_double_refuted.

Example C40_nonvacuous :
  safe_span fx_none [TCLong; TCLong] false = TCLong /\ safe_span fx_none [TCLong; TCLong] true = TPyInt /\
  safe_span fx_none [TCBint; TCLong] false = TObj /\ safe_span fx_all [TCLong; TCDouble] false = TObj /\
  expr_ok gen_tables (fun _ => TPyInt) (fun _ => true)
    (EBin Add (EName 0 None [0%nat]) (EInt 1)) = true /\
  (* x = 7; y = x; z = y + 1: stable decisions [long; int object; int object] *)
  stable fx_none gen_tables
    {| s_decl := [None; None; None];
       s_assigns := [ {| a_lhs := 0; a_rhs := EInt 7 |};
                      {| a_lhs := 1; a_rhs := EName 0 (Some TCLong) [0%nat] |};
                      {| a_lhs := 2; a_rhs := EBin Add (EName 1 (Some TPyInt) [1%nat]) (EInt 1) |} ];
       s_body := ESeq (EAsg (Some 0%nat) (EInt 7))
                  (ESeq (EAsg (Some 1%nat) (EName 0 (Some TCLong) [0%nat]))
                        (EAsg (Some 2%nat) (EBin Add (EName 1 (Some TPyInt) [1%nat]) (EInt 1)))) |}
    [TCLong; TPyInt; TPyInt] MSafe = true.
Proof. vm_compute. repeat split; reflexivity. Qed.
