(* C33 -- Python <-> C/C++ value conversions round-trip or raise.
   Only statements; proofs live in Proof/P_Convert.v and, for the text codecs, Proof/P_ConvertStr.v
   (model: Model/M_Convert.v).

   res A = Ok a | Err e.  pyval / cval: Python and C values.  The container loops of
   Cython/Utility/CppConvert.pyx and CConvert.pyx are generic in their element converters
   fromX : pyval -> res X (Python -> C) and toX : X -> res pyval (C -> Python); the element law is
   "toX x = Ok v -> fromX v = Ok x" for the elements at hand.  C sets / maps are duplicate-free
   insertion ordered lists (an order-free representation: NoDup is the only invariant).
   first_err f l e : l = pre ++ x :: post, f succeeds on all of pre and f x = Err e. *)
From Coq Require Import ZArith NArith List Bool.
From CyVerif Require Import Lib.CInt Model.M_Convert Proof.P_Convert Proof.P_ConvertStr.
Import ListNotations.

(* vector / std::list: C -> Python -> C is the identity, order preserved, for all element
   converters obeying the element law *)
Theorem C33_seq_roundtrip : forall (X : Type) (fromX : pyval -> res X) (toX : X -> res pyval)
    (l : list X) (vs : list pyval),
  (forall x v, In x l -> toX x = Ok v -> fromX v = Ok x) ->
  mapM toX l = Ok vs -> seq_from_py fromX (PList vs) = Ok l.
Proof. exact @seq_roundtrip. Qed.
Print Assumptions C33_seq_roundtrip.

(* an element error at ANY position propagates as that error (the first one in iteration order),
   and it is the only way, besides a non-iterable argument, to fail: no partial vector escapes *)
Theorem C33_seq_error_position : forall (X : Type) (fromX : pyval -> res X) (v : pyval) (e : exc),
  seq_from_py fromX v = Err e <->
  iter_items v = Err e \/ (exists items, iter_items v = Ok items /\ first_err fromX items e).
Proof. exact @seq_error_position. Qed.
Print Assumptions C33_seq_error_position.

(* set / unordered_set *)
Theorem C33_set_roundtrip : forall (X : Type) (fromX : pyval -> res X) (toX : X -> res pyval)
    (eqb : X -> X -> bool),
  (forall a b, eqb a b = true -> a = b) ->
  forall (l : list X) (vs : list pyval),
  NoDup l -> (forall x v, In x l -> toX x = Ok v -> fromX v = Ok x) ->
  pyset_loop toX l [] = Ok vs -> set_from_py fromX eqb (PSet vs) = Ok l.
Proof. exact @set_roundtrip. Qed.
Print Assumptions C33_set_roundtrip.

Theorem C33_set_error_position : forall (X : Type) (fromX : pyval -> res X) (eqb : X -> X -> bool)
    (items : list pyval) (acc : list X) (e : exc),
  set_loop fromX eqb items acc = Err e <-> first_err fromX items e.
Proof. exact @set_loop_err. Qed.
Print Assumptions C33_set_error_position.

(* duplicates collapse: a successful set conversion holds only converted items *)
Theorem C33_set_members : forall (X : Type) (fromX : pyval -> res X) (eqb : X -> X -> bool)
    (items : list pyval) (r : list X),
  set_loop fromX eqb items [] = Ok r ->
  exists xs, mapM fromX items = Ok xs /\ (forall a, In a r -> In a xs).
Proof. exact @set_members. Qed.
Print Assumptions C33_set_members.

(* map / unordered_map *)
Theorem C33_map_roundtrip : forall (X Y : Type) (fromX : pyval -> res X) (toX : X -> res pyval)
    (fromY : pyval -> res Y) (toY : Y -> res pyval) (eqb : X -> X -> bool),
  (forall a b, eqb a b = true -> a = b) ->
  forall (kv : list (X * Y)) (d : list (pyval * pyval)),
  NoDup (map fst kv) ->
  (forall k v, In k (map fst kv) -> toX k = Ok v -> fromX v = Ok k) ->
  (forall y v, In y (map snd kv) -> toY y = Ok v -> fromY v = Ok y) ->
  pydict_loop toX toY kv [] = Ok d -> map_from_py fromX fromY eqb (PDict d) = Ok kv.
Proof. exact @map_roundtrip. Qed.
Print Assumptions C33_map_roundtrip.

(* entries in dict order, key before value: the first failing conversion decides *)
Theorem C33_map_error_position : forall (X Y : Type) (fromX : pyval -> res X) (fromY : pyval -> res Y)
    (eqb : X -> X -> bool) (kvs : list (pyval * pyval)) (acc : list (X * Y)) (e : exc),
  map_loop fromX fromY eqb kvs acc = Err e <-> first_err (conv_kv fromX fromY) kvs e.
Proof. exact @map_loop_err. Qed.
Print Assumptions C33_map_error_position.

(* pair *)
Theorem C33_pair_roundtrip : forall (X Y : Type) (fromX : pyval -> res X) (fromY : pyval -> res Y)
    (x : X) (y : Y) (px py : pyval),
  fromX px = Ok x -> fromY py = Ok y ->
  pair_from_py fromX fromY (PTuple [px; py]) = Ok (x, y).
Proof. exact @pair_roundtrip. Qed.
Print Assumptions C33_pair_roundtrip.

Theorem C33_pair_error_order : forall (X Y : Type) (fromX : pyval -> res X) (fromY : pyval -> res Y)
    (v a b : pyval) (e : exc),
  unpack2 v = Ok (a, b) ->
  (pair_from_py fromX fromY v = Err e <->
   fromX a = Err e \/ (exists x, fromX a = Ok x) /\ fromY b = Err e).
Proof. exact @pair_error_order. Qed.
Print Assumptions C33_pair_error_order.

(* C array from an iterable: a value is produced only from exactly n items, all converted *)
Theorem C33_array_exact_length : forall (X : Type) (fromX : pyval -> res X) (n : nat) (v : pyval)
    (xs : list X),
  arr_from_py fromX n v = Ok xs ->
  exists items, iter_items v = Ok items /\ length items = n /\ mapM fromX items = Ok xs.
Proof. exact @arr_exact. Qed.
Print Assumptions C33_array_exact_length.

Theorem C33_array_wrong_length_raises : forall (X : Type) (fromX : pyval -> res X) (n : nat)
    (v : pyval) (items : list pyval),
  iter_items v = Ok items -> length items <> n -> exists e, arr_from_py fromX n v = Err e.
Proof. exact @arr_wrong_length_raises. Qed.
Print Assumptions C33_array_wrong_length_raises.

Theorem C33_array_roundtrip : forall (X : Type) (fromX : pyval -> res X) (toX : X -> res pyval)
    (n : nat) (l : list X) (vs : list pyval),
  length l = n -> (forall x v, In x l -> toX x = Ok v -> fromX v = Ok x) ->
  mapM toX l = Ok vs -> arr_from_py fromX n (PList vs) = Ok l.
Proof. exact @arr_roundtrip. Qed.
Print Assumptions C33_array_roundtrip.

(* std::string: length based, NUL safe; the text codec law (hypothesis here) is proved below for
   both encodings under which str objects are accepted: C33_ascii_codec_law, C33_utf8_codec_law *)
Theorem C33_string_to_from : forall sc b v,
  (sc_type sc = SUnicode -> codec_law (sc_enc sc)) ->
  string_to_py sc (CBytes b) = Ok v -> string_from_py sc v = Ok (CBytes b).
Proof. exact string_to_from. Qed.
Print Assumptions C33_string_to_from.

Theorem C33_string_bytes_roundtrip : forall sc b,
  sc_type sc = SBytes -> string_roundtrip sc (PBytes b) = Ok (PBytes b).
Proof. exact string_bytes_roundtrip. Qed.
Print Assumptions C33_string_bytes_roundtrip.

Theorem C33_ascii_codec_law : codec_law EAscii.
Proof. exact ascii_codec_law. Qed.
Print Assumptions C33_ascii_codec_law.

Theorem C33_string_latin1_raises : forall sc b v,
  sc_type sc = SUnicode -> sc_enc sc = ELatin1 ->
  string_to_py sc (CBytes b) = Ok v -> string_from_py sc v = Err TypeError.
Proof. exact string_latin1_raises. Qed.
Print Assumptions C33_string_latin1_raises.

(* char*: full statement `forall b, charp_roundtrip sc (PBytes b) = Ok (PBytes b)` is FALSE *)
Theorem C33_charp_roundtrip_refuted :
  exists sc b r, charp_roundtrip sc (PBytes b) = Ok (PBytes r) /\ r <> b.
Proof. exact charp_roundtrip_refuted. Qed.
Print Assumptions C33_charp_roundtrip_refuted.

Theorem C33_charp_roundtrip_partial : forall sc b,
  sc_type sc = SBytes -> ~ In 0%N b -> charp_roundtrip sc (PBytes b) = Ok (PBytes b).
Proof. exact charp_nul_free_roundtrip. Qed.
Print Assumptions C33_charp_roundtrip_partial.

Theorem C33_charp_truncates : forall sc b1 b2,
  sc_type sc = SBytes -> ~ In 0%N b1 ->
  charp_roundtrip sc (PBytes (b1 ++ 0%N :: b2)) = Ok (PBytes b1).
Proof. exact charp_truncates. Qed.
Print Assumptions C33_charp_truncates.

(* struct from dict *)
Theorem C33_struct_missing_key_raises : forall sc fs d n,
  In n (field_names fs) -> dict_get n d = None ->
  from_py sc (TStruct fs) (PDict d) = Err ValueError.
Proof. exact struct_missing_key_raises. Qed.
Print Assumptions C33_struct_missing_key_raises.

Theorem C33_struct_keys_present : forall sc fs d,
  (forall n, In n (field_names fs) -> dict_get n d <> None) ->
  exists vals, lookup_all (field_names fs) (PDict d) = Ok vals /\
               from_py sc (TStruct fs) (PDict d) = from_py sc fs (PTuple vals).
Proof. exact struct_keys_present. Qed.
Print Assumptions C33_struct_keys_present.

Theorem C33_struct_only_member_keys : forall sc fs d1 d2,
  (forall n, In n (field_names fs) -> dict_get n d1 = dict_get n d2) ->
  from_py sc (TStruct fs) (PDict d1) = from_py sc (TStruct fs) (PDict d2).
Proof. exact struct_only_member_keys. Qed.
Print Assumptions C33_struct_only_member_keys.

(* "wrong keys raise" is FALSE for extra keys *)
Theorem C33_struct_extra_key_refuted :
  exists sc fs d extra, dict_get extra d <> None /\ ~ In extra (field_names fs) /\
                        exists c, from_py sc (TStruct fs) (PDict d) = Ok c.
Proof. exact struct_extra_key_refuted. Qed.
Print Assumptions C33_struct_extra_key_refuted.

(* "wrong types raise TypeError/ValueError/OverflowError" is FALSE for maps *)
Theorem C33_map_nonmapping_refuted : exists sc t v, from_py sc t v = Err AttributeError.
Proof. exact map_nonmapping_refuted. Qed.
Print Assumptions C33_map_nonmapping_refuted.

(* nested containers, by induction on the type structure: for every type of the grammar (scalars,
   std::string, vector, std::list, set, unordered_set, map, unordered_map, pair, C array, struct,
   ctuple, arbitrarily nested) and every well-formed C value (wf: ints in range, distinct set
   elements / map keys, array extents, distinct member names), whatever to_py produces is
   converted back by from_py to exactly that C value.  Unions are excluded (wf is False). *)
Theorem C33_nested_roundtrip : forall sc,
  (sc_type sc = SUnicode -> codec_law (sc_enc sc)) ->
  forall t c v, wf sc t c -> to_py sc t c = Ok v -> from_py sc t v = Ok c.
Proof. exact to_from. Qed.
Print Assumptions C33_nested_roundtrip.

(* ---------- text: str <-> char* / unsigned char* / std::string under c_string_encoding ----------
   PStr s: s is the list of code points of a CPython str object (PEP 393: kind_of / is_ascii are
   functions of the largest code point).  unicode_asas lim E s models
   __Pyx_PyUnicode_AsStringAndSize (lim: the Limited-API variant): Ok (buffer, *length) or the
   exception raised.  encode_with E s is the specification, CPython's s.encode(E):
   ascii = the code points themselves if all are below 128, utf8 = the RFC 3629 table (the C18
   reference encoder) unless a surrogate occurs, UnicodeEncodeError otherwise. *)

(* api: Full | Limited checked -- the full C-API text of the helper, and its Limited-API text
   with (checked = true, proposed fix) or without (false, the code as it is) a NULL check after
   PyUnicode_AsUTF8AndSize.  api_exact a e s := a = Limited false -> e = EAscii ->
   exists b, utf8_encode s = Ok b (the unchecked text is only exact where that call succeeds). *)

(* the helper IS s.encode(E) and *length is the number of BYTES -- all strings, both encodings under
   which str is accepted *)
Theorem C33_text_helper_is_encode : forall a e s, str_accepts_unicode e = true -> api_exact a e s ->
  unicode_asas a e s = rmap (fun b => (b, length b)) (encode_with e s).
Proof. exact asas_spec. Qed.
Print Assumptions C33_text_helper_is_encode.

(* full statement (no api_exact) is FALSE for the Limited-API text as it is: a lone surrogate under
   ascii gives SystemError, not the codec's UnicodeEncodeError (finding limited_api_ascii_surrogate) *)
Theorem C33_text_limited_unchecked_refuted :
  exists s, unicode_asas (Limited false) EAscii s = Err SystemError /\
            encode_with EAscii s = Err UnicodeEncodeError.
Proof. exact asas_limited_refuted. Qed.
Print Assumptions C33_text_limited_unchecked_refuted.

Theorem C33_text_api_exact : forall a e s,
  (a <> Limited false \/ forallb encodable s = true) -> api_exact a e s.
Proof. intros a e s [H|H]; [apply checked_exact; exact H|apply api_exact_encodable; exact H]. Qed.
Print Assumptions C33_text_api_exact.

(* ascii decision: accepted iff every code point is below 128; then bytes = code points and
   length = len(s); every other string raises UnicodeEncodeError (Latin-1 text included: a 1-byte
   kind string need not be ASCII, C33_text_kind1_not_ascii) *)
Theorem C33_text_ascii_decision : forall a s, api_exact a EAscii s ->
  unicode_asas a EAscii s = if all_ascii s then Ok (s, length s) else Err UnicodeEncodeError.
Proof. exact ascii_decision. Qed.
Print Assumptions C33_text_ascii_decision.

Theorem C33_text_ascii_flag : forall s, is_ascii s = all_ascii s.
Proof. exact is_ascii_all. Qed.
Print Assumptions C33_text_ascii_flag.

Theorem C33_text_kind1_not_ascii : exists s, kind_of s = K1BYTE /\ is_ascii s = false.
Proof. exact kind1_not_ascii. Qed.
Print Assumptions C33_text_kind1_not_ascii.

(* utf8 decision: accepted iff no lone surrogate; length = number of bytes; the bytes decode back
   to the text (strict decoder); rejection is UnicodeEncodeError; every api variant *)
Theorem C33_text_utf8_decision : forall a s,
  (forall b n, unicode_asas a EUtf8 s = Ok (b, n) ->
     n = length b /\ utf8_decode b = Ok s /\ forallb encodable s = true) /\
  (forall x, unicode_asas a EUtf8 s = Err x ->
     x = UnicodeEncodeError /\ exists c, In c s /\ encodable c = false).
Proof. exact utf8_decision. Qed.
Print Assumptions C33_text_utf8_decision.

(* decode (encode s) = s for every string the codec accepts, and rejection exactly on surrogates *)
Theorem C33_utf8_decode_encode : forall s b, utf8_encode s = Ok b -> utf8_decode b = Ok s.
Proof. exact utf8_decode_encode. Qed.
Print Assumptions C33_utf8_decode_encode.

Theorem C33_utf8_encode_rejects : forall s e,
  utf8_encode s = Err e <-> e = UnicodeEncodeError /\ exists c, In c s /\ encodable c = false.
Proof. exact utf8_encode_rejects. Qed.
Print Assumptions C33_utf8_encode_rejects.

(* encode (decode b) = b for every byte string the strict decoder accepts: the codec law of
   C33_string_to_from / C33_nested_roundtrip for utf8 *)
Theorem C33_utf8_codec_law : codec_law EUtf8.
Proof. exact utf8_codec_law. Qed.
Print Assumptions C33_utf8_codec_law.

(* def f(string x): return x on a str argument, c_string_type=str: the text itself (embedded NULs
   kept) or UnicodeEncodeError, nothing else *)
Theorem C33_string_str_roundtrip : forall a sc s, api_exact a (sc_enc sc) s ->
  sc_type sc = SUnicode -> str_accepts_unicode (sc_enc sc) = true ->
  string_roundtrip_l a sc (PStr s) =
    match encode_with (sc_enc sc) s with Ok _ => Ok (PStr s) | Err _ => Err UnicodeEncodeError end.
Proof. exact string_str_roundtrip. Qed.
Print Assumptions C33_string_str_roundtrip.

(* every c_string_type: the result is from_string_and_size (s.encode(E)) *)
Theorem C33_string_of_str : forall a sc s, api_exact a (sc_enc sc) s ->
  string_roundtrip_l a sc (PStr s) = bind (encode_with (sc_enc sc) s) (from_string_and_size sc).
Proof. exact string_bytes_of_str. Qed.
Print Assumptions C33_string_of_str.

(* char* / unsigned char*: the same bytes cut at the first NUL; exact on NUL-free text *)
Theorem C33_charp_of_str : forall a sc s, api_exact a (sc_enc sc) s ->
  charp_roundtrip_l a sc (PStr s) =
    bind (encode_with (sc_enc sc) s) (fun b => from_string_and_size sc (until_nul b)).
Proof. exact charp_of_str. Qed.
Print Assumptions C33_charp_of_str.

Theorem C33_charp_str_roundtrip : forall a sc s, api_exact a (sc_enc sc) s ->
  sc_type sc = SUnicode -> str_accepts_unicode (sc_enc sc) = true -> ~ In 0%N s ->
  charp_roundtrip_l a sc (PStr s) =
    match encode_with (sc_enc sc) s with Ok _ => Ok (PStr s) | Err _ => Err UnicodeEncodeError end.
Proof. exact charp_str_roundtrip. Qed.
Print Assumptions C33_charp_str_roundtrip.

(* the Limited-API text of the helper (post-check of the two lengths) is observably the same *)
Theorem C33_limited_api_agrees : forall a sc v,
  (forall s, v = PStr s -> api_exact a (sc_enc sc) s) ->
  as_string_and_size_l a sc v = as_string_and_size_l Full sc v /\
  charp_from_py_l a sc v = charp_from_py_l Full sc v.
Proof. exact limited_api_agrees. Qed.
Print Assumptions C33_limited_api_agrees.

(* nested types (char* members included, on NUL-free buffers) with the codec hypothesis discharged:
   every configuration the compiler accepts except c_string_type=str with a third encoding *)
Theorem C33_nested_roundtrip_closed : forall sc,
  (sc_type sc = SUnicode -> str_accepts_unicode (sc_enc sc) = true) ->
  forall t c v, wf sc t c -> to_py sc t c = Ok v -> from_py sc t v = Ok c.
Proof. exact to_from_closed. Qed.
Print Assumptions C33_nested_roundtrip_closed.

(* non-vacuity of the text theorems: a Latin-1 string (1-byte kind, not ASCII) is refused under
   ascii and converted under utf8 with length 3 for 2 characters; an astral one round-trips *)
Example C33_text_nonvacuous :
  kind_of [104; 233]%N = K1BYTE /\
  unicode_asas Full EAscii [104; 233]%N = Err UnicodeEncodeError /\
  unicode_asas Full EUtf8 [104; 233]%N = Ok ([104; 195; 169]%N, 3%nat) /\
  string_roundtrip {| sc_type := SUnicode; sc_enc := EUtf8 |} (PStr [0; 128512; 8364]%N)
    = Ok (PStr [0; 128512; 8364]%N) /\
  unicode_asas (Limited true) EAscii [97; 55296]%N = Err UnicodeEncodeError.
Proof. repeat split; vm_compute; reflexivity. Qed.

(* non-vacuity: the element law holds for a concrete nested type and value *)
Example C33_nonvacuous :
  let sc := {| sc_type := SBytes; sc_enc := ENone |} in
  let t := TMap (TLeaf LString) (TVector (TPair (TLeaf (LInt 32 true)) (TLeaf LDouble))) in
  let c := CMap [(CBytes [97; 0; 255]%N, CSeq [CSeq [CInt (-5); CDouble 7]]); (CBytes [], CSeq [])] in
  wf sc t c /\ exists v, to_py sc t c = Ok v /\ from_py sc t v = Ok c.
Proof.
  split.
  - cbn. split; [reflexivity|]. eexists. split; [reflexivity|]. split.
    + repeat constructor; cbn; intuition discriminate.
    + split; repeat constructor; cbn; eauto.
      eexists. split; [reflexivity|]. repeat constructor. cbn.
      eexists _, _. split; [reflexivity|]. split; [|eauto]. eexists. split; [reflexivity|].
      unfold in_range, min_int, max_int. cbn. split; discriminate.
  - eexists. split; [vm_compute; reflexivity|]. vm_compute. reflexivity.
Qed.
