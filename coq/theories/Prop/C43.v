(* C43 - The compiler never crashes and accepts all valid Python: the literal front end.
   Statements; proofs in Proof/P_Lexicon.v (number and string-prefix rules, integer decoders),
   Proof/P_LexiconDots.v (runs of dots) and Proof/P_CallArgs.v (argument lists).  L is the denotational
   language of M_Plex.ere (P_Plex_Deriv.L, see C50_derivative_correct).  Gen_Lexicon.v is dumped from the running
   Lexicon.make_lexicon by props/C43.py on every check. *)
From Coq Require Import ZArith List Bool String.
From CyVerif Require Import Model.M_Plex Proof.P_Plex_Deriv Model.M_Lexicon Proof.P_Lexicon Proof.P_LexiconDots Gen.Gen_Lexicon.
From CyVerif Require Import Model.M_CallArgs Proof.P_CallArgs.
Import ListNotations.
Open Scope Z_scope.

(* the dumped rules of the tree under test are the transcribed model, for the declared variant *)
Theorem C43_lexicon_dump_is_model :
  gen_intliteral = intliteral /\ gen_fltconst = fltconst /\ gen_imagconst = imagconst gen_imag_fixed
  /\ gen_beginstring = beginstring /\ gen_begin_ft_string = begin_ft_string.
Proof. vm_compute. repeat split. Qed.
Print Assumptions C43_lexicon_dump_is_model.

(* regular-language inclusion by computation: the verdict of the product exploration is sound for
   ALL event words (no length bound) *)
Theorem C43_decide_incl_sound : forall fuel a b,
  match decide_incl fuel a b with
  | VIncluded => forall w, L a w -> L b w
  | VCounter cw => L a cw /\ ~ L b cw
  | VUnknown => True
  end.
Proof. exact decide_incl_spec. Qed.
Print Assumptions C43_decide_incl_sound.

(* every Python 3.12 number literal is one whole token of the right kind (repaired imagconst) *)
Theorem C43_number_literals_included : forall w,
  (L py_integer w -> L lex_int w) /\ (L py_floatnumber w -> L lex_float w) /\
  (L py_imagnumber w -> L (lex_imag true) w) /\ (L py_number w -> L (lex_number true) w).
Proof. exact number_literals_included. Qed.
Print Assumptions C43_number_literals_included.

(* the rule as it is: 0_7j is a Python imaginary literal and not a token of the lexicon *)
Theorem C43_number_literals_included_refuted :
  L py_number (word "0_7j") /\ L py_imagnumber (word "0_7j") /\ ~ L (lex_number false) (word "0_7j").
Proof. exact number_literals_included_refuted. Qed.
Print Assumptions C43_number_literals_included_refuted.

(* ... and everything outside that family is a token already *)
Theorem C43_number_literals_included_partial : forall w,
  L py_number_known w -> L (lex_number false) w.
Proof. exact number_literals_included_partial. Qed.
Print Assumptions C43_number_literals_included_partial.

(* the same for the rules dumped from the tree under test *)
Theorem C43_number_literals_running_tree : forall w,
  L (if gen_imag_fixed then py_number else py_number_known) w ->
  L (EAlt (rule gen_intliteral) (EAlt (rule gen_fltconst) (rule gen_imagconst))) w.
Proof.
  destruct C43_lexicon_dump_is_model as (-> & -> & -> & _). exact (number_literals_tree gen_imag_fixed).
Qed.
Print Assumptions C43_number_literals_running_tree.

Theorem C43_string_prefixes_included : forall w,
  L py_strbegin w -> L (EAlt (rule gen_beginstring) (rule gen_begin_ft_string)) w.
Proof.
  destruct C43_lexicon_dump_is_model as (_ & _ & _ & -> & ->). exact string_prefixes_included.
Qed.
Print Assumptions C43_string_prefixes_included.

(* the integer decoders are NOT total on accepted INT tokens (as is: internal ValueError) *)
Theorem C43_str_to_number_total_refuted_octal :
  L lex_int (word "08") /\ decode_int_token py_lim (codes "08") = S2N_BadDigit
  /\ int_token_outcome false py_lim (codes "08") = InternalCrash
  /\ int_token_outcome true py_lim (codes "08") = PositionedError.
Proof. exact str_to_number_total_refuted_octal. Qed.
Print Assumptions C43_str_to_number_total_refuted_octal.

Theorem C43_str_to_number_total_refuted_limit :
  L lex_int (map EvChar (ones (py_lim + 1))) /\ L py_integer (map EvChar (ones (py_lim + 1)))
  /\ decode_int_token py_lim (ones (py_lim + 1)) = S2N_TooLong
  /\ int_token_outcome false py_lim (ones (py_lim + 1)) = InternalCrash
  /\ int_token_outcome true py_lim (ones (py_lim + 1)) = PositionedError.
Proof. apply str_to_number_total_refuted_above. split; [discriminate|reflexivity]. Qed.
Print Assumptions C43_str_to_number_total_refuted_limit.

Theorem C43_int_token_never_crashes_fixed : forall lim t, int_token_outcome true lim t <> InternalCrash.
Proof. exact int_token_never_crashes_fixed. Qed.
Print Assumptions C43_int_token_never_crashes_fixed.

(* ---- runs of dots (relative imports: `from ... import x`) ----
   the punctuation rule dumped from the running lexicon is the transcribed one *)
Theorem C43_text_rule_dump_is_model : gen_text_rule = text_rule.
Proof. vm_compute. reflexivity. Qed.
Print Assumptions C43_text_rule_dump_is_model.

(* meaning of the executable longest-match function used below, for every rule and input *)
Theorem C43_longest_match_spec : forall r w,
  (longest r w <= List.length w)%nat /\ ((0 < longest r w)%nat -> L r (firstn (longest r w) w)) /\
  (forall j, (longest r w < j <= List.length w)%nat -> ~ L r (firstn j w)).
Proof. exact longest_spec. Qed.
Print Assumptions C43_longest_match_spec.

(* a run of n dots is a TEXT token exactly for n = 1 and n = 3, and never (a prefix of) a number token *)
Theorem C43_dot_run_tokens_of_the_rules : forall n,
  (L (rule gen_text_rule) (dots n) <-> (n = 1 \/ n = 3)%nat) /\ (forall b, ~ L (lex_number b) (dots n)).
Proof. rewrite C43_text_rule_dump_is_model. intros n. split; [exact (text_rule_dots n) | intros b; exact (number_rules_dots b n)]. Qed.
Print Assumptions C43_dot_run_tokens_of_the_rules.

(* longest-match scanning of ANY run of n dots gives n/3 ellipsis tokens followed by n mod 3 dot tokens,
   and the level p_from_import_statement adds up from the token lengths is n *)
Theorem C43_dot_run_scan : forall fixed n,
  scan_dots (S n) fixed n = dot_tokens n /\ import_level (dot_tokens n) = n /\
  Forall (fun k => k = 1 \/ k = 3)%nat (dot_tokens n).
Proof.
  intros fixed n. split; [apply scan_dots_correct; auto | split; [apply dot_tokens_level | apply dot_tokens_shape]].
Qed.
Print Assumptions C43_dot_run_scan.

(* ---- argument lists (calls, class headers, decorators): Parsing.p_call_parse_args ----
   kinds: APos a | AStar *a | AKw k=a | ADStar **a; tail: ")" | ",)" | a comprehension clause.  py_valid is Python
   3.12's grammar (pairwise form: no plain positional after a keyword or **, no * after **; a trailing comma needs an
   argument; a bare generator expression must be the only argument of a call).  The loop as it is (first argument
   false) accepts EXACTLY these, for every sequence of any length, in calls (allow_genexp) and class headers *)
Theorem C43_call_args_accepted_iff_python : forall allow_genexp l t,
  accepts false allow_genexp l t = true <-> py_valid allow_genexp l t.
Proof. exact accepts_iff_python. Qed.
Print Assumptions C43_call_args_accepted_iff_python.

(* the pairwise form is the PEG rule of Grammar/python.gram, (positional | *x)* (k=v | *x)* (k=v | **x)*,
   and the executable form used by the correspondence run decides it *)
Theorem C43_call_args_grammar_forms : forall l,
  (py_args_ok l <-> py_grammar l) /\ (py_args_b l = true <-> py_args_ok l).
Proof. intros l. split; [apply pairwise_iff_grammar | apply py_args_b_spec]. Qed.
Print Assumptions C43_call_args_grammar_forms.

(* an accepted list records every argument exactly once (positional groups + keyword items) *)
Theorem C43_call_args_keeps_all_arguments : forall g allow_genexp l t ps ks,
  parse_args g allow_genexp l t = Some (ps, ks) -> (psize ps + List.length ks = List.length l)%nat.
Proof. exact accepted_keeps_all_arguments. Qed.
Print Assumptions C43_call_args_keeps_all_arguments.

(* the guard before a star argument must be `starstar_seen`: with `keyword_args` (first argument true) valid Python
   such as f(k=1, *a) and class C(metaclass=M, *bases, x=1, **kw,) is rejected *)
Theorem C43_call_args_star_guard_on_keywords_refuted :
  py_valid true [AKw; AStar] TEnd /\ accepts true true [AKw; AStar] TEnd = false /\ accepts false true [AKw; AStar] TEnd = true
  /\ py_valid false [AKw; AStar; AKw; ADStar] TComma /\ accepts true false [AKw; AStar; AKw; ADStar] TComma = false.
Proof. exact star_guard_on_keywords_refuted. Qed.
Print Assumptions C43_call_args_star_guard_on_keywords_refuted.


Example C43_nonvacuous :
  L py_number (word "1_000.5e-3J") /\ L (lex_number false) (word "1_000.5e-3J")
  /\ L py_integer (word "0x_Ff") /\ ~ L py_number (word "1__0") /\ ~ L py_number (word "08")
  /\ decode_int_token py_lim (codes "0x_FfUL") = S2N 255.
Proof.
  repeat split; try (apply derivative_correct; vm_compute; reflexivity);
    intros H; apply derivative_correct in H; vm_compute in H; discriminate.
Qed.
