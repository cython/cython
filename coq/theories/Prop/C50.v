(* C50 -- The lexer engine (Cython/Plex) recognises exactly its regular-expression rules.
   Only statements; proofs live in Proof/P_Plex*.v.

   Not proved (tied by the correspondence run only): Regexps.build_machine, i.e. that the NFA built
   from a rule accepts exactly the event language `ere_of rule` (the reference reading of the RE);
   that build_machine keeps every TransitionMap well formed (`nfa_ok` is evaluated on every
   generated lexicon instead).  Out-of-fuel of the worklist / the recursive epsilon closure is the
   explicit result None; C50_nfa_to_dfa_terminates shows it cannot happen above 2^(number of states). *)
From Coq Require Import ZArith NArith List Bool.
From CyVerif Require Import Model.M_Plex Proof.P_Plex_TMap Proof.P_Plex_Sets Proof.P_Plex_DFA
  Proof.P_Plex_Scan Proof.P_Plex_Deriv Proof.P_Plex Proof.P_Plex_Term.
Import ListNotations.
Open Scope Z_scope.

(* the binary search of split ends (fuel = distance is enough) with map[lo] <= code < map[lo+2] *)
Theorem C50_split_terminates : forall codes code, sorted codes -> forall fuel a b,
  0 <= a < b -> b < Z.of_nat (length codes) -> (Z.to_nat (b - a) <= fuel)%nat ->
  znth codes a <= code < znth codes b ->
  exists a', split_loop fuel codes code (2 * a) (2 * b) = Some (2 * a', 2 * (a' + 1))
             /\ a <= a' < b /\ znth codes a' <= code < znth codes (a' + 1).
Proof. exact split_loop_spec. Qed.
Print Assumptions C50_split_terminates.

(* tm_get is the set of the segment [code_k, code_k+1) containing the code *)
Theorem C50_tmap_get_is_segment : forall m c k, tm_inv m -> (k < length (tm_sets m))%nat ->
  nth k (tm_codes m) 0 <= c < nth (S k) (tm_codes m) 0 -> tm_get m c = nth k (tm_sets m) s_empty.
Proof. exact tm_get_segment. Qed.
Print Assumptions C50_tmap_get_is_segment.

(* add_set never fails, keeps the sorted/sentinel invariant and adds s exactly on [c0, c1) *)
Theorem C50_tmap_add_set : forall m c0 c1 s,
  tm_inv m -> - maxint <= c0 <= maxint -> - maxint <= c1 <= maxint ->
  exists m', tm_add_set m c0 c1 s = Some m' /\ tm_inv m'
    /\ forall c, - maxint <= c < maxint ->
         tm_get m' c = if (c0 <=? c) && (c <? c1) then s_union (tm_get m c) s else tm_get m c.
Proof. exact tm_add_set_spec. Qed.
Print Assumptions C50_tmap_add_set.

(* every history of add / add_set refines the abstract map code -> state set *)
Theorem C50_tmap_refines : forall ops m f, tm_inv m -> Forall op_ok ops ->
  (forall c, - maxint <= c < maxint -> tm_get m c = f c) ->
  exists m', tm_run m ops = Some m' /\ tm_inv m'
    /\ forall c, - maxint <= c < maxint -> tm_get m' c = f_run f ops c.
Proof. exact tm_refines. Qed.
Print Assumptions C50_tmap_refines.

(* items(): exactly the segments whose set, or S_0, is non-empty *)
Theorem C50_tmap_items : forall els codes sets c0 c1 s,
  In (c0, c1, s) (items_loop els codes sets) <->
  exists k, (k < length sets)%nat /\ (S k < length codes)%nat /\ nth k codes 0 = c0
            /\ nth (S k) codes 0 = c1 /\ nth k sets s_empty = s /\ (negb (s_is_empty s) || els = true).
Proof. exact items_loop_spec. Qed.
Print Assumptions C50_tmap_items.

Theorem C50_epsilon_closure : forall m s C, eclose m s = Some C ->
  closed m C /\ forall t, s_mem t C = true <-> ereach m s t.
Proof. exact eclose_spec. Qed.
Print Assumptions C50_epsilon_closure.

Theorem C50_highest_priority_action : forall m ss,
  (best_action m ss = None /\ forall s, s_mem s ss = true -> n_prio (n_get m s) <= LOWEST_PRIORITY)
  \/ exists s, s_mem s ss = true /\ LOWEST_PRIORITY < n_prio (n_get m s)
               /\ (forall s', s_mem s' ss = true -> n_prio (n_get m s') <= n_prio (n_get m s))
               /\ best_action m ss = n_act (n_get m s).
Proof. exact best_action_spec. Qed.
Print Assumptions C50_highest_priority_action.

(* for every NFA whose TransitionMaps are well formed and satisfy states_0 == states_n-1, and every
   event word: the DFA state reached is the set of NFA states reachable on the word (epsilon moves
   included), its action is the highest-priority action of that set; the DFA blocks iff no NFA
   state is reachable; every transition target exists *)
Theorem C50_subset_construction_correct : forall m,
  (forall s, tm_inv (n_tm (n_get m s))) -> (forall s, tm_else_ok (n_tm (n_get m s)) = true) ->
  forall fuel D, nfa_to_dfa fuel m = Some D ->
  length (dfa_acts D) = length (dfa_trans D) /\ (0 < length (dfa_trans D))%nat
  /\ (forall st d e j, nth_error (dfa_trans D) st = Some d -> d_lookup d e = Some j ->
                       (j < length (dfa_trans D))%nat)
  /\ forall w, Forall valid_ev w ->
     match dfa_run_w (dfa_trans D) O w with
     | Some d => exists S', nth_error (dfa_sets D) d = Some S'
                   /\ (forall t, s_mem t S' = true <-> nreach m O w t)
                   /\ nth_error (dfa_acts D) d = Some (best_action m S')
     | None => forall t, ~ nreach m O w t
     end.
Proof. exact nfa_to_dfa_correct. Qed.
Print Assumptions C50_subset_construction_correct.

(* the worklist reaches closure and the epsilon-closure recursion ends: whenever every transition
   target is a state of the machine, fuel above the number of subsets gives a machine *)
Theorem C50_nfa_to_dfa_terminates : forall m,
  (forall s, tm_inv (n_tm (n_get m s))) -> (forall s, tm_else_ok (n_tm (n_get m s)) = true) ->
  (forall s, bounded m (n_eps (n_get m s))) -> (forall s e, bounded m (ntrans m s e)) ->
  (0 < length m)%nat ->
  forall fuel, (N.to_nat (2 ^ N.of_nat (length m)) < fuel)%nat -> exists D, nfa_to_dfa fuel m = Some D.
Proof. exact nfa_to_dfa_total. Qed.
Print Assumptions C50_nfa_to_dfa_terminates.

(* the same with the executable checks evaluated on every generated lexicon in the run *)
Theorem C50_nfa_to_dfa_terminates_checked : forall m fuel,
  nfa_ok m = true -> nfa_bounded m = true ->
  (N.to_nat (2 ^ N.of_nat (length m)) < fuel)%nat -> exists D, nfa_to_dfa fuel m = Some D.
Proof. exact nfa_to_dfa_total_b. Qed.
Print Assumptions C50_nfa_to_dfa_terminates_checked.

Theorem C50_scanner_longest_match : forall D text cfg,
  dfa_wf (dfa_acts D) (dfa_trans D) -> 0 <= c_next cfg ->
  match scan_a_token D text cfg with
  | TokOk start stop line col a c =>
      exists k, accepts (dfa_acts D) (dfa_trans D) text O cfg k a
        /\ (forall k' a', (k < k')%nat -> ~ accepts (dfa_acts D) (dfa_trans D) text O cfg k' a')
        /\ c = iter_next k text cfg
        /\ start = c_pos cfg /\ stop = c_pos c /\ line = c_line cfg /\ col = c_pos cfg - c_lstart cfg
  | TokEof c | TokErr c =>
      (forall k a, ~ accepts (dfa_acts D) (dfa_trans D) text O cfg k a)
      /\ exists k, blocks (dfa_trans D) text O cfg k /\ c = iter_next k text cfg
  | TokBad | TokFuel => False
  end.
Proof. exact scan_a_token_spec. Qed.
Print Assumptions C50_scanner_longest_match.

Theorem C50_scanner_error_iff_no_prefix : forall D text cfg,
  dfa_wf (dfa_acts D) (dfa_trans D) -> 0 <= c_next cfg ->
  (forall k a, ~ accepts (dfa_acts D) (dfa_trans D) text O cfg k a) <->
  (exists c, scan_a_token D text cfg = TokEof c \/ scan_a_token D text cfg = TokErr c).
Proof. exact scan_fails_iff. Qed.
Print Assumptions C50_scanner_error_iff_no_prefix.

(* NFA -> DFA -> scanner *)
Theorem C50_lexer_pipeline : forall m fuel D text cfg,
  nfa_ok m = true -> nfa_to_dfa fuel m = Some D ->
  text_ok text -> valid_ev (c_char cfg) -> 0 <= c_next cfg ->
  match scan_a_token D text cfg with
  | TokOk start stop line col a c =>
      exists k S, nfa_set m (evs text cfg k) S /\ best_action m S = Some a
        /\ (forall k' S', (k < k')%nat -> nfa_set m (evs text cfg k') S' -> best_action m S' = None)
        /\ c = iter_next k text cfg
        /\ start = c_pos cfg /\ stop = c_pos c /\ line = c_line cfg /\ col = c_pos cfg - c_lstart cfg
  | TokEof c | TokErr c =>
      forall k S, nfa_set m (evs text cfg k) S -> best_action m S = None
  | TokBad | TokFuel => False
  end.
Proof. exact lexer_pipeline. Qed.
Print Assumptions C50_lexer_pipeline.

Theorem C50_derivative_correct : forall w r, e_matches r w = true <-> L r w.
Proof. exact derivative_correct. Qed.
Print Assumptions C50_derivative_correct.

Theorem C50_ref_longest_correct : forall rs w,
  match ref_longest rs w 0 None with
  | Some (n, k) => 0 <= n <= Z.of_nat (length w) /\ first_acc rs (firstn (Z.to_nat n) w) k
                   /\ forall n' k', (Z.to_nat n < n' <= length w)%nat -> ~ first_acc rs (firstn n' w) k'
  | None => forall n' k', (n' <= length w)%nat -> ~ first_acc rs (firstn n' w) k'
  end.
Proof. intros rs w. exact (ref_longest_correct rs w). Qed.
Print Assumptions C50_ref_longest_correct.

(* full statement that is NOT proved (C50_build_machine_correct, stretch):
     forall rules m, lexicon_nfa rules = Some m ->
       forall w t, nreach m 0 w t /\ n_act (n_get m t) = Some k  <->  L (ere_of (nth (k-1) rules) true false) w *)

(* finding any_duplicate_chars: Regexps.chars_to_ranges (Any / AnyBut) *)
Theorem C50_chars_to_ranges_refuted :
  exists s x, ranges_cover (chars_to_ranges false s) x = true /\ ~ In x s.
Proof. exact chars_to_ranges_refuted. Qed.
Print Assumptions C50_chars_to_ranges_refuted.

Theorem C50_chars_to_ranges_partial : forall s, sorted (sort_codes s) ->
  chars_to_ranges false s = chars_to_ranges true s.
Proof. exact chars_to_ranges_nodup_partial. Qed.
Print Assumptions C50_chars_to_ranges_partial.

Theorem C50_chars_to_ranges_repaired : forall s x,
  ranges_cover (chars_to_ranges true s) x = true <-> In x s.
Proof. exact chars_to_ranges_dedup_correct. Qed.
Print Assumptions C50_chars_to_ranges_repaired.

(* non-vacuity: the lexicon [Str("a"); Rep1(Any("ab"))] builds, satisfies nfa_ok, converts, and
   scanning "ab\n" returns the token [0,2) of rule 2 (longest match) at line 1, column 0 *)
Example C50_nonvacuous :
  match lexicon_nfa [RSeq [RRange 97 98]; RRep1 (RRange 97 99)] with
  | Some m =>
      match nfa_to_dfa 100 m with
      | Some D => nfa_ok m && match scan_a_token D [97; 98; 10] config0 with
                              | TokOk 0 2 1 0 2 _ => true | _ => false end
      | None => false
      end
  | None => false
  end = true.
Proof. vm_compute. reflexivity. Qed.
