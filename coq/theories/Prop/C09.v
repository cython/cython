(* C09 — Compile-time constants keep their exact Python values.
   Only statements.  Literals, emission, pool keys, int/bool folding: Model/M_Consts.v, proofs in
   Proof/P_Consts.v (frozenset keys: Proof/P_ConstsFrozen.v); C names and the number table:
   Model/M_ConstNames.v, Proof/P_ConstNames.v; folding of sequence displays: Model/M_Fold.v,
   Proof/P_Fold.v. *)
From Coq Require Import ZArith List Bool.
From CyVerif Require Import Lib.CInt Model.M_Consts Proof.P_Consts Proof.P_ConstsFrozen Model.M_ConstNames Proof.P_ConstNames.
From CyVerif Require Model.M_Fold Proof.P_Fold.
Import ListNotations.
Open Scope Z_scope.

(* Utils.str_to_number, applied to what the scanner hands over (the token with its underscores
   removed, optionally signed by the compiler), returns the value CPython's integer-literal
   grammar assigns -- every base, every size CPython itself accepts *)
Theorem C09_str_to_number_value : forall s v,
  signed_literal s = Some v -> signed_within_limit s = true ->
  str_to_number (strip_us s) = Some v.
Proof. exact str_to_number_value. Qed.
Print Assumptions C09_str_to_number_value.

(* the legacy form 0NNN that the lexicon still admits (not Python 3 syntax) is read as octal *)
Theorem C09_str_to_number_legacy_octal : forall s,
  legacy_octal s = true -> str_to_number s = Some (eval_digits 8 s).
Proof. exact str_to_number_legacy_octal. Qed.
Print Assumptions C09_str_to_number_legacy_octal.

(* Full statement for the emission of Python int constants:
     forall v, int_emission false cur v = Some v            (code as it is)
   is FALSE (C09_int_emission_current_refuted).  Proved: for every integer with the repaired
   formatter choice, and above -10^4300 for the current one. *)
Theorem C09_int_emission_roundtrip : forall abs_threshold cur v,
  abs_threshold = true \/ - pow10_limit < v ->
  int_emission abs_threshold cur v = Some v.
Proof. exact int_emission_roundtrip. Qed.
Print Assumptions C09_int_emission_roundtrip.

Theorem C09_int_emission_current_refuted : exists v, int_emission false 1 v = None.
Proof. exact int_emission_current_refuted. Qed.
Print Assumptions C09_int_emission_current_refuted.

(* the base-32 text of large constants decodes to the constant, for all integers *)
Theorem C09_base32_roundtrip : forall n, py_int 32 (to_base32 n) = Some n.
Proof. exact to_base32_roundtrip. Qed.
Print Assumptions C09_base32_roundtrip.

(* equal pool keys of int constants (Code.get_int_const) mean equal values *)
Theorem C09_int_const_key_injective : forall a v1 l1 v2 l2 k,
  int_const_key a v1 l1 = Some k -> int_const_key a v2 l2 = Some k -> v1 = v2 /\ l1 = l2.
Proof. exact int_const_key_injective. Qed.
Print Assumptions C09_int_const_key_injective.

(* unop_node: "-literal" becomes a literal text with the negated value; with the code as it is
   only below 10^4300 (C09_negated_literal_current_refuted) *)
Theorem C09_negated_literal_roundtrip : forall repaired s v,
  str_to_number s = Some v -> repaired = true \/ Z.abs v < pow10_limit ->
  exists t, negated_literal_text repaired s = Some t /\ str_to_number t = Some (- v).
Proof. exact negated_literal_roundtrip. Qed.
Print Assumptions C09_negated_literal_roundtrip.

Theorem C09_negated_literal_current_refuted :
  exists s v, str_to_number s = Some v /\ negated_literal_text false s = None.
Proof. exact negated_literal_current_refuted. Qed.
Print Assumptions C09_negated_literal_current_refuted.

(* Pooled containers (tuples, slices, frozensets, nested, with multipliers).  The key function of
   the tree: leaf keys carry the sign of a float (92db38a9b); a frozenset key keeps the first item
   key per Python value (a8197db74).  Full statement
     key_eq (top_key2 true false t1) (top_key2 true false t2) -> identical constants
   is FALSE (C09_dedup_unguarded_refuted: a multiplied tuple among the items of a frozenset).
   Proved: for the repaired key function (guard = true: such frozensets are not pooled) and, for
   the code as it is, whenever no frozenset item contains a multiplied tuple. *)
Theorem C09_dedup_injective : forall guard t1 t2 k1 k2,
  wf_top2 t1 = true -> wf_top2 t2 = true ->
  guard = true \/ (top_has_mult t1 = false /\ top_has_mult t2 = false) ->
  top_key2 true guard t1 = Some k1 -> top_key2 true guard t2 = Some k2 ->
  key_eq k1 k2 = true ->
  exists c1 c2, denote_top t1 = Some c1 /\ denote_top t2 = Some c2 /\ identical_top c1 c2.
Proof. exact dedup_first_injective. Qed.
Print Assumptions C09_dedup_injective.

(* finding frozenset_multiplied_tuple_merged: frozenset(((1,)*2, (1.0, 1.0))) and
   frozenset(((1.0, 1.0), (1,)*2)) share a key but are different constants *)
Theorem C09_dedup_unguarded_refuted :
  exists t1 t2 k1 k2 c1 c2,
    wf_top2 t1 = true /\ wf_top2 t2 = true /\
    top_key2 true false t1 = Some k1 /\ top_key2 true false t2 = Some k2 /\ key_eq k1 k2 = true /\
    denote_top t1 = Some c1 /\ denote_top t2 = Some c2 /\ ~ identical_top c1 c2.
Proof. exact dedup_first_unguarded_refuted. Qed.
Print Assumptions C09_dedup_unguarded_refuted.

(* the earlier key functions (top_key fx os: fx = float sign in the leaf key, os = frozenset items
   in an ordered tuple).  (true, true) = 92db38a9b was injective; each repair missing: refuted
   (the former findings float_zero_sign_merged / frozenset_order_merged) *)
Theorem C09_dedup_ordered_variant_injective : forall t1 t2 k1 k2,
  wf_top t1 = true -> wf_top t2 = true ->
  top_key true true t1 = Some k1 -> top_key true true t2 = Some k2 ->
  key_eq k1 k2 = true ->
  exists c1 c2, denote_top t1 = Some c1 /\ denote_top t2 = Some c2 /\ identical_top c1 c2.
Proof. exact dedup_injective. Qed.
Print Assumptions C09_dedup_ordered_variant_injective.

Theorem C09_dedup_unrepaired_refuted : forall fx os, fx && os = false ->
  exists t1 t2 k1 k2 c1 c2,
    wf_top t1 = true /\ wf_top t2 = true /\
    top_key fx os t1 = Some k1 /\ top_key fx os t2 = Some k2 /\ key_eq k1 k2 = true /\
    denote_top t1 = Some c1 /\ denote_top t2 = Some c2 /\ ~ identical_top c1 c2.
Proof. exact dedup_unrepaired_refuted. Qed.
Print Assumptions C09_dedup_unrepaired_refuted.

(* sharing (not part of the property, the reason for a8197db74): the item order of a frozenset
   literal no longer matters when no two items are == *)
Theorem C09_frozen_key_order_free :
  exists k1 k2,
    top_key2 true true (TopFrozen [NLeaf TPyInt (SInt 1); NLeaf TPyInt (SInt 2); NLeaf TPyInt (SInt 3)]) = Some k1 /\
    top_key2 true true (TopFrozen [NLeaf TPyInt (SInt 3); NLeaf TPyInt (SInt 1); NLeaf TPyInt (SInt 2)]) = Some k2 /\
    key_eq k1 k2 = true.
Proof. exact frozen_key_order_free. Qed.
Print Assumptions C09_frozen_key_order_free.

(* constant folding of BoolNode/IntNode operands: a replaced node has Python's class and value,
   and every constant result of the fragment is replaced *)
Theorem C09_fold_binop_exact : forall op a b f x,
  fold_binop op a b = Some f ->
  exists r, py_binop op a b = Some r /\ folded_value x f = Some r.
Proof. exact fold_binop_exact. Qed.
Print Assumptions C09_fold_binop_exact.

Theorem C09_fold_binop_total : forall op a b r,
  py_binop op a b = Some r -> exists f, fold_binop op a b = Some f.
Proof. exact fold_binop_total. Qed.
Print Assumptions C09_fold_binop_total.

Theorem C09_fold_unop_exact : forall op a f,
  fold_unop op a = Some f -> folded_value a f = Some (py_unop op a).
Proof. exact fold_unop_exact. Qed.
Print Assumptions C09_fold_unop_exact.

(* non-vacuity: the hypotheses are met by ordinary inputs and the conclusions are not trivial *)
Example C09_nonvacuous :
  signed_literal [45; 48; 120; 95; 49; 70] = Some (-31) /\ signed_within_limit [45; 48; 120; 95; 49; 70] = true
  /\ str_to_number (strip_us [45; 48; 120; 95; 49; 70]) = Some (-31)
  /\ int_emission true 1 (- (2 ^ 70)) = Some (- (2 ^ 70))
  /\ (let t := TopSeq (NSeq TPyTuple true None [NLeaf TPyFloat (SFloat 0); NLeaf TPyInt (SInt 1)]) in
      wf_top2 t = true /\ match top_key2 true true t with Some k => key_eq k k | None => false end = true)
  /\ (let t := TopFrozen [NLeaf TPyInt (SInt 1); NLeaf TPyFloat (SFloat 4607182418800017408); NLeaf TPyInt (SInt 2)] in
      wf_top2 t = true /\ top_has_mult t = false /\
      match top_key2 true false t with Some (KCont _ true [_; _]) => true | _ => false end = true)
  /\ fold_binop OAdd (LBool true) (LInt 1) = Some (FInt [48; 120; 50])
  /\ fold_binop OAnd (LBool true) (LBool false) = Some (FBool false).
Proof. vm_compute. repeat split; reflexivity. Qed.

(* ------------------------------------------------------------------------------------------ *)
(* From the pooled key to the C name, the number-table slot and the run-time object             *)
(* (Model/M_ConstNames.v, proofs in Proof/P_ConstNames.v)                                       *)
(* ------------------------------------------------------------------------------------------ *)

(* the character replacement of new_num_const_cname loses nothing on numeric spellings
   (no '_', 'g', 'l', 'L'; '+' only after e/E, '.' never after e/E) *)
Theorem C09_sanitize_injective : forall s1 s2,
  spell_ok s1 = true -> spell_ok s2 = true -> sanitize s1 = sanitize s2 -> s1 = s2.
Proof. exact sanitize_injective. Qed.
Print Assumptions C09_sanitize_injective.

(* unique_const_cname, for every format and every registry whose counters are >= 1 (they start
   at 1 and only grow): it returns -- no KeyError, the while loop ends within len(used)+1 rounds --
   a name that was not in use, registers it and forgets nothing *)
Theorem C09_unique_const_cname_fresh : forall f d,
  Forall (fun kv => 1 <= snd kv) d ->
  exists n d', unique_const_cname f d = UOk n d'
    /\ dmem n d = false /\ dmem n d' = true
    /\ (forall k, dmem k d = true -> dmem k d' = true)
    /\ Forall (fun kv => 1 <= snd kv) d'
    /\ (n = fmt_base f \/ exists c, 1 < c /\ n = fmt_at f c).
Proof. exact unique_const_cname_fresh. Qed.
Print Assumptions C09_unique_const_cname_fresh.

(* distinct (text, type) keys get distinct C names -- for every sequence of numeric-constant
   requests of any spelling length (both sides of the 42-character abbreviation threshold, int,
   'long' and float keys, negative values), interleaved in any way with the other users of
   unique_const_cname; and a repeated key gets its first name again *)
Theorem C09_num_const_names_injective : forall es,
  forallb event_okb es = true ->
  exists ns p, run_events es pool0 = Some (ns, p)
    /\ Forall2 (fun e n => match e with EReq k => index_find k (p_index p) = Some n | EUniq _ => True end) es ns
    /\ forall k1 k2 n1 n2, index_find k1 (p_index p) = Some n1 -> index_find k2 (p_index p) = Some n2 ->
         (n1 = n2 <-> k1 = k2).
Proof. exact num_const_names_injective. Qed.
Print Assumptions C09_num_const_names_injective.

(* the uniqueness counter is what the theorem rests on: without it 2**256 and 2**512 (as spelled
   by IntNode.generate_evaluation_code) get one and the same name *)
Theorem C09_names_need_counter :
  event_okb (EReq (hex_2_256, PInt)) = true /\ event_okb (EReq (hex_2_512, PInt)) = true /\
  exists n p, run_events_gen false [EReq (hex_2_256, PInt); EReq (hex_2_512, PInt)] pool0
              = Some ([n; n], p).
Proof. exact names_need_counter. Qed.
Print Assumptions C09_names_need_counter.

(* generate_num_constants: when the names are pairwise different, the (last) #define of every
   integer constant selects a slot whose initialiser decodes to the constant's own value *)
Theorem C09_layout_value : forall cs c v,
  NoDup (map nc_name cs) -> In c cs -> nc_type c <> PFloat ->
  str_to_number (nc_text c) = Some v ->
  exists i s, resolve (nc_name c) (layout cs) = Some i
    /\ nth_error (layout cs) (Z.to_nat i) = Some (nc_name c, s) /\ slot_value s = Some v.
Proof. exact layout_value. Qed.
Print Assumptions C09_layout_value.

(* end to end: a Python int constant of value v -- spelled by IntNode.generate_evaluation_code,
   pooled under that text, named, numbered, #defined and initialised -- evaluates to v at run
   time, whatever else the module pools before and after it *)
Theorem C09_int_constant_value : forall a es ns p code_of v t,
  forallb event_okb es = true -> run_events es pool0 = Some (ns, p) ->
  int_const_text a v = Some t -> In (EReq (t, PInt)) es ->
  const_value p code_of (t, PInt) = Some v.
Proof. exact int_constant_value. Qed.
Print Assumptions C09_int_constant_value.

(* the same for any pooled integer text of the spelling class (e.g. a 'long' key) *)
Theorem C09_pool_const_value : forall es ns p code_of k v,
  forallb event_okb es = true -> run_events es pool0 = Some (ns, p) ->
  In (EReq k) es -> snd k <> PFloat -> str_to_number (fst k) = Some v ->
  const_value p code_of k = Some v.
Proof. exact pool_const_value. Qed.
Print Assumptions C09_pool_const_value.

(* non-vacuity: three large constants sharing their first and last 18 characters, a short one and
   a float, with a foreign registry call in between: five different names, values preserved *)
Example C09_names_nonvacuous :
  let a := hex_2_256 in let b := hex_2_512 in let c := [45] ++ hex_2_256 in
  let es := [EReq (a, PInt); EUniq (large_fmt PInt (sanitize b)); EReq (b, PInt); EReq (c, PInt);
             EReq ([49; 50], PInt); EReq ([49; 46; 53; 101; 43; 51; 48], PFloat); EReq (a, PInt)] in
  forallb event_okb es = true /\
  match run_events es pool0 with
  | Some ([n1; _; n2; n3; n4; n5; n6], p) =>
      negb (zlist_eqb n1 n2) && negb (zlist_eqb n2 n3) && negb (zlist_eqb n1 n3) && zlist_eqb n1 n6
      && zlist_eqb n4 (pfx_int ++ [49; 50]) && zlist_eqb n5 (pfx_float ++ [49; 95; 53; 101; 95; 51; 48])
      && match const_value p (fun _ => []) (b, PInt), const_value p (fun _ => []) (c, PInt) with
         | Some x, Some y => (x =? 2 ^ 512) && (y =? - 2 ^ 256)
         | _, _ => false
         end
  | _ => false
  end = true.
Proof. vm_compute. split; reflexivity. Qed.


(* ------------------------------------------------------------------------------------------------
   ConstantFolding on sequence displays (Optimize.py: visit_SequenceNode, visit_MulNode,
   _calculate_constant_seq, visit_BinopNode for '*', and the consumers of constant results
   visit_PrimaryCmpNode '==', visit_BoolBinopNode 'or', visit_CondExprNode); model Model/M_Fold.v.
   fold fx guard:  fx = false the code as it is, fx = true with
   proposed_fixes/C09-multiplied_sequence_stale_constant.diff;  guard = true the code as it is
   (a starred literal with a mult_factor is not inlined), guard = false without that test.
   eval = CPython's value of the expression (None: CPython raises), fdenote = the value the folded
   tree computes (a sequence node denotes items * mult_factor), cres = node.constant_result.
   ------------------------------------------------------------------------------------------------ *)
Module FoldStatements.
Import M_Fold P_Fold.

(* Full statement:  forall env e v, eval env e = Some v -> fdenote env (fold false true e) = Some v
   is FALSE for the code as it is (C09_stale_constant_result_refuted: after a factor is attached the
   sequence node keeps the constant result of the sequence as written, and '==', 'or', the
   conditional expression decide on it).  Proved for the code as it is on every expression built
   from displays, starred items, repetition by any integer / bool / run-time factor and nesting
   (display_only), and for the repaired code on every expression of the model. *)
Theorem C09_fold_display_value_partial : forall env e v,
  display_only e = true -> eval env e = Some v -> fdenote env (fold false true e) = Some v.
Proof. exact fold_display_value. Qed.
Print Assumptions C09_fold_display_value_partial.

Theorem C09_fold_value_repaired : forall env e v,
  eval env e = Some v -> fdenote env (fold true true e) = Some v.
Proof. exact fold_value_repaired. Qed.
Print Assumptions C09_fold_value_repaired.

(* every constant result the (repaired) compiler stores on a folded node is the run-time value *)
Theorem C09_fold_constant_result_repaired : forall env e c v,
  cres (fold true true e) = Some c -> eval env e = Some v -> v = c.
Proof. exact fold_constant_result_repaired. Qed.
Print Assumptions C09_fold_constant_result_repaired.

(* code as it is: the stored int / bool / None constants of display expressions are right *)
Theorem C09_fold_constant_result_scalar : forall env e c v,
  display_only e = true -> nonseq c = true ->
  cres (fold false true e) = Some c -> eval env e = Some v -> v = c.
Proof. exact fold_constant_result_scalar. Qed.
Print Assumptions C09_fold_constant_result_scalar.

(* inlining a starred literal that carries a factor is wrong, whatever else is repaired *)
Theorem C09_unguarded_inlining_refuted : forall fx env, exists e v,
  display_only e = true /\ eval env e = Some v /\ fdenote env (fold fx false e) <> Some v.
Proof. exact unguarded_inlining_refuted. Qed.
Print Assumptions C09_unguarded_inlining_refuted.

Theorem C09_stale_constant_result_refuted : forall env, exists e c v,
  cres (fold false true e) = Some c /\ eval env e = Some v /\ v <> c /\
  exists e2 v2, eval env e2 = Some v2 /\ fdenote env (fold false true e2) <> Some v2.
Proof. exact stale_constant_result_refuted. Qed.
Print Assumptions C09_stale_constant_result_refuted.

Theorem C09_stale_constant_result_runtime_factor_refuted : exists env e v,
  eval env e = Some v /\ fdenote env (fold false true e) <> Some v.
Proof. exact stale_constant_result_runtime_factor_refuted. Qed.
Print Assumptions C09_stale_constant_result_runtime_factor_refuted.

(* non-vacuity: [0, *(1, 2) * n, *[7] * 3] * 2 with n = 2 at run time has a value, the folded tree
   keeps the starred repeated literals as items and computes the same 16 elements *)
Example C09_fold_nonvacuous :
  let env := fun _ : nat => VInt 2 in
  let e := EMul (EDisp KList [EInt 0; EStar (EMul (tup [1; 2]) (EVar 0));
                              EStar (EMul (EDisp KList [EInt 7]) (EInt 3))]) (EInt 2) in
  display_only e = true /\
  match eval env e, fdenote env (fold false true e) with
  | Some (VSeq KList l), Some (VSeq KList l') => (length l =? 16)%nat && (length l' =? 16)%nat
  | _, _ => false
  end = true.
Proof. vm_compute. split; reflexivity. Qed.
End FoldStatements.
