(* C31 — match statements behave like CPython.
   Statements; proofs live in Proof/P_Match.v, the witnesses defined there are evaluated here.

   Full statement (FALSE on the current tree, see the four C31_*_refuted theorems):
     forall ct cases v, match_cy false ct cases v = match_ref ct cases v
   (selected case, bindings including those of guard-failed cases, exception, guard trace). *)
From Coq Require Import ZArith List Bool NArith Sorted.
From CyVerif Require Import Model.M_Match Proof.P_Match.
Import ListNotations.

(* the code as it is (fxas = false): equality for ALL class tables, case lists and subjects
   outside the four refuted classes: safe_cases = no duplicate mapping keys / class attributes,
   and nodes that reorder their sub-pattern tests (class pattern with positional and keyword
   sub-patterns, mapping pattern with a value key) contain no sub-pattern that can raise;
   as_ok_cases = no as-target directly on an int/bool-valued literal or value pattern *)
Theorem C31_match_eq_partial : forall ct cases v,
  safe_cases ct cases = true -> as_ok_cases cases = true ->
  match_cy false ct cases v = match_ref ct cases v.
Proof. intros ct cases v Hs Ha. apply match_eq_gen; [exact Hs | now right]. Qed.
Print Assumptions C31_match_eq_partial.

(* with the as-target repair (fxas = true) only the three ordering classes remain excluded *)
Theorem C31_match_eq_fixed_as : forall ct cases v,
  safe_cases ct cases = true ->
  match_cy true ct cases v = match_ref ct cases v.
Proof. intros ct cases v Hs. apply match_eq_gen; [exact Hs | now left]. Qed.
Print Assumptions C31_match_eq_fixed_as.

(* per pattern, any strictness: the decision structure (length tests, front/back indexing with
   the explicit out-of-bounds outcome, slices, key sorting, up-front duplicate tests, keyword
   before positional) computes the PEP 634 result, for every pattern and subject *)
Theorem C31_pattern_eq : forall fx ct p s v,
  safe ct s p = true -> fx || as_ok p = true ->
  cy fx ct p v = pm_ref ct p v.
Proof. intros fx ct p s v Hs Ha. exact (proj1 (proj1 (cy_eq_ref fx ct) p s v Hs Ha)). Qed.
Print Assumptions C31_pattern_eq.

(* guards are evaluated only for cases whose pattern matched, in case order *)
Theorem C31_guard_order : forall ct cases v,
  let tr := match match_ref ct cases v with SDone o => o_guards o | SRaise _ g => g end in
  StronglySorted lt tr /\
  Forall (fun j => exists p g b, nth_error cases j = Some (p, g) /\ pm_ref ct p v = Ok b /\ has_guard g = true) tr.
Proof. exact guard_order_ref. Qed.
Print Assumptions C31_guard_order.

(* findings: the full statement is refuted by the faithful model; each witness is replayed on
   the real implementation by props/C31.py (FIXED table) *)
Theorem C31_dup_mapping_key_refuted :
  match_cy false [] w_dupmap (VInt 5) = SRaise EValueError []
  /\ match_ref [] w_dupmap (VInt 5) = SDone {| o_sel := Some 1%nat; o_env := []; o_guards := [] |}.
Proof. split; vm_compute; reflexivity. Qed.
Print Assumptions C31_dup_mapping_key_refuted.

Theorem C31_dup_class_attr_refuted :
  match_cy false w_ct w_dupcls (VInst 0 []) = SRaise ETypeError []
  /\ match_ref w_ct w_dupcls (VInst 0 []) = SDone {| o_sel := Some 1%nat; o_env := []; o_guards := [] |}.
Proof. split; vm_compute; reflexivity. Qed.
Print Assumptions C31_dup_class_attr_refuted.

Theorem C31_subpattern_order_refuted :
  match_cy false w_ct w_order w_order_v = SDone {| o_sel := Some 1%nat; o_env := []; o_guards := [] |}
  /\ match_ref w_ct w_order w_order_v = SRaise ETypeError [].
Proof. split; vm_compute; reflexivity. Qed.
Print Assumptions C31_subpattern_order_refuted.

Theorem C31_as_value_refuted :
  match_cy false [] w_as (VBool true) = SDone {| o_sel := Some 0%nat; o_env := [(0%N, VInt 1)]; o_guards := [0%nat] |}
  /\ match_ref [] w_as (VBool true) = SDone {| o_sel := Some 0%nat; o_env := [(0%N, VBool true)]; o_guards := [0%nat] |}
  /\ match_cy true [] w_as (VBool true) = match_ref [] w_as (VBool true).
Proof. repeat split; vm_compute; reflexivity. Qed.
Print Assumptions C31_as_value_refuted.

(* the hypotheses are satisfiable on a non-trivial statement: [x, *r, K(1, y=2)] with a guard,
   {"k": [a, _], **rest}, and the match really selects/binds *)
Definition nv_ct : ctab := [(0%N, [0%N])].
Definition nv_cases : list (pat * guard) :=
  [(PSeq (PCons (PCap 0) PNil) (StarCap 1)
         (PCons (PClass (CUser 0) (PCons (PLit (LInt 1)) PNil) (KCons (KAttr 1) (PLit (LInt 2)) KNil)) PNil),
    GVarEq 0 (LInt 7));
   (PMap (KCons (KLit (LStr 3)) (PSeq (PCons (PCap 2) (PCons PWild PNil)) StarNone PNil) KNil) (Some 4%N), GNone)].
Definition nv_v : value :=
  VSeq [VInt 7; VNone; VStr 5; VInst 0 [(0%N, VBool true); (1%N, VInt 2)]].
Example C31_nonvacuous :
  safe_cases nv_ct nv_cases = true /\ as_ok_cases nv_cases = true /\
  match_cy false nv_ct nv_cases nv_v
  = SDone {| o_sel := Some 0%nat;
             o_env := [(1%N, VList [VNone; VStr 5]); (0%N, VInt 7)];
             o_guards := [0%nat] |}.
Proof. repeat split; vm_compute; reflexivity. Qed.
