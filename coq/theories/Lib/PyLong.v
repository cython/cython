(* CPython integers as they are laid out in memory: a sign and a little-endian list of
   base-2^sh digits (sh = PyLong_SHIFT: 30 on every supported 64-bit build, 15 on some
   32-bit builds).  Reusable: no Cython-specific definitions here.

     value sh x          the mathematical integer denoted by x
     wf sh x             CPython's representation invariant (digits in range, top digit
                         non-zero, zero is non-negative)
     ndigits / digit     _PyLong_DigitCount / ob_digit[i]
     is_compact, compact_value, compact_uvalue    PyUnstable_Long_IsCompact & co (3.12+)
     joinl / join        the unrolled shift-or expression  (((d[k-1] << sh) | d[k-2]) << sh) | ...
     join_c              the same, carried out in a C type (width jw, signedness js):
                         None = signed overflow in a shift (undefined behaviour)
     of_Z                the normalised representation of an integer (what PyLong_From* build)

   Main lemmas: joinl_mag, join_c_exact, mag_lt, mag_ge, value_of_Z, wf_of_Z. *)
From Coq Require Import ZArith List Bool Lia ZifyBool.
From CyVerif Require Import Lib.CInt.
Import ListNotations.
Open Scope Z_scope.

Record pylong := PyLong { pl_neg : bool; pl_digits : list Z }.

Fixpoint mag (sh : Z) (ds : list Z) : Z :=
  match ds with
  | [] => 0
  | d :: r => d + 2 ^ sh * mag sh r
  end.

Definition value (sh : Z) (x : pylong) : Z :=
  if pl_neg x then - mag sh (pl_digits x) else mag sh (pl_digits x).

Definition ndigits (x : pylong) : Z := Z.of_nat (length (pl_digits x)).

(* ob_digit[i]; CPython allocates at least one digit, and the digit of zero is 0, so the
   default of nth coincides with memory for i = 0 *)
Definition digit (x : pylong) (i : nat) : Z := nth i (pl_digits x) 0.

Definition digit_ok (sh d : Z) : Prop := 0 <= d < 2 ^ sh.
Definition digit_okb (sh d : Z) : bool := (0 <=? d) && (d <? 2 ^ sh).
Definition digits_ok (sh : Z) (ds : list Z) : Prop := Forall (digit_ok sh) ds.

(* representation invariant of PyLongObject *)
Definition wf (sh : Z) (x : pylong) : Prop :=
  digits_ok sh (pl_digits x) /\ last (pl_digits x) 1 <> 0 /\ (pl_digits x = [] -> pl_neg x = false).

Definition wfb (sh : Z) (x : pylong) : bool :=
  forallb (digit_okb sh) (pl_digits x) && negb (last (pl_digits x) 1 =? 0)
  && (match pl_digits x with [] => negb (pl_neg x) | _ => true end).

(* 3.12+: lv_tag < (2 << _PyLong_NON_SIZE_BITS), i.e. at most one digit *)
Definition is_compact (x : pylong) : bool := ndigits x <? 2.
Definition compact_uvalue (x : pylong) : Z := digit x 0.
Definition compact_value (x : pylong) : Z := if pl_neg x then - digit x 0 else digit x 0.

(* pylong_join over the digits ds (little-endian), exact integers *)
Fixpoint joinl (sh : Z) (ds : list Z) : Z :=
  match ds with
  | [] => 0
  | d :: r => Z.lor (Z.shiftl (joinl sh r) sh) d
  end.

Definition join (sh : Z) (k : nat) (x : pylong) : Z := joinl sh (firstn k (pl_digits x)).

(* the same expression evaluated in the C type (jw, js): each digit is cast, each shift is
   taken in that type.  Unsigned shifts wrap; a signed shift whose result is not
   representable is undefined (None). *)
Fixpoint joinl_c (jw : Z) (js : bool) (sh : Z) (ds : list Z) : option Z :=
  match ds with
  | [] => Some 0
  | d :: r =>
    match joinl_c jw js sh r with
    | None => None
    | Some a =>
      let shifted := Z.shiftl a sh in
      if js && negb (in_rangeb jw js shifted) then None
      else Some (Z.lor (wrap jw js shifted) (wrap jw js d))
    end
  end.

Definition join_c (jw : Z) (js : bool) (sh : Z) (k : nat) (x : pylong) : option Z :=
  joinl_c jw js sh (firstn k (pl_digits x)).

(* normalised digits of a non-negative integer; fuel = an upper bound on the bit length *)
Fixpoint digits_of (sh : Z) (fuel : nat) (m : Z) : list Z :=
  match fuel with
  | O => []
  | S f => if m <=? 0 then [] else (m mod 2 ^ sh) :: digits_of sh f (m / 2 ^ sh)
  end.

Definition of_Z (sh : Z) (v : Z) : pylong :=
  PyLong (v <? 0) (digits_of sh (S (Z.to_nat (Z.log2 (Z.abs v)))) (Z.abs v)).

(* ------------------------------------------------------------------------------------ *)

Lemma wfb_spec sh x : wfb sh x = true <-> wf sh x.
Proof.
  unfold wfb, wf, digits_ok. rewrite !andb_true_iff, forallb_forall, Forall_forall.
  unfold digit_okb, digit_ok. destruct x as [n ds]; cbn [pl_digits pl_neg].
  split.
  - intros [[H1 H2] H3]. repeat split.
    + apply H1 in H. lia.
    + apply H1 in H. lia.
    + lia.
    + intros ->. destruct n; cbn in *; congruence.
  - intros [H1 [H2 H3]]. repeat split.
    + intros d Hd. apply H1 in Hd. lia.
    + lia.
    + destruct ds; [rewrite H3 by reflexivity; reflexivity | reflexivity].
Qed.

Lemma mag_nonneg sh ds : digits_ok sh ds -> 0 <= mag sh ds.
Proof.
  induction 1 as [|d r Hd _ IH]; cbn [mag]; [lia|].
  unfold digit_ok in Hd. assert (0 <= 2 ^ sh) by (apply Z.pow_nonneg; lia). nia.
Qed.

(* mag < 2^(sh * length) *)
Lemma mag_lt sh ds : 0 <= sh -> digits_ok sh ds -> mag sh ds < 2 ^ (sh * Z.of_nat (length ds)).
Proof.
  intros Hsh. induction 1 as [|d r Hd Hr IH].
  - cbn. lia.
  - cbn [mag length]. rewrite Nat2Z.inj_succ, Z.mul_succ_r, Z.pow_add_r by nia.
    unfold digit_ok in Hd. pose proof (mag_nonneg sh r Hr).
    assert (0 < 2 ^ sh) by (apply Z.pow_pos_nonneg; lia).
    set (P := 2 ^ (sh * Z.of_nat (length r))) in *. set (S := 2 ^ sh) in *.
    assert (S * (mag sh r + 1) <= S * P) by (apply Z.mul_le_mono_nonneg_l; lia). lia.
Qed.

(* a normalised non-empty digit string is at least 2^(sh * (length - 1)) *)
Lemma mag_ge sh ds : 0 <= sh -> digits_ok sh ds -> ds <> [] -> last ds 1 <> 0 ->
  2 ^ (sh * (Z.of_nat (length ds) - 1)) <= mag sh ds.
Proof.
  intros Hsh. induction 1 as [|d r Hd Hr IH]; [congruence|]. intros _ Hl.
  cbn [mag length]. rewrite Nat2Z.inj_succ.
  destruct r as [|d' r'].
  - cbn [last length] in *. unfold digit_ok in Hd. replace (sh * (Z.succ (Z.of_nat 0) - 1)) with 0 by lia. rewrite Z.pow_0_r. cbn [mag]. lia.
  - assert (Hl' : last (d' :: r') 1 <> 0) by exact Hl.
    specialize (IH ltac:(congruence) Hl').
    replace (sh * (Z.succ (Z.of_nat (length (d' :: r'))) - 1))
      with (sh + sh * (Z.of_nat (length (d' :: r')) - 1)) by lia.
    rewrite Z.pow_add_r; [| lia | cbn [length]; lia].
    unfold digit_ok in Hd. assert (0 < 2 ^ sh) by (apply Z.pow_pos_nonneg; lia). nia.
Qed.

Lemma mag_pos sh ds : 0 <= sh -> digits_ok sh ds -> ds <> [] -> last ds 1 <> 0 -> 0 < mag sh ds.
Proof.
  intros Hsh H1 H2 H3. pose proof (mag_ge sh ds Hsh H1 H2 H3).
  assert (0 < 2 ^ (sh * (Z.of_nat (length ds) - 1))); [|lia].
  apply Z.pow_pos_nonneg; [lia|]. destruct ds; [congruence|]. cbn [length]. nia.
Qed.

(* what the digit count says: no digits is zero, k digits is a magnitude of exactly k digits *)
Lemma ndigits_nonneg x : 0 <= ndigits x.
Proof. apply Nat2Z.is_nonneg. Qed.

Lemma no_digits sh x : wf sh x -> ndigits x = 0 -> pl_digits x = [] /\ pl_neg x = false.
Proof.
  intros (_ & _ & Z0) N. assert (E : pl_digits x = []) by (apply length_zero_iff_nil; unfold ndigits in N; lia).
  split; [exact E | exact (Z0 E)].
Qed.

Lemma mag_bounds sh x : 0 <= sh -> wf sh x -> ndigits x <> 0 ->
  2 ^ (sh * (ndigits x - 1)) <= mag sh (pl_digits x) < 2 ^ (sh * ndigits x).
Proof.
  intros Hsh (Ok & La & _) N. unfold ndigits in *. split; [|now apply mag_lt].
  apply mag_ge; try assumption. intros E. now rewrite E in N.
Qed.

(* every digit read, also beyond the last one, is a digit *)
Lemma digit_bound sh x i : 0 <= sh -> wf sh x -> 0 <= digit x i < 2 ^ sh.
Proof.
  intros Hsh (Ok & _). unfold digit. destruct (nth_in_or_default i (pl_digits x) 0) as [In | ->].
  - exact (proj1 (Forall_forall _ _) Ok _ In).
  - split; [lia | now apply pow2_pos].
Qed.

Lemma land_shiftl_low a d sh : 0 <= sh -> 0 <= d < 2 ^ sh -> Z.land (Z.shiftl a sh) d = 0.
Proof.
  intros Hsh Hd. apply Z.bits_inj'. intros n Hn. rewrite Z.land_spec, Z.bits_0.
  destruct (Z.ltb_spec n sh).
  - rewrite Z.shiftl_spec_low by lia. reflexivity.
  - destruct (Z.eqb_spec d 0) as [->|Hd0]; [rewrite Z.bits_0; apply andb_false_r|].
    rewrite (Z.bits_above_log2 d n); [apply andb_false_r | lia |].
    assert (Z.log2 d < sh) by (apply Z.log2_lt_pow2; lia). lia.
Qed.

(* (a << sh) | d  =  a * 2^sh + d  for a digit d *)
Lemma shiftl_lor_add a d sh : 0 <= sh -> 0 <= d < 2 ^ sh ->
  Z.lor (Z.shiftl a sh) d = a * 2 ^ sh + d.
Proof.
  intros Hsh Hd. pose proof (land_shiftl_low a d sh Hsh Hd) as L.
  rewrite <- Z.lxor_lor by exact L. rewrite <- Z.add_nocarry_lxor by exact L.
  rewrite Z.shiftl_mul_pow2 by lia. reflexivity.
Qed.

Lemma joinl_mag sh ds : 0 <= sh -> digits_ok sh ds -> joinl sh ds = mag sh ds.
Proof.
  intros Hsh. induction 1 as [|d r Hd Hr IH]; [reflexivity|].
  cbn [joinl mag]. rewrite shiftl_lor_add by assumption. rewrite IH. lia.
Qed.

Lemma digits_ok_firstn sh k ds : digits_ok sh ds -> digits_ok sh (firstn k ds).
Proof.
  unfold digits_ok. rewrite !Forall_forall. intros H d Hd. apply H.
  rewrite <- (firstn_skipn k ds). apply in_or_app. left. exact Hd.
Qed.

Lemma join_value sh k x : 0 <= sh -> digits_ok sh (pl_digits x) -> length (pl_digits x) = k ->
  join sh k x = mag sh (pl_digits x).
Proof.
  intros Hsh Hok Hk. unfold join. subst k. rewrite firstn_all. apply joinl_mag; assumption.
Qed.

(* the C evaluation of the join is exact (and free of signed overflow) as soon as all the
   joined bits fit below the sign bit of the join type *)
Lemma joinl_c_exact jw (js : bool) sh ds : 0 <= sh -> 1 <= jw -> digits_ok sh ds ->
  sh * Z.of_nat (length ds) <= (if js then jw - 1 else jw) ->
  joinl_c jw js sh ds = Some (mag sh ds).
Proof.
  intros Hsh Hjw. induction 1 as [|d r Hd Hr IH]; intros Hfit; [reflexivity|].
  assert (Hdr : digits_ok sh (d :: r)) by (constructor; assumption).
  (* the result fits the value bits, and so do the shifted accumulator and the digit below it *)
  assert (Hx : in_range jw js (mag sh (d :: r))).
  { apply in_range_nonneg_iff; [exact Hjw | now apply mag_nonneg |].
    eapply Z.lt_le_trans; [now apply mag_lt | apply pow2_mono; lia]. }
  cbn [joinl_c length mag] in *. rewrite Nat2Z.inj_succ in Hfit.
  rewrite IH by nia. cbv zeta.
  pose proof (mag_nonneg sh r Hr) as Hm0. unfold digit_ok in Hd.
  assert (P : 0 < 2 ^ sh) by (apply Z.pow_pos_nonneg; lia).
  assert (R : forall t, 0 <= t <= d + 2 ^ sh * mag sh r -> in_range jw js t)
    by (intros t Ht; apply (in_range_toward_zero jw js _ t Hjw Hx); lia).
  rewrite Z.shiftl_mul_pow2 by lia.
  rewrite (proj2 (in_rangeb_spec _ _ _) (R (mag sh r * 2 ^ sh) ltac:(nia))).
  cbn [negb]. rewrite andb_false_r.
  rewrite !wrap_id by (try lia; apply R; nia).
  rewrite <- Z.shiftl_mul_pow2 by lia. rewrite shiftl_lor_add by assumption.
  f_equal. lia.
Qed.

Lemma join_c_exact jw (js : bool) sh k x : 0 <= sh -> 1 <= jw -> digits_ok sh (pl_digits x) ->
  length (pl_digits x) = k -> sh * Z.of_nat k <= (if js then jw - 1 else jw) ->
  join_c jw js sh k x = Some (mag sh (pl_digits x)).
Proof.
  intros Hsh Hjw Hok Hk Hfit. unfold join_c. subst k. rewrite firstn_all.
  apply joinl_c_exact; assumption.
Qed.

(* ---- of_Z ---- *)

Lemma digits_of_spec sh fuel : 1 <= sh -> forall m, 0 <= m < 2 ^ Z.of_nat fuel ->
  mag sh (digits_of sh fuel m) = m /\ digits_ok sh (digits_of sh fuel m)
  /\ last (digits_of sh fuel m) 1 <> 0 /\ (0 < m -> digits_of sh fuel m <> []).
Proof.
  intros Hsh. assert (P : 0 < 2 ^ sh) by (apply Z.pow_pos_nonneg; lia).
  assert (P2 : 2 <= 2 ^ sh).
  { change 2 with (2 ^ 1) at 1. apply Z.pow_le_mono_r; lia. }
  induction fuel as [|f IH]; intros m Hm.
  - cbn in *. assert (m = 0) by lia. subst. repeat split; try constructor; lia.
  - cbn [digits_of]. destruct (Z.leb_spec m 0) as [H0|H0].
    + assert (m = 0) by lia. subst. cbn. repeat split; try constructor; lia.
    + rewrite Nat2Z.inj_succ, Z.pow_succ_r in Hm by lia.
      assert (Hq : 0 <= m / 2 ^ sh < 2 ^ Z.of_nat f).
      { split; [apply Z.div_pos; lia|]. apply Z.div_lt_upper_bound; nia. }
      destruct (IH _ Hq) as (E & Ok & La & Ne).
      pose proof (Z.div_mod m (2 ^ sh) ltac:(lia)) as DM.
      pose proof (Z.mod_pos_bound m (2 ^ sh) P) as MB.
      repeat split.
      * cbn [mag]. rewrite E. lia.
      * constructor; [exact MB | exact Ok].
      * destruct (digits_of sh f (m / 2 ^ sh)) as [|d' r'] eqn:Ed.
        -- cbn [last]. destruct (Z.ltb_spec 0 (m / 2 ^ sh)) as [Hp|Hp].
           ++ exfalso. apply (Ne Hp). reflexivity.
           ++ assert (m / 2 ^ sh = 0) by lia. lia.
        -- exact La.
      * intros _. discriminate.
Qed.

Lemma log2_fuel m : 0 <= m -> m < 2 ^ Z.of_nat (S (Z.to_nat (Z.log2 m))).
Proof.
  intros Hm. rewrite Nat2Z.inj_succ, Z2Nat.id by apply Z.log2_nonneg.
  destruct (Z.eqb_spec m 0) as [->|Hn]; [cbn; lia|].
  apply Z.log2_spec. lia.
Qed.

Theorem value_of_Z sh v : 1 <= sh -> value sh (of_Z sh v) = v.
Proof.
  intros Hsh. unfold value, of_Z. cbn [pl_neg pl_digits].
  destruct (digits_of_spec sh _ Hsh (Z.abs v) (conj (Z.abs_nonneg v) (log2_fuel _ (Z.abs_nonneg v))))
    as (E & _). rewrite E. destruct (Z.ltb_spec v 0); lia.
Qed.

Theorem wf_of_Z sh v : 1 <= sh -> wf sh (of_Z sh v).
Proof.
  intros Hsh. unfold wf, of_Z. cbn [pl_neg pl_digits].
  destruct (digits_of_spec sh _ Hsh (Z.abs v) (conj (Z.abs_nonneg v) (log2_fuel _ (Z.abs_nonneg v))))
    as (E & Ok & La & Ne).
  repeat split; try assumption.
  intros Hnil. destruct (Z.ltb_spec v 0) as [Hv|Hv]; [|reflexivity].
  exfalso. apply Ne; [lia | exact Hnil].
Qed.

(* zero has no digits; the sign of a well-formed number is the sign of its value *)
Lemma value_sign sh x : 0 <= sh -> wf sh x ->
  (pl_neg x = true -> value sh x < 0) /\ (pl_neg x = false -> 0 <= value sh x).
Proof.
  intros Hsh (Ok & La & Z0). unfold value. split; intros Hn; rewrite Hn.
  - destruct (pl_digits x) eqn:E; [rewrite Z0 in Hn by reflexivity; discriminate|].
    pose proof (mag_pos sh (z :: l) Hsh Ok ltac:(congruence) La). lia.
  - apply mag_nonneg. exact Ok.
Qed.
