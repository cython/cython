(* C integer types as (width w, signedness s); two's complement wrap-around is explicit. *)
From Coq Require Import ZArith List Bool Lia ZifyBool.
Import ListNotations.
Open Scope Z_scope.

(* forces Z, N, positive, nat, list, option, prod, bool into every extracted module *)
Definition ex_keep : nat * N * Z * list Z * option Z * positive * bool :=
  (O, N0, Z0, [], None, xH, true).

Definition min_int (w : Z) (s : bool) : Z := if s then - 2 ^ (w - 1) else 0.
Definition max_int (w : Z) (s : bool) : Z := if s then 2 ^ (w - 1) - 1 else 2 ^ w - 1.
Definition in_range (w : Z) (s : bool) (v : Z) : Prop := min_int w s <= v <= max_int w s.
Definition in_rangeb (w : Z) (s : bool) (v : Z) : bool :=
  (min_int w s <=? v) && (v <=? max_int w s).

(* value of the w-bit pattern of v read as signed / unsigned *)
Definition wrap (w : Z) (s : bool) (v : Z) : Z :=
  if s then (v + 2 ^ (w - 1)) mod 2 ^ w - 2 ^ (w - 1) else v mod 2 ^ w.

Definition b2z (b : bool) : Z := if b then 1 else 0.

Lemma b2z_range b : 0 <= b2z b <= 1.
Proof. destruct b; cbn; lia. Qed.

Lemma b2z_nonzero b : negb (b2z b =? 0) = b.
Proof. now destruct b. Qed.

(* case analysis on the condition of every `if` in the goal, each with its equation in the context, where
   lia (ZifyBool) reads it *)
Ltac case_ifs := repeat match goal with |- context [if ?b then _ else _] => destruct b eqn:? end.

Lemma in_rangeb_spec w s v : in_rangeb w s v = true <-> in_range w s v.
Proof. unfold in_rangeb, in_range. lia. Qed.

Lemma in_rangeb_false w s v : in_rangeb w s v = false <-> ~ in_range w s v.
Proof. rewrite <- in_rangeb_spec. destruct (in_rangeb w s v); intuition congruence. Qed.

Lemma pow2_split w : 1 <= w -> 2 ^ w = 2 * 2 ^ (w - 1).
Proof. intros H. replace w with (Z.succ (w - 1)) at 1 by lia. apply Z.pow_succ_r. lia. Qed.

Lemma pow2_pos w : 0 <= w -> 0 < 2 ^ w.
Proof. intros. apply Z.pow_pos_nonneg; lia. Qed.

Lemma pow2_mono a b : 0 <= a <= b -> 2 ^ a <= 2 ^ b.
Proof. intros. apply Z.pow_le_mono_r; lia. Qed.

Lemma in_range_signed w v : in_range w true v <-> - 2 ^ (w - 1) <= v < 2 ^ (w - 1).
Proof. unfold in_range, min_int, max_int. lia. Qed.

Lemma in_range_unsigned w v : in_range w false v <-> 0 <= v < 2 ^ w.
Proof. unfold in_range, min_int, max_int. lia. Qed.

Lemma min_max_sign w s : 1 <= w -> min_int w s <= 0 <= max_int w s.
Proof.
  intros Hw. pose proof (pow2_pos (w - 1) ltac:(lia)). pose proof (pow2_split w Hw).
  unfold min_int, max_int. destruct s; lia.
Qed.

Lemma in_range_nonneg_iff w s v : 1 <= w -> 0 <= v ->
  (in_range w s v <-> v < 2 ^ (if s then w - 1 else w)).
Proof.
  intros Hw Hv. pose proof (pow2_pos (w - 1) ltac:(lia)).
  destruct s; [rewrite in_range_signed | rewrite in_range_unsigned]; lia.
Qed.

Lemma in_range_toward_zero w s x v :
  1 <= w -> in_range w s x -> 0 <= v <= x \/ x <= v <= 0 -> in_range w s v.
Proof. intros Hw Hx Hv. pose proof (min_max_sign w s Hw). unfold in_range in *. lia. Qed.

Lemma in_range_mono w w' s v : 1 <= w <= w' -> in_range w s v -> in_range w' s v.
Proof.
  intros Hw. pose proof (pow2_mono (w - 1) (w' - 1) ltac:(lia)). pose proof (pow2_mono w w' ltac:(lia)).
  unfold in_range, min_int, max_int. destruct s; lia.
Qed.

Lemma in_range_widen w s w' v : 1 <= w < w' -> in_range w s v -> in_range w' true v.
Proof.
  intros Hw. pose proof (pow2_mono w (w' - 1) ltac:(lia)). pose proof (pow2_split w ltac:(lia)).
  pose proof (pow2_pos (w - 1) ltac:(lia)). unfold in_range, min_int, max_int. destruct s; lia.
Qed.

(* wrap w s v is the one value of the type congruent to v modulo 2^w *)

Lemma wrap_in_range w s v : 1 <= w -> in_range w s (wrap w s v).
Proof.
  intros Hw. unfold wrap, in_range, min_int, max_int.
  pose proof (pow2_split w Hw) as E. pose proof (pow2_pos (w - 1) ltac:(lia)) as P.
  destruct s.
  - pose proof (Z.mod_pos_bound (v + 2 ^ (w - 1)) (2 ^ w) ltac:(lia)). lia.
  - pose proof (Z.mod_pos_bound v (2 ^ w) ltac:(lia)). lia.
Qed.

Lemma wrap_repr w s v : 1 <= w -> exists k, wrap w s v = v + k * 2 ^ w.
Proof.
  intros Hw. pose proof (pow2_pos w ltac:(lia)) as P. unfold wrap. destruct s.
  - exists (- ((v + 2 ^ (w - 1)) / 2 ^ w)).
    pose proof (Z.div_mod (v + 2 ^ (w - 1)) (2 ^ w) ltac:(lia)). lia.
  - exists (- (v / 2 ^ w)). pose proof (Z.div_mod v (2 ^ w) ltac:(lia)). lia.
Qed.

Lemma wrap_unique w s v k : 1 <= w -> in_range w s (v + k * 2 ^ w) -> wrap w s v = v + k * 2 ^ w.
Proof.
  intros Hw [Hlo Hhi]. unfold wrap, min_int, max_int in *. pose proof (pow2_split w Hw) as E.
  destruct s.
  - rewrite <- (Z.mod_unique (v + 2 ^ (w - 1)) (2 ^ w) (- k) (v + k * 2 ^ w + 2 ^ (w - 1))); lia.
  - symmetry. apply Z.mod_unique with (- k); lia.
Qed.

Lemma wrap_id w s v : 1 <= w -> in_range w s v -> wrap w s v = v.
Proof. intros Hw Hv. rewrite (wrap_unique w s v 0); [lia | exact Hw | now rewrite Z.add_0_r]. Qed.

Lemma wrap_shift w s v k : 1 <= w -> wrap w s (v + k * 2 ^ w) = wrap w s v.
Proof.
  intros Hw. destruct (wrap_repr w s v Hw) as [j E].
  rewrite (wrap_unique w s (v + k * 2 ^ w) (j - k)); [rewrite E; ring | exact Hw |].
  replace (v + k * 2 ^ w + (j - k) * 2 ^ w) with (wrap w s v) by (rewrite E; ring).
  now apply wrap_in_range.
Qed.

Lemma wrap_narrow w s w' s' v : 1 <= w <= w' -> wrap w s (wrap w' s' v) = wrap w s v.
Proof.
  intros Hw. destruct (wrap_repr w' s' v ltac:(lia)) as [k ->].
  replace (k * 2 ^ w') with (k * 2 ^ (w' - w) * 2 ^ w); [apply wrap_shift; lia|].
  rewrite <- Z.mul_assoc, <- Z.pow_add_r by lia. do 2 f_equal. lia.
Qed.

Lemma wrap_wrap w s s' v : 1 <= w -> wrap w s (wrap w s' v) = wrap w s v.
Proof. intros Hw. apply wrap_narrow. lia. Qed.

Lemma wrap_congr w s v : 1 <= w -> (wrap w s v - v) mod 2 ^ w = 0.
Proof.
  intros Hw. destruct (wrap_repr w s v Hw) as [k ->].
  replace (v + k * 2 ^ w - v) with (k * 2 ^ w) by ring. apply Z.mod_mul.
  pose proof (pow2_pos w ltac:(lia)). lia.
Qed.

Lemma wrap_mod w s x : 1 <= w -> (wrap w s x) mod 2 ^ w = x mod 2 ^ w.
Proof.
  intros Hw. destruct (wrap_repr w s x Hw) as [k ->]. apply Z_mod_plus_full.
Qed.

Lemma wrap_eq_of_mod w s x y : 1 <= w -> x mod 2 ^ w = y mod 2 ^ w -> wrap w s x = wrap w s y.
Proof.
  intros Hw H. unfold wrap. destruct s; [|exact H].
  now rewrite (Zplus_mod x), (Zplus_mod y), H.
Qed.

(* the C test (r ^ b) < 0 *)
Lemma lxor_neg_iff a b : (Z.lxor a b <? 0) = xorb (a <? 0) (b <? 0).
Proof.
  destruct (Z.ltb_spec a 0), (Z.ltb_spec b 0); cbn [xorb];
    apply Bool.eq_true_iff_eq; rewrite Z.ltb_lt;
    pose proof (Z.lxor_nonneg a b); intuition lia.
Qed.
