(* Proofs about Model/M_IntFmt.v, part 1: tables, specification digits, one pass of the C loop, and the
   facts about / and mod that part 2 (which runs lia without the division hook) takes from here. *)
From Coq Require Import ZArith List Bool Lia ZifyBool ZifyNat.
From CyVerif Require Import Lib.CInt Model.M_IntFmt.
Import ListNotations.
Open Scope Z_scope.
Ltac Zify.zify_post_hook ::= Z.to_euclidean_division_equations.

(* ---------- finite table facts, by computation over the whole index range ---------- *)
Lemma zseq_forall (P : Z -> bool) n :
  forallb P (zseq n) = true -> forall i, 0 <= i < Z.of_nat n -> P i = true.
Proof.
  intros H i Hi. rewrite forallb_forall in H. apply H. unfold zseq.
  apply in_map_iff. exists (Z.to_nat i). split; [lia|]. apply in_seq. lia.
Qed.

Definition pair_ok (t : list Z) (b i : Z) : bool :=
  match tbl_get t (i * 2), tbl_get t (i * 2 + 1) with
  | Some c1, Some c2 => (c1 =? 48 + i / b) && (c2 =? 48 + i mod b)
  | _, _ => false
  end.

Lemma pairs_get t b i : pair_ok t b i = true ->
  tbl_get t (i * 2) = Some (48 + i / b) /\ tbl_get t (i * 2 + 1) = Some (48 + i mod b).
Proof.
  unfold pair_ok. destruct (tbl_get t (i * 2)); [|discriminate].
  destruct (tbl_get t (i * 2 + 1)); [|discriminate].
  intros H. apply andb_true_iff in H. destruct H as [H1 H2].
  apply Z.eqb_eq in H1. apply Z.eqb_eq in H2. subst. auto.
Qed.

Lemma pairs8 i : 0 <= i < 64 -> pair_ok DIGIT_PAIRS_8 8 i = true.
Proof. apply (zseq_forall (pair_ok DIGIT_PAIRS_8 8) 64). vm_compute. reflexivity. Qed.
Lemma pairs10 i : 0 <= i < 100 -> pair_ok DIGIT_PAIRS_10 10 i = true.
Proof. apply (zseq_forall (pair_ok DIGIT_PAIRS_10 10) 100). vm_compute. reflexivity. Qed.

Definition hex_ok (upp : bool) (d : Z) : bool :=
  match tbl_get DIGITS_HEX ((if upp then 16 else 0) + d) with
  | Some c => c =? digit_char upp d | None => false end.
Lemma hex_get (upp : bool) d : 0 <= d < 16 ->
  tbl_get DIGITS_HEX ((if upp then 16 else 0) + d) = Some (digit_char upp d).
Proof.
  intros H. assert (E : hex_ok upp d = true).
  { destruct upp; apply (zseq_forall (hex_ok _) 16); try (vm_compute; reflexivity); exact H. }
  unfold hex_ok in E. destruct (tbl_get DIGITS_HEX _); [|discriminate].
  apply Z.eqb_eq in E. subst. reflexivity.
Qed.

Definition okb (b : Z) : Prop := b = 8 \/ b = 10 \/ b = 16.

Lemma pow2_succ_nat f : 2 ^ Z.of_nat (S f) = 2 * 2 ^ Z.of_nat f.
Proof. rewrite Nat2Z.inj_succ. apply Z.pow_succ_r. lia. Qed.

Lemma digs_fuel b u : okb b -> forall f1 f2 n,
  0 <= n < 2 ^ Z.of_nat (S f1) -> n < 2 ^ Z.of_nat (S f2) ->
  digs (S f1) b u n = digs (S f2) b u n.
Proof.
  intros Hb. induction f1 as [|f1 IH]; intros f2 n H1 H2.
  - change (2 ^ Z.of_nat 1) with 2 in H1.
    cbn [digs]. assert (E : n / b = 0) by (destruct Hb as [->|[->| ->]]; lia).
    rewrite E. reflexivity.
  - cbn [digs]. destruct (Z.eqb_spec (n / b) 0) as [E|E]; [reflexivity|].
    f_equal. rewrite pow2_succ_nat in H1.
    destruct f2 as [|f2].
    + change (2 ^ Z.of_nat 1) with 2 in H2. exfalso. destruct Hb as [->|[->| ->]]; lia.
    + rewrite pow2_succ_nat in H2. apply IH; destruct Hb as [->|[->| ->]]; lia.
Qed.

Lemma py_digits_step b u n : okb b -> 0 <= n ->
  py_digits b u n = (if n / b =? 0 then [] else py_digits b u (n / b)) ++ [digit_char u (n mod b)].
Proof.
  intros Hb Hn. unfold py_digits at 1. cbn [digs].
  destruct (Z.eqb_spec (n / b) 0) as [E|E]; [reflexivity|]. f_equal.
  assert (Hq : 1 <= n / b < n) by (destruct Hb as [->|[->| ->]]; lia).
  assert (H2 : 2 <= n) by lia.
  pose proof (Z.log2_spec n ltac:(lia)) as [L1 L2].
  pose proof (Z.log2_spec (n / b) ltac:(lia)) as [M1 M2].
  assert (Lp : 1 <= Z.log2 n).
  { destruct (Z.le_gt_cases 1 (Z.log2 n)); [assumption|].
    assert (Z.log2 n = 0) by (pose proof (Z.log2_nonneg n); lia).
    rewrite H0 in L2. change (2 ^ Z.succ 0) with 2 in L2. lia. }
  unfold py_digits.
  destruct (Z.to_nat (Z.log2 n)) as [|k] eqn:K; [lia|].
  apply digs_fuel; [assumption| |].
  - replace (Z.of_nat (S k)) with (Z.log2 n) by lia.
    rewrite Z.pow_succ_r in L2 by (apply Z.log2_nonneg).
    destruct Hb as [->|[->| ->]]; lia.
  - replace (Z.of_nat (S (Z.to_nat (Z.log2 (n / b))))) with (Z.succ (Z.log2 (n / b)))
      by (pose proof (Z.log2_nonneg (n / b)); lia).
    lia.
Qed.

Lemma py_digits_small b u n : okb b -> 0 <= n < b -> py_digits b u n = [digit_char u n].
Proof.
  intros Hb H. rewrite py_digits_step by (assumption || lia).
  assert (E : n / b = 0) by (destruct Hb as [->|[->| ->]]; lia).
  assert (E2 : n mod b = n) by (destruct Hb as [->|[->| ->]]; lia).
  rewrite E, E2. reflexivity.
Qed.

Lemma py_digits_nonempty b u n : okb b -> 0 <= n -> (1 <= length (py_digits b u n))%nat.
Proof.
  intros Hb H. rewrite py_digits_step by assumption. rewrite app_length. cbn [length]. lia.
Qed.

Lemma parse_app b l c : parse_base b (l ++ [c]) = parse_base b l * b + digit_val c.
Proof. unfold parse_base. rewrite fold_left_app. reflexivity. Qed.

Lemma digit_val_char u d : 0 <= d < 16 -> digit_val (digit_char u d) = d.
Proof. intros H. unfold digit_val, digit_char. destruct u; case_ifs; lia. Qed.

Lemma is_digit_char b u d : okb b -> 0 <= d < b -> is_digit_of b u (digit_char u d) = true.
Proof.
  intros Hb H. unfold is_digit_of. rewrite digit_val_char by (destruct Hb as [->|[->| ->]]; lia).
  rewrite Z.eqb_refl. lia.
Qed.

Definition no_leading_zero (n : Z) (l : list Z) : Prop :=
  match l with [] => False | c :: rest => c = 48 -> (n = 0 /\ rest = []) end.

Lemma digit_char_48 u d : 0 <= d < 16 -> digit_char u d = 48 -> d = 0.
Proof. unfold digit_char. destruct u; case_ifs; lia. Qed.

Lemma py_digits_correct b u : okb b -> forall k n, 0 <= n < Z.of_nat k ->
  parse_base b (py_digits b u n) = n /\
  forallb (is_digit_of b u) (py_digits b u n) = true /\
  no_leading_zero n (py_digits b u n).
Proof.
  intros Hb. induction k as [|k IH]; intros n Hn; [lia|].
  rewrite py_digits_step by (assumption || lia).
  assert (Hm : 0 <= n mod b < b) by (destruct Hb as [->|[->| ->]]; lia).
  assert (Hm16 : 0 <= n mod b < 16) by (destruct Hb as [->|[->| ->]]; lia).
  destruct (Z.eqb_spec (n / b) 0) as [E|E].
  - cbn [app]. unfold parse_base. cbn [fold_left forallb no_leading_zero].
    rewrite digit_val_char by assumption. rewrite is_digit_char by assumption.
    repeat split; try (destruct Hb as [->|[->| ->]]; lia).
    apply digit_char_48 in H; [|assumption]. destruct Hb as [->|[->| ->]]; lia.
  - assert (Hq : 1 <= n / b < n) by (destruct Hb as [->|[->| ->]]; lia).
    destruct (IH (n / b) ltac:(lia)) as (P1 & P2 & P3).
    rewrite parse_app, P1, digit_val_char by assumption.
    rewrite forallb_app, P2. cbn [forallb]. rewrite is_digit_char by assumption.
    repeat split; try (destruct Hb as [->|[->| ->]]; lia).
    destruct (py_digits b u (n / b)) as [|c rest]; [contradiction|].
    cbn [app no_leading_zero] in *. intros C. destruct (P3 C). lia.
Qed.

Lemma int_id x : -2147483648 <= x < 2147483648 -> wrap 32 true x = x.
Proof.
  intros H. apply wrap_id; [lia|]. unfold in_range, min_int, max_int.
  change (2 ^ (32 - 1)) with 2147483648. lia.
Qed.

(* abs((int)(r % c)) with C's truncating %: the digit group |r| mod c *)
Lemma rem_digit r c : 0 < c <= 2147483648 -> Z.abs (wrap 32 true (Z.rem r c)) = Z.abs r mod c.
Proof.
  intros Hc. pose proof (Z.rem_bound_abs r c ltac:(lia)) as B. rewrite int_id by lia.
  rewrite <- Z.rem_abs, (Z.abs_eq c) by lia. apply Z.rem_mod_nonneg; lia.
Qed.

Lemma quot_in_range w s a c : 1 <= w -> in_range w s a -> 1 <= c ->
  wrap w s (Z.quot a c) = Z.quot a c /\ in_range w s (Z.quot a c).
Proof.
  intros Hw Ha Hc.
  assert (R : in_range w s (Z.quot a c)).
  { unfold in_range, min_int, max_int in *. pose proof (pow2_pos (w - 1) ltac:(lia)).
    pose proof (pow2_pos w ltac:(lia)). destruct s; nia. }
  split; [apply wrap_id; assumption | assumption].
Qed.

Lemma quot_abs r c : 0 < c -> Z.abs (Z.quot r c) = Z.abs r / c.
Proof.
  intros H. rewrite <- Z.quot_abs, (Z.abs_eq c) by lia.
  apply Z.quot_div_nonneg; lia.
Qed.

(* a pass that divides by c >= p = 2^l: there is a further pass only from p on, and it takes
   l bits off a bound on the value *)
Lemma more_pass_bounds c p n X : 2 <= p <= c -> 0 <= n -> n / c <> 0 ->
  p <= n /\ (n <= p * X -> n / c <= X).
Proof. intros Hp Hn E. split; nia. Qed.

Lemma pow2_le_split l m : 0 <= l -> 0 <= m -> 2 ^ l <= 2 ^ m ->
  l <= m /\ 2 ^ m = 2 ^ l * 2 ^ (m - l).
Proof.
  intros Hl Hm H. apply Z.pow_le_mono_r_iff in H; [|lia|assumption].
  split; [assumption|]. rewrite <- Z.pow_add_r by lia. f_equal. lia.
Qed.

Lemma div_sub_same m l : 0 < l -> (m - l) / l = m / l - 1.
Proof. intros H. nia. Qed.

Definition opt0 (loo : bool) : list Z := if loo then [48] else [].

(* one pass of case 'o' / case 'd', for any base whose square fits an int and any table of its pairs *)
Lemma pair_step_spec w s b table rem dpos buf :
  1 <= w -> in_range w s rem -> 0 < b * b <= 2147483648 ->
  (forall i, 0 <= i < b * b -> pair_ok table b i = true) -> 2 <= dpos ->
  pair_step w s b table rem dpos buf =
    SOk (Z.quot rem (b * b)) (dpos - 2)
        ((48 + (Z.abs rem mod (b * b)) / b) :: (48 + (Z.abs rem mod (b * b)) mod b) :: buf)
        (Z.abs rem mod (b * b) <? b).
Proof.
  intros Hw Hr Hc Ht Hd. unfold pair_step.
  destruct (quot_in_range w s rem (b * b) Hw Hr ltac:(lia)) as [Q _]. rewrite Q, rem_digit by exact Hc.
  destruct (Z.ltb_spec (dpos - 2) 0); [lia|].
  destruct (pairs_get table b _ (Ht _ (Z.mod_pos_bound (Z.abs rem) (b * b) (proj1 Hc)))) as [G1 G2].
  rewrite G1, G2. reflexivity.
Qed.

Lemma pair_arith b n : (b = 8 \/ b = 10) -> 0 <= n ->
  (n mod (b * b)) / b = (n / b) mod b /\ (n mod (b * b)) mod b = n mod b.
Proof. intros [-> | ->] H; lia. Qed.

Lemma digit_char_decimal x : 0 <= x < 10 -> digit_char false x = 48 + x.
Proof. intros H. unfold digit_char. case_ifs; lia. Qed.

(* characters of the last pass: the pair is the digits, with one excess '0' iff pair < b *)
Lemma last_pass_chars b n : (b = 8 \/ b = 10) -> 0 <= n -> n / (b * b) = 0 ->
  [48 + n / b mod b; 48 + n mod b] = opt0 (n mod (b * b) <? b) ++ py_digits b false n.
Proof.
  intros Hb Hn E. assert (Hokb : okb b) by (destruct Hb as [->| ->]; unfold okb; auto).
  destruct (Z.ltb_spec (n mod (b * b)) b) as [L|L]; cbn [opt0 app].
  - assert (F : n < b /\ n / b mod b = 0 /\ n mod b = n /\ n < 10) by (destruct Hb as [->| ->]; lia).
    destruct F as (F1 & F2 & F3 & F4).
    rewrite py_digits_small by (try assumption; lia). rewrite digit_char_decimal by lia. rewrite F2, F3. reflexivity.
  - assert (F : n / b <> 0 /\ 0 <= n / b < b /\ n / b mod b = n / b /\ n / b < 10 /\ 0 <= n mod b < 10)
      by (destruct Hb as [->| ->]; lia).
    destruct F as (F1 & F2 & F3 & F4 & F5).
    rewrite (py_digits_step b false n) by assumption.
    destruct (Z.eqb_spec (n / b) 0) as [C|_]; [contradiction|].
    rewrite py_digits_small by assumption. rewrite !digit_char_decimal by lia. rewrite F3. reflexivity.
Qed.

Lemma more_pass_chars b n : (b = 8 \/ b = 10) -> 0 <= n -> n / (b * b) <> 0 ->
  py_digits b false n = py_digits b false (n / (b * b)) ++ [48 + n / b mod b; 48 + n mod b].
Proof.
  intros Hb Hn E. assert (Hokb : okb b) by (destruct Hb as [->| ->]; unfold okb; auto).
  assert (F : n / b <> 0 /\ 0 <= n / b /\ 0 <= n / b mod b < 10 /\ 0 <= n mod b < 10 /\ n / b / b = n / (b * b))
    by (destruct Hb as [->| ->]; lia).
  destruct F as (F1 & F2 & F3 & F4 & F5).
  rewrite (py_digits_step b false n) by assumption.
  destruct (Z.eqb_spec (n / b) 0) as [C|_]; [contradiction|].
  rewrite (py_digits_step b false (n / b)) by assumption. rewrite F5.
  destruct (Z.eqb_spec (n / (b * b)) 0) as [C|_]; [contradiction|].
  rewrite !digit_char_decimal by lia. rewrite <- app_assoc. reflexivity.
Qed.

Definition is_pair_fc (fc b : Z) (table : list Z) : Prop :=
  (fc = 111 /\ b = 8 /\ table = DIGIT_PAIRS_8) \/ (fc = 100 /\ b = 10 /\ table = DIGIT_PAIRS_10).

Lemma pair_unfold w s fc b table hexoff f rem dpos buf loo0 :
  1 <= w -> is_pair_fc fc b table -> in_range w s rem -> 2 <= dpos ->
  digits_loop (S f) w s fc hexoff rem dpos buf loo0 =
    let n := Z.abs rem in
    let buf' := (48 + n / b mod b) :: (48 + n mod b) :: buf in
    if Z.quot rem (b * b) =? 0 then LDone (dpos - 2) buf' (n mod (b * b) <? b)
    else digits_loop f w s fc hexoff (Z.quot rem (b * b)) (dpos - 2) buf' (n mod (b * b) <? b).
Proof.
  intros Hw Hfc Hr Hd. cbn [digits_loop].
  assert (St : (if fc =? 111 then pair_step w s 8 DIGIT_PAIRS_8 rem dpos buf
                else if fc =? 100 then pair_step w s 10 DIGIT_PAIRS_10 rem dpos buf
                else if fc =? 120 then hex_step w s hexoff rem dpos buf loo0 else SErr ErrAssert)
               = pair_step w s b table rem dpos buf).
  { destruct Hfc as [(-> & -> & ->)|(-> & -> & ->)]; reflexivity. }
  assert (Hb : (b = 8 \/ b = 10) /\ forall i, 0 <= i < b * b -> pair_ok table b i = true).
  { destruct Hfc as [(_ & -> & ->)|(_ & -> & ->)]; split; auto; [exact pairs8|exact pairs10]. }
  destruct Hb as [Hb Ht].
  rewrite St, (pair_step_spec w s b table) by (assumption || (destruct Hb as [->| ->]; lia)).
  destruct (pair_arith b (Z.abs rem) Hb (Z.abs_nonneg rem)) as (A1 & A2).
  rewrite A1, A2. reflexivity.
Qed.

Lemma hex_step_spec w s (upp : bool) rem dpos buf loo :
  1 <= w -> in_range w s rem -> 1 <= dpos ->
  hex_step w s (if upp then 16 else 0) rem dpos buf loo =
    SOk (Z.quot rem 16) (dpos - 1) (digit_char upp (Z.abs rem mod 16) :: buf) loo.
Proof.
  intros Hw Hr Hd. unfold hex_step.
  destruct (quot_in_range w s rem 16 Hw Hr ltac:(lia)) as [Q _]. rewrite Q.
  rewrite rem_digit by lia. destruct (Z.ltb_spec (dpos - 1) 0); [lia|].
  rewrite hex_get by lia. reflexivity.
Qed.

Lemma hex_unfold w s (upp : bool) f rem dpos buf loo0 :
  1 <= w -> in_range w s rem -> 1 <= dpos ->
  digits_loop (S f) w s 120 (if upp then 16 else 0) rem dpos buf loo0 =
    let buf' := digit_char upp (Z.abs rem mod 16) :: buf in
    if Z.quot rem 16 =? 0 then LDone (dpos - 1) buf' loo0
    else digits_loop f w s 120 (if upp then 16 else 0) (Z.quot rem 16) (dpos - 1) buf' loo0.
Proof.
  intros Hw Hr Hd. cbn [digits_loop].
  change (120 =? 111) with false. change (120 =? 100) with false. change (120 =? 120) with true.
  cbv iota. rewrite hex_step_spec by assumption. reflexivity.
Qed.

Lemma hex_last u n : 0 <= n -> n / 16 = 0 -> [digit_char u (n mod 16)] = py_digits 16 u n.
Proof.
  intros Hn E. rewrite (py_digits_step 16 u n) by (unfold okb; auto). rewrite E. reflexivity.
Qed.

Lemma hex_more u n : 0 <= n -> n / 16 <> 0 ->
  py_digits 16 u n = py_digits 16 u (n / 16) ++ [digit_char u (n mod 16)].
Proof.
  intros Hn E. rewrite (py_digits_step 16 u n) by (unfold okb; auto).
  destruct (Z.eqb_spec (n / 16) 0); [contradiction|reflexivity].
Qed.

(* the declared buffer size against the worst-case number of characters: a d/o pass writes 2 and takes
   at least 6 bits off |v| (64 <= 100), an x pass writes 1 and takes 4 *)
Lemma buf_bounds w (s : bool) (m := if s then w - 1 else w) : 1 <= w ->
  2 * (m / 6 + 1) + b2z s <= buf_size w /\ 1 * (m / 4 + 1) + b2z s <= buf_size w.
Proof. intros H. unfold buf_size, sizeof. destruct s; cbn [b2z] in *; lia. Qed.

(* value & ~(T)0x01fffff in the 'c' range test (uchar_accepts) *)
Lemma land_high v : 0 <= v -> (Z.land v (Z.lnot 2097151) =? 0) = (v <? 2097152).
Proof.
  intros H. rewrite <- Z.ldiff_land. change 2097151 with (Z.ones 21).
  rewrite Z.ldiff_ones_r by lia. rewrite Z.shiftr_div_pow2, Z.shiftl_mul_pow2 by lia.
  change (2 ^ 21) with 2097152. lia.
Qed.

Lemma small_type w s v : 1 <= w -> sizeof w <= 2 -> in_range w s v -> v < 65536.
Proof.
  intros Hw Hs Hr. unfold sizeof in Hs. assert (w <= 16) by lia.
  pose proof (Z.pow_le_mono_r 2 w 16 ltac:(lia) ltac:(lia)) as P. change (2 ^ 16) with 65536 in P.
  pose proof (pow2_split w Hw). pose proof (pow2_pos (w - 1) ltac:(lia)).
  unfold in_range, min_int, max_int in Hr. destruct s; lia.
Qed.

Lemma mod_small_256_2097152 v : (0 <= v < 256 -> v mod 256 = v) /\ (0 <= v < 2097152 -> v mod 2097152 = v).
Proof. lia. Qed.
