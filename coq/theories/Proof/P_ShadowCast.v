(* Proofs about Model/M_ShadowCast.v: cast() looks through typedef layers down to a class
   (cast_base), so each statement is about the constructor of that class: int() of a float is
   C's truncation, float() of an int is exact below 2^53 and correctly rounded above. *)
From Coq Require Import ZArith List Bool Lia.
From CyVerif Require Import Lib.CInt Model.M_ShadowCast.
Import ListNotations.
Open Scope Z_scope.

(* typedef layers (cython.long = typedef(typedef(int)), const[...], volatile[...]) are transparent *)
Lemma cast_wrapn n t args : cast (wrapn n t) args = cast t args.
Proof. induction n as [|n IH]; [reflexivity|exact IH]. Qed.

Lemma cast_base t c args : base t = Some c -> cast t args = cast (TClass c) args.
Proof.
  induction t as [c'|b IH|]; cbn [base cast]; intros H.
  - injection H as ->. reflexivity.
  - apply IH, H.
  - discriminate.
Qed.

Lemma cast_non t args : base t = None -> cast t args = cast TNon args.
Proof.
  induction t as [c'|b IH|]; cbn [base cast]; intros H; [discriminate|apply IH, H|reflexivity].
Qed.

Lemma cast_int_identity t z : base t = Some KInt -> cast t [VInt z] = RVal (VInt z).
Proof. intros H. rewrite (cast_base _ _ _ H). reflexivity. Qed.

Lemma cast_int_in_range t w s z : base t = Some KInt -> 1 <= w -> in_range w s z ->
  cast t [VInt z] = RVal (VInt (wrap w s z)).
Proof. intros H Hw Hr. rewrite wrap_id by assumption. apply cast_int_identity, H. Qed.

Lemma cast_none t c : base t = Some c -> cast t [VNone] = RVal VNone.
Proof. intros H. rewrite (cast_base _ _ _ H). reflexivity. Qed.

Lemma cast_same_class t c v : base t = Some c -> isinstance v c = true -> cast t [v] = RVal v.
Proof.
  intros H Hi. rewrite (cast_base _ _ _ H). cbn [cast]. rewrite Hi, orb_true_r. reflexivity.
Qed.

(* CPython's sign/magnitude truncation = C's discard-the-fraction conversion *)
Lemma trunc_eq s m e : 0 <= m -> py_trunc s m e = c_trunc s m e.
Proof.
  intros Hm. unfold py_trunc, c_trunc. destruct (Z.leb_spec 0 e) as [He|He].
  - destruct s; [rewrite Z.mul_opp_l|]; reflexivity.
  - pose proof (pow2_pos (- e) ltac:(lia)) as Hp.
    destruct s.
    + rewrite Z.quot_opp_l by lia. rewrite Z.quot_div_nonneg by lia. reflexivity.
    + rewrite Z.quot_div_nonneg by lia. reflexivity.
Qed.

Lemma cast_float_to_int t s m e : base t = Some KInt -> 0 <= m ->
  cast t [VFloat s m e] = RVal (VInt (c_trunc s m e)).
Proof.
  intros H Hm. rewrite (cast_base _ _ _ H). cbn [cast is_none isinstance orb construct].
  rewrite trunc_eq by assumption. reflexivity.
Qed.

(* truncation is toward zero: the magnitude is the floor of the magnitude *)
Lemma c_trunc_abs s m e : 0 <= m -> e < 0 -> Z.abs (c_trunc s m e) = m / 2 ^ (- e).
Proof.
  intros Hm He. rewrite <- trunc_eq by assumption. unfold py_trunc.
  destruct (Z.leb_spec 0 e); [lia|].
  pose proof (pow2_pos (- e) ltac:(lia)) as Hp.
  assert (0 <= m / 2 ^ (- e)) by (apply Z.div_pos; lia).
  destruct s; lia.
Qed.

Lemma c_trunc_sign s m e : 0 <= m -> (s = true -> c_trunc s m e <= 0) /\ (s = false -> 0 <= c_trunc s m e).
Proof.
  intros Hm. rewrite <- trunc_eq by assumption. unfold py_trunc.
  destruct (Z.leb_spec 0 e) as [He|He].
  - pose proof (pow2_pos e He). destruct s; split; intros; try discriminate; nia.
  - pose proof (pow2_pos (- e) ltac:(lia)) as Hp.
    assert (0 <= m / 2 ^ (- e)) by (apply Z.div_pos; lia). destruct s; split; intros; try discriminate; lia.
Qed.

Lemma declare_value t v : declare t (Some v) = cast t [v].
Proof. reflexivity. Qed.

Lemma declare_plain t : declare t None = RVal VNone.
Proof. reflexivity. Qed.

(* float(int) *)
Lemma cast_int_to_float t z : base t = Some KFloat -> cast t [VInt z] = round_to_double z.
Proof. intros H. rewrite (cast_base _ _ _ H). reflexivity. Qed.

Lemma nbits_bound a : 0 <= a -> a < 2 ^ nbits a.
Proof.
  intros Ha. unfold nbits. destruct (Z.eqb_spec a 0) as [->|Hne]; [reflexivity|].
  replace (Z.log2 a + 1) with (Z.succ (Z.log2 a)) by lia. apply Z.log2_spec; lia.
Qed.

Lemma nbits_small a : 0 <= a -> a < 2 ^ 53 -> nbits a <= 53.
Proof.
  intros Ha Hlt. unfold nbits. destruct (Z.eqb_spec a 0); [lia|].
  assert (Z.log2 a < 53) by (apply Z.log2_lt_pow2; lia). lia.
Qed.

Lemma round_exact z : Z.abs z < 2 ^ 53 -> round_to_double z = RVal (VFloat (z <? 0) (Z.abs z) 0).
Proof.
  intros H. unfold round_to_double.
  pose proof (nbits_small (Z.abs z) (Z.abs_nonneg z) H) as Hn.
  destruct (Z.leb_spec (nbits (Z.abs z)) 53); [reflexivity|lia].
Qed.

Lemma cast_int_to_float_exact t z : base t = Some KFloat -> Z.abs z < 2 ^ 53 ->
  cast t [VInt z] = RVal (VFloat (z <? 0) (Z.abs z) 0).
Proof. intros H Hz. rewrite (cast_int_to_float t z H). apply round_exact, Hz. Qed.

(* correctly rounded: the result is within half a unit of its last place, with a 53-bit significand *)
Lemma round_half_ulp z s m e : round_to_double z = RVal (VFloat s m e) ->
  s = (z <? 0) /\ 0 <= e /\ 0 <= m <= 2 ^ 53 /\ 2 * Z.abs (Z.abs z - m * 2 ^ e) <= 2 ^ e.
Proof.
  unfold round_to_double. set (a := Z.abs z). set (n := nbits a).
  assert (Ha : 0 <= a) by apply Z.abs_nonneg. pose proof (nbits_bound a Ha) as Hl. fold n in Hl.
  destruct (Z.leb_spec n 53) as [Hn|Hn].
  - intros [= <- <- <-]. split; [reflexivity|]. split; [lia|].
    assert (a < 2 ^ 53) by (eapply Z.lt_le_trans; [exact Hl | apply Z.pow_le_mono_r; lia]).
    rewrite Z.pow_0_r, Z.mul_1_r, Z.sub_diag. cbn. lia.
  - set (sh := n - 53). set (P := 2 ^ sh). set (half := 2 ^ (sh - 1)).
    set (q := a / P). set (r := a mod P).
    assert (Hsh : 1 <= sh) by (unfold sh; lia).
    assert (HP : P = 2 * half) by (unfold P, half; apply pow2_split; lia).
    assert (HH : 0 < half) by (unfold half; apply pow2_pos; lia).
    assert (Hdm : a = P * q + r) by (apply Z.div_mod; lia).
    assert (Hr : 0 <= r < P) by (apply Z.mod_pos_bound; lia).
    assert (Hq : 0 <= q < 2 ^ 53).
    { split; [apply Z.div_pos; lia|]. apply Z.div_lt_upper_bound; [lia|].
      unfold P. rewrite <- Z.pow_add_r by lia. replace (sh + 53) with n by (unfold sh; lia). exact Hl. }
    set (q' := if (half <? r) || ((r =? half) && Z.odd q) then q + 1 else q).
    assert (Hq' : (q' = q /\ r <= half) \/ (q' = q + 1 /\ half <= r)).
    { unfold q'. destruct (Z.ltb_spec half r); cbn [orb]; [right; lia|].
      destruct (Z.eqb_spec r half); cbn [andb]; [|left; lia].
      destruct (Z.odd q); [right|left]; lia. }
    clearbody q'.
    destruct (2 ^ 1024 <=? q' * P); [discriminate|].
    intros [= <- <- <-]. split; [reflexivity|]. split; [lia|].
    fold P. destruct Hq' as [[-> Hle]|[-> Hge]].
    + split; [lia|]. replace (a - q * P) with r by lia. lia.
    + split; [lia|]. replace (a - (q + 1) * P) with (r - P) by lia. lia.
Qed.
