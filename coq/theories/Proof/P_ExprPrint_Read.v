(* C25: the repaired printer is read back by the grammar reader (all expressions). *)
From Coq Require Import List NArith Bool Arith Lia.
From CyVerif Require Import Gen.Gen_Prec Model.M_ExprPrint Proof.P_ExprPrint.
Import ListNotations.
Open Scope nat_scope.

(* "for every sufficiently large fuel" *)
Definition ev {A : Type} (F : nat -> res A) (r : res A) : Prop := exists f0, forall f, f0 <= f -> F f = r.

Lemma ev_const {A : Type} (r : res A) : ev (fun _ => r) r.
Proof. exists 0; auto. Qed.
Lemma ev_ret {A : Type} (F : nat -> res A) r : (forall f, F f = r) -> ev F r.
Proof. exists 0; auto. Qed.
Lemma ev_S {A : Type} (F G : nat -> res A) r : (forall f, F (S f) = G f) -> ev G r -> ev F r.
Proof. intros E [f0 H]. exists (S f0). intros f Hf. destruct f; [lia|]. rewrite E. apply H. lia. Qed.
Lemma ev_one {A : Type} (F : nat -> res A) r : (forall f, F (S f) = r) -> ev F r.
Proof. intros E. exact (ev_S F _ r E (ev_const r)). Qed.
Lemma ev_ext {A : Type} (F G : nat -> res A) r : (forall f, F f = G f) -> ev G r -> ev F r.
Proof. intros E [f0 H]. exists f0. intros f Hf. rewrite E. auto. Qed.
Lemma ev_bind {A B : Type} (F : nat -> res A) (K : nat -> A -> list tok -> res B) a rest r :
  ev F (Ok a rest) -> ev (fun f => K f a rest) r -> ev (fun f => bind (F f) (K f)) r.
Proof.
  intros [f0 H0] [f1 H1]. exists (max f0 f1). intros f Hf.
  rewrite H0 by lia. cbn [bind]. apply H1. lia.
Qed.
(* one step of the reader: unfold a level, run the sub-reader, go on with what it returns *)
Lemma ev_step {A B : Type} (F : nat -> res B) (G : nat -> res A) (K : nat -> A -> list tok -> res B) a rest r :
  (forall f, F (S f) = bind (G f) (K f)) -> ev G (Ok a rest) -> ev (fun f => K f a rest) r -> ev F r.
Proof. intros E HG HK. eapply ev_S; [exact E|]. apply (ev_bind _ _ _ _ _ HG HK). Qed.

(* what may follow an operand: the level at which a token goes on with the expression, if it does *)
Definition infix_level (x : tok) : option nat :=
  match x with
  | TOp o _ =>
      match o with
      | OPow => Some 12 | OInv => None
      | OLt | OLe | OGt | OGe | OEq | ONe => Some 4
      | OBitOr => Some 5 | OBitXor => Some 6 | OBitAnd => Some 7 | OLShift | ORShift => Some 8
      | OAdd | OSub => Some 9 | _ => Some 10
      end
  | TKw KOr _ => Some 1 | TKw KAnd _ => Some 2
  | TKw KNot _ | TKw KIn _ | TKw KIs _ => Some 4
  | TKw KIf _ => Some 0
  | TDot | TLpar | TLbrk => Some 13
  | _ => None
  end.
Definition stops (L : nat) (ts : list tok) : Prop :=
  match ts with
  | [] => True
  | x :: _ => match infix_level x with Some q => q < L | None => True end
  end.

Lemma stops_mono L L' ts : stops L ts -> L <= L' -> stops L' ts.
Proof. destruct ts as [|x ts]; cbn; auto. destruct (infix_level x); auto. lia. Qed.
Lemma infix_level_range x q : infix_level x = Some q -> q <= 13 /\ q <> 3 /\ q <> 11.
Proof.
  destruct x; try discriminate; [destruct o|destruct k| | |]; try discriminate; intros [= <-];
    (split; [apply Nat.leb_le; reflexivity|split; discriminate]).
Qed.
Lemma stops_gap L ts : L = 3 \/ L = 11 -> stops (S L) ts -> stops L ts.
Proof.
  intros HL. destruct ts as [|x ts]; cbn; auto.
  destruct (infix_level x) as [q|] eqn:E; auto. apply infix_level_range in E. lia.
Qed.
Lemma stops_12_11 ts : stops 12 ts -> stops 11 ts.
Proof. apply stops_gap. lia. Qed.
Lemma stops_4_3 ts : stops 4 ts -> stops 3 ts.
Proof. apply stops_gap. lia. Qed.
Lemma stops_14 ts : stops 14 ts.
Proof.
  destruct ts as [|x ts]; cbn; auto.
  destruct (infix_level x) as [q|] eqn:E; auto. apply infix_level_range in E. lia.
Qed.
Lemma closer_stops L ts : closer ts = true -> stops L ts.
Proof. destruct ts as [|x ts]; cbn; auto. destruct x; cbn; auto; discriminate. Qed.
Lemma closer_not_comma {A : Type} ts (X : layout -> list tok -> A) (Y : A) :
  closer ts = true -> match ts with TComma l :: r => X l r | _ => Y end = Y.
Proof. destruct ts as [|x ts]; auto. destruct x; auto; discriminate. Qed.
Lemma stops_cmpop_none ts : stops 4 ts -> cmpop_of ts = None.
Proof.
  destruct ts as [|x ts]; cbn; auto.
  destruct x; cbn; auto.
  - destruct o; cbn; auto; lia.
  - destruct k; cbn; auto; lia.
Qed.
(* the keyword or operator that a right-nested level looks for does not follow *)
Lemma stops_not_if {A : Type} ts (X : layout -> list tok -> A) (Y : A) :
  stops 0 ts -> match ts with TKw KIf l :: r => X l r | _ => Y end = Y.
Proof. destruct ts as [|[] ts]; auto. destruct k; auto. cbn. lia. Qed.
Lemma stops_not_or {A : Type} ts (X : layout -> list tok -> A) (Y : A) :
  stops 1 ts -> match ts with TKw KOr l :: r => X l r | _ => Y end = Y.
Proof. destruct ts as [|[] ts]; auto. destruct k; auto. cbn. lia. Qed.
Lemma stops_not_and {A : Type} ts (X : layout -> list tok -> A) (Y : A) :
  stops 2 ts -> match ts with TKw KAnd l :: r => X l r | _ => Y end = Y.
Proof. destruct ts as [|[] ts]; auto. destruct k; auto. cbn. lia. Qed.
Lemma stops_not_pow {A : Type} ts (X : layout -> list tok -> A) (Y : A) :
  stops 12 ts -> match ts with TOp OPow l :: r => X l r | _ => Y end = Y.
Proof. destruct ts as [|[] ts]; auto. destruct o; auto. cbn. lia. Qed.

(* how a printed operand may start when one of level L or above is expected *)
Definition hd_ok (L : nat) (ts : list tok) : Prop :=
  match ts with
  | [] => False
  | TKw KLambda _ :: _ => L <= 0
  | TKw KNot _ :: _ => L <= 3
  | TKw _ _ :: _ => False
  | TOp o _ :: _ => match unop_of_tok o with Some _ => L <= 11 | None => False end
  | TRpar :: _ | TRbrk :: _ | TRbrace :: _ | TComma _ :: _ | TColon :: _ | TDot :: _ => False
  | _ => True
  end.
Lemma hd_mono L L' ts : hd_ok L ts -> L' <= L -> hd_ok L' ts.
Proof.
  destruct ts as [|x ts]; cbn; auto.
  destruct x; cbn; auto.
  - destruct (unop_of_tok o); auto. lia.
  - destruct k; auto; lia.
Qed.
Lemma hd_app L ts r : hd_ok L ts -> hd_ok L (ts ++ r).
Proof. destruct ts as [|x ts]; cbn; [tauto | auto]. Qed.
Lemma hd_not_closer L ts : hd_ok L ts -> closer ts = false.
Proof. destruct ts as [|x ts]; cbn; [tauto|]. destruct x; auto; tauto. Qed.
Lemma hd_not_knot ts : hd_ok 4 ts -> forall (A : Type) (X : layout -> list tok -> A) (Y : A),
  match ts with TKw KNot l :: r => X l r | _ => Y end = Y.
Proof.
  destruct ts as [|x ts]; cbn; [tauto|]. destruct x; auto. destruct k; auto. lia.
Qed.
Lemma cmpop_of_toks o Y : hd_ok 4 Y -> cmpop_of (cmp_toks o ++ Y) = Some (o, Y).
Proof.
  intros H. destruct o; try reflexivity.
  cbn [cmp_toks app cmpop_of].
  destruct Y as [|y Y']; [destruct H|]. destruct y; try reflexivity. destruct k; try reflexivity.
  cbn in H. lia.
Qed.

(* One-step equations of the reader.  Unfolding the reader once is dear to check (its body is large), so every
   equation is stated for as few shapes of the token list as will do, and the heads that hd_ok excludes go first. *)
Lemma parse0_nolam f ts : hd_ok 1 ts ->
  parse (S f) 0 ts =
  bind (parse f 1 ts) (fun c r =>
    match r with
    | TKw KIf _ :: r1 =>
        bind (parse f 1 r1) (fun cnd r2 =>
          match r2 with
          | TKw KElse _ :: r3 => bind (parse f 0 r3) (fun fv r4 => Ok (ECond c cnd fv) r4)
          | _ => Err
          end)
    | _ => Ok c r
    end).
Proof.
  destruct ts as [|x ts]; cbn [hd_ok]; intros H; [contradiction|].
  destruct x; try contradiction; try reflexivity. destruct k; try contradiction; [reflexivity|lia].
Qed.
Lemma parse0_lam f l ts :
  parse (S f) 0 (TKw KLambda l :: ts) =
  let (ps, ts2) := pnames ts in
  match ts2 with
  | TColon :: ts3 => bind (parse f 0 ts3) (fun b r => Ok (ELambda ps b) r)
  | _ => Err
  end.
Proof. reflexivity. Qed.
Lemma parse_1 f ts :
  parse (S f) 1 ts =
  bind (parse f 2 ts) (fun a r =>
    match r with
    | TKw KOr _ :: r1 => bind (parse f 1 r1) (fun b r2 => Ok (EBool LOr a b) r2)
    | _ => Ok a r
    end).
Proof. reflexivity. Qed.
Lemma parse_2 f ts :
  parse (S f) 2 ts =
  bind (parse f 3 ts) (fun a r =>
    match r with
    | TKw KAnd _ :: r1 => bind (parse f 2 r1) (fun b r2 => Ok (EBool LAnd a b) r2)
    | _ => Ok a r
    end).
Proof. reflexivity. Qed.
Lemma parse3_nonot f ts : hd_ok 4 ts -> parse (S f) 3 ts = parse f 4 ts.
Proof.
  destruct ts as [|x ts]; cbn [hd_ok]; intros H; [contradiction|].
  destruct x; try contradiction; try reflexivity. destruct k; try contradiction; lia.
Qed.
Lemma parse3_not f l ts : parse (S f) 3 (TKw KNot l :: ts) = bind (parse f 3 ts) (fun a r => Ok (ENot a) r).
Proof. reflexivity. Qed.
Lemma parse_4 f ts :
  parse (S f) 4 ts =
  bind (parse f 5 ts) (fun a r =>
    match cmpop_of r with
    | Some (o, r1) =>
        bind (parse f 5 r1) (fun b r2 => bind (pcmps f r2) (fun cs r3 => Ok (ECmp a o b cs) r3))
    | None => Ok a r
    end).
Proof. reflexivity. Qed.
Lemma parse_lassoc f L ts : 5 <= L <= 10 ->
  parse (S f) L ts = bind (parse f (S L) ts) (fun a r => loop f L a r).
Proof.
  intros H. destruct L as [|[|[|[|[|[|[|[|[|[|[|L]]]]]]]]]]]; try lia; reflexivity.
Qed.
Lemma parse11_noun f ts : hd_ok 12 ts -> parse (S f) 11 ts = parse f 12 ts.
Proof.
  destruct ts as [|x ts]; cbn [hd_ok]; intros H; [contradiction|].
  destruct x; try contradiction; try reflexivity. destruct (unop_of_tok o); [lia|contradiction].
Qed.
Lemma parse11_un f o X :
  parse (S f) 11 (TOp (tok_un o) Tight :: X) = bind (parse f 11 X) (fun a r => Ok (mk_un o a) r).
Proof. destruct o; reflexivity. Qed.
Lemma parse_12 f ts :
  parse (S f) 12 ts =
  bind (parse f 13 ts) (fun a r =>
    match r with
    | TOp OPow _ :: r1 => bind (parse f 11 r1) (fun b r2 => Ok (EBin BPow a b) r2)
    | _ => Ok a r
    end).
Proof. reflexivity. Qed.
Lemma parse_13 f ts : parse (S f) 13 ts = bind (atom f ts) (fun a r => postfix f a r).
Proof. reflexivity. Qed.
Lemma atom_lpar f r1 : closer r1 = false ->
  atom (S f) (TLpar :: r1) =
  bind (parse f 0 r1) (fun e r2 =>
    match r2 with
    | TRpar :: r3 => Ok e r3
    | TComma _ :: r3 =>
        bind (pseq f r3) (fun l r4 =>
          match r4 with TRpar :: r5 => Ok (ETuple (ECons e l)) r5 | _ => Err end)
    | _ => Err
    end).
Proof. intros H. cbn [atom]. rewrite H. reflexivity. Qed.
Lemma atom_lbrk f r1 :
  atom (S f) (TLbrk :: r1) =
  bind (pseq f r1) (fun l r2 => match r2 with TRbrk :: r3 => Ok (EList l) r3 | _ => Err end).
Proof. reflexivity. Qed.
Lemma atom_lbrace f r1 : closer r1 = false ->
  atom (S f) (TLbrace :: r1) =
  bind (parse f 0 r1) (fun k r2 =>
    match r2 with
    | TColon :: r3 =>
        bind (parse f 0 r3) (fun v r4 =>
          match r4 with
          | TComma _ :: r5 =>
              bind (pitems f r5) (fun l r6 =>
                match r6 with TRbrace :: r7 => Ok (EDict (ICons k v l)) r7 | _ => Err end)
          | TRbrace :: r5 => Ok (EDict (ICons k v INil)) r5
          | _ => Err
          end)
    | TComma _ :: r3 =>
        bind (pseq f r3) (fun l r4 =>
          match r4 with TRbrace :: r5 => Ok (ESet (ECons k l)) r5 | _ => Err end)
    | TRbrace :: r3 => Ok (ESet (ECons k ENil)) r3
    | _ => Err
    end).
Proof. intros H. cbn [atom]. rewrite H. reflexivity. Qed.
Lemma postfix_lbrk f acc r1 :
  postfix (S f) acc (TLbrk :: r1) =
  bind (parse f 0 r1) (fun i r2 =>
    match r2 with
    | TRbrk :: r3 => postfix f (ESub acc i) r3
    | TComma _ :: r3 =>
        bind (pseq f r3) (fun l r4 =>
          match r4 with
          | TRbrk :: r5 => postfix f (ESub acc (ETuple (ECons i l))) r5
          | _ => Err
          end)
    | _ => Err
    end).
Proof. reflexivity. Qed.
Lemma postfix_lpar f acc r1 :
  postfix (S f) acc (TLpar :: r1) =
  bind (pseq f r1) (fun l r2 => match r2 with TRpar :: r3 => postfix f (ECall acc l) r3 | _ => Err end).
Proof. reflexivity. Qed.
Lemma pseq_S f ts : closer ts = false ->
  pseq (S f) ts =
  bind (parse f 0 ts) (fun e r =>
    match r with
    | TComma _ :: r1 => bind (pseq f r1) (fun l r2 => Ok (ECons e l) r2)
    | _ => Ok (ECons e ENil) r
    end).
Proof. intros H. cbn [pseq]. rewrite H. reflexivity. Qed.
Lemma pitems_S f ts : closer ts = false ->
  pitems (S f) ts =
  bind (parse f 0 ts) (fun k r =>
    match r with
    | TColon :: r1 =>
        bind (parse f 0 r1) (fun v r2 =>
          match r2 with
          | TComma _ :: r3 => bind (pitems f r3) (fun l r4 => Ok (ICons k v l) r4)
          | _ => Ok (ICons k v INil) r2
          end)
    | _ => Err
    end).
Proof. intros H. cbn [pitems]. rewrite H. reflexivity. Qed.
Lemma pcmps_S f o Y : hd_ok 4 Y ->
  pcmps (S f) (cmp_toks o ++ Y) =
  bind (parse f 5 Y) (fun b r2 => bind (pcmps f r2) (fun cs r3 => Ok (CCons o b cs) r3)).
Proof. intros H. cbn [pcmps]. rewrite (cmpop_of_toks o Y H). reflexivity. Qed.

Lemma loop_S f L acc o l ts :
  loop (S f) L acc (TOp o l :: ts) =
  match binop_of_tok o with
  | Some (b, lv) =>
      if lv =? L then bind (parse f (S L) ts) (fun x r => loop f L (EBin b acc x) r)
      else Ok acc (TOp o l :: ts)
  | None => Ok acc (TOp o l :: ts)
  end.
Proof. reflexivity. Qed.
Lemma loop_bin f o a X : o <> BPow ->
  loop (S f) (py_level_bin o) a (TOp (tok_bin o) Spaced :: X) =
  bind (parse f (S (py_level_bin o)) X) (fun x r => loop f (py_level_bin o) (EBin o a x) r).
Proof. intros H. rewrite loop_S. destruct o; try congruence; reflexivity. Qed.
Lemma loop_stop L acc rest : stops L rest -> forall f, loop (S f) L acc rest = Ok acc rest.
Proof.
  intros H f. destruct rest as [|x rest]; [reflexivity|].
  destruct x; try reflexivity.
  rewrite loop_S. destruct (binop_of_tok o) as [[b lv]|] eqn:E; [|reflexivity].
  replace (lv =? L) with false; [reflexivity|].
  symmetry. apply Nat.eqb_neq. cbn in H. destruct o; cbn in E; inversion E; subst; cbn in H; lia.
Qed.
Lemma postfix_stop acc rest : stops 13 rest -> forall f, postfix (S f) acc rest = Ok acc rest.
Proof.
  intros H f. destruct rest as [|x rest]; [reflexivity|].
  destruct x; try reflexivity; cbn in H; lia.
Qed.
Lemma ev_loop_stop L acc rest : stops L rest -> ev (fun f => loop f L acc rest) (Ok acc rest).
Proof. intros H. apply ev_one, loop_stop, H. Qed.
Lemma ev_postfix_stop acc rest : stops 13 rest -> ev (fun f => postfix f acc rest) (Ok acc rest).
Proof. intros H. apply ev_one, postfix_stop, H. Qed.

(* from level L+1 down to level L when nothing at level L follows *)
Lemma step L ts e rest : L < 13 -> hd_ok (S L) ts -> stops L rest ->
  ev (fun f => parse f (S L) ts) (Ok e rest) -> ev (fun f => parse f L ts) (Ok e rest).
Proof.
  intros HL Hh Hs H.
  assert (C : L = 0 \/ L = 1 \/ L = 2 \/ L = 3 \/ L = 4 \/ 5 <= L <= 10 \/ L = 11 \/ L = 12) by lia.
  destruct C as [->|[->|[->|[->|[->|[C|[->| ->]]]]]]].
  - eapply ev_step; [intro f; apply parse0_nolam; exact Hh | exact H |].
    apply ev_ret; intro f. apply stops_not_if, Hs.
  - eapply ev_step; [intro f; apply parse_1 | exact H |].
    apply ev_ret; intro f. apply stops_not_or, Hs.
  - eapply ev_step; [intro f; apply parse_2 | exact H |].
    apply ev_ret; intro f. apply stops_not_and, Hs.
  - eapply ev_S; [intro f; apply parse3_nonot; exact Hh | exact H].
  - eapply ev_step; [intro f; apply parse_4 | exact H |].
    apply ev_ret; intro f. rewrite (stops_cmpop_none _ Hs). reflexivity.
  - eapply ev_step; [intro f; apply parse_lassoc; exact C | exact H | apply ev_loop_stop; exact Hs].
  - eapply ev_S; [intro f; apply parse11_noun; exact Hh | exact H].
  - eapply ev_step; [intro f; apply parse_12 | exact H |].
    apply ev_ret; intro f. apply stops_not_pow, Hs.
Qed.

Lemma climb L L' ts e rest : L <= L' -> L' <= 13 -> hd_ok L' ts -> stops L rest ->
  ev (fun f => parse f L' ts) (Ok e rest) -> ev (fun f => parse f L ts) (Ok e rest).
Proof.
  induction 1 as [|M HM IH]; intros H13 Hh Hs H; [exact H|].
  apply IH; [lia | eapply hd_mono; [exact Hh | lia] | exact Hs |].
  apply step; [lia | exact Hh | eapply stops_mono; [exact Hs | exact HM] | exact H].
Qed.

Definition body (e : expr) : list tok := pr_new 0 e.
Definition eprec (e : expr) : nat :=
  match e with
  | EBin o _ _ => py_level_bin o
  | ECmp _ _ _ _ => 4
  | EBool LOr _ _ => 1 | EBool LAnd _ _ => 2
  | ENot _ => 3
  | EUn _ _ => 11
  | ENum _ true _ => 11
  | ECond _ _ _ | ELambda _ _ => 0
  | _ => 13
  end.
Lemma eprec_le e : eprec e <= 13.
Proof. destruct e; cbn; try lia. - destruct neg; lia. - destruct o; cbn; lia. - destruct o; lia. Qed.

Lemma ltb_13 L : L <= 13 -> (13 <? L) = false.
Proof. intros. apply Nat.ltb_ge. lia. Qed.

Lemma pr_new_wrap e L : L <= 13 -> pr_new L e = wrap (eprec e <? L) (body e).
Proof.
  intros HL. unfold body.
  destruct e; try destruct neg; cbn [pr_new eprec];
    rewrite ?prec_bin_py, ?prec_cmp_py, ?prec_un_py, ?prec_not_py, ?test_prec_py, ?atom_prec_py, ?prec_bool_py;
    rewrite ?(ltb_13 L HL); cbn [wrap]; try reflexivity.
Qed.

Ltac norm_app := repeat (rewrite <- app_assoc || (progress cbn [app])).

Lemma body_un o a : body (EUn o a) = TOp (tok_un o) Tight :: pr_new 11 a.
Proof. unfold body. cbn [pr_new]. rewrite prec_un_py. reflexivity. Qed.
Lemma body_not a : body (ENot a) = TKw KNot After :: pr_new 3 a.
Proof. unfold body. cbn [pr_new]. rewrite prec_not_py. reflexivity. Qed.
Lemma binop_pow_dec o : {o = BPow} + {o <> BPow}.
Proof. destruct o; (left; reflexivity) || (right; discriminate). Qed.
Lemma body_pow a b : body (EBin BPow a b) = pr_new 13 a ++ [TOp OPow Spaced] ++ pr_new 11 b.
Proof. unfold body. cbn [pr_new]. rewrite prec_bin_py, prec_un_py. reflexivity. Qed.
Lemma body_bin o a b : o <> BPow ->
  body (EBin o a b) = pr_new (py_level_bin o) a ++ [TOp (tok_bin o) Spaced] ++ pr_new (S (py_level_bin o)) b.
Proof. intros H. unfold body. cbn [pr_new]. rewrite prec_bin_py. destruct o; try congruence; reflexivity. Qed.
Lemma body_cmp a o b cs : body (ECmp a o b cs) = pr_new 5 a ++ cmp_toks o ++ pr_new 5 b ++ cmps_new 5 cs.
Proof. unfold body. cbn [pr_new]. rewrite prec_cmp_py. reflexivity. Qed.
Lemma body_or a b : body (EBool LOr a b) = pr_new 2 a ++ [TKw KOr Spaced] ++ pr_new 1 b.
Proof. unfold body. cbn [pr_new]. rewrite prec_bool_py. reflexivity. Qed.
Lemma body_and a b : body (EBool LAnd a b) = pr_new 3 a ++ [TKw KAnd Spaced] ++ pr_new 2 b.
Proof. unfold body. cbn [pr_new]. rewrite prec_bool_py. reflexivity. Qed.
Lemma body_cond tv c fv :
  body (ECond tv c fv) = pr_new 1 tv ++ [TKw KIf Spaced] ++ pr_new 1 c ++ [TKw KElse Spaced] ++ pr_new 0 fv.
Proof. unfold body. cbn [pr_new]. rewrite test_prec_py, prec_bool_py. reflexivity. Qed.
Lemma body_lam ps b : body (ELambda ps b) =
  TKw KLambda (match ps with [] => Tight | _ => After end) :: name_toks ps ++ [TColon] ++ pr_new 0 b.
Proof. unfold body. cbn [pr_new]. rewrite test_prec_py. cbn [wrap Nat.ltb Nat.leb]. unfold lambda_head. norm_app. reflexivity. Qed.
Lemma seq_new_cons x l :
  seq_new (ECons x l) = pr_new 0 x ++ match l with ENil => [] | _ => TComma After :: seq_new l end.
Proof. cbn [seq_new]. rewrite test_prec_py. destruct l; [rewrite app_nil_r|]; reflexivity. Qed.
Lemma tuple_toks x l :
  exists c, seq_new (ECons x l) ++ tuple_comma (ECons x l) = pr_new 0 x ++ TComma c :: seq_new l.
Proof.
  rewrite seq_new_cons. destruct l; [exists Tight|exists After].
  - rewrite app_nil_r. reflexivity.
  - rewrite <- app_assoc, app_nil_r. reflexivity.
Qed.
Lemma items_new_cons k v l :
  items_new (ICons k v l) =
  pr_new 0 k ++ TColon :: pr_new 0 v ++ match l with INil => [] | _ => TComma After :: items_new l end.
Proof. cbn [items_new]. rewrite test_prec_py. reflexivity. Qed.
(* the object of an attribute access: an int literal is parenthesised ("1 .real" is not printed) *)
Lemma attr_obj a :
  let ts := match a with ENum KInt _ _ => TLpar :: pr_new test_prec a ++ [TRpar] | _ => pr_new atom_prec a end in
  ts = pr_new 13 a \/ ts = TLpar :: body a ++ [TRpar].
Proof.
  cbn zeta. rewrite test_prec_py, atom_prec_py.
  destruct a; try (left; reflexivity). destruct k; try (left; reflexivity). right; reflexivity.
Qed.

(* hd_ok looks at the first token only: an opening parenthesis when the operand is parenthesised, else
   an atom, a bracket, its prefix operator or the start of its own first operand *)
Lemma hd_pr_new e : forall L q X, q <= L -> L <= 13 -> hd_ok q (pr_new L e ++ X).
Proof.
  induction e; intros L q X Hq HL; try exact I; rewrite pr_new_wrap by exact HL;
    (destruct (eprec _ <? L) eqn:E; [exact I|]); apply Nat.ltb_ge in E; cbn [wrap eprec] in E |- *.
  - destruct neg; [|exact I]. unfold body. cbn [pr_new]. rewrite prec_un_py. cbn. lia.
  - rewrite body_un. destruct o; cbn; lia.
  - rewrite body_not. cbn. lia.
  - destruct (binop_pow_dec o) as [->|Ho].
    + rewrite body_pow, <- app_assoc. apply IHe1; cbn in E; lia.
    + rewrite body_bin, <- app_assoc by exact Ho. apply IHe1; [lia | destruct o; cbn; lia].
  - rewrite body_cmp, <- app_assoc. apply IHe1; lia.
  - destruct o; [rewrite body_and | rewrite body_or]; rewrite <- app_assoc; apply IHe1; lia.
  - rewrite body_cond, <- app_assoc. apply IHe1; lia.
  - destruct l; exact I.
  - unfold body. cbn [pr_new]. destruct (attr_obj e) as [-> | ->]; [|exact I].
    rewrite <- app_assoc. apply IHe; lia.
  - unfold body. cbn [pr_new]. rewrite atom_prec_py, <- app_assoc. apply IHe1; lia.
  - unfold body. cbn [pr_new]. rewrite atom_prec_py, <- app_assoc. apply IHe; lia.
  - rewrite body_lam. cbn. lia.
Qed.
Lemma hd_body e rest : hd_ok (eprec e) (body e ++ rest).
Proof.
  pose proof (eprec_le e) as H. pose proof (hd_pr_new e _ _ rest (le_n _) H) as G.
  rewrite pr_new_wrap, Nat.ltb_irrefl in G by exact H. exact G.
Qed.

(* What is proved of each expression by induction: its unparenthesised print is read back at its own
   level.  The levels 5..10 and 13 are read by a loop that extends an accumulator (a left-nested chain
   of binary operators, of postfix operations); there the statement is in continuation form - reading
   body e and then going on is going on in the loop with e as accumulator - so that it can be used for
   the left operand of a longer chain. *)
Definition is_loop (e : expr) : bool := ((5 <=? eprec e) && (eprec e <=? 10)) || (eprec e =? 13).
Definition cont (p f : nat) (e : expr) (rest : list tok) : res expr :=
  if p =? 13 then postfix f e rest else loop f p e rest.
Definition core (e : expr) : Prop :=
  if is_loop e
  then forall rest r, stops (S (eprec e)) rest -> ev (fun f => cont (eprec e) f e rest) r ->
                      ev (fun f => parse f (eprec e) (body e ++ rest)) r
  else forall rest, stops (eprec e) rest -> ev (fun f => parse f (eprec e) (body e ++ rest)) (Ok e rest).

Lemma top_of_core e rest : core e -> stops (eprec e) rest ->
  ev (fun f => parse f (eprec e) (body e ++ rest)) (Ok e rest).
Proof.
  intros Hc Hs. unfold core in Hc. destruct (is_loop e) eqn:E; [|auto].
  apply Hc; [eapply stops_mono; [exact Hs | lia]|].
  unfold cont. destruct (eprec e =? 13) eqn:E13.
  - apply Nat.eqb_eq in E13. rewrite E13 in Hs. apply ev_postfix_stop; exact Hs.
  - apply ev_loop_stop; exact Hs.
Qed.

Lemma read_body e L rest : core e -> L <= eprec e -> stops L rest ->
  ev (fun f => parse f L (body e ++ rest)) (Ok e rest).
Proof.
  intros Hc HL Hs.
  apply (climb L (eprec e)); [exact HL | apply eprec_le | apply hd_body | exact Hs |].
  apply top_of_core; [exact Hc | eapply stops_mono; [exact Hs | exact HL]].
Qed.

Lemma paren13 e X r : core e -> ev (fun f => postfix f e X) r ->
  ev (fun f => parse f 13 (TLpar :: body e ++ TRpar :: X)) r.
Proof.
  intros Hc Hp.
  eapply ev_step; [intro f; apply parse_13 | | exact Hp].
  eapply ev_step; [intro f; apply atom_lpar, (hd_not_closer _ _ (hd_body e _))
                  | apply read_body; [exact Hc | lia | exact I] | apply ev_ret; reflexivity].
Qed.

Lemma wrap_true_app ts rest : wrap true ts ++ rest = TLpar :: ts ++ TRpar :: rest.
Proof. cbn [wrap]. rewrite <- app_comm_cons, <- app_assoc. reflexivity. Qed.

Lemma read_operand e L rest : core e -> L <= 13 -> stops L rest ->
  ev (fun f => parse f L (pr_new L e ++ rest)) (Ok e rest).
Proof.
  intros Hc HL Hs. rewrite (pr_new_wrap e L HL).
  destruct (eprec e <? L) eqn:E.
  - rewrite wrap_true_app.
    apply (climb L 13); [exact HL | lia | exact I | exact Hs |].
    apply paren13; [exact Hc|]. apply ev_postfix_stop. eapply stops_mono; [exact Hs | lia].
  - apply Nat.ltb_ge in E. cbn [wrap]. apply read_body; assumption.
Qed.

Lemma is_loop_mid e : 5 <= eprec e <= 10 -> is_loop e = true.
Proof.
  intros H. unfold is_loop. apply orb_true_iff. left. apply andb_true_iff.
  split; apply Nat.leb_le; lia.
Qed.
Lemma is_loop_13 e : eprec e = 13 -> is_loop e = true.
Proof. intros H. unfold is_loop. rewrite H. reflexivity. Qed.

Lemma read_operand_then_loop e L rest r : core e -> 5 <= L <= 10 -> stops (S L) rest ->
  ev (fun f => loop f L e rest) r -> ev (fun f => parse f L (pr_new L e ++ rest)) r.
Proof.
  intros Hc HL Hs Hl.
  destruct (Nat.eq_dec (eprec e) L) as [E|NE].
  - rewrite (pr_new_wrap e L) by lia. rewrite E, Nat.ltb_irrefl. cbn [wrap].
    unfold core in Hc. rewrite is_loop_mid, E in Hc by lia. apply Hc; [exact Hs|].
    unfold cont. replace (L =? 13) with false by (symmetry; apply Nat.eqb_neq; lia). exact Hl.
  - assert (EQ : pr_new L e = pr_new (S L) e).
    { rewrite !pr_new_wrap by lia.
      destruct (Nat.ltb_spec (eprec e) L), (Nat.ltb_spec (eprec e) (S L)); (reflexivity || lia). }
    eapply ev_step; [intro f; apply parse_lassoc; exact HL | | exact Hl].
    rewrite EQ. apply read_operand; [exact Hc | lia | exact Hs].
Qed.

Lemma read_operand_then_postfix e X r : core e -> ev (fun f => postfix f e X) r ->
  ev (fun f => parse f 13 (pr_new 13 e ++ X)) r.
Proof.
  intros Hc Hp. rewrite (pr_new_wrap e 13) by lia.
  destruct (eprec e <? 13) eqn:E.
  - rewrite wrap_true_app. apply paren13; assumption.
  - apply Nat.ltb_ge in E. pose proof (eprec_le e). assert (E13 : eprec e = 13) by lia.
    cbn [wrap]. unfold core in Hc. rewrite is_loop_13, E13 in Hc by exact E13.
    apply Hc; [apply stops_14|]. unfold cont. cbn [Nat.eqb]. exact Hp.
Qed.

Definition seq_fact (l : exprs) : Prop :=
  forall rest, closer rest = true -> ev (fun f => pseq f (seq_new l ++ rest)) (Ok l rest).
Definition items_fact (l : items) : Prop :=
  forall rest, closer rest = true -> ev (fun f => pitems f (items_new l ++ rest)) (Ok l rest).
(* after an opening bracket the first element is read by the bracket's own code, the others by pseq / pitems *)
Definition seq_split (l : exprs) : Prop :=
  match l with ENil => True | ECons x l' => core x /\ seq_fact l' end.
Definition items_split (l : items) : Prop :=
  match l with INil => True | ICons k v l' => core k /\ core v /\ items_fact l' end.
Definition cmps_fact (cs : cmps) : Prop :=
  forall rest, stops 4 rest -> ev (fun f => pcmps f (cmps_new 5 cs ++ rest)) (Ok cs rest).

Lemma core_of_13 e : eprec e = 13 ->
  (forall X r, ev (fun f => postfix f e X) r -> ev (fun f => parse f 13 (body e ++ X)) r) -> core e.
Proof.
  intros E Hb. unfold core. rewrite is_loop_13 by exact E. rewrite E. intros rest r _ Hp.
  unfold cont in Hp. cbn [Nat.eqb] in Hp. apply Hb. exact Hp.
Qed.
Lemma core_of_atom e : eprec e = 13 -> (forall X, ev (fun f => atom f (body e ++ X)) (Ok e X)) -> core e.
Proof.
  intros E Ha. apply core_of_13; [exact E|].
  intros X r Hp. eapply ev_step; [intro f; apply parse_13 | apply Ha | exact Hp].
Qed.
Lemma core_of_literal e : eprec e = 13 -> (forall f X, atom (S f) (body e ++ X) = Ok e X) -> core e.
Proof. intros E Ha. apply core_of_atom; [exact E|]. intros X. apply ev_one. intro f. apply Ha. Qed.
Lemma core_of_plain e : is_loop e = false ->
  (forall rest, stops (eprec e) rest -> ev (fun f => parse f (eprec e) (body e ++ rest)) (Ok e rest)) -> core e.
Proof. intros E Hb. unfold core. rewrite E. exact Hb. Qed.

Lemma core_negnum k s : k <> KImag -> core (ENum k true s).
Proof.
  intros Hk.
  apply core_of_plain; [reflexivity|].
  intros rest Hs. cbn [eprec body pr_new] in *. rewrite prec_un_py. cbn [wrap Nat.ltb Nat.leb app].
  eapply ev_step; [intro f; apply (parse11_un f UNeg) | |].
  - change (TNum k s :: rest) with (pr_new 11 (ENum k false s) ++ rest).
    apply read_operand; [|lia|exact Hs].
    apply core_of_literal; [reflexivity | intros; reflexivity].
  - destruct k; try congruence; apply ev_ret; reflexivity.
Qed.

Lemma core_un o a : core a -> (match o with UNeg => not_plain_num a | _ => true end) = true -> core (EUn o a).
Proof.
  intros Ca Hw. apply core_of_plain; [reflexivity|].
  intros rest Hs. rewrite body_un. cbn [eprec app] in *.
  eapply ev_step; [intro f; apply parse11_un | apply read_operand; [exact Ca | lia | exact Hs] |].
  cbn beta. replace (mk_un o a) with (EUn o a); [apply ev_const|].
  destruct o; try reflexivity. destruct a; try reflexivity. destruct k; destruct neg; try reflexivity; discriminate.
Qed.

Lemma core_not a : core a -> core (ENot a).
Proof.
  intros Ca. apply core_of_plain; [reflexivity|].
  intros rest Hs. rewrite body_not. cbn [eprec app] in *.
  eapply ev_step; [intro f; apply parse3_not | apply read_operand; [exact Ca | lia | exact Hs] | apply ev_ret; reflexivity].
Qed.

Lemma core_pow a b : core a -> core b -> core (EBin BPow a b).
Proof.
  intros Ca Cb. apply core_of_plain; [reflexivity|].
  intros rest Hs. rewrite body_pow. cbn [eprec py_level_bin] in *. norm_app.
  eapply ev_step; [intro f; apply parse_12 | apply read_operand; [exact Ca | lia | cbn; lia] |].
  cbn beta iota.
  eapply ev_bind; [apply read_operand; [exact Cb | lia | apply stops_12_11; exact Hs] | apply ev_const].
Qed.

Lemma core_bin o a b : o <> BPow -> core a -> core b -> core (EBin o a b).
Proof.
  intros Ho Ca Cb.
  assert (Hp : 5 <= py_level_bin o <= 10) by (destruct o; try congruence; cbn; lia).
  unfold core. rewrite is_loop_mid by exact Hp. cbn [eprec].
  intros rest r Hs Hl. rewrite body_bin by exact Ho. norm_app.
  unfold cont in Hl. replace (py_level_bin o =? 13) with false in Hl by (symmetry; apply Nat.eqb_neq; lia).
  apply read_operand_then_loop; [exact Ca | exact Hp | destruct o; try congruence; cbn; lia |].
  eapply ev_step; [intro f; apply loop_bin; exact Ho | apply read_operand; [exact Cb | lia | exact Hs] | exact Hl].
Qed.

Lemma stops5_cmp_toks o Y : stops 5 (cmp_toks o ++ Y).
Proof. destruct o; cbn; lia. Qed.
Lemma stops5_cmps cs rest : stops 4 rest -> stops 5 (cmps_new 5 cs ++ rest).
Proof.
  intros H. destruct cs; [cbn [cmps_new app]; eapply stops_mono; [exact H | lia]|].
  cbn [cmps_new]. rewrite <- app_assoc. apply stops5_cmp_toks.
Qed.

Lemma core_cmp a o b cs : core a -> core b -> cmps_fact cs -> core (ECmp a o b cs).
Proof.
  intros Ca Cb Cc. apply core_of_plain; [reflexivity|].
  intros rest Hs. rewrite body_cmp. cbn [eprec] in *. rewrite <- !app_assoc.
  eapply ev_step; [intro f; apply parse_4 | apply read_operand; [exact Ca | lia | apply stops5_cmp_toks] |].
  cbn beta. rewrite cmpop_of_toks by (apply hd_pr_new; lia).
  eapply ev_bind; [apply read_operand; [exact Cb | lia | apply stops5_cmps; exact Hs]|].
  cbn beta. eapply ev_bind; [apply Cc; exact Hs | apply ev_const].
Qed.

Lemma core_bool o a b : core a -> core b -> core (EBool o a b).
Proof.
  intros Ca Cb. destruct o.
  - apply core_of_plain; [reflexivity|].
    intros rest Hs. rewrite body_and. cbn [eprec] in *. norm_app.
    eapply ev_step; [intro f; apply parse_2 | apply read_operand; [exact Ca | lia | cbn; lia] |].
    cbn beta iota. eapply ev_bind; [apply read_operand; [exact Cb | lia | exact Hs] | apply ev_const].
  - apply core_of_plain; [reflexivity|].
    intros rest Hs. rewrite body_or. cbn [eprec] in *. norm_app.
    eapply ev_step; [intro f; apply parse_1 | apply read_operand; [exact Ca | lia | cbn; lia] |].
    cbn beta iota. eapply ev_bind; [apply read_operand; [exact Cb | lia | exact Hs] | apply ev_const].
Qed.

Lemma core_cond tv c fv : core tv -> core c -> core fv -> core (ECond tv c fv).
Proof.
  intros Ct Cc Cf. apply core_of_plain; [reflexivity|].
  intros rest Hs. rewrite body_cond. cbn [eprec] in *. norm_app.
  eapply ev_step; [intro f; apply parse0_nolam, hd_pr_new; lia
                  | apply read_operand; [exact Ct | lia | cbn; lia] |].
  cbn beta iota. eapply ev_bind; [apply read_operand; [exact Cc | lia | exact I]|].
  cbn beta iota. eapply ev_bind; [apply read_operand; [exact Cf | lia | exact Hs] | apply ev_const].
Qed.

Lemma pnames_names ps X : pnames (name_toks ps ++ TColon :: X) = (ps, TColon :: X).
Proof.
  induction ps as [|p ps IH]; [reflexivity|].
  destruct ps as [|p2 ps']; [reflexivity|].
  change (name_toks (p :: p2 :: ps')) with (TName p :: TComma After :: name_toks (p2 :: ps')).
  cbn [app pnames]. rewrite IH. reflexivity.
Qed.
Lemma core_lam ps b : core b -> core (ELambda ps b).
Proof.
  intros Cb. apply core_of_plain; [reflexivity|].
  intros rest Hs. rewrite body_lam. cbn [eprec] in *. norm_app.
  eapply ev_step; [intro f; rewrite parse0_lam, pnames_names; reflexivity
                  | apply read_operand; [exact Cb | lia | exact Hs] | apply ev_ret; reflexivity].
Qed.

Lemma seq_fact_nil : seq_fact ENil.
Proof. intros rest Hc. apply ev_one. intro f. cbn [seq_new app pseq]. rewrite Hc. reflexivity. Qed.

Lemma elem_not_closer x rest : closer (pr_new 0 x ++ rest) = false.
Proof. apply (hd_not_closer 0), hd_pr_new; lia. Qed.

Lemma seq_fact_cons x l' : core x -> seq_fact l' -> seq_fact (ECons x l').
Proof.
  intros Cx Cl rest Hc. rewrite seq_new_cons, <- app_assoc.
  destruct l' as [|y l'']; cbn [app].
  - eapply ev_step; [intro f; apply pseq_S, elem_not_closer
                    | apply read_operand; [exact Cx | lia | apply closer_stops; exact Hc] |].
    apply ev_ret; intro f. apply closer_not_comma, Hc.
  - eapply ev_step; [intro f; apply pseq_S, elem_not_closer
                    | apply read_operand; [exact Cx | lia | exact I] |].
    cbn beta iota. eapply ev_bind; [apply Cl; exact Hc | apply ev_const].
Qed.
Lemma seq_split_fact l : seq_split l -> seq_fact l.
Proof. destruct l; [intros _; apply seq_fact_nil | intros [Cx Cl]; apply seq_fact_cons; assumption]. Qed.

Lemma core_tuple l : seq_split l -> core (ETuple l).
Proof.
  intros Cs. apply core_of_atom; [reflexivity|].
  intros X. unfold body. cbn [pr_new]. norm_app.
  destruct l as [|x l'].
  - apply ev_one. reflexivity.
  - destruct Cs as [Cx Cl']. destruct (tuple_toks x l') as [c E].
    rewrite (app_assoc (seq_new _)), E, <- app_assoc. cbn [app].
    eapply ev_step; [intro f; apply atom_lpar, elem_not_closer
                    | apply read_operand; [exact Cx | lia | exact I] |].
    cbn beta iota. eapply ev_bind; [apply Cl'; reflexivity | apply ev_ret; reflexivity].
Qed.

Lemma core_list l : seq_fact l -> core (EList l).
Proof.
  intros Cl. apply core_of_atom; [reflexivity|].
  intros X. unfold body. cbn [pr_new]. norm_app.
  eapply ev_step; [intro f; apply atom_lbrk | apply Cl; reflexivity | apply ev_ret; reflexivity].
Qed.

Lemma core_set x l' : seq_split (ECons x l') -> core (ESet (ECons x l')).
Proof.
  intros [Cx Cl']. apply core_of_atom; [reflexivity|].
  intros X. unfold body. cbn [pr_new]. rewrite seq_new_cons. norm_app.
  eapply ev_step; [intro f; apply atom_lbrace, elem_not_closer
                  | apply read_operand; [exact Cx | lia | destruct l'; exact I] |].
  destruct l' as [|y l'']; cbn [app]; [apply ev_ret; reflexivity|].
  cbn beta iota. eapply ev_bind; [apply Cl'; reflexivity | apply ev_ret; reflexivity].
Qed.

Lemma items_fact_nil : items_fact INil.
Proof. intros rest Hc. apply ev_one. intro f. cbn [items_new app pitems]. rewrite Hc. reflexivity. Qed.
Lemma items_fact_cons k v l' : core k -> core v -> items_fact l' -> items_fact (ICons k v l').
Proof.
  intros Ck Cv Cl rest Hc. rewrite items_new_cons. norm_app.
  eapply ev_step; [intro f; apply pitems_S, elem_not_closer
                  | apply read_operand; [exact Ck | lia | exact I] |].
  cbn beta iota. destruct l' as [|k2 v2 l'']; cbn [app].
  - eapply ev_bind; [apply read_operand; [exact Cv | lia | apply closer_stops; exact Hc]|].
    apply ev_ret; intro f. apply closer_not_comma, Hc.
  - eapply ev_bind; [apply read_operand; [exact Cv | lia | exact I]|].
    cbn beta iota. eapply ev_bind; [apply Cl; exact Hc | apply ev_const].
Qed.
Lemma items_split_fact l : items_split l -> items_fact l.
Proof. destruct l; [intros _; apply items_fact_nil | intros [Ck [Cv Cl]]; apply items_fact_cons; assumption]. Qed.
Lemma core_dict l : items_split l -> core (EDict l).
Proof.
  intros Cs. apply core_of_atom; [reflexivity|].
  intros X. unfold body. cbn [pr_new].
  destruct l as [|k v l'].
  - apply ev_one. reflexivity.
  - destruct Cs as [Ck [Cv Cl']]. rewrite items_new_cons. norm_app.
    eapply ev_step; [intro f; apply atom_lbrace, elem_not_closer
                    | apply read_operand; [exact Ck | lia | exact I] |].
    cbn beta iota. eapply ev_bind; [apply read_operand; [exact Cv | lia | destruct l'; exact I]|].
    destruct l' as [|k2 v2 l'']; cbn [app]; [apply ev_ret; reflexivity|].
    cbn beta iota. eapply ev_bind; [apply Cl'; reflexivity | apply ev_ret; reflexivity].
Qed.

Lemma core_attr a n : core a -> core (EAttr a n).
Proof.
  intros Ca.
  assert (Hpost : forall X r, ev (fun f => postfix f (EAttr a n) X) r ->
                              ev (fun f => postfix f a (TDot :: TName n :: X)) r).
  { intros X r Hp. eapply ev_S; [intro f; reflexivity | exact Hp]. }
  apply core_of_13; [reflexivity|]. intros X r Hp. unfold body at 1. cbn [pr_new].
  destruct (attr_obj a) as [-> | ->]; norm_app.
  - apply read_operand_then_postfix; [exact Ca | apply Hpost; exact Hp].
  - apply paren13; [exact Ca | apply Hpost; exact Hp].
Qed.

Lemma core_sub a i : core a -> core i -> (match i with ETuple l => seq_split l | _ => True end) -> core (ESub a i).
Proof.
  intros Ca Ci Cs.
  apply core_of_13; [reflexivity|].
  intros X r Hp. unfold body. cbn [pr_new]. rewrite atom_prec_py, test_prec_py. norm_app.
  apply read_operand_then_postfix; [exact Ca|].
  assert (Gen : ev (fun f => postfix f a (TLbrk :: pr_new 0 i ++ TRbrk :: X)) r).
  { eapply ev_step; [intro f; apply postfix_lbrk | apply read_operand; [exact Ci | lia | exact I] | exact Hp]. }
  destruct i; try exact Gen.
  destruct l as [|x l']; [exact Gen|].
  destruct Cs as [Cx Cl']. destruct (tuple_toks x l') as [c E].
  cbn iota. rewrite E, <- app_assoc. cbn [app].
  eapply ev_step; [intro f; apply postfix_lbrk | apply read_operand; [exact Cx | lia | exact I] |].
  cbn beta iota. eapply ev_bind; [apply Cl'; reflexivity | exact Hp].
Qed.

Lemma core_call fn args : core fn -> seq_fact args -> core (ECall fn args).
Proof.
  intros Cf Cl. apply core_of_13; [reflexivity|].
  intros X r Hp. unfold body. cbn [pr_new]. rewrite atom_prec_py. norm_app.
  apply read_operand_then_postfix; [exact Cf|].
  eapply ev_step; [intro f; apply postfix_lpar | apply Cl; reflexivity | exact Hp].
Qed.

Lemma cmps_fact_nil : cmps_fact CNil.
Proof.
  intros rest Hs. apply ev_one. intro f. cbn [cmps_new app pcmps]. rewrite (stops_cmpop_none _ Hs). reflexivity.
Qed.
Lemma cmps_fact_cons o x cs : core x -> cmps_fact cs -> cmps_fact (CCons o x cs).
Proof.
  intros Cx Cc rest Hs. cbn [cmps_new]. rewrite <- !app_assoc.
  eapply ev_step; [intro f; apply pcmps_S, hd_pr_new; lia
                  | apply read_operand; [exact Cx | lia | apply stops5_cmps; exact Hs] |].
  cbn beta. eapply ev_bind; [apply Cc; exact Hs | apply ev_const].
Qed.

Scheme expr_mut := Induction for expr Sort Prop
with exprs_mut := Induction for exprs Sort Prop
with items_mut := Induction for items Sort Prop
with cmps_mut := Induction for cmps Sort Prop.
Combined Scheme expr_all_ind from expr_mut, exprs_mut, items_mut, cmps_mut.

(* a tuple also hands on its seq_split: as a subscript it is printed without parentheses *)
Definition Pe (e : expr) : Prop :=
  wf e = true -> core e /\ match e with ETuple l => seq_split l | _ => True end.
Definition Pes (l : exprs) : Prop := wf_seq l = true -> seq_split l.
Definition Pit (l : items) : Prop := wf_items l = true -> items_split l.
Definition Pc (cs : cmps) : Prop := wf_cmps cs = true -> cmps_fact cs.

Ltac wf_split H :=
  cbn [wf wf_seq wf_items wf_cmps] in H;
  repeat match type of H with
         | (_ && _) = true => let H1 := fresh "W" in apply andb_true_iff in H; destruct H as [H H1]
         end.

Lemma read_back_all :
  (forall e, Pe e) /\ (forall l, Pes l) /\ (forall l, Pit l) /\ (forall cs, Pc cs).
Proof.
  apply expr_all_ind; unfold Pe, Pes, Pit, Pc.
  1, 3-8: (* names, strings and the constants *)
    (intros; split; [|exact I]; apply core_of_literal; [reflexivity | intros; reflexivity]).
  - (* ENum *) intros k neg s W. split; [|exact I].
    destruct neg; [apply core_negnum; intros ->; discriminate|].
    apply core_of_literal; [reflexivity | intros; reflexivity].
  - (* EUn *) intros o a IHa W. wf_split W. split; [|exact I]. apply core_un; [apply IHa; exact W | exact W0].
  - (* ENot *) intros a IHa W. cbn [wf] in W. split; [|exact I]. apply core_not. apply IHa; exact W.
  - (* EBin *) intros o a IHa b IHb W. wf_split W. split; [|exact I].
    destruct (binop_pow_dec o) as [->|Ho].
    + apply core_pow; [apply IHa; exact W | apply IHb; exact W0].
    + apply core_bin; [exact Ho | apply IHa; exact W | apply IHb; exact W0].
  - (* ECmp *) intros a IHa o b IHb cs IHc W. wf_split W. split; [|exact I].
    apply core_cmp; [apply IHa; exact W | apply IHb; exact W1 | apply IHc; exact W0].
  - (* EBool *) intros o a IHa b IHb W. wf_split W. split; [|exact I].
    apply core_bool; [apply IHa; exact W | apply IHb; exact W0].
  - (* ECond *) intros a IHa b IHb c IHc W. wf_split W. split; [|exact I].
    apply core_cond; [apply IHa; exact W | apply IHb; exact W1 | apply IHc; exact W0].
  - (* ETuple *) intros l IHl W. split; [apply core_tuple|]; apply IHl, W.
  - (* EList *) intros l IHl W. split; [|exact I]. apply core_list, seq_split_fact, IHl, W.
  - (* ESet *) intros l IHl W. wf_split W. split; [|exact I].
    destruct l as [|x l']; [discriminate|]. apply core_set, IHl, W.
  - (* EDict *) intros l IHl W. split; [|exact I]. apply core_dict, IHl, W.
  - (* EAttr *) intros a IHa n W. cbn [wf] in W. split; [|exact I]. apply core_attr. apply IHa; exact W.
  - (* ESub *) intros a IHa i IHi W. wf_split W. split; [|exact I].
    destruct (IHi W0) as [Ci Si]. apply core_sub; [apply IHa; exact W | exact Ci | exact Si].
  - (* ECall *) intros fn IHf args IHl W. wf_split W. split; [|exact I].
    apply core_call; [apply IHf; exact W | apply seq_split_fact, IHl, W0].
  - (* ELambda *) intros ps b IHb W. cbn [wf] in W. split; [|exact I]. apply core_lam. apply IHb; exact W.
  - (* ENil *) intros _. exact I.
  - (* ECons *) intros x IHx l IHl W. wf_split W. split; [apply IHx, W | apply seq_split_fact, IHl, W0].
  - (* INil *) intros _. exact I.
  - (* ICons *) intros k IHk v IHv l IHl W. wf_split W.
    split; [apply IHk, W | split; [apply IHv, W1 | apply items_split_fact, IHl, W0]].
  - (* CNil *) intros _. apply cmps_fact_nil.
  - (* CCons *) intros o x IHx cs IHc W. wf_split W.
    apply cmps_fact_cons; [apply IHx; exact W | apply IHc; exact W0].
Qed.

Theorem print_unambiguous_fixed : forall e, wf e = true ->
  exists fuel0, forall fuel, fuel0 <= fuel -> reparse fuel (print true e) = RExpr e.
Proof.
  intros e W. destruct (proj1 read_back_all e W) as [Hc _].
  destruct (read_operand e 0 [] Hc (Nat.le_0_l 13) I) as [f0 H].
  exists f0. intros fuel Hf. unfold reparse, print. specialize (H fuel Hf).
  rewrite app_nil_r in H. rewrite H. reflexivity.
Qed.

(* read back inside any context that cannot continue the expression (closing bracket, comma ...) *)
Theorem print_unambiguous_fixed_ctx : forall e L rest, wf e = true -> L <= 13 -> stops L rest ->
  exists fuel0, forall fuel, fuel0 <= fuel -> parse fuel L (pr_new L e ++ rest) = Ok e rest.
Proof. intros e L rest W HL Hs. apply read_operand; [apply (proj1 read_back_all e W) | exact HL | exact Hs]. Qed.
