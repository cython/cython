(* C21 - the CFG built by ControlFlowAnalysis (Model/M_FlowCFG.v) covers every execution path:
   structural facts about the builder (this file), simulation and the link to check_definitions
   (P_FlowCFG_Sim.v, P_FlowCFG_Bridge.v). *)
From Coq Require Import NArith List Bool Arith Lia.
From CyVerif Require Import Model.M_Flow Model.M_FlowCFG.
Import ListNotations.

Lemma len_cons st b p :
  length (filter (fun q => fst q =? b) (p :: sts st)) =
  (if fst p =? b then 1 else 0) + len st b.
Proof. unfold len. simpl. destruct (fst p =? b); reflexivity. Qed.

Definition inv (st : bst) : Prop :=
  (forall p, In p (sts st) -> fst p < nb st) /\ (forall b, cur st = Some b -> b < nb st).

Lemma len_fresh st b : inv st -> nb st <= b -> len st b = 0.
Proof.
  intros [H _] Hb. unfold len.
  assert (E : filter (fun p => fst p =? b) (sts st) = []); [|now rewrite E].
  induction (sts st) as [|p l IH]; simpl; auto.
  assert (fst p < nb st) by (apply H; simpl; auto).
  destruct (Nat.eqb_spec (fst p) b); [lia|]. apply IH. intros q Hq. apply H. simpl; auto.
Qed.

Definition ext (st g : bst) : Prop :=
  (exists new, sts g = new ++ sts st) /\ incl (eds st) (eds g).

Lemma ext_refl st : ext st st.
Proof. split; [exists []; reflexivity|apply incl_refl]. Qed.
Lemma ext_trans a b c : ext a b -> ext b c -> ext a c.
Proof.
  intros [[n1 H1] I1] [[n2 H2] I2]. split.
  - exists (n2 ++ n1). rewrite H2, H1. now rewrite app_assoc.
  - eapply incl_tran; eauto.
Qed.

Lemma block_stats_ext st g b : ext st g ->
  exists more, block_stats g b = block_stats st b ++ more.
Proof.
  intros [[new H] _]. unfold block_stats. rewrite H, filter_app, map_app, rev_app_distr.
  eexists; reflexivity.
Qed.

Lemma stat_at_ext st g b k s : ext st g -> stat_at st b k = Some s -> stat_at g b k = Some s.
Proof.
  intros He Hs. destruct (block_stats_ext st g b He) as [more Hm].
  unfold stat_at in *. rewrite Hm. rewrite nth_error_app1; auto.
  apply nth_error_Some. congruence.
Qed.

Lemma len_block_stats st b : length (block_stats st b) = len st b.
Proof. unfold block_stats, len. now rewrite rev_length, map_length. Qed.

Lemma stat_at_append st b s :
  cur st = Some b -> stat_at (append s st) b (len st b) = Some s.
Proof.
  intros Hc. unfold stat_at, block_stats, append. rewrite Hc. simpl.
  rewrite Nat.eqb_refl. simpl. rewrite nth_error_app2; rewrite rev_length, map_length; fold (len st b).
  - now rewrite Nat.sub_diag.
  - unfold len. lia.
Qed.

Lemma len_append_same st b s : cur st = Some b -> len (append s st) b = S (len st b).
Proof. intros Hc. unfold append. rewrite Hc. unfold len. simpl. now rewrite Nat.eqb_refl. Qed.

Lemma len_append_other st b' s : cur st <> Some b' -> len (append s st) b' = len st b'.
Proof.
  intros Hc. unfold append. destruct (cur st) as [c|] eqn:E; auto.
  unfold len. simpl. destruct (Nat.eqb_spec c b'); [subst; congruence|reflexivity].
Qed.

(* [R n st st']: st' extends st, keeps the invariant, and leaves alone every block older than n
   that is not the current one *)
Definition R (n : nat) (st st' : bst) : Prop :=
  inv st' /\ ext st st' /\ nb st <= nb st' /\ n <= nb st /\
  (forall b, b < n -> cur st <> Some b -> len st' b = len st b /\ cur st' <> Some b).

Lemma R_refl n st : inv st -> n <= nb st -> R n st st.
Proof. intros Hi Hn. split; auto. split; [apply ext_refl|]. split; auto. Qed.

Lemma R_inv n st X : R n st X -> inv X.
Proof. intros H; apply H. Qed.
Lemma R_ext n X Y : R n X Y -> ext X Y.
Proof. intros H; apply H. Qed.
Lemma R_nb n st X : R n st X -> nb st <= nb X /\ n <= nb X.
Proof. intros (_ & _ & A & B & _). lia. Qed.
Lemma R_len n X Y b : R n X Y -> b < n -> cur X <> Some b -> len Y b = len X b.
Proof. intros (_ & _ & _ & _ & F) Hb Hc. now destruct (F b Hb Hc). Qed.

Ltac Rstep := intros (IX & EX & NX & MX & FX).

Lemma R_set_cur_none n st X : R n st X -> R n st (set_cur None X).
Proof.
  Rstep. split; [|split; [|split; [|split]]]; auto.
  - destruct IX as [A B]. split; auto. intros b Hb. discriminate.
  - intros b Hb Hc. destruct (FX b Hb Hc). split; auto. simpl. discriminate.
Qed.

Lemma R_set_cur_some n st X c : n <= c -> c < nb X -> R n st X -> R n st (set_cur (Some c) X).
Proof.
  intros Hc1 Hc2. Rstep. split; [|split; [|split; [|split]]]; auto.
  - destruct IX as [A B]. split; auto. intros b Hb. simpl in Hb. inversion Hb; subst. exact Hc2.
  - intros b Hb Hc. destruct (FX b Hb Hc). split; auto. simpl. intros E. inversion E. lia.
Qed.

Lemma R_newblock n st X : R n st X -> R n st (newblock X).
Proof.
  Rstep. split; [|split; [|split; [|split]]]; auto.
  - destruct IX as [A B]. split; simpl.
    + intros p Hp. specialize (A p Hp). lia.
    + intros b Hb. specialize (B b Hb). lia.
  - simpl. lia.
Qed.

Lemma ext_add_edge_k u k v X : ext X (add_edge_k u k v X).
Proof. split; [exists []; reflexivity|]. simpl. apply incl_tl, incl_refl. Qed.

Lemma R_add_edge_k n st X u k v : R n st X -> R n st (add_edge_k u k v X).
Proof.
  Rstep. split; [|split; [|split; [|split]]]; auto.
  eapply ext_trans; [exact EX|apply ext_add_edge_k].
Qed.

Lemma R_add_edge n st X u v : R n st X -> R n st (add_edge u v X).
Proof. apply R_add_edge_k. Qed.
Lemma R_add_edge_o n st X u v : R n st X -> R n st (add_edge_o u v X).
Proof. destruct u; simpl; auto. apply R_add_edge. Qed.
Lemma R_link_cur n st X v : R n st X -> R n st (link_cur v X).
Proof. apply R_add_edge_o. Qed.

Lemma nb_add_edge_o u v X : nb (add_edge_o u v X) = nb X.
Proof. destruct u; reflexivity. Qed.

Lemma nb_nextblock_from p X : nb (nextblock_from p X) = S (nb X).
Proof. unfold nextblock_from. destruct p; simpl; auto. unfold link_cur. now rewrite nb_add_edge_o. Qed.
Lemma nb_nextblock X : nb (nextblock X) = S (nb X).
Proof. apply nb_nextblock_from. Qed.

Lemma R_nextblock_from n st X p : R n st X -> R n st (nextblock_from p X).
Proof.
  intros H. pose proof H as (_ & _ & NX & MX & _). unfold nextblock_from.
  apply R_set_cur_some.
  - lia.
  - destruct p; [simpl; lia|]. unfold link_cur. rewrite nb_add_edge_o. simpl. lia.
  - destruct p; [apply R_add_edge|apply R_link_cur]; now apply R_newblock.
Qed.
Lemma R_nextblock n st X : R n st X -> R n st (nextblock X).
Proof. apply R_nextblock_from. Qed.

Lemma R_append n st X s : R n st X -> R n st (append s X).
Proof.
  intros H. unfold append. destruct (cur X) as [c|] eqn:Ec; [|exact H]. revert H.
  Rstep. split; [|split; [|split; [|split]]]; auto.
  - destruct IX as [A B]. split; simpl.
    + intros p [<-|Hp]; [simpl; apply B; exact Ec|auto].
    + intros b Hb. apply B. congruence.
  - eapply ext_trans; [exact EX|]. split; [exists [(c, s)]; reflexivity|apply incl_refl].
  - intros b Hb Hc. destruct (FX b Hb Hc) as [L C]. split.
    + rewrite <- L. unfold len. simpl. destruct (Nat.eqb_spec c b); [subst; congruence|reflexivity].
    + simpl. congruence.
Qed.

Lemma R_exc_edge n st X : R n st X -> R n st (exc_edge X).
Proof.
  intros H. unfold exc_edge. destruct (cur X); auto. destruct (excs X); auto.
  now apply R_nextblock, R_add_edge.
Qed.
Lemma R_v_ref n st X l e : R n st X -> R n st (v_ref l e X).
Proof. apply R_append. Qed.
Lemma R_v_asg n st X l e : R n st X -> R n st (v_asg l e X).
Proof. intros H. unfold v_asg. destruct (cur X); auto. now apply R_exc_edge, R_append, R_exc_edge. Qed.
Lemma R_v_del n st X l e i : R n st X -> R n st (v_del l e i X).
Proof.
  intros H. unfold v_del. destruct (cur X); auto. apply R_exc_edge, R_append.
  destruct i; auto. now apply R_append.
Qed.
Lemma R_refs n st c : forall X, R n st X -> R n st (refs c X).
Proof. induction c as [|r c IH]; intros X H; simpl; auto. apply IH, R_v_ref, H. Qed.
Lemma R_asgs n st c : forall X, R n st X -> R n st (asgs c X).
Proof. induction c as [|r c IH]; intros X H; simpl; auto. apply IH, R_v_asg, H. Qed.

Lemma R_ctx n st X X' :
  nb X' = nb X -> sts X' = sts X -> eds X' = eds X -> cur X' = cur X -> R n st X -> R n st X'.
Proof.
  intros H1 H2 H3 H4. Rstep. split; [|split; [|split; [|split]]]; auto.
  - destruct IX as [A B]. split; [rewrite H1, H2; auto|rewrite H1, H4; auto].
  - destruct EX as [[new E1] E2]. split; [exists new; congruence|rewrite H3; exact E2].
  - lia.
  - intros b Hb Hc. destruct (FX b Hb Hc). unfold len in *. rewrite H2, H4. auto.
Qed.
Lemma R_push_loop n st X d : R n st X -> R n st (push_loop d X).
Proof. apply R_ctx; reflexivity. Qed.
Lemma R_pop_loop n st X : R n st X -> R n st (pop_loop X).
Proof. apply R_ctx; reflexivity. Qed.
Lemma R_push_exc n st X d : R n st X -> R n st (push_exc d X).
Proof. apply R_ctx; reflexivity. Qed.
Lemma R_pop_exc n st X : R n st X -> R n st (pop_exc X).
Proof. apply R_ctx; reflexivity. Qed.
Lemma R_push_loop_exc n st X d : R n st X -> R n st (push_loop_exc d X).
Proof. unfold push_loop_exc. destruct (loops X); auto. Qed.
Lemma R_pop_loop_exc n st X : R n st X -> R n st (pop_loop_exc X).
Proof. unfold pop_loop_exc. destruct (loops X); auto. Qed.

Lemma R_chain_edges n st fs T : forall src k X, R n st X -> R n st (chain_edges src k fs T X).
Proof.
  induction fs as [|x r IH]; intros src k X H; simpl.
  - now apply R_add_edge_k.
  - destruct (x_fin x) as [[fe [[fxb kx]|]]|]; auto.
    + apply IH. now apply R_add_edge_k. + now apply R_add_edge_k.
Qed.
Lemma R_jump_loop_asis n st fs T src k X : R n st X -> R n st (jump_loop_asis src k fs T X).
Proof.
  intros H. unfold jump_loop_asis. destruct fs as [|x r]; [now apply R_add_edge_k|].
  destruct (x_fin x) as [[fe [[fxb kx]|]]|]; repeat apply R_add_edge_k; auto.
Qed.
Lemma R_jump_ret_asis n st fs src k X : R n st X -> R n st (jump_ret_asis src k fs X).
Proof.
  intros H. unfold jump_ret_asis. destruct (first_fin fs) as [[[fe [[fxb kx]|]] r]|];
    repeat apply R_add_edge_k; auto.
Qed.
Lemma R_v_break n st fx i X : R n st X -> R n st (v_break fx i X).
Proof.
  intros H. unfold v_break. destruct (loops X); auto. destruct (cur X); auto.
  apply R_set_cur_none. destruct fx; [now apply R_chain_edges|now apply R_jump_loop_asis].
Qed.
Lemma R_v_return n st fx X : R n st X -> R n st (v_return fx X).
Proof.
  intros H. unfold v_return. destruct (cur X); auto.
  apply R_set_cur_none. destruct fx; [now apply R_chain_edges|now apply R_jump_ret_asis].
Qed.
Lemma R_v_raise n st X : R n st X -> R n st (v_raise X).
Proof.
  intros H. unfold v_raise. destruct (cur X); auto.
  apply R_set_cur_none. destruct (excs X); auto. now apply R_add_edge.
Qed.

Create HintDb bstep discriminated.
#[export] Hint Resolve R_set_cur_none R_newblock R_add_edge_k R_add_edge R_add_edge_o R_link_cur
  R_nextblock_from R_nextblock R_append R_exc_edge R_v_ref R_v_asg R_v_del R_refs R_asgs
  R_push_loop R_pop_loop R_push_exc R_pop_exc R_push_loop_exc R_pop_loop_exc
  R_v_break R_v_return R_v_raise : bstep.

(* [grows X Y]: Y is obtained from X by steps that make no block of X current *)
Definition grows (X Y : bst) : Prop := forall n Z, R n Z X -> R n Z Y.
Definition step (f : bst -> bst) : Prop := forall X n Z, R n Z X -> R n Z (f X).
#[export] Hint Unfold grows : bstep.

Lemma grows_R n X Y : grows X Y -> inv X -> n <= nb X -> R n X Y.
Proof. intros G Hi Hn. apply G, R_refl; auto. Qed.

Lemma R_set_cur_fresh n Z X Y c : c = nb X -> R n Z X -> grows (newblock X) Y ->
  R n Z (set_cur (Some c) Y).
Proof.
  intros -> H G. pose proof (R_newblock _ _ _ H) as H1. destruct (R_nb _ _ _ H) as [_ Hn].
  destruct (R_nb _ _ _ (grows_R (S (nb X)) _ _ G (R_inv _ _ _ H1) (le_n _))) as [Hlt _].
  apply R_set_cur_some; [exact Hn|exact Hlt|apply G, H1].
Qed.
Lemma R_cur_if_parents_fresh n Z X Y c : c = nb X -> R n Z X -> grows (newblock X) Y ->
  R n Z (cur_if_parents c Y).
Proof.
  intros E H G. unfold cur_if_parents. destruct (has_parents c Y).
  - now apply (R_set_cur_fresh n Z X). - apply R_set_cur_none, G, R_newblock, H.
Qed.

(* the successive states of the builder inside one construct *)
Fixpoint linked (X : bst) (l : list bst) : Prop :=
  match l with [] => True | Y :: r => grows X Y /\ linked Y r end.
Fixpoint final (X : bst) (l : list bst) : bst :=
  match l with [] => X | Y :: r => final Y r end.

Lemma linked_grows l : forall X, linked X l -> grows X (final X l).
Proof.
  induction l as [|Y r IH]; intros X H n Z HZ; [exact HZ|].
  destruct H as [G L]. exact (IH Y L n Z (G n Z HZ)).
Qed.
Lemma linked_prefix l1 l2 : forall X, linked X (l1 ++ l2) -> linked X l1.
Proof. induction l1 as [|Y r IH]; intros X H; [exact I|]. destruct H as [G L]. split; auto. Qed.
Lemma linked_from l1 Y l2 : forall X, linked X (l1 ++ Y :: l2) -> linked Y l2.
Proof. induction l1 as [|Y' r IH]; intros X [G L]; [exact L|exact (IH _ L)]. Qed.

Fixpoint each (Q : bst -> Prop) (l : list bst) : Prop :=
  match l with [] => True | Y :: r => Q Y /\ each Q r end.
Lemma linked_each g l : forall X, inv X -> linked X l -> ext (final X l) g ->
  ext X g /\ each (fun Y => inv Y /\ ext Y g) l.
Proof.
  induction l as [|Y r IH]; intros X Hi H He; [split; [exact He|exact I]|].
  destruct H as [G L]. pose proof (grows_R 0 X Y G Hi (Nat.le_0_l _)) as HR.
  destruct (IH Y (R_inv _ _ _ HR) L He) as [EY A].
  split; [exact (ext_trans _ _ _ (R_ext _ _ _ HR) EY)|]. split; [split|]; auto. exact (R_inv _ _ _ HR).
Qed.
Lemma linked_incl l : forall X, inv X -> linked X l -> incl (eds X) (eds (final X l)).
Proof.
  intros X Hi L. exact (proj2 (R_ext _ _ _ (grows_R 0 _ _ (linked_grows l X L) Hi (Nat.le_0_l _)))).
Qed.

Lemma fresh_empty X Y : inv X -> R (S (nb X)) (newblock X) Y -> len Y (nb X) = 0.
Proof.
  intros Hi H. rewrite (R_len _ _ _ (nb X) H); [exact (len_fresh X _ Hi (le_n _))|apply le_n|].
  intros E. apply (proj2 Hi) in E. simpl in E. lia.
Qed.

Definition ceq (X Y : bst) : Prop := loops Y = loops X /\ excs Y = excs X.
Lemma ceq_refl X : ceq X X. Proof. split; reflexivity. Qed.
Lemma ceq_of X Y : loops Y = loops X -> excs Y = excs X -> ceq X Y.
Proof. split; auto. Qed.

Definition keeps (f : bst -> bst) : Prop := forall a X, ceq a X -> ceq a (f X).

Lemma ceq_same a X X' : loops X' = loops X -> excs X' = excs X -> ceq a X -> ceq a X'.
Proof. intros A B [C D]. split; congruence. Qed.

Lemma ceq_set_cur a c X : ceq a X -> ceq a (set_cur c X).
Proof. apply ceq_same; reflexivity. Qed.
Lemma ceq_newblock a X : ceq a X -> ceq a (newblock X).
Proof. apply ceq_same; reflexivity. Qed.
Lemma ceq_add_edge_k a u k v X : ceq a X -> ceq a (add_edge_k u k v X).
Proof. apply ceq_same; reflexivity. Qed.
Lemma ceq_add_edge a u v X : ceq a X -> ceq a (add_edge u v X).
Proof. apply ceq_same; reflexivity. Qed.
Lemma ceq_add_edge_o a u v X : ceq a X -> ceq a (add_edge_o u v X).
Proof. destruct u; apply ceq_same; reflexivity. Qed.
Lemma ceq_link_cur a v X : ceq a X -> ceq a (link_cur v X).
Proof. apply ceq_add_edge_o. Qed.
Lemma ceq_cur_if_parents a v X : ceq a X -> ceq a (cur_if_parents v X).
Proof. apply ceq_same; reflexivity. Qed.
Lemma ceq_nextblock_from a p X : ceq a X -> ceq a (nextblock_from p X).
Proof.
  intros H. apply ceq_set_cur. destruct p; [apply ceq_add_edge|apply ceq_link_cur]; apply ceq_newblock, H.
Qed.
Lemma ceq_nextblock a X : ceq a X -> ceq a (nextblock X).
Proof. apply ceq_nextblock_from. Qed.
Lemma ceq_append a s X : ceq a X -> ceq a (append s X).
Proof. unfold append. destruct (cur X); auto. Qed.
Lemma ceq_v_ref a l e X : ceq a X -> ceq a (v_ref l e X).
Proof. apply ceq_append. Qed.
Lemma ceq_exc_edge a X : ceq a X -> ceq a (exc_edge X).
Proof.
  intros H. unfold exc_edge. destruct (cur X); auto. destruct (excs X) eqn:E; auto.
  now apply ceq_nextblock, ceq_add_edge.
Qed.
Lemma ceq_v_asg a l e X : ceq a X -> ceq a (v_asg l e X).
Proof. intros H. unfold v_asg. destruct (cur X); auto. now apply ceq_exc_edge, ceq_append, ceq_exc_edge. Qed.
Lemma ceq_v_del a l e i X : ceq a X -> ceq a (v_del l e i X).
Proof.
  intros H. unfold v_del. destruct (cur X); auto. apply ceq_exc_edge, ceq_append.
  destruct i; auto. now apply ceq_append.
Qed.
Lemma ceq_refs a c : forall X, ceq a X -> ceq a (refs c X).
Proof. induction c as [|r c IH]; intros X H; simpl; auto. apply IH, ceq_v_ref, H. Qed.
Lemma ceq_asgs a c : forall X, ceq a X -> ceq a (asgs c X).
Proof. induction c as [|r c IH]; intros X H; simpl; auto. apply IH, ceq_v_asg, H. Qed.
Lemma ceq_chain_edges a fs T : forall src k X, ceq a X -> ceq a (chain_edges src k fs T X).
Proof.
  induction fs as [|x r IH]; intros src k X H; simpl; [now apply ceq_add_edge_k|].
  destruct (x_fin x) as [[fe [[fxb kx]|]]|]; auto.
Qed.
Lemma ceq_v_break a fx i X : ceq a X -> ceq a (v_break fx i X).
Proof.
  intros H. unfold v_break. destruct (loops X) eqn:E; auto. destruct (cur X); auto.
  apply ceq_set_cur. destruct fx; [now apply ceq_chain_edges|].
  unfold jump_loop_asis. destruct (l_excs l) as [|x r]; auto.
  destruct (x_fin x) as [[fe [[fxb kx]|]]|]; auto.
Qed.
Lemma ceq_v_return a fx X : ceq a X -> ceq a (v_return fx X).
Proof.
  intros H. unfold v_return. destruct (cur X); auto. apply ceq_set_cur.
  destruct fx; [now apply ceq_chain_edges|].
  unfold jump_ret_asis. destruct (first_fin (excs X)) as [[[fe [[fxb kx]|]] r]|]; auto.
Qed.
Lemma ceq_v_raise a X : ceq a X -> ceq a (v_raise X).
Proof. intros H. unfold v_raise. destruct (cur X); auto. destruct (excs X) eqn:E; auto. Qed.

Create HintDb bkeep discriminated.
#[export] Hint Resolve ceq_refl ceq_set_cur ceq_newblock ceq_add_edge_k ceq_add_edge ceq_add_edge_o
  ceq_link_cur ceq_cur_if_parents ceq_nextblock_from ceq_nextblock ceq_append ceq_v_ref ceq_exc_edge
  ceq_v_asg ceq_v_del ceq_refs ceq_asgs ceq_v_break ceq_v_return ceq_v_raise : bkeep.

(* a sub-visit between a push and the matching pop *)
Lemma ceq_pop_loop a d X W : ceq a X -> ceq (push_loop d X) W -> ceq a (pop_loop W).
Proof. intros [A B] [C D]. split; simpl; [rewrite C|rewrite D]; auto. Qed.
Lemma ceq_pop_exc a d X W : ceq a X -> ceq (push_exc d X) W -> ceq a (pop_exc W).
Proof. intros [A B] [C D]. split; simpl; [rewrite C|rewrite D]; auto. Qed.
Lemma excs_pop_loop_exc Z : excs (pop_loop_exc Z) = excs Z.
Proof. unfold pop_loop_exc. destruct (loops Z); reflexivity. Qed.
Lemma excs_push_loop_exc d Z : excs (push_loop_exc d Z) = excs Z.
Proof. unfold push_loop_exc. destruct (loops Z); reflexivity. Qed.
Lemma pop_push_loop_exc d X Z :
  loops Z = loops (push_loop_exc d X) -> loops (pop_loop_exc Z) = loops X.
Proof.
  unfold push_loop_exc, pop_loop_exc. destruct (loops X) as [|L r] eqn:E; intros H.
  - rewrite E in H. rewrite H. exact H.
  - simpl in H. rewrite H. simpl. destruct L; reflexivity.
Qed.
Lemma ceq_pop_both a d X W :
  ceq a X -> ceq (push_exc d (push_loop_exc d X)) W -> ceq a (pop_loop_exc (pop_exc W)).
Proof.
  intros [A B] [C D]. split.
  - rewrite (pop_push_loop_exc d X); [exact A|exact C].
  - rewrite excs_pop_loop_exc. simpl. rewrite D. simpl. now rewrite excs_push_loop_exc.
Qed.

(* Each compound statement is built by a function of the builders of its parts ([b_if], [b_loop],
   ...), cut into the states that the simulation has to look at.  What is proved about a construct
   is proved for arbitrary builders of the parts, so that [visit] itself is unfolded only in the
   equations [visit_If] ... [visit_TryFin] below. *)
Section SeqBuild.
  Variables (va vb : bst -> bst).
  Definition b_seq (st : bst) : bst :=
    match cur (va st) with None => va st | Some _ => vb (va st) end.
  Lemma step_seq : step va -> step vb -> step b_seq.
  Proof. intros Ha Hb X n Z H. unfold b_seq. destruct (cur (va X)); [apply Hb|]; apply Ha, H. Qed.
  Lemma keeps_seq : keeps va -> keeps vb -> keeps b_seq.
  Proof. intros Ha Hb a X H. unfold b_seq. destruct (cur (va X)); auto. Qed.
End SeqBuild.

Section IfBuild.
  Variables (c : list nref) (vt : bst -> bst) (hasel : bool) (ve : bst -> bst) (st : bst).
  Definition if2 := nextblock (newblock st).
  Definition if3 := refs c if2.
  Definition if4 := nextblock if3.
  Definition if5 := vt if4.
  Definition if6 := link_cur (nb st) if5.
  Definition if7 := if hasel then link_cur (nb st) (ve (nextblock_from (cur if3) if6))
                    else add_edge_o (cur if3) (nb st) if6.
  Definition b_if := cur_if_parents (nb st) if7.

  Lemma if_links : step vt -> step ve -> linked st [newblock st; if2; if3; if4; if5; if6; if7].
  Proof.
    intros Ht He. repeat apply conj; [..|exact I]; intros n Z H; unfold if2, if3, if4, if5, if6, if7;
      [| | | | | |destruct hasel]; auto 6 with bstep.
  Qed.
  Lemma if_step : step vt -> step ve -> grows st b_if.
  Proof.
    intros Ht He n Z H. destruct (if_links Ht He) as [_ L].
    exact (R_cur_if_parents_fresh n Z st if7 _ eq_refl H (linked_grows [if2; if3; if4; if5; if6; if7] _ L)).
  Qed.
  Lemma if_keeps : keeps vt -> keeps ve -> forall a, ceq a st -> ceq a b_if.
  Proof.
    intros Ht He a H. unfold b_if, if7, if6, if5, if4, if3, if2. destruct hasel; auto 12 with bkeep.
  Qed.
End IfBuild.

Section LoopBuild.
  Variables (isfor : bool) (c tg : list nref) (vb : bst -> bst) (hasel : bool) (ve : bst -> bst).
  Variable st : bst.
  Definition lp2 := newblock (nextblock st).
  Definition lp3 := push_loop (mk_loopd (S (nb st)) (nb st) []) lp2.
  Definition lp4 := refs c lp3.
  Definition lp5 := nextblock lp4.
  Definition lp6 := if isfor then nextblock (asgs tg lp5) else lp5.
  Definition lp7v := vb lp6.
  Definition lp7 := pop_loop lp7v.
  Definition lp8 := match cur lp7 with
                    | Some b => let s1 := add_edge b (nb st) lp7 in
                                if isfor then s1 else add_edge b (S (nb st)) s1
                    | None => lp7 end.
  Definition lp9 := if hasel then link_cur (S (nb st)) (ve (nextblock_from (cur lp4) lp8))
                    else add_edge_o (cur lp4) (S (nb st)) lp8.
  Definition b_loop := cur_if_parents (S (nb st)) lp9.

  Lemma lp_links : step vb -> step ve ->
    linked st [nextblock st; lp2; lp3; lp4; lp5; lp6; lp7v; lp7; lp8; lp9].
  Proof.
    intros Hb He. repeat apply conj; [..|exact I]; intros n Z H;
      unfold lp2, lp3, lp4, lp5, lp6, lp7v, lp7, lp8, lp9;
      [| | | | |destruct isfor| | |destruct (cur lp7); [destruct isfor|]|destruct hasel];
      auto 6 with bstep.
  Qed.
  Lemma lp_step : step vb -> step ve -> grows st b_loop.
  Proof.
    intros Hb He n Z H. destruct (lp_links Hb He) as (G & _ & L).
    exact (R_cur_if_parents_fresh n Z (nextblock st) lp9 _ (eq_sym (nb_nextblock st)) (G n Z H)
             (linked_grows [lp3; lp4; lp5; lp6; lp7v; lp7; lp8; lp9] _ L)).
  Qed.
  Lemma lp_keeps : keeps vb -> keeps ve -> forall a, ceq a st -> ceq a b_loop.
  Proof.
    intros Hb He a H.
    assert (H8 : ceq a lp8).
    { assert (H7 : ceq a lp7).
      { apply (ceq_pop_loop a (mk_loopd (S (nb st)) (nb st) []) lp2); [unfold lp2; auto with bkeep|].
        unfold lp7v, lp6, lp5, lp4, lp3. destruct isfor; auto 8 with bkeep. }
      unfold lp8. destruct (cur lp7); [destruct isfor|]; auto with bkeep. }
    unfold b_loop, lp9. destruct hasel; auto 8 with bkeep.
  Qed.
End LoopBuild.

(* except clauses: a visitor returns the entry block of the last clause with the state *)
Definition hvisitor := nat -> nat -> bst -> nat * bst.
Definition step_h (vh : hvisitor) : Prop := forall N E X n Z, n <= E -> E < nb X -> R n Z X ->
  R n Z (snd (vh N E X)) /\ n <= fst (vh N E X) /\ fst (vh N E X) < nb (snd (vh N E X)).
Definition keeps_h (vh : hvisitor) : Prop := forall N E a X, ceq a X -> ceq a (snd (vh N E X)).

Section HandlerBuild.
  Variables (hastg : bool) (tl te : nat) (vb : bst -> bst) (vr : hvisitor) (N E : nat) (st : bst).
  Definition hc1 := set_cur (Some E) st.
  Definition hc3 := add_edge E (nb st) (newblock hc1).
  Definition hc4 := nextblock hc3.
  Definition hc5 := if hastg then v_asg tl te hc4 else hc4.
  Definition hc6 := link_cur N (vb hc5).
  Definition b_hcons := vr N (nb st) hc6.

  Lemma hc_links : step vb -> linked hc1 [newblock hc1; hc3; hc4; hc5; hc6].
  Proof.
    intros Hb. repeat apply conj; [..|exact I]; intros n Z H; unfold hc3, hc4, hc5, hc6;
      [| | |destruct hastg|]; auto with bstep.
  Qed.
  Lemma hc_step : step vb -> step_h vr -> forall n Z, n <= E -> E < nb st -> R n Z st ->
    R n Z (snd b_hcons) /\ n <= fst b_hcons /\ fst b_hcons < nb (snd b_hcons).
  Proof.
    intros Hb Hr n Z H1 H2 H. pose proof (R_set_cur_some _ _ _ _ H1 H2 H) as R1.
    destruct (hc_links Hb) as [G L].
    pose proof (linked_grows [hc3; hc4; hc5; hc6] _ L) as G6.
    destruct (R_nb _ _ _ (grows_R (S (nb st)) _ _ G6 (R_inv _ _ _ (G n Z R1)) (le_n _))) as [Hlt _].
    destruct (R_nb _ _ _ H) as [_ Hn].
    apply Hr; [exact Hn|exact Hlt|exact (G6 n Z (G n Z R1))].
  Qed.
  Lemma hc_keeps : keeps vb -> keeps_h vr -> forall a, ceq a st -> ceq a (snd b_hcons).
  Proof.
    intros Hb Hr a H. apply Hr. unfold hc6, hc5, hc4, hc3, hc1. destruct hastg; auto 8 with bkeep.
  Qed.
End HandlerBuild.

Section TryBuild.
  Variables (vb : bst -> bst) (hasel : bool) (ve : bst -> bst) (vh : hvisitor) (st : bst).
  Definition try3 := newblock (newblock (newblock st)).
  Definition try5 := nextblock (push_exc (mk_excd (S (S (nb st))) None) try3).
  Definition try6 := nextblock (link_cur (S (S (nb st))) try5).
  Definition try7v := vb try6.
  Definition try7 := pop_exc try7v.
  Definition try8 := match cur try7 with
                     | None => try7
                     | Some _ => link_cur (nb st) (if hasel then ve (nextblock try7) else try7)
                     end.
  Definition try9 := vh (nb st) (S (S (nb st))) try8.
  Definition try10 := match excs (snd try9) with
                      | x :: _ => add_edge (fst try9) (x_entry x) (snd try9)
                      | [] => snd try9 end.
  Definition b_try := cur_if_parents (nb st) try10.

  Lemma try_links : step vb -> step ve ->
    linked st [newblock st; newblock (newblock st); try3; try5; try6; try7v; try7; try8].
  Proof.
    intros Hb He. repeat apply conj; [..|exact I]; intros n Z H;
      unfold try3, try5, try6, try7v, try7, try8;
      [| | | | | | |destruct (cur try7); [destruct hasel|]]; auto 6 with bstep.
  Qed.
  (* the handlers start in the block allocated third *)
  Lemma try_links9 : step vb -> step ve -> step_h vh -> forall n Z, n <= S (nb st) ->
    R n Z (newblock st) -> R n Z (snd try9) /\ fst try9 < nb (snd try9).
  Proof.
    intros Hb He Hh n Z Hn H. destruct (try_links Hb He) as (_ & G2 & G3 & L).
    pose proof (linked_grows [try5; try6; try7v; try7; try8] _ L) as G8.
    pose proof (G3 n Z (G2 n Z H)) as H3.
    destruct (R_nb _ _ _ (grows_R (S (S (S (nb st)))) _ _ G8 (R_inv _ _ _ H3) (le_n _))) as [Hlt _].
    destruct (Hh (nb st) (S (S (nb st))) try8 n Z) as (A & _ & B);
      [exact (le_S _ _ Hn)|exact Hlt|exact (G8 n Z H3)|split; assumption].
  Qed.
  Lemma try_step : step vb -> step ve -> step_h vh -> grows st b_try.
  Proof.
    intros Hb He Hh n Z H. apply (R_cur_if_parents_fresh n Z st); [reflexivity|exact H|].
    intros m W HW. destruct (R_nb _ _ _ HW) as [_ Hm].
    destruct (try_links9 Hb He Hh m W Hm HW) as [A B].
    unfold try10. destruct (excs (snd try9)); auto with bstep.
  Qed.
  Lemma try_keeps : keeps vb -> keeps ve -> keeps_h vh -> forall a, ceq a st -> ceq a b_try.
  Proof.
    intros Hb He Hh a H.
    assert (H7 : ceq a try7).
    { apply (ceq_pop_exc a (mk_excd (S (S (nb st))) None) try3); [unfold try3; auto with bkeep|].
      unfold try7v, try6, try5. auto 8 with bkeep. }
    assert (H9 : ceq a (snd try9)).
    { apply Hh. unfold try8. destruct (cur try7); [destruct hasel|]; auto with bkeep. }
    unfold b_try, try10. destruct (excs (snd try9)) eqn:E; auto with bkeep.
  Qed.
End TryBuild.

Section TryFinBuild.
  Variables (fx : bool) (vb ve vn : bst -> bst) (st : bst).
  Definition tf1 := set_cur (Some (S (nb st))) (newblock (nextblock st)).
  Definition tf2 := if fx then exc_edge tf1 else tf1.
  Definition tf3 := ve tf2.
  Definition tf4 := match cur tf3, excs tf3 with
                    | Some b, x :: _ => add_edge b (x_entry x) tf3
                    | _, _ => tf3 end.
  Definition tf5 := set_cur (Some (nb tf4)) (newblock tf4).
  Definition tf6 := vn tf5.
  Definition tf_exit := match cur tf6 with Some b => Some (b, len tf6 b) | None => None end.
  Definition tf_d := mk_excd (S (nb st)) (Some (nb tf4, tf_exit)).
  Definition tf7 := push_exc tf_d (push_loop_exc tf_d tf6).
  Definition tf8 := nextblock (add_edge (nb st) (S (nb st)) (set_cur (Some (nb st)) tf7)).
  Definition tf9v := vb tf8.
  Definition tf9 := pop_loop_exc (pop_exc tf9v).
  Definition b_tryfin :=
    match cur tf9 with
    | Some b =>
        let s1 := add_edge b (nb tf4) tf9 in
        match tf_exit with
        | Some (fxb, k) => set_cur (Some (nb s1)) (add_edge_k fxb k (nb s1) (newblock s1))
        | None => set_cur None s1
        end
    | None => tf9
    end.

  Lemma tf_links : step ve -> step vn -> linked st [nextblock st; tf1; tf2; tf3; tf4; tf5; tf6; tf7].
  Proof.
    intros He Hn. repeat apply conj; [..|exact I]; intros n Z H; unfold tf2, tf3, tf4, tf6, tf7.
    - auto with bstep.
    - exact (R_set_cur_fresh n Z (nextblock st) _ _ (eq_sym (nb_nextblock st)) H (fun _ _ A => A)).
    - destruct fx; auto with bstep.
    - apply He, H.
    - destruct (cur tf3); [destruct (excs tf3)|]; auto with bstep.
    - exact (R_set_cur_fresh n Z tf4 _ _ eq_refl H (fun _ _ A => A)).
    - apply Hn, H.
    - auto with bstep.
  Qed.
  (* the block of the try body was allocated first and is entered only now *)
  Lemma tf_link78 : step ve -> step vn -> inv st -> forall n Z, n <= nb st -> R n Z tf7 -> R n Z tf8.
  Proof.
    intros He Hn Hi n Z Hle H. destruct (tf_links He Hn) as [G L].
    pose proof (grows_R 0 _ _ G Hi (Nat.le_0_l _)) as H1.
    destruct (R_nb _ _ _ (grows_R (nb (nextblock st)) _ _
      (linked_grows [tf1; tf2; tf3; tf4; tf5; tf6; tf7] _ L) (R_inv _ _ _ H1) (le_n _))) as [Hlt _].
    rewrite nb_nextblock in Hlt.
    apply R_nextblock, R_add_edge, R_set_cur_some; [exact Hle|exact Hlt|exact H].
  Qed.
  Lemma tf_links9 : step vb -> linked tf8 [tf9v; tf9; b_tryfin].
  Proof.
    intros Hb. repeat apply conj; [..|exact I]; intros n Z H; unfold tf9v, tf9, b_tryfin.
    - apply Hb, H.
    - auto with bstep.
    - destruct (cur tf9) as [b|]; [|exact H]. cbv zeta. destruct tf_exit as [[fxb k]|]; [|auto with bstep].
      apply (R_set_cur_fresh n Z (add_edge b (nb tf4) tf9)); [reflexivity|auto with bstep|].
      intros m W HW. auto with bstep.
  Qed.
  Lemma tf_step : step vb -> step ve -> step vn -> grows st b_tryfin.
  Proof.
    intros Hb He Hn n Z H. destruct (R_nb _ _ _ H) as [_ Hle].
    apply (linked_grows _ _ (tf_links9 Hb)), (tf_link78 He Hn (R_inv _ _ _ H) n Z Hle),
      (linked_grows _ _ (tf_links He Hn)), H.
  Qed.
  Lemma tf_keeps : keeps vb -> keeps ve -> keeps vn -> forall a, ceq a st -> ceq a b_tryfin.
  Proof.
    intros Hb He Hn a H.
    assert (H6 : ceq a tf6).
    { apply Hn, ceq_set_cur, ceq_newblock. unfold tf4.
      assert (H3 : ceq a tf3) by (apply He; unfold tf2, tf1; destruct fx; auto with bkeep).
      destruct (cur tf3); [destruct (excs tf3)|]; auto with bkeep. }
    assert (H9 : ceq a tf9).
    { apply (ceq_pop_both a tf_d tf6 tf9v H6). unfold tf9v, tf8. auto 6 with bkeep. }
    unfold b_tryfin. destruct (cur tf9); [|exact H9]. cbv zeta.
    destruct tf_exit as [[fxb k]|]; auto 6 with bkeep.
  Qed.
End TryFinBuild.

(* [visit] on a compound statement.  The kernel compares each recursive call of the unfolded fixpoint
   with the constant [visit] by unfolding the constant, once for every occurrence after the lets are
   expanded; with the builder unfolded completely and the sides in this order that is done a few
   hundred times for try/finally, in the other order or with some of the states left folded many
   times more (minutes instead of seconds). *)
Lemma visit_Seq fx a b st : visit fx (Seq a b) st = b_seq (visit fx a) (visit fx b) st.
Proof. reflexivity. Qed.
Lemma visit_If fx c th hasel el st :
  visit fx (If c th hasel el) st = b_if c (visit fx th) hasel (visit fx el) st.
Proof. unfold b_if, if7, if6, if5, if4, if3, if2. symmetry. exact eq_refl. Qed.
Lemma visit_Loop fx isfor c tg body hasel el st :
  visit fx (Loop isfor c tg body hasel el) st = b_loop isfor c tg (visit fx body) hasel (visit fx el) st.
Proof. unfold b_loop, lp9, lp8, lp7, lp7v, lp6, lp5, lp4, lp3, lp2. symmetry. exact eq_refl. Qed.
Lemma visit_HCons fx hastg tl te hb rest N E st :
  visit_h fx (HCons hastg tl te hb rest) N E st = b_hcons hastg tl te (visit fx hb) (visit_h fx rest) N E st.
Proof. unfold b_hcons, hc6, hc5, hc4, hc3, hc1. symmetry. exact eq_refl. Qed.
Lemma visit_Try fx body hasel el hs st :
  visit fx (Try body hasel el hs) st = b_try (visit fx body) hasel (visit fx el) (visit_h fx hs) st.
Proof.
  transitivity (let '(E', st9) := try9 (visit fx body) hasel (visit fx el) (visit_h fx hs) st in
                cur_if_parents (nb st) match excs st9 with
                                       | x :: _ => add_edge E' (x_entry x) st9
                                       | [] => st9 end).
  - unfold try9, try8, try7, try7v, try6, try5, try3. symmetry. exact eq_refl.
  - unfold b_try, try10. destruct try9. reflexivity.
Qed.
Lemma visit_TryFin fx body fexc fnorm st :
  visit fx (TryFin body fexc fnorm) st = b_tryfin fx (visit fx body) (visit fx fexc) (visit fx fnorm) st.
Proof.
  unfold b_tryfin, tf9, tf9v, tf8, tf7, tf_d, tf_exit, tf6, tf5, tf4, tf3, tf2, tf1. symmetry.
  exact eq_refl.
Qed.

Scheme stmt_mut := Induction for stmt Sort Prop
  with handlers_mut := Induction for handlers Sort Prop.
Combined Scheme stmt_handlers_mut from stmt_mut, handlers_mut.

Theorem visit_step_keeps fx :
  (forall s, step (visit fx s) /\ keeps (visit fx s)) /\
  (forall hs, step_h (visit_h fx hs) /\ keeps_h (visit_h fx hs)).
Proof.
  apply stmt_handlers_mut.
  - split; [intros X n Z H|intros a X H]; exact H.
  - split; [intros X n Z H|intros a X H]; exact H.
  - split; [intros X n Z H|intros a X H]; simpl; auto with bstep bkeep.
  - split; [intros X n Z H|intros a X H]; simpl; auto with bstep bkeep.
  - split; [intros X n Z H|intros a X H]; simpl; auto with bstep bkeep.
  - intros a [Sa Ka] b [Sb Kb]. split; [intros X n Z H|intros a0 X H]; rewrite visit_Seq.
    + now apply step_seq. + now apply keeps_seq.
  - intros c th [St Kt] hasel el [Se Ke]. split; [intros X n Z H|intros a X H]; rewrite visit_If.
    + now apply if_step. + now apply if_keeps.
  - intros isfor c tg body [Sb Kb] hasel el [Se Ke].
    split; [intros X n Z H|intros a X H]; rewrite visit_Loop.
    + now apply lp_step. + now apply lp_keeps.
  - intros body [Sb Kb] hasel el [Se Ke] hs [Sh Kh].
    split; [intros X n Z H|intros a X H]; rewrite visit_Try.
    + now apply try_step. + now apply try_keeps.
  - intros body [Sb Kb] fexc [Se Ke] fnorm [Sn Kn].
    split; [intros X n Z H|intros a X H]; rewrite visit_TryFin.
    + now apply tf_step. + now apply tf_keeps.
  - split; [intros X n Z H|intros a X H]; simpl; auto with bstep bkeep.
  - split; [intros X n Z H|intros a X H]; simpl; auto with bstep bkeep.
  - split; [intros X n Z H|intros a X H]; simpl; auto with bstep bkeep.
  - split; [intros X n Z H|intros a X H]; simpl; auto with bstep bkeep.
  - split; [intros N E X n Z H1 H2 H|intros N E a X H]; simpl; auto.
  - intros hastg tl te hb [Sb Kb] rest [Sr Kr].
    split; [intros N E X n Z|intros N E a X]; rewrite visit_HCons.
    + now apply hc_step. + now apply hc_keeps.
Qed.

Lemma visit_R fx s n Z X : R n Z X -> R n Z (visit fx s X).
Proof. apply (proj1 (visit_step_keeps fx)). Qed.
Lemma visit_keeps fx s a X : ceq a X -> ceq a (visit fx s X).
Proof. apply (proj1 (visit_step_keeps fx)). Qed.
Lemma visit_ceq fx s X : ceq X (visit fx s X).
Proof. apply visit_keeps, ceq_refl. Qed.
Lemma visit_h_R fx hs N E X n Z : n <= E -> E < nb X -> R n Z X ->
  R n Z (snd (visit_h fx hs N E X)) /\ n <= fst (visit_h fx hs N E X) /\
  fst (visit_h fx hs N E X) < nb (snd (visit_h fx hs N E X)).
Proof. apply (proj2 (visit_step_keeps fx)). Qed.
Lemma visit_h_keeps fx hs N E a X : ceq a X -> ceq a (snd (visit_h fx hs N E X)).
Proof. apply (proj2 (visit_step_keeps fx)). Qed.
#[export] Hint Resolve visit_R : bstep.
#[export] Hint Resolve visit_keeps visit_h_keeps : bkeep.
