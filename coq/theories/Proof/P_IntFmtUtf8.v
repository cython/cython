(* Proofs about Model/M_IntFmt.v, part 3: the byte-level model of
   __Pyx_PyUnicode_FromOrdinal_Padded - the UTF-8 encoding branches, the strict decoder, the
   256-byte buffer - and its refinement of the abstract from_ordinal_padded; the reference table
   utf8_ref against the decoder on whole strings (what C33's codec rests on). *)
From Coq Require Import ZArith List Bool Lia ZifyBool ZifyNat.
From CyVerif Require Import Lib.CInt Model.M_IntFmt Proof.P_IntFmtDigits Proof.P_IntFmt.
Import ListNotations.
Open Scope Z_scope.
Ltac Zify.zify_post_hook ::= Z.to_euclidean_division_equations.

(* ---------- bit operations of the encoder as arithmetic ---------- *)
Lemma lor_disjoint h k x : 0 <= k -> 0 <= x < 2 ^ k -> Z.lor (h * 2 ^ k) x = h * 2 ^ k + x.
Proof.
  intros Hk Hx.
  assert (D : Z.land (h * 2 ^ k) x = 0).
  { apply Z.bits_inj'. intros n Hn. rewrite Z.land_spec, Z.bits_0.
    destruct (Z.ltb_spec n k) as [L|G].
    - rewrite <- Z.shiftl_mul_pow2 by assumption. rewrite Z.shiftl_spec_low by assumption. reflexivity.
    - rewrite <- (Z.mod_small x (2 ^ k)) by assumption.
      rewrite Z.mod_pow2_bits_high by (split; assumption). apply andb_false_r. }
  rewrite <- Z.lxor_lor by exact D. symmetry. apply Z.add_nocarry_lxor, D.
Qed.

Lemma land_mask v k : 0 <= k -> Z.land v (2 ^ k - 1) = v mod 2 ^ k.
Proof. intros Hk. rewrite <- Z.land_ones by assumption. rewrite Z.ones_equiv. reflexivity. Qed.

(* (char)(h << k | (v & mask_k)): the marker bits above, k bits of v below *)
Lemma marked_byte h k v : 0 <= k -> 0 <= h -> (h + 1) * 2 ^ k <= 256 ->
  cchar (Z.lor (h * 2 ^ k) (Z.land v (2 ^ k - 1))) = h * 2 ^ k + v mod 2 ^ k.
Proof.
  intros Hk Hh Hb. pose proof (Z.mod_pos_bound v (2 ^ k) (pow2_pos k Hk)) as Hm.
  rewrite land_mask, lor_disjoint by assumption. apply Z.mod_small. nia.
Qed.

Lemma cont_byte v : cchar (Z.lor 128 (Z.land v 63)) = 128 + v mod 64.
Proof. apply (marked_byte 2 6); lia. Qed.
Lemma lead2_byte v : cchar (Z.lor 192 (Z.land v 31)) = 192 + v mod 32.
Proof. apply (marked_byte 6 5); lia. Qed.
Lemma lead3_byte v : cchar (Z.lor 224 (Z.land v 15)) = 224 + v mod 16.
Proof. apply (marked_byte 14 4); lia. Qed.
Lemma lead4_byte v : cchar (Z.lor 240 (Z.land v 7)) = 240 + v mod 8.
Proof. apply (marked_byte 30 3); lia. Qed.
Lemma shr6 v : Z.shiftr v 6 = v / 64.
Proof. rewrite Z.shiftr_div_pow2 by lia. reflexivity. Qed.

(* the three branches, for every integer v (no range assumption: masks make them total) *)
Lemma enc2_eq v : enc2 v = [192 + (v / 64) mod 32; 128 + v mod 64].
Proof. unfold enc2. cbv zeta. rewrite cont_byte, lead2_byte, shr6. reflexivity. Qed.
Lemma enc3_eq v : enc3 v = [224 + (v / 64 / 64) mod 16; 128 + (v / 64) mod 64; 128 + v mod 64].
Proof. unfold enc3. cbv zeta. rewrite !cont_byte, lead3_byte, !shr6. reflexivity. Qed.
Lemma enc4_eq v :
  enc4 v = [240 + (v / 64 / 64 / 64) mod 8; 128 + (v / 64 / 64) mod 64; 128 + (v / 64) mod 64; 128 + v mod 64].
Proof. unfold enc4. cbv zeta. rewrite !cont_byte, lead4_byte, !shr6. reflexivity. Qed.

Lemma enc_length v : length (utf8_enc_c v) = if v <? 2048 then 2%nat else if v <? 65536 then 3%nat else 4%nat.
Proof.
  unfold utf8_enc_c, ENC2_LIMIT, ENC3_LIMIT. destruct (v <? 2048); [reflexivity|]. destruct (v <? 65536); reflexivity.
Qed.

Lemma enc_bytes v : Forall (fun b => 0 <= b <= 255) (utf8_enc_c v).
Proof.
  unfold utf8_enc_c, ENC2_LIMIT, ENC3_LIMIT. destruct (v <? 2048); [|destruct (v <? 65536)].
  - rewrite enc2_eq. repeat constructor; lia.
  - rewrite enc3_eq. repeat constructor; lia.
  - rewrite enc4_eq. repeat constructor; lia.
Qed.

(* ---------- one decoder step per sequence length ---------- *)
Lemma dec1 b r : 0 <= b < 128 -> utf8_decode (b :: r) = option_map (cons b) (utf8_decode r).
Proof. intros H. cbn [utf8_decode]. case_ifs; try lia. reflexivity. Qed.

Lemma dec2 b0 b1 r : 194 <= b0 < 224 -> 128 <= b1 <= 191 ->
  utf8_decode (b0 :: b1 :: r) = option_map (cons ((b0 - 192) * 64 + (b1 - 128))) (utf8_decode r).
Proof. intros H0 H1. cbn [utf8_decode]. unfold is_cont. case_ifs; try lia. reflexivity. Qed.

Lemma dec3 b0 b1 b2 r : 224 <= b0 < 240 -> 128 <= b1 <= 191 -> 128 <= b2 <= 191 ->
  utf8_decode (b0 :: b1 :: b2 :: r) =
    let cp := (b0 - 224) * 4096 + (b1 - 128) * 64 + (b2 - 128) in
    if (2048 <=? cp) && negb (is_surrogate cp) then option_map (cons cp) (utf8_decode r) else None.
Proof.
  intros H0 H1 H2. cbn [utf8_decode]. cbv zeta. unfold is_cont.
  replace ((b0 <? 0) || (255 <? b0)) with false by lia. replace (b0 <? 128) with false by lia.
  replace (b0 <? 194) with false by lia. replace (b0 <? 224) with false by lia.
  replace (b0 <? 240) with true by lia.
  replace ((128 <=? b1) && (b1 <=? 191)) with true by lia.
  replace ((128 <=? b2) && (b2 <=? 191)) with true by lia. reflexivity.
Qed.

Lemma dec4 b0 b1 b2 b3 r : 240 <= b0 <= 255 -> 128 <= b1 <= 191 -> 128 <= b2 <= 191 -> 128 <= b3 <= 191 ->
  utf8_decode (b0 :: b1 :: b2 :: b3 :: r) =
    let cp := (b0 - 240) * 262144 + (b1 - 128) * 4096 + (b2 - 128) * 64 + (b3 - 128) in
    if (b0 <? 245) && (65536 <=? cp) && (cp <=? 1114111) then option_map (cons cp) (utf8_decode r) else None.
Proof.
  intros H0 H1 H2 H3. cbn [utf8_decode]. cbv zeta. unfold is_cont.
  replace ((b0 <? 0) || (255 <? b0)) with false by lia. replace (b0 <? 128) with false by lia.
  replace (b0 <? 194) with false by lia. replace (b0 <? 224) with false by lia.
  replace (b0 <? 240) with false by lia.
  replace ((128 <=? b1) && (b1 <=? 191)) with true by lia.
  replace ((128 <=? b2) && (b2 <=? 191)) with true by lia.
  replace ((128 <=? b3) && (b3 <=? 191)) with true by lia.
  destruct (b0 <? 245); reflexivity.
Qed.

Lemma decode_ascii_prefix p l : Forall (fun b => 0 <= b < 128) p ->
  utf8_decode (p ++ l) = option_map (app p) (utf8_decode l).
Proof.
  induction 1 as [|b p Hb Hp IH]; cbn [app].
  - destruct (utf8_decode l); reflexivity.
  - rewrite dec1 by assumption. rewrite IH. destruct (utf8_decode l); reflexivity.
Qed.

(* what the decoder makes of the bytes of each branch, for EVERY v >= 0 the branch can be given *)
Lemma dec_enc2 v r : 128 <= v < 2048 ->
  utf8_decode (enc2 v ++ r) = option_map (cons v) (utf8_decode r).
Proof.
  intros H. rewrite enc2_eq. cbn [app]. rewrite dec2 by lia.
  replace ((192 + (v / 64) mod 32 - 192) * 64 + (128 + v mod 64 - 128)) with v by lia. reflexivity.
Qed.

Lemma dec_enc3 v r : 2048 <= v < 65536 ->
  utf8_decode (enc3 v ++ r) = if is_surrogate v then None else option_map (cons v) (utf8_decode r).
Proof.
  intros H. rewrite enc3_eq. cbn [app]. rewrite dec3 by lia. cbv zeta.
  replace ((224 + (v / 64 / 64) mod 16 - 224) * 4096 + (128 + (v / 64) mod 64 - 128) * 64 + (128 + v mod 64 - 128))
    with v by lia.
  replace (2048 <=? v) with true by lia. cbn [andb]. destruct (is_surrogate v); reflexivity.
Qed.

Lemma dec_enc4 v r : 65536 <= v ->
  utf8_decode (enc4 v ++ r) =
    let cp := v mod 2097152 in
    if (65536 <=? cp) && (cp <=? 1114111) then option_map (cons cp) (utf8_decode r) else None.
Proof.
  intros H. rewrite enc4_eq. cbn [app]. rewrite dec4 by lia. cbv zeta.
  replace ((240 + (v / 64 / 64 / 64) mod 8 - 240) * 262144 + (128 + (v / 64 / 64) mod 64 - 128) * 4096 +
           (128 + (v / 64) mod 64 - 128) * 64 + (128 + v mod 64 - 128)) with (v mod 2097152) by lia.
  destruct (240 + (v / 64 / 64 / 64) mod 8 <? 245) eqn:L; cbn [andb]; [reflexivity|].
  replace ((65536 <=? v mod 2097152) && (v mod 2097152 <=? 1114111)) with false by lia. reflexivity.
Qed.

(* decode (encode cp) = cp for every code point the C encoder is responsible for: all of
   U+0080..U+10FFFF except the surrogates; a tail r is decoded independently *)
Theorem utf8_roundtrip cp r : 128 <= cp <= 1114111 -> is_surrogate cp = false ->
  utf8_decode (utf8_enc_c cp ++ r) = option_map (cons cp) (utf8_decode r).
Proof.
  intros H S. unfold utf8_enc_c, ENC2_LIMIT, ENC3_LIMIT.
  destruct (Z.ltb_spec cp 2048); [apply dec_enc2; lia|].
  destruct (Z.ltb_spec cp 65536).
  - rewrite dec_enc3 by lia. rewrite S. reflexivity.
  - rewrite dec_enc4 by lia. cbv zeta. replace (cp mod 2097152) with cp by lia.
    replace ((65536 <=? cp) && (cp <=? 1114111)) with true by lia. reflexivity.
Qed.

(* the bytes are the RFC 3629 encoding *)
Theorem enc_is_utf8 cp : 128 <= cp <= 1114111 -> utf8_enc_c cp = utf8_ref cp.
Proof.
  intros H. unfold utf8_enc_c, utf8_ref, ENC2_LIMIT, ENC3_LIMIT.
  destruct (Z.ltb_spec cp 128); [lia|].
  destruct (Z.ltb_spec cp 2048).
  - rewrite enc2_eq. repeat (f_equal; try lia).
  - destruct (Z.ltb_spec cp 65536).
    + rewrite enc3_eq. repeat (f_equal; try lia).
    + rewrite enc4_eq. repeat (f_equal; try lia).
Qed.

(* ---------- whole strings: the table against the strict decoder ---------- *)
(* Unicode scalar values: the code points that have a UTF-8 form *)
Definition scalar (cp : Z) : Prop := 0 <= cp <= 1114111 /\ is_surrogate cp = false.

Lemma ref_roundtrip cp r : scalar cp ->
  utf8_decode (utf8_ref cp ++ r) = option_map (cons cp) (utf8_decode r).
Proof.
  intros [R S]. destruct (Z.ltb_spec cp 128) as [L|G].
  - unfold utf8_ref. replace (cp <? 128) with true by lia. cbn [app]. apply dec1. lia.
  - rewrite <- enc_is_utf8 by lia. apply utf8_roundtrip; [lia|exact S].
Qed.

Lemma ref_bytes cp : scalar cp -> Forall (fun b => 0 <= b <= 255) (utf8_ref cp).
Proof.
  intros [R S]. destruct (Z.ltb_spec cp 128) as [L|G].
  - unfold utf8_ref. replace (cp <? 128) with true by lia. constructor; [lia|constructor].
  - rewrite <- enc_is_utf8 by lia. apply enc_bytes.
Qed.

Lemma ref_high cp : 128 <= cp -> Forall (fun b => 128 <= b) (utf8_ref cp).
Proof.
  intros G. unfold utf8_ref. replace (cp <? 128) with false by lia.
  destruct (cp <? 2048); [|destruct (cp <? 65536)]; repeat constructor; lia.
Qed.

Lemma decode_flat zl : Forall scalar zl -> utf8_decode (flat_map utf8_ref zl) = Some zl.
Proof.
  induction 1 as [|cp r Hv _ IH]; [reflexivity|].
  cbn [flat_map]. rewrite (ref_roundtrip cp _ Hv), IH. reflexivity.
Qed.

(* the code point the decoder reads off a well-formed sequence has that sequence as its table entry *)
Lemma ref2 b0 b1 : 194 <= b0 < 224 -> 128 <= b1 <= 191 ->
  utf8_ref ((b0 - 192) * 64 + (b1 - 128)) = [b0; b1].
Proof. intros H0 H1. unfold utf8_ref. case_ifs; try lia. repeat (f_equal; try lia). Qed.

Lemma ref3 b0 b1 b2 (cp := (b0 - 224) * 4096 + (b1 - 128) * 64 + (b2 - 128)) :
  224 <= b0 < 240 -> 128 <= b1 <= 191 -> 128 <= b2 <= 191 -> 2048 <= cp -> utf8_ref cp = [b0; b1; b2].
Proof. intros H0 H1 H2 L. unfold utf8_ref. case_ifs; try lia. repeat (f_equal; try lia). Qed.

Lemma ref4 b0 b1 b2 b3 (cp := (b0 - 240) * 262144 + (b1 - 128) * 4096 + (b2 - 128) * 64 + (b3 - 128)) :
  240 <= b0 < 245 -> 128 <= b1 <= 191 -> 128 <= b2 <= 191 -> 128 <= b3 <= 191 -> 65536 <= cp ->
  utf8_ref cp = [b0; b1; b2; b3].
Proof. intros H0 H1 H2 H3 L. unfold utf8_ref. case_ifs; try lia. repeat (f_equal; try lia). Qed.

(* what a successful decoding says of its input: empty, or the table entry of a scalar value
   followed by a rest that decodes to the remaining code points *)
Definition peeled (l : list Z) (d : option (list Z)) : Prop :=
  match d with
  | None => True
  | Some [] => l = []
  | Some (cp :: t) => scalar cp /\ exists r, l = utf8_ref cp ++ r /\ utf8_decode r = Some t
  end.

Lemma peel cp r : scalar cp -> peeled (utf8_ref cp ++ r) (option_map (cons cp) (utf8_decode r)).
Proof. intros V. destruct (utf8_decode r) eqn:D; cbn; eauto. Qed.

Lemma decode_peels l : peeled l (utf8_decode l).
Proof.
  destruct l as [|b0 r]; [reflexivity|]. cbn [utf8_decode].
  destruct ((b0 <? 0) || (255 <? b0)) eqn:R0; [exact I|].
  destruct (b0 <? 128) eqn:R1.
  { replace (b0 :: r) with (utf8_ref b0 ++ r) by (unfold utf8_ref; rewrite R1; reflexivity).
    apply peel. unfold scalar, is_surrogate. lia. }
  destruct (b0 <? 194) eqn:R2; [exact I|].
  destruct (b0 <? 224) eqn:R3.
  { destruct r as [|b1 r1]; [exact I|]. destruct (is_cont b1) eqn:C1; [|exact I]. unfold is_cont in C1.
    change (b0 :: b1 :: r1) with ([b0; b1] ++ r1). rewrite <- (ref2 b0 b1) by lia.
    apply peel. unfold scalar, is_surrogate. lia. }
  destruct (b0 <? 240) eqn:R4.
  { destruct r as [|b1 [|b2 r2]]; [exact I..|]. cbv zeta.
    destruct (is_cont b1) eqn:C1; [|exact I]. destruct (is_cont b2) eqn:C2; [|exact I].
    destruct (2048 <=? _) eqn:C3; [|exact I]. destruct (is_surrogate _) eqn:C4; [exact I|].
    unfold is_cont in C1, C2. cbn [andb negb].
    change (b0 :: b1 :: b2 :: r2) with ([b0; b1; b2] ++ r2). rewrite <- (ref3 b0 b1 b2) by lia.
    apply peel. split; [lia|exact C4]. }
  destruct (b0 <? 245) eqn:R5; [|exact I].
  destruct r as [|b1 [|b2 [|b3 r3]]]; [exact I..|]. cbv zeta.
  destruct (is_cont b1) eqn:C1; [|exact I]. destruct (is_cont b2) eqn:C2; [|exact I].
  destruct (is_cont b3) eqn:C3; [|exact I]. destruct (65536 <=? _) eqn:C4; [|exact I].
  destruct (_ <=? 1114111) eqn:C5; [|exact I]. unfold is_cont in C1, C2, C3. cbn [andb].
  change (b0 :: b1 :: b2 :: b3 :: r3) with ([b0; b1; b2; b3] ++ r3). rewrite <- (ref4 b0 b1 b2 b3) by lia.
  apply peel. unfold scalar, is_surrogate. lia.
Qed.

(* the strict decoder only accepts what the table produces *)
Lemma decode_inv zl : forall l, utf8_decode l = Some zl -> flat_map utf8_ref zl = l /\ Forall scalar zl.
Proof.
  induction zl as [|cp t IH]; intros l D; pose proof (decode_peels l) as P; rewrite D in P; cbn [peeled] in P.
  - subst l. split; constructor.
  - destruct P as (V & r & -> & Dr). destruct (IH r Dr) as [E F].
    cbn [flat_map]. rewrite E. split; [reflexivity|constructor; assumption].
Qed.

Lemma some_single_inj (a b : Z) : Some [a] = Some [b] -> a = b.
Proof. intros H. injection H as H. exact H. Qed.

(* the guards are tight: one branch too short or too long never decodes back to the code point *)
Theorem guards_tight cp :
  (2048 <= cp -> utf8_decode (enc2 cp) <> Some [cp]) /\
  (65536 <= cp -> utf8_decode (enc3 cp) <> Some [cp]) /\
  (128 <= cp < 2048 -> utf8_decode (enc3 cp) = None) /\
  (2048 <= cp < 65536 -> utf8_decode (enc4 cp) = None).
Proof.
  repeat split.
  - intros H. rewrite enc2_eq.
    destruct (Z.ltb_spec (192 + (cp / 64) mod 32) 194) as [L|G].
    + cbn [utf8_decode]. case_ifs; try lia. discriminate.
    + rewrite dec2 by lia. cbn [utf8_decode option_map]. intros E. apply some_single_inj in E. lia.
  - intros H. rewrite enc3_eq. rewrite dec3 by lia. cbv zeta.
    match goal with |- (if ?c then _ else _) <> _ => destruct c end; [|discriminate].
    cbn [utf8_decode option_map]. intros E. apply some_single_inj in E. lia.
  - intros H. rewrite enc3_eq. rewrite dec3 by lia. cbv zeta.
    match goal with |- (if ?c then _ else _) = _ => replace c with false by (unfold is_surrogate; lia) end.
    reflexivity.
  - intros H. rewrite enc4_eq. rewrite dec4 by lia. cbv zeta.
    match goal with |- (if ?c then _ else _) = _ => replace c with false by lia end.
    reflexivity.
Qed.

Lemma repeat_ascii pad n : 0 <= pad <= 127 -> Forall (fun b => 0 <= b < 128) (repeat pad n).
Proof. intros H. induction n; cbn [repeat]; constructor; [lia|assumption]. Qed.

Theorem padded_b_refines iv ulength pad : 2 <= ulength -> 0 <= pad <= 127 ->
  from_ordinal_padded_b iv ulength pad = from_ordinal_padded iv ulength pad.
Proof.
  intros Hu Hp. unfold from_ordinal_padded_b, from_ordinal_padded, PAD_LIMIT, SURR_LO, SURR_HI, LATIN1_MAX. cbv zeta.
  assert (Cp : cchar pad = pad) by (unfold cchar; lia). rewrite Cp.
  destruct ((ulength - 1 <=? 250) && ((iv <? 55296) || (57343 <? iv))) eqn:G; [|reflexivity].
  unfold CHARS_SIZE.
  destruct (Z.leb_spec iv 255) as [Lo|Hi].
  - replace ((ulength - 1 <? 0) || (256 <? ulength)) with false by lia. reflexivity.
  - rewrite enc_length.
    assert (B : ((ulength - 1 <? 0) ||
                 (256 - Z.of_nat (if iv <? 2048 then 2%nat else if iv <? 65536 then 3%nat else 4%nat)
                  - (ulength - 1) <? 0)) = false).
    { destruct (iv <? 2048); [lia|]. destruct (iv <? 65536); lia. }
    rewrite B. rewrite decode_ascii_prefix by (apply repeat_ascii; assumption).
    rewrite <- (app_nil_r (utf8_enc_c iv)). unfold utf8_enc_c, ENC2_LIMIT, ENC3_LIMIT.
    destruct (Z.ltb_spec iv 2048).
    + rewrite dec_enc2 by lia. cbn [utf8_decode option_map].
      replace (iv <? 65536) with true by lia. reflexivity.
    + destruct (Z.ltb_spec iv 65536).
      * rewrite dec_enc3 by lia.
        replace (is_surrogate iv) with false by (unfold is_surrogate; lia). reflexivity.
      * rewrite dec_enc4 by lia. cbv zeta.
        destruct ((65536 <=? iv mod 2097152) && (iv mod 2097152 <=? 1114111)); reflexivity.
Qed.

Theorem uchar_b_refines fx w s v width pad : 0 <= pad <= 127 ->
  uchar_to_unicode_b fx w s v width pad = uchar_to_unicode fx w s v width pad.
Proof.
  intros Hp. unfold uchar_to_unicode_b, uchar_to_unicode.
  destruct (negb (uchar_accepts fx w s v)); [reflexivity|]. cbv zeta.
  destruct (Z.leb_spec width 1); [reflexivity|]. apply padded_b_refines; lia.
Qed.

(* main statement for the byte-level model of the code as it is (repaired range test) *)
Theorem char_bytes_fixed w s v width pad : 1 <= w -> in_range w s v -> 0 <= pad <= 127 ->
  uchar_to_unicode_b true w s v width pad = py_format_char v width pad.
Proof. intros Hw Hr Hp. rewrite uchar_b_refines by assumption. apply char_range_fixed; assumption. Qed.

Theorem char_bytes_partial w s v width pad : 1 <= w -> in_range w s v -> 0 <= pad <= 127 ->
  (v < 2097152 \/ sizeof w <= 2) ->
  uchar_to_unicode_b false w s v width pad = py_format_char v width pad.
Proof. intros Hw Hr Hp H. rewrite uchar_b_refines by assumption. apply char_range_partial; assumption. Qed.

(* consequences: the 256-byte buffer suffices for every width, the decoder never fails, and the
   text has exactly max(width,1) characters: width-1 padding characters then the code point *)
Theorem char_bytes_safe w s v width pad : 1 <= w -> in_range w s v -> 0 <= pad <= 127 ->
  uchar_to_unicode_b true w s v width pad <> CBufferOverflow /\
  uchar_to_unicode_b true w s v width pad <> CUnicodeDecodeError /\
  uchar_to_unicode_b true w s v width pad <> CAbort /\
  uchar_to_unicode_b true w s v width pad <> CValueError.
Proof.
  intros Hw Hr Hp. rewrite char_bytes_fixed by assumption. unfold py_format_char.
  destruct ((0 <=? v) && (v <? 1114112)); repeat split; discriminate.
Qed.

Theorem char_bytes_length w s v width pad l : 1 <= w -> in_range w s v -> 0 <= pad <= 127 ->
  uchar_to_unicode_b true w s v width pad = CText l ->
  Z.of_nat (length l) = Z.max width 1 /\ last l 0 = v /\ 0 <= v <= 1114111 /\
  firstn (Z.to_nat (width - 1)) l = repeat pad (Z.to_nat (width - 1)).
Proof.
  intros Hw Hr Hp. rewrite char_bytes_fixed by assumption. unfold py_format_char.
  destruct ((0 <=? v) && (v <? 1114112)) eqn:A; [|discriminate].
  intros [= <-]. rewrite app_length, repeat_length, last_last. cbn [length].
  repeat split; try lia.
  rewrite firstn_app, repeat_length, Nat.sub_diag. cbn [firstn]. rewrite app_nil_r.
  rewrite <- (repeat_length pad (Z.to_nat (width - 1))) at 1. apply firstn_all.
Qed.
