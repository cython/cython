(* C28 — proofs.  In both worlds an answer other than NotImplemented ends the dispatch at once, and which
   method is tried next never depends on an answer (Section Cut).  So the worlds agree on a configuration
   as soon as they agree on the one where every defined method declines; that family is finite by nature
   (which of __op__ / __rop__ each class defines, the operand types) and is decided by evaluation. *)
From Coq Require Import List Bool.
From CyVerif Require Import Model.M_BinopSlot.
Import ListNotations.

Definition all_mstate := [Undef; RetNI; RetVal].
Definition all_bool := [false; true].
Definition all_cls := [cB; cT; cCS; cPS; cU].
Definition all_cst : list cst := list_prod all_mstate all_mstate.
Definition all_bcfg : list bcfg :=
  list_prod (list_prod (list_prod (list_prod (list_prod all_cst all_cst) all_cst) all_cst) all_cst) all_bool.
Definition all_icfg : list icfg :=
  list_prod (list_prod (list_prod (list_prod all_mstate all_mstate) all_mstate) all_mstate) all_mstate.

Lemma all_mstate_ok : forall x, In x all_mstate. Proof. destruct x; simpl; tauto. Qed.
Lemma all_bool_ok : forall x, In x all_bool. Proof. destruct x; simpl; tauto. Qed.
Lemma all_cls_ok : forall x, In x all_cls. Proof. destruct x; simpl; tauto. Qed.
Lemma all_cst_ok : forall x, In x all_cst.
Proof. intros [a b]. apply in_prod; apply all_mstate_ok. Qed.
Lemma all_bcfg_ok : forall x, In x all_bcfg.
Proof. intros [[[[[b t] s] p] u] y]. repeat apply in_prod; try apply all_cst_ok. apply all_bool_ok. Qed.
Lemma all_icfg_ok : forall x, In x all_icfg.
Proof. intros [[[[a b] c] d] e]. repeat apply in_prod; apply all_mstate_ok. Qed.

Definition out_eq_dec : forall a b : out, {a = b} + {a <> b}.
Proof. repeat decide equality. Defined.
Definition M_eq_dec : forall a b : M, {a = b} + {a <> b}.
Proof. repeat decide equality. Defined.
Definition nofuel (m : M) : bool := match snd m with Fuel => false | _ => true end.

Definition ni (s : mstate) : mstate := match s with RetVal => RetNI | _ => s end.

Section Cut.
  Variables (w : world) (st st0 : cls -> kind -> mstate) (upy fx : bool).
  Hypothesis Hst : forall c k, st0 c k = ni (st c k).

  (* the run under st, read off the run under st0: stop at the first method that answers *)
  Fixpoint cut_ev (l : list ev) (r : res) : M :=
    match l with
    | [] => ([], r)
    | (c, k, b) :: l' =>
        match st c k with
        | RetVal => ([(c, k, b)], Val c k)
        | _ => let m := cut_ev l' r in ((c, k, b) :: fst m, snd m)
        end
    end.
  Definition cut (m : M) : M := cut_ev (fst m) (snd m).

  Lemma cut_app : forall l1 l2 r, cut_ev (l1 ++ l2) r = orelse (cut_ev l1 NI) (fun _ => cut_ev l2 r).
  Proof.
    induction l1 as [|[[c k] b] l1 IH]; intros; simpl.
    - destruct (cut_ev l2 r); reflexivity.
    - rewrite IH. unfold orelse.
      destruct (st c k); try reflexivity; destruct (cut_ev l1 NI) as [l' [| |]]; reflexivity.
  Qed.
  Lemma cut_snd : forall l r, snd (cut_ev l r) = r \/ exists c k, snd (cut_ev l r) = Val c k.
  Proof.
    induction l as [|[[c k] b] l IH]; intros; simpl; [auto|]. destruct (st c k); simpl; eauto.
  Qed.
  Lemma cut_stop : forall l r k, r <> NI -> orelse (cut_ev l r) k = cut_ev l r.
  Proof.
    intros l r k Hr. unfold orelse.
    destruct (cut_snd l r) as [E|(c & k' & E)]; rewrite E; [destruct r; congruence|reflexivity].
  Qed.
  Lemma cut_fuel : forall m, snd (cut m) = Fuel -> snd m = Fuel.
  Proof. intros [l r] H. destruct (cut_snd l r) as [E|(c & k & E)]; unfold cut in H; simpl in *; congruence. Qed.

  Lemma if_cut : forall (b : bool) x x0 y y0, x = cut x0 -> y = cut y0 ->
    (if b then x else y) = cut (if b then x0 else y0).
  Proof. intros [] ? ? ? ? ? ?; assumption. Qed.
  Lemma orelse_cut : forall a a0 k k0, a = cut a0 -> k tt = cut (k0 tt) -> orelse a k = cut (orelse a0 k0).
  Proof.
    intros a [l r] k k0 -> Hk. unfold cut, orelse at 2. simpl. destruct r; simpl.
    - rewrite cut_app. unfold orelse. rewrite Hk. reflexivity.
    - apply cut_stop. discriminate.
    - apply cut_stop. discriminate.
  Qed.
  Lemma guard_orelse : forall (r : M) (c : bool) k,
    match snd r with NI => if c then r else orelse r k | _ => r end = if c then r else orelse r k.
  Proof. intros. unfold orelse. destruct (snd r), c; reflexivity. Qed.

  (* slots and lookups only ask whether a method is defined *)
  Lemma defd_ni : forall c k, defd st0 c k = defd st c k.
  Proof. intros. unfold defd. rewrite Hst. destruct (st c k); reflexivity. Qed.
  Lemma own_slot_ni : forall c, own_slot st0 c = own_slot st c.
  Proof. intros. unfold own_slot. rewrite !defd_ni. reflexivity. Qed.
  Lemma entry_of_ni : forall c k, entry_of w st0 upy c k = entry_of w st upy c k.
  Proof. intros. unfold entry_of. rewrite own_slot_ni, defd_ni. reflexivity. Qed.
  Lemma lookup_ni : forall c k, lookup w st0 upy c k = lookup w st upy c k.
  Proof.
    intros. unfold lookup. induction (chain c) as [|a l IH]; simpl; [|rewrite entry_of_ni, IH]; reflexivity.
  Qed.
  Lemma cy_slot_in_ni : forall l, cy_slot_in st0 l = cy_slot_in st l.
  Proof. induction l as [|a l IH]; simpl; [|rewrite own_slot_ni, IH]; reflexivity. Qed.
  Lemma binslot_ni : forall c, binslot w st0 upy c = binslot w st upy c.
  Proof. intros. unfold binslot, py_slot. rewrite !lookup_ni, cy_slot_in_ni. reflexivity. Qed.
  Lemma base_slot_ni : forall c, base_slot w st0 upy c = base_slot w st upy c.
  Proof. intros. unfold base_slot. destruct (parent c); [apply binslot_ni|reflexivity]. Qed.

  Section Step.
    Variables rec rec0 : slot -> opnd -> opnd -> M.
    Hypothesis Hrec : forall s x y, rec s x y = cut (rec0 s x y).

    Lemma user_cut : forall c k x, user st c k x = cut (user st0 c k x).
    Proof. intros. unfold user, cut. simpl. rewrite Hst. destruct (st c k); reflexivity. Qed.
    Lemma call_entry_cut : forall d x y, call_entry st rec d x y = cut (call_entry st0 rec0 d x y).
    Proof. intros [|c k|c []] x y; simpl; auto using user_cut. Qed.
    Lemma slot_py_cut : forall s o, slot_py w st upy rec s o = cut (slot_py w st0 upy rec0 s o).
    Proof.
      intros. unfold slot_py, overloaded. rewrite !binslot_ni, !lookup_ni, !guard_orelse.
      auto 12 using if_cut, orelse_cut, call_entry_cut.
    Qed.
    Lemma cy_binop_cut : forall c l r, cy_binop w st upy fx rec c l r = cut (cy_binop w st0 upy fx rec0 c l r).
    Proof.
      intros. unfold cy_binop. rewrite !binslot_ni, !base_slot_ni, !defd_ni.
      auto 12 using if_cut, orelse_cut, user_cut.
    Qed.
  End Step.

  Lemma call_slot_cut : forall f s v x, call_slot w st upy fx f s v x = cut (call_slot w st0 upy fx f s v x).
  Proof.
    induction f as [|f IH]; intros; [reflexivity|].
    destruct s; simpl; [reflexivity|apply slot_py_cut, IH|apply cy_binop_cut, IH].
  Qed.
  Lemma binary_op1_cut : forall v x, binary_op1 w st upy fx v x = cut (binary_op1 w st0 upy fx v x).
  Proof.
    intros. unfold binary_op1. rewrite !binslot_ni. auto 6 using if_cut, orelse_cut, call_slot_cut.
  Qed.
End Cut.

Definition ni_cst (x : cst) : cst := (ni (fst x), ni (snd x)).
Definition ni_bc (bc : bcfg) : bcfg :=
  let '(b, t, s, p, u, y) := bc in (ni_cst b, ni_cst t, ni_cst s, ni_cst p, ni_cst u, y).

Lemma mkst_ni : forall bc c k, mkst (ni_bc bc) ic0 c k = ni (mkst bc ic0 c k).
Proof. intros [[[[[b t] s] p] u] y] [] []; reflexivity. Qed.
Lemma norm_ni : forall L R bc, norm L R (ni_bc bc) = ni_bc (norm L R bc).
Proof.
  intros L R [[[[[b t] s] p] u] y]. unfold norm, keep, ni_bc.
  destruct (relevant L R cB), (relevant L R cT), (relevant L R cCS), (relevant L R cPS), (relevant L R cU);
    reflexivity.
Qed.
Lemma upy_ni : forall bc, bc_upy (ni_bc bc) = bc_upy bc.
Proof. intros [[[[[b t] s] p] u] y]. reflexivity. Qed.

Definition all_decl : list cst := list_prod [Undef; RetNI] [Undef; RetNI].
Definition opts (L R c : cls) : list cst := if relevant L R c then all_decl else [(Undef, Undef)].
Definition dom (L R : cls) : list bcfg :=
  list_prod (list_prod (list_prod (list_prod (list_prod (opts L R cB) (opts L R cT)) (opts L R cCS))
    (opts L R cPS)) (opts L R cU)) (if relevant L R cU then all_bool else [false]).

Lemma keep_in : forall L R c x, In (keep L R c (ni_cst x)) (opts L R c).
Proof.
  intros. unfold keep, opts. destruct (relevant L R c); [|simpl; tauto].
  destruct x as [[] []]; simpl; tauto.
Qed.
Lemma norm_in_dom : forall L R bc, In (norm L R (ni_bc bc)) (dom L R).
Proof.
  intros L R [[[[[b t] s] p] u] y]. unfold norm, dom, ni_bc.
  repeat apply in_prod; try apply keep_in.
  destruct (relevant L R cU). apply all_bool_ok. simpl; tauto.
Qed.
Lemma norm_idem : forall L R bc, norm L R (norm L R bc) = norm L R bc.
Proof.
  intros L R [[[[[b t] s] p] u] y]. unfold norm, keep.
  destruct (relevant L R cB), (relevant L R cT), (relevant L R cCS), (relevant L R cPS), (relevant L R cU);
    reflexivity.
Qed.

Lemma run_bin_cut : forall w fx L R bc,
  run_bin w fx bc L R = cut (mkst (norm L R bc) ic0) (run_bin w fx (norm L R (ni_bc bc)) L R).
Proof.
  intros. unfold run_bin. rewrite norm_idem, norm_ni, upy_ni. apply binary_op1_cut, mkst_ni.
Qed.

Lemma existsb_ext_in : forall A (f g : A -> bool) l,
  (forall x, In x l -> f x = g x) -> existsb f l = existsb g l.
Proof.
  induction l as [|a l IH]; intros H; [reflexivity|]. simpl.
  rewrite (H a), IH by auto using in_eq, in_cons. reflexivity.
Qed.
Lemma mkst_norm : forall L R bc c k, relevant L R c = true -> mkst (norm L R bc) ic0 c k = mkst bc ic0 c k.
Proof. intros L R [[[[[b t] s] p] u] y] c k H. unfold norm, keep. destruct c; simpl; rewrite H; reflexivity. Qed.
Lemma exc_bin_norm : forall fx L R bc, exc_bin fx (norm L R bc) L R = exc_bin fx bc L R.
Proof.
  intros. unfold exc_bin, exc_same_type, exc_multi_slot, multi_slot, any_slot, slots_of, any_rop.
  rewrite norm_idem. rewrite (existsb_ext_in _ _ (fun c => defd (mkst bc ic0) c kRop)); [reflexivity|].
  intros c Hc. unfold defd. rewrite mkst_norm; [reflexivity|].
  apply existsb_exists. exists c. split; [apply in_or_app; left; exact Hc|destruct c; reflexivity].
Qed.
Lemma exc_bin_ni : forall fx L R bc, exc_bin fx (ni_bc bc) L R = exc_bin fx bc L R.
Proof.
  intros. unfold exc_bin, exc_same_type, exc_multi_slot, multi_slot, any_slot, slots_of, any_rop.
  rewrite norm_ni, upy_ni.
  rewrite (map_ext _ _ (binslot_ni WCy _ _ _ (mkst_ni (norm L R bc)))).
  rewrite (existsb_ext_in _ _ (fun c => defd (mkst bc ic0) c kRop)); [reflexivity|].
  intros c _. apply defd_ni, mkst_ni.
Qed.

Definition chk_bin (fx : bool) (bc : bcfg) (L R : cls) : bool :=
  exc_bin fx bc L R ||
  (let m := run_bin WCy fx bc L R in
   (if M_eq_dec (run_bin WPy fx bc L R) m then true else false) && nofuel m).

Lemma chk_bin_all : forallb (fun fx => forallb (fun L => forallb (fun R => forallb (fun bc =>
  chk_bin fx bc L R) (dom L R)) all_cls) all_cls) all_bool = true.
Proof. vm_compute. reflexivity. Qed.

Theorem binop_eq_partial : forall fx bc L R,
  exc_bin fx bc L R = false ->
  run_bin WPy fx bc L R = run_bin WCy fx bc L R /\ snd (run_bin WCy fx bc L R) <> Fuel.
Proof.
  intros fx bc L R He.
  pose proof chk_bin_all as H.
  rewrite forallb_forall in H. specialize (H fx (all_bool_ok fx)).
  rewrite forallb_forall in H. specialize (H L (all_cls_ok L)).
  rewrite forallb_forall in H. specialize (H R (all_cls_ok R)).
  rewrite forallb_forall in H. specialize (H _ (norm_in_dom L R bc)).
  unfold chk_bin in H. rewrite exc_bin_norm, exc_bin_ni, He in H. simpl in H.
  apply andb_prop in H. destruct H as [H1 H2]. rewrite (run_bin_cut WPy), (run_bin_cut WCy).
  destruct (M_eq_dec _ _) as [E|E]; [|discriminate].
  split; [rewrite E; reflexivity|]. intros Hf. apply cut_fuel in Hf.
  unfold nofuel in H2. rewrite Hf in H2. discriminate.
Qed.

Theorem binop_unrelated_eq : forall fx bc L R,
  related L R = false -> run_bin WPy fx bc L R = run_bin WCy fx bc L R.
Proof.
  intros fx bc L R Hr. apply binop_eq_partial.
  unfold exc_bin, exc_same_type, exc_multi_slot. rewrite Hr.
  destruct L, R; try discriminate Hr; reflexivity.
Qed.

(* fx = true: the repaired template *)
Theorem binop_same_type_fixed_eq : forall bc L,
  run_bin WPy true bc L L = run_bin WCy true bc L L.
Proof.
  intros bc L. apply binop_eq_partial.
  unfold exc_bin, exc_same_type, exc_multi_slot.
  assert (H : cls_eqb L L = true) by (destruct L; reflexivity). rewrite H. simpl.
  rewrite andb_false_r. reflexivity.
Qed.

Definition bc_T (t : cst) (p : cst) : bcfg :=
  ((Undef, Undef), t, (Undef, Undef), p, (Undef, Undef), false).

(* class 1: a class defining only __rop__: T() op T() reaches __rop__ (Python: TypeError) *)
Theorem binop_same_type_refuted :
  exists bc L, run_bin WPy false bc L L <> run_bin WCy false bc L L
            /\ finish (run_bin WPy false bc L L) = ([], FTypeError)
            /\ finish (run_bin WCy false bc L L) = ([(cT, kRop, false)], FVal cT kRop).
Proof. exists (bc_T (Undef, RetVal) (Undef, Undef)), cT. vm_compute. repeat split; congruence. Qed.

(* class 2: T() op PS() with PS a plain Python subclass: __rop__ runs before __op__ *)
Theorem binop_related_refuted : forall fx,
  exists bc L R, finish (run_bin WPy fx bc L R) = ([(cT, kOp, true)], FVal cT kOp)
              /\ finish (run_bin WCy fx bc L R) = ([(cT, kRop, false)], FVal cT kRop).
Proof. intros fx. exists (bc_T (RetVal, RetVal) (Undef, Undef)), cT, cPS. destruct fx; vm_compute; split; reflexivity. Qed.

Theorem inplace_eq_partial : forall fx isadd bc ic L R,
  exc_inplace fx isadd bc ic L R = false ->
  run WPy fx isadd true bc ic L R = run WCy fx isadd true bc ic L R.
Proof.
  intros fx isadd bc ic L R He. unfold exc_inplace in He. apply orb_false_elim in He. destruct He as [Hb Hs].
  destruct (binop_eq_partial fx bc L R Hb) as [E _].
  unfold run. rewrite E, Hs. simpl. reflexivity.
Qed.

Theorem plain_eq_partial : forall fx isadd bc ic L R,
  exc_bin fx bc L R = false ->
  run WPy fx isadd false bc ic L R = run WCy fx isadd false bc ic L R.
Proof. intros. unfold run. destruct (binop_eq_partial fx bc L R H) as [E _]. rewrite E. reflexivity. Qed.

(* class 3: PS() += x, PS a Python subclass of an extension type defining __iadd__: when every method
   declines, CPython's sq_inplace_concat step calls __iadd__ again and hands NotImplemented to the user *)
Theorem inplace_add_refuted :
  exists bc ic L R, run WPy true true true bc ic L R = ([(cT, kIop, true)], FTypeError)
                 /\ run WCy true true true bc ic L R = ([(cT, kIop, true); (cT, kIop, true)], FNotImplementedObject).
Proof.
  exists (bc_T (Undef, Undef) (Undef, Undef)), (Undef, RetNI, Undef, Undef, Undef), cPS, cU.
  vm_compute. split; reflexivity.
Qed.

