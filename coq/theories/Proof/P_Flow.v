(* C21 - proofs about the reaching-definitions iteration and check_definitions (Model/M_Flow.v) *)
From Coq Require Import NArith List Bool Arith Lia.
From CyVerif Require Import Model.M_Flow.
Import ListNotations.

(* ------------------------------------------------------------------ bit sets *)
Definition sub (a b : N) : Prop := forall k, N.testbit a k = true -> N.testbit b k = true.
Definition le_outs (o1 o2 : list N) : Prop := forall i, sub (getN o1 i) (getN o2 i).
Definition bits_below (nbits : nat) (x : N) : Prop :=
  forall k, N.testbit x k = true -> (k < N.of_nat nbits)%N.

Lemma sub_refl a : sub a a. Proof. intros k H; exact H. Qed.
Lemma sub_trans a b c : sub a b -> sub b c -> sub a c.
Proof. intros H1 H2 k H; auto. Qed.
Lemma le_outs_refl o : le_outs o o. Proof. intros i; apply sub_refl. Qed.
Lemma le_outs_trans a b c : le_outs a b -> le_outs b c -> le_outs a c.
Proof. intros H1 H2 i; eapply sub_trans; eauto. Qed.

Lemma tb_fold_lor {A} (f : A -> N) l init k :
  N.testbit (fold_left (fun acc x => N.lor acc (f x)) l init) k
  = N.testbit init k || existsb (fun x => N.testbit (f x) k) l.
Proof.
  revert init; induction l as [|a l IH]; intros init; simpl.
  - now rewrite orb_false_r.
  - rewrite IH, N.lor_spec. now rewrite orb_assoc.
Qed.

Lemma tb_or_parents outs ps k :
  N.testbit (or_parents outs ps) k = existsb (fun p => N.testbit (getN outs p) k) ps.
Proof. unfold or_parents. rewrite (tb_fold_lor (getN outs)). now rewrite N.bits_0. Qed.

Lemma tb_transfer b x k :
  N.testbit (transfer b x) k
  = (N.testbit x k && negb (N.testbit (r_kill b) k)) || N.testbit (r_gen b) k.
Proof. unfold transfer. now rewrite N.lor_spec, N.ldiff_spec. Qed.

Lemma or_parents_mono o1 o2 ps : le_outs o1 o2 -> sub (or_parents o1 ps) (or_parents o2 ps).
Proof.
  intros H k. rewrite !tb_or_parents, !existsb_exists.
  intros (p & Hp & Ht). exists p; split; auto. now apply H.
Qed.

Lemma transfer_mono b x y : sub x y -> sub (transfer b x) (transfer b y).
Proof.
  intros H k. rewrite !tb_transfer. intros Hk.
  apply orb_true_iff in Hk. destruct Hk as [Hk|Hk].
  - apply andb_true_iff in Hk. destruct Hk as [H1 H2]. rewrite (H _ H1), H2. reflexivity.
  - rewrite Hk. apply orb_true_r.
Qed.

(* the value the loop body assigns to block.i_output *)
Definition F (b : rblock) (outs : list N) : N := transfer b (or_parents outs (r_parents b)).

Lemma F_mono b o1 o2 : le_outs o1 o2 -> sub (F b o1) (F b o2).
Proof. intros H. apply transfer_mono, or_parents_mono, H. Qed.

(* ------------------------------------------------------------------ set_nth *)
Lemma set_nth_length i v l : length (set_nth i v l) = length l.
Proof. revert i; induction l as [|h t IH]; intros [|i]; simpl; auto. Qed.

Lemma getN_set_nth_eq i v l : i < length l -> getN (set_nth i v l) i = v.
Proof.
  unfold getN. revert i; induction l as [|h t IH]; intros [|i] H; simpl in *; try lia; auto.
  apply IH; lia.
Qed.

Lemma getN_set_nth_neq i j v l : i <> j -> getN (set_nth i v l) j = getN l j.
Proof.
  unfold getN. revert i j; induction l as [|h t IH]; intros [|i] [|j] H; simpl; auto; try lia.
Qed.

Lemma set_nth_same i l : set_nth i (getN l i) l = l.
Proof.
  unfold getN. revert i; induction l as [|h t IH]; intros [|i]; simpl; auto. now rewrite IH.
Qed.

(* reading after an update, whether or not the index is in range *)
Lemma getN_set_nth i v l j :
  i = j /\ getN (set_nth i v l) j = v \/ getN (set_nth i v l) j = getN l j.
Proof.
  destruct (Nat.eq_dec i j) as [<-|Hn]; [|right; now apply getN_set_nth_neq].
  destruct (Nat.lt_ge_cases i (length l)) as [Hl|Hl].
  - left. split; [reflexivity|now apply getN_set_nth_eq].
  - right. unfold getN. now rewrite !nth_overflow by (rewrite ?set_nth_length; lia).
Qed.

Lemma le_outs_set_nth i v l : sub (getN l i) v -> le_outs l (set_nth i v l).
Proof.
  intros H j. destruct (getN_set_nth i v l j) as [[<- ->]| ->]; [exact H|apply sub_refl].
Qed.

Lemma le_outs_set_nth_below i v l S : sub v (getN S i) -> le_outs l S -> le_outs (set_nth i v l) S.
Proof.
  intros H Hl j. destruct (getN_set_nth i v l j) as [[<- ->]| ->]; [exact H|apply Hl].
Qed.

(* ------------------------------------------------------------------ counting measure *)
Definition cnt (nbits : nat) (x : N) : nat :=
  length (filter (fun k => N.testbit x (N.of_nat k)) (seq 0 nbits)).
Fixpoint total (nbits : nat) (l : list N) : nat :=
  match l with [] => 0 | x :: r => cnt nbits x + total nbits r end.

Lemma filter_len_le {A} (f g : A -> bool) l :
  (forall x, In x l -> f x = true -> g x = true) -> length (filter f l) <= length (filter g l).
Proof.
  induction l as [|a l IH]; intros H; simpl; auto.
  assert (IH' : length (filter f l) <= length (filter g l)) by (apply IH; intros; apply H; simpl; auto).
  destruct (f a) eqn:Fa.
  - rewrite (H a (or_introl eq_refl) Fa). simpl. lia.
  - destruct (g a); simpl; lia.
Qed.

Lemma filter_len_eq_ext {A} (f g : A -> bool) l :
  (forall x, In x l -> f x = true -> g x = true) ->
  length (filter f l) = length (filter g l) -> forall x, In x l -> f x = g x.
Proof.
  induction l as [|a l IH]; intros H E x Hx; simpl in *; [contradiction|].
  assert (Hle : length (filter f l) <= length (filter g l))
    by (apply filter_len_le; intros; apply H; auto).
  destruct (f a) eqn:Fa.
  - rewrite (H a (or_introl eq_refl) Fa) in E. simpl in E.
    destruct Hx as [<-|Hx].
    + rewrite Fa. symmetry. apply H; auto.
    + apply IH; auto; try lia.
  - destruct (g a) eqn:Ga; simpl in E.
    + lia.
    + destruct Hx as [<-|Hx]; [congruence|]. apply IH; auto.
Qed.

Lemma cnt_le nbits x y : sub x y -> cnt nbits x <= cnt nbits y.
Proof. intros H. apply filter_len_le. intros k _ Hk. now apply H. Qed.

Lemma cnt_bound nbits x : cnt nbits x <= nbits.
Proof.
  unfold cnt. rewrite <- (seq_length nbits 0) at 2.
  generalize (seq 0 nbits). intros l. induction l as [|a l IH]; simpl; auto.
  destruct (N.testbit x (N.of_nat a)); simpl; lia.
Qed.

Lemma cnt_lt nbits x y :
  sub x y -> bits_below nbits x -> bits_below nbits y -> x <> y -> cnt nbits x < cnt nbits y.
Proof.
  intros Hs Bx By Hne.
  assert (Hle := cnt_le nbits x y Hs).
  destruct (Nat.eq_dec (cnt nbits x) (cnt nbits y)) as [E|E]; [|lia].
  exfalso. apply Hne. apply N.bits_inj. intros k.
  destruct (N.ltb_spec k (N.of_nat nbits)) as [Hk|Hk].
  - assert (Hx := filter_len_eq_ext
                    (fun k => N.testbit x (N.of_nat k)) (fun k => N.testbit y (N.of_nat k))
                    (seq 0 nbits) (fun k _ Hk => Hs _ Hk) E (N.to_nat k)).
    simpl in Hx. rewrite N2Nat.id in Hx. apply Hx. apply in_seq. lia.
  - destruct (N.testbit x k) eqn:Tx.
    + apply Bx in Tx. lia.
    + destruct (N.testbit y k) eqn:Ty; auto. apply By in Ty. lia.
Qed.

Lemma total_bound nbits l : total nbits l <= length l * nbits.
Proof. induction l as [|x r IH]; simpl; auto. pose proof (cnt_bound nbits x). lia. Qed.

Lemma total_set_nth nbits i v l :
  i < length l -> total nbits (set_nth i v l) + cnt nbits (getN l i) = total nbits l + cnt nbits v.
Proof.
  unfold getN. revert i; induction l as [|h t IH]; intros [|i] H; simpl in *; try lia.
  specialize (IH i). lia.
Qed.

(* ------------------------------------------------------------------ one pass *)
Lemma rd_pass_cons i b rest outs ins d :
  rd_pass ((i, b) :: rest) outs ins d =
  rd_pass rest (set_nth i (F b outs) outs) (set_nth i (or_parents outs (r_parents b)) ins)
          (if N.eqb (F b outs) (getN outs i) then d else true).
Proof. reflexivity. Qed.

(* what every update of a block keeps, the pass keeps *)
Lemma pass_preserves (P : list N -> list N -> Prop) todo :
  (forall i b outs ins, In (i, b) todo -> P outs ins ->
     P (set_nth i (F b outs) outs) (set_nth i (or_parents outs (r_parents b)) ins)) ->
  forall outs ins d outs' ins' d',
  rd_pass todo outs ins d = (outs', ins', d') -> P outs ins -> P outs' ins'.
Proof.
  induction todo as [|[i b] rest IH]; intros Hs outs ins d outs' ins' d' Hp H.
  - now inversion Hp; subst.
  - rewrite rd_pass_cons in Hp. eapply IH; [|exact Hp|].
    + intros; apply Hs; simpl; auto.
    + apply Hs; simpl; auto.
Qed.

Lemma rd_pass_len_ins todo outs ins d outs' ins' d' :
  rd_pass todo outs ins d = (outs', ins', d') -> length ins' = length ins.
Proof.
  intros Hp. apply (pass_preserves (fun _ i => length i = length ins) todo) with (2 := Hp); auto.
  intros i b o i1 _ <-. apply set_nth_length.
Qed.

(* an index that is not in the list is not written (the entry point, index 0, never is) *)
Lemma pass_keep todo j outs ins d outs' ins' d' : ~ In j (map fst todo) ->
  rd_pass todo outs ins d = (outs', ins', d') -> getN outs' j = getN outs j /\ getN ins' j = getN ins j.
Proof.
  intros Hn Hp.
  apply (pass_preserves (fun o i => getN o j = getN outs j /\ getN i j = getN ins j) todo)
    with (2 := Hp); auto.
  intros i b o1 i1 Hin [<- <-].
  assert (i <> j) by (intros ->; exact (Hn (in_map fst _ _ Hin))).
  now rewrite !getN_set_nth_neq.
Qed.

(* the pass stays below every pre-fixpoint *)
Lemma pass_below S todo :
  (forall i b, In (i, b) todo -> sub (F b S) (getN S i)) ->
  forall outs ins d outs' ins' d',
  rd_pass todo outs ins d = (outs', ins', d') -> le_outs outs S -> le_outs outs' S.
Proof.
  intros HS. apply (pass_preserves (fun o _ => le_outs o S)).
  intros i b o _ Hin Hle. apply le_outs_set_nth_below; [|exact Hle].
  eapply sub_trans; [apply F_mono, Hle|apply HS, Hin].
Qed.

(* a pass that does not report a change made none: every block already had its equation *)
Lemma pass_quiet todo : forall outs ins d outs' ins',
  rd_pass todo outs ins d = (outs', ins', false) ->
  d = false /\ outs' = outs /\ forall i b, In (i, b) todo -> F b outs = getN outs i.
Proof.
  induction todo as [|[i b] rest IH]; intros outs ins d outs' ins' Hp.
  - inversion Hp; subst. split; [reflexivity|]. split; [reflexivity|]. intros i b [].
  - rewrite rd_pass_cons in Hp. destruct (N.eqb_spec (F b outs) (getN outs i)) as [E|E].
    + rewrite E, set_nth_same in Hp. destruct (IH _ _ _ _ _ Hp) as (Hd & Ho & Hall).
      split; [exact Hd|]. split; [exact Ho|].
      intros j bj [Hj|Hj]; [inversion Hj; subst; exact E|auto].
    + destruct (IH _ _ _ _ _ Hp) as (Hd & _). discriminate.
Qed.

(* ... and recorded the join of the parents' outputs as i_input of each *)
Lemma pass_ins todo : NoDup (map fst todo) ->
  forall outs ins d outs' ins',
  (forall i b, In (i, b) todo -> i < length ins) ->
  rd_pass todo outs ins d = (outs', ins', false) ->
  forall i b, In (i, b) todo -> getN ins' i = or_parents outs (r_parents b).
Proof.
  induction todo as [|[i b] rest IH]; intros Hnd outs ins d outs' ins' Hlen Hp j bj Hj; [destruct Hj|].
  destruct (pass_quiet _ _ _ _ _ _ Hp) as (_ & _ & Hfix).
  rewrite rd_pass_cons, (Hfix i b (or_introl eq_refl)), set_nth_same in Hp.
  inversion Hnd as [|? ? Hni Hnd']; subst. destruct Hj as [Hj|Hj].
  - inversion Hj; subst. rewrite (proj2 (pass_keep _ _ _ _ _ _ _ _ Hni Hp)).
    apply getN_set_nth_eq. eapply Hlen; simpl; eauto.
  - eapply IH; eauto. intros i' b' H'. rewrite set_nth_length. eapply Hlen; simpl; eauto.
Qed.

(* ------------------------------------------------------------------ the loop *)
(* the result comes out of a pass without change, run on a state that passes have led to *)
Lemma loop_last (P : list N -> list N -> Prop) todo :
  (forall outs ins outs' ins' d, rd_pass todo outs ins false = (outs', ins', d) -> P outs ins -> P outs' ins') ->
  forall fuel outs ins outs' ins', rd_loop fuel todo outs ins = Some (outs', ins') -> P outs ins ->
  exists i, P outs' i /\ rd_pass todo outs' i false = (outs', ins', false).
Proof.
  intros Hs. induction fuel as [|f IH]; intros outs ins outs' ins' Hl H; [discriminate|].
  simpl in Hl. destruct (rd_pass todo outs ins false) as [[o1 i1] d1] eqn:Hp. destruct d1.
  - eapply IH; eauto.
  - inversion Hl; subst. destruct (pass_quiet _ _ _ _ _ _ Hp) as (_ & -> & _). eauto.
Qed.

Lemma loop_keep todo j fuel outs ins outs' ins' : ~ In j (map fst todo) ->
  rd_loop fuel todo outs ins = Some (outs', ins') -> getN outs' j = getN outs j.
Proof.
  intros Hn Hl. destruct (loop_last (fun o _ => getN o j = getN outs j) todo) with (2 := Hl) as (_ & H & _); auto.
  intros o i o' i' d Hp <-. exact (proj1 (pass_keep _ _ _ _ _ _ _ _ Hn Hp)).
Qed.

Lemma rd_loop_len_ins fuel todo outs ins outs' ins' :
  rd_loop fuel todo outs ins = Some (outs', ins') -> length ins' = length ins.
Proof.
  intros Hl. destruct (loop_last (fun _ i => length i = length ins) todo) with (2 := Hl) as (i & <- & Hp); auto.
  - intros o i o' i' d Hp <-. exact (rd_pass_len_ins _ _ _ _ _ _ _ Hp).
  - exact (rd_pass_len_ins _ _ _ _ _ _ _ Hp).
Qed.

Lemma loop_below S todo fuel outs ins outs' ins' :
  (forall i b, In (i, b) todo -> sub (F b S) (getN S i)) ->
  rd_loop fuel todo outs ins = Some (outs', ins') -> le_outs outs S -> le_outs outs' S.
Proof.
  intros HS Hl Hle. destruct (loop_last (fun o _ => le_outs o S) todo) with (2 := Hl) as (_ & H & _); auto.
  intros o i o' i' d. apply pass_below, HS.
Qed.

(* ------------------------------------------------------------------ the invariant of the iteration *)
Section Pass.
  Variable T : list (nat * rblock).        (* flow.blocks with their indices *)
  Variable n nbits : nat.
  Hypothesis T_idx : forall i b, In (i, b) T -> i < n.
  Hypothesis T_fun : forall i b b', In (i, b) T -> In (i, b') T -> b = b'.
  Hypothesis T_gen : forall i b, In (i, b) T -> bits_below nbits (r_gen b).
  Hypothesis T_nd : NoDup (map fst T).

  (* every output is below what one more application of the transfer function gives *)
  Definition Inv (outs : list N) : Prop :=
    length outs = n /\
    (forall i b, In (i, b) T -> sub (getN outs i) (F b outs)) /\
    (forall i, bits_below nbits (getN outs i)).

  Lemma F_below b outs i : In (i, b) T -> (forall j, bits_below nbits (getN outs j)) ->
    bits_below nbits (F b outs).
  Proof.
    intros Hin Hb k. unfold F. rewrite tb_transfer, tb_or_parents. intros Hk.
    apply orb_true_iff in Hk. destruct Hk as [Hk|Hk].
    - apply andb_true_iff in Hk. destruct Hk as [Hk _]. apply existsb_exists in Hk.
      destruct Hk as (p & _ & Hp). eapply Hb; eauto.
    - eapply T_gen; eauto.
  Qed.

  (* an update keeps the invariant, and adds a bit when it changes the output *)
  Lemma step_inv outs i b :
    In (i, b) T -> Inv outs ->
    let outs' := set_nth i (F b outs) outs in
    Inv outs' /\ le_outs outs outs' /\
    total nbits outs + (if N.eqb (F b outs) (getN outs i) then 0 else 1) <= total nbits outs'.
  Proof.
    intros Hin (Hlen & Hpost & Hbel) outs'.
    assert (Hi : i < length outs) by (rewrite Hlen; eauto).
    assert (Hsub : sub (getN outs i) (F b outs)) by eauto.
    assert (Hle : le_outs outs outs') by (apply le_outs_set_nth; auto).
    assert (HFb : bits_below nbits (F b outs)) by (eapply F_below; eauto).
    split; [|split; [exact Hle|]].
    - split; [unfold outs'; now rewrite set_nth_length|split].
      + intros j bj Hj. eapply sub_trans; [|apply F_mono, Hle].
        destruct (getN_set_nth i (F b outs) outs j) as [[<- E]|E]; fold outs' in E; rewrite E.
        * rewrite (T_fun _ _ _ Hj Hin). apply sub_refl.
        * apply Hpost, Hj.
      + intros j. destruct (getN_set_nth i (F b outs) outs j) as [[_ E]|E]; fold outs' in E; rewrite E; auto.
    - pose proof (total_set_nth nbits i (F b outs) outs Hi) as Ht. fold outs' in Ht.
      destruct (N.eqb_spec (F b outs) (getN outs i)) as [E|E].
      + rewrite E in Ht. lia.
      + assert (cnt nbits (getN outs i) < cnt nbits (F b outs)) by (apply cnt_lt; auto). lia.
  Qed.

  Lemma pass_inv todo : incl todo T ->
    forall outs ins d outs' ins' d',
    rd_pass todo outs ins d = (outs', ins', d') -> Inv outs ->
    Inv outs' /\ le_outs outs outs' /\
    total nbits outs + (if d' && negb d then 1 else 0) <= total nbits outs'.
  Proof.
    induction todo as [|[i b] rest IH]; intros Hincl outs ins d outs' ins' d' Hp HI.
    - inversion Hp; subst.
      split; [exact HI|]. split; [apply le_outs_refl|]. destruct d'; simpl; lia.
    - rewrite rd_pass_cons in Hp.
      destruct (step_inv outs i b (Hincl _ (or_introl eq_refl)) HI) as (HI1 & Hle1 & Ht1).
      destruct (IH (fun x Hx => Hincl x (or_intror Hx)) _ _ _ _ _ _ Hp HI1) as (HI2 & Hle2 & Ht2).
      split; [exact HI2|]. split; [eapply le_outs_trans; eauto|].
      destruct (N.eqb (F b outs) (getN outs i)); [lia|].
      destruct d'; [destruct d; simpl; lia|]. now destruct (pass_quiet _ _ _ _ _ _ Hp).
  Qed.

  Lemma loop_terminates fuel : forall outs ins,
    Inv outs -> n * nbits < total nbits outs + fuel ->
    exists r, rd_loop fuel T outs ins = Some r.
  Proof.
    induction fuel as [|f IH]; intros outs ins HI Hm.
    - destruct HI as (Hlen & _). pose proof (total_bound nbits outs). rewrite Hlen in *. lia.
    - simpl. destruct (rd_pass T outs ins false) as [[outs' ins'] d'] eqn:Hp.
      destruct (pass_inv T (incl_refl T) _ _ _ _ _ _ Hp HI) as (HI' & _ & Ht).
      destruct d'; [|eauto].
      apply IH; auto. simpl in Ht. lia.
  Qed.

  Definition is_fixpoint (outs ins : list N) : Prop :=
    forall i b, In (i, b) T ->
      getN ins i = or_parents outs (r_parents b) /\ getN outs i = transfer b (getN ins i).

  Lemma loop_result fuel outs ins outs' ins' :
    Inv outs -> length ins = n ->
    rd_loop fuel T outs ins = Some (outs', ins') ->
    Inv outs' /\ le_outs outs outs' /\ is_fixpoint outs' ins'.
  Proof.
    intros HI Hli Hl.
    destruct (loop_last (fun o i => Inv o /\ le_outs outs o /\ length i = n) T) with (2 := Hl)
      as (i1 & (HI' & Hle & Hli') & Hp).
    - intros o i o' i' d Hp (H1 & H2 & H3).
      destruct (pass_inv T (incl_refl T) _ _ _ _ _ _ Hp H1) as (H1' & H2' & _).
      split; [exact H1'|]. split; [eapply le_outs_trans; eauto|].
      now rewrite (rd_pass_len_ins _ _ _ _ _ _ _ Hp).
    - split; [exact HI|]. split; [apply le_outs_refl|exact Hli].
    - destruct (pass_quiet _ _ _ _ _ _ Hp) as (_ & _ & Hall).
      split; [exact HI'|]. split; [exact Hle|]. intros i b Hin.
      assert (Hi : getN ins' i = or_parents outs' (r_parents b)).
      { eapply pass_ins; eauto. intros i' b' H'. rewrite Hli'. eauto. }
      split; [exact Hi|]. rewrite Hi. symmetry. apply Hall, Hin.
  Qed.
End Pass.

(* ------------------------------------------------------------------ flow.blocks as an indexed list *)
Lemma in_combine_seq {A} (l : list A) : forall s i b,
  In (i, b) (combine (seq s (length l)) l) <-> s <= i < s + length l /\ nth_error l (i - s) = Some b.
Proof.
  induction l as [|a l IH]; intros s i b; simpl.
  - split; [intros []|intros [H _]; lia].
  - rewrite IH. split.
    + intros [H|(H1 & H2)].
      * inversion H; subst. rewrite Nat.sub_diag. split; [lia|reflexivity].
      * split; [lia|]. replace (i - s) with (S (i - S s)) by lia. exact H2.
    + intros (H1 & H2). destruct (Nat.eq_dec i s) as [->|Hn].
      * rewrite Nat.sub_diag in H2. simpl in H2. left. congruence.
      * right. split; [lia|]. replace (i - s) with (S (i - S s)) in H2 by lia. exact H2.
Qed.

Lemma map_fst_combine_seq {A} (l : list A) s : map fst (combine (seq s (length l)) l) = seq s (length l).
Proof. revert s; induction l as [|a l IH]; intros s; simpl; auto. now rewrite IH. Qed.

Lemma todo_of_spec bs i b :
  In (i, b) (todo_of bs) <-> 1 <= i < length bs /\ nth_error bs i = Some b.
Proof.
  unfold todo_of. destruct bs as [|b0 r]; simpl.
  - split; [intros []|intros [H _]; lia].
  - rewrite Nat.sub_0_r, in_combine_seq. split; intros (H1 & H2).
    + split; [lia|]. destruct i; [lia|]. simpl in *. now rewrite Nat.sub_0_r in H2.
    + split; [lia|]. destruct i; [lia|]. simpl in *. now rewrite Nat.sub_0_r.
Qed.

Lemma todo_of_in bs i b : In (i, b) (todo_of bs) -> i < length bs /\ In b bs.
Proof.
  intros H. apply todo_of_spec in H. destruct H as (Hi & Hn).
  split; [lia|exact (nth_error_In _ _ Hn)].
Qed.

Lemma todo_of_nodup bs : NoDup (map fst (todo_of bs)).
Proof.
  unfold todo_of. destruct bs as [|b0 r]; simpl; [constructor|].
  rewrite Nat.sub_0_r, map_fst_combine_seq. apply seq_NoDup.
Qed.

Lemma todo_of_fun bs i b b' : In (i, b) (todo_of bs) -> In (i, b') (todo_of bs) -> b = b'.
Proof. rewrite !todo_of_spec. intros (_ & H1) (_ & H2). congruence. Qed.

Definition rb0 : rblock := mk_rblock [] 0%N 0%N.

Lemma getN_init_outs bs i : getN (init_outs bs) i = r_gen (nth i bs rb0).
Proof. unfold getN, init_outs. apply (map_nth r_gen bs rb0 i). Qed.

Lemma bits_below_0 nbits : bits_below nbits 0%N.
Proof. intros k H. now rewrite N.bits_0 in H. Qed.

Lemma init_inv nbits bs :
  (forall b, In b bs -> bits_below nbits (r_gen b)) ->
  Inv (todo_of bs) (length bs) nbits (init_outs bs).
Proof.
  intros Hg. split; [unfold init_outs; now rewrite map_length|split].
  - intros i b Hin. apply todo_of_spec in Hin. destruct Hin as (Hi & Hn).
    rewrite getN_init_outs. rewrite (nth_error_nth _ _ _ Hn).
    intros k Hk. unfold F. rewrite tb_transfer, Hk. apply orb_true_r.
  - intros i. rewrite getN_init_outs.
    destruct (Nat.lt_ge_cases i (length bs)) as [Hl|Hl].
    + apply Hg, nth_In, Hl.
    + rewrite nth_overflow by lia. apply bits_below_0.
Qed.

(* ================================================================== main theorems, raw level *)

(* the "while dirty" loop stops within blocks*bits+1 passes *)
Theorem rd_terminates nbits bs :
  (forall b, In b bs -> bits_below nbits (r_gen b)) ->
  exists r, reaching_definitions nbits bs = Some r.
Proof.
  intros Hg. unfold reaching_definitions, rd_fuel.
  eapply loop_terminates with (n := length bs) (nbits := nbits).
  - intros i b H. apply (todo_of_in _ _ _ H).
  - apply todo_of_fun.
  - intros i b H. apply Hg, (todo_of_in _ _ _ H).
  - apply init_inv, Hg.
  - lia.
Qed.

(* the data-flow equations *)
Definition rd_equations (bs : list rblock) (outs ins : list N) : Prop :=
  length outs = length bs /\
  getN outs 0 = r_gen (nth 0 bs rb0) /\
  forall i b, 1 <= i < length bs -> nth_error bs i = Some b ->
    getN ins i = or_parents outs (r_parents b) /\ getN outs i = transfer b (getN ins i).

(* the result satisfies the equations (i_input is the join of the parents' i_output, the
   entry point keeps i_output = i_gen) *)
Theorem rd_fixpoint nbits bs outs ins :
  (forall b, In b bs -> bits_below nbits (r_gen b)) ->
  reaching_definitions nbits bs = Some (outs, ins) -> rd_equations bs outs ins.
Proof.
  intros Hg Hr. unfold reaching_definitions in Hr.
  destruct (loop_result (todo_of bs) (length bs) nbits
              (fun i b H => proj1 (todo_of_in bs i b H)) (todo_of_fun bs)
              (fun i b H => Hg b (proj2 (todo_of_in bs i b H))) (todo_of_nodup bs)
              _ _ _ _ _ (init_inv nbits bs Hg) (map_length _ bs) Hr) as ((Hlen & _) & _ & Hfix).
  split; [exact Hlen|split].
  - rewrite (loop_keep (todo_of bs) 0 _ _ _ _ _) with (2 := Hr); [apply getN_init_outs|].
    intros Hin. apply in_map_iff in Hin. destruct Hin as ([i b] & Hi & Hin). simpl in Hi; subst.
    apply todo_of_spec in Hin. lia.
  - intros i b Hi Hn. apply Hfix. apply todo_of_spec. auto.
Qed.

Lemma rd_len_ins nbits bs outs ins :
  reaching_definitions nbits bs = Some (outs, ins) -> length ins = length bs.
Proof. intros H. apply rd_loop_len_ins in H. rewrite H. apply map_length. Qed.

(* least: below every solution of the inequations (hence the least fixpoint) *)
Theorem rd_least nbits bs outs ins Sol :
  reaching_definitions nbits bs = Some (outs, ins) ->
  sub (r_gen (nth 0 bs rb0)) (getN Sol 0) ->
  (forall i b, 1 <= i < length bs -> nth_error bs i = Some b ->
     sub (transfer b (or_parents Sol (r_parents b))) (getN Sol i)) ->
  le_outs outs Sol.
Proof.
  intros Hr H0 HS. unfold reaching_definitions in Hr.
  assert (HS' : forall i b, In (i, b) (todo_of bs) -> sub (F b Sol) (getN Sol i))
    by (intros i b H; apply todo_of_spec in H; destruct H; apply HS; auto).
  eapply loop_below; eauto.
  intros i. rewrite getN_init_outs.
  destruct (Nat.lt_ge_cases i (length bs)) as [Hl|Hl].
  - destruct i as [|i]; [exact H0|].
    assert (Hn : nth_error bs (S i) = Some (nth (S i) bs rb0)) by (apply nth_error_nth'; exact Hl).
    eapply sub_trans; [|apply (HS (S i) _ (conj (le_n_S _ _ (Nat.le_0_l i)) Hl) Hn)].
    intros k Hk. rewrite tb_transfer, Hk. apply orb_true_r.
  - rewrite nth_overflow by lia. intros k Hk. now rewrite N.bits_0 in Hk.
Qed.

(* meet-over-paths soundness.  [flows bs d v]: definition bit d leaves block v at the end of some
   CFG path that starts at a block generating d (the entry point generates every Uninitialized
   bit) and along which no later block kills d without regenerating it. *)
Inductive flows (bs : list rblock) (d : N) : nat -> Prop :=
| flows_gen v b : nth_error bs v = Some b -> N.testbit (r_gen b) d = true -> flows bs d v
| flows_step u v b : flows bs d u -> 1 <= v -> nth_error bs v = Some b -> In u (r_parents b) ->
    N.testbit (r_kill b) d = false -> flows bs d v.

Theorem rd_sound bs outs ins d :
  rd_equations bs outs ins ->
  (forall v, flows bs d v -> N.testbit (getN outs v) d = true) /\
  (forall u v b, flows bs d u -> 1 <= v -> nth_error bs v = Some b -> In u (r_parents b) ->
     N.testbit (getN ins v) d = true).
Proof.
  intros (Hlen & H0 & Heq).
  assert (Hout : forall v, flows bs d v -> N.testbit (getN outs v) d = true).
  { intros v Hf. induction Hf as [v b Hn Hg|u v b Hf IH Hv Hn Hp Hk].
    - assert (Hl : v < length bs) by (apply nth_error_Some; congruence).
      destruct v as [|v].
      + rewrite H0. now rewrite (nth_error_nth _ _ _ Hn).
      + destruct (Heq (S v) b (conj (le_n_S _ _ (Nat.le_0_l v)) Hl) Hn) as (_ & Ho).
        rewrite Ho, tb_transfer, Hg. apply orb_true_r.
    - assert (Hl : v < length bs) by (apply nth_error_Some; congruence).
      destruct (Heq v b (conj Hv Hl) Hn) as (Hi & Ho).
      rewrite Ho, tb_transfer, Hk, Hi, tb_or_parents. simpl. rewrite andb_true_r.
      apply orb_true_iff. left. apply existsb_exists. exists u; auto. }
  split; [exact Hout|].
  intros u v b Hf Hv Hn Hp.
  assert (Hl : v < length bs) by (apply nth_error_Some; congruence).
  destruct (Heq v b (conj Hv Hl) Hn) as (Hi & _).
  rewrite Hi, tb_or_parents. apply existsb_exists. exists u; auto.
Qed.

(* ================================================================== check_definitions hints *)
Lemma tb_bitN j k : N.testbit (bitN j) k = N.eqb (N.of_nat j) k.
Proof. unfold bitN. rewrite N.shiftl_1_l. apply N.pow2_bits_eqb. Qed.

Lemma has_uninit_spec S e : has_uninit S e = N.testbit S (N.of_nat e).
Proof.
  unfold has_uninit. destruct (N.testbit S (N.of_nat e)) eqn:T.
  - destruct (N.eqb_spec (N.land S (bitN e)) 0) as [E|E]; auto.
    assert (H : N.testbit (N.land S (bitN e)) (N.of_nat e) = true)
      by (rewrite N.land_spec, T, tb_bitN, N.eqb_refl; reflexivity).
    rewrite E, N.bits_0 in H. discriminate.
  - replace (N.land S (bitN e)) with 0%N; [reflexivity|].
    symmetry. apply N.bits_inj. intros k. rewrite N.land_spec, tb_bitN, N.bits_0.
    destruct (N.eqb_spec (N.of_nat e) k) as [<-|]; [now rewrite T|apply andb_false_r].
Qed.

Lemma has_other_false mask S e k :
  has_other mask S e = false -> k <> N.of_nat e -> N.testbit (mask e) k = true ->
  N.testbit S k = false.
Proof.
  unfold has_other. intros H Hk Hm. apply negb_false_iff, N.eqb_eq in H.
  assert (H' : N.testbit (N.ldiff (N.land S (mask e)) (bitN e)) k = false) by (rewrite H; apply N.bits_0).
  rewrite N.ldiff_spec, N.land_spec, Hm, tb_bitN in H'.
  destruct (N.eqb_spec (N.of_nat e) k); [congruence|].
  simpl in H'. now rewrite !andb_true_r in H'.
Qed.

(* a name reference/assignment without the cf_maybe_null hint: the Uninitialized bit of the entry is
   not in the state (statically assigned entries never carry the hint and are excluded) *)
Lemma bound_no_uninit mask clo S e :
  classify clo false (has_uninit S e) (has_other mask S e) = Bound ->
  N.testbit S (N.of_nat e) = false.
Proof.
  unfold classify. rewrite has_uninit_spec. destruct (N.testbit S (N.of_nat e)); auto.
  destruct clo; [discriminate|]. destruct (has_other mask S e); discriminate.
Qed.

(* cf_is_null: the Uninitialized bit is in the state and no other definition of the entry is *)
Lemma defnull_only_uninit mask clo sta S e :
  classify clo sta (has_uninit S e) (has_other mask S e) = DefNull ->
  N.testbit S (N.of_nat e) = true /\
  forall k, k <> N.of_nat e -> N.testbit (mask e) k = true -> N.testbit S k = false.
Proof.
  unfold classify. rewrite has_uninit_spec. destruct (N.testbit S (N.of_nat e)); [|discriminate].
  destruct sta; [discriminate|]. destruct clo; [discriminate|].
  destruct (has_other mask S e) eqn:Ho; [discriminate|]. intros _. split; auto.
  intros k Hk Hm. eapply has_other_false; eauto.
Qed.

(* i_state in front of the statement that follows the prefix [pre] of a block *)
Definition state_after (mask : nat -> N) (pre : list (stat * nat)) (x : N) : N :=
  fold_left (stat_step mask) pre x.

(* no run-time check is emitted only where the Uninitialized pseudo-definition of the entry
   cannot arrive: there is no CFG path from a block that generates it (the entry point, or a block
   ending in "del x") to the reference along which it survives *)
Theorem no_check_safe bs outs ins mask clo e v b pre u :
  rd_equations bs outs ins ->
  1 <= v -> nth_error bs v = Some b ->
  classify clo false (has_uninit (state_after mask pre (getN ins v)) e)
                     (has_other mask (state_after mask pre (getN ins v)) e) = Bound ->
  flows bs (N.of_nat e) u -> In u (r_parents b) ->
  (forall x, N.testbit x (N.of_nat e) = true -> N.testbit (state_after mask pre x) (N.of_nat e) = true) ->
  False.
Proof.
  intros Heq Hv Hn Hc Hf Hp Hs. apply bound_no_uninit in Hc.
  destruct (rd_sound bs outs ins (N.of_nat e) Heq) as (_ & Hin).
  rewrite (Hs _ (Hin u v b Hf Hv Hn Hp)) in Hc. discriminate.
Qed.

(* cf_is_null only where no assignment of the entry can arrive along any CFG path *)
Theorem is_null_exact bs outs ins mask clo sta e v b pre u k :
  rd_equations bs outs ins ->
  1 <= v -> nth_error bs v = Some b ->
  classify clo sta (has_uninit (state_after mask pre (getN ins v)) e)
                   (has_other mask (state_after mask pre (getN ins v)) e) = DefNull ->
  k <> N.of_nat e -> N.testbit (mask e) k = true ->        (* k: an assignment of the entry *)
  flows bs k u -> In u (r_parents b) ->
  (forall x, N.testbit x k = true -> N.testbit (state_after mask pre x) k = true) ->
  False.
Proof.
  intros Heq Hv Hn Hc Hk Hm Hf Hp Hs. apply defnull_only_uninit in Hc. destruct Hc as (_ & Hc).
  destruct (rd_sound bs outs ins k Heq) as (_ & Hin).
  specialize (Hc k Hk Hm).
  rewrite (Hs _ (Hin u v b Hf Hv Hn Hp)) in Hc. discriminate.
Qed.

(* the model's [walk] classifies each statement from exactly these states *)
Lemma walk_spec c mask : forall ns x pre p post,
  ns = pre ++ p :: post ->
  nth (length pre) (walk c mask x ns) Bound =
  let e := stat_entry (fst p) in
  classify (nth e (c_closure c) false) (nth e (c_static c) false)
           (has_uninit (state_after mask pre x) e) (has_other mask (state_after mask pre x) e).
Proof.
  intros ns x pre. revert ns x. induction pre as [|q pre IH]; intros ns x p post ->; simpl.
  - reflexivity.
  - apply (IH _ _ p post eq_refl).
Qed.

(* the entry point generates every Uninitialized bit *)
Lemma all_uninit_spec ne k : N.testbit (all_uninit ne) k = true <-> (k < N.of_nat ne)%N.
Proof.
  unfold all_uninit. rewrite (tb_fold_lor bitN), N.bits_0, orb_false_l, existsb_exists. split.
  - intros (e & He & Ht). rewrite tb_bitN in Ht. apply N.eqb_eq in Ht. apply in_seq in He. lia.
  - intros Hk. exists (N.to_nat k). split; [apply in_seq; lia|].
    rewrite tb_bitN, N2Nat.id. apply N.eqb_refl.
Qed.

(* decidable form of bits_below (used by examples) *)
Lemma below_check nbits x : N.ltb x (N.pow 2 (N.of_nat nbits)) = true <-> bits_below nbits x.
Proof.
  split.
  - intros H k Hk. apply N.ltb_lt in H.
    destruct (N.ltb_spec k (N.of_nat nbits)) as [|Hge]; auto.
    assert (x <> 0)%N by (intros ->; now rewrite N.bits_0 in Hk).
    assert (Hl : (N.log2 x < N.of_nat nbits)%N) by (apply N.log2_lt_pow2; lia).
    rewrite N.bits_above_log2 in Hk by lia. discriminate.
  - intros H. apply N.ltb_lt. destruct (N.eq_dec x 0) as [->|Hx].
    + apply N.neq_0_lt_0, N.pow_nonzero. lia.
    + apply N.log2_lt_pow2; [lia|]. apply H. apply N.bit_log2. exact Hx.
Qed.
