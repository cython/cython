(* C43 - proofs about Model/M_Lexicon.v:
   (1) soundness of the inclusion decision procedure: decide_incl a b = VIncluded implies
       L a <= L b for ALL event words (no length bound), VCounter w implies w in L a \ L b;
   (2) Python 3.12's numeric literal grammar is included in the lexicon's number rules (per token
       kind), for the repaired imagconst rule; refuted for the rule as it is (0_7j family), proved
       for the grammar minus that family; string prefixes likewise;
   (3) the decoders behind an INT token are not total on accepted tokens (legacy octal with 8/9;
       more decimal digits than the limit, for every limit); what the repaired p_int_literal
       makes of a failed decoding. *)
From Coq Require Import ZArith NArith List Bool Lia ZifyBool String.
From CyVerif Require Import Model.M_Plex Proof.P_Plex_Deriv Model.M_Lexicon.
Import ListNotations.
Open Scope Z_scope.

Lemma special_eqb_sound s t : special_eqb s t = true -> s = t.
Proof. destruct s, t; cbn; intros H; try discriminate; reflexivity. Qed.

Lemma ere_eqb_sound : forall a b, ere_eqb a b = true -> a = b.
Proof.
  induction a as [| |x y|s|a1 IH1 a2 IH2|a1 IH1 a2 IH2|a1 IH1]; intros b H; destruct b; cbn in H;
    try discriminate; try reflexivity.
  - apply andb_true_iff in H. destruct H as [H1 H2]. apply Z.eqb_eq in H1. apply Z.eqb_eq in H2.
    subst. reflexivity.
  - f_equal. apply special_eqb_sound; assumption.
  - apply andb_true_iff in H. destruct H as [H1 H2]. f_equal; auto.
  - apply andb_true_iff in H. destruct H as [H1 H2]. f_equal; auto.
  - f_equal; auto.
Qed.

Lemma L_alt_iff a b w : L (EAlt a b) w <-> L a w \/ L b w.
Proof.
  split.
  - intros H. inversion H; subst; auto.
  - intros [H|H]; [apply L_alt_l|apply L_alt_r]; assumption.
Qed.
Lemma L_seq_iff a b w : L (ESeq a b) w <-> exists w1 w2, w = w1 ++ w2 /\ L a w1 /\ L b w2.
Proof.
  split.
  - intros H. inversion H; subst. eauto.
  - intros (w1 & w2 & -> & H1 & H2). constructor; assumption.
Qed.
Lemma L_eps_iff w : L EEps w <-> w = [].
Proof. split; [intros H; inversion H; reflexivity|intros ->; constructor]. Qed.
Lemma L_empty_iff w : L EEmpty w <-> False.
Proof. split; [intros H; inversion H|tauto]. Qed.

Lemma is_empty_spec r : is_empty r = true -> r = EEmpty.
Proof. destruct r; cbn; intros H; try discriminate; reflexivity. Qed.
Lemma is_eps_spec r : is_eps r = true -> r = EEps.
Proof. destruct r; cbn; intros H; try discriminate; reflexivity. Qed.

Lemma alt_mem_sound x : forall r, alt_mem x r = true -> forall w, L x w -> L r w.
Proof.
  induction r as [| |c0 c1|s|a IHa b IHb|a IHa b IHb|a IHa]; cbn [alt_mem]; intros H w Hx;
    try (apply ere_eqb_sound in H; subst; assumption).
  apply orb_true_iff in H. destruct H as [H|H]; [apply L_alt_l|apply L_alt_r]; auto.
Qed.

Lemma mk_alt_base a b w :
  L (if is_empty b then a else if alt_mem a b then b else EAlt a b) w <-> L a w \/ L b w.
Proof.
  destruct (is_empty b) eqn:Eb.
  - apply is_empty_spec in Eb. subst. rewrite L_empty_iff. tauto.
  - destruct (alt_mem a b) eqn:Em.
    + split; [tauto|]. intros [H|H]; [eapply alt_mem_sound; eauto|assumption].
    + apply L_alt_iff.
Qed.

Lemma mk_alt_L : forall a b w, L (mk_alt a b) w <-> L a w \/ L b w.
Proof.
  induction a as [| |c0 c1|s|a1 IH1 a2 IH2|a1 IH1 a2 IH2|a1 IH1]; intros b w; cbn [mk_alt];
    try apply mk_alt_base.
  - rewrite L_empty_iff. tauto.
  - rewrite IH1, IH2, L_alt_iff. tauto.
Qed.

Lemma mk_seq_L a b w : L (mk_seq a b) w <-> L (ESeq a b) w.
Proof.
  unfold mk_seq. rewrite L_seq_iff.
  destruct (is_empty a) eqn:Ea.
  { apply is_empty_spec in Ea. subst. cbn. rewrite L_empty_iff. split; [tauto|].
    intros (w1 & w2 & _ & H & _). inversion H. }
  destruct (is_empty b) eqn:Eb.
  { apply is_empty_spec in Eb. subst. cbn. rewrite L_empty_iff. split; [tauto|].
    intros (w1 & w2 & _ & _ & H). inversion H. }
  cbn [orb].
  destruct (is_eps a) eqn:Ea2.
  { apply is_eps_spec in Ea2. subst. split.
    - intros H. exists [], w. repeat split; [constructor|assumption].
    - intros (w1 & w2 & -> & H1 & H2). inversion H1; subst. assumption. }
  destruct (is_eps b) eqn:Eb2.
  { apply is_eps_spec in Eb2. subst. split.
    - intros H. exists w, []. rewrite app_nil_r. repeat split; [assumption|constructor].
    - intros (w1 & w2 & -> & H1 & H2). inversion H2; subst. rewrite app_nil_r. assumption. }
  apply L_seq_iff.
Qed.

Lemma seq_cong a a' b w : (forall u, L a u <-> L a' u) -> L (ESeq a b) w <-> L (ESeq a' b) w.
Proof.
  intros H. rewrite !L_seq_iff. split; intros (w1 & w2 & E & H1 & H2); exists w1, w2;
    (split; [assumption|split; [apply H; assumption|assumption]]).
Qed.

Lemma n_deriv_L e : forall r w, L (n_deriv e r) w <-> L (e_deriv e r) w.
Proof.
  induction r as [| |c0 c1|s|a IHa b IHb|a IHa b IHb|a IHa]; intros w; cbn [n_deriv e_deriv];
    try tauto.
  - destruct (e_nullable a).
    + rewrite mk_alt_L, mk_seq_L, L_alt_iff, IHb, (seq_cong _ _ _ _ IHa). tauto.
    + rewrite mk_seq_L. apply seq_cong. assumption.
  - rewrite mk_alt_L, L_alt_iff, IHa, IHb. tauto.
  - rewrite mk_seq_L. apply seq_cong. assumption.
Qed.

Lemma n_deriv_step e r w : L (n_deriv e r) w <-> L r (e :: w).
Proof. rewrite n_deriv_L. apply deriv_correct_step. Qed.

Theorem n_matches_correct : forall w r, n_matches r w = true <-> L r w.
Proof.
  induction w as [|e t IH]; intros r; cbn [n_matches].
  - apply nullable_correct.
  - rewrite IH. apply n_deriv_step.
Qed.

Lemma zmem_In x l : zmem x l = true -> In x l.
Proof.
  induction l as [|y t IH]; cbn; [discriminate|]. intros H. apply orb_true_iff in H.
  destruct H as [H|H]; [left; lia|right; auto].
Qed.

Lemma low_of_lt bs b : In b bs -> low_of bs < b.
Proof.
  unfold low_of. induction bs as [|x t IH]; cbn [fold_right In]; [tauto|].
  intros [->|H]; [lia|]. specialize (IH H). lia.
Qed.

Lemma rep_code_cases bs low c : rep_code bs low c = low \/ (In (rep_code bs low c) bs /\ rep_code bs low c <= c).
Proof.
  induction bs as [|b t IH]; cbn [rep_code]; [left; reflexivity|].
  destruct ((b <=? c) && (rep_code t low c <? b)) eqn:E.
  - right. split; [left; reflexivity|lia].
  - destruct IH as [IH|[IH1 IH2]]; [left; assumption|right; split; [right; assumption|assumption]].
Qed.

Lemma rep_code_ge bs low c b : In b bs -> b <= c -> b <= rep_code bs low c.
Proof.
  induction bs as [|x t IH]; cbn [rep_code In]; [tauto|].
  intros [->|H] Hc.
  - destruct ((b <=? c) && (rep_code t low c <? b)) eqn:E; lia.
  - specialize (IH H Hc). destruct ((x <=? c) && (rep_code t low c <? x)) eqn:E; lia.
Qed.

Lemma ev_matches_rep bs c0 c1 e :
  In c0 bs -> In c1 bs -> ev_matches c0 c1 (rep_event bs e) = ev_matches c0 c1 e.
Proof.
  intros H0 H1. destruct e as [c| | | |]; cbn [rep_event ev_matches]; try reflexivity.
  pose proof (low_of_lt bs c0 H0) as L0. pose proof (low_of_lt bs c1 H1) as L1.
  pose proof (rep_code_ge bs (low_of bs) c c0 H0) as G0.
  pose proof (rep_code_ge bs (low_of bs) c c1 H1) as G1.
  destruct (rep_code_cases bs (low_of bs) c) as [E|[_ E]]; lia.
Qed.

Lemma ev_is_rep bs s e : ev_is s (rep_event bs e) = ev_is s e.
Proof. destruct e; reflexivity. Qed.

Lemma n_deriv_rep bs e : forall r, bounds_in bs r = true -> n_deriv (rep_event bs e) r = n_deriv e r.
Proof.
  induction r as [| |c0 c1|s|a IHa b IHb|a IHa b IHb|a IHa]; cbn [bounds_in n_deriv]; intros H;
    try reflexivity.
  - apply andb_true_iff in H. destruct H as [H0 H1].
    rewrite (ev_matches_rep bs c0 c1 e (zmem_In _ _ H0) (zmem_In _ _ H1)). reflexivity.
  - rewrite ev_is_rep. reflexivity.
  - apply andb_true_iff in H. destruct H as [Ha Hb]. rewrite (IHa Ha), (IHb Hb). reflexivity.
  - apply andb_true_iff in H. destruct H as [Ha Hb]. rewrite (IHa Ha), (IHb Hb). reflexivity.
  - rewrite (IHa H). reflexivity.
Qed.

Lemma rep_in_alphabet bs e : In (rep_event bs e) (alphabet bs).
Proof.
  unfold alphabet. destruct e as [c| | | |]; cbn [rep_event].
  - destruct (rep_code_cases bs (low_of bs) c) as [E|[E _]].
    + rewrite E. cbn. tauto.
    + do 5 right. apply in_map. assumption.
  - cbn; tauto.
  - cbn; tauto.
  - cbn; tauto.
  - cbn; tauto.
Qed.

Lemma pmem_In p l : pmem p l = true -> In p l.
Proof.
  induction l as [|q t IH]; cbn [pmem]; [discriminate|]. intros H. apply orb_true_iff in H.
  destruct H as [H|H]; [|right; auto]. left. unfold pair_eqb in H. apply andb_true_iff in H.
  destruct H as [H1 H2]. apply ere_eqb_sound in H1. apply ere_eqb_sound in H2.
  destruct p, q; cbn in *; subst; reflexivity.
Qed.

Lemma closed_sound bs ps : closed_b bs ps = true ->
  forall w p, In p ps -> L (fst p) w -> L (snd p) w.
Proof.
  intros HC. unfold closed_b in HC. rewrite forallb_forall in HC.
  (* the certificate in the form used below: successors by every event, not only the representatives *)
  assert (HC' : forall p, In p ps -> pair_ok p = true /\ forall e, In (succ e p) ps).
  { intros p Hp. specialize (HC p Hp). rewrite !andb_true_iff, forallb_forall in HC.
    destruct HC as (((Hok & Hb1) & Hb2) & Hsucc). split; [exact Hok|]. intros e.
    replace (succ e p) with (succ (rep_event bs e) p)
      by (unfold succ; rewrite (n_deriv_rep bs e _ Hb1), (n_deriv_rep bs e _ Hb2); reflexivity).
    apply pmem_In, Hsucc, rep_in_alphabet. }
  induction w as [|e t IH]; intros p Hp HL; destruct (HC' p Hp) as (Hok & Hsucc).
  - unfold pair_ok in Hok. apply nullable_correct. apply nullable_correct in HL. rewrite HL in Hok. exact Hok.
  - apply n_deriv_step, (IH _ (Hsucc e)), n_deriv_step. exact HL.
Qed.

Theorem decide_incl_included fuel a b :
  decide_incl fuel a b = VIncluded -> forall w, L a w -> L b w.
Proof.
  unfold decide_incl. intros H w.
  destruct (explore fuel _ _ _) as [ps|cw|]; try discriminate.
  - destruct (pmem (a, b) ps && closed_b (dedupz (bounds a ++ bounds b)) ps) eqn:E; try discriminate.
    apply andb_true_iff in E. destruct E as [E1 E2]. apply pmem_In in E1.
    exact (closed_sound _ _ E2 w (a, b) E1).
  - destruct (e_matches a cw && negb (e_matches b cw)); discriminate.
Qed.

Theorem decide_incl_counter fuel a b cw :
  decide_incl fuel a b = VCounter cw -> L a cw /\ ~ L b cw.
Proof.
  unfold decide_incl. intros H.
  destruct (explore fuel _ _ _) as [ps|cw'|]; try discriminate.
  - destruct (pmem (a, b) ps && closed_b (dedupz (bounds a ++ bounds b)) ps); discriminate.
  - destruct (e_matches a cw' && negb (e_matches b cw')) eqn:E; try discriminate.
    injection H as ->. apply andb_true_iff in E. destruct E as [E1 E2].
    split; [apply derivative_correct; assumption|].
    intros HL. apply derivative_correct in HL. rewrite HL in E2. discriminate.
Qed.

(* the verdict as one statement *)
Definition verdict_meaning (a b : ere) (v : verdict) : Prop :=
  match v with
  | VIncluded => forall w, L a w -> L b w
  | VCounter cw => L a cw /\ ~ L b cw
  | VUnknown => True
  end.
Theorem decide_incl_spec fuel a b : verdict_meaning a b (decide_incl fuel a b).
Proof.
  destruct (decide_incl fuel a b) eqn:E; cbn.
  - eapply decide_incl_included; eauto.
  - eapply decide_incl_counter; eauto.
  - exact I.
Qed.

(* (2) the literal grammars *)
Definition included (a b : ere) : Prop := forall w, L a w -> L b w.

Lemma integers_included : included py_integer lex_int.
Proof. unfold included. apply (decide_incl_included incl_fuel). vm_compute. reflexivity. Qed.
Lemma floats_included : included py_floatnumber lex_float.
Proof. unfold included. apply (decide_incl_included incl_fuel). vm_compute. reflexivity. Qed.
Lemma imag_included_fixed : included py_imagnumber (lex_imag true).
Proof. unfold included. apply (decide_incl_included incl_fuel). vm_compute. reflexivity. Qed.
Lemma imag_included_known : included py_imagnumber_known (lex_imag false).
Proof. unfold included. apply (decide_incl_included incl_fuel). vm_compute. reflexivity. Qed.

Lemma L_ealt3 a b c w : L (ealt [a; b; c]) w <-> L a w \/ L b w \/ L c w.
Proof. cbn [ealt]. rewrite !L_alt_iff. tauto. Qed.

(* every Python 3.12 number literal is matched, as one whole token of the right kind, by the
   repaired lexicon *)
Theorem number_literals_included : forall w,
  (L py_integer w -> L lex_int w) /\ (L py_floatnumber w -> L lex_float w) /\
  (L py_imagnumber w -> L (lex_imag true) w) /\ (L py_number w -> L (lex_number true) w).
Proof.
  intros w. pose proof (integers_included w) as H1. pose proof (floats_included w) as H2.
  pose proof (imag_included_fixed w) as H3. repeat split; auto.
  unfold py_number, lex_number. rewrite L_ealt3, !L_alt_iff. tauto.
Qed.

(* the rule as it is in the tree: refuted ... *)
Definition imag_witness : list event := word "0_7j".
Theorem number_literals_included_refuted :
  L py_number imag_witness /\ L py_imagnumber imag_witness /\ ~ L (lex_number false) imag_witness.
Proof.
  split; [|split].
  - apply derivative_correct. vm_compute. reflexivity.
  - apply derivative_correct. vm_compute. reflexivity.
  - intros H. apply derivative_correct in H. vm_compute in H. discriminate.
Qed.
(* ... and what the decision procedure itself reports for it *)
Theorem number_literals_decided_old :
  exists cw, decide_incl incl_fuel py_number (lex_number false) = VCounter cw.
Proof. eexists. vm_compute. reflexivity. Qed.

(* ... and proved outside the finding class (imaginary literals whose digit part has a leading zero,
   an underscore and a non-zero digit) *)
Theorem number_literals_included_partial : forall w,
  L py_number_known w -> L (lex_number false) w.
Proof.
  intros w. unfold py_number_known, lex_number. rewrite L_ealt3, !L_alt_iff.
  pose proof (integers_included w). pose proof (floats_included w). pose proof (imag_included_known w).
  tauto.
Qed.

(* both variants in one statement: what holds for the rule selected by the flag *)
Theorem number_literals_tree (fixed : bool) : forall w,
  L (if fixed then py_number else py_number_known) w -> L (lex_number fixed) w.
Proof.
  destruct fixed; intros w; [apply number_literals_included|apply number_literals_included_partial].
Qed.

Theorem string_prefixes_included : included py_strbegin lex_strbegin.
Proof. unfold included. apply (decide_incl_included incl_fuel). vm_compute. reflexivity. Qed.

(* (3) the integer decoders *)
Definition py_lim : Z := 4300.   (* sys.get_int_max_str_digits() default *)

(* legacy octal-looking token with a digit 8: accepted by the INT rule, the decoder raises *)
Theorem str_to_number_total_refuted_octal :
  L lex_int (word "08") /\ decode_int_token py_lim (codes "08") = S2N_BadDigit
  /\ int_token_outcome false py_lim (codes "08") = InternalCrash
  /\ int_token_outcome true py_lim (codes "08") = PositionedError.
Proof.
  split; [apply derivative_correct; vm_compute; reflexivity|].
  split; [|split]; vm_compute; reflexivity.
Qed.

(* F13: more than lim decimal digits.  A run of one character is followed through the derivatives:
   once a derivative is its own derivative, only its nullability matters. *)
Lemma n_matches_repeat_fix e r n : n_deriv e r = r -> n_matches r (repeat e n) = e_nullable r.
Proof. intros H. induction n as [|n IH]; [reflexivity|]. cbn [repeat n_matches]. rewrite H. exact IH. Qed.

Lemma n_matches_run e r n :
  let r1 := n_deriv e r in let r2 := n_deriv e r1 in
  e_nullable r1 = true -> e_nullable r2 = true -> n_deriv e r2 = r2 ->
  n_matches r (repeat e (S n)) = true.
Proof.
  intros r1 r2 H1 H2 H3. cbn [repeat n_matches]. fold r1. destruct n as [|n]; [exact H1|].
  cbn [repeat n_matches]. fold r2. rewrite n_matches_repeat_fix; assumption.
Qed.

Lemma map_repeat {A B} (f : A -> B) x n : map f (repeat x n) = repeat (f x) n.
Proof. induction n as [|n IH]; [reflexivity|]. cbn [repeat map]. rewrite IH. reflexivity. Qed.
Lemma rev_repeat {A} (x : A) n : rev (repeat x n) = repeat x n.
Proof.
  induction n as [|n IH]; [reflexivity|]. cbn [repeat rev]. rewrite IH. symmetry. apply repeat_cons.
Qed.

Definition ones (n : Z) : list Z := repeat 49 (Z.to_nat n).

Lemma ones_event_run n : 0 < n -> exists k, map EvChar (ones n) = repeat (EvChar 49) (S k).
Proof.
  intros H. exists (Nat.pred (Z.to_nat n)). unfold ones. rewrite map_repeat. f_equal. lia.
Qed.
Lemma int_token_value_ones k : int_token_value (repeat 49 k) = repeat 49 k.
Proof.
  unfold int_token_value.
  replace (strip_underscores (repeat 49 k)) with (repeat 49 k)
    by (induction k as [|k IH]; [reflexivity|]; cbn; f_equal; exact IH).
  rewrite rev_repeat. destruct k; [reflexivity|]. cbn [repeat drop_suffix_rev].
  change (is_suffix_char 49) with false. cbv iota. apply (rev_repeat 49 (S k)).
Qed.
Lemma digits_val_ones k : forall acc, digits_val 10 acc (repeat 49 k) <> None.
Proof. induction k as [|k IH]; intros acc; [discriminate|]. exact (IH (acc * 10 + 1)). Qed.

Lemma py_int_base_too_long lim l :
  digits_val 10 0 l <> None -> 0 <= lim < Z.of_nat (List.length l) -> py_int_base lim 10 l = S2N_TooLong.
Proof.
  intros Hd H. unfold py_int_base. destruct l as [|c t]; [cbn in H; lia|].
  destruct (digits_val 10 0 (c :: t)); [|contradiction].
  replace (lim <? _) with true by lia. reflexivity.
Qed.

Theorem str_to_number_total_refuted_above lim n : 0 <= lim < n ->
  L lex_int (map EvChar (ones n)) /\ L py_integer (map EvChar (ones n))
  /\ decode_int_token lim (ones n) = S2N_TooLong
  /\ int_token_outcome false lim (ones n) = InternalCrash
  /\ int_token_outcome true lim (ones n) = PositionedError.
Proof.
  intros H.
  assert (D : decode_int_token lim (ones n) = S2N_TooLong).
  { unfold decode_int_token, ones. rewrite int_token_value_ones.
    replace (str_to_number lim (repeat 49 (Z.to_nat n))) with (py_int_base lim 10 (repeat 49 (Z.to_nat n)))
      by (destruct (Z.to_nat n) as [|[|k]]; reflexivity).
    apply py_int_base_too_long; [apply digits_val_ones|rewrite repeat_length; lia]. }
  unfold int_token_outcome. rewrite D. destruct (ones_event_run n ltac:(lia)) as [k ->].
  repeat split; apply n_matches_correct, n_matches_run; vm_compute; reflexivity.
Qed.

(* with the repaired p_int_literal no INT token text whatsoever reaches an internal error *)
Theorem int_token_never_crashes_fixed : forall lim t, int_token_outcome true lim t <> InternalCrash.
Proof. intros lim t. unfold int_token_outcome. destruct (decode_int_token lim t); discriminate. Qed.
