From Coq Require Import List Bool Arith Lia Permutation.
From CyVerif Require Import Model.M_Session.
Import ListNotations.

Lemma pair_eqb_eq x y : pair_eqb x y = true <-> x = y.
Proof.
  destruct x as [a b], y as [a' b']. unfold pair_eqb. cbn.
  rewrite andb_true_iff, !Nat.eqb_eq. split; [intros [-> ->]; reflexivity|intros H; inversion H; auto].
Qed.

Lemma mem_pair_In x l : mem_pair x l = true <-> In x l.
Proof.
  unfold mem_pair. rewrite existsb_exists. split.
  - intros [y [Hy E]]. apply pair_eqb_eq in E. now subst.
  - intros H. exists x. split; [exact H|now apply pair_eqb_eq].
Qed.

Lemma mem_nat_In x l : mem_nat x l = true <-> In x l.
Proof.
  unfold mem_nat. rewrite existsb_exists. split.
  - intros [y [Hy E]]. apply Nat.eqb_eq in E. now subst.
  - intros H. exists x. split; [exact H|now apply Nat.eqb_eq].
Qed.

Lemma mem_pair_ext x l1 l2 : (In x l1 <-> In x l2) -> mem_pair x l1 = mem_pair x l2.
Proof.
  intros H. destruct (mem_pair x l1) eqn:E1, (mem_pair x l2) eqn:E2; try reflexivity.
  - apply mem_pair_In, H, mem_pair_In in E1. congruence.
  - apply mem_pair_In, H, mem_pair_In in E2. congruence.
Qed.

Lemma load_marks c p : marks (fst (load c p)) = marks c.
Proof. unfold load. destruct (mem_nat p (loaded c)); reflexivity. Qed.

Lemma load_loaded c p q : In q (loaded (fst (load c p))) <-> q = p \/ In q (loaded c).
Proof.
  unfold load. destruct (mem_nat p (loaded c)) eqn:E; cbn.
  - apply mem_nat_In in E. split; [auto|intros [->|H]; auto].
  - split; [intros [<-|H]; auto|intros [->|H]; auto].
Qed.

Lemma load_parsed c p q : In q (snd (load c p)) <-> q = p /\ ~ In p (loaded c).
Proof.
  unfold load. destruct (mem_nat p (loaded c)) eqn:E; cbn.
  - apply mem_nat_In in E. split; [tauto|intros [_ H]; auto].
  - assert (~ In p (loaded c)) by (intros H; apply mem_nat_In in H; congruence).
    split; [intros [<-|[]]; auto|intros [-> _]; auto].
Qed.

Lemma load_all_cons c ci r :
  load_all c (ci :: r)
  = (fst (load_all (fst (load c (fst ci))) r),
     snd (load c (fst ci)) ++ snd (load_all (fst (load c (fst ci))) r)).
Proof. cbn. destruct (load c (fst ci)) as [c1 ps]. cbn. destruct (load_all c1 r). reflexivity. Qed.

Lemma load_all_marks m : forall c, marks (fst (load_all c m)) = marks c.
Proof.
  induction m as [|ci r IH]; intros c; [reflexivity|].
  rewrite load_all_cons. cbn [fst]. rewrite IH. apply load_marks.
Qed.

Lemma load_all_loaded m : forall c q, In q (loaded (fst (load_all c m))) <-> In q (map fst m) \/ In q (loaded c).
Proof.
  induction m as [|ci r IH]; intros c q; [cbn; tauto|].
  rewrite load_all_cons. cbn [fst map In]. rewrite IH, load_loaded.
  split; [intros [?|[?|?]]|intros [[?|?]|?]]; auto.
Qed.

Lemma load_all_parsed m : forall c q,
  In q (snd (load_all c m)) <-> In q (map fst m) /\ ~ In q (loaded c).
Proof.
  induction m as [|ci r IH]; intros c q; [cbn; tauto|].
  rewrite load_all_cons. cbn [fst snd map In]. rewrite in_app_iff, IH, load_parsed, load_loaded.
  destruct (Nat.eq_dec q (fst ci)) as [->|Hne]; intuition congruence.
Qed.

Lemma compile_eq pxds c m :
  compile pxds c m
  = (mark_all (fst (load_all c m)) m,
     (snd (load_all c m), emit pxds (mark_all (fst (load_all c m)) m) m)).
Proof. unfold compile. destruct (load_all c m). reflexivity. Qed.

Lemma compile_marks pxds c m : marks (fst (compile pxds c m)) = uses_of m ++ marks c.
Proof. rewrite compile_eq. cbn. now rewrite load_all_marks. Qed.

Lemma compile_loaded pxds c m q :
  In q (loaded (fst (compile pxds c m))) <-> In q (map fst m) \/ In q (loaded c).
Proof. rewrite compile_eq. apply load_all_loaded. Qed.

Lemma compile_parsed pxds c m q :
  In q (fst (snd (compile pxds c m))) <-> In q (map fst m) /\ ~ In q (loaded c).
Proof. rewrite compile_eq. apply load_all_parsed. Qed.

(* only the marks on the used-only entries of the scope matter *)
Lemma emit_pxd_marks_ext pxds c c' p :
  (forall i, i < length (entries_of pxds p) -> nth i (entries_of pxds p) KAlways = KUsed ->
             (In (p, i) (marks c) <-> In (p, i) (marks c'))) ->
  emit_pxd pxds c p = emit_pxd pxds c' p.
Proof.
  intros H. unfold emit_pxd. f_equal. apply filter_ext_in. intros i Hi. apply in_seq in Hi.
  destruct (nth i (entries_of pxds p) KAlways) eqn:Ek; cbn [emits]; [reflexivity|].
  apply mem_pair_ext, H; [lia|exact Ek].
Qed.

Lemma compile_out pxds c m :
  snd (snd (compile pxds c m)) = emit pxds (mkctx [] (uses_of m ++ marks c)) m.
Proof.
  rewrite compile_eq. apply flat_map_ext. intros ci. apply emit_pxd_marks_ext. intros i _ _.
  cbn. now rewrite load_all_marks.
Qed.

Lemma emit_pxd_spec pxds c p q i :
  In (q, i) (emit_pxd pxds c p) <->
  q = p /\ i < length (entries_of pxds p) /\
  emits (nth i (entries_of pxds p) KAlways) (mem_pair (p, i) (marks c)) = true.
Proof.
  unfold emit_pxd. rewrite in_map_iff. split.
  - intros [j [E Hj]]. inversion E; subst. apply filter_In in Hj. destruct Hj as [Hs He].
    apply in_seq in Hs. split; [reflexivity|]. split; [lia|exact He].
  - intros [-> [Hl He]]. exists i. split; [reflexivity|]. apply filter_In. split; [apply in_seq; lia|exact He].
Qed.

Lemma emit_spec pxds c m p i :
  In (p, i) (emit pxds c m) <->
  In p (map fst m) /\ i < length (entries_of pxds p) /\
  emits (nth i (entries_of pxds p) KAlways) (mem_pair (p, i) (marks c)) = true.
Proof.
  unfold emit. rewrite in_flat_map. split.
  - intros [ci [Hci H]]. apply emit_pxd_spec in H. destruct H as [-> H]. split; [now apply in_map|exact H].
  - intros [Hp H]. apply in_map_iff in Hp. destruct Hp as [ci [<- Hci]]. exists ci. split; [exact Hci|].
    apply emit_pxd_spec. split; [reflexivity|exact H].
Qed.

Lemma emits_spec k b : emits k b = true <-> k = KAlways \/ b = true.
Proof. destruct k, b; cbn; split; auto; intros [H|H]; congruence. Qed.

Lemma uses_of_cimported m p i : In (p, i) (uses_of m) -> In p (map fst m).
Proof.
  unfold uses_of. rewrite in_flat_map. intros [ci [Hci H]]. apply in_map_iff in H.
  destruct H as [j [E _]]. inversion E; subst. now apply in_map.
Qed.

(* what one compilation writes, for any context it is started with *)
Lemma compile_out_spec pxds c m p i :
  In (p, i) (snd (snd (compile pxds c m))) <->
  In p (map fst m) /\ i < length (entries_of pxds p) /\
  (nth i (entries_of pxds p) KAlways = KAlways \/ In (p, i) (uses_of m) \/ In (p, i) (marks c)).
Proof.
  rewrite compile_out, emit_spec. cbn [marks]. rewrite emits_spec, mem_pair_In, in_app_iff. tauto.
Qed.

Theorem session_reset_isolated pxds ms : session pxds true fresh ms = map (isolated pxds) ms.
Proof.
  induction ms as [|m r IH]; cbn; [reflexivity|]. unfold isolated at 1.
  destruct (compile pxds fresh m) as [c' o]. cbn. now rewrite IH.
Qed.

Theorem session_reset_nth pxds ms i m :
  nth_error ms i = Some m -> nth_error (session pxds true fresh ms) i = Some (isolated pxds m).
Proof. intros H. rewrite session_reset_isolated. now apply map_nth_error. Qed.

Theorem session_reset_order_independent pxds ms ms' :
  Permutation ms ms' ->
  Permutation (combine ms (session pxds true fresh ms)) (combine ms' (session pxds true fresh ms')).
Proof.
  intros Hp. rewrite !session_reset_isolated.
  assert (E : forall l, combine l (map (isolated pxds) l) = map (fun m => (m, isolated pxds m)) l).
  { induction l as [|x l IH]; cbn; [reflexivity|now rewrite IH]. }
  rewrite !E. now apply Permutation_map.
Qed.

(* a component of the context that each compilation extends by what the module contributes *)
Lemma run_spec {X} (g : context -> list X) (h : module -> list X) pxds :
  (forall c m x, In x (g (fst (compile pxds c m))) <-> In x (h m) \/ In x (g c)) ->
  forall ms c x, In x (g (run pxds c ms)) <-> (exists m, In m ms /\ In x (h m)) \/ In x (g c).
Proof.
  intros Hg. induction ms as [|m r IH]; intros c x; cbn.
  - split; [auto|intros [[m [[] _]]|H]; exact H].
  - rewrite IH, Hg. split.
    + intros [[m' [H1 H2]]|[H|H]]; [left; exists m'; auto|left; exists m; auto|auto].
    + intros [[m' [[<-|H1] H2]]|H]; [auto|left; exists m'; auto|auto].
Qed.

Lemma run_marks pxds ms c x :
  In x (marks (run pxds c ms)) <-> (exists m, In m ms /\ In x (uses_of m)) \/ In x (marks c).
Proof. apply (run_spec marks uses_of). intros. rewrite compile_marks. apply in_app_iff. Qed.

Lemma run_loaded pxds ms c q :
  In q (loaded (run pxds c ms)) <-> (exists m, In m ms /\ In q (map fst m)) \/ In q (loaded c).
Proof. apply (run_spec loaded (map fst)), compile_loaded. Qed.

Lemma session_noreset_nth_gen pxds prefix : forall c m rest,
  nth_error (session pxds false c (prefix ++ m :: rest)) (length prefix) =
  Some (snd (compile pxds (run pxds c prefix) m)).
Proof.
  induction prefix as [|a r IH]; intros c m rest; cbn.
  - destruct (compile pxds c m) as [c' o]. reflexivity.
  - destruct (compile pxds c a) as [c' o] eqn:E. cbn. apply IH.
Qed.

(* the element of a context-keeping session at position |prefix| is [after prefix m] *)
Theorem session_noreset_nth pxds prefix m rest :
  nth_error (session pxds false fresh (prefix ++ m :: rest)) (length prefix) = Some (after pxds prefix m).
Proof. apply session_noreset_nth_gen. Qed.

(* exactly which declarations a module gets when the context is kept *)
Theorem after_out_spec pxds prefix m p i :
  In (p, i) (snd (after pxds prefix m)) <->
  In p (map fst m) /\ i < length (entries_of pxds p) /\
  (nth i (entries_of pxds p) KAlways = KAlways \/ In (p, i) (uses_of m) \/
   exists m', In m' prefix /\ In (p, i) (uses_of m')).
Proof.
  unfold after. rewrite compile_out_spec, run_marks. cbn [marks fresh In]. tauto.
Qed.

Theorem isolated_out_spec pxds m p i :
  In (p, i) (snd (isolated pxds m)) <->
  In p (map fst m) /\ i < length (entries_of pxds p) /\
  (nth i (entries_of pxds p) KAlways = KAlways \/ In (p, i) (uses_of m)).
Proof.
  unfold isolated. rewrite compile_out_spec. cbn [marks fresh In]. tauto.
Qed.

(* which .pxd files a module parses when the context is kept: those no earlier module loaded *)
Theorem after_parsed_spec pxds prefix m q :
  In q (fst (after pxds prefix m)) <->
  In q (map fst m) /\ forall m', In m' prefix -> ~ In q (map fst m').
Proof.
  unfold after. rewrite compile_parsed, run_loaded. cbn [loaded fresh]. split.
  - intros [H1 H2]. split; [exact H1|]. intros m' Hm' Hq. apply H2. left. exists m'. auto.
  - intros [H1 H2]. split; [exact H1|]. intros [[m' [Hm' Hq]]|[]]. exact (H2 m' Hm' Hq).
Qed.

Theorem isolated_parsed_spec pxds m q : In q (fst (isolated pxds m)) <-> In q (map fst m).
Proof. unfold isolated. rewrite compile_parsed. cbn. tauto. Qed.

(* keeping the context is harmless exactly as long as no earlier module marked a used-only entry
   of a scope this module cimports that the module does not mark itself *)
Theorem after_eq_isolated pxds prefix m :
  (forall m' p i, In m' prefix -> In (p, i) (uses_of m') -> In p (map fst m) ->
                  i < length (entries_of pxds p) -> nth i (entries_of pxds p) KAlways = KUsed ->
                  In (p, i) (uses_of m)) ->
  snd (after pxds prefix m) = snd (isolated pxds m).
Proof.
  intros H. unfold after, isolated. rewrite !compile_out.
  unfold emit. rewrite !flat_map_concat_map. f_equal. apply map_ext_in. intros ci Hci. apply emit_pxd_marks_ext. intros i Hl Hk.
  cbn [marks fresh]. rewrite !in_app_iff, run_marks. cbn [marks fresh]. split.
  - intros [Hu|[[m' [Hm' Hu]]|[]]]; [auto|]. left.
    apply (H m' (fst ci) i Hm' Hu); [now apply in_map|exact Hl|exact Hk].
  - intros [Hu|[]]. auto.
Qed.

(* in particular for batches whose modules do not share any .pxd *)
Corollary after_eq_isolated_disjoint pxds prefix m :
  (forall m' p, In m' prefix -> In p (map fst m') -> ~ In p (map fst m)) ->
  snd (after pxds prefix m) = snd (isolated pxds m).
Proof.
  intros H. apply after_eq_isolated. intros m' p i Hm' Hu Hp _ _.
  exfalso. apply (H m' p Hm'); [now apply uses_of_cimported in Hu|exact Hp].
Qed.

(* ... and it does show as soon as one such mark exists: for EVERY batch of that shape *)
Theorem after_neq_isolated pxds prefix m m' p i :
  In m' prefix -> In (p, i) (uses_of m') -> In p (map fst m) ->
  i < length (entries_of pxds p) -> nth i (entries_of pxds p) KAlways = KUsed ->
  ~ In (p, i) (uses_of m) ->
  snd (after pxds prefix m) <> snd (isolated pxds m).
Proof.
  intros Hm' Hu Hp Hl Hk Hn E.
  assert (Ha : In (p, i) (snd (after pxds prefix m))).
  { apply after_out_spec. split; [exact Hp|]. split; [exact Hl|]. right. right. exists m'. auto. }
  rewrite E in Ha. apply isolated_out_spec in Ha. destruct Ha as [_ [_ [Hk'|Hu']]]; [congruence|auto].
Qed.

(* the witness: shared.pxd = [struct; inline f; inline g]; a uses f, b uses nothing of it *)
Theorem noreset_depends_on_prefix_refuted :
  exists pxds a b,
    nth_error (session pxds false fresh [a; b]) 1 <> Some (isolated pxds b) /\
    nth_error (session pxds false fresh [b; a]) 0 = Some (isolated pxds b) /\
    nth_error (session pxds true fresh [a; b]) 1 = Some (isolated pxds b).
Proof.
  exists [[KAlways; KUsed; KUsed]], [(0, [1])], [(0, [])].
  vm_compute. split; [intros H; inversion H|split; reflexivity].
Qed.
