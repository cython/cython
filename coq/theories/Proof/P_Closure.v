(* Closure conversion is correct: the scope-object scheme (M_Closure.run_scopes) simulates CPython's cell
   scheme (MiniPy.run_cells) on every MiniPy program, for every fuel. *)
From Coq Require Import ZArith List Bool Lia PeanoNat.
From CyVerif Require Import Lib.MiniPy Model.M_Closure.
Import ListNotations.

Lemma mem_In : forall x l, mem x l = true <-> In x l.
Proof.
  induction l as [|y r IH]; simpl; [split; [discriminate|tauto]|].
  destruct (Nat.eqb_spec x y) as [->|N]; [tauto|].
  rewrite IH. split; [tauto|intros [E|I]; [congruence|auto]].
Qed.

Lemma memb_In : forall b x l, memb b x l = true <-> In (b, x) l.
Proof.
  induction l as [|[c y] r IH]; simpl; [split; [discriminate|tauto]|].
  destruct (Bool.eqb b c && Nat.eqb x y) eqn:E.
  - apply andb_prop in E as [E1 E2]. apply Bool.eqb_prop in E1. apply Nat.eqb_eq in E2. subst. tauto.
  - rewrite IH. split; [tauto|]. intros [Q|I]; [|auto]. inversion Q; subst.
    rewrite Bool.eqb_reflx, Nat.eqb_refl in E. discriminate.
Qed.

Lemma assoc_map_none : forall x (l : list ident),
  assoc x (map (fun y => (y, @None value)) l) = if mem x l then Some None else None.
Proof.
  induction l as [|y r IH]; simpl; [reflexivity|].
  destruct (Nat.eqb x y); [reflexivity|exact IH].
Qed.

Lemma cget_alloc : forall a l h m x,
  cget (fold_right (fun y h0 => cset h0 a y None) h l) m x
  = if Nat.eqb m a && mem x l then Some None else cget h m x.
Proof.
  induction l as [|y r IH]; intros; simpl.
  - rewrite andb_false_r. reflexivity.
  - rewrite IH. destruct (Nat.eqb m a); simpl; [|reflexivity].
    destruct (Nat.eqb x y); reflexivity.
Qed.

Lemma forall2_nth : forall {A B : Type} (R : A -> B -> Prop) l1 l2, Forall2 R l1 l2 ->
  forall i, match nth_error l1 i, nth_error l2 i with
            | Some a, Some b => R a b | None, None => True | _, _ => False end.
Proof.
  intros A B R l1 l2 F. induction F; intros [|i]; simpl; try exact I; [assumption|apply IHF].
Qed.

Lemma forall2_length : forall {A B : Type} (R : A -> B -> Prop) l1 l2,
  Forall2 R l1 l2 -> length l1 = length l2.
Proof. intros A B R l1 l2 F. induction F; simpl; congruence. Qed.

Lemma has_owner_found : forall ctx x, has_owner ctx x = found (lookup_outer ctx x).
Proof.
  induction ctx as [|p r IH]; intros; simpl; [reflexivity|].
  destruct (mem x (si_locals p)); [reflexivity|].
  destruct (mem x (si_globals p)); [reflexivity|].
  rewrite IH. destruct (lookup_outer r x); reflexivity.
Qed.

(* the static hop computation finds a variable exactly when symtable's owner resolution does *)
Lemma has_owner_iff : forall ctx x, has_owner ctx x = true <-> exists k, lookup_outer ctx x = Some k.
Proof.
  intros. rewrite has_owner_found. destruct (lookup_outer ctx x) as [k|]; simpl.
  - split; [eauto|reflexivity].
  - split; [discriminate|intros [k E]; discriminate].
Qed.

Lemma in_cfree : forall i x, In x (cfree i) <->
  In x (map snd (si_refs i)) /\ mem x (si_locals i) = false /\ mem x (si_globals i) = false.
Proof.
  intros. unfold cfree. rewrite filter_In.
  destruct (mem x (si_locals i)), (mem x (si_globals i)); simpl; intuition congruence.
Qed.

Lemma in_cells : forall i x, In x (si_cells i) <-> In x (si_locals i) /\ In (true, x) (si_refs i).
Proof. intros. unfold si_cells. rewrite filter_In, memb_In. tauto. Qed.

Lemma own_of_cell : forall i x, In x (si_cells i) -> own_scope i = true.
Proof. intros i x I. unfold own_scope. destruct (si_cells i); [destruct I|reflexivity]. Qed.

Lemma nested_in : forall i x, In x (cfree i) -> In (true, x) (nested i).
Proof. intros. unfold nested. apply in_map. assumption. Qed.

Definition ext (h h' : sheap) : Prop :=
  forall m ob, sfind h m = Some ob ->
    exists ob', sfind h' m = Some ob' /\ so_outer ob' = so_outer ob /\
                (forall x, assoc x (so_vars ob) <> None -> assoc x (so_vars ob') <> None).

Lemma ext_refl : forall h, ext h h.
Proof. intros h m ob F. exists ob. auto. Qed.

Lemma ext_trans : forall a b c, ext a b -> ext b c -> ext a c.
Proof.
  intros a b c A B m ob F. destruct (A _ _ F) as (o1 & F1 & O1 & V1).
  destruct (B _ _ F1) as (o2 & F2 & O2 & V2). exists o2. repeat split; [assumption|congruence|auto].
Qed.

Lemma ext_sset : forall h m x v, ext h (sset h m x v).
Proof.
  intros h m x v m' ob F. unfold sset. destruct (sfind h m) as [o|] eqn:E; [|exists ob; auto].
  simpl. destruct (Nat.eqb_spec m' m) as [->|N].
  - rewrite E in F. inversion F; subst. eexists. split; [reflexivity|]. simpl. split; [reflexivity|].
    intros y. destruct (Nat.eqb y x); [discriminate|auto].
  - exists ob. auto.
Qed.

Lemma ext_alloc : forall h a ob, sfind h a = None -> ext h ((a, ob) :: h).
Proof.
  intros h a ob N m o F. simpl. destruct (Nat.eqb_spec m a) as [->|D]; [congruence|].
  exists o. auto.
Qed.

Lemma walk_ext : forall h h', ext h h' -> forall k p m, walk h k p = Some m -> walk h' k p = Some m.
Proof.
  intros h h' E. induction k as [|k IH]; intros p m W; simpl in *; [assumption|].
  destruct p as [q|]; [|discriminate]. destruct (sfind h q) as [ob|] eqn:F; [|discriminate].
  destruct (E _ _ F) as (ob' & F' & O & _). rewrite F', O. apply IH. assumption.
Qed.

Lemma sget_ext : forall h h', ext h h' -> forall m x, sget h m x <> None -> sget h' m x <> None.
Proof.
  intros h h' E m x. unfold sget. destruct (sfind h m) as [ob|] eqn:F; [|congruence].
  destruct (E _ _ F) as (ob' & F' & _ & V). rewrite F'. apply V.
Qed.

Lemma sget_sset : forall h m0 x0 v m x, sget h m0 x0 <> None ->
  sget (sset h m0 x0 v) m x = if Nat.eqb m m0 && Nat.eqb x x0 then Some v else sget h m x.
Proof.
  intros h m0 x0 v m x. unfold sget at 1, sset. destruct (sfind h m0) as [ob|] eqn:F; [|congruence].
  intros _. unfold sget. simpl. destruct (Nat.eqb_spec m m0) as [->|N]; simpl.
  - rewrite F. destruct (Nat.eqb x x0); reflexivity.
  - reflexivity.
Qed.

Lemma sfind_sset_none : forall h m0 x0 v m, sfind h m = None -> sfind (sset h m0 x0 v) m = None.
Proof.
  intros h m0 x0 v m N. unfold sset. destruct (sfind h m0) eqn:F; [|assumption].
  simpl. destruct (Nat.eqb_spec m m0) as [->|D]; [congruence|assumption].
Qed.

Definition heap_rel (hc : cellheap) (hs : sheap) : Prop := forall m x, cget hc m x = sget hs m x.

(* the cell map [cm] and the pointer [ptr] lead to the same slots: following k hops from ptr reaches
   the activation that owns x in the cell map *)
Definition cap_ok (hs : sheap) (i : scope_info) (ctx : sctx) (cm : list (ident * nat))
           (hop : nat -> nat) (ptr : option nat) : Prop :=
  forall x k, In x (cfree i) -> lookup_outer ctx x = Some k ->
    exists m, assoc x cm = Some m /\ walk hs (hop k) ptr = Some m /\ sget hs m x <> None.

Definition fun_rel (hs : sheap) (cf : fn cC) (sf : fn sC) : Prop :=
  fn_ps cf = fn_ps sf /\ fn_body cf = fn_body sf /\ fn_info cf = fn_info sf /\ fn_ctx cf = fn_ctx sf /\
  incl (flat_map refs_s (fn_body cf)) (si_refs (fn_info cf)) /\
  (forall p, In p (fn_ps cf) -> mem p (si_locals (fn_info cf)) = true) /\
  cap_ok hs (fn_info cf) (fn_ctx cf) (fn_cap cf) (fun k => k) (fn_cap sf).

Definition frame_rel (hs : sheap) (fc : frame cX) (fs : frame sX) : Prop :=
  f_info fc = f_info fs /\ f_ctx fc = f_ctx fs /\ f_fast fc = f_fast fs /\
  (own_scope (f_info fc) = true -> f_x fs = Some (snd (f_x fc))) /\
  (forall x, In x (si_cells (f_info fc)) -> sget hs (snd (f_x fc)) x <> None) /\
  cap_ok hs (f_info fc) (f_ctx fc) (fst (f_x fc))
         (fun k => if own_scope (f_info fc) then S k else k) (f_x fs).

Definition cstate := state cellheap cC.
Definition sstate := state sheap sC.

Definition state_rel (sc : cstate) (ss : sstate) : Prop :=
  g_glob sc = g_glob ss /\ g_trace sc = g_trace ss /\ g_next sc = g_next ss /\
  heap_rel (g_heap sc) (g_heap ss) /\
  Forall2 (fun_rel (g_heap ss)) (g_funs sc) (g_funs ss) /\
  (forall m, g_next ss <= m -> sfind (g_heap ss) m = None).

Lemma cap_ok_ext : forall h h' i ctx cm hop p, ext h h' -> cap_ok h i ctx cm hop p -> cap_ok h' i ctx cm hop p.
Proof.
  intros h h' i ctx cm hop p E C x k I L. destruct (C x k I L) as (m & A & W & G).
  exists m. split; [assumption|]. split; [eapply walk_ext; eassumption|eapply sget_ext; eassumption].
Qed.

Lemma fun_rel_ext : forall h h' cf sf, ext h h' -> fun_rel h cf sf -> fun_rel h' cf sf.
Proof.
  intros h h' cf sf E (A & B & C & D & I & P & K). repeat split; try assumption.
  eapply cap_ok_ext; eassumption.
Qed.

Lemma funs_rel_ext : forall h h' l1 l2, ext h h' ->
  Forall2 (fun_rel h) l1 l2 -> Forall2 (fun_rel h') l1 l2.
Proof. intros h h' l1 l2 E F. induction F; constructor; [eapply fun_rel_ext; eassumption|assumption]. Qed.

Lemma frame_rel_ext : forall h h' fc fs, ext h h' -> frame_rel h fc fs -> frame_rel h' fc fs.
Proof.
  intros h h' fc fs E (A & B & C & O & S & K). repeat split; try assumption.
  - intros x I. eapply sget_ext; [eassumption|]. apply S. assumption.
  - eapply cap_ok_ext; eassumption.
Qed.

Definition refd (fc : frame cX) (x : ident) : Prop :=
  mem x (si_locals (f_info fc)) = false -> mem x (si_globals (f_info fc)) = false ->
  In x (map snd (si_refs (f_info fc))).

Lemma refd_of_ref : forall fc x, In (false, x) (si_refs (f_info fc)) -> refd fc x.
Proof. intros fc x I _ _. change x with (snd (false, x)). apply in_map. assumption. Qed.

Lemma loc_agree : forall hs hc fc fs x,
  frame_rel hs fc fs -> refd fc x -> c_loc fc hc x = s_loc fs hs x.
Proof.
  intros hs hc fc fs x (A & B & C & O & S & K) R.
  unfold c_loc, s_loc, classify, cy_lookup. rewrite <- A, <- B.
  destruct (mem x (si_locals (f_info fc))) eqn:L.
  - unfold is_cell. destruct (mem x (si_cells (f_info fc))) eqn:Cl; [|reflexivity].
    apply mem_In in Cl. rewrite (O (own_of_cell _ _ Cl)). reflexivity.
  - destruct (mem x (si_globals (f_info fc))) eqn:G; [reflexivity|].
    rewrite has_owner_found. destruct (lookup_outer (f_ctx fc) x) as [k|] eqn:LO; simpl; [|reflexivity].
    assert (I : In x (cfree (f_info fc))) by (apply in_cfree; auto).
    destruct (K x k I LO) as (m & As & W & _). rewrite As, W. reflexivity.
Qed.

Definition to_outcome {H C : Type} (r : res (state H C) value) : outcome :=
  match r with
  | Ok v st => Done v (rev (g_trace st))
  | Exn e st => Failed e (rev (g_trace st))
  | OutOfFuel => NoFuel
  | Stuck => IsStuck
  end.

Lemma run_gen_bind : forall {X H C : Type} (o : ops X H C) x0 h0 n prog main,
  run_gen o x0 h0 n prog main =
  to_outcome
    (bind (block o n {| f_info := module_info (prog ++ [SExpr main]); f_ctx := []; f_fast := []; f_x := x0 |}
                 {| g_glob := []; g_heap := h0; g_funs := []; g_next := 1; g_trace := [] |} prog)
          (fun q st => eval o n (fst q) st main)).
Proof. intros. unfold run_gen. destruct (block o n _ _ prog); reflexivity. Qed.

Section Sim.
Variable fx : bool.     (* delglob_fixed *)
Notation CO := cells_ops.
Notation SO := (scopes_ops fx).

Definition exn_rel (ec es : exc) : Prop :=
  ec = es \/ (fx = false /\ ec = NameError /\ es = AttributeError).

(* h0 is the scope heap the two computations started from; carrying it here is what lets [bind_rel]
   chain the heap extensions once and for all *)
Definition res_rel {A B : Type} (h0 : sheap) (P : sheap -> A -> B -> Prop)
           (rc : res cstate A) (rs : res sstate B) : Prop :=
  match rc, rs with
  | Ok a sc, Ok b ss => state_rel sc ss /\ ext h0 (g_heap ss) /\ P (g_heap ss) a b
  | Exn ec sc, Exn es ss => exn_rel ec es /\ g_trace sc = g_trace ss
  | OutOfFuel, OutOfFuel => True
  | Stuck, Stuck => True
  | _, _ => False
  end.

Lemma res_rel_weaken : forall {A B : Type} h0 h1 (P : sheap -> A -> B -> Prop) rc rs,
  ext h0 h1 -> res_rel h1 P rc rs -> res_rel h0 P rc rs.
Proof.
  intros A B h0 h1 P rc rs E R. destruct rc, rs; simpl in *; try assumption.
  destruct R as (SR & E1 & Pab). split; [assumption|]. split; [eapply ext_trans; eassumption|assumption].
Qed.

Lemma bind_rel : forall {A B A' B' : Type} h0 (P : sheap -> A -> B -> Prop)
    (Q : sheap -> A' -> B' -> Prop) rc rs kc ks,
  res_rel h0 P rc rs ->
  (forall a b sc ss, state_rel sc ss -> ext h0 (g_heap ss) -> P (g_heap ss) a b ->
                     res_rel (g_heap ss) Q (kc a sc) (ks b ss)) ->
  res_rel h0 Q (bind rc kc) (bind rs ks).
Proof.
  intros A B A' B' h0 P Q rc rs kc ks R K.
  destruct rc, rs; simpl in *; try contradiction; try assumption.
  destruct R as (SR & E & Pab). eapply res_rel_weaken; [exact E|]. apply K; assumption.
Qed.

Definition same {A : Type} (_ : sheap) (a b : A) : Prop := a = b.

Lemma bind_same : forall {A A' B' : Type} h0 (Q : sheap -> A' -> B' -> Prop)
    (rc : res cstate A) (rs : res sstate A) kc ks,
  res_rel h0 same rc rs ->
  (forall a sc ss, state_rel sc ss -> ext h0 (g_heap ss) -> res_rel (g_heap ss) Q (kc a sc) (ks a ss)) ->
  res_rel h0 Q (bind rc kc) (bind rs ks).
Proof.
  intros A A' B' h0 Q rc rs kc ks R K. eapply bind_rel; [exact R|].
  intros a b sc ss SR E EQ. red in EQ. subst b. apply K; assumption.
Qed.

Lemma ok_rel : forall {A B : Type} (P : sheap -> A -> B -> Prop) a b sc ss,
  state_rel sc ss -> P (g_heap ss) a b -> res_rel (g_heap ss) P (Ok a sc) (Ok b ss).
Proof. intros A B P a b sc ss SR Pab. split; [assumption|]. split; [apply ext_refl|assumption]. Qed.

Lemma exn_same : forall {A B : Type} h0 (P : sheap -> A -> B -> Prop) e sc ss,
  state_rel sc ss -> res_rel h0 P (Exn e sc) (Exn e ss).
Proof. intros A B h0 P e sc ss SR. split; [left; reflexivity|apply SR]. Qed.

Definition okf (i0 : scope_info) (h : sheap) (q : frame cX * flow) (q' : frame sX * flow) : Prop :=
  snd q = snd q' /\ frame_rel h (fst q) (fst q') /\ f_info (fst q) = i0.

Lemma ok_flow : forall fc fs fl sc ss, frame_rel (g_heap ss) fc fs -> state_rel sc ss ->
  res_rel (g_heap ss) (okf (f_info fc)) (Ok (fc, fl) sc) (Ok (fs, fl) ss).
Proof.
  intros fc fs fl sc ss FR SR. apply ok_rel; [assumption|].
  split; [reflexivity|]. split; [assumption|reflexivity].
Qed.

Lemma lift_rel : forall r sc ss, state_rel sc ss -> res_rel (g_heap ss) same (lift r sc) (lift r ss).
Proof. intros [v|e] sc ss SR; [apply ok_rel; [assumption|reflexivity]|apply exn_same; assumption]. Qed.

Lemma load_agree : forall fc fs sc ss x,
  frame_rel (g_heap ss) fc fs -> state_rel sc ss -> refd fc x ->
  load CO fc sc x = load SO fs ss x.
Proof.
  intros fc fs sc ss x FR SR R. unfold load. simpl.
  rewrite (loc_agree (g_heap ss) (g_heap sc) fc fs x FR R).
  destruct SR as (G & _ & _ & H & _). destruct FR as (_ & _ & F & _).
  destruct (s_loc fs (g_heap ss) x) as [[| |m free]|]; try reflexivity.
  - rewrite G. reflexivity.
  - rewrite F. reflexivity.
  - rewrite (H m x). reflexivity.
Qed.

Lemma upd_glob : forall fc fs sc ss g, frame_rel (g_heap ss) fc fs -> state_rel sc ss ->
  res_rel (g_heap ss) (okf (f_info fc)) (Ok (fc, FNext) (set_glob sc g)) (Ok (fs, FNext) (set_glob ss g)).
Proof.
  intros fc fs sc ss g FR (G & T & N & H & F & Fr).
  apply (ok_flow fc fs FNext (set_glob sc g) (set_glob ss g) FR). unfold state_rel, set_glob; simpl. tauto.
Qed.

Lemma upd_fast : forall fc fs sc ss e, frame_rel (g_heap ss) fc fs -> state_rel sc ss ->
  res_rel (g_heap ss) (okf (f_info fc)) (Ok (set_fast fc e, FNext) sc) (Ok (set_fast fs e, FNext) ss).
Proof.
  intros fc fs sc ss e (A & B & C & O & S & K) SR.
  apply (ok_flow (set_fast fc e) (set_fast fs e)); [|assumption]. unfold frame_rel, set_fast; simpl. tauto.
Qed.

Lemma upd_heap : forall fc fs sc ss m x v,
  frame_rel (g_heap ss) fc fs -> state_rel sc ss -> sget (g_heap ss) m x <> None ->
  res_rel (g_heap ss) (okf (f_info fc)) (Ok (fc, FNext) (set_heap sc (cset (g_heap sc) m x v)))
          (Ok (fs, FNext) (set_heap ss (sset (g_heap ss) m x v))).
Proof.
  intros fc fs sc ss m x v FR (G & T & N & H & F & Fr) E.
  pose proof (ext_sset (g_heap ss) m x v) as X. split; [|split; [exact X|]].
  - unfold state_rel, set_heap; simpl. repeat (split; [assumption|]). split; [|split].
    + intros m' x'. simpl. rewrite sget_sset by assumption. rewrite (H m' x'). reflexivity.
    + eapply funs_rel_ext; eassumption.
    + intros m' L. apply sfind_sset_none. apply Fr. assumption.
  - split; [reflexivity|]. split; [eapply frame_rel_ext; eassumption|reflexivity].
Qed.

Lemma store_r_rel : forall fc fs sc ss x v,
  frame_rel (g_heap ss) fc fs -> state_rel sc ss -> refd fc x ->
  res_rel (g_heap ss) (okf (f_info fc)) (store_r CO fc sc x v) (store_r SO fs ss x v).
Proof.
  intros fc fs sc ss x v FR SR R. unfold store_r, store. simpl.
  rewrite (loc_agree (g_heap ss) (g_heap sc) fc fs x FR R).
  destruct (s_loc fs (g_heap ss) x) as [[| |m free]|]; [| | |exact I].
  - assert (G : g_glob sc = g_glob ss) by apply SR. rewrite G. apply upd_glob; assumption.
  - assert (C : f_fast fc = f_fast fs) by apply FR. rewrite C. apply upd_fast; assumption.
  - assert (Hm : cget (g_heap sc) m x = sget (g_heap ss) m x) by apply SR.
    rewrite Hm. destruct (sget (g_heap ss) m x) eqn:E; [|exact I].
    apply upd_heap; [assumption|assumption|congruence].
Qed.

Lemma delete_rel : forall fc fs sc ss x,
  frame_rel (g_heap ss) fc fs -> state_rel sc ss -> refd fc x ->
  res_rel (g_heap ss) (okf (f_info fc))
    (match delete CO fc sc x with
     | LVal (fc', sc') => Ok (fc', FNext) sc' | LExn ex => Exn ex sc | LStuck => Stuck end)
    (match delete SO fs ss x with
     | LVal (fs', ss') => Ok (fs', FNext) ss' | LExn ex => Exn ex ss | LStuck => Stuck end).
Proof.
  intros fc fs sc ss x FR SR R. unfold delete. simpl.
  rewrite (loc_agree (g_heap ss) (g_heap sc) fc fs x FR R).
  destruct (s_loc fs (g_heap ss) x) as [[| |m free]|]; [| | |exact I].
  - assert (G : g_glob sc = g_glob ss) by apply SR. rewrite G.
    destruct (env_get (g_glob ss) x); [apply upd_glob; assumption|].
    split; [|apply SR]. unfold exn_rel. destruct fx; [left; reflexivity|right; auto].
  - assert (C : f_fast fc = f_fast fs) by apply FR. rewrite C.
    destruct (env_get (f_fast fs) x); [apply upd_fast|apply exn_same]; assumption.
  - assert (Hm : cget (g_heap sc) m x = sget (g_heap ss) m x) by apply SR.
    rewrite Hm. destruct (sget (g_heap ss) m x) as [[ov|]|] eqn:E; [|apply exn_same; assumption|exact I].
    apply upd_heap; [assumption|assumption|congruence].
Qed.

Lemma capture_list_spec : forall fc xs, (forall x, In x xs -> cap1 fc x <> None) ->
  exists l, c_capture_list fc xs = Some l /\ forall x, In x xs -> assoc x l = cap1 fc x.
Proof.
  induction xs as [|y r IH]; intros N; simpl.
  - exists []. split; [reflexivity|intros x []].
  - destruct IH as (l & E & A); [intros x I; apply N; right; assumption|].
    destruct (cap1 fc y) as [m|] eqn:C; [|exfalso; apply (N y); [left; reflexivity|assumption]].
    rewrite E. exists ((y, m) :: l). split; [reflexivity|].
    intros x [->|I]; simpl.
    + rewrite Nat.eqb_refl. symmetry. assumption.
    + destruct (Nat.eqb_spec x y) as [->|D]; [symmetry; assumption|apply A; assumption].
Qed.

Lemma capture_key : forall hs fc fs i x k,
  frame_rel hs fc fs -> incl (nested i) (si_refs (f_info fc)) ->
  In x (cfree i) -> lookup_outer (f_info fc :: f_ctx fc) x = Some k ->
  exists m, cap1 fc x = Some m /\ walk hs k (f_x fs) = Some m /\ sget hs m x <> None.
Proof.
  intros hs fc fs i x k (A & B & C & O & S & K) INC I L.
  assert (R : In (true, x) (si_refs (f_info fc))) by (apply INC, nested_in; assumption).
  simpl in L. unfold cap1. destruct (mem x (si_locals (f_info fc))) eqn:ML.
  - inversion L; subst k. assert (Cl : In x (si_cells (f_info fc))).
    { apply in_cells. split; [apply mem_In; assumption|assumption]. }
    unfold is_cell. rewrite (proj2 (mem_In _ _) Cl).
    exists (snd (f_x fc)). split; [reflexivity|]. split; [simpl; apply O; eapply own_of_cell; eassumption|].
    apply S. assumption.
  - destruct (mem x (si_globals (f_info fc))) eqn:MG; [discriminate|].
    destruct (lookup_outer (f_ctx fc) x) as [k'|] eqn:LO; [|discriminate].
    inversion L; subst k.
    assert (I' : In x (cfree (f_info fc))).
    { apply in_cfree. split; [|auto]. change x with (snd (true, x)). apply in_map. assumption. }
    destruct (K x k' I' LO) as (m & As & W & G). exists m. auto.
Qed.

Lemma capture_ok : forall hs fc fs i,
  frame_rel hs fc fs -> incl (nested i) (si_refs (f_info fc)) ->
  exists cm, c_capture fc i = Some cm /\
    cap_ok hs i (f_info fc :: f_ctx fc) cm (fun k => k)
           (if from_closure i (f_info fs :: f_ctx fs) then f_x fs else None).
Proof.
  intros hs fc fs i FR INC. unfold c_capture.
  set (ctx := f_info fc :: f_ctx fc).
  assert (AF : forall x, In x (actual_free i ctx) <-> In x (cfree i) /\ exists k, lookup_outer ctx x = Some k).
  { intros x. unfold actual_free. rewrite filter_In, has_owner_iff. reflexivity. }
  destruct (capture_list_spec fc (actual_free i ctx)) as (l & E & As).
  { intros x I. apply AF in I as (I & k & L).
    destruct (capture_key hs fc fs i x k FR INC I L) as (m & C & _). congruence. }
  exists l. split; [assumption|].
  intros x k I L.
  destruct (capture_key hs fc fs i x k FR INC I L) as (m & C & W & G).
  exists m. split; [rewrite As; [assumption|apply AF; eauto]|]. split; [|assumption].
  assert (FC : from_closure i (f_info fs :: f_ctx fs) = true).
  { destruct FR as (A & B & _). rewrite <- A, <- B. unfold from_closure. apply existsb_exists.
    exists x. split; [assumption|]. fold ctx. rewrite L. reflexivity. }
  rewrite FC. assumption.
Qed.

Lemma mkfun_agree : forall fc fs sc ss ps body i,
  frame_rel (g_heap ss) fc fs -> state_rel sc ss -> incl (nested i) (si_refs (f_info fc)) ->
  incl (flat_map refs_s body) (si_refs i) -> (forall p, In p ps -> mem p (si_locals i) = true) ->
  res_rel (g_heap ss) same (mkfun CO fc sc ps body i) (mkfun SO fs ss ps body i).
Proof.
  intros fc fs sc ss ps body i FR SR INC IB PL. unfold mkfun. simpl.
  destruct (capture_ok (g_heap ss) fc fs i FR INC) as (cm & E & K). rewrite E. simpl.
  destruct SR as (G & T & N & H & F & Fr).
  split; [|split; [apply ext_refl|unfold same; rewrite (forall2_length _ _ _ F); reflexivity]].
  unfold state_rel; simpl. repeat (split; [assumption|]). split; [|assumption].
  apply Forall2_app; [assumption|]. constructor; [|constructor].
  destruct FR as (A & B & _).
  unfold fun_rel; simpl. rewrite A, B. repeat (split; [reflexivity|]).
  split; [assumption|]. split; [assumption|]. rewrite A, B in K. exact K.
Qed.

Lemma enter_ok : forall sc ss cf sf xs hs,
  state_rel sc ss -> fun_rel (g_heap ss) cf sf ->
  s_enter (g_heap ss) sf (g_next ss) = (xs, hs) ->
  frame_rel hs {| f_info := fn_info cf; f_ctx := fn_ctx cf; f_fast := []; f_x := (fn_cap cf, g_next ss) |}
               {| f_info := fn_info sf; f_ctx := fn_ctx sf; f_fast := []; f_x := xs |} /\
  state_rel {| g_glob := g_glob sc;
               g_heap := fold_right (fun x h => cset h (g_next ss) x None) (g_heap sc) (si_cells (fn_info cf));
               g_funs := g_funs sc; g_next := S (g_next sc); g_trace := g_trace sc |}
            {| g_glob := g_glob ss; g_heap := hs; g_funs := g_funs ss; g_next := S (g_next ss);
               g_trace := g_trace ss |} /\
  ext (g_heap ss) hs.
Proof.
  intros sc ss cf sf xs hs (G & T & N & H & F & Fr) (P1 & P2 & P3 & P4 & IB & PL & K) ES.
  unfold s_enter in ES. rewrite <- P3, <- P4 in ES.
  set (outer := if from_closure (fn_info cf) (fn_ctx cf) then fn_cap sf else None) in ES.
  (* [outer] is the closure pointer whenever a captured variable is looked up through it *)
  assert (KO : cap_ok (g_heap ss) (fn_info cf) (fn_ctx cf) (fn_cap cf) (fun k => k) outer).
  { intros x k I L. unfold outer, from_closure.
    rewrite (proj2 (existsb_exists _ _)); [apply K; assumption|]. exists x. rewrite L. auto. }
  assert (FRESH : sfind (g_heap ss) (g_next ss) = None) by (apply Fr; lia).
  destruct (own_scope (fn_info cf)) eqn:OW; inversion ES; subst xs hs; clear ES.
  - set (ob := {| so_outer := outer; so_vars := map (fun x => (x, None)) (si_cells (fn_info cf)) |}).
    assert (E : ext (g_heap ss) ((g_next ss, ob) :: g_heap ss)) by (apply ext_alloc; assumption).
    split; [|split; [|assumption]].
    + unfold frame_rel; simpl. rewrite OW. repeat (split; [assumption|]).
      split; [reflexivity|]. split; [intros _; reflexivity|]. split.
      * intros x I. unfold sget; simpl. rewrite Nat.eqb_refl. simpl. rewrite assoc_map_none.
        rewrite (proj2 (mem_In _ _) I). discriminate.
      * intros x k I L. destruct (KO x k I L) as (m & As & W & Gt). exists m. split; [assumption|].
        split; [|eapply sget_ext; eassumption].
        simpl. rewrite Nat.eqb_refl. simpl. apply (walk_ext _ _ E), W.
    + unfold state_rel; simpl. repeat (split; [assumption|]). split; [congruence|]. split; [|split].
      * intros m x. rewrite cget_alloc. unfold sget; simpl.
        destruct (Nat.eqb_spec m (g_next ss)) as [->|D]; simpl; [|apply H].
        rewrite assoc_map_none. destruct (mem x (si_cells (fn_info cf))); [reflexivity|].
        rewrite (H (g_next ss) x). unfold sget. rewrite FRESH. reflexivity.
      * eapply funs_rel_ext; eassumption.
      * intros m L. simpl. destruct (Nat.eqb_spec m (g_next ss)) as [->|D]; [lia|apply Fr; lia].
  - assert (CE : si_cells (fn_info cf) = []).
    { unfold own_scope in OW. destruct (si_cells (fn_info cf)); [reflexivity|discriminate]. }
    rewrite CE. simpl. split; [|split; [|apply ext_refl]].
    + unfold frame_rel; simpl. rewrite OW, CE. repeat (split; [assumption|]).
      split; [reflexivity|]. split; [discriminate|]. split; [intros x []|exact KO].
    + unfold state_rel; simpl. repeat (split; [assumption|]). split; [congruence|].
      split; [assumption|]. split; [assumption|]. intros m L. apply Fr. lia.
Qed.

(* the outcome of parameter binding read as a statement result, the way store_r reads that of store *)
Definition of_upd {X H C : Type} (r : option (frame X * state H C)) : res (state H C) (frame X * flow) :=
  match r with Some (fr, st) => Ok (fr, FNext) st | None => Stuck end.

Lemma bind_params_cons : forall {X H C : Type} (o : ops X H C) fr st p ps v vs,
  of_upd (bind_params o fr st (p :: ps) (v :: vs)) =
  bind (store_r o fr st p v) (fun q st' => of_upd (bind_params o (fst q) st' ps vs)).
Proof. intros. simpl. unfold store_r. destruct (store o fr st p v) as [[fr' st']|]; reflexivity. Qed.

Lemma bind_params_rel : forall ps vs fc fs sc ss,
  state_rel sc ss -> frame_rel (g_heap ss) fc fs ->
  (forall p, In p ps -> mem p (si_locals (f_info fc)) = true) ->
  res_rel (g_heap ss) (okf (f_info fc)) (of_upd (bind_params CO fc sc ps vs)) (of_upd (bind_params SO fs ss ps vs)).
Proof.
  induction ps as [|p r IH]; intros vs fc fs sc ss SR FR PL; [apply ok_flow; assumption|].
  destruct vs as [|v vs']; [apply ok_flow; assumption|].
  rewrite !bind_params_cons. eapply bind_rel.
  - apply store_r_rel; [assumption|assumption|].
    intros Hf. rewrite PL in Hf; [discriminate|left; reflexivity].
  - intros q q' sc1 ss1 SR1 _ (_ & FR1 & I1). rewrite <- I1. apply IH; [assumption|assumption|].
    intros p' Ip. rewrite I1. apply PL. right. assumption.
Qed.

Definition sim_eval (n : nat) : Prop := forall fc fs sc ss e,
  frame_rel (g_heap ss) fc fs -> state_rel sc ss -> incl (refs_e e) (si_refs (f_info fc)) ->
  res_rel (g_heap ss) same (eval CO n fc sc e) (eval SO n fs ss e).
Definition sim_evals (n : nat) : Prop := forall fc fs sc ss es,
  frame_rel (g_heap ss) fc fs -> state_rel sc ss -> incl (flat_map refs_e es) (si_refs (f_info fc)) ->
  res_rel (g_heap ss) same (evals CO n fc sc es) (evals SO n fs ss es).
Definition sim_call (n : nat) : Prop := forall sc ss vf vs,
  state_rel sc ss -> res_rel (g_heap ss) same (call CO n sc vf vs) (call SO n ss vf vs).
Definition sim_exec (n : nat) : Prop := forall fc fs sc ss s,
  frame_rel (g_heap ss) fc fs -> state_rel sc ss -> incl (refs_s s) (si_refs (f_info fc)) ->
  res_rel (g_heap ss) (okf (f_info fc)) (exec CO n fc sc s) (exec SO n fs ss s).
Definition sim_block (n : nat) : Prop := forall fc fs sc ss l,
  frame_rel (g_heap ss) fc fs -> state_rel sc ss -> incl (flat_map refs_s l) (si_refs (f_info fc)) ->
  res_rel (g_heap ss) (okf (f_info fc)) (block CO n fc sc l) (block SO n fs ss l).

Lemma eval2_rel : forall n (f : value -> value -> value + exc), sim_eval n -> forall fc fs sc ss a b,
  frame_rel (g_heap ss) fc fs -> state_rel sc ss -> incl (refs_e a ++ refs_e b) (si_refs (f_info fc)) ->
  res_rel (g_heap ss) same
    (bind (eval CO n fc sc a) (fun va st => bind (eval CO n fc st b) (fun vb st => lift (f va vb) st)))
    (bind (eval SO n fs ss a) (fun va st => bind (eval SO n fs st b) (fun vb st => lift (f va vb) st))).
Proof.
  intros n f IHe fc fs sc ss a b FR SR INC. apply incl_app_inv in INC as [I1 I2].
  eapply bind_same; [apply IHe; eassumption|]. intros v sc1 ss1 SR1 E1.
  eapply bind_same; [apply IHe; [eapply frame_rel_ext; eassumption|assumption|assumption]|].
  intros w sc2 ss2 SR2 _. apply lift_rel. assumption.
Qed.

Lemma step_eval : forall n, sim_eval n -> sim_evals n -> sim_call n -> sim_eval (S n).
Proof.
  intros n IHe IHl IHc fc fs sc ss e FR SR INC.
  destruct e; simpl in INC; cbn [eval evals call exec block].
  1-3: apply ok_rel; [assumption|reflexivity].
  - (* EName *)
    rewrite (load_agree fc fs sc ss x FR SR) by (apply refd_of_ref, INC; left; reflexivity).
    destruct (load SO fs ss x); [apply ok_rel; [assumption|reflexivity]|apply exn_same; assumption|exact I].
  - (* ENeg *)
    eapply bind_same; [apply IHe; eassumption|]. intros v sc1 ss1 SR1 _. apply lift_rel. assumption.
  - (* ENot *)
    eapply bind_same; [apply IHe; eassumption|]. intros v sc1 ss1 SR1 _.
    apply ok_rel; [assumption|reflexivity].
  - (* EBin *) apply (eval2_rel n (do_bin op)); assumption.
  - (* ECmp *) apply (eval2_rel n (do_cmp op)); assumption.
  - (* ECond *)
    apply incl_app_inv in INC as [I1 I23]. apply incl_app_inv in I23 as [I2 I3].
    eapply bind_same; [apply IHe; eassumption|]. intros v sc1 ss1 SR1 E1.
    apply IHe; [eapply frame_rel_ext; eassumption|assumption|]. destruct (truthy v); assumption.
  - (* ELog *)
    eapply bind_same; [apply IHe; eassumption|]. intros v sc1 ss1 (G & T & N & H & F & Fr) _.
    apply (ok_rel same v v (add_trace sc1 v) (add_trace ss1 v)); [|reflexivity].
    unfold state_rel, add_trace; simpl. rewrite T. tauto.
  - (* ELambda *)
    apply mkfun_agree; try assumption.
    + simpl. rewrite app_nil_r. apply incl_refl.
    + intros p Ip. simpl. apply mem_In. assumption.
  - (* ECall *)
    apply incl_app_inv in INC as [I1 I2].
    eapply bind_same; [apply IHe; eassumption|]. intros v sc1 ss1 SR1 E1.
    eapply bind_same; [apply IHl; [eapply frame_rel_ext; eassumption|assumption|assumption]|].
    intros w sc2 ss2 SR2 _. apply IHc. assumption.
Qed.

Lemma step_evals : forall n, sim_eval n -> sim_evals n -> sim_evals (S n).
Proof.
  intros n IHe IHl fc fs sc ss es FR SR INC. destruct es as [|e r]; simpl in INC; cbn [eval evals call exec block].
  - apply ok_rel; [assumption|reflexivity].
  - apply incl_app_inv in INC as [I1 I2].
    eapply bind_same; [apply IHe; eassumption|]. intros v sc1 ss1 SR1 E1.
    eapply bind_same; [apply IHl; [eapply frame_rel_ext; eassumption|assumption|assumption]|].
    intros w sc2 ss2 SR2 _. apply ok_rel; [assumption|reflexivity].
Qed.

Lemma step_block : forall n, sim_exec n -> sim_block n -> sim_block (S n).
Proof.
  intros n IHx IHb fc fs sc ss l FR SR INC. destruct l as [|s r]; simpl in INC; cbn [eval evals call exec block].
  - apply ok_flow; assumption.
  - apply incl_app_inv in INC as [I1 I2].
    eapply bind_rel; [apply IHx; eassumption|]. intros q q' sc1 ss1 SR1 _ OK.
    pose proof OK as (Fl & FR1 & In1). rewrite <- Fl. destruct (snd q); [|apply ok_rel; assumption].
    rewrite <- In1. apply IHb; [assumption|assumption|]. rewrite In1. assumption.
Qed.

Lemma step_exec : forall n, sim_eval n -> sim_exec n -> sim_block n -> sim_exec (S n).
Proof.
  intros n IHe IHx IHb fc fs sc ss s FR SR INC.
  destruct s; simpl in INC; cbn [eval evals call exec block].
  - (* SExpr *)
    eapply bind_same; [apply IHe; eassumption|]. intros v sc1 ss1 SR1 E1.
    apply ok_flow; [eapply frame_rel_ext; eassumption|assumption].
  - (* SAssign *)
    apply incl_cons_inv in INC as [Ix Ie].
    eapply bind_same; [apply IHe; eassumption|]. intros v sc1 ss1 SR1 E1.
    apply store_r_rel; [eapply frame_rel_ext; eassumption|assumption|apply refd_of_ref; assumption].
  - (* SAug *)
    apply incl_cons_inv in INC as [Ix Ie]. apply refd_of_ref in Ix.
    rewrite (load_agree fc fs sc ss x FR SR Ix).
    destruct (load SO fs ss x); [|apply exn_same; assumption|exact I].
    eapply bind_same; [apply IHe; eassumption|]. intros v sc1 ss1 SR1 E1.
    destruct (do_bin op a v); [|apply exn_same; assumption].
    apply store_r_rel; [eapply frame_rel_ext; eassumption|assumption|assumption].
  - (* SIf *)
    apply incl_app_inv in INC as [I1 I23]. apply incl_app_inv in I23 as [I2 I3].
    eapply bind_same; [apply IHe; eassumption|]. intros v sc1 ss1 SR1 E1.
    apply IHb; [eapply frame_rel_ext; eassumption|assumption|]. destruct (truthy v); assumption.
  - (* SWhile *)
    pose proof INC as INC0. apply incl_app_inv in INC as [I1 I2].
    eapply bind_same; [apply IHe; eassumption|]. intros v sc1 ss1 SR1 E1.
    destruct (truthy v); [|apply ok_flow; [eapply frame_rel_ext; eassumption|assumption]].
    eapply bind_rel; [apply IHb; [eapply frame_rel_ext; eassumption|assumption|assumption]|].
    intros q q' sc2 ss2 SR2 _ OK.
    pose proof OK as (Fl & FR2 & In2). rewrite <- Fl. destruct (snd q); [|apply ok_rel; assumption].
    rewrite <- In2. apply IHx; [assumption|assumption|]. rewrite In2. exact INC0.
  - (* SReturn *)
    eapply bind_same; [apply IHe; eassumption|]. intros v sc1 ss1 SR1 E1.
    apply ok_flow; [eapply frame_rel_ext; eassumption|assumption].
  - (* SDef *)
    apply incl_cons_inv in INC as [If Ib].
    eapply bind_same.
    + apply mkfun_agree; try assumption; [apply incl_refl|].
      intros p Ip. simpl. unfold fn_locals. apply mem_In. apply in_or_app. left. assumption.
    + intros v sc1 ss1 SR1 E1.
      apply store_r_rel; [eapply frame_rel_ext; eassumption|assumption|apply refd_of_ref; assumption].
  - (* SGlobal *) apply ok_flow; assumption.
  - (* SNonlocal *) apply ok_flow; assumption.
  - (* SDel *) apply delete_rel; [assumption|assumption|]. apply refd_of_ref, INC. left. reflexivity.
  - (* SPass *) apply ok_flow; assumption.
Qed.

Lemma step_call : forall n, sim_block n -> sim_call (S n).
Proof.
  intros n IHb sc ss vf vs SR. cbn [eval evals call exec block].
  destruct vf; try (apply exn_same; assumption).
  pose proof SR as (G & T & N & H & F & Fr).
  pose proof (forall2_nth _ _ _ F id) as NT.
  destruct (nth_error (g_funs sc) id) as [cf|], (nth_error (g_funs ss) id) as [sf|]; try contradiction; [|exact I].
  pose proof NT as (P1 & P2 & P3 & P4 & IB & PL & K).
  rewrite <- P1. destruct (Nat.eqb (length (fn_ps cf)) (length vs)); [|apply exn_same; assumption].
  cbn [op_enter CO SO cells_ops scopes_ops].
  destruct (s_enter (g_heap ss) sf (g_next ss)) as [xs hs] eqn:ES.
  unfold c_enter. rewrite N.
  destruct (enter_ok sc ss cf sf xs hs SR NT ES) as (FR0 & SR0 & E0). rewrite N in SR0.
  eapply res_rel_weaken; [exact E0|].
  pose proof (bind_params_rel (fn_ps cf) vs _ _ _ _ SR0 FR0 PL) as BP.
  destruct (bind_params CO _ _ _ _) as [[fc1 sc1]|], (bind_params SO _ _ _ _) as [[fs1 ss1]|];
    try contradiction; [|exact I].
  destruct BP as (SR1 & E1 & _ & FR1 & I1). simpl in E1, FR1, I1.
  eapply res_rel_weaken; [exact E1|].
  eapply bind_rel.
  - rewrite <- P2. apply IHb; [eassumption|eassumption|]. rewrite I1. assumption.
  - intros q q' sc2 ss2 SR2 _ (Fl & _). rewrite Fl. apply ok_rel; [assumption|reflexivity].
Qed.

Lemma sim_all : forall n, sim_eval n /\ sim_evals n /\ sim_call n /\ sim_exec n /\ sim_block n.
Proof.
  induction n as [|n (IHe & IHl & IHc & IHx & IHb)].
  - repeat split; intro; intros; exact I.
  - assert (Bk : sim_block (S n)) by (apply step_block; assumption).
    split; [apply step_eval; assumption|]. split; [apply step_evals; assumption|].
    split; [apply step_call; assumption|]. split; [apply step_exec; assumption|assumption].
Qed.

Definition out_rel (oc os : outcome) : Prop :=
  match oc, os with
  | Done v t, Done v' t' => v = v' /\ t = t'
  | Failed e t, Failed e' t' => exn_rel e e' /\ t = t'
  | NoFuel, NoFuel => True
  | IsStuck, IsStuck => True
  | _, _ => False
  end.

Lemma out_of_res : forall h rc rs,
  res_rel h same rc rs -> out_rel (to_outcome rc) (to_outcome rs).
Proof.
  intros h rc rs R. destruct rc, rs; simpl in *; try contradiction; try exact I.
  - destruct R as ((_ & T & _) & _ & ->). rewrite T. split; reflexivity.
  - destruct R as (X & T). rewrite T. split; [assumption|reflexivity].
Qed.

Lemma run_rel : forall n prog main, out_rel (run_cells n prog main) (run_scopes fx n prog main).
Proof.
  intros n prog main. unfold run_cells, run_scopes. rewrite !run_gen_bind.
  set (mi := module_info (prog ++ [SExpr main])).
  assert (RF : si_refs mi = flat_map refs_s prog ++ refs_e main).
  { unfold mi, module_info; simpl. rewrite flat_map_app. simpl. rewrite !app_nil_r. reflexivity. }
  destruct (sim_all n) as (SE & _ & _ & _ & SB).
  eapply out_of_res, bind_rel.
  - apply SB.
    + unfold frame_rel; simpl. repeat (split; [reflexivity|]). split; [discriminate|].
      split; [intros x []|]. intros x k _ L. discriminate.
    + unfold state_rel; simpl. repeat (split; [reflexivity|]). split; [intros m x; reflexivity|].
      split; [constructor|reflexivity].
    + change (incl (flat_map refs_s prog) (si_refs mi)). rewrite RF. apply incl_appl, incl_refl.
  - intros q q' sc1 ss1 SR1 _ (_ & FR1 & In1). apply SE; [assumption|assumption|].
    rewrite In1. change (incl (refs_e main) (si_refs mi)). rewrite RF. apply incl_appr, incl_refl.
Qed.

End Sim.

(* the two schemes are indistinguishable, except that on the tree as it is (fx = false) the del of an
   unbound module global ends the run with AttributeError instead of NameError *)
Theorem closure_conversion : forall fx n prog main,
  run_scopes fx n prog main = run_cells n prog main \/
  fx = false /\ exists t, run_cells n prog main = Failed NameError t /\
                         run_scopes fx n prog main = Failed AttributeError t.
Proof.
  intros fx n prog main. pose proof (run_rel fx n prog main) as R. unfold out_rel in R.
  destruct (run_cells n prog main), (run_scopes fx n prog main); try contradiction; try (left; reflexivity).
  - destruct R as (-> & ->). left. reflexivity.
  - destruct R as ([->|(X & -> & ->)] & ->); [left; reflexivity|right; eauto].
Qed.
