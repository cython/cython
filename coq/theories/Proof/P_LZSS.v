(* The LZSS string-table compression model (M_LZSS.v).  One back reference: encode_match writes the bytes of the
   form that M_StrTab.form_of names, and the C field decoding M_StrTab.ref_fields reads them back.  Packer and C
   decoder are inverse on every valid token stream: the decoder is followed group by group (stream); what both need
   of the flags register is checked by evaluation for all flag lists of length at most 8 (fl_chk).  The match finder
   only produces valid tokens that denote the input: a table entry is an earlier position with its key (tbl_ok). *)
From Coq Require Import ZArith List Bool Lia ZifyBool ZifyNat FMapPositive.
From CyVerif Require Import Lib.ListFacts Model.M_LZSS Model.M_StrTab.
Import ListNotations.
Open Scope Z_scope.

Definition byte (b : Z) : Prop := 0 <= b < 256.
Definition bytes (l : list Z) : Prop := Forall byte l.

Definition bytesb (l : list Z) : bool := forallb (fun b => (0 <=? b) && (b <? 256)) l.
Lemma bytesb_ok l : bytesb l = true -> bytes l.
Proof.
  unfold bytesb, bytes, byte. rewrite forallb_forall, Forall_forall.
  intros H x Hx. specialize (H x Hx). lia.
Qed.

Lemma rev'_rev {A} (l : list A) : rev' l = rev l.
Proof. unfold rev'. now rewrite rev_append_rev, app_nil_r. Qed.

Fixpoint zrange (k : nat) (a : Z) : list Z :=
  match k with O => [] | S k' => a :: zrange k' (a + 1) end.

Lemma zrange_in k : forall a x, a <= x < a + Z.of_nat k -> In x (zrange k a).
Proof.
  induction k as [|k IH]; intros a x H; [lia|].
  cbn [zrange]. destruct (Z.eq_dec x a) as [->|Hne]; [now left|].
  right. apply IH. lia.
Qed.

Lemma sweep (P : Z -> bool) k :
  forallb P (zrange k 0) = true -> forall x, 0 <= x < Z.of_nat k -> P x = true.
Proof. intros H x Hx. rewrite forallb_forall in H. apply H, zrange_in. lia. Qed.

Definition bit7_ok (y : Z) : bool :=
  let b := Z.lor y 128 in
  (Z.land y 128 =? 0) && negb (Z.land b 128 =? 0) && (Z.land b 127 =? y) && (0 <=? b) && (b <? 256).
Lemma bit7_spec y : 0 <= y < 128 ->
  Z.land y 128 = 0 /\ Z.land (Z.lor y 128) 128 <> 0 /\ Z.land (Z.lor y 128) 127 = y /\ byte (Z.lor y 128).
Proof.
  intros H. assert (A : forallb bit7_ok (zrange 128 0) = true) by (vm_compute; reflexivity).
  apply sweep with (x := y) in A; [|lia]. unfold bit7_ok, byte in *. lia.
Qed.

Lemma land127 a : Z.land a 127 = a mod 128.
Proof. exact (Z.land_ones a 7 ltac:(lia)). Qed.

Lemma low7 a : 0 <= Z.land a 127 < 128.
Proof. rewrite land127. apply Z.mod_pos_bound. reflexivity. Qed.

Lemma split7 a : Z.lor (Z.shiftl (Z.shiftr a 7) 7) (Z.land a 127) = a.
Proof. rewrite <- (Z.ldiff_ones_r a 7) by lia. exact (Z.lor_ldiff_and a 127). Qed.

Lemma k14_spec o : 0 <= o < 16384 ->
  let lo := Z.lor (Z.land o 127) 128 in let hi := Z.lor (Z.land (Z.shiftr o 7) 127) 128 in
  Z.land lo 128 <> 0 /\ Z.land hi 128 <> 0 /\ Z.lor (Z.shiftl (Z.land hi 127) 7) (Z.land lo 127) = o
  /\ byte lo /\ byte hi.
Proof.
  intros H lo hi.
  destruct (bit7_spec _ (low7 o)) as (_ & A1 & A2 & A3).
  destruct (bit7_spec _ (low7 (Z.shiftr o 7))) as (_ & B1 & B2 & B3).
  split; [exact A1|]. split; [exact B1|]. split; [|split; assumption].
  subst lo hi. rewrite A2, B2, land127, Z.mod_small; [apply split7|].
  rewrite Z.shiftr_div_pow2 by lia. split; [apply Z.div_pos|apply Z.div_lt_upper_bound]; lia.
Qed.

(* the 2+7-bit form: bits 7-8 of the offset travel in bits 5-6 of the second byte, above the
   length; the second byte depends on the offset only through q = offset / 128 *)
Definition k9_split_ok (o : Z) : bool :=
  (Z.land o 384 =? 128 * (o / 128)) && (Z.lor (Z.land o 384) (Z.land o 127) =? o).
Definition k9_hi_ok (q lb : Z) : bool :=
  let hi := Z.lor (Z.shiftr (128 * q) 2) lb in
  (Z.land hi 128 =? 0) && (Z.land (Z.shiftl hi 2) 384 =? 128 * q) && (Z.land hi 31 =? lb)
  && (0 <=? hi) && (hi <? 256).

Lemma k9_spec o lb : 0 <= o < 512 -> 0 <= lb < 32 ->
  let lo := Z.lor (Z.land o 127) 128 in let hi := Z.lor (Z.shiftr (Z.land o 384) 2) lb in
  Z.land lo 128 <> 0 /\ Z.land hi 128 = 0
  /\ Z.lor (Z.land (Z.shiftl hi 2) 384) (Z.land lo 127) = o /\ Z.land hi 31 = lb
  /\ byte lo /\ byte hi.
Proof.
  intros Ho Hl lo hi.
  assert (S : forallb k9_split_ok (zrange 512 0) = true) by (vm_compute; reflexivity).
  assert (T : forallb (fun q => forallb (k9_hi_ok q) (zrange 32 0)) (zrange 4 0) = true)
    by (vm_compute; reflexivity).
  apply sweep with (x := o) in S; [|lia].
  apply sweep with (x := o / 128) in T; [|split; [apply Z.div_pos|apply Z.div_lt_upper_bound]; lia].
  apply sweep with (x := lb) in T; [|lia]. unfold k9_split_ok, k9_hi_ok in *.
  replace (128 * (o / 128)) with (Z.land o 384) in T by lia. fold hi in T.
  destruct (bit7_spec _ (low7 o)) as (_ & A1 & A2 & A3). fold lo in A1, A2, A3.
  replace (Z.land (Z.shiftl hi 2) 384) with (Z.land o 384) by lia. rewrite A2. unfold byte in *. lia.
Qed.

Definition ref_bytes (f : rform) (eo len : Z) : list Z :=
  match f with
  | F7 => [eo; len - 3]
  | F9 => [Z.lor (Z.land (eo - 128) 127) 128; Z.lor (Z.shiftr (Z.land (eo - 128) 384) 2) (len - 3)]
  | F14 => [Z.lor (Z.land (eo - 128) 127) 128; Z.lor (Z.land (Z.shiftr (eo - 128) 7) 127) 128; len - 3]
  end.

Lemma encode_match_form off len :
  encode_match off len = option_map (fun f => ref_bytes f (off - len) len) (form_of (off - len) len).
Proof.
  unfold encode_match, form_of. cbv zeta.
  destruct ((len <? 3) || (off - len <? 0)); [reflexivity|]. destruct (off - len <=? 127); [reflexivity|].
  destruct ((len - 3 <? 32) && (off - len - 128 <? 512)); [reflexivity|].
  destruct ((len >? 3) && (off - len - 128 <? 16384)); reflexivity.
Qed.

Lemma form_of_spec eo len :
  match form_of eo len with
  | Some F7 => 0 <= eo <= 127 /\ 3 <= len
  | Some F9 => 128 <= eo <= 639 /\ 3 <= len <= 34
  | Some F14 => 128 <= eo <= 16511 /\ 4 <= len /\ (640 <= eo \/ 35 <= len)
  | None => len < 3 \/ eo < 0 \/ 16512 <= eo \/ (640 <= eo /\ len = 3)
  end.
Proof.
  unfold form_of.
  destruct (Z.ltb_spec len 3); cbn [orb]; [lia|].
  destruct (Z.ltb_spec eo 0); [lia|]. destruct (Z.leb_spec eo 127); [lia|].
  destruct (Z.ltb_spec (len - 3) 32), (Z.ltb_spec (eo - 128) 512), (Z.gtb_spec len 3),
    (Z.ltb_spec (eo - 128) 16384); cbn [andb]; lia.
Qed.

Theorem form_ranges eo len f : form_of eo len = Some f ->
  match f with
  | F7 => 0 <= eo <= 127 /\ 3 <= len
  | F9 => 128 <= eo <= 639 /\ 3 <= len <= 34
  | F14 => 128 <= eo <= 16511 /\ 4 <= len /\ (640 <= eo \/ 35 <= len)
  end.
Proof. intros E. pose proof (form_of_spec eo len) as H. rewrite E in H. exact H. Qed.

Theorem form_none eo len :
  form_of eo len = None <-> (len < 3 \/ eo < 0 \/ 16512 <= eo \/ (640 <= eo /\ len = 3)).
Proof.
  pose proof (form_of_spec eo len) as H.
  destruct (form_of eo len) as [[]|]; split; try discriminate; try lia; auto.
Qed.

Theorem form_of_encode eo len : form_of eo len = None <-> encode_match (eo + len) len = None.
Proof.
  rewrite encode_match_form. replace (eo + len - len) with eo by lia.
  destruct (form_of eo len); split; (discriminate || reflexivity).
Qed.

Lemma encode_match_range off len bs : encode_match off len = Some bs -> 0 <= off - len /\ 3 <= len.
Proof.
  rewrite encode_match_form. pose proof (form_of_spec (off - len) len) as H.
  destruct (form_of (off - len) len) as [[]|]; [lia..|discriminate].
Qed.

Lemma ref_fields_bytes f eo len rest : form_of eo len = Some f -> len <= 258 ->
  ref_fields (ref_bytes f eo len ++ rest) = Some (f, eo, len, rest) /\ bytes (ref_bytes f eo len).
Proof.
  intros F L. pose proof (form_ranges _ _ _ F) as R. destruct f; cbn [ref_bytes app ref_fields].
  - destruct (bit7_spec eo) as (A & _); [lia|]. rewrite A. cbn [Z.eqb].
    replace (len - 3 + 3) with len by lia. split; [reflexivity|]. repeat constructor; unfold byte; lia.
  - destruct (k9_spec (eo - 128) (len - 3)) as (A1 & A2 & A3 & A4 & A5 & A6); [lia|lia|].
    destruct (Z.eqb_spec (Z.land (Z.lor (Z.land (eo - 128) 127) 128) 128) 0); [contradiction|].
    rewrite A2, A3, A4. cbn [Z.eqb].
    replace (128 + (eo - 128)) with eo by lia. replace (len - 3 + 3) with len by lia.
    split; [reflexivity|]. now repeat apply Forall_cons.
  - destruct (k14_spec (eo - 128)) as (A1 & A2 & A3 & A4 & A5); [lia|].
    destruct (Z.eqb_spec (Z.land (Z.lor (Z.land (eo - 128) 127) 128) 128) 0); [contradiction|].
    destruct (Z.eqb_spec (Z.land (Z.lor (Z.land (Z.shiftr (eo - 128) 7) 127) 128) 128) 0); [contradiction|].
    rewrite A3. replace (128 + (eo - 128)) with eo by lia. replace (len - 3 + 3) with len by lia.
    split; [reflexivity|]. repeat apply Forall_cons; try assumption; [unfold byte; lia|constructor].
Qed.

Lemma encode_match_bytes off len bs : encode_match off len = Some bs -> len <= 258 -> bytes bs /\ bs <> [].
Proof.
  rewrite encode_match_form. intros E L.
  destruct (form_of (off - len) len) as [f|] eqn:F; [|discriminate]. injection E as <-.
  split; [apply (ref_fields_bytes f _ _ [] F L)|now destruct f].
Qed.

(* what LZSS.py writes for (end offset, length) is read back by the C field decoding as exactly
   (form, end offset, length); the form is the one form_of names and fixes the encoded size *)
Theorem backref_fields_exact eo len bs rest :
  len <= 258 -> encode_match (eo + len) len = Some bs ->
  exists f, form_of eo len = Some f /\ ref_fields (bs ++ rest) = Some (f, eo, len, rest)
            /\ Z.of_nat (length bs) = rform_len f /\ bytes bs.
Proof.
  intros L E. rewrite encode_match_form in E. replace (eo + len - len) with eo in E by lia.
  destruct (form_of eo len) as [f|] eqn:F; [|discriminate]. injection E as <-.
  destruct (ref_fields_bytes f eo len rest F L) as [R B].
  exists f. split; [reflexivity|]. split; [exact R|]. split; [now destruct f|exact B].
Qed.

Theorem backref_injective eo len eo' len' bs :
  len <= 258 -> len' <= 258 ->
  encode_match (eo + len) len = Some bs -> encode_match (eo' + len') len' = Some bs ->
  eo = eo' /\ len = len'.
Proof.
  intros L L' E E'.
  destruct (backref_fields_exact eo len bs [] L E) as (f & _ & R & _).
  destruct (backref_fields_exact eo' len' bs [] L' E') as (f' & _ & R' & _).
  rewrite R in R'. injection R' as _ <- <-. split; reflexivity.
Qed.

Lemma dec_ref dst_len src flags pos outr out_pos :
  Z.land flags 256 <> 0 -> Z.land flags 1 = 0 ->
  dec dst_len src flags pos outr out_pos =
  match ref_fields src with
  | Some (f, eo, len, rest) =>
      dec_copy dst_len (dec dst_len rest) flags (pos + rform_len f) eo (len - 3) outr out_pos
  | None => OOB_src_read
  end.
Proof.
  intros Hb8 Hb0. apply Z.eqb_neq in Hb8.
  destruct src as [|lo s1]; [reflexivity|]. cbn [dec]. rewrite Hb8, Hb0. cbn [Z.eqb negb].
  destruct s1 as [|hi r]; [reflexivity|]. cbn [ref_fields].
  destruct (Z.land lo 128 =? 0); [|destruct (Z.land hi 128 =? 0); [|destruct r; [reflexivity|]]];
    cbn [rform_len]; rewrite Z.add_simpl_r; reflexivity.
Qed.

Theorem dec_ref_uses_fields dst_len src f eo len rest flags pos outr out_pos :
  Z.land flags 256 <> 0 -> Z.land flags 1 = 0 ->
  ref_fields src = Some (f, eo, len, rest) ->
  dec dst_len src flags pos outr out_pos =
  dec_copy dst_len (dec dst_len rest) flags (pos + rform_len f) eo (len - 3) outr out_pos.
Proof. intros Hb8 Hb0 R. now rewrite (dec_ref _ _ _ _ _ _ Hb8 Hb0), R. Qed.

Definition tok_len (t : token) : Z := match t with TLit _ => 1 | TRef _ len _ => len end.

Definition tok_out (t : token) (outr : list Z) : list Z :=
  match t with
  | TLit b => b :: outr
  | TRef eo len _ => firstn (Z.to_nat len) (skipn (Z.to_nat eo) outr) ++ outr
  end.

(* a token is valid after n output bytes: its bytes are what the encoder cascade produces,
   the length fits one byte, and the referenced range lies inside the output so far *)
Definition valid_tok (n : Z) (t : token) : Prop :=
  match t with
  | TLit _ => True
  | TRef eo len bs => encode_match (eo + len) len = Some bs /\ len <= 258 /\ eo + len <= n
  end.

Fixpoint valid_toks (n : Z) (toks : list token) : Prop :=
  match toks with
  | [] => True
  | t :: r => valid_tok n t /\ valid_toks (n + tok_len t) r
  end.

Fixpoint total_len (toks : list token) : Z :=
  match toks with [] => 0 | t :: r => tok_len t + total_len r end.
Definition gbytes (toks : list token) : list Z := flat_map tok_bytes toks.

Lemma expand_r_cons t r outr : expand_r (t :: r) outr = expand_r r (tok_out t outr).
Proof. destruct t; reflexivity. Qed.

Lemma expand_r_app a : forall b outr, expand_r (a ++ b) outr = expand_r b (expand_r a outr).
Proof.
  induction a as [|t a IH]; intros b outr; [reflexivity|].
  rewrite <- app_comm_cons, !expand_r_cons. apply IH.
Qed.

Lemma valid_tok_range n eo len bs :
  valid_tok n (TRef eo len bs) -> 0 <= eo /\ 3 <= len <= 258 /\ eo + len <= n.
Proof. intros (E & L & N). apply encode_match_range in E. lia. Qed.

Lemma tok_len_pos n t : valid_tok n t -> 1 <= tok_len t.
Proof.
  destruct t as [b|eo len bs]; cbn [tok_len]; [lia|].
  intros V. apply valid_tok_range in V. lia.
Qed.

Lemma tok_out_length t outr :
  valid_tok (Z.of_nat (length outr)) t ->
  Z.of_nat (length (tok_out t outr)) = Z.of_nat (length outr) + tok_len t.
Proof.
  destruct t as [b|eo len bs]; cbn [tok_out tok_len length]; [lia|].
  intros V. apply valid_tok_range in V.
  rewrite app_length, firstn_length, skipn_length. lia.
Qed.

Lemma valid_toks_app a : forall n b,
  valid_toks n (a ++ b) <-> valid_toks n a /\ valid_toks (n + total_len a) b.
Proof.
  induction a as [|t a IH]; intros n b; cbn [app valid_toks total_len].
  - rewrite Z.add_0_r. tauto.
  - rewrite IH. rewrite Z.add_assoc. tauto.
Qed.

Lemma total_len_app a b : total_len (a ++ b) = total_len a + total_len b.
Proof.
  induction a as [|t a IH]; cbn [app total_len]; [lia|].
  lia.
Qed.

Lemma total_len_nonneg n toks : valid_toks n toks -> 0 <= total_len toks.
Proof.
  revert n. induction toks as [|t r IH]; intros n; cbn [valid_toks total_len]; [lia|].
  intros (V & R). pose proof (tok_len_pos _ _ V). specialize (IH _ R). lia.
Qed.

Lemma total_len_pos n toks : valid_toks n toks -> toks <> [] -> 1 <= total_len toks.
Proof.
  destruct toks as [|t r]; [congruence|]. cbn [valid_toks total_len].
  intros (V & R) _. pose proof (tok_len_pos _ _ V).
  pose proof (total_len_nonneg _ _ R). lia.
Qed.

Lemma expand_r_length toks : forall outr,
  valid_toks (Z.of_nat (length outr)) toks ->
  Z.of_nat (length (expand_r toks outr)) = Z.of_nat (length outr) + total_len toks.
Proof.
  induction toks as [|t r IH]; intros outr; cbn [valid_toks total_len].
  - cbn [expand_r]. lia.
  - intros (V & R). rewrite expand_r_cons.
    rewrite <- (tok_out_length t outr V) in R. rewrite (IH _ R), (tok_out_length t outr V). lia.
Qed.

Lemma dec_tok dst_len t tail fl pos outr :
  valid_tok (Z.of_nat (length outr)) t ->
  Z.land fl 256 <> 0 -> Z.land fl 1 = tok_flag t ->
  Z.of_nat (length outr) + tok_len t <= dst_len ->
  dec dst_len (tok_bytes t ++ tail) fl pos outr (Z.of_nat (length outr)) =
  dec_next dst_len (dec dst_len tail) fl (pos + Z.of_nat (length (tok_bytes t)))
    (tok_out t outr) (Z.of_nat (length outr) + tok_len t).
Proof.
  intros V Hb8 Hb0 Hd.
  destruct t as [b|eo len bs]; cbn [tok_bytes tok_flag tok_len tok_out] in *.
  - cbn [app dec length].
    destruct (Z.eqb_spec (Z.land fl 256) 0) as [C|_]; [contradiction|].
    destruct (Z.eqb_spec (Z.land fl 1) 0) as [C|_]; [lia|]. cbn [negb].
    destruct (Z.ltb_spec (Z.of_nat (length outr)) dst_len) as [_|C]; [|lia].
    reflexivity.
  - pose proof (valid_tok_range _ _ _ _ V) as R. destruct V as (E & L & _).
    destruct (backref_fields_exact eo len bs tail L E) as (f & _ & Rf & -> & _).
    rewrite (dec_ref_uses_fields dst_len _ f eo len tail fl pos outr _ Hb8 Hb0 Rf).
    unfold dec_copy. replace (len - 3 + 3) with len by lia.
    destruct (Z.ltb_spec (Z.of_nat (length outr)) (eo + len)) as [C|_]; [lia|].
    destruct (Z.ltb_spec dst_len (Z.of_nat (length outr) + len)) as [C|_]; [lia|].
    reflexivity.
Qed.

Definition F0 : Z := 16711680.
Definition flags_of (fs : list Z) : Z := fold_left (fun f b => flags_upd b f) fs F0.
Definition flag_byte (fs : list Z) : Z := Z.land (pad_flags (flags_of fs)) 255.
Definition shr1 (f : Z) : Z := Z.shiftr f 1.

Fixpoint flags_match (fl : Z) (fs : list Z) : Prop :=
  match fs with
  | [] => True
  | f :: r => Z.land fl 256 <> 0 /\ Z.land fl 1 = f /\ flags_match (shr1 fl) r
  end.

Fixpoint flags_matchb (fl : Z) (fs : list Z) : bool :=
  match fs with
  | [] => true
  | f :: r => negb (Z.land fl 256 =? 0) && (Z.land fl 1 =? f) && flags_matchb (shr1 fl) r
  end.

Lemma flags_matchb_ok fs : forall fl, flags_matchb fl fs = true -> flags_match fl fs.
Proof.
  induction fs as [|f r IH]; intros fl; cbn [flags_matchb flags_match]; [trivial|].
  intros H. apply andb_prop in H. destruct H as (H & H3). apply andb_prop in H. destruct H as (H1 & H2).
  repeat split; [lia|lia|auto].
Qed.

Fixpoint all_fl (k : nat) : list (list Z) :=
  match k with
  | O => [[]]
  | S k' => flat_map (fun l => [0 :: l; 1 :: l]) (all_fl k')
  end.

Definition all01 (fs : list Z) : Prop := Forall (fun f => f = 0 \/ f = 1) fs.

Lemma all_fl_in fs : all01 fs -> In fs (all_fl (length fs)).
Proof.
  induction 1 as [|f r Hf _ IH]; cbn [length all_fl]; [now left|].
  apply in_flat_map. exists r. split; [exact IH|].
  destruct Hf as [->| ->]; cbn; auto.
Qed.

(* what the packer and the decoder need to know of the flags of one group (at most 8 tokens): the
   packer's register falls below 0x10000 exactly with the eighth flag and then holds the byte written;
   the decoder, after loading that byte, sees the flags in order and after eight rounds (the eighth
   shift written as dec_next does it) has used the marker bit up *)
Definition fl_chk (fs : list Z) : bool :=
  (if Nat.ltb (length fs) 8 then 65536 <=? flags_of fs
   else (flags_of fs <? 65536) && (Z.land (flags_of fs) 255 =? flag_byte fs)
        && (Z.land (Z.shiftr (Nat.iter 7 shr1 (Z.lor (flag_byte fs) 65280)) 1) 256 =? 0))
  && flags_matchb (Z.lor (flag_byte fs) 65280) fs.

Lemma fl_chk_all : forallb (fun k => forallb fl_chk (all_fl k)) (seq 0 9) = true.
Proof. vm_compute. reflexivity. Qed.

Lemma fl_facts fs : all01 fs -> (length fs <= 8)%nat -> fl_chk fs = true.
Proof.
  intros A L. pose proof fl_chk_all as H. rewrite forallb_forall in H.
  specialize (H (length fs)). rewrite forallb_forall in H.
  apply H; [apply in_seq; lia | apply all_fl_in; exact A].
Qed.

Lemma fl_lt8 fs : all01 fs -> (length fs < 8)%nat -> 65536 <= flags_of fs.
Proof.
  intros A L. pose proof (fl_facts fs A ltac:(lia)) as H. unfold fl_chk in H.
  destruct (Nat.ltb_spec (length fs) 8); lia.
Qed.

Lemma fl_eq8 fs : all01 fs -> length fs = 8%nat ->
  flags_of fs < 65536 /\ Z.land (flags_of fs) 255 = flag_byte fs
  /\ Z.land (Z.shiftr (Nat.iter 7 shr1 (Z.lor (flag_byte fs) 65280)) 1) 256 = 0.
Proof.
  intros A L. pose proof (fl_facts fs A ltac:(lia)) as H. unfold fl_chk in H.
  destruct (Nat.ltb_spec (length fs) 8); lia.
Qed.

Lemma fl_match fs : all01 fs -> (length fs <= 8)%nat -> flags_match (Z.lor (flag_byte fs) 65280) fs.
Proof. intros A L. pose proof (fl_facts fs A L) as H. unfold fl_chk in H. apply flags_matchb_ok. lia. Qed.

Lemma flag_byte_byte fs : byte (flag_byte fs).
Proof.
  unfold flag_byte, byte. change 255 with (Z.ones 8). rewrite Z.land_ones by lia.
  apply Z.mod_pos_bound. reflexivity.
Qed.

Lemma iter_succ_r {A} (f : A -> A) n : forall x, Nat.iter (S n) f x = Nat.iter n f (f x).
Proof.
  induction n as [|n IH]; intros x; [reflexivity|].
  change (Nat.iter (S (S n)) f x) with (f (Nat.iter (S n) f x)). rewrite IH. reflexivity.
Qed.

Lemma tok_flags_01 toks : all01 (map tok_flag toks).
Proof.
  induction toks as [|t r IH]; cbn [map]; constructor; [|exact IH].
  destruct t; cbn [tok_flag]; auto.
Qed.

(* a non-empty run of tokens under one flags byte, up to the test that ends the last round *)
Lemma dec_run dst_len g : forall t tail fl pos outr,
  flags_match fl (map tok_flag (t :: g)) ->
  valid_toks (Z.of_nat (length outr)) (t :: g) ->
  Z.of_nat (length outr) + total_len (t :: g) <= dst_len ->
  dec dst_len (gbytes (t :: g) ++ tail) fl pos outr (Z.of_nat (length outr)) =
  dec_next dst_len (dec dst_len tail) (Nat.iter (length g) shr1 fl) (pos + Z.of_nat (length (gbytes (t :: g))))
      (expand_r (t :: g) outr) (Z.of_nat (length outr) + total_len (t :: g)).
Proof.
  induction g as [|t' g IH]; intros t tail fl pos outr (F8 & F1 & FM) (Vt & Vr) Hd;
    change (gbytes (t :: ?x)) with (tok_bytes t ++ gbytes x); cbn [total_len] in *.
  - cbn [gbytes flat_map length Nat.iter]. rewrite !app_nil_r, Z.add_0_r in *. rewrite expand_r_cons.
    now apply dec_tok.
  - pose proof (tok_len_pos _ _ Vt) as Lp. pose proof (tok_out_length t outr Vt) as Lo.
    pose proof (total_len_pos _ _ Vr ltac:(discriminate)) as Tp. cbn [total_len] in Tp.
    rewrite <- app_assoc, (dec_tok dst_len t _ fl pos outr Vt F8 F1) by lia.
    unfold dec_next at 1. destruct (Z.geb_spec (Z.of_nat (length outr) + tok_len t) dst_len) as [C|_]; [lia|].
    rewrite <- Lo in Vr |- *. rewrite IH; [|exact FM|exact Vr|lia].
    rewrite !expand_r_cons. cbn [length]. rewrite iter_succ_r, !app_length. f_equal; lia.
Qed.

Lemma flags_of_snoc fs f : flags_upd f (flags_of fs) = flags_of (fs ++ [f]).
Proof. unfold flags_of. now rewrite fold_left_app. Qed.

Lemma pack_group g : forall d, (length g <= 8)%nat ->
  fold_left pack_step g (mkP d [] F0) =
  if Nat.ltb (length g) 8 then mkP d (rev (gbytes g)) (flags_of (map tok_flag g))
  else mkP (rev (gbytes g) ++ flag_byte (map tok_flag g) :: d) [] F0.
Proof.
  induction g as [|t g IH] using rev_ind; intros d L; [reflexivity|].
  rewrite app_length in L. cbn [length] in L.
  rewrite fold_left_app, IH by lia. destruct (Nat.ltb_spec (length g) 8); [|lia].
  cbn [fold_left]. unfold pack_step. cbn [p_cur p_flags p_done].
  rewrite flags_of_snoc, rev_append_rev, <- rev_app_distr, <- map_last.
  replace (gbytes g ++ tok_bytes t) with (gbytes (g ++ [t]))
    by (unfold gbytes; rewrite flat_map_app; cbn [flat_map]; now rewrite app_nil_r).
  pose proof (tok_flags_01 (g ++ [t])) as A. set (fs := map tok_flag (g ++ [t])) in *.
  assert (length fs = S (length g)) as Lf by (unfold fs; rewrite map_length, app_length; cbn [length]; lia).
  rewrite app_length. cbn [length]. destruct (Nat.ltb_spec (length g + 1) 8).
  - pose proof (fl_lt8 fs A ltac:(lia)). destruct (Z.ltb_spec (flags_of fs) 65536); [lia|reflexivity].
  - destruct (fl_eq8 fs A ltac:(lia)) as (G & B & _).
    destruct (Z.ltb_spec (flags_of fs) 65536); [|lia]. now rewrite B.
Qed.

Definition toks_nonempty (toks : list token) : Prop := Forall (fun t => tok_bytes t <> []) toks.

Lemma pack_final g d :
  g <> [] -> (length g <= 8)%nat -> toks_nonempty g ->
  pack_finish (fold_left pack_step g (mkP d [] F0)) = rev d ++ flag_byte (map tok_flag g) :: gbytes g.
Proof.
  intros Hne L NE. rewrite pack_group by exact L.
  destruct (Nat.ltb_spec (length g) 8) as [Lt|Ge]; unfold pack_finish; cbn [p_cur p_done p_flags].
  - destruct (rev (gbytes g)) as [|x xs] eqn:E.
    + exfalso. destruct g as [|t g]; [congruence|]. inversion NE as [|? ? Ht _]; subst.
      apply (f_equal (@rev Z)) in E. rewrite rev_involutive in E. cbn [rev] in E.
      change (gbytes (t :: g)) with (tok_bytes t ++ gbytes g) in E.
      apply app_eq_nil in E. tauto.
    + rewrite <- E. rewrite rev'_rev, rev_app_distr. cbn [rev]. rewrite rev_involutive, <- app_assoc.
      unfold flag_byte. reflexivity.
  - rewrite rev'_rev, rev_app_distr. cbn [rev]. rewrite rev_involutive, <- app_assoc. reflexivity.
Qed.

Lemma pack_full G rest d :
  length G = 8%nat ->
  fold_left pack_step (G ++ rest) (mkP d [] F0) =
  fold_left pack_step rest (mkP (rev (gbytes G) ++ flag_byte (map tok_flag G) :: d) [] F0).
Proof.
  intros L. rewrite fold_left_app, pack_group by lia.
  destruct (Nat.ltb_spec (length G) 8); [lia|reflexivity].
Qed.

Lemma valid_toks_nonempty toks : forall n, valid_toks n toks -> toks_nonempty toks.
Proof.
  induction toks as [|t r IH]; intros n V; constructor.
  - destruct V as (V & _). destruct t as [b|eo len bs]; cbn [tok_bytes]; [discriminate|].
    destruct V as (E & L & _). apply (encode_match_bytes _ _ _ E L).
  - destruct V as (_ & V). eapply IH; exact V.
Qed.

Definition toks_bytes (toks : list token) : Prop := Forall (fun t => bytes (tok_bytes t)) toks.

Lemma gbytes_bytes toks : toks_bytes toks -> bytes (gbytes toks).
Proof.
  induction 1 as [|t r Ht _ IH]; [constructor|].
  change (gbytes (t :: r)) with (tok_bytes t ++ gbytes r). apply Forall_app. split; assumption.
Qed.

Definition group_bytes (g : list token) : list Z := flag_byte (map tok_flag g) :: gbytes g.
Definition stream (gs : list (list token)) : list Z := flat_map group_bytes gs.

Lemma stream_cons g gs : stream (g :: gs) = group_bytes g ++ stream gs.
Proof. reflexivity. Qed.

Inductive grouped : list (list token) -> Prop :=
| grouped_last g : g <> [] -> (length g <= 8)%nat -> grouped [g]
| grouped_full G gs : length G = 8%nat -> grouped gs -> grouped (G :: gs).

Lemma grouped_exists toks : toks <> [] -> exists gs, grouped gs /\ concat gs = toks.
Proof.
  enough (H : forall n toks, (length toks <= n)%nat -> toks <> [] -> exists gs, grouped gs /\ concat gs = toks)
    by (apply (H (length toks)); lia).
  clear toks. induction n as [|n IH]; intros toks Ln Hne.
  { destruct toks; [congruence|cbn [length] in Ln; lia]. }
  destruct (le_lt_dec (length toks) 8) as [Le|Gt].
  - exists [toks]. split; [now constructor|apply app_nil_r].
  - pose proof (skipn_length 8 toks) as LR.
    destruct (IH (skipn 8 toks)) as (gs & G & E); [lia|intros C; rewrite C in LR; cbn [length] in LR; lia|].
    exists (firstn 8 toks :: gs). split; [constructor; [rewrite firstn_length; lia|exact G]|].
    cbn [concat]. rewrite E. apply firstn_skipn.
Qed.

Lemma grouped_nonempty gs : grouped gs -> concat gs <> [].
Proof. destruct 1 as [g Hne _|[|t G] gs L _]; cbn [concat]; [now rewrite app_nil_r|discriminate L|discriminate]. Qed.

Lemma pack_groups gs : grouped gs -> toks_nonempty (concat gs) -> forall d,
  pack_finish (fold_left pack_step (concat gs) (mkP d [] F0)) = rev d ++ stream gs.
Proof.
  induction 1 as [g Hne L|G gs L _ IH]; intros NE d; cbn [concat stream flat_map] in *.
  - rewrite !app_nil_r in *. now apply pack_final.
  - apply Forall_app in NE. destruct NE as (_ & NE). rewrite pack_full, IH by assumption.
    rewrite rev_app_distr, rev_involutive. cbn [rev]. unfold group_bytes. rewrite <- !app_assoc. reflexivity.
Qed.

Lemma dec_flagbyte dst_len f s fl pos outr op :
  Z.land fl 256 = 0 ->
  dec dst_len (f :: s) fl pos outr op = dec dst_len s (Z.lor f 65280) (pos + 1) outr op.
Proof. intros H. cbn [dec]. rewrite H, Z.eqb_refl. reflexivity. Qed.

(* after a full group the marker bit is used up, so the next round reads a flags byte again *)
Lemma dec_group dst_len g tail fl pos outr :
  g <> [] -> (length g <= 8)%nat -> Z.land fl 256 = 0 ->
  valid_toks (Z.of_nat (length outr)) g -> Z.of_nat (length outr) + total_len g <= dst_len ->
  exists fl',
    dec dst_len (group_bytes g ++ tail) fl pos outr (Z.of_nat (length outr)) =
    dec_next dst_len (dec dst_len tail) fl' (pos + Z.of_nat (length (group_bytes g)))
      (expand_r g outr) (Z.of_nat (length outr) + total_len g)
    /\ (length g = 8%nat -> Z.land (Z.shiftr fl' 1) 256 = 0).
Proof.
  intros Hne L Hfl V Hd. unfold group_bytes. cbn [app]. rewrite dec_flagbyte by exact Hfl.
  pose proof (tok_flags_01 g) as A.
  pose proof (fl_match (map tok_flag g) A ltac:(now rewrite map_length)) as FM.
  destruct g as [|t g]; [congruence|]. eexists. split.
  - rewrite dec_run; [|exact FM|exact V|exact Hd]. cbn [length]. f_equal. lia.
  - intros L8. destruct (fl_eq8 _ A ltac:(now rewrite map_length)) as (_ & _ & F8).
    injection L8 as ->. exact F8.
Qed.

Lemma dec_groups dst_len gs : grouped gs -> forall fl pos outr,
  Z.land fl 256 = 0 -> valid_toks (Z.of_nat (length outr)) (concat gs) ->
  dst_len = Z.of_nat (length outr) + total_len (concat gs) ->
  dec dst_len (stream gs) fl pos outr (Z.of_nat (length outr)) =
  DOk (rev (expand_r (concat gs) outr)) (pos + Z.of_nat (length (stream gs))).
Proof.
  induction 1 as [g Hne L|G gs L Gr IH]; intros fl pos outr Hfl V Hd; cbn [concat] in *; rewrite stream_cons.
  - cbn [stream flat_map]. rewrite (app_nil_r g) in *.
    destruct (dec_group dst_len g [] fl pos outr Hne L Hfl V ltac:(lia)) as (fl' & -> & _). unfold dec_next.
    destruct (Z.geb_spec (Z.of_nat (length outr) + total_len g) dst_len) as [_|C]; [|lia].
    now rewrite rev'_rev, app_nil_r.
  - apply valid_toks_app in V. destruct V as (VG & VR). rewrite total_len_app in Hd.
    pose proof (expand_r_length G outr VG) as El. rewrite <- El in VR.
    pose proof (total_len_pos _ _ VR (grouped_nonempty _ Gr)) as Rp.
    destruct (dec_group dst_len G (stream gs) fl pos outr) as (fl' & -> & F8);
      [intros ->; discriminate L|lia|exact Hfl|exact VG|lia|]. unfold dec_next.
    destruct (Z.geb_spec (Z.of_nat (length outr) + total_len G) dst_len) as [C|_]; [lia|].
    rewrite <- El, IH; [|exact (F8 L)|exact VR|lia].
    rewrite expand_r_app, app_length. f_equal. lia.
Qed.

Lemma stream_bytes gs : toks_bytes (concat gs) -> bytes (stream gs).
Proof.
  induction gs as [|g gs IH]; cbn [concat]; intros TB; [constructor|].
  apply Forall_app in TB. destruct TB as (TG & TR). rewrite stream_cons. apply Forall_app.
  split; [|exact (IH TR)]. constructor; [apply flag_byte_byte|now apply gbytes_bytes].
Qed.

Lemma pack_stream gs : grouped gs -> valid_toks 0 (concat gs) -> pack (concat gs) = stream gs.
Proof.
  intros G V. unfold pack, pack_init. change 16711680 with F0.
  apply (pack_groups gs G (valid_toks_nonempty _ _ V) []).
Qed.

Theorem pack_decode_all_token_streams toks :
  toks <> [] -> valid_toks 0 toks ->
  decompress (pack toks) (Z.of_nat (length (expand toks))) =
  DOk (expand toks) (Z.of_nat (length (pack toks))).
Proof.
  intros Hne V. destruct (grouped_exists toks Hne) as (gs & G & <-).
  rewrite pack_stream by assumption. unfold decompress, expand. rewrite rev'_rev.
  apply (dec_groups _ gs G 0 0 []); [reflexivity|exact V|].
  rewrite rev_length. apply (expand_r_length _ [] V).
Qed.

Lemma pack_bytes toks : toks <> [] -> valid_toks 0 toks -> toks_bytes toks -> bytes (pack toks).
Proof.
  intros Hne V TB. destruct (grouped_exists toks Hne) as (gs & G & <-).
  rewrite pack_stream by assumption. now apply stream_bytes.
Qed.

Lemma extend_spec a : forall b m mx r,
  extend a b m mx = Some r ->
  m <= r /\ (r = m \/ r <= mx) /\
  exists c a' b', a = c ++ a' /\ b = c ++ b' /\ Z.of_nat (length c) = r - m.
Proof.
  assert (Stop : forall (u v : list Z) m mx, m <= m /\ (m = m \/ m <= mx) /\
            exists c u' v', u = c ++ u' /\ v = c ++ v' /\ Z.of_nat (length c) = m - m).
  { intros u v m mx. repeat split; [lia|auto|]. exists [], u, v. cbn [app length]. repeat split; lia. }
  induction a as [|x a IH]; intros b m mx r H; cbn [extend] in H.
  - destruct (m <? mx); [discriminate|]. injection H as <-. apply Stop.
  - destruct (Z.ltb_spec m mx) as [Lt|Ge]; [|injection H as <-; apply Stop].
    destruct b as [|y b]; [discriminate|].
    destruct (Z.eqb_spec x y) as [->|Ne]; [|injection H as <-; apply Stop].
    apply IH in H. destruct H as (H1 & H2 & c & a' & b' & -> & -> & Hc).
    repeat split; [lia|lia|]. exists (y :: c), a', b'. cbn [app length]. repeat split; lia.
Qed.

Lemma extend_total a : forall b m mx,
  mx - m <= Z.of_nat (length a) -> mx - m <= Z.of_nat (length b) ->
  exists r, extend a b m mx = Some r.
Proof.
  induction a as [|x a IH]; intros b m mx Ha Hb; cbn [extend].
  - destruct (Z.ltb_spec m mx); [cbn [length] in Ha; lia|eauto].
  - destruct (Z.ltb_spec m mx) as [Lt|Ge]; [|eauto].
    destruct b as [|y b]; [cbn [length] in Hb; lia|].
    destruct (Z.eqb_spec x y); [|eauto].
    apply IH; cbn [length] in *; lia.
Qed.

Lemma key3_inj a b c a' b' c' :
  byte a -> byte b -> byte c -> byte a' -> byte b' -> byte c' ->
  key3 [a; b; c] = key3 [a'; b'; c'] -> a = a' /\ b = b' /\ c = c'.
Proof.
  unfold byte, key3. intros Ha Hb Hc Ha' Hb' Hc' H. injection H as H.
  apply Z2Pos.inj in H; lia.
Qed.

Lemma key3_some l k : key3 l = Some k ->
  exists a b c r, l = a :: b :: c :: r /\ key3 [a; b; c] = Some k.
Proof.
  destruct l as [|a [|b [|c r]]]; cbn [key3]; try discriminate.
  intros H. exists a, b, c, r. split; [reflexivity|exact H].
Qed.

Section MatchFinder.
Variable data : list Z.

Definition entry_ok (pos : Z) (k : positive) (e : entry) : Prop :=
  exists p1 a b c, data = p1 ++ a :: b :: c :: snd e /\ fst e = Z.of_nat (length p1)
                   /\ fst e < pos /\ key3 [a; b; c] = Some k.

Definition tbl_ok (pos : Z) (t : table) : Prop :=
  forall k es, tbl_find k t = Some es -> Forall (entry_ok pos k) es.

Lemma entry_ok_mono pos pos' k e : pos <= pos' -> entry_ok pos k e -> entry_ok pos' k e.
Proof.
  intros L (p1 & a & b & c & E & P & Lt & K). exists p1, a, b, c. repeat split; try assumption. lia.
Qed.

Lemma tbl_ok_mono pos pos' t : pos <= pos' -> tbl_ok pos t -> tbl_ok pos' t.
Proof.
  intros L T k es F. specialize (T k es F).
  eapply Forall_impl; [|exact T]. intros e. apply entry_ok_mono. exact L.
Qed.

Lemma tbl_ok_empty pos : tbl_ok pos (PositiveMap.empty _).
Proof. intros k es F. unfold tbl_find in F. rewrite PositiveMap.gempty in F. discriminate. Qed.

Lemma tbl_ok_add pre rest t :
  data = pre ++ rest -> tbl_ok (Z.of_nat (length pre)) t ->
  tbl_ok (Z.of_nat (length pre) + 1) (tbl_add (Z.of_nat (length pre)) rest t).
Proof.
  intros D T. unfold tbl_add. destruct (key3 rest) as [k|] eqn:K.
  2:{ eapply tbl_ok_mono; [|exact T]. lia. }
  intros k' es F. unfold tbl_find in F.
  destruct (Pos.eq_dec k' k) as [->|Ne].
  - rewrite PositiveMap.gss in F. injection F as <-. constructor.
    + apply key3_some in K. destruct K as (a & b & c & r & -> & K).
      exists pre, a, b, c. cbn [fst snd skipn]. repeat split; [exact D|lia|exact K].
    + destruct (PositiveMap.find k t) as [l|] eqn:Fk; [|constructor].
      eapply Forall_impl; [|exact (T k l Fk)]. intros e. apply entry_ok_mono. lia.
  - rewrite PositiveMap.gso in F by exact Ne.
    eapply Forall_impl; [|exact (T k' es F)]. intros e. apply entry_ok_mono. lia.
Qed.

Definition cand_ok (pos maxm : Z) (rest : list Z) (bl bo : Z) : Prop :=
  bl = 0 \/
  exists k e, key3 rest = Some k /\ entry_ok pos k e /\ bo = pos - fst e /\
              extend (snd e) (skipn 3 rest) 3 (Z.min maxm (pos - fst e)) = Some bl.

Lemma entry_len pos k e : entry_ok pos k e ->
  Z.of_nat (length data) = fst e + 3 + Z.of_nat (length (snd e)) /\ 0 <= fst e < pos.
Proof.
  intros (p1 & a & b & c & E & P & Lt & _). apply (f_equal (@length Z)) in E.
  rewrite app_length in E. cbn [length] in E. lia.
Qed.

Lemma scan1_step_ok pos k ws maxm rest bl bo e :
  pos <= Z.of_nat (length data) -> maxm <= Z.of_nat (length rest) -> key3 rest = Some k ->
  entry_ok pos k e -> cand_ok pos maxm rest bl bo ->
  exists bl' bo', scan1_step pos ws maxm (skipn 3 rest) (Some (bl, bo)) e = Some (bl', bo')
                  /\ cand_ok pos maxm rest bl' bo'.
Proof.
  intros Hp Hm K He Hc. pose proof (entry_len _ _ _ He) as (Ld & Lp).
  unfold scan1_step. destruct e as (pp, t3). cbn [fst snd] in *.
  destruct ((pp <? ws) || (pp >=? pos)); [eauto|].
  destruct (extend_total t3 (skipn 3 rest) 3 (Z.min maxm (pos - pp)) ltac:(lia)
              ltac:(rewrite skipn_length; lia)) as (r & Er).
  rewrite Er.
  destruct (Z.gtb_spec r bl); [|eauto].
  destruct (Z.ltb_spec (pos - pp - r) WINDOW_SIZE); [|eauto].
  exists r, (pos - pp). split; [reflexivity|]. right. exists k, (pp, t3). cbn [fst snd]. auto.
Qed.

Lemma scan1_fold pos k ws maxm rest :
  pos <= Z.of_nat (length data) -> maxm <= Z.of_nat (length rest) -> key3 rest = Some k ->
  forall es bl bo, Forall (entry_ok pos k) es -> cand_ok pos maxm rest bl bo ->
  exists bl' bo', fold_left (scan1_step pos ws maxm (skipn 3 rest)) es (Some (bl, bo)) = Some (bl', bo')
                  /\ cand_ok pos maxm rest bl' bo'.
Proof.
  intros Hp Hm K. induction es as [|e es IH]; intros bl bo Hes Hc; cbn [fold_left]; [eauto|].
  inversion Hes as [|? ? He Hes']; subst.
  destruct (scan1_step_ok pos k ws maxm rest bl bo e Hp Hm K He Hc) as (bl2 & bo2 & -> & Hc2).
  apply IH; assumption.
Qed.

(* the second scan only has to come back with some length: no index runs past the data *)
Lemma scan2_fold n pos k ws maxm rest4 :
  pos <= Z.of_nat (length data) -> n - pos - 4 <= Z.of_nat (length rest4) ->
  forall es nbl, Forall (entry_ok pos k) es ->
  exists r, fold_left (scan2_step n pos ws maxm rest4) es (Some nbl) = Some r.
Proof.
  intros Hp Hr. induction es as [|e es IH]; intros nbl Hes; cbn [fold_left]; [eauto|].
  inversion Hes as [|? ? He Hes']; subst.
  pose proof (entry_len _ _ _ He) as (Ld & Lp).
  unfold scan2_step at 2. destruct e as (pp, t3). cbn [fst snd] in *.
  destruct (pp <? ws); [apply IH; assumption|].
  destruct (extend_total t3 rest4 3 (Z.min (Z.min maxm (pos - pp)) (n - pos - 1)) ltac:(lia) ltac:(lia))
    as (r & ->).
  destruct (r >? nbl); [|apply IH; assumption].
  destruct (pos - pp - nbl <? WINDOW_SIZE); apply IH; assumption.
Qed.

Lemma flm_spec pre rest t :
  data = pre ++ rest -> tbl_ok (Z.of_nat (length pre)) t ->
  exists off len,
    find_longest_match (Z.of_nat (length data)) (Z.of_nat (length pre)) rest t = Some (off, len) /\
    cand_ok (Z.of_nat (length pre)) (Z.min 258 (Z.of_nat (length data) - Z.of_nat (length pre))) rest len off.
Proof.
  intros D T. set (pos := Z.of_nat (length pre)) in *. set (n := Z.of_nat (length data)) in *.
  assert (n = pos + Z.of_nat (length rest)) as Ln.
  { subst n pos. rewrite D, app_length. lia. }
  set (maxm := Z.min 258 (n - pos)).
  assert (exists off len, Some (0, 0) = Some (off, len) /\ cand_ok pos maxm rest len off) as Zero
    by (exists 0, 0; split; [reflexivity|now left]).
  unfold find_longest_match. fold maxm.
  destruct (key3 rest) as [k|] eqn:K; [|exact Zero].
  destruct (tbl_find k t) as [es|] eqn:F; [|exact Zero].
  pose proof (T k es F) as Hes. apply Forall_rev in Hes. rewrite <- rev'_rev in Hes.
  destruct (scan1_fold pos k (Z.max 0 (pos - WINDOW_SIZE - maxm)) maxm rest
              ltac:(lia) ltac:(lia) K (rev' es) 0 0 Hes (or_introl eq_refl)) as (bl & bo & -> & Hc).
  assert (exists off len, Some (bo, bl) = Some (off, len) /\ cand_ok pos maxm rest len off) as Keep by eauto.
  destruct ((0 <? bl) && (bl <? maxm) && (pos + bl + 1 <? n)); [|exact Keep].
  destruct (key3 (tl rest)) as [k2|]; [|exact Keep].
  destruct (tbl_find k2 t) as [es2|] eqn:F2; [|exact Keep].
  pose proof (T k2 es2 F2) as Hes2. apply Forall_rev in Hes2. rewrite <- rev'_rev in Hes2.
  destruct (scan2_fold n pos k2 (Z.max 0 (pos + 1 - WINDOW_SIZE - maxm)) maxm (skipn 4 rest)
              ltac:(lia) ltac:(rewrite skipn_length; lia) (rev' es2) 0 Hes2) as (nbl & ->).
  destruct (nbl >? bl + 1); [exact Zero|exact Keep].
Qed.
End MatchFinder.

Lemma bytes_mid3 p a b c r : bytes (p ++ a :: b :: c :: r) -> byte a /\ byte b /\ byte c.
Proof.
  intros H. apply Forall_app in H. destruct H as (_ & H).
  inversion H as [|? ? Ha H1]; subst. inversion H1 as [|? ? Hb H2]; subst.
  inversion H2 as [|? ? Hc _]; subst. auto.
Qed.

Lemma app_eq_app_le {A} (a b c d : list A) :
  a ++ b = c ++ d -> (length a <= length c)%nat -> exists l, c = a ++ l /\ b = l ++ d.
Proof.
  intros E L. apply app_eq_app in E as (l & [(-> & ->)|(-> & ->)]); [|now exists l].
  rewrite app_length in L. assert (l = []) as -> by (apply length_zero_iff_nil; lia).
  exists []. now rewrite !app_nil_r.
Qed.

(* a candidate that encode_match accepts is a copy of len bytes that ended off - len bytes ago:
   the key fixes the first three bytes, extend the others, and 0 <= off - len keeps the copy
   inside the text before pos *)
Lemma match_decomp data pre rest maxm off len bs :
  bytes data -> data = pre ++ rest -> maxm <= 258 ->
  cand_ok data (Z.of_nat (length pre)) maxm rest len off ->
  encode_match off len = Some bs ->
  exists p1 mid post rest2,
    pre = p1 ++ mid ++ post /\ rest = mid ++ rest2 /\
    Z.of_nat (length mid) = len /\ Z.of_nat (length post) = off - len /\ len <= 258.
Proof.
  intros Hb D Hm Hc E. apply encode_match_range in E. destruct E as (Eo & L3).
  destruct Hc as [C|(k & e & K & (p1 & a' & b' & c' & De & P & Lt & K') & Ho & Ex)]; [lia|].
  apply key3_some in K. destruct K as (a & b & c & rest3 & -> & K). cbn [skipn] in Ex.
  apply extend_spec in Ex. destruct Ex as (_ & Lr & c0 & t3' & rest3' & Et & -> & Lc).
  pose proof Hb as Hb1. rewrite D in Hb1. apply bytes_mid3 in Hb1. destruct Hb1 as (Ba & Bb & Bc).
  pose proof Hb as Hb2. rewrite De in Hb2. apply bytes_mid3 in Hb2. destruct Hb2 as (Ba' & Bb' & Bc').
  destruct (key3_inj a b c a' b' c' Ba Bb Bc Ba' Bb' Bc' ltac:(congruence)) as (<- & <- & <-).
  rewrite Et in De.
  destruct (app_eq_app_le (p1 ++ a :: b :: c :: c0) t3' pre ((a :: b :: c :: c0) ++ rest3')) as (post & Epre & _).
  { rewrite <- app_assoc. cbn [app]. rewrite <- De. exact D. }
  { rewrite app_length. cbn [length]. lia. }
  rewrite <- app_assoc in Epre. pose proof (f_equal (@length Z) Epre) as Ll. rewrite !app_length in Ll.
  exists p1, (a :: b :: c :: c0), post, rest3'. cbn [length] in *. repeat split; [exact Epre|lia..].
Qed.

Lemma tok_out_ref p1 mid post eo len bs :
  Z.of_nat (length mid) = len -> Z.of_nat (length post) = eo ->
  tok_out (TRef eo len bs) (rev (p1 ++ mid ++ post)) = rev ((p1 ++ mid ++ post) ++ mid).
Proof.
  intros Lm Lp. cbn [tok_out].
  rewrite (rev_app_distr (p1 ++ mid ++ post) mid). f_equal.
  rewrite !rev_app_distr, <- app_assoc.
  rewrite skipn_app_exact by (rewrite rev_length; lia).
  apply firstn_app_exact. rewrite rev_length. lia.
Qed.

(* positions covered by the previous token are passed over: nothing is looked up or filed *)
Lemma tok_loop_skip n t : forall rest pos skip acc, 0 <= skip <= Z.of_nat (length rest) ->
  tok_loop n t rest pos skip acc = tok_loop n t (skipn (Z.to_nat skip) rest) (pos + skip) 0 acc.
Proof.
  induction rest as [|b rest IH]; intros pos skip acc H; cbn [length] in H.
  - assert (skip = 0) as -> by lia. now rewrite Z.add_0_r.
  - destruct (Z.ltb_spec 0 skip) as [Sk|Sk]; [|assert (skip = 0) as -> by lia; now rewrite Z.add_0_r].
    cbn [tok_loop]. destruct (Z.ltb_spec 0 skip); [|lia]. rewrite IH by lia.
    replace (Z.to_nat skip) with (S (Z.to_nat (skip - 1))) by lia.
    replace (pos + 1 + (skip - 1)) with (pos + skip) by lia. reflexivity.
Qed.

Section TokLoop.
Variable data : list Z.
Hypothesis Hbytes : bytes data.

Definition denotes (pre : list Z) (toks : list token) : Prop :=
  valid_toks (Z.of_nat (length pre)) toks /\ toks_bytes toks /\ expand_r toks (rev pre) = rev data.

Lemma denotes_cons t pre add toks :
  valid_tok (Z.of_nat (length pre)) t -> bytes (tok_bytes t) ->
  tok_len t = Z.of_nat (length add) -> tok_out t (rev pre) = rev (pre ++ add) ->
  denotes (pre ++ add) toks -> denotes pre (t :: toks).
Proof.
  intros Vt Bt Lt Ot (V & TB & X). rewrite app_length, Nat2Z.inj_add, <- Lt in V.
  split; [split; assumption|]. split; [constructor; assumption|]. now rewrite expand_r_cons, Ot.
Qed.

(* the loop at a token start; m only bounds the recursion *)
Lemma tok_loop_ok : forall m rest, (length rest < m)%nat -> forall pre pos t acc,
  data = pre ++ rest -> pos = Z.of_nat (length pre) -> tbl_ok data pos t ->
  exists toks',
    tok_loop (Z.of_nat (length data)) t rest pos 0 acc = Some (rev acc ++ toks') /\ denotes pre toks'.
Proof.
  induction m as [|m IH]; intros rest Hm pre pos t acc D P T; [lia|].
  destruct rest as [|b rest]; cbn [length] in Hm.
  { exists []. cbn [tok_loop expand_r]. rewrite rev'_rev, app_nil_r in *. repeat split; [constructor|now rewrite D]. }
  subst pos. cbn [tok_loop]. change (0 <? 0) with false. cbv iota.
  destruct (flm_spec data pre (b :: rest) t D T) as (off & len & -> & Hc).
  pose proof (tbl_ok_add data pre (b :: rest) t D T) as T'.
  destruct (encode_match off len) as [bs|] eqn:E.
  - (* back reference *)
    destruct (match_decomp data pre (b :: rest) _ off len bs Hbytes D (Z.le_min_l _ _) Hc E)
      as (p1 & [|b' mid] & post & rest2 & Epre & Erest & Lm & Lpost & L258);
      pose proof (encode_match_range _ _ _ E) as (_ & L3); cbn [length] in Lm; [lia|].
    injection Erest as <- ->. rewrite app_length in Hm.
    pose proof (f_equal (@length Z) Epre) as Lpre. rewrite !app_length in Lpre. cbn [length] in Lpre.
    rewrite tok_loop_skip, (skipn_app_exact mid rest2) by (rewrite ?app_length; lia).
    destruct (IH rest2 ltac:(lia) (pre ++ b :: mid) (Z.of_nat (length pre) + 1 + (len - 1))
                (tbl_add (Z.of_nat (length pre)) (b :: mid ++ rest2) t) (TRef (off - len) len bs :: acc))
      as (toks' & -> & Dn).
    { rewrite <- app_assoc. exact D. }
    { rewrite app_length. cbn [length]. lia. }
    { eapply tbl_ok_mono; [|exact T']. lia. }
    exists (TRef (off - len) len bs :: toks'). split; [cbn [rev]; now rewrite <- app_assoc|].
    apply (denotes_cons _ pre (b :: mid));
      [|apply (encode_match_bytes _ _ _ E L258)|cbn [tok_len length]; lia| |exact Dn].
    + cbn [valid_tok]. replace (off - len + len) with off by lia. repeat split; [exact E|exact L258|lia].
    + rewrite Epre at 1. rewrite (tok_out_ref p1 (b :: mid) post (off - len) len bs) by (cbn [length]; lia).
      now rewrite <- Epre.
  - (* literal *)
    destruct (IH rest ltac:(lia) (pre ++ [b]) (Z.of_nat (length pre) + 1)
                (tbl_add (Z.of_nat (length pre)) (b :: rest) t) (TLit b :: acc))
      as (toks' & -> & Dn).
    { rewrite <- app_assoc. exact D. }
    { rewrite app_length. cbn [length]. lia. }
    { exact T'. }
    exists (TLit b :: toks'). split; [cbn [rev]; now rewrite <- app_assoc|].
    apply (denotes_cons _ pre [b]); [exact I| |reflexivity|cbn [tok_out]; now rewrite rev_app_distr|exact Dn].
    constructor; [|constructor]. rewrite D in Hbytes. apply Forall_app in Hbytes.
    destruct Hbytes as (_ & Hr). inversion Hr; assumption.
Qed.

Theorem tokenizer_sound :
  exists toks, tokenize data = Some toks /\ valid_toks 0 toks /\ toks_bytes toks /\ expand toks = data.
Proof.
  destruct (tok_loop_ok (S (length data)) data (Nat.lt_succ_diag_r _) [] 0 (PositiveMap.empty _) [] eq_refl eq_refl
              (tbl_ok_empty data _)) as (toks & E & V & TB & X).
  exists toks. repeat split; [exact E|exact V|exact TB|].
  unfold expand. cbn [rev] in X. rewrite rev'_rev, X. apply rev_involutive.
Qed.
End TokLoop.

Theorem roundtrip data :
  data <> [] -> bytes data ->
  exists c, compress data = Some c /\ bytes c /\
            decompress c (Z.of_nat (length data)) = DOk data (Z.of_nat (length c)).
Proof.
  intros Hne Hb. destruct (tokenizer_sound data Hb) as (toks & Et & V & TB & X).
  assert (toks <> []) as Tne by (intros ->; apply Hne; rewrite <- X; reflexivity).
  exists (pack toks). split; [|split].
  - unfold compress. destruct data; [congruence|]. now rewrite Et.
  - apply pack_bytes; assumption.
  - rewrite <- X at 1 2. apply pack_decode_all_token_streams; assumption.
Qed.

Theorem string_wrapper data :
  data <> [] -> bytes data ->
  exists c, compress data = Some c /\
            decompress_string c (Z.of_nat (length c)) (Z.of_nat (length data)) = SOk data.
Proof.
  intros Hne Hb. destruct (roundtrip data Hne Hb) as (c & Ec & _ & Ed).
  exists c. split; [exact Ec|]. unfold decompress_string. now rewrite Ed, Z.eqb_refl.
Qed.

Theorem selection_guard data : lzss_emitted data = true -> 200 <= Z.of_nat (length data) /\ data <> [].
Proof.
  unfold lzss_emitted. destruct (compress data) as [c|]; [|discriminate].
  intros H.
  assert (200 <= Z.of_nat (length data)) as L.
  { destruct (Z.gtb_spec (Z.of_nat (length c)) (Z.of_nat (length data) - 200)); [discriminate|lia]. }
  split; [exact L|]. intros ->. cbn [length] in L. lia.
Qed.

Theorem emitted_roundtrip data :
  bytes data -> lzss_emitted data = true ->
  exists c, compress data = Some c /\
            decompress_string c (Z.of_nat (length c)) (Z.of_nat (length data)) = SOk data.
Proof.
  intros Hb He. apply string_wrapper; [|exact Hb]. apply (selection_guard data He).
Qed.

(* why the non-emptiness matters: on the empty input the C loop reads src[0] *)
Lemma empty_input_oob : compress [] = Some [] /\ decompress [] 0 = OOB_src_read.
Proof. split; reflexivity. Qed.
