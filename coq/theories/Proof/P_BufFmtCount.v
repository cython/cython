(* C17 -- the number parser of the format checker (__Pyx_BufFmt_ParseNumber) on canonical decimal
   numerals of ANY size, and accept <-> struct-module layout for plain token lists with arbitrary
   repeat and pad counts: the chunk loop against the spec's consume, a token-level simulation of
   checker context and spec matcher state, the character-level checker on the rendered tokens,
   spec_accept (layout + layout_matches) as the token matcher smatch. *)
From Coq Require Import ZArith List Bool Lia ZifyBool Arith.
From CyVerif Require Import Model.M_BufFmt Proof.P_BufFmt.
Import ListNotations.
Open Scope Z_scope.

Lemma dval_app : forall a ds es, dval a (ds ++ es) = dval (dval a ds) es.
Proof. intros. unfold dval. apply fold_left_app. Qed.

Lemma dval_cons : forall a d ds, dval a (d :: ds) = dval (a * 10 + (d - 48)) ds.
Proof. reflexivity. Qed.

Section DivMod.
Local Ltac Zify.zify_post_hook ::= Z.to_euclidean_division_equations.

Lemma div10_digit : forall n, 0 <= n -> 0 <= n mod 10 <= 9 /\ n / 10 * 10 + n mod 10 = n /\ 0 <= n / 10 /\
  (10 <= n -> 2 * (n / 10) <= n) /\ (n < 10 -> n mod 10 = n).
Proof. intros. lia. Qed.

Lemma half_bound : forall n p, 0 <= n < 2 * p -> 10 <= n -> n / 10 < p.
Proof. intros. lia. Qed.
End DivMod.

Lemma dec_aux_dval : forall f n acc, 0 <= n < 2 ^ Z.of_nat f -> dval 0 (dec_aux f n acc) = dval n acc.
Proof.
  induction f as [|f IH]; intros n acc Hn.
  - cbn in Hn. assert (n = 0) by lia. subst. reflexivity.
  - cbn [dec_aux]. destruct (div10_digit n (proj1 Hn)) as (Hd & He & Hq & _ & Hs).
    destruct (Z.ltb_spec n 10) as [Hlt|Hge].
    + rewrite dval_cons. f_equal. rewrite (Hs Hlt). lia.
    + rewrite IH.
      * rewrite dval_cons. f_equal. lia.
      * split; [exact Hq|]. apply half_bound; [|exact Hge].
        rewrite Nat2Z.inj_succ, Z.pow_succ_r in Hn by lia. exact Hn.
Qed.

Lemma dec_aux_digits : forall f n acc, 0 <= n -> digits acc -> digits (dec_aux f n acc).
Proof.
  induction f as [|f IH]; intros n acc Hn Ha; [exact Ha|].
  cbn [dec_aux]. destruct (div10_digit n Hn) as (Hd & _ & Hq & _).
  assert (Hc : digits ((48 + n mod 10) :: acc)).
  { constructor; [|exact Ha]. unfold is_digit. lia. }
  destruct (n <? 10); [exact Hc|]. apply IH; assumption.
Qed.

Lemma dec_aux_length : forall f n acc, (length acc <= length (dec_aux f n acc))%nat /\
  (f <> O -> length acc < length (dec_aux f n acc))%nat.
Proof.
  induction f as [|f IH]; intros n acc; [cbn; split; [lia|congruence]|].
  cbn [dec_aux]. destruct (n <? 10); [cbn [length]; split; [lia|intros _; lia]|].
  destruct (IH (n / 10) ((48 + n mod 10) :: acc)) as [H _]. cbn [length] in H. split; [lia|intros _; lia].
Qed.

Lemma log2_fuel : forall n, 0 <= n -> n < 2 ^ Z.of_nat (S (Z.to_nat (Z.log2 n))).
Proof.
  intros n Hn. rewrite Nat2Z.inj_succ, Z2Nat.id by apply Z.log2_nonneg.
  destruct (Z.eq_dec n 0) as [->|Hz]; [reflexivity|].
  apply Z.log2_spec. lia.
Qed.

Lemma decimal_dval : forall n, 0 <= n -> dval 0 (decimal n) = n.
Proof. intros n Hn. unfold decimal. rewrite dec_aux_dval; [reflexivity|]. split; [exact Hn|apply log2_fuel; exact Hn]. Qed.

Lemma decimal_digits : forall n, 0 <= n -> digits (decimal n).
Proof. intros. apply dec_aux_digits; [assumption|constructor]. Qed.

Lemma decimal_nonempty : forall n, decimal n <> [].
Proof.
  intros n H. destruct (dec_aux_length (S (Z.to_nat (Z.log2 n))) n []) as [_ Hl].
  unfold decimal in H. rewrite H in Hl. cbn in Hl. specialize (Hl ltac:(congruence)). lia.
Qed.

Lemma zeros_digits : forall k, digits (repeat 48 k).
Proof. induction k; cbn; constructor; auto. Qed.

Lemma zeros_dval : forall k, dval 0 (repeat 48 k) = 0.
Proof. induction k as [|k IH]; [reflexivity|]. cbn [repeat]. rewrite dval_cons. exact IH. Qed.

Lemma decimal_count : forall n k, 0 <= n ->
  digits (repeat 48 k ++ decimal n) /\ repeat 48 k ++ decimal n <> [] /\
  count_of (repeat 48 k ++ decimal n) = n /\ dval 0 (repeat 48 k ++ decimal n) = n.
Proof.
  intros n k Hn.
  assert (Hne : repeat 48 k ++ decimal n <> []).
  { intros E. apply app_eq_nil in E. destruct E as [_ E]. exact (decimal_nonempty n E). }
  assert (Hv : dval 0 (repeat 48 k ++ decimal n) = n) by (rewrite dval_app, zeros_dval; apply decimal_dval; exact Hn).
  split; [apply Forall_app; split; [apply zeros_digits|apply decimal_digits; exact Hn]|].
  split; [exact Hne|]. split; [|exact Hv].
  unfold count_of. destruct (repeat 48 k ++ decimal n); [congruence|exact Hv].
Qed.

(* for EVERY n >= 0 -- any number of digits, every digit in every position --
   optionally preceded by any number of zeros, followed by anything that does not start with a digit:
   the parser returns exactly n and leaves exactly the rest if n fits a C int, and overflows if not *)
Theorem parse_number_decimal : forall n k rest, 0 <= n -> no_digit_head rest ->
  parse_number (repeat 48 k ++ decimal n ++ rest) = if INT_MAX <? n then IntOvf else Ok (Some (n, rest)).
Proof.
  intros n k rest Hn Hr. destruct (decimal_count n k Hn) as (Hd & Hne & _ & Hv).
  rewrite app_assoc, parse_number_digits, Hv by assumption. reflexivity.
Qed.

(* a string that does not start with a digit is not a number (returns -1 without moving) *)
Lemma parse_number_none : forall rest, no_digit_head rest -> parse_number rest = Ok None.
Proof. intros [|d r] H; [reflexivity|]. cbn in *. rewrite H. reflexivity. Qed.

Definition tchar (t : tcode) : Z :=
  match t with
  | Cc => 99 | Cb => 98 | CB => 66 | Ch => 104 | CH => 72 | Ci => 105 | CI => 73 | Cl => 108 | CL => 76
  | Cq => 113 | CQ => 81 | Cbool => 63 | Cf | CZf => 102 | Cd | CZd => 100 | Cg | CZg => 103
  end.
Definition tcplx (t : tcode) : bool := match t with CZf | CZd | CZg => true | _ => false end.
Definition pm_of (m : mode) : Z := match m with MNative => 64 | MStd | MBig => 61 | MUnaligned => 94 end.

Lemma code_chars_tchar : forall t, code_chars t = (if tcplx t then [90] else []) ++ [tchar t].
Proof. destruct t; reflexivity. Qed.

Lemma tchar_inj : forall t t', tchar t = tchar t' -> tcplx t = tcplx t' -> t = t'.
Proof. destruct t, t'; cbn; intros H1 H2; try discriminate H1; try discriminate H2; reflexivity. Qed.

Lemma pm_of_inj : forall m m', m <> MBig -> m' <> MBig -> pm_of m = pm_of m' -> m = m'.
Proof. destruct m, m'; cbn; intros; congruence. Qed.

(* members of a flat C struct as Buffer.py describes them: a known type group, no sub-array,
   positive size; C char has size 1, floating and complex types at least 4 *)
Definition leaf_wf (f : leaf * Z) : Prop :=
  In (l_group (fst f)) [72; 73; 85; 82; 67] /\ l_arr (fst f) = [] /\ 0 < l_size (fst f) /\
  (l_group (fst f) = 72 -> l_size (fst f) = 1) /\
  (l_group (fst f) = 82 \/ l_group (fst f) = 67 -> 4 <= l_size (fst f)).
Definition flat_wf (h : list (leaf * Z)) : Prop := Forall leaf_wf h.

Lemma scalar_leaf_wf : forall g sz o, In g [72; 73; 85; 82; 67] -> 0 < sz -> (g = 72 -> sz = 1) ->
  (g = 82 \/ g = 67 -> 4 <= sz) -> leaf_wf (mkleaf g sz [], o).
Proof. intros. unfold leaf_wf. cbn [fst l_group l_size l_arr]. repeat split; auto. Qed.

Lemma chunk_size : forall t m,
  (if is_native (pm_of m) then native_size (tchar t) (tcplx t) else standard_size (tchar t) (tcplx t)) = msize m t.
Proof. destruct t, m; reflexivity. Qed.

Lemma chunk_align : forall t, alignment (tchar t) = code_align t.
Proof. destruct t; reflexivity. Qed.

Lemma code_align_pos : forall t, 0 < code_align t.
Proof. destruct t; reflexivity. Qed.

Lemma nsize_multiple : forall t, exists q, code_nsize t = q * code_align t.
Proof. destruct t; cbn; solve [exists 1; reflexivity | exists 2; reflexivity]. Qed.

(* type groups and kinds correspond.  leaf_ok waives the group test for C char more widely than
   kind_compat does (a char would also meet a floating type), but then the sizes differ: 1 against
   at least 4 *)
Definition kgroup (k : kind) : Z :=
  match k with KChar => 72 | KInt => 73 | KUInt => 85 | KReal => 82 | KComplex => 67 end.

Definition tgroup (t : tcode) : Z := type_group (tchar t) (tcplx t).

Lemma tgroup_kind : forall t, tgroup t = kgroup (code_kind t).
Proof. destruct t; reflexivity. Qed.

Lemma msize_kind : forall t m, msize m t <> 0 ->
  match code_kind t with KChar => msize m t = 1 | KReal | KComplex => 4 <= msize m t | _ => True end.
Proof. destruct t, m; cbn; intros; lia. Qed.

Lemma leaf_item : forall t m l fo o, leaf_wf (l, fo) -> msize m t <> 0 ->
  leaf_ok l (msize m t) (tgroup t) && (o =? fo) =
  item_matches (code_kind t, msize m t, o) (l, fo).
Proof.
  intros t m [g sz arr] fo o (Hg & _ & _ & Hc & Hf) Hs. cbn [fst l_group l_size l_arr] in *.
  pose proof (msize_kind t m Hs) as Hk. clear Hs. rewrite tgroup_kind.
  unfold leaf_ok, item_matches. cbn [fst snd l_group l_size]. rewrite (Z.eqb_sym (msize m t) sz).
  revert Hk. generalize (msize m t) (code_kind t). intros s k Hk.
  cbn [In] in Hg.
  destruct Hg as [<-|[<-|[<-|[<-|[<-|[]]]]]]; destruct k; cbn in *; lia.
Qed.

Lemma align_up_aligned : forall o al, 0 < al -> align_up o al mod al = 0.
Proof.
  intros o al Hal. unfold align_up. destruct (Z.eqb_spec (o mod al) 0) as [E|E]; [exact E|].
  rewrite (Z.div_mod o al) at 1 by lia.
  replace (al * (o / al) + o mod al + (al - o mod al)) with ((o / al + 1) * al) by ring.
  apply Z.mod_mul. lia.
Qed.

Lemma align_up_id : forall o al, o mod al = 0 -> align_up o al = o.
Proof. intros o al H. unfold align_up. rewrite H. reflexivity. Qed.

(* native sizes are multiples of the alignment: after the first item of a run no padding is inserted *)
Lemma malign_run : forall m t o k, malign m t (malign m t o + k * msize m t) = malign m t o + k * msize m t.
Proof.
  intros [] t o k; try reflexivity. cbn [malign msize]. apply align_up_id.
  destruct (nsize_multiple t) as [q ->]. rewrite Z.mul_assoc, Z_mod_plus_full. apply align_up_aligned, code_align_pos.
Qed.

Definition chunk (t : tcode) (m : mode) := chunk_loop (tchar t) (tcplx t) (pm_of m) (tgroup t) 1.

(* one iteration of the do-while loop *)
Lemma chunk_step : forall t m l fo rest o cnt sal, 1 <= cnt -> exists sal',
  chunk t m ((l, fo) :: rest) o cnt sal =
  if negb (leaf_ok l (msize m t) (tgroup t) && (malign m t o =? fo)) then Err
  else if cnt =? 1 then Ok (rest, malign m t o + msize m t, 0, sal')
  else match rest with [] => Err | _ :: _ => chunk t m rest (malign m t o + msize m t) (cnt - 1) sal' end.
Proof.
  intros t m l fo rest o cnt sal Hc.
  exists (if (pm_of m =? 64) && (sal =? 0) then padding (tchar t) else sal).
  unfold chunk. cbn [chunk_loop]. rewrite chunk_size, chunk_align.
  assert (Hz : (code_align t =? 0) = false) by (pose proof (code_align_pos t); lia).
  rewrite Hz, andb_false_r.
  replace (if pm_of m =? 64 then align_up o (code_align t) else o) with (malign m t o) by (destruct m; reflexivity).
  replace (if cnt =? 0 then SIZE_MOD - 1 else cnt - 1) with (cnt - 1) by (destruct (Z.eqb_spec cnt 0); lia).
  replace (cnt - 1 =? 0) with (cnt =? 1) by lia.
  replace (malign m t o + msize m t + (if 1 =? 0 then 0 else (1 - 1) * msize m t)) with (malign m t o + msize m t)
    by (change (1 =? 0) with false; cbv iota; lia).
  destruct (leaf_ok l (msize m t) (tgroup t)); cbn [negb andb]; [|reflexivity].
  destruct (malign m t o =? fo); cbn [negb]; [|reflexivity].
  destruct rest; destruct (Z.eqb_spec cnt 1) as [->|]; reflexivity.
Qed.

Lemma consume_cons : forall k kd sz o f r,
  consume k kd sz o (f :: r) =
  if item_matches (kd, sz, o) f then (if k =? 1 then Some (r, o + sz) else consume (k - 1) kd sz (o + sz) r) else None.
Proof. reflexivity. Qed.

(* the chunk loop = the spec's consume from the aligned offset *)
Lemma chunk_consume : forall t m h o cnt sal, 1 <= cnt -> flat_wf h -> msize m t <> 0 ->
  match chunk t m h o cnt sal with
  | Ok (h', o', cnt', _) => cnt' = 0 /\ consume cnt (code_kind t) (msize m t) (malign m t o) h = Some (h', o')
  | _ => consume cnt (code_kind t) (msize m t) (malign m t o) h = None
  end.
Proof.
  intros t m. induction h as [|[l fo] rest IH]; intros o cnt sal Hc Hw Hs; [reflexivity|].
  destruct (chunk_step t m l fo rest o cnt sal Hc) as [sal' ->].
  rewrite consume_cons. inversion Hw as [|? ? Hw1 Hw2]; subst.
  rewrite (leaf_item t m l fo _ Hw1 Hs).
  destruct (item_matches _ _); cbn [negb]; [|reflexivity].
  destruct (Z.eqb_spec cnt 1) as [->|Hn]; [split; reflexivity|].
  destruct rest as [|f rest']; [reflexivity|].
  specialize (IH (malign m t o + msize m t) (cnt - 1) sal' ltac:(lia) Hw2 Hs).
  pose proof (malign_run m t o 1) as E. rewrite Z.mul_1_l in E. rewrite E in IH. exact IH.
Qed.

Lemma consume_add : forall kd sz h k j o, 1 <= k -> 1 <= j ->
  consume (k + j) kd sz o h =
  match consume k kd sz o h with Some (h1, o1) => consume j kd sz o1 h1 | None => None end.
Proof.
  induction h as [|f r IH]; intros k j o Hk Hj; [reflexivity|].
  rewrite !consume_cons. destruct (item_matches _ f); [|reflexivity].
  replace (k + j =? 1) with false by lia.
  destruct (Z.eqb_spec k 1) as [->|Hn].
  - replace (1 + j - 1) with j by lia. reflexivity.
  - replace (k + j - 1) with (k - 1 + j) by lia. apply IH; lia.
Qed.

Lemma consume_off : forall kd sz h k o h1 o1, 1 <= k -> consume k kd sz o h = Some (h1, o1) ->
  o1 = o + k * sz /\ exists pre, h = pre ++ h1.
Proof.
  induction h as [|f r IH]; intros k o h1 o1 Hk H; [discriminate|].
  rewrite consume_cons in H. destruct (item_matches _ f); [|discriminate].
  destruct (Z.eqb_spec k 1) as [->|Hn].
  - injection H as <- <-. split; [lia|]. exists [f]. reflexivity.
  - assert (Hk1 : 1 <= k - 1) by lia. destruct (IH _ _ _ _ Hk1 H) as [-> [pre ->]]. split; [lia|]. exists (f :: pre). reflexivity.
Qed.

Definition sstate := option (list (leaf * Z) * Z).
(* spec state after a run of k items of code t started in mode m at (h, o) *)
Definition pend_st (t : tcode) (m : mode) (k : Z) (h : list (leaf * Z)) (o : Z) : sstate :=
  if msize m t =? 0 then None else consume k (code_kind t) (msize m t) (malign m t o) h.

Lemma pend_pool : forall t m k n h o, 1 <= k -> 1 <= n ->
  pend_st t m (k + n) h o =
  match pend_st t m k h o with Some (h1, o1) => pend_st t m n h1 o1 | None => None end.
Proof.
  intros t m k n h o Hk Hn. unfold pend_st. destruct (msize m t =? 0); [reflexivity|].
  rewrite consume_add by assumption.
  destruct (consume k _ _ _ h) as [[h1 o1]|] eqn:E; [|reflexivity].
  destruct (consume_off _ _ _ _ _ _ _ Hk E) as [-> _]. rewrite malign_run. reflexivity.
Qed.

(* the chunk loop against the spec state; with a standard-size mode and a type without standard
   size (g, Zg) neither succeeds *)
Lemma chunk_pend : forall t m h o cnt sal, 1 <= cnt -> flat_wf h ->
  match chunk t m h o cnt sal with
  | Ok (h', o', cnt', _) => cnt' = 0 /\ flat_wf h' /\ pend_st t m cnt h o = Some (h', o')
  | _ => pend_st t m cnt h o = None
  end.
Proof.
  intros t m h o cnt sal Hc Hw. unfold pend_st. destruct (Z.eqb_spec (msize m t) 0) as [Hs|Hs].
  - destruct h as [|[l fo] rest]; [reflexivity|].
    destruct (chunk_step t m l fo rest o cnt sal Hc) as [sal' ->].
    apply Forall_inv in Hw. destruct Hw as (_ & _ & Hp & _). cbn [fst] in Hp.
    unfold leaf_ok. rewrite Hs. replace (l_size l =? 0) with false by lia. reflexivity.
  - pose proof (chunk_consume t m h o cnt sal Hc Hw Hs) as H.
    destruct (chunk t m h o cnt sal) as [[[[h' o'] cnt'] sal']| | | | |]; auto.
    destruct H as [-> H]. repeat split; auto.
    destruct (consume_off _ _ _ _ _ _ _ Hc H) as [_ [pre ->]]. apply Forall_app in Hw. tauto.
Qed.

Definition set_ncnt (c : ctx) (n : Z) : ctx :=
  mkctx (hd c) (off c) n (ecnt c) (salign c) (cplx c) (etype c) (npm c) (epm c) (iva c).
Definition set_npm (c : ctx) (p : Z) : ctx :=
  mkctx (hd c) (off c) (ncnt c) (ecnt c) (salign c) (cplx c) (etype c) p (epm c) (iva c).
Definition pad_step (fx : fixes) (c : ctx) : res ctx :=
  bind (process_chunk fx c) (fun c1 =>
    Ok (mkctx (hd c1) (off c1 + ncnt c1) 1 0 (salign c1) (cplx c1) 0 (npm c1) (npm c1) (iva c1))).

(* the checker's effect of one token on its context *)
Definition step_tok (fx : fixes) (tk : tok) (c : ctx) : res ctx :=
  match tk with
  | TWs _ | TName _ => Ok c
  | TMode MBig _ => Err
  | TMode m _ => Ok (set_npm c (pm_of m))
  | TPad ds => pad_step fx (set_ncnt c (count_of ds))
  | TItem ds t => type_char fx (tchar t) (tcplx t) true (set_ncnt c (count_of ds))
  end.
Fixpoint run_toks (fx : fixes) (toks : list tok) (c : ctx) : res ctx :=
  match toks with [] => Ok c | tk :: r => bind (step_tok fx tk c) (run_toks fx r) end.

(* the spec matcher, one token at a time *)
Definition sstep (tk : tok) (m : mode) (st : sstate) : mode * sstate :=
  match tk with
  | TWs _ | TName _ => (m, st)
  | TMode MBig _ => (m, None)
  | TMode m' _ => (m', st)
  | TPad ds => (m, match st with Some (h, o) => Some (h, o + count_of ds) | None => None end)
  | TItem ds t => (m, match st with Some (h, o) => pend_st t m (count_of ds) h o | None => None end)
  end.
Fixpoint sfold (toks : list tok) (m : mode) (st : sstate) : sstate :=
  match toks with [] => st | tk :: r => sfold r (fst (sstep tk m st)) (snd (sstep tk m st)) end.

Lemma sfold_none : forall toks m, sfold toks m None = None.
Proof. induction toks as [|tk r IH]; intros m; [reflexivity|]. cbn [sfold]. destruct tk as [| [] | | |]; cbn; apply IH. Qed.

Lemma smatch_sfold : forall toks m o h, smatch toks m o h = sfold toks m (Some (h, o)).
Proof.
  induction toks as [|tk r IH]; intros m o h; [reflexivity|].
  destruct tk as [c|m' alt|n|ds t|ds]; cbn [smatch sfold sstep fst snd]; try apply IH.
  - destruct m'; try apply IH. symmetry. apply sfold_none.
  - unfold pend_st. destruct (msize m t =? 0); [symmetry; apply sfold_none|].
    destruct (consume _ _ _ _ _) as [[h' o']|]; [apply IH|symmetry; apply sfold_none].
Qed.

(* fragment of the grammar: whitespace the checker skips, names without colon, counts 1..INT_MAX
   (pads 0..INT_MAX) written with any digits (leading zeros allowed) *)
Definition tok_ok (tk : tok) : Prop :=
  match tk with
  | TWs c => In c [32; 13; 10]
  | TMode _ _ => True
  | TName n => Forall (fun ch => ch <> 58 /\ ch <> 0) n
  | TItem ds _ => digits ds /\ (ds = [] \/ 1 <= dval 0 ds <= INT_MAX)
  | TPad ds => digits ds /\ (ds = [] \/ dval 0 ds <= INT_MAX)
  end.

Lemma dval_nonneg : forall ds a, 0 <= a -> digits ds -> 0 <= dval a ds.
Proof. intros. pose proof (dval_ge ds a H H0). lia. Qed.

Lemma count_item_pos : forall ds t, tok_ok (TItem ds t) -> 1 <= count_of ds.
Proof. intros [|d ds] t [_ [H|H]]; cbn [count_of]; try lia; congruence. Qed.

Lemma tchar_nz : forall t, (tchar t =? 0) = false.
Proof. destruct t; reflexivity. Qed.

(* flushing the pending chunk *)
Lemma process_pending : forall fx c t m, etype c = tchar t -> cplx c = tcplx t -> epm c = pm_of m ->
  1 <= ecnt c -> flat_wf (hd c) ->
  match process_chunk fx c with
  | Ok c1 => pend_st t m (ecnt c) (hd c) (off c) = Some (hd c1, off c1) /\ etype c1 = 0 /\
             ncnt c1 = ncnt c /\ npm c1 = npm c /\ flat_wf (hd c1)
  | _ => pend_st t m (ecnt c) (hd c) (off c) = None
  end.
Proof.
  intros fx [h o nc ec sa cp et np ep iv] t m He Hc Hp Hk Hw. cbn [etype cplx epm ecnt hd off ncnt npm iva] in *. subst et cp ep.
  unfold process_chunk. cbn [etype cplx epm ecnt hd off ncnt npm iva salign]. rewrite tchar_nz.
  destruct h as [|[l fo] rest].
  { unfold pend_st. destruct (msize m t =? 0); destruct (fx_null fx); reflexivity. }
  inversion Hw as [|? ? Hw1 Hw2]; subst. destruct Hw1 as (_ & Ha & _). cbn [fst] in Ha. rewrite Ha.
  cbn [nth]. change (0 =? 0) with true. cbv iota. cbn [bind].
  change (chunk_loop (tchar t) (tcplx t) (pm_of m) (type_group (tchar t) (tcplx t)) 1) with (chunk t m).
  pose proof (chunk_pend t m ((l, fo) :: rest) o ec sa Hk Hw) as H.
  destruct (chunk t m _ o ec sa) as [[[[h' o'] cnt'] sal']| | | | |]; cbn [bind]; auto.
  destruct H as (-> & Hw' & H). cbn [hd off etype ncnt npm]. repeat split; auto.
Qed.

(* checker context against spec matcher state.  The checker processes a chunk lazily, when the next
   one starts: either nothing is pending and the spec stands at the checker's (head, offset), or ecnt c
   items of code t are pending and the spec has consumed them already *)
Inductive R (c : ctx) (st : sstate) : Prop :=
| R_idle : etype c = 0 -> st = Some (hd c, off c) -> R c st
| R_pend : forall t m', etype c = tchar t -> cplx c = tcplx t -> epm c = pm_of m' -> m' <> MBig ->
           1 <= ecnt c -> st = pend_st t m' (ecnt c) (hd c) (off c) -> R c st.
Definition common (c : ctx) (m : mode) : Prop :=
  npm c = pm_of m /\ m <> MBig /\ flat_wf (hd c).

Lemma flush : forall fx c st, R c st -> flat_wf (hd c) ->
  match process_chunk fx c with
  | Ok c1 => st = Some (hd c1, off c1) /\ etype c1 = 0 /\ ncnt c1 = ncnt c /\ npm c1 = npm c /\ flat_wf (hd c1)
  | _ => st = None
  end.
Proof.
  intros fx c st [He Hs|t m' He Hc Hp Hm Hk Hs] Hw.
  - unfold process_chunk. rewrite He. change (0 =? 0) with true. cbv iota. repeat split; auto.
  - pose proof (process_pending fx c t m' He Hc Hp Hk Hw) as H.
    destruct (process_chunk fx c); rewrite Hs; auto.
Qed.

(* R does not look at the pending count and mode of the next item *)
Lemma R_set_ncnt : forall c st n, R c st -> R (set_ncnt c n) st.
Proof. intros c st n [He Hs|t m' He Hc Hp Hm Hk Hs]; [apply R_idle|eapply R_pend]; eauto. Qed.
Lemma R_set_npm : forall c st p, R c st -> R (set_npm c p) st.
Proof. intros c st p [He Hs|t m' He Hc Hp Hm Hk Hs]; [apply R_idle|eapply R_pend]; eauto. Qed.

Lemma step_sim : forall fx tk c m st, R c st -> common c m -> tok_ok tk ->
  match step_tok fx tk c with
  | Ok c1 => R c1 (snd (sstep tk m st)) /\ common c1 (fst (sstep tk m st))
  | _ => snd (sstep tk m st) = None
  end.
Proof.
  intros fx tk c m st HR (Hnp & Hm & Hw) Hok.
  destruct tk as [ch|m' alt|n|ds t|ds]; cbn [step_tok sstep fst snd].
  - split; [exact HR|]. repeat split; assumption.
  - destruct m'; cbn [fst snd]; try reflexivity; (split; [apply R_set_npm, HR|repeat split; auto; discriminate]).
  - split; [exact HR|]. repeat split; assumption.
  - (* item *)
    pose proof (count_item_pos ds t Hok) as Hn. set (n := count_of ds) in *.
    unfold type_char. cbn [andb].
    destruct ((etype (set_ncnt c n) =? tchar t) && Bool.eqb (tcplx t) (cplx (set_ncnt c n)) &&
              (epm (set_ncnt c n) =? npm (set_ncnt c n)) && negb (iva (set_ncnt c n))) eqn:Hpool.
    + (* pooled *)
      cbn [set_ncnt etype cplx epm npm iva hd off ecnt ncnt salign] in *.
      rewrite !andb_true_iff in Hpool. destruct Hpool as [[[Het Hcp] Hpm] _].
      apply Z.eqb_eq in Het, Hpm. apply Bool.eqb_prop in Hcp.
      destruct HR as [He Hs|t' m' He Hc Hp Hm' Hk Hs].
      { rewrite He in Het. pose proof (tchar_nz t). lia. }
      assert (t' = t) by (apply tchar_inj; congruence). subst t'.
      assert (m' = m) by (apply pm_of_inj; auto; congruence). subst m'.
      split.
      * eapply R_pend with (t := t) (m' := m); cbn [etype cplx epm ecnt hd off]; auto; try lia.
        rewrite Hs. rewrite pend_pool by assumption.
        destruct (pend_st t m (ecnt c) (hd c) (off c)) as [[h1 o1]|]; reflexivity.
      * repeat split; auto.
    + (* new chunk *)
      pose proof (flush fx (set_ncnt c n) st (R_set_ncnt c st n HR) Hw) as H.
      destruct (process_chunk fx (set_ncnt c n)) as [c1| | | | |]; cbn [bind]; try (rewrite H; reflexivity).
      destruct H as (-> & He1 & Hn1 & Hp1 & Hw1).
      cbn [set_ncnt ncnt npm] in Hn1, Hp1.
      split.
      * eapply R_pend with (t := t) (m' := m); cbn [etype cplx epm ecnt hd off]; auto; try congruence; try lia.
      * repeat split; cbn [npm hd]; auto; congruence.
  - (* pad *)
    unfold pad_step.
    pose proof (flush fx (set_ncnt c (count_of ds)) st (R_set_ncnt c st _ HR) Hw) as H.
    destruct (process_chunk fx (set_ncnt c (count_of ds))) as [c1| | | | |]; cbn [bind]; try (rewrite H; reflexivity).
    destruct H as (-> & He1 & Hn1 & Hp1 & Hw1).
    cbn [set_ncnt ncnt npm] in Hn1, Hp1.
    split.
    + apply R_idle; cbn [etype hd off]; auto. rewrite Hn1. reflexivity.
    + repeat split; cbn [npm hd]; auto; congruence.
Qed.

Lemma run_sim : forall fx toks c m st, R c st -> common c m -> Forall tok_ok toks ->
  match run_toks fx toks c with
  | Ok c1 => R c1 (sfold toks m st) /\ exists m1, common c1 m1
  | _ => sfold toks m st = None
  end.
Proof.
  intros fx. induction toks as [|tk r IH]; intros c m st HR Hc Hok.
  - cbn. split; [exact HR|]. exists m. exact Hc.
  - inversion Hok as [|? ? Hok1 Hok2]; subst. cbn [run_toks sfold].
    pose proof (step_sim fx tk c m st HR Hc Hok1) as H.
    destruct (step_tok fx tk c) as [c1| | | | |]; cbn [bind]; try (rewrite H; apply sfold_none).
    destruct H as [HR1 Hc1]. apply IH; assumption.
Qed.

(* the NUL case of __Pyx_BufFmt_CheckString *)
Definition finish (fx : fixes) (c : ctx) : res unit :=
  if negb (etype c =? 0) && (match hd c with [] => true | _ => false end) then Err
  else bind (process_chunk fx c) (fun c1 => match hd c1 with [] => Ok tt | _ => Err end).

(* the spec matcher has used up all members *)
Definition done (st : sstate) : bool := match st with Some ([], _) => true | _ => false end.

Lemma finish_sim : forall fx c st, R c st -> flat_wf (hd c) -> (finish fx c = Ok tt <-> done st = true).
Proof.
  intros fx c st HR Hw. unfold finish.
  destruct (negb (etype c =? 0) && _) eqn:Hb.
  - apply andb_prop in Hb as [Hb1 Hb2]. split; [discriminate|]. intros Hd. exfalso.
    destruct HR as [He Hs|t m' He Hc Hp Hm Hk Hs].
    + rewrite He in Hb1. discriminate.
    + destruct (hd c); [|discriminate]. rewrite Hs in Hd. unfold pend_st in Hd.
      destruct (msize m' t =? 0); discriminate.
  - clear Hb. pose proof (flush fx c st HR Hw) as H.
    destruct (process_chunk fx c) as [c1| | | | |]; cbn [bind]; try (rewrite H; split; discriminate).
    destruct H as (-> & _). cbn [done]. destruct (hd c1); split; (reflexivity || discriminate).
Qed.

(* iterations of the main loop spent on a token: one, and one more for a count that is written out *)
Definition ccost (ds : list Z) : nat := match ds with [] => 0%nat | _ => 1%nat end.
Definition cost (tk : tok) : nat :=
  match tk with TItem ds _ | TPad ds => S (ccost ds) | _ => 1%nat end.
Fixpoint costs (toks : list tok) : nat := match toks with [] => O | tk :: r => (cost tk + costs r)%nat end.

Lemma digit_cases : forall d, is_digit d = true ->
  d = 48 \/ d = 49 \/ d = 50 \/ d = 51 \/ d = 52 \/ d = 53 \/ d = 54 \/ d = 55 \/ d = 56 \/ d = 57.
Proof. unfold is_digit. intros. lia. Qed.

Lemma cs_digit : forall fx f d r c, is_digit d = true ->
  check_string fx (S f) (d :: r) c =
  bind (expect_number (d :: r)) (fun '(n, r1) => check_string fx f r1 (set_ncnt c n)).
Proof.
  intros fx f d r c H. apply digit_cases in H.
  destruct H as [->|[->|[->|[->|[->|[->|[->|[->|[->| ->]]]]]]]]]; reflexivity.
Qed.

Lemma cs_code : forall fx t f rest c,
  check_string fx (S f) (code_chars t ++ rest) c =
  bind (type_char fx (tchar t) (tcplx t) true c) (fun c1 => check_string fx f rest c1).
Proof. intros fx t f rest c. destruct t; reflexivity. Qed.

Lemma cs_x : forall fx f rest c,
  check_string fx (S f) (120 :: rest) c =
  bind (pad_step fx c) (fun c1 => check_string fx f rest c1).
Proof. intros. unfold pad_step. cbn [check_string]. destruct (process_chunk fx c); reflexivity. Qed.

Lemma code_no_digit : forall t rest, no_digit_head (code_chars t ++ rest).
Proof. destruct t; reflexivity. Qed.

Lemma skip_name_ok : forall fx n rest, Forall (fun ch => ch <> 58 /\ ch <> 0) n ->
  skip_name fx (n ++ 58 :: rest) = Ok rest.
Proof.
  intros fx. induction n as [|ch n IH]; intros rest H; [reflexivity|].
  inversion H as [|? ? [H1 _] H2]; subst. cbn [app skip_name].
  replace (ch =? 58) with false by lia. apply IH. exact H2.
Qed.

Lemma set_ncnt_id : forall c, ncnt c = 1 -> set_ncnt c 1 = c.
Proof. intros [h o nc ec sa cp et np ep iv] H. cbn in H. subst. reflexivity. Qed.

Lemma expect_digits : forall ds rest, ds <> [] -> digits ds -> no_digit_head rest -> dval 0 ds <= INT_MAX ->
  expect_number (ds ++ rest) = Ok (dval 0 ds, rest).
Proof.
  intros ds rest Hne Hd Hr Hv. unfold expect_number.
  rewrite parse_number_digits by assumption. replace (INT_MAX <? dval 0 ds) with false by lia. reflexivity.
Qed.

Lemma cs_count : forall fx ds f rest c, digits ds -> ds = [] \/ dval 0 ds <= INT_MAX ->
  no_digit_head rest -> ncnt c = 1 ->
  check_string fx (S (ccost ds + f)) (ds ++ rest) c = check_string fx (S f) rest (set_ncnt c (count_of ds)).
Proof.
  intros fx [|d ds] f rest c Hd Hv Hr Hn.
  - cbn [app ccost count_of]. rewrite set_ncnt_id by exact Hn. reflexivity.
  - destruct Hv as [Hv|Hv]; [discriminate|]. change (S (ccost (d :: ds) + f)) with (S (S f)).
    cbn [app]. rewrite cs_digit by exact (Forall_inv Hd).
    change (d :: ds ++ rest) with ((d :: ds) ++ rest).
    rewrite expect_digits; [reflexivity|discriminate|exact Hd|exact Hr|exact Hv].
Qed.

Lemma cs_tok : forall fx tk f rest c, tok_ok tk -> ncnt c = 1 ->
  check_string fx (cost tk + f) (render_tok tk ++ rest) c =
  bind (step_tok fx tk c) (fun c1 => check_string fx f rest c1).
Proof.
  intros fx tk f rest c Hok Hn.
  destruct tk as [ch|m alt|n|ds t|ds]; cbn [tok_ok] in Hok.
  - cbn [In] in Hok. destruct Hok as [<-|[<-|[<-|[]]]]; reflexivity.
  - destruct m, alt; reflexivity.
  - cbn [render_tok cost step_tok bind]. cbn [app]. rewrite <- app_assoc. cbn [app].
    change (check_string fx (1 + f) (58 :: n ++ 58 :: rest) c)
      with (bind (skip_name fx (n ++ 58 :: rest)) (fun r1 => check_string fx f r1 c)).
    rewrite skip_name_ok by exact Hok. reflexivity.
  - destruct Hok as [Hd Hv]. cbn [render_tok step_tok cost]. rewrite <- app_assoc.
    change (S (ccost ds) + f)%nat with (S (ccost ds + f)).
    rewrite cs_count; [apply cs_code|exact Hd| |apply code_no_digit|exact Hn].
    destruct Hv as [Hv|Hv]; [now left|right; lia].
  - destruct Hok as [Hd Hv]. cbn [render_tok step_tok cost]. rewrite <- app_assoc.
    change (S (ccost ds) + f)%nat with (S (ccost ds + f)).
    rewrite cs_count; [apply cs_x|exact Hd|exact Hv|reflexivity|exact Hn].
Qed.

Lemma step_ncnt : forall fx tk c c1, ncnt c = 1 -> step_tok fx tk c = Ok c1 -> ncnt c1 = 1.
Proof.
  intros fx tk c c1 Hn H. destruct tk as [ch|m alt|n|ds t|ds]; cbn [step_tok] in H.
  - injection H as <-. exact Hn.
  - destruct m; try discriminate; injection H as <-; exact Hn.
  - injection H as <-. exact Hn.
  - unfold type_char in H. destruct (_ && _) in H.
    + injection H as <-. reflexivity.
    + destruct (process_chunk fx _); try discriminate. cbn [bind] in H. injection H as <-. reflexivity.
  - unfold pad_step in H. destruct (process_chunk fx _); try discriminate. cbn [bind] in H. injection H as <-. reflexivity.
Qed.

Lemma cs_toks : forall fx toks f rest c, Forall tok_ok toks -> ncnt c = 1 ->
  check_string fx (costs toks + f) (render_body toks ++ rest) c =
  bind (run_toks fx toks c) (fun c1 => check_string fx f rest c1).
Proof.
  intros fx. induction toks as [|tk r IH]; intros f rest c Hok Hn; [reflexivity|].
  inversion Hok as [|? ? Hok1 Hok2]; subst.
  cbn [costs run_toks]. unfold render_body. cbn [map concat]. fold (render_body r).
  rewrite <- app_assoc, <- Nat.add_assoc, cs_tok by assumption.
  destruct (step_tok fx tk c) as [c1| | | | |] eqn:E; cbn [bind]; try reflexivity.
  apply IH; [exact Hok2|]. exact (step_ncnt fx tk c c1 Hn E).
Qed.

Lemma cost_le : forall tk, (cost tk <= length (render_tok tk))%nat.
Proof.
  intros [ch|m alt|n|ds t|ds]; cbn [cost render_tok length]; try lia.
  - destruct ds; rewrite app_length; destruct t; cbn; lia.
  - destruct ds; rewrite app_length; cbn; lia.
Qed.

Lemma costs_le : forall toks, (costs toks <= length (render_body toks))%nat.
Proof.
  induction toks as [|tk r IH]; [cbn; lia|].
  unfold render_body. cbn [map concat costs]. rewrite app_length. fold (render_body r).
  pose proof (cost_le tk). lia.
Qed.

Lemma cstr_id : forall s, Forall (fun ch => ch <> 0) s -> cstr s = s.
Proof.
  induction s as [|ch r IH]; intros H; [reflexivity|]. inversion H; subst. cbn [cstr].
  replace (ch =? 0) with false by lia. rewrite IH by assumption. reflexivity.
Qed.

Lemma digits_nz : forall ds, digits ds -> Forall (fun ch => ch <> 0) ds.
Proof. intros ds H. eapply Forall_impl; [|exact H]. cbn. unfold is_digit. lia. Qed.

Lemma render_nz : forall toks, Forall tok_ok toks -> Forall (fun ch => ch <> 0) (render_body toks).
Proof.
  induction toks as [|tk r IH]; intros H; [constructor|]. inversion H as [|? ? H1 H2]; subst.
  unfold render_body. cbn [map concat]. apply Forall_app. split; [|apply IH; exact H2].
  destruct tk as [ch|m alt|n|ds t|ds]; cbn [tok_ok render_tok] in *.
  - cbn [In] in H1. constructor; [lia|constructor].
  - destruct m, alt; repeat constructor; discriminate.
  - constructor; [discriminate|]. apply Forall_app. split; [|repeat constructor; discriminate].
    eapply Forall_impl; [|exact H1]. cbn. tauto.
  - apply Forall_app. split; [apply digits_nz, H1|]. destruct t; repeat constructor; discriminate.
  - apply Forall_app. split; [apply digits_nz, H1|]. repeat constructor; discriminate.
Qed.

Lemma items_at_S : forall kd sz o k,
  items_at kd sz o (Z.of_nat (S k)) = (kd, sz, o) :: items_at kd sz (o + sz) (Z.of_nat k).
Proof.
  intros. unfold items_at. rewrite !Nat2Z.id. cbn [seq map]. f_equal.
  - f_equal. cbn. lia.
  - rewrite <- seq_shift, map_map. apply map_ext. intros i. f_equal. rewrite Nat2Z.inj_succ. lia.
Qed.

Lemma lm_consume : forall kd sz l n o fs, 1 <= n ->
  layout_matches (items_at kd sz o n ++ l) fs =
  match consume n kd sz o fs with Some (fs', _) => layout_matches l fs' | None => false end.
Proof.
  intros kd sz l n o fs Hn. replace n with (Z.of_nat (S (Z.to_nat (n - 1)))) by lia.
  generalize (Z.to_nat (n - 1)). clear Hn. intros k. revert o fs.
  induction k as [|k IH]; intros o fs; rewrite items_at_S;
    (destruct fs as [|f r]; [reflexivity|]); cbn [app layout_matches]; rewrite consume_cons;
    (destruct (item_matches (kd, sz, o) f); [cbn [andb]|reflexivity]).
  - reflexivity.
  - replace (Z.of_nat (S (S k)) =? 1) with false by lia.
    replace (Z.of_nat (S (S k)) - 1) with (Z.of_nat (S k)) by lia. apply IH.
Qed.

Lemma layout_smatch : forall toks m o fs, Forall tok_ok toks ->
  match layout toks m o with Some (l, _) => layout_matches l fs | None => false end = done (smatch toks m o fs).
Proof.
  induction toks as [|tk r IH]; intros m o fs Hok; [destruct fs; reflexivity|].
  inversion Hok as [|? ? Hok1 Hok2]; subst.
  destruct tk as [ch|m' alt|n|ds t|ds]; cbn [layout smatch]; try (apply IH; exact Hok2).
  - destruct m'; try (apply IH; exact Hok2). reflexivity.
  - pose proof (count_item_pos ds t Hok1) as Hn.
    destruct (msize m t =? 0); [reflexivity|].
    destruct (consume (count_of ds) (code_kind t) (msize m t) (malign m t o) fs) as [[h1 o1]|] eqn:Ec.
    + destruct (consume_off _ _ _ _ _ _ _ Hn Ec) as [-> _]. rewrite <- (IH m _ h1 Hok2).
      destruct (layout r m _) as [[l1 e1]|]; [|reflexivity]. rewrite lm_consume, Ec by exact Hn. reflexivity.
    + destruct (layout r m _) as [[l1 e1]|]; [|reflexivity]. rewrite lm_consume, Ec by exact Hn. reflexivity.
Qed.

Lemma spec_accept_smatch : forall toks ti isz, Forall tok_ok toks ->
  spec_accept (FPlain toks) ti isz = done (smatch toks MNative 0 (ti_fields ti)) && (isz =? ti_size ti).
Proof.
  intros toks ti isz Hok. unfold spec_accept. cbn [fmt_toks].
  rewrite <- (layout_smatch toks MNative 0 (ti_fields ti) Hok).
  destruct (layout toks MNative 0) as [[l e]|]; reflexivity.
Qed.

Lemma cs_nil : forall fx f c (k : res unit),
  bind (check_string fx (S f) [] c) (fun _ => k) = bind (finish fx c) (fun _ => k).
Proof.
  intros. unfold finish. cbn [check_string]. destruct (negb _ && _); [reflexivity|].
  destruct (process_chunk fx c) as [c1| | | | |]; try reflexivity. cbn [bind]. destruct (hd c1); reflexivity.
Qed.

Lemma bind_ok_tt : forall (r : res unit) (b : bool),
  bind r (fun _ => if b then Ok tt else Err) = Ok tt <-> r = Ok tt /\ b = true.
Proof. intros [[]| | | | |] []; cbn [bind]; intuition congruence. Qed.

Theorem accept_iff_layout_counts : forall fx toks ti isz,
  Forall tok_ok toks -> flat_wf (ti_fields ti) ->
  (check fx (render (FPlain toks)) ti isz = Ok tt <-> spec_accept (FPlain toks) ti isz = true).
Proof.
  intros fx toks ti isz Hok Hw.
  rewrite (spec_accept_smatch toks ti isz Hok), smatch_sfold.
  unfold check, check_fuel. cbn [render].
  rewrite (cstr_id _ (render_nz toks Hok)).
  pose proof (costs_le toks) as Hc.
  replace (S (length (render_body toks))) with (costs toks + S (length (render_body toks) - costs toks))%nat by lia.
  rewrite <- (app_nil_r (render_body toks)) at 2.
  rewrite cs_toks; [|exact Hok|reflexivity].
  assert (HR : R (init ti) (Some (ti_fields ti, 0))) by (apply R_idle; reflexivity).
  assert (Hcm : common (init ti) MNative) by (repeat split; auto; discriminate).
  pose proof (run_sim fx toks (init ti) MNative _ HR Hcm Hok) as H.
  destruct (run_toks fx toks (init ti)) as [c1| | | | |]; cbn [bind]; try (rewrite H; split; discriminate).
  destruct H as [HR1 [m1 (_ & _ & Hw1)]].
  rewrite cs_nil, bind_ok_tt, andb_true_iff, (finish_sim fx c1 _ HR1 Hw1). reflexivity.
Qed.

Lemma decimal_item_ok : forall n k t, 1 <= n <= INT_MAX -> tok_ok (TItem (repeat 48 k ++ decimal n) t).
Proof.
  intros n k t Hn. destruct (decimal_count n k ltac:(lia)) as (Hd & _ & _ & Hv).
  split; [exact Hd|]. right. rewrite Hv. exact Hn.
Qed.

Lemma decimal_pad_ok : forall n k, 0 <= n <= INT_MAX -> tok_ok (TPad (repeat 48 k ++ decimal n)).
Proof.
  intros n k Hn. destruct (decimal_count n k ltac:(lia)) as (Hd & _ & _ & Hv).
  split; [exact Hd|]. right. rewrite Hv. lia.
Qed.

(* n consecutive members of one scalar type *)
Definition run_ti (g sz : Z) (n : nat) : tinfo :=
  mktinfo (map (fun i => (mkleaf g sz [], Z.of_nat i * sz)) (seq 0 n)) (Z.of_nat n * sz) 0.

Lemma run_ti_wf : forall g sz n, In g [72; 73; 85; 82; 67] -> 0 < sz -> (g = 72 -> sz = 1) ->
  (g = 82 \/ g = 67 -> 4 <= sz) -> flat_wf (ti_fields (run_ti g sz n)).
Proof.
  intros g sz n Hg Hs H1 H2. unfold run_ti. cbn [ti_fields]. apply Forall_forall. intros [l o] H.
  apply in_map_iff in H. destruct H as (i & E & _). injection E as <- <-.
  apply scalar_leaf_wf; assumption.
Qed.
