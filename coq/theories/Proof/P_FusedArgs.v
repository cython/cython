(* C34 - proofs about the argument fetch of the generated fused dispatcher (Model/M_FusedArgs.v) *)
From Coq Require Import ZArith List Bool Arith Lia.
From CyVerif Require Import Model.M_Fused Model.M_FusedArgs.
Import ListNotations.
Local Open Scope nat_scope.

Section Args.
Variable V : Type.
(* the type tag of an argument value; the lemmas from fused_vals_length on take it *)
Variable tag_of : V -> atag.

(* compile time: what the loop of make_fused_cpdef computes *)
Lemma defaults_tuple_cons : forall (q : param V) tl,
  length (defaults_tuple (q :: tl)) = (if has_default q then 1 else 0) + length (defaults_tuple tl).
Proof.
  intros q tl. unfold defaults_tuple, has_default. cbn [flat_map]. rewrite app_length.
  destruct (p_default q); reflexivity.
Qed.

Lemma plans_from_spec : forall (ps : list (param V)) i didx seen pl,
  In pl (plans_from true ps i didx seen) ->
  exists k p, nth_error ps k = Some p /\ pl_idx pl = i + k /\ pl_name pl = p_name p /\
              pl_kind pl = p_kind p /\ p_fused p = Some (pl_ft pl) /\
              pl_def pl = (if has_default p then Some (didx + length (defaults_tuple (firstn k ps))) else None).
Proof.
  induction ps as [|q tl IH]; intros i didx seen pl H; [inversion H|].
  cbn [plans_from orb] in H. rewrite andb_true_r in H.
  assert (TAIL : forall seen', In pl (plans_from true tl (S i) (if has_default q then S didx else didx) seen') ->
    exists k p, nth_error (q :: tl) k = Some p /\ pl_idx pl = i + k /\ pl_name pl = p_name p /\
              pl_kind pl = p_kind p /\ p_fused p = Some (pl_ft pl) /\
              pl_def pl = (if has_default p then Some (didx + length (defaults_tuple (firstn k (q :: tl)))) else None)).
  { intros seen' HT. destruct (IH _ _ _ _ HT) as [k [p [Hn [Hi [Hnm [Hk [Hf Hd]]]]]]].
    exists (S k), p. cbn [nth_error firstn]. repeat (split; [assumption || lia|]).
    rewrite Hd. destruct (has_default p); [|reflexivity].
    rewrite defaults_tuple_cons. destruct (has_default q); f_equal; lia. }
  destruct (p_fused q) as [ft|] eqn:Hq; [|eauto].
  destruct (negb (existsb (Nat.eqb ft) seen)); [|eauto].
  destruct H as [H|H]; [|eauto].
  exists 0, q. subst pl. cbn [nth_error firstn pl_idx pl_name pl_kind pl_ft pl_def].
  repeat (split; [reflexivity || lia || assumption|]).
  destruct (has_default q); [|reflexivity]. cbn. f_equal. lia.
Qed.

(* what every block of the real loop reads: index, name, kind of a fused parameter that is the
   first of its fused type, and the defaults slot = number of EARLIER defaulted parameters *)
Lemma plans_spec : forall (s : fsig V) pl,
  In pl (plans true s) ->
  exists p, nth_error (s_params s) (pl_idx pl) = Some p /\ pl_name pl = p_name p /\ pl_kind pl = p_kind p /\
            p_fused p = Some (pl_ft pl) /\
            pl_def pl = (if has_default p
                         then Some (length (defaults_tuple (firstn (pl_idx pl) (s_params s)))) else None).
Proof.
  intros s pl H. unfold plans in H.
  destruct (plans_from_spec _ _ _ _ _ H) as [k [p [Hn [Hi [Hnm [Hk [Hf Hd]]]]]]].
  cbn [plus] in Hi, Hd. subst k. exists p. auto 6.
Qed.

(* the defaults tuple holds the default of parameter k at the index "number of earlier defaults" *)
Lemma defaults_nth : forall (ps : list (param V)) k p v,
  nth_error ps k = Some p -> p_default p = Some v ->
  nth_error (defaults_tuple ps) (length (defaults_tuple (firstn k ps))) = Some v.
Proof.
  induction ps as [|q tl IH]; intros k p v Hn Hd; [destruct k; discriminate|].
  destruct k as [|k]; cbn [nth_error firstn] in *.
  - injection Hn as ->. unfold defaults_tuple. cbn [flat_map]. rewrite Hd. reflexivity.
  - unfold defaults_tuple in *. cbn [flat_map]. rewrite app_length.
    destruct (p_default q); cbn [length app plus nth_error]; eauto.
Qed.

(* CPython's binding (bind_py) *)
Lemma bind_from_nth : forall args kwargs (ps : list (param V)) i vals k p,
  bind_from args kwargs i ps = Some vals -> nth_error ps k = Some p ->
  exists v, nth_error vals k = Some v /\ bind_one args kwargs (i + k) p = Some v.
Proof.
  induction ps as [|q tl IH]; intros i vals k p Hb Hn; [destruct k; discriminate|].
  cbn [bind_from] in Hb.
  destruct (bind_one args kwargs i q) as [v0|] eqn:H0; [|discriminate].
  destruct (bind_from args kwargs (S i) tl) as [vs|] eqn:H1; [|discriminate].
  injection Hb as <-.
  destruct k as [|k]; cbn [nth_error] in *.
  - injection Hn as <-. exists v0. rewrite Nat.add_0_r. auto.
  - destruct (IH _ _ _ _ H1 Hn) as [v [Hv Hb1]]. exists v. split; [assumption|].
    replace (i + S k) with (S i + k) by lia. assumption.
Qed.

Lemma bind_from_length : forall args kwargs (ps : list (param V)) i vals,
  bind_from args kwargs i ps = Some vals -> length vals = length ps.
Proof.
  induction ps as [|q tl IH]; intros i vals Hb; cbn [bind_from] in Hb.
  - injection Hb as <-. reflexivity.
  - destruct (bind_one args kwargs i q); [|discriminate].
    destruct (bind_from args kwargs (S i) tl) eqn:H1; [|discriminate].
    injection Hb as <-. cbn [length]. f_equal. eauto.
Qed.

Lemma kinds_sorted_npos : forall (ps : list (param V)) k p,
  kinds_sorted ps = true -> nth_error ps k = Some p -> is_kwonly (p_kind p) = true -> npos ps <= k.
Proof.
  unfold npos.
  induction ps as [|q tl IH]; intros k p Hs Hn Hk; [destruct k; discriminate|].
  cbn [kinds_sorted] in Hs. apply andb_true_iff in Hs. destruct Hs as [Hq Hs].
  destruct k as [|k]; cbn [nth_error] in Hn.
  - injection Hn as ->. rewrite Hk in Hq. cbn [filter]. unfold positional at 1. rewrite Hk. cbn [negb].
    assert (E : filter (@positional V) tl = []).
    { clear - Hq. induction tl as [|x r IHr]; [reflexivity|]. cbn [forallb] in Hq.
      apply andb_true_iff in Hq. destruct Hq as [Hx Hr]. cbn [filter]. unfold positional at 1.
      rewrite Hx. cbn [negb]. auto. }
    rewrite E. cbn. lia.
  - specialize (IH _ _ Hs Hn Hk). cbn [filter]. destruct (positional q); cbn [length]; lia.
Qed.

Lemma nodupb_name : forall (ps : list (param V)) k p q,
  nodupb (map (@p_name V) ps) = true -> nth_error ps k = Some p -> In q ps -> p_name q = p_name p -> q = p.
Proof.
  induction ps as [|x tl IH]; intros k p q Hnd Hn Hin He; [destruct k; discriminate|].
  cbn [map nodupb] in Hnd. apply andb_true_iff in Hnd. destruct Hnd as [Hx Hnd].
  apply negb_true_iff in Hx.
  assert (NI : forall y, In y tl -> p_name y <> p_name x).
  { intros y Hy Heq. assert (existsb (Nat.eqb (p_name x)) (map (@p_name V) tl) = true).
    { apply existsb_exists. exists (p_name y). split; [apply in_map; assumption|]. apply Nat.eqb_eq. auto. }
    congruence. }
  destruct k as [|k]; cbn [nth_error] in Hn.
  - injection Hn as <-. destruct Hin as [<-|Hin]; [reflexivity|]. exfalso. eapply NI; eauto.
  - destruct Hin as [<-|Hin].
    + exfalso. apply nth_error_In in Hn. eapply NI; eauto.
    + eauto.
Qed.

Lemma in_kw_lookup : forall n (kw : list (nat * V)), in_kw n kw = false -> lookup n kw = None.
Proof. intros n kw. unfold in_kw. destruct (lookup n kw); [discriminate|reflexivity]. Qed.

Lemma lookup_in : forall n (kw : list (nat * V)) v, lookup n kw = Some v -> In (n, v) kw.
Proof.
  induction kw as [|[k w] r IH]; intros v H; [discriminate|]. cbn [lookup] in H.
  destruct (Nat.eqb_spec k n).
  - injection H as ->. subst. left. reflexivity.
  - right. auto.
Qed.

(* a call that binds without **kwargs cannot carry the name of a positional-only parameter *)
Lemma posonly_not_in_kwargs : forall (s : fsig V) (kwargs : list (nat * V)) k p,
  nodupb (map (@p_name V) (s_params s)) = true ->
  existsb (fun kv => negb (accepts_kw (s_params s) (fst kv))) kwargs = false ->
  nth_error (s_params s) k = Some p -> p_kind p = KPosOnly ->
  lookup (p_name p) kwargs = None.
Proof.
  intros s kwargs k p Hnd Hex Hn Hk.
  destruct (lookup (p_name p) kwargs) as [v|] eqn:Hl; [|reflexivity]. exfalso.
  apply lookup_in in Hl.
  assert (HA : accepts_kw (s_params s) (p_name p) = true).
  { destruct (accepts_kw (s_params s) (p_name p)) eqn:HA; [reflexivity|].
    assert (existsb (fun kv : nat * V => negb (accepts_kw (s_params s) (fst kv))) kwargs = true).
    { apply existsb_exists. exists (p_name p, v). split; [assumption|]. cbn [fst]. rewrite HA. reflexivity. }
    congruence. }
  unfold accepts_kw in HA. apply existsb_exists in HA. destruct HA as [q [Hq HA]].
  apply andb_true_iff in HA. destruct HA as [Hname Hkind]. apply Nat.eqb_eq in Hname.
  assert (q = p) by (eapply nodupb_name; eauto). subst q. rewrite Hk in Hkind. discriminate.
Qed.

(* what a successful binding says about the call *)
Lemma bind_py_inv : forall (s : fsig V) args kwargs vals, bind_py s args kwargs = Some vals ->
  (s_star s = false -> length args <= npos (s_params s)) /\
  (s_kw s = false -> existsb (fun kv => negb (accepts_kw (s_params s) (fst kv))) kwargs = false) /\
  bind_from args kwargs 0 (s_params s) = Some vals.
Proof.
  intros s args kwargs vals Hb. unfold bind_py in Hb.
  destruct (negb (s_star s) && (npos (s_params s) <? length args)) eqn:Hstar; [discriminate|].
  destruct (negb (s_kw s) && existsb (fun kv => negb (accepts_kw (s_params s) (fst kv))) kwargs) eqn:Hkw; [discriminate|].
  split; [|split; [|exact Hb]].
  - intros E. rewrite E in Hstar. apply Nat.ltb_ge in Hstar. exact Hstar.
  - intros E. rewrite E in Hkw. exact Hkw.
Qed.

Theorem fetch_bound : forall kinds_fix (s : fsig V) args kwargs vals pl,
  wf_sig s = true ->
  bind_py s args kwargs = Some vals ->
  In pl (plans true s) ->
  kinds_fix = true \/ hazard_free pl args kwargs = true ->
  exists v, nth_error vals (pl_idx pl) = Some v /\
            run_plan kinds_fix pl args kwargs (defaults_tuple (s_params s)) = FVal v.
Proof.
  intros kf s args kwargs vals pl Hwf Hb Hin Hhaz.
  unfold wf_sig in Hwf. apply andb_true_iff in Hwf. destruct Hwf as [Hks Hnd].
  destruct (plans_spec s pl Hin) as (p & Hn & Hnm & Hk & Hf & Hd).
  destruct (bind_py_inv s args kwargs vals Hb) as (Hstar & Hkw & Hbf).
  destruct (bind_from_nth _ _ _ _ _ _ _ Hbf Hn) as [v [Hv Hb1]]. cbn [plus] in Hb1.
  exists v. split; [assumption|].
  (* the default branch of the generated block reads the parameter's own default *)
  assert (DEF : p_default p = Some v ->
            match pl_def pl with
            | Some k0 => match nth_error (defaults_tuple (s_params s)) k0 with Some v0 => FVal v0 | None => FBadIndex end
            | None => FMissing end = FVal v).
  { intros Hdd. rewrite Hd. unfold has_default. rewrite Hdd. rewrite (defaults_nth _ _ _ _ Hn Hdd). reflexivity. }
  unfold run_plan. rewrite Hnm, Hk. unfold hazard_free in Hhaz. rewrite Hk, Hnm in Hhaz.
  unfold bind_one in Hb1.
  destruct (p_kind p) eqn:Hkind; cbn [is_kwonly is_posonly andb].
  - (* positional-only *)
    rewrite andb_false_r.
    destruct (nth_error args (pl_idx pl)) as [a|] eqn:Ha; [congruence|].
    assert (NK : (if kf && true then None else lookup (p_name p) kwargs) = None).
    { destruct kf; [reflexivity|]. cbn [andb].
      destruct (s_kw s) eqn:Hskw; [|apply (posonly_not_in_kwargs s kwargs _ p Hnd (Hkw eq_refl) Hn Hkind)].
      destruct Hhaz as [Hx|Hx]; [discriminate|].
      apply nth_error_None in Ha. apply orb_true_iff in Hx. destruct Hx as [Hx|Hx].
      + apply Nat.ltb_lt in Hx. lia.
      + apply negb_true_iff in Hx. apply in_kw_lookup. assumption. }
    rewrite NK. exact (DEF Hb1).
  - (* positional or keyword *)
    rewrite !andb_false_r.
    destruct (nth_error args (pl_idx pl)) as [a|] eqn:Ha.
    + destruct (in_kw (p_name p) kwargs); [discriminate|]. congruence.
    + destruct (lookup (p_name p) kwargs) as [w|]; [congruence|exact (DEF Hb1)].
  - (* keyword-only *)
    rewrite andb_false_r.
    assert (NP : (if kf && true then None else nth_error args (pl_idx pl)) = None).
    { destruct kf; [reflexivity|]. cbn [andb]. apply nth_error_None.
      destruct (s_star s) eqn:Hss.
      - destruct Hhaz as [Hx|Hx]; [discriminate|]. apply Nat.leb_le in Hx. assumption.
      - pose proof (kinds_sorted_npos (s_params s) _ p Hks Hn) as Hnp. rewrite Hkind in Hnp.
        specialize (Hnp eq_refl). specialize (Hstar eq_refl). lia. }
    rewrite NP.
    destruct (lookup (p_name p) kwargs) as [w|]; [congruence|exact (DEF Hb1)].
Qed.

(* all blocks together *)
Lemma fetch_all_spec : forall kf (pls : list plan) (args : list V) kwargs dt vals,
  Forall (fun pl => exists v, nth_error vals (pl_idx pl) = Some v /\ run_plan kf pl args kwargs dt = FVal v) pls ->
  exists vs, fetch_all kf pls args kwargs dt = Fetched vs /\
             Forall2 (fun pl v => nth_error vals (pl_idx pl) = Some v) pls vs.
Proof.
  intros kf pls args kwargs dt vals. induction 1 as [|pl tl (v & Hv & Hr) _ (vs & Hf & HF)].
  - exists []. split; [reflexivity|constructor].
  - exists (v :: vs). cbn [fetch_all]. rewrite Hr, Hf. split; [reflexivity|constructor; assumption].
Qed.

Theorem fetch_all_bound : forall kinds_fix (s : fsig V) args kwargs vals,
  wf_sig s = true ->
  bind_py s args kwargs = Some vals ->
  kinds_fix = true \/ forallb (fun pl => hazard_free pl args kwargs) (plans true s) = true ->
  exists vs, fetch_all kinds_fix (plans true s) args kwargs (defaults_tuple (s_params s)) = Fetched vs /\
             Forall2 (fun pl v => nth_error vals (pl_idx pl) = Some v) (plans true s) vs.
Proof.
  intros kf s args kwargs vals Hwf Hb Hhaz. apply fetch_all_spec, Forall_forall. intros pl Hin.
  apply (fetch_bound kf s args kwargs vals pl Hwf Hb Hin).
  destruct Hhaz as [Hx|Hx]; [left; assumption|right]. rewrite forallb_forall in Hx. auto.
Qed.

Lemma fused_vals_length : forall (ps : list (param V)) vals,
  length vals = length ps -> length (fused_vals tag_of ps vals) = length (fparams ps).
Proof.
  induction ps as [|q tl IH]; intros vals Hl; destruct vals as [|w vals]; try discriminate; [reflexivity|].
  cbn [fused_vals]. unfold fparams. cbn [flat_map]. injection Hl as Hl.
  destruct (p_fused q); cbn [app length]; [f_equal|]; apply IH; assumption.
Qed.

Lemma fused_vals_nth : forall (ps : list (param V)) vals i p ft v,
  nth_error ps i = Some p -> p_fused p = Some ft -> nth_error vals i = Some v ->
  nth_error (fused_vals tag_of ps vals) (length (fparams (firstn i ps))) = Some (tag_of v).
Proof.
  induction ps as [|q tl IH]; intros vals i p ft v Hn Hf Hv; [destruct i; discriminate|].
  destruct vals as [|w vals]; [destruct i; discriminate|].
  destruct i as [|i]; cbn [nth_error firstn] in *.
  - injection Hn as ->. injection Hv as ->. cbn [fused_vals]. rewrite Hf. reflexivity.
  - cbn [fused_vals]. unfold fparams. cbn [flat_map].
    destruct (p_fused q); cbn [app length nth_error]; eapply IH; eauto.
Qed.

(* the destination types computed from the fetched values are those of the all-positional
   dispatcher on the bound values *)
Lemma dests_of_fetched : forall fx idlt mss (s : fsig V) vals pls vs,
  Forall (fun pl => exists p, nth_error (s_params s) (pl_idx pl) = Some p /\ p_fused p = Some (pl_ft pl)) pls ->
  Forall2 (fun pl v => nth_error vals (pl_idx pl) = Some v) pls vs ->
  fold_right (fun ft acc =>
                match acc, nth_error (fused_vals tag_of (s_params s) vals) (fpos ft) with
                | Some l, Some a => Some (map_fused fx idlt (members ft) a :: l)
                | _, _ => None end) (Some [])
             (map (fun pl => {| members := members_of mss pl;
                                fpos := length (fparams (firstn (pl_idx pl) (s_params s))) |}) pls) =
  Some (map (fun pv => map_fused fx idlt (members_of mss (fst pv)) (tag_of (snd pv))) (combine pls vs)).
Proof.
  intros fx idlt mss s vals pls vs Hp HF. induction HF as [|pl v pls vs Hv HF IH]; [reflexivity|].
  inversion Hp as [|? ? (p & Hn & Hft) Hp']; subst.
  cbn [map fold_right combine]. rewrite (IH Hp'). cbn [fpos members fst snd].
  rewrite (fused_vals_nth _ _ _ _ _ _ Hn Hft Hv). reflexivity.
Qed.

Theorem call2_reduces : forall kinds_fix fastfix idlt mss (s : fsig V) args kwargs vals,
  wf_sig s = true ->
  bind_py s args kwargs = Some vals ->
  kinds_fix = true \/ forallb (fun pl => hazard_free pl args kwargs) (plans true s) = true ->
  call2_cy tag_of true kinds_fix fastfix idlt mss s args kwargs =
  call_cy fastfix idlt (decl_of mss s) (fused_vals tag_of (s_params s) vals).
Proof.
  intros kf fx idlt mss s args kwargs vals Hwf Hb Hhaz.
  destruct (fetch_all_bound kf s args kwargs vals Hwf Hb Hhaz) as [vs [Hfetch HF]].
  unfold call2_cy. rewrite Hfetch, Hb.
  unfold call_cy, dispatch_cy.
  assert (L : length (fused_vals tag_of (s_params s) vals) = length (params (decl_of mss s))).
  { unfold decl_of. cbn [params]. rewrite map_length. apply fused_vals_length.
    apply (bind_from_length args kwargs _ 0), (bind_py_inv s args kwargs vals Hb). }
  rewrite L, Nat.eqb_refl. cbn [negb].
  assert (Hp : Forall (fun pl => exists p, nth_error (s_params s) (pl_idx pl) = Some p /\ p_fused p = Some (pl_ft pl))
                      (plans true s)).
  { apply Forall_forall. intros pl Hin. destruct (plans_spec s pl Hin) as (p & Hn & _ & _ & Hft & _). eauto. }
  unfold dests, decl_of. cbn [ftypes params].
  rewrite (dests_of_fetched fx idlt mss s vals _ vs Hp HF), map_map. reflexivity.
Qed.

(* a call that CPython's binding rejects never runs a specialisation, whatever was fetched *)
Theorem call2_bind_error : forall ca kinds_fix fastfix idlt mss (s : fsig V) args kwargs sg,
  bind_py s args kwargs = None -> call2_cy tag_of ca kinds_fix fastfix idlt mss s args kwargs <> Ran sg.
Proof.
  intros ca kf fx idlt mss s args kwargs sg Hb. unfold call2_cy. rewrite Hb.
  destruct (fetch_all kf (plans ca s) args kwargs (defaults_tuple (s_params s))); try discriminate.
  match goal with |- context [select ?a ?b] => destruct (select a b) end; discriminate.
Qed.

End Args.

(* signatures of the refuted variants (Prop/C34.v), values: numbers *)
(* f(tag = 7, num_t x = 3) *)
Definition s_seed : fsig nat :=
  mkSig [mkParam 0 KPosKw None (Some 7); mkParam 1 KPosKw (Some 0) (Some 3)] false false.
(* f( *args, num_t x = 3) *)
Definition s_kwonly : fsig nat := mkSig [mkParam 0 KKwOnly (Some 0) (Some 3)] true false.
(* f(num_t x = 3, /, **kw) *)
Definition s_posonly : fsig nat := mkSig [mkParam 0 KPosOnly (Some 0) (Some 3)] false true.
