(* The reference matcher (Brzozowski derivatives over the event alphabet) decides the denotational
   language L; longest-match / earliest-rule selection.  C50 compares the scanner with it (P_Plex.v);
   for C43 it gives the lexicon's rules their meaning (P_Lexicon.v, P_LexiconDots.v). *)
From Coq Require Import ZArith List Bool Lia ZifyBool ZifyNat.
From CyVerif Require Import Model.M_Plex.
Import ListNotations.
Open Scope Z_scope.

Inductive L : ere -> list event -> Prop :=
| L_eps : L EEps []
| L_range c0 c1 c : c0 <= c < c1 -> L (ERange c0 c1) [EvChar c]
| L_sym s e : ev_is s e = true -> L (ESym s) [e]
| L_seq a b w1 w2 : L a w1 -> L b w2 -> L (ESeq a b) (w1 ++ w2)
| L_alt_l a b w : L a w -> L (EAlt a b) w
| L_alt_r a b w : L b w -> L (EAlt a b) w
| L_rep1_one a w : L a w -> L (ERep1 a) w
| L_rep1_more a w1 w2 : L a w1 -> L (ERep1 a) w2 -> L (ERep1 a) (w1 ++ w2).

Lemma nullable_sound r : e_nullable r = true -> L r [].
Proof.
  induction r as [| |c0 c1|s|a IHa b IHb|a IHa b IHb|a IHa]; cbn; intros H; try discriminate.
  - constructor.
  - apply andb_true_iff in H. destruct H as [Ha Hb]. change (@nil event) with (@nil event ++ []).
    constructor; auto.
  - apply orb_true_iff in H. destruct H as [H|H]; [apply L_alt_l|apply L_alt_r]; auto.
  - apply L_rep1_one; auto.
Qed.

Lemma nullable_complete r w : L r w -> w = [] -> e_nullable r = true.
Proof.
  induction 1 as [|c0 c1 c Hc|s e He|a b w1 w2 H1 IH1 H2 IH2|a b w H IH|a b w H IH|a w H IH
                  |a w1 w2 H1 IH1 H2 IH2]; intros E; cbn; try discriminate; auto.
  - apply app_eq_nil in E. destruct E. rewrite IH1, IH2; auto.
  - rewrite IH; auto.
  - rewrite IH; auto. apply orb_true_r.
  - apply app_eq_nil in E. destruct E. auto.
Qed.

Lemma nullable_correct r : e_nullable r = true <-> L r [].
Proof. split; [apply nullable_sound|intros H; eapply nullable_complete; eauto]. Qed.

Lemma L_empty_inv w : ~ L EEmpty w.
Proof. intros H. inversion H. Qed.

Lemma deriv_sound e : forall r w, L (e_deriv e r) w -> L r (e :: w).
Proof.
  induction r as [| |c0 c1|s|a IHa b IHb|a IHa b IHb|a IHa]; cbn [e_deriv]; intros w H.
  - inversion H.
  - inversion H.
  - destruct (ev_matches c0 c1 e) eqn:E; [|inversion H]. inversion H; subst.
    destruct e; cbn in E; try discriminate. constructor. lia.
  - destruct (ev_is s e) eqn:E; [|inversion H]. inversion H; subst. constructor; auto.
  - destruct (e_nullable a) eqn:Na.
    + inversion H as [| | | | ? ? ? H1 | ? ? ? H1 | |]; subst.
      * inversion H1; subst. change (e :: w1 ++ w2) with ((e :: w1) ++ w2). constructor; auto.
      * change (e :: w) with ([] ++ e :: w). constructor; [apply nullable_sound; auto|auto].
    + inversion H; subst. change (e :: w1 ++ w2) with ((e :: w1) ++ w2). constructor; auto.
  - inversion H; subst; [apply L_alt_l|apply L_alt_r]; auto.
  - inversion H as [| | |? ? w1 w2 H1 H2| | | |]; subst.
    change (e :: w1 ++ w2) with ((e :: w1) ++ w2).
    inversion H2 as [| | | |? ? ? H3|? ? ? H3| |]; subst.
    + apply L_rep1_more; auto.
    + inversion H3; subst. rewrite app_nil_r. apply L_rep1_one; auto.
Qed.

Lemma deriv_complete e r u : L r u -> forall w, u = e :: w -> L (e_deriv e r) w.
Proof.
  induction 1 as [|c0 c1 c Hc|s e' He|a b w1 w2 H1 IH1 H2 IH2|a b w0 H IH|a b w0 H IH|a w0 H IH
                  |a w1 w2 H1 IH1 H2 IH2]; intros w E; cbn [e_deriv].
  - discriminate.
  - inversion E; subst. cbn. destruct (Z.leb_spec c0 c), (Z.ltb_spec c c1); try lia. cbn. constructor.
  - inversion E; subst. rewrite He. constructor.
  - destruct w1 as [|x w1'].
    + cbn in E. subst w2. rewrite (nullable_complete a [] H1 eq_refl). apply L_alt_r. auto.
    + cbn in E. inversion E; subst.
      assert (L (ESeq (e_deriv e a) b) (w1' ++ w2)) by (constructor; auto).
      destruct (e_nullable a); [apply L_alt_l|]; assumption.
  - apply L_alt_l; auto.
  - apply L_alt_r; auto.
  - rewrite <- (app_nil_r w). constructor; [auto|]. apply L_alt_r. constructor.
  - destruct w1 as [|x w1'].
    + cbn in E. apply (IH2 w E).
    + cbn in E. inversion E; subst. constructor; [auto|]. apply L_alt_l. assumption.
Qed.

Lemma deriv_correct_step e r w : L (e_deriv e r) w <-> L r (e :: w).
Proof. split; [apply deriv_sound|intros H; eapply deriv_complete; eauto]. Qed.

Theorem derivative_correct : forall w r, e_matches r w = true <-> L r w.
Proof.
  induction w as [|e t IH]; intros r; cbn [e_matches].
  - apply nullable_correct.
  - rewrite IH. apply deriv_correct_step.
Qed.

Definition derivs (pre : list event) (r : ere) : ere := fold_left (fun r e => e_deriv e r) pre r.

Lemma derivs_correct : forall pre r u, L (derivs pre r) u <-> L r (pre ++ u).
Proof.
  induction pre as [|e t IH]; intros r u; [reflexivity|].
  cbn [derivs fold_left app]. fold (derivs t (e_deriv e r)). rewrite IH. apply deriv_correct_step.
Qed.

Lemma derivs_nullable pre r : e_nullable (derivs pre r) = true <-> L r pre.
Proof. rewrite nullable_correct, derivs_correct, app_nil_r. reflexivity. Qed.

(* rule number k (1-based) is the first rule whose language contains u *)
Definition first_acc (rs : list ere) (u : list event) (k : Z) : Prop :=
  1 <= k /\ exists r, nth_error rs (Z.to_nat (k - 1)) = Some r /\ L r u
  /\ forall j r', (j < Z.to_nat (k - 1))%nat -> nth_error rs j = Some r' -> ~ L r' u.

Lemma first_nullable_spec : forall rs k0,
  match first_nullable rs k0 with
  | Some k => k0 <= k /\ exists r, nth_error rs (Z.to_nat (k - k0)) = Some r /\ e_nullable r = true
              /\ forall j r', (j < Z.to_nat (k - k0))%nat -> nth_error rs j = Some r' -> e_nullable r' = false
  | None => forall j r, nth_error rs j = Some r -> e_nullable r = false
  end.
Proof.
  induction rs as [|r t IH]; intros k0; cbn [first_nullable].
  - intros j r H. destruct j; discriminate.
  - destruct (e_nullable r) eqn:N.
    + split; [lia|]. exists r. rewrite Z.sub_diag. cbn. repeat split; auto. intros j r' Hj. lia.
    + specialize (IH (k0 + 1)). destruct (first_nullable t (k0 + 1)) as [k|].
      * destruct IH as (Hk & r1 & E1 & N1 & Hmin). split; [lia|]. exists r1.
        replace (Z.to_nat (k - k0)) with (S (Z.to_nat (k - (k0 + 1)))) by lia. cbn [nth_error].
        repeat split; auto. intros j r' Hj Ej. destruct j as [|j]; cbn in Ej.
        -- inversion Ej; subst; auto.
        -- apply (Hmin j r'); [lia|auto].
      * intros j r' Ej. destruct j as [|j]; cbn in Ej; [inversion Ej; subst; auto|eapply IH; eauto].
Qed.

Lemma first_nullable_derivs rs0 pre :
  match first_nullable (map (derivs pre) rs0) 1 with
  | Some k => first_acc rs0 pre k
  | None => forall k, ~ first_acc rs0 pre k
  end.
Proof.
  pose proof (first_nullable_spec (map (derivs pre) rs0) 1) as S.
  destruct (first_nullable (map (derivs pre) rs0) 1) as [k|].
  - destruct S as (Hk & r & E & N & Hmin). split; [exact Hk|].
    rewrite nth_error_map in E. destruct (nth_error rs0 (Z.to_nat (k - 1))) as [r0|] eqn:E0; [|discriminate].
    cbn in E. inversion E; subst. exists r0. split; [reflexivity|]. split.
    + apply derivs_nullable. exact N.
    + intros j r' Hj Ej HL. specialize (Hmin j (derivs pre r') Hj).
      rewrite nth_error_map, Ej in Hmin. specialize (Hmin eq_refl).
      apply derivs_nullable in HL. congruence.
  - intros k (Hk & r & E & HL & _). specialize (S (Z.to_nat (k - 1)) (derivs pre r)).
    rewrite nth_error_map, E in S. specialize (S eq_refl).
    apply derivs_nullable in HL. congruence.
Qed.

Lemma first_acc_unique rs u k k' : first_acc rs u k -> first_acc rs u k' -> k = k'.
Proof.
  intros (H1 & r & E & HL & Hmin) (H1' & r' & E' & HL' & Hmin').
  destruct (Z.lt_trichotomy k k') as [Hlt|[->|Hlt]]; [exfalso|reflexivity|exfalso].
  - apply (Hmin' (Z.to_nat (k - 1)) r); [lia|auto|auto].
  - apply (Hmin (Z.to_nat (k' - 1)) r'); [lia|auto|auto].
Qed.

(* the state of the search after the prefix pre of w = pre ++ t *)
Definition best_ok (rs0 : list ere) (w : list event) (m : nat) (best : option (Z * Z)) : Prop :=
  match best with
  | Some (n, k) => 0 <= n /\ (Z.to_nat n < m)%nat /\ first_acc rs0 (firstn (Z.to_nat n) w) k
                   /\ forall n' k', (Z.to_nat n < n' < m)%nat -> ~ first_acc rs0 (firstn n' w) k'
  | None => forall n' k', (n' < m)%nat -> ~ first_acc rs0 (firstn n' w) k'
  end.

Definition final_ok (rs0 : list ere) (w : list event) (res : option (Z * Z)) : Prop :=
  match res with
  | Some (n, k) => 0 <= n <= Z.of_nat (length w) /\ first_acc rs0 (firstn (Z.to_nat n) w) k
                   /\ forall n' k', (Z.to_nat n < n' <= length w)%nat -> ~ first_acc rs0 (firstn n' w) k'
  | None => forall n' k', (n' <= length w)%nat -> ~ first_acc rs0 (firstn n' w) k'
  end.

Lemma firstn_pre {A} (pre t : list A) : firstn (length pre) (pre ++ t) = pre.
Proof. rewrite firstn_app, Nat.sub_diag, firstn_all. cbn. apply app_nil_r. Qed.

(* one round: the prefix pre itself is examined *)
Lemma best_ok_step rs0 w pre best : firstn (length pre) w = pre -> best_ok rs0 w (length pre) best ->
  best_ok rs0 w (S (length pre))
    (match first_nullable (map (derivs pre) rs0) 1 with
     | Some k => Some (Z.of_nat (length pre), k) | None => best end).
Proof.
  intros Epre Hb. pose proof (first_nullable_derivs rs0 pre) as F.
  destruct (first_nullable (map (derivs pre) rs0) 1) as [k|].
  - cbn. split; [lia|]. rewrite Nat2Z.id. split; [lia|]. rewrite Epre. split; [exact F|]. intros; lia.
  - assert (Hpre : forall n' k', n' = length pre -> ~ first_acc rs0 (firstn n' w) k')
      by (intros n' k' ->; rewrite Epre; apply F).
    destruct best as [[n k]|]; cbn in Hb |- *.
    + destruct Hb as (H0 & Hn & Hacc & Hmax). split; [lia|]. split; [lia|]. split; [exact Hacc|].
      intros n' k' Hn'. destruct (Nat.eq_dec n' (length pre)); [apply Hpre; assumption|apply Hmax; lia].
    + intros n' k' Hn'. destruct (Nat.eq_dec n' (length pre)); [apply Hpre; assumption|apply Hb; lia].
Qed.

Lemma best_ok_final rs0 w res : best_ok rs0 w (S (length w)) res -> final_ok rs0 w res.
Proof.
  destruct res as [[n k]|]; cbn.
  - intros (H0 & Hn & Hacc & Hmax). split; [lia|]. split; [exact Hacc|]. intros n' k' Hn'. apply Hmax. lia.
  - intros H n' k' Hn'. apply H. lia.
Qed.

Lemma ref_longest_inv rs0 w : forall t pre best, w = pre ++ t ->
  best_ok rs0 w (length pre) best ->
  final_ok rs0 w (ref_longest (map (derivs pre) rs0) t (Z.of_nat (length pre)) best).
Proof.
  induction t as [|e t IH]; intros pre best Ew Hb; cbn [ref_longest];
    assert (Epre : firstn (length pre) w = pre) by (rewrite Ew; apply firstn_pre);
    apply (best_ok_step rs0 w pre best Epre) in Hb.
  - rewrite app_nil_r in Ew. subst w. apply best_ok_final. exact Hb.
  - assert (Emap : map (e_deriv e) (map (derivs pre) rs0) = map (derivs (pre ++ [e])) rs0).
    { rewrite map_map. apply map_ext. intros r. unfold derivs. rewrite fold_left_app. reflexivity. }
    assert (Elen : length (pre ++ [e]) = S (length pre)) by (rewrite app_length; cbn; lia).
    replace (Z.of_nat (length pre) + 1) with (Z.of_nat (length (pre ++ [e]))) by lia.
    rewrite Emap. apply IH; [rewrite <- app_assoc; exact Ew|]. rewrite Elen. exact Hb.
Qed.

(* ref_longest returns the longest prefix of w in the language of some rule, with the first such rule *)
Theorem ref_longest_correct rs w : final_ok rs w (ref_longest rs w 0 None).
Proof.
  pose proof (ref_longest_inv rs w w [] None eq_refl) as H. cbn [length Z.of_nat] in H.
  assert (E : map (derivs []) rs = rs) by (rewrite <- (map_id rs) at 2; apply map_ext; reflexivity).
  rewrite E in H. apply H. cbn. intros; lia.
Qed.
