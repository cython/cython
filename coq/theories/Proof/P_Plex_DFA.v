(* C50: DFA.nfa_to_dfa -- the subset construction is correct for every NFA and event word. *)
From Coq Require Import ZArith NArith List Bool Lia ZifyBool ZifyNat.
From CyVerif Require Import Model.M_Plex Proof.P_Plex_TMap Proof.P_Plex_Sets.
Import ListNotations.
Open Scope Z_scope.

Lemma seg_of tm c : tm_inv tm -> - maxint <= c < maxint ->
  let k := (count_le (tm_codes tm) c - 1)%nat in
  (k < length (tm_sets tm))%nat /\ nth k (tm_codes tm) 0 <= c < nth (S k) (tm_codes tm) 0.
Proof.
  intros I Hc k. pose proof (count_le_pos tm c I ltac:(lia)) as Hp.
  pose proof (count_le_lt_n tm c I ltac:(lia)) as Hq. pose proof (inv_len tm I) as Hl.
  split; [lia|]. split.
  - apply (count_le_nth c _ (inv_sorted tm I)); lia.
  - destruct (Z.lt_ge_cases c (nth (S k) (tm_codes tm) 0)) as [H|H]; [exact H|exfalso].
    apply (count_le_nth c _ (inv_sorted tm I)) in H; lia.
Qed.

Lemma inv_codes_range tm i : tm_inv tm -> (i < length (tm_codes tm))%nat ->
  - maxint <= nth i (tm_codes tm) 0 <= maxint.
Proof.
  intros I Hi. pose proof (inv_len tm I) as Hl.
  pose proof (sorted_nth_le _ (inv_sorted tm I) O i ltac:(lia)) as H1.
  pose proof (sorted_nth_le _ (inv_sorted tm I) i (length (tm_sets tm)) ltac:(lia)) as H2.
  rewrite (inv_first tm I) in H1. rewrite (inv_last tm I) in H2. lia.
Qed.

Lemma code_first tm k : tm_inv tm -> (k < length (tm_codes tm))%nat ->
  nth k (tm_codes tm) 0 = - maxint -> k = O.
Proof.
  intros I Hk E. destruct k as [|k]; [reflexivity|].
  pose proof (sorted_nth_lt _ (inv_sorted tm I) O (S k) ltac:(lia)) as H. rewrite (inv_first tm I) in H. lia.
Qed.

Lemma hd_get tm : tm_inv tm -> hd s_empty (tm_sets tm) = tm_get tm (- maxint).
Proof.
  intros I. pose proof (inv_len tm I) as Hl. pose proof (inv_n tm I) as Hn.
  rewrite (tm_get_segment tm (- maxint) O I ltac:(lia)).
  - destruct (tm_sets tm); reflexivity.
  - rewrite (inv_first tm I). pose proof (sorted_nth_lt _ (inv_sorted tm I) O 1%nat ltac:(lia)) as H1.
    rewrite (inv_first tm I) in H1. lia.
Qed.

Lemma last_nth {A} (d : A) : forall l, last l d = nth (length l - 1) l d.
Proof.
  induction l as [|a t IH]; [reflexivity|]. destruct t as [|b t']; [reflexivity|].
  change (last (a :: b :: t') d) with (last (b :: t') d). rewrite IH. cbn [length].
  replace (S (S (length t')) - 1)%nat with (S (length t')) by lia.
  replace (S (length t') - 1)%nat with (length t') by lia. reflexivity.
Qed.

Lemma else_get tm : tm_inv tm -> tm_else_ok tm = true -> tm_get tm (- maxint) = tm_get tm (maxint - 1).
Proof.
  intros I H. unfold tm_else_ok in H. apply N.eqb_eq in H. rewrite <- (hd_get tm I), H, last_nth.
  pose proof (inv_len tm I) as Hl. pose proof (inv_n tm I) as Hn. pose proof (inv_last tm I) as HL.
  set (n := length (tm_sets tm)) in *.
  symmetry. apply tm_get_segment; [exact I|lia|]. replace (S (n - 1)) with n by lia.
  pose proof (sorted_nth_lt _ (inv_sorted tm I) (n - 1)%nat n ltac:(lia)) as H1. lia.
Qed.

(* a state number outside the machine reads as the fresh state *)
Lemma n_get_forall (P : nstate -> Prop) m : P n_new -> (forall st, In st m -> P st) -> forall s, P (n_get m s).
Proof.
  intros H0 H s. unfold n_get. destruct (Nat.lt_ge_cases s (length m)) as [Hlt|Hge].
  - apply H, nth_In. exact Hlt.
  - rewrite nth_overflow by exact Hge. exact H0.
Qed.

(* nfa_ok reflects the hypotheses of the subset-construction theorem *)
Lemma nfa_ok_spec m : nfa_ok m = true ->
  (forall s, tm_inv (n_tm (n_get m s))) /\ (forall s, tm_else_ok (n_tm (n_get m s)) = true).
Proof.
  unfold nfa_ok. intros H. rewrite forallb_forall in H.
  pose proof (n_get_forall (fun st => tm_inv_b (n_tm st) && tm_else_ok (n_tm st) = true) m eq_refl H) as Hs.
  split; intros s; specialize (Hs s); apply andb_true_iff in Hs; destruct Hs as [H1 H2];
    [apply tm_inv_b_spec; exact H1|exact H2].
Qed.

(* items(): the listed segments *)
Lemma tm_items_range tm c0 c1 tg : tm_inv tm -> In (c0, c1, tg) (tm_items tm) ->
  - maxint <= c0 < c1 /\ c1 <= maxint.
Proof.
  intros I H. apply items_loop_spec in H. destruct H as (k & Hk1 & Hk2 & <- & <- & _).
  pose proof (sorted_nth_lt _ (inv_sorted tm I) k (S k) ltac:(lia)).
  pose proof (inv_codes_range tm k I ltac:(lia)). pose proof (inv_codes_range tm (S k) I Hk2). lia.
Qed.

Lemma tm_items_at tm c : tm_inv tm ->
  forall c0 c1 tg, In (c0, c1, tg) (tm_items tm) -> c0 <= c < c1 -> tg = tm_get tm c.
Proof.
  intros I c0 c1 tg H Hr. apply items_loop_spec in H. destruct H as (k & Hk1 & Hk2 & E0 & E1 & Es & _).
  subst. symmetry. apply tm_get_segment; auto.
Qed.

Lemma items_first tm c1 ss : tm_inv tm -> In (- maxint, c1, ss) (tm_items tm) ->
  ss = tm_get tm (- maxint) /\ s_is_empty ss = false.
Proof.
  intros I Hi. apply items_loop_spec in Hi. destruct Hi as (k & Hk1 & Hk2 & E0 & _ & Es & Hne).
  apply (code_first tm k I) in E0; [subst k|lia].
  assert (Eh : hd s_empty (tm_sets tm) = ss) by (rewrite <- Es; destruct (tm_sets tm); reflexivity).
  rewrite Eh in Hne. split; [rewrite <- hd_get by exact I; symmetry; exact Eh|].
  destruct (s_is_empty ss); [discriminate|reflexivity].
Qed.

(* the segment of c is listed iff it is worth listing *)
Lemma tm_items_listed tm c : tm_inv tm -> - maxint <= c < maxint ->
  (s_is_empty (tm_get tm c) = false \/ s_is_empty (tm_get tm (- maxint)) = false) ->
  exists c0 c1, In (c0, c1, tm_get tm c) (tm_items tm) /\ c0 <= c < c1.
Proof.
  intros I Hc Hne. destruct (seg_of tm c I Hc) as (Hk & Hseg).
  set (k := (count_le (tm_codes tm) c - 1)%nat) in *.
  pose proof (inv_len tm I) as Hl.
  exists (nth k (tm_codes tm) 0), (nth (S k) (tm_codes tm) 0). split; [|exact Hseg].
  apply items_loop_spec. exists k. repeat split; try lia.
  rewrite (hd_get tm I). fold (tm_get tm c). destruct Hne as [-> | ->]; cbn; [reflexivity|apply orb_true_r].
Qed.

Definition valid_ev (e : event) : Prop :=
  match e with EvChar c => - maxint <= c < maxint | _ => True end.

Fixpoint dfa_run_w (tr : list dstate) (st : nat) (w : list event) : option nat :=
  match w with
  | [] => Some st
  | e :: t => match nth_error tr st with
              | Some d => match d_lookup d e with
                          | Some j => dfa_run_w tr j t
                          | None => None
                          end
              | None => None
              end
  end.

Section DFA.
Variable m : nfa.
Hypothesis Hwf : forall s, tm_inv (n_tm (n_get m s)).
Hypothesis Helse : forall s, tm_else_ok (n_tm (n_get m s)) = true.

(* one step of the subset automaton, as a relation *)
Definition step_rel (O : sset) (e : event) (t : nat) : Prop :=
  exists s x, s_mem s O = true /\ s_mem x (ntrans m s e) = true /\ ereach m x t.

Lemma step_rel_closed O e x y : step_rel O e x -> s_mem y (n_eps (n_get m x)) = true -> step_rel O e y.
Proof.
  intros (s & z & Hs & Hz & Hr) Hy. exists s, z. split; [exact Hs|]. split; [exact Hz|].
  eapply ereach_trans; [exact Hr|]. eapply nr_eps; [exact Hy|constructor].
Qed.

(* the union TransitionMap of a new state *)
Definition uget (u : utrans) (e : event) : sset :=
  match e with
  | EvChar c => tm_get (u_tm u) c
  | EvBol => u_bol u | EvEol => u_eol u | EvEof => u_eof u
  | EvNone => s_empty
  end.

Definition item_step (tm : tmap) (it : Z * Z * sset) : option tmap :=
  let '(c0, c1, tg) := it in
  if s_is_empty tg then Some tm else do cl <- eclose_set m tg; tm_add_set tm c0 c1 cl.

(* one item adds the closure of its targets on its segment *)
Lemma item_step_spec tm0 c0 c1 tg tm1 : tm_inv tm0 -> - maxint <= c0 < c1 /\ c1 <= maxint ->
  item_step tm0 (c0, c1, tg) = Some tm1 ->
  tm_inv tm1 /\ forall c, - maxint <= c < maxint -> forall t,
    s_mem t (tm_get tm1 c) = true <->
    s_mem t (tm_get tm0 c) = true \/ (c0 <= c < c1 /\ exists s, s_mem s tg = true /\ ereach m s t).
Proof.
  intros I R H. cbn [item_step] in H. destruct (s_is_empty tg) eqn:Ee.
  - injection H as <-. split; [exact I|]. intros c Hc t. split; [auto|].
    intros [H0|(_ & s & Hs & _)]; [exact H0|]. apply s_is_empty_spec with (i := s) in Ee. congruence.
  - destruct (eclose_set m tg) as [cl|] eqn:Ec; [|discriminate].
    destruct (tm_add_set_spec tm0 c0 c1 cl I ltac:(lia) ltac:(lia)) as (tm' & Ea & I' & G).
    rewrite Ea in H. injection H as <-. split; [exact I'|].
    destruct (eclose_set_spec m tg cl Ec) as (_ & Hcl).
    intros c Hc t. rewrite (G c Hc). destruct ((c0 <=? c) && (c <? c1)) eqn:Eb.
    + assert (c0 <= c < c1) by lia. rewrite s_mem_union, orb_true_iff, Hcl. tauto.
    + split; [auto|]. intros [H0|(Hr & _)]; [exact H0|lia].
Qed.

Lemma fold_items_spec : forall its tm0 tm1,
  fold_left (fun o it => do tm <- o; item_step tm it) its (Some tm0) = Some tm1 -> tm_inv tm0 ->
  (forall c0 c1 tg, In (c0, c1, tg) its -> - maxint <= c0 < c1 /\ c1 <= maxint) ->
  tm_inv tm1 /\ forall c, - maxint <= c < maxint -> forall t,
    s_mem t (tm_get tm1 c) = true <->
    s_mem t (tm_get tm0 c) = true \/
    exists c0 c1 tg, In (c0, c1, tg) its /\ c0 <= c < c1 /\ exists s, s_mem s tg = true /\ ereach m s t.
Proof.
  apply (fold_opt_rel item_step (fun tm0 its tm1 => tm_inv tm0 ->
           (forall c0 c1 tg, In (c0, c1, tg) its -> - maxint <= c0 < c1 /\ c1 <= maxint) -> (_ : Prop))).
  - intros tm0 I _. split; [exact I|]. intros c Hc t. split; [auto|].
    intros [H0|(? & ? & ? & [] & _)]. exact H0.
  - intros tm0 [[c0 c1] tg] tm' its tm1 E IH I Hr.
    destruct (item_step_spec tm0 c0 c1 tg tm' I (Hr _ _ _ (or_introl eq_refl)) E) as (I' & G').
    destruct (IH I' (fun a b g Hin => Hr a b g (or_intror Hin))) as (I1 & G). split; [exact I1|].
    intros c Hc t. rewrite (G c Hc t), (G' c Hc t). split.
    + intros [[H0|Hx]|(a & b & g & Hin & Hx)]; [left; exact H0|right..].
      * exists c0, c1, tg. split; [left; reflexivity|tauto].
      * exists a, b, g. split; [right; exact Hin|exact Hx].
    + intros [H0|(a & b & g & [Heq|Hin] & Hx)]; [left; left; exact H0| |right; exists a, b, g; auto].
      injection Heq as <- <- <-. left. right. tauto.
Qed.

Lemma add_state_transitions_spec u u' s : tm_inv (u_tm u) -> add_state_transitions m u s = Some u' ->
  tm_inv (u_tm u') /\ forall e, valid_ev e -> forall t,
    s_mem t (uget u' e) = true <->
    s_mem t (uget u e) = true \/ exists x, s_mem x (ntrans m s e) = true /\ ereach m x t.
Proof.
  intros I H. unfold add_state_transitions in H.
  destruct (fold_left _ (tm_items (n_tm (n_get m s))) (Some (u_tm u))) as [tm|] eqn:Ef; [|discriminate].
  destruct (eclose_set m (n_bol (n_get m s))) as [b|] eqn:Eb; [|discriminate].
  destruct (eclose_set m (n_eol (n_get m s))) as [l|] eqn:El; [|discriminate].
  destruct (eclose_set m (n_eof (n_get m s))) as [f|] eqn:Ee; [|discriminate].
  inversion H; subst; clear H.
  destruct (fold_items_spec _ _ _ Ef I (fun a b g => tm_items_range _ a b g (Hwf s))) as (I1 & G).
  cbn [u_tm]. split; [exact I1|]. intros e He t.
  destruct e as [c| | | |]; cbn [uget u_tm u_bol u_eol u_eof ntrans].
  - cbn in He. rewrite (G c He t). split; intros [H0|H0]; auto; right.
    + destruct H0 as (c0 & c1 & tg & Hin & Hr & x & Hx & Hre).
      rewrite (tm_items_at _ c (Hwf s) c0 c1 tg Hin Hr) in Hx. eauto.
    + destruct H0 as (x & Hx & Hre).
      destruct (tm_items_listed (n_tm (n_get m s)) c (Hwf s) He) as (c0 & c1 & Hin & Hr).
      { left. destruct (s_is_empty (tm_get (n_tm (n_get m s)) c)) eqn:E0; [|reflexivity].
        apply s_is_empty_spec with (i := x) in E0. congruence. }
      exists c0, c1, (tm_get (n_tm (n_get m s)) c). eauto.
  - rewrite s_mem_union, orb_true_iff. destruct (eclose_set_spec m _ _ Eb) as (_ & Hc). rewrite Hc. tauto.
  - rewrite s_mem_union, orb_true_iff. destruct (eclose_set_spec m _ _ El) as (_ & Hc). rewrite Hc. tauto.
  - rewrite s_mem_union, orb_true_iff. destruct (eclose_set_spec m _ _ Ee) as (_ & Hc). rewrite Hc. tauto.
  - rewrite s_mem_empty. split; [discriminate|]. intros [H0|(x & Hx & _)]; [discriminate|].
    rewrite s_mem_empty in Hx. discriminate.
Qed.

Lemma union_transitions_spec old u : union_transitions m old = Some u ->
  tm_inv (u_tm u) /\ forall e, valid_ev e -> forall t, s_mem t (uget u e) = true <-> step_rel old e t.
Proof.
  intros H.
  apply (fold_opt_rel (add_state_transitions m) (fun u0 l u1 => tm_inv (u_tm u0) ->
           tm_inv (u_tm u1) /\ forall e, valid_ev e -> forall t,
             s_mem t (uget u1 e) = true <->
             s_mem t (uget u0 e) = true \/ exists s x, In s l /\ s_mem x (ntrans m s e) = true /\ ereach m x t)) in H.
  - destruct H as (I & G). split; [exact I|]. intros e He t. rewrite (G e He t). setoid_rewrite s_elems_spec.
    split; [intros [H0|H0]; [|exact H0]|right; assumption].
    destruct e; cbn [uget u_tm u_bol u_eol u_eof] in H0; rewrite ?tm_new_get, s_mem_empty in H0; discriminate.
  - intros u0 I0. split; [exact I0|]. intros e He t. split; [auto|]. intros [H0|(? & ? & [] & _)]. exact H0.
  - intros u0 s ua l u1 Ea IH I0. destruct (add_state_transitions_spec u0 ua s I0 Ea) as (Ia & Ga).
    destruct (IH Ia) as (I1 & G1). split; [exact I1|]. intros e He t. rewrite (G1 e He t), (Ga e He t). split.
    + intros [[H0|(x & Hx & Hr)]|(s' & x & Hs' & Hx & Hr)]; auto; right.
      * exists s, x. split; [left; reflexivity|auto].
      * exists s', x. split; [right; exact Hs'|auto].
    + intros [H0|(s' & x & [->|Hs'] & Hx & Hr)]; auto.
      * left. right. eauto.
      * right. eauto.
  - exact tm_new_inv.
Qed.

(* states_0 == states_n-1 of the union map follows from that of the NFA states *)
Lemma union_else old u : union_transitions m old = Some u ->
  tm_get (u_tm u) (maxint - 1) = tm_get (u_tm u) (- maxint).
Proof.
  intros H. destruct (union_transitions_spec old u H) as (I & G). apply s_ext. intros t.
  apply eq_true_iff_eq.
  rewrite (G (EvChar (maxint - 1)) ltac:(cbn; unfold maxint; lia) t).
  rewrite (G (EvChar (- maxint)) ltac:(cbn; unfold maxint; lia) t).
  unfold step_rel. cbn [ntrans].
  split; intros (s & x & Hs & Hx & Hr); exists s, x; (split; [exact Hs|]); (split; [|exact Hr]);
    [rewrite (else_get _ (Hwf s) (Helse s))|rewrite <- (else_get _ (Hwf s) (Helse s))]; exact Hx.
Qed.

Definition sm_ok (sm : smap) : Prop := sm_acts sm = map (best_action m) (sm_sets sm).
Definition extends (sm sm' : smap) : Prop := exists ex, sm_sets sm' = sm_sets sm ++ ex.

Lemma extends_refl sm : extends sm sm.
Proof. exists []. rewrite app_nil_r. reflexivity. Qed.

Lemma extends_trans a b c : extends a b -> extends b c -> extends a c.
Proof. intros (x & Hx) (y & Hy). exists (x ++ y). rewrite Hy, Hx, app_assoc. reflexivity. Qed.

Lemma extends_nth sm sm' j x : extends sm sm' -> nth_error (sm_sets sm) j = Some x ->
  nth_error (sm_sets sm') j = Some x.
Proof.
  intros (ex & E) H. rewrite E. rewrite nth_error_app1; [exact H|]. apply nth_error_Some. congruence.
Qed.

Lemma find_idx_spec key : forall l k0 j, find_idx key l k0 = Some j ->
  (k0 <= j)%nat /\ nth_error l (j - k0) = Some key.
Proof.
  induction l as [|x t IH]; intros k0 j H; [discriminate|]. cbn [find_idx] in H.
  destruct (N.eqb_spec x key) as [->|Hne].
  - inversion H; subst. rewrite Nat.sub_diag. auto.
  - destruct (IH (S k0) j H) as (Hle & Hn). split; [lia|].
    replace (j - k0)%nat with (S (j - S k0)) by lia. exact Hn.
Qed.

Lemma old_to_new_spec sm ss sm' j : old_to_new m sm ss = (sm', j) -> sm_ok sm ->
  sm_ok sm' /\ extends sm sm' /\ nth_error (sm_sets sm') j = Some ss.
Proof.
  unfold old_to_new. intros H Hok. destruct (find_idx ss (sm_sets sm) O) as [j0|] eqn:Ef.
  - inversion H; subst. destruct (find_idx_spec _ _ _ _ Ef) as (_ & Hn). rewrite Nat.sub_0_r in Hn.
    split; [exact Hok|]. split; [apply extends_refl|exact Hn].
  - inversion H; subst; clear H. cbn [sm_sets sm_acts]. split.
    + unfold sm_ok in *. cbn [sm_sets sm_acts]. rewrite map_app, Hok. reflexivity.
    + split; [exists [ss]; reflexivity|]. rewrite nth_error_app2, Nat.sub_diag by lia. reflexivity.
Qed.

(* FastMachine.add_transitions over the range items *)
Lemma ari_spec : forall items sm d sm' d', add_range_items m items sm d = (sm', d') -> sm_ok sm ->
  sm_ok sm' /\ extends sm sm'
  /\ (forall c0 c1 j, In (c0, c1, j) (d_chars d') ->
        In (c0, c1, j) (d_chars d) \/ exists ss, In (c0, c1, ss) items /\ nth_error (sm_sets sm') j = Some ss)
  /\ (forall c0 c1 ss, In (c0, c1, ss) items -> c0 <> - maxint -> c1 <> maxint ->
        exists j, In (c0, c1, j) (d_chars d') /\ nth_error (sm_sets sm') j = Some ss)
  /\ (forall x, In x (d_chars d) -> In x (d_chars d'))
  /\ (forall j, d_else d' = Some j ->
        d_else d = Some j \/ exists c1 ss, In (- maxint, c1, ss) items /\ nth_error (sm_sets sm') j = Some ss)
  /\ ((exists c1 ss, In (- maxint, c1, ss) items) \/ d_else d <> None -> d_else d' <> None).
Proof.
  induction items as [|[[c0 c1] ss] items IH]; intros sm d sm' d' H Hok.
  - cbn in H. inversion H; subst. split; [exact Hok|]. split; [apply extends_refl|].
    repeat split; auto.
    + intros ? ? ? [].
    + intros [(? & ? & [])|Hn]; exact Hn.
  - cbn [add_range_items] in H. destruct (old_to_new m sm ss) as [sm1 j] eqn:Eo.
    destruct (old_to_new_spec _ _ _ _ Eo Hok) as (Hok1 & Hext1 & Hj).
    match type of H with add_range_items m items sm1 ?dd = _ => set (d1 := dd) in H end.
    destruct (IH sm1 d1 sm' d' H Hok1) as (Hok' & Hext' & HA & HB & HC & HD & HE).
    pose proof (extends_nth _ _ _ _ Hext' Hj) as Hj'.
    split; [exact Hok'|]. split; [eapply extends_trans; eauto|].
    split; [|split; [|split; [|split]]].
    + intros a b j0 Hin. destruct (HA a b j0 Hin) as [Hin1|(ss0 & Hi & Hn)].
      * unfold d1 in Hin1. destruct (Z.eqb_spec c0 (- maxint)); [left; exact Hin1|].
        destruct (Z.eqb_spec c1 maxint); cbn [negb d_chars] in Hin1; [left; exact Hin1|].
        apply in_app_or in Hin1. destruct Hin1 as [Hin1|[Heq|[]]]; [left; exact Hin1|].
        inversion Heq; subst. right. exists ss. split; [left; reflexivity|exact Hj'].
      * right. exists ss0. split; [right; exact Hi|exact Hn].
    + intros a b ss0 [Heq|Hin] Ha Hb.
      * inversion Heq; subst. exists j. split; [|exact Hj']. apply HC. unfold d1.
        destruct (Z.eqb_spec a (- maxint)); [contradiction|]. destruct (Z.eqb_spec b maxint); [contradiction|].
        cbn [negb d_chars]. apply in_or_app. right. left. reflexivity.
      * apply HB; assumption.
    + intros x Hx. apply HC. unfold d1. destruct (c0 =? - maxint); [exact Hx|].
      destruct (negb (c1 =? maxint)); cbn [d_chars]; [apply in_or_app; left|]; exact Hx.
    + intros j0 Hj0. destruct (HD j0 Hj0) as [H1|(b & ss0 & Hi & Hn)].
      * unfold d1 in H1. destruct (Z.eqb_spec c0 (- maxint)) as [->|].
        -- cbn [d_else] in H1. inversion H1; subst. right. exists c1, ss. split; [left; reflexivity|exact Hj'].
        -- destruct (negb (c1 =? maxint)); cbn [d_else] in H1; left; exact H1.
      * right. exists b, ss0. split; [right; exact Hi|exact Hn].
    + intros Hex. apply HE. destruct Hex as [(b & ss0 & [Heq|Hin])|Hn].
      * inversion Heq; subst. right. unfold d1. rewrite Z.eqb_refl. cbn. discriminate.
      * left. eauto.
      * right. unfold d1. destruct (c0 =? - maxint); [cbn; discriminate|].
        destruct (negb (c1 =? maxint)); cbn [d_else]; exact Hn.
Qed.

(* for the items of a well-formed map with states_0 == states_n-1: a code looks up the set of its
   segment, and has no entry only when that set is empty *)
Lemma range_items_lookup tm sm sm1 d1 :
  tm_inv tm -> tm_get tm (maxint - 1) = tm_get tm (- maxint) -> sm_ok sm ->
  add_range_items m (tm_items tm) sm
    {| d_chars := []; d_else := None; d_bol := None; d_eol := None; d_eof := None |} = (sm1, d1) ->
  sm_ok sm1 /\ extends sm sm1 /\ forall c,
    match d_lookup d1 (EvChar c) with
    | Some j => exists S', nth_error (sm_sets sm1) j = Some S' /\ (valid_ev (EvChar c) -> S' = tm_get tm c)
    | None => valid_ev (EvChar c) -> forall t, s_mem t (tm_get tm c) = false
    end.
Proof.
  intros I Helse_tm Hok Er.
  destruct (ari_spec _ _ _ _ _ Er Hok) as (Hok1 & X1 & HA & HB & _ & HD & HE).
  split; [exact Hok1|]. split; [exact X1|]. intros c. cbn [d_lookup].
  destruct (find _ (d_chars d1)) as [[[a b] j0]|] eqn:Efind.
  - apply find_some in Efind. destruct Efind as (Hin & Hr).
    destruct (HA a b j0 Hin) as [[]|(ss & Hi & Hn)].
    exists ss. split; [exact Hn|]. intros _. exact (tm_items_at tm c I a b ss Hi ltac:(lia)).
  - (* no explicit entry: 'else' *)
    pose proof (find_none _ _ Efind) as Hnone.
    (* a listed segment without an entry is the first or the last one, and both carry S_0 *)
    assert (Hdef : valid_ev (EvChar c) ->
              s_is_empty (tm_get tm c) = false \/ s_is_empty (tm_get tm (- maxint)) = false ->
              tm_get tm c = tm_get tm (- maxint)).
    { intros He Hne. destruct (tm_items_listed tm c I He Hne) as (c0 & c1 & Hi & Hr).
      destruct (Z.eq_dec c0 (- maxint)) as [E1|N1];
        [exact (tm_items_at tm (- maxint) I c0 c1 _ Hi ltac:(lia))|].
      destruct (Z.eq_dec c1 maxint) as [E2|N2];
        [rewrite <- Helse_tm; exact (tm_items_at tm (maxint - 1) I c0 c1 _ Hi ltac:(lia))|].
      destruct (HB c0 c1 _ Hi N1 N2) as (j & Hin & _). specialize (Hnone _ Hin). cbn in Hnone. lia. }
    destruct (d_else d1) as [j|] eqn:Ed.
    + (* written for the first item, which is listed because S_0 is not empty *)
      destruct (HD j eq_refl) as [H0|(c1 & ss & Hi & Hn)]; [discriminate|].
      destruct (items_first _ _ _ I Hi) as (-> & E0).
      exists (tm_get tm (- maxint)). split; [exact Hn|]. intros He. symmetry. exact (Hdef He (or_intror E0)).
    + (* absent: S_0 is empty, so only non-empty segments are listed, each with an entry *)
      intros He.
      assert (E0 : s_is_empty (tm_get tm (- maxint)) = true).
      { destruct (s_is_empty (tm_get tm (- maxint))) eqn:E0; [reflexivity|exfalso].
        destruct (tm_items_listed tm (- maxint) I ltac:(unfold maxint; lia) (or_introl E0))
          as (a0 & b0 & Hi0 & Hr0).
        assert (a0 = - maxint) by (pose proof (tm_items_range _ _ _ _ I Hi0); lia). subst a0.
        apply HE; [left; eauto|reflexivity]. }
      apply s_is_empty_spec. destruct (s_is_empty (tm_get tm c)) eqn:Ec; [reflexivity|].
      rewrite (Hdef He (or_introl eq_refl)) in Ec. congruence.
Qed.

Lemma add_special_spec ss sm sm' r : add_special m ss sm = (sm', r) -> sm_ok sm ->
  sm_ok sm' /\ extends sm sm' /\
  match r with
  | Some j => nth_error (sm_sets sm') j = Some ss
  | None => forall t, s_mem t ss = false
  end.
Proof.
  unfold add_special. intros H Hok. destruct (s_is_empty ss) eqn:Ee.
  - inversion H; subst. split; [exact Hok|]. split; [apply extends_refl|]. apply s_is_empty_spec. exact Ee.
  - destruct (old_to_new m sm ss) as [sm1 j] eqn:Eo. inversion H; subst.
    exact (old_to_new_spec _ _ _ _ Eo Hok).
Qed.

(* the transitions of one new state: every target exists, and on a valid event it is the right subset *)
Definition good_state (sets : list sset) (d : dstate) (O : sset) : Prop :=
  forall e,
    match d_lookup d e with
    | Some j => exists S', nth_error sets j = Some S' /\
                  (valid_ev e -> forall t, s_mem t S' = true <-> step_rel O e t)
    | None => valid_ev e -> forall t, ~ step_rel O e t
    end.

Lemma nth_error_lt {A} (l : list A) j x : nth_error l j = Some x -> (j < length l)%nat.
Proof. intros H. apply nth_error_Some. congruence. Qed.

Lemma process_state_spec sm old sm' d : process_state m sm old = Some (sm', d) -> sm_ok sm ->
  sm_ok sm' /\ extends sm sm' /\ good_state (sm_sets sm') d old.
Proof.
  unfold process_state. intros H Hok.
  destruct (union_transitions m old) as [u|] eqn:Eu; [|discriminate].
  destruct (union_transitions_spec old u Eu) as (Iu & Gu).
  destruct (add_range_items m (tm_items (u_tm u)) sm _) as [sm1 d1] eqn:Er.
  destruct (add_special m (u_bol u) sm1) as [sm2 jb] eqn:Eb.
  destruct (add_special m (u_eol u) sm2) as [sm3 je] eqn:El.
  destruct (add_special m (u_eof u) sm3) as [sm4 jf] eqn:Ef.
  inversion H; subst; clear H.
  destruct (range_items_lookup _ _ _ _ Iu (union_else old u Eu) Hok Er) as (Hok1 & X1 & Hch).
  destruct (add_special_spec _ _ _ _ Eb Hok1) as (Hok2 & X2 & Sb).
  destruct (add_special_spec _ _ _ _ El Hok2) as (Hok3 & X3 & Sl).
  destruct (add_special_spec _ _ _ _ Ef Hok3) as (Hok4 & X4 & Sf).
  assert (X14 : extends sm1 sm') by (eapply extends_trans; [exact X2|eapply extends_trans; eauto]).
  split; [exact Hok4|]. split; [eapply extends_trans; eauto|].
  intros e. destruct e as [c| | | |]; cbn [d_lookup d_chars d_else d_bol d_eol d_eof].
  - specialize (Hch c). cbn [d_lookup] in Hch.
    destruct (match find _ (d_chars d1) with Some (_, _, j) => Some j | None => d_else d1 end) as [j|].
    + destruct Hch as (S' & Hn & HS). exists S'. split; [eapply extends_nth; eauto|]. intros He.
      rewrite (HS He). exact (Gu (EvChar c) He).
    + intros He t Hs. apply (Gu (EvChar c) He) in Hs. cbn [uget] in Hs. rewrite (Hch He t) in Hs. discriminate.
  - destruct jb as [j|].
    + exists (u_bol u). split; [|exact (Gu EvBol)]. eapply extends_nth; [|exact Sb]. eapply extends_trans; eauto.
    + intros He t Hs. apply (Gu EvBol He) in Hs. cbn [uget] in Hs. rewrite Sb in Hs. discriminate.
  - destruct je as [j|].
    + exists (u_eol u). split; [|exact (Gu EvEol)]. eapply extends_nth; [exact X4|exact Sl].
    + intros He t Hs. apply (Gu EvEol He) in Hs. cbn [uget] in Hs. rewrite Sl in Hs. discriminate.
  - destruct jf as [j|].
    + exists (u_eof u). split; [exact Sf|exact (Gu EvEof)].
    + intros He t Hs. apply (Gu EvEof He) in Hs. cbn [uget] in Hs. rewrite Sf in Hs. discriminate.
  - intros _ t (s & x & _ & Hx & _). cbn [ntrans] in Hx. rewrite s_mem_empty in Hx. discriminate.
Qed.

Definition wl_inv (sm : smap) (done : list dstate) : Prop :=
  sm_ok sm /\ (length done <= length (sm_sets sm))%nat /\
  forall i d O, nth_error done i = Some d -> nth_error (sm_sets sm) i = Some O ->
                good_state (sm_sets sm) d O.

Lemma good_state_ext sets ex d O : good_state sets d O -> good_state (sets ++ ex) d O.
Proof.
  intros H e. specialize (H e). destruct (d_lookup d e) as [j|]; [|exact H].
  destruct H as (S' & Hn & Hs). exists S'. split; [|exact Hs].
  rewrite nth_error_app1; [exact Hn|]. eapply nth_error_lt; eauto.
Qed.

Lemma worklist_spec : forall fuel sm done sm' tr, worklist fuel m sm done = Some (sm', tr) ->
  wl_inv sm done -> wl_inv sm' tr /\ length tr = length (sm_sets sm') /\ extends sm sm'.
Proof.
  induction fuel as [|f IH]; intros sm done sm' tr H Hinv; [discriminate|].
  cbn [worklist] in H. destruct (nth_error (sm_sets sm) (length done)) as [old|] eqn:En.
  - destruct (process_state m sm old) as [[sm1 d]|] eqn:Ep; [|discriminate].
    destruct Hinv as (Hok & Hlen & Hg).
    destruct (process_state_spec _ _ _ _ Ep Hok) as (Hok1 & (ex & Eex) & Hgd).
    assert (Hinv1 : wl_inv sm1 (done ++ [d])).
    { split; [exact Hok1|]. split.
      - rewrite app_length, Eex, app_length. cbn. pose proof (nth_error_lt _ _ _ En). lia.
      - intros i d0 O Hd HO. destruct (Nat.lt_ge_cases i (length done)) as [Hi|Hi].
        + rewrite nth_error_app1 in Hd by exact Hi.
          rewrite Eex in HO |- *. rewrite nth_error_app1 in HO by lia.
          apply good_state_ext. eapply Hg; eauto.
        + rewrite nth_error_app2 in Hd by exact Hi.
          destruct (i - length done)%nat as [|k] eqn:Ek; [|destruct k; discriminate].
          cbn in Hd. inversion Hd; subst d0. assert (i = length done) by lia. subst i.
          rewrite Eex in HO. rewrite nth_error_app1 in HO by (eapply nth_error_lt; eauto).
          rewrite En in HO. inversion HO; subst. exact Hgd. }
    destruct (IH _ _ _ _ H Hinv1) as (Hf & Hl & Hx). split; [exact Hf|]. split; [exact Hl|].
    eapply extends_trans; [exists ex; exact Eex|exact Hx].
  - inversion H; subst. split; [exact Hinv|]. split; [|apply extends_refl].
    apply nth_error_None in En. destruct Hinv as (_ & Hlen & _). lia.
Qed.

Definition R (O : sset) (w : list event) (t : nat) : Prop := exists s, s_mem s O = true /\ nreach m s w t.

Lemma R_nil O t : closed m O -> (R O [] t <-> s_mem t O = true).
Proof.
  intros Hc. split.
  - intros (s & Hs & Hr). eapply closed_ereach; eauto.
  - intros Ht. exists t. split; [exact Ht|constructor].
Qed.

Lemma nreach_cons_inv O : closed m O -> forall s u t, nreach m s u t -> forall e w, u = e :: w ->
  s_mem s O = true -> exists s' x, s_mem s' O = true /\ s_mem x (ntrans m s' e) = true /\ nreach m x w t.
Proof.
  intros Hc s u t H. induction H as [s|s y w0 t He H IH|s e0 y w0 t He H IH]; intros e w E Hs.
  - discriminate.
  - apply (IH e w E). eapply Hc; eauto.
  - inversion E; subst. exists s, y. auto.
Qed.

Lemma R_cons O e w t S' : closed m O -> (forall x, s_mem x S' = true <-> step_rel O e x) ->
  (R O (e :: w) t <-> R S' w t).
Proof.
  intros Hc HS. split.
  - intros (s & Hs & Hr). destruct (nreach_cons_inv O Hc s _ t Hr e w eq_refl Hs) as (s' & x & Hs' & Hx & Hr').
    exists x. split; [|exact Hr']. apply HS. exists s', x. split; [exact Hs'|]. split; [exact Hx|constructor].
  - intros (x & Hx & Hr). apply HS in Hx. destruct Hx as (s & y & Hs & Hy & Hre).
    exists s. split; [exact Hs|]. eapply nr_ev; [exact Hy|].
    exact (nreach_app m y [] x Hre w t Hr).
Qed.

Lemma step_set_closed O e S' : (forall x, s_mem x S' = true <-> step_rel O e x) -> closed m S'.
Proof. intros HS x y Hx Hy. apply HS. eapply step_rel_closed; [apply HS; exact Hx|exact Hy]. Qed.

Lemma dfa_run_correct sets tr :
  (forall i d O, nth_error tr i = Some d -> nth_error sets i = Some O -> good_state sets d O) ->
  length tr = length sets ->
  forall w, Forall valid_ev w -> forall st O, nth_error sets st = Some O -> closed m O ->
  match dfa_run_w tr st w with
  | Some d => exists S', nth_error sets d = Some S' /\ forall t, s_mem t S' = true <-> R O w t
  | None => forall t, ~ R O w t
  end.
Proof.
  intros Hg Hlen. induction w as [|e w IH]; intros Hv st O Hst Hc.
  - cbn. exists O. split; [exact Hst|]. intros t. symmetry. apply R_nil. exact Hc.
  - inversion Hv as [|? ? He Hv']; subst. cbn [dfa_run_w].
    destruct (nth_error tr st) as [d|] eqn:Ed.
    2:{ apply nth_error_None in Ed. apply nth_error_lt in Hst. lia. }
    pose proof (Hg st d O Ed Hst e) as G.
    destruct (d_lookup d e) as [j|]; [|specialize (G He)].
    + destruct G as (S' & Hn & HS). specialize (HS He). specialize (IH Hv' j S' Hn (step_set_closed O e S' HS)).
      destruct (dfa_run_w tr j w) as [d'|].
      * destruct IH as (S2 & Hn2 & H2). exists S2. split; [exact Hn2|]. intros t. rewrite H2.
        symmetry. apply R_cons; assumption.
      * intros t Hr. apply (IH t). eapply R_cons; eauto.
    + intros t (s & Hs & Hr). destruct (nreach_cons_inv O Hc s _ t Hr e w eq_refl Hs) as (s' & x & Hs' & Hx & _).
      apply (G x). exists s', x. split; [exact Hs'|]. split; [exact Hx|constructor].
Qed.

Theorem nfa_to_dfa_correct fuel D : nfa_to_dfa fuel m = Some D ->
  length (dfa_acts D) = length (dfa_trans D) /\ (0 < length (dfa_trans D))%nat
  /\ (forall st d e j, nth_error (dfa_trans D) st = Some d -> d_lookup d e = Some j ->
                       (j < length (dfa_trans D))%nat)
  /\ forall w, Forall valid_ev w ->
     match dfa_run_w (dfa_trans D) O w with
     | Some d => exists S', nth_error (dfa_sets D) d = Some S'
                   /\ (forall t, s_mem t S' = true <-> nreach m O w t)
                   /\ nth_error (dfa_acts D) d = Some (best_action m S')
     | None => forall t, ~ nreach m O w t
     end.
Proof.
  unfold nfa_to_dfa. intros H. destruct (eclose m O) as [c0|] eqn:E0; [|discriminate].
  destruct (eclose_spec m O c0 E0) as (Hc0 & Hm0).
  cbn [old_to_new find_idx sm_sets sm_acts app length] in H.
  match type of H with context [worklist fuel m ?ss0 []] => set (sm0 := ss0) in H end.
  destruct (worklist fuel m sm0 []) as [[sm tr]|] eqn:Ew; [|discriminate].
  inversion H; subst D; clear H. cbn [dfa_sets dfa_acts dfa_trans].
  assert (Hinv0 : wl_inv sm0 []).
  { split; [reflexivity|]. split; [cbn; lia|]. intros i d O Hd. destruct i; discriminate. }
  destruct (worklist_spec _ _ _ _ _ Ew Hinv0) as ((Hok & _ & Hg) & Hlen & Hext).
  assert (H0 : nth_error (sm_sets sm) O = Some c0) by (eapply extends_nth; [exact Hext|reflexivity]).
  assert (Hacts : length (sm_acts sm) = length tr) by (rewrite Hok, map_length; lia).
  split; [exact Hacts|]. split; [rewrite Hlen; eapply nth_error_lt; eauto|].
  split.
  - intros st d e j Hd Hl. rewrite Hlen.
    destruct (nth_error (sm_sets sm) st) as [O'|] eqn:Es.
    + pose proof (Hg st d O' Hd Es e) as G. rewrite Hl in G. destruct G as (S' & Hn & _).
      eapply nth_error_lt; eauto.
    + apply nth_error_None in Es. apply nth_error_lt in Hd. lia.
  - intros w Hv. pose proof (dfa_run_correct (sm_sets sm) tr Hg Hlen w Hv O c0 H0 Hc0) as Hr.
    assert (HR : forall t, R c0 w t <-> nreach m O w t).
    { intros t. split.
      - intros (s & Hs & Hre). apply Hm0 in Hs. exact (nreach_app m O [] s Hs w t Hre).
      - intros Hre. exists O. split; [apply Hm0; constructor|exact Hre]. }
    destruct (dfa_run_w tr 0 w) as [d|].
    + destruct Hr as (S' & Hn & HS). exists S'. split; [exact Hn|]. split.
      * intros t. rewrite HS. apply HR.
      * rewrite Hok. rewrite nth_error_map, Hn. reflexivity.
    + intros t Hre. apply (Hr t). apply HR. exact Hre.
Qed.

End DFA.
