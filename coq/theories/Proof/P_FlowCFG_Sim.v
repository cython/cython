(* C21 - every execution of a function body is covered by the CFG that the (repaired) builder of
   Model/M_FlowCFG.v constructs: semantics of the statement language, positions reached in the graph,
   and the simulation.  The final graph g is fixed from the start (chain has a hypothesis about the
   positions of g, so nothing is monotone in g); each construct is a section over its chain of builder
   states (P_FlowCFG.v), all of which keep the invariant and are part of g by linked_each. *)
From Coq Require Import NArith List Bool Arith Lia.
From CyVerif Require Import Model.M_Flow Model.M_FlowCFG Proof.P_FlowCFG.
Import ListNotations.

Definition state := nat -> bool.           (* entry -> bound? *)
Definition upd (s : state) (e : nat) (v : bool) : state := fun x => if x =? e then v else s x.
Definition eff (s : lstat) (sg : state) : state :=
  match s with LRef _ _ => sg | LAsg _ e => upd sg e true | LDel _ e => upd sg e false end.

Inductive out := ONorm | OBrk | OCont | ORet | OExc.
Definition event := (nat * nat * bool)%type.    (* label, entry, was it bound *)

(* name references of a condition, in order; the first unbound one raises *)
Inductive eval_refs (sg : state) : list nref -> list event -> bool -> Prop :=
| er_nil : eval_refs sg [] [] true
| er_ok l e c tr ok : sg e = true -> eval_refs sg c tr ok ->
    eval_refs sg ((l, e) :: c) ((l, e, true) :: tr) ok
| er_fail l e c : sg e = false -> eval_refs sg ((l, e) :: c) [(l, e, false)] false.

Fixpoint bind (tg : list nref) (sg : state) : state :=
  match tg with [] => sg | r :: t => bind t (upd sg (snd r) true) end.
(* the assignments to the targets of a for loop, as events *)
Fixpoint bind_ev (tg : list nref) (sg : state) : list event :=
  match tg with [] => [] | r :: t => (fst r, snd r, sg (snd r)) :: bind_ev t (upd sg (snd r) true) end.

(* a for loop evaluates its iterator once, a while loop its condition at every iteration *)
Definition head_eval (isfor : bool) (sg : state) (c : list nref) (tr : list event) (ok : bool) : Prop :=
  if isfor then tr = [] /\ ok = true else eval_refs sg c tr ok.

Inductive item :=
| IS (s : stmt)
| IL (isfor : bool) (c tg : list nref) (body : stmt) (hasel : bool) (el : stmt)   (* at the loop head *)
| IH (hs : handlers).                                                           (* exception being matched *)

Definition fin_out (o1 o2 : out) : out := match o2 with ONorm => o1 | _ => o2 end.

(* every statement may behave as CPython does; conditions, handler matching and raise points are
   nondeterministic *)
Inductive exec : item -> state -> list event -> out -> state -> Prop :=
| x_skip sg : exec (IS Skip) sg [] ONorm sg
| x_call sg : exec (IS Call) sg [] ONorm sg
| x_call_exc sg : exec (IS Call) sg [] OExc sg
| x_ref l e sg : exec (IS (Ref l e)) sg [(l, e, sg e)] (if sg e then ONorm else OExc) sg
| x_asg l e sg : exec (IS (Asg l e)) sg [(l, e, sg e)] ONorm (upd sg e true)
| x_del l e ign sg : sg e = true \/ ign = true ->
    exec (IS (Del l e ign)) sg [(l, e, sg e)] ONorm (upd sg e false)
| x_del_exc l e sg : sg e = false -> exec (IS (Del l e false)) sg [(l, e, false)] OExc sg
| x_seq a b sg t1 s1 t2 o s2 : exec (IS a) sg t1 ONorm s1 -> exec (IS b) s1 t2 o s2 ->
    exec (IS (Seq a b)) sg (t1 ++ t2) o s2
| x_seq_stop a b sg t1 o s1 : o <> ONorm -> exec (IS a) sg t1 o s1 -> exec (IS (Seq a b)) sg t1 o s1
| x_if_exc c th h el sg tr : eval_refs sg c tr false -> exec (IS (If c th h el)) sg tr OExc sg
| x_if_then c th h el sg t1 t2 o s2 : eval_refs sg c t1 true -> exec (IS th) sg t2 o s2 ->
    exec (IS (If c th h el)) sg (t1 ++ t2) o s2
| x_if_else c th el sg t1 t2 o s2 : eval_refs sg c t1 true -> exec (IS el) sg t2 o s2 ->
    exec (IS (If c th true el)) sg (t1 ++ t2) o s2
| x_if_skip c th el sg t1 : eval_refs sg c t1 true -> exec (IS (If c th false el)) sg t1 ONorm sg
| x_while c tg body h el sg tr o s2 : exec (IL false c tg body h el) sg tr o s2 ->
    exec (IS (Loop false c tg body h el)) sg tr o s2
| x_for_exc c tg body h el sg tr : eval_refs sg c tr false ->
    exec (IS (Loop true c tg body h el)) sg tr OExc sg
| x_for c tg body h el sg t1 t2 o s2 : eval_refs sg c t1 true ->
    exec (IL true c tg body h el) sg t2 o s2 -> exec (IS (Loop true c tg body h el)) sg (t1 ++ t2) o s2
| l_exc f c tg body h el sg tr : head_eval f sg c tr false -> exec (IL f c tg body h el) sg tr OExc sg
| l_exit f c tg body el sg t1 : head_eval f sg c t1 true -> exec (IL f c tg body false el) sg t1 ONorm sg
| l_else f c tg body el sg t1 t2 o s2 : head_eval f sg c t1 true -> exec (IS el) sg t2 o s2 ->
    exec (IL f c tg body true el) sg (t1 ++ t2) o s2
| l_iter f c tg body h el sg t1 t2 ob s1 t3 o s2 : head_eval f sg c t1 true ->
    exec (IS body) (if f then bind tg sg else sg) t2 ob s1 -> ob = ONorm \/ ob = OCont ->
    exec (IL f c tg body h el) s1 t3 o s2 ->
    exec (IL f c tg body h el) sg ((t1 ++ (if f then bind_ev tg sg else [])) ++ t2 ++ t3) o s2
| l_break f c tg body h el sg t1 t2 s1 : head_eval f sg c t1 true ->
    exec (IS body) (if f then bind tg sg else sg) t2 OBrk s1 ->
    exec (IL f c tg body h el) sg ((t1 ++ (if f then bind_ev tg sg else [])) ++ t2) ONorm s1
| l_prop f c tg body h el sg t1 t2 ob s1 : head_eval f sg c t1 true ->
    exec (IS body) (if f then bind tg sg else sg) t2 ob s1 -> ob = ORet \/ ob = OExc ->
    exec (IL f c tg body h el) sg ((t1 ++ (if f then bind_ev tg sg else [])) ++ t2) ob s1
| t_norm body el hs sg t1 s1 : exec (IS body) sg t1 ONorm s1 ->
    exec (IS (Try body false el hs)) sg t1 ONorm s1
| t_else body el hs sg t1 s1 t2 o s2 : exec (IS body) sg t1 ONorm s1 -> exec (IS el) s1 t2 o s2 ->
    exec (IS (Try body true el hs)) sg (t1 ++ t2) o s2
| t_exc body h el hs sg t1 s1 t2 o s2 : exec (IS body) sg t1 OExc s1 -> exec (IH hs) s1 t2 o s2 ->
    exec (IS (Try body h el hs)) sg (t1 ++ t2) o s2
| t_prop body h el hs sg t1 o s1 : exec (IS body) sg t1 o s1 -> o = OBrk \/ o = OCont \/ o = ORet ->
    exec (IS (Try body h el hs)) sg t1 o s1
| h_nil sg : exec (IH HNil) sg [] OExc sg
| h_match (hastg : bool) tl te hb rest (sg : state) t o s2 :
    exec (IS hb) (if hastg then upd sg te true else sg) t o s2 ->
    exec (IH (HCons hastg tl te hb rest)) sg ((if hastg then [(tl, te, sg te)] else []) ++ t) o s2
| h_skip hastg tl te hb rest sg t o s2 : exec (IH rest) sg t o s2 ->
    exec (IH (HCons hastg tl te hb rest)) sg t o s2
| f_exc body fexc fnorm sg t1 s1 t2 o2 s2 : exec (IS body) sg t1 OExc s1 -> exec (IS fexc) s1 t2 o2 s2 ->
    exec (IS (TryFin body fexc fnorm)) sg (t1 ++ t2) (fin_out OExc o2) s2
| f_other body fexc fnorm sg t1 o1 s1 t2 o2 s2 : exec (IS body) sg t1 o1 s1 -> o1 <> OExc ->
    exec (IS fnorm) s1 t2 o2 s2 ->
    exec (IS (TryFin body fexc fnorm)) sg (t1 ++ t2) (fin_out o1 o2) s2
| x_break sg : exec (IS Break) sg [] OBrk sg
| x_continue sg : exec (IS Continue) sg [] OCont sg
| x_return sg : exec (IS Return) sg [] ORet sg
| x_raise sg : exec (IS Raise) sg [] OExc sg.

(* [P g b k s]: some path of g from the entry point arrives in front of the k-th statement of block b
   with definedness state s *)
Inductive P (g : bst) : nat -> nat -> state -> Prop :=
| P_entry : P g 0 0 (fun _ => false)
| P_stat b k s sg : P g b k sg -> stat_at g b k = Some s -> P g b (S k) (eff s sg)
| P_edge u k v sg : P g u k sg -> In (u, k, v) (eds g) -> P g v 0 sg.

(* an event "NameNode l (a read, an assignment target or a del) of entry e evaluated while e is
   unbound" is covered: the graph has a statement of that node at a position reached with e unbound *)
Definition justified (g : bst) (ev : event) : Prop :=
  match ev with (l, e, bnd) =>
    bnd = false -> exists b k sg s, P g b k sg /\ stat_at g b k = Some s /\
                                    label_of s = l /\ entry_of s = e /\ sg e = false end.

Definition at_cur (g st : bst) (sg : state) : Prop :=
  exists b, cur st = Some b /\ P g b (len st b) sg.

Definition Kexc (g : bst) (xs : list excd) (sg : state) : Prop :=
  match xs with x :: _ => P g (x_entry x) 0 sg | [] => True end.

Fixpoint chain (g : bst) (fs : list excd) (Q : state -> Prop) (sg : state) : Prop :=
  match fs with
  | [] => Q sg
  | x :: r =>
      match x_fin x with
      | None => chain g r Q sg
      | Some (fe, None) => P g fe 0 sg
      | Some (fe, Some (fxb, k)) => P g fe 0 sg /\ forall s2, P g fxb k s2 -> chain g r Q s2
      end
  end.

Definition post (g st st' : bst) (o : out) (sg : state) : Prop :=
  Kexc g (excs st) sg /\
  match o with
  | ONorm => at_cur g st' sg
  | OBrk => match loops st with
            | L :: _ => chain g (l_excs L)
                          (fun s => P g (l_next L) 0 s /\ has_parents (l_next L) st' = true) sg
            | [] => False end
  | OCont => match loops st with
             | L :: _ => chain g (l_excs L) (fun s => P g (l_loop L) 0 s) sg
             | [] => False end
  | ORet => chain g (excs st) (fun s => P g 1 0 s) sg
  | OExc => True
  end.

Lemma chain_impl g fs (Q Q' : state -> Prop) : (forall s, Q s -> Q' s) ->
  forall sg, chain g fs Q sg -> chain g fs Q' sg.
Proof.
  intros HQ. induction fs as [|x r IH]; intros sg; simpl; auto.
  destruct (x_fin x) as [[fe [[fxb k]|]]|]; auto.
  intros [A B]. split; auto.
Qed.

Lemma chain_fin g ep fe fx fs Q sg : chain g (mk_excd ep (Some (fe, fx)) :: fs) Q sg ->
  P g fe 0 sg /\ forall fxb k s2, fx = Some (fxb, k) -> P g fxb k s2 -> chain g fs Q s2.
Proof.
  simpl. destruct fx as [[a b]|]; [intros [A B']|intros A]; (split; [exact A|]); intros fxb k s2 E.
  - inversion E; subst. apply B'. - discriminate.
Qed.

Lemma hp_mono v a b : incl (eds a) (eds b) -> has_parents v a = true -> has_parents v b = true.
Proof.
  unfold has_parents. intros Hi H. apply existsb_exists in H. destruct H as (e & He & Hv).
  apply existsb_exists. exists e. split; auto.
Qed.

Lemma post_mono g st a b o sg : incl (eds a) (eds b) -> o <> ONorm ->
  post g st a o sg -> post g st b o sg.
Proof.
  intros Hi Ho [HK H]. split; auto. destruct o; auto; try congruence.
  destruct (loops st) as [|L r]; auto.
  eapply chain_impl; [|exact H]. intros s [A B]. split; auto. eapply hp_mono; eauto.
Qed.

Lemma post_ctx g st st2 a o sg : loops st2 = loops st -> excs st2 = excs st ->
  post g st2 a o sg -> post g st a o sg.
Proof. unfold post. intros -> ->. auto. Qed.

Lemma P_edge_ext g st u k v sg : In (u, k, v) (eds st) -> ext st g -> P g u k sg -> P g v 0 sg.
Proof. intros Hin [_ Hi] HP. eapply P_edge; eauto. Qed.

Lemma at_cur_append g st s sg : ext (append s st) g -> at_cur g st sg -> at_cur g (append s st) (eff s sg).
Proof.
  intros He (b & Hc & HP). exists b. split.
  - unfold append. rewrite Hc. reflexivity.
  - rewrite (len_append_same st b s Hc). eapply P_stat; eauto.
    eapply stat_at_ext; eauto. now apply stat_at_append.
Qed.

Lemma ext_edges a b : ext a b -> incl (eds a) (eds b).
Proof. intros H; apply H. Qed.

Lemma len_nextblock_from p X b : len (nextblock_from p X) b = len X b.
Proof. unfold nextblock_from, link_cur, len. destruct p; simpl; auto. destruct (cur X); reflexivity. Qed.

(* a block created now: an edge into it gives position 0 = its current length *)
Lemma at_cur_nextblock_from g X u sg : inv X -> u < nb X ->
  ext (nextblock_from (Some u) X) g -> P g u (len X u) sg -> at_cur g (nextblock_from (Some u) X) sg.
Proof.
  intros Hi Hu He HP. exists (nb X). split; [reflexivity|].
  rewrite len_nextblock_from, (len_fresh X) by auto. eapply P_edge_ext; [|exact He|exact HP]. simpl. left. reflexivity.
Qed.

Lemma at_cur_nextblock g X sg : inv X -> ext (nextblock X) g -> at_cur g X sg -> at_cur g (nextblock X) sg.
Proof.
  intros Hi He (b & Hc & HP). exists (nb X). split; [reflexivity|].
  unfold nextblock. rewrite len_nextblock_from, (len_fresh X) by auto. eapply P_edge_ext; [|exact He|exact HP].
  unfold nextblock, nextblock_from, link_cur. simpl. rewrite Hc. simpl. left. reflexivity.
Qed.

Lemma link_cur_sound g X v sg : ext (link_cur v X) g -> at_cur g X sg ->
  P g v 0 sg /\ has_parents v (link_cur v X) = true.
Proof.
  intros He (b & Hc & HP). unfold link_cur in *. rewrite Hc in *. simpl in *. split.
  - eapply P_edge_ext; [|exact He|exact HP]. simpl. left. reflexivity.
  - unfold has_parents. simpl. now rewrite Nat.eqb_refl.
Qed.

Lemma add_edge_sound g X u v sg : ext (add_edge u v X) g -> P g u (len X u) sg ->
  P g v 0 sg /\ has_parents v (add_edge u v X) = true.
Proof.
  intros He HP. split.
  - eapply P_edge_ext; [|exact He|exact HP]. simpl. left. reflexivity.
  - unfold has_parents. simpl. now rewrite Nat.eqb_refl.
Qed.

(* a block that was allocated but not entered: an edge into it reaches its start *)
Lemma cip_sound g Y N sg : len Y N = 0 -> has_parents N Y = true -> P g N 0 sg ->
  at_cur g (cur_if_parents N Y) sg.
Proof.
  intros HL HP H. unfold cur_if_parents. rewrite HP. exists N. split; [reflexivity|].
  change (len (set_cur (Some N) Y) N) with (len Y N). now rewrite HL.
Qed.

Lemma R0 X : inv X -> R 0 X X.
Proof. intros Hi. apply R_refl; auto. lia. Qed.

Lemma ext_exc_edge X : inv X -> ext X (exc_edge X).
Proof. intros Hi. exact (R_ext _ _ _ (R_exc_edge _ _ _ (R0 X Hi))). Qed.

Lemma excs_append s X : excs (append s X) = excs X.
Proof. apply (ceq_append X s X (ceq_refl X)). Qed.
Lemma excs_exc_edge X : excs (exc_edge X) = excs X.
Proof. apply (ceq_exc_edge X X (ceq_refl X)). Qed.
Lemma excs_v_asg l e X : excs (v_asg l e X) = excs X.
Proof. apply (ceq_v_asg X l e X (ceq_refl X)). Qed.

Lemma exc_edge_sound g X sg : inv X -> ext (exc_edge X) g -> at_cur g X sg ->
  at_cur g (exc_edge X) sg /\ Kexc g (excs X) sg.
Proof.
  intros Hi He HA. pose proof HA as (b & Hc & HP). unfold exc_edge in *. rewrite Hc in *.
  destruct (excs X) as [|x r] eqn:Ex; [split; simpl; auto|].
  destruct (linked_each g [add_edge b (x_entry x) X; nextblock (add_edge b (x_entry x) X)] X Hi)
    as (_ & [I1 E1] & _); [repeat apply conj; auto with bstep|exact He|].
  split.
  - apply at_cur_nextblock; auto.
  - simpl. eapply (add_edge_sound g X b); eauto.
Qed.

Lemma Kexc_eq g a b sg : excs a = excs b -> Kexc g (excs a) sg -> Kexc g (excs b) sg.
Proof. now intros ->. Qed.

Lemma at_cur_some g X sg : at_cur g X sg -> exists b, cur X = Some b.
Proof. intros (b & H & _). eauto. Qed.

Lemma append_justified g X s sg : ext (append s X) g -> at_cur g X sg ->
  justified g (label_of s, entry_of s, sg (entry_of s)).
Proof.
  intros He (b & Hc & HP) Hb. exists b, (len X b), sg, s. split; auto. split; auto.
  eapply stat_at_ext; eauto. now apply stat_at_append.
Qed.

Lemma v_ref_sound g X l e sg : ext (v_ref l e X) g -> at_cur g X sg ->
  at_cur g (v_ref l e X) sg /\ justified g (l, e, sg e).
Proof.
  intros He HA. split; [exact (at_cur_append g X (LRef l e) sg He HA)|].
  exact (append_justified g X (LRef l e) sg He HA).
Qed.

(* a definition of an entry: the statement, then the edge to the handler *)
Lemma def_sound g X s sg : inv X -> ext (exc_edge (append s X)) g -> at_cur g X sg ->
  at_cur g (exc_edge (append s X)) (eff s sg) /\ Kexc g (excs X) (eff s sg) /\
  justified g (label_of s, entry_of s, sg (entry_of s)).
Proof.
  intros Hi He HA.
  destruct (linked_each g [append s X; exc_edge (append s X)] X Hi) as (_ & [I1 E1] & _);
    [repeat apply conj; auto with bstep|exact He|].
  destruct (exc_edge_sound g _ _ I1 He (at_cur_append g X s sg E1 HA)) as [A2 K2].
  rewrite excs_append in K2.
  split; [exact A2|]. split; [exact K2|exact (append_justified g X s sg E1 HA)].
Qed.

Lemma v_asg_sound g X l e sg : inv X -> ext (v_asg l e X) g -> at_cur g X sg ->
  at_cur g (v_asg l e X) (upd sg e true) /\ Kexc g (excs X) (upd sg e true) /\
  justified g (l, e, sg e).
Proof.
  intros Hi He HA. destruct (at_cur_some _ _ _ HA) as [b Hc]. unfold v_asg in *. rewrite Hc in *.
  destruct (linked_each g [exc_edge X; exc_edge (append (LAsg l e) (exc_edge X))] X Hi) as (_ & [I1 E1] & _);
    [repeat apply conj; auto with bstep|exact He|].
  destruct (exc_edge_sound g X sg Hi E1 HA) as [A1 _].
  rewrite <- (excs_exc_edge X). exact (def_sound g (exc_edge X) (LAsg l e) sg I1 He A1).
Qed.

Lemma v_del_sound g X l e ign sg : inv X -> ext (v_del l e ign X) g -> at_cur g X sg ->
  at_cur g (v_del l e ign X) (upd sg e false) /\ Kexc g (excs X) (upd sg e false) /\
  justified g (l, e, sg e).
Proof.
  intros Hi He HA. destruct (at_cur_some _ _ _ HA) as [b Hc]. unfold v_del in *. rewrite Hc in *.
  destruct ign; [exact (def_sound g X (LDel l e) sg Hi He HA)|].
  destruct (linked_each g [append (LRef l e) X; exc_edge (append (LDel l e) (append (LRef l e) X))] X Hi)
    as (_ & [I1 E1] & _); [repeat apply conj; auto with bstep|exact He|].
  rewrite <- (excs_append (LRef l e) X).
  exact (def_sound g _ (LDel l e) sg I1 He (at_cur_append g X (LRef l e) sg E1 HA)).
Qed.

(* a condition is passed in the graph whether or not its evaluation raises *)
Lemma refs_head g l e c X sg : inv X -> ext (refs ((l, e) :: c) X) g -> at_cur g X sg ->
  inv (v_ref l e X) /\ at_cur g (v_ref l e X) sg /\ justified g (l, e, sg e).
Proof.
  intros Hi He HA.
  destruct (linked_each g [v_ref l e X; refs c (v_ref l e X)] X Hi) as (_ & [I1 E1] & _);
    [repeat apply conj; auto with bstep|exact He|].
  split; [exact I1|exact (v_ref_sound g X l e sg E1 HA)].
Qed.

Lemma refs_pass g c : forall X sg, inv X -> ext (refs c X) g -> at_cur g X sg -> at_cur g (refs c X) sg.
Proof.
  induction c as [|[l e] c IH]; intros X sg Hi He HA; [exact HA|].
  destruct (refs_head g l e c X sg Hi He HA) as (I1 & A1 & _). now apply IH.
Qed.

Lemma refs_sound g c X sg tr ok : inv X -> ext (refs c X) g -> at_cur g X sg ->
  eval_refs sg c tr ok -> at_cur g (refs c X) sg /\ Forall (justified g) tr.
Proof.
  intros Hi He HA Hev. split; [now apply refs_pass|]. revert X Hi He HA.
  induction Hev as [|l e c tr ok Hb Hrest IH|l e c Hb]; intros X Hi He HA; [constructor| |];
    destruct (refs_head g l e c X sg Hi He HA) as (I1 & A1 & J1); rewrite Hb in J1.
  - constructor; [intros; discriminate|exact (IH _ I1 He A1)].
  - constructor; [exact J1|constructor].
Qed.

Lemma bind_app tg : forall sg r, bind (tg ++ [r]) sg = upd (bind tg sg) (snd r) true.
Proof. induction tg as [|a tg IH]; intros sg r; simpl; auto. Qed.

Lemma asgs_sound g tg : forall X sg, inv X -> ext (asgs tg X) g -> at_cur g X sg ->
  Kexc g (excs X) sg ->
  at_cur g (asgs tg X) (bind tg sg) /\ Kexc g (excs X) (bind tg sg) /\ Forall (justified g) (bind_ev tg sg).
Proof.
  induction tg as [|[l e] tg IH]; intros X sg Hi He HA HK; simpl in *; auto.
  destruct (linked_each g [v_asg l e X; asgs tg (v_asg l e X)] X Hi) as (_ & [I1 E1] & _);
    [repeat apply conj; auto with bstep|exact He|].
  destruct (v_asg_sound g X l e sg Hi E1 HA) as (A1 & K1 & J1).
  rewrite <- (excs_v_asg l e X) in K1 |- *.
  destruct (IH (v_asg l e X) (upd sg e true) I1 He A1 K1) as (A2 & K2 & J2).
  split; auto.
Qed.

(* a jump: the edges of chain_edges realise [chain] *)
Lemma chain_edges_ext fs T : forall src k X, ext X (chain_edges src k fs T X).
Proof.
  induction fs as [|y r IHr]; intros a b Y; simpl.
  - apply ext_add_edge_k.
  - destruct (x_fin y) as [[fe' [[fxb' kx']|]]|]; auto.
    + eapply ext_trans; [apply ext_add_edge_k|apply IHr]. + apply ext_add_edge_k.
Qed.

Lemma chain_edges_sound2 g Y fs T : forall src k X sg,
  ext (chain_edges src k fs T X) g -> incl (eds (chain_edges src k fs T X)) (eds Y) ->
  P g src k sg -> chain g fs (fun s => P g T 0 s /\ has_parents T Y = true) sg.
Proof.
  induction fs as [|x r IH]; intros src k X sg He Hy HP; simpl in *.
  - split.
    + eapply P_edge_ext; [|exact He|exact HP]. simpl; auto.
    + unfold has_parents. apply existsb_exists. exists (src, k, T). split; [apply Hy; simpl; auto|].
      simpl. apply Nat.eqb_refl.
  - destruct (x_fin x) as [[fe [[fxb kx]|]]|].
    + assert (E1 : ext (add_edge_k src k fe X) g).
      { eapply ext_trans; [|exact He]. apply chain_edges_ext. }
      split.
      * eapply P_edge_ext; [|exact E1|exact HP]. simpl; auto.
      * intros s2 H2. eapply IH; eauto.
    + eapply P_edge_ext; [|exact He|exact HP]. simpl; auto.
    + eapply IH; eauto.
Qed.

Lemma chain_edges_sound g fs T (Q : state -> Prop) : forall src k X sg,
  ext (chain_edges src k fs T X) g -> P g src k sg ->
  (forall s, P g T 0 s -> Q s) -> chain g fs Q sg.
Proof.
  intros src k X sg He HP HQ.
  eapply chain_impl; [|exact (chain_edges_sound2 g _ fs T src k X sg He (incl_refl _) HP)].
  intros s [A _]. auto.
Qed.

Definition inl (st : bst) : bool := match loops st with [] => false | _ => true end.

Definition sim_stmt (s : stmt) (sg : state) (tr : list event) (o : out) (s2 : state) : Prop :=
  forall st g, inv st -> wf (inl st) s = true -> ext (visit true s st) g ->
    at_cur g st sg -> Kexc g (excs st) sg ->
    Forall (justified g) tr /\ post g st (visit true s st) o s2.

Lemma inl_eq a b : loops a = loops b -> inl a = inl b.
Proof. unfold inl. now intros ->. Qed.

(* a part of a construct, visited in a state that has the descriptor stacks of the construct's start *)
Lemma sim_at s sg tr o s2 st X g : sim_stmt s sg tr o s2 -> ceq st X -> inv X ->
  wf (inl st) s = true -> ext (visit true s X) g -> at_cur g X sg -> Kexc g (excs st) sg ->
  Forall (justified g) tr /\ post g st (visit true s X) o s2.
Proof.
  intros IH C Hi Hw He HA HK. pose proof C as [CL CE].
  destruct (IH X g Hi) as [J Q]; auto.
  - now rewrite (inl_eq X st CL).
  - now rewrite CE.
  - split; [exact J|exact (post_ctx g st X _ o s2 CL CE Q)].
Qed.

(* the end of a part whose normal end is linked to a block N allocated earlier *)
Definition posth (g st st' : bst) (N : nat) (o : out) (sg : state) : Prop :=
  match o with
  | ONorm => Kexc g (excs st) sg /\ P g N 0 sg /\ has_parents N st' = true
  | _ => post g st st' o sg
  end.

Lemma posth_mono g st a b N o sg : incl (eds a) (eds b) -> posth g st a N o sg -> posth g st b N o sg.
Proof.
  intros M Q. destruct o; try (apply (post_mono g st a); [exact M|discriminate|exact Q]).
  destruct Q as (K & PN & HP). split; [exact K|]. split; [exact PN|exact (hp_mono _ _ _ M HP)].
Qed.

Lemma posth_end g st XL N o sg : len XL N = 0 -> posth g st XL N o sg ->
  post g st (cur_if_parents N XL) o sg.
Proof.
  intros LN Q. destruct o; try (apply (post_mono g st XL); [apply incl_refl|discriminate|exact Q]).
  destruct Q as (K & PN & HP). split; [exact K|]. now apply cip_sound.
Qed.

Lemma sim_linked g st Y s N sg t o s2 : ceq st Y -> inv Y -> at_cur g Y sg ->
  ext (link_cur N (visit true s Y)) g -> wf (inl st) s = true -> Kexc g (excs st) sg ->
  sim_stmt s sg t o s2 ->
  Forall (justified g) t /\ posth g st (link_cur N (visit true s Y)) N o s2.
Proof.
  intros C IY AY EL Hws HK IH.
  destruct (linked_each g [visit true s Y; link_cur N (visit true s Y)] Y IY) as (_ & [IV EV] & _);
    [repeat apply conj; auto with bstep|exact EL|].
  destruct (sim_at s sg t o s2 st Y g IH C IY Hws EV AY HK) as [J Q]. split; [exact J|].
  assert (M : incl (eds (visit true s Y)) (eds (link_cur N (visit true s Y))))
    by apply ext_edges, (R_ext 0), R_link_cur, R0, IV.
  unfold posth. destruct o; try (apply (post_mono g st (visit true s Y)); [exact M|discriminate|exact Q]).
  destruct Q as [KQ AQ]. destruct (link_cur_sound g _ N s2 EL AQ) as [PN HPn]. auto.
Qed.

(* a part in tail position whose normal end is linked to the block N that follows the construct *)
Lemma sim_branch g st Y s N XL sg t o s2 : ceq st Y -> inv Y -> at_cur g Y sg ->
  ext (link_cur N (visit true s Y)) g -> wf (inl st) s = true -> Kexc g (excs st) sg ->
  incl (eds (link_cur N (visit true s Y))) (eds XL) -> len XL N = 0 ->
  sim_stmt s sg t o s2 ->
  Forall (justified g) t /\ post g st (cur_if_parents N XL) o s2.
Proof.
  intros C IY AY EL Hws HK M LN IH.
  destruct (sim_linked g st Y s N sg t o s2 C IY AY EL Hws HK IH) as [J Q]. split; [exact J|].
  exact (posth_end g st XL N o s2 LN (posth_mono g st _ XL N o s2 M Q)).
Qed.

Lemma sim_skip sg : sim_stmt Skip sg [] ONorm sg.
Proof. intros st g Hi Hw He HA HK. split; [constructor|]. split; auto. Qed.
Lemma sim_call sg : sim_stmt Call sg [] ONorm sg.
Proof. intros st g Hi Hw He HA HK. split; [constructor|]. split; auto. Qed.
Lemma sim_call_exc sg : sim_stmt Call sg [] OExc sg.
Proof. intros st g Hi Hw He HA HK. split; [constructor|]. split; auto. Qed.

Lemma sim_ref l e sg : sim_stmt (Ref l e) sg [(l, e, sg e)] (if sg e then ONorm else OExc) sg.
Proof.
  intros st g Hi Hw He HA HK. simpl in *. destruct (v_ref_sound g st l e sg He HA) as [A J].
  split; [constructor; auto|]. split; auto. destruct (sg e); auto.
Qed.

Lemma sim_asg l e sg : sim_stmt (Asg l e) sg [(l, e, sg e)] ONorm (upd sg e true).
Proof.
  intros st g Hi Hw He HA HK. simpl in *. destruct (v_asg_sound g st l e sg Hi He HA) as (A & K & J).
  split; [constructor; auto|]. split; auto.
Qed.

Lemma sim_del l e ign sg : sg e = true \/ ign = true ->
  sim_stmt (Del l e ign) sg [(l, e, sg e)] ONorm (upd sg e false).
Proof.
  intros Hb st g Hi Hw He HA HK. simpl in *.
  destruct (v_del_sound g st l e ign sg Hi He HA) as (A & K & J).
  split; [|split; auto]. constructor; auto.
Qed.

Lemma sim_del_exc l e sg : sg e = false -> sim_stmt (Del l e false) sg [(l, e, false)] OExc sg.
Proof.
  intros Hb st g Hi Hw He HA HK. simpl in *.
  destruct (v_del_sound g st l e false sg Hi He HA) as (A & K & J).
  split; [|split; auto]. constructor; auto. unfold justified in *. rewrite Hb in J. exact J.
Qed.

Lemma seq_mid a b st g : inv st -> ext (visit true (Seq a b) st) g ->
  inv (visit true a st) /\ ext (visit true a st) g /\
  incl (eds (visit true a st)) (eds (visit true (Seq a b) st)).
Proof.
  intros Hi He. rewrite visit_Seq in *. unfold b_seq in *.
  assert (L : linked st [visit true a st; match cur (visit true a st) with
                                           | None => visit true a st
                                           | Some _ => visit true b (visit true a st) end]).
  { repeat apply conj; [auto with bstep| |exact I]. destruct (cur _); auto with bstep. }
  destruct (linked_each g _ st Hi L He) as (_ & [I1 E1] & _). destruct L as (_ & G2 & _).
  split; [exact I1|]. split; [exact E1|].
  exact (ext_edges _ _ (R_ext _ _ _ (grows_R 0 _ _ G2 I1 (Nat.le_0_l _)))).
Qed.

Lemma sim_seq a b sg t1 s1 t2 o s2 :
  sim_stmt a sg t1 ONorm s1 -> sim_stmt b s1 t2 o s2 -> sim_stmt (Seq a b) sg (t1 ++ t2) o s2.
Proof.
  intros IHa IHb st g Hi Hw He HA HK. destruct (seq_mid a b st g Hi He) as (I1 & E1 & _).
  simpl in Hw, He |- *. apply andb_true_iff in Hw. destruct Hw as [Hwa Hwb].
  destruct (IHa st g Hi Hwa E1 HA HK) as [J1 [K1 A1]].
  destruct (at_cur_some _ _ _ A1) as [b1 Hc1]. rewrite Hc1 in *.
  destruct (sim_at b s1 t2 o s2 st _ g IHb (visit_ceq true a st) I1 Hwb He A1 K1) as [J2 P2].
  split; [apply Forall_app; auto|exact P2].
Qed.

Lemma sim_seq_stop a b sg t1 o s1 : o <> ONorm ->
  sim_stmt a sg t1 o s1 -> sim_stmt (Seq a b) sg t1 o s1.
Proof.
  intros Ho IHa st g Hi Hw He HA HK. destruct (seq_mid a b st g Hi He) as (I1 & E1 & M).
  simpl in Hw. apply andb_true_iff in Hw. destruct Hw as [Hwa Hwb].
  destruct (IHa st g Hi Hwa E1 HA HK) as [J1 P1].
  split; auto. exact (post_mono g st _ _ o s1 M Ho P1).
Qed.

Section IfCase.
  Variables (c : list nref) (th : stmt) (hasel : bool) (el : stmt).
  Variables (st g : bst) (sg : state).
  Hypothesis Hi : inv st.
  Hypothesis Hw : wf (inl st) (If c th hasel el) = true.
  Hypothesis He : ext (visit true (If c th hasel el) st) g.
  Hypothesis HA : at_cur g st sg.
  Hypothesis HK : Kexc g (excs st) sg.

  Let N := nb st.
  Let X3 := refs c (nextblock (newblock st)).
  Let X4 := nextblock X3.
  Let X5 := visit true th X4.
  Let X6 := link_cur N X5.
  Let X7 := if hasel then link_cur N (visit true el (nextblock_from (cur X3) X6))
            else add_edge_o (cur X3) N X6.

  (* these are the states of P_FlowCFG.IfBuild *)
  Lemma if_same : X3 = if3 c st /\ X4 = if4 c st /\ X5 = if5 c (visit true th) st /\
    X6 = if6 c (visit true th) st /\ X7 = if7 c (visit true th) hasel (visit true el) st.
  Proof. unfold X7, X6, X5, X4, X3, N, if7, if6, if5, if4, if3, if2. repeat split. Qed.
  Lemma if_chain : linked st [newblock st; if2 st; X3; X4; X5; X6; X7].
  Proof.
    destruct if_same as (E3 & E4 & E5 & E6 & E7). rewrite E3, E4, E5, E6, E7.
    apply if_links; intros X n Z; apply visit_R.
  Qed.
  Lemma if_final : visit true (If c th hasel el) st = cur_if_parents N X7.
  Proof. rewrite (proj2 (proj2 (proj2 (proj2 if_same)))). apply visit_If. Qed.
  Lemma if_mid : each (fun Y => inv Y /\ ext Y g) [newblock st; if2 st; X3; X4; X5; X6; X7].
  Proof. apply (linked_each g _ st Hi if_chain). rewrite if_final in He. exact He. Qed.
  Lemma if_wf : wf (inl st) th = true /\ wf (inl st) el = true.
  Proof. apply andb_true_iff, Hw. Qed.

  Lemma if_lenN : len X7 N = 0.
  Proof.
    destruct if_mid as ([I1 _] & _).
    exact (fresh_empty st X7 Hi (grows_R _ _ _ (linked_grows _ _ (linked_from [] _ _ st if_chain)) I1 (le_n _))).
  Qed.

  Lemma if_cond tr ok : eval_refs sg c tr ok -> at_cur g X3 sg /\ Forall (justified g) tr.
  Proof.
    intros Hev. destruct if_mid as ([I1 _] & [I2 E2] & [_ E3] & _).
    apply (refs_sound g c (if2 st) sg tr ok I2 E3); [|exact Hev].
    exact (at_cur_nextblock g (newblock st) sg I1 E2 HA).
  Qed.

  Lemma if_exc tr : eval_refs sg c tr false ->
    Forall (justified g) tr /\ post g st (visit true (If c th hasel el) st) OExc sg.
  Proof. intros Hev. destruct (if_cond tr false Hev). split; auto. split; auto. Qed.

  Lemma if_then t1 t2 o s2 : eval_refs sg c t1 true -> sim_stmt th sg t2 o s2 ->
    Forall (justified g) (t1 ++ t2) /\ post g st (visit true (If c th hasel el) st) o s2.
  Proof.
    intros Hev IH. destruct (if_cond t1 true Hev) as [A3 J1].
    destruct if_mid as (_ & _ & [I3 _] & [I4 E4] & _ & [I6 E6] & _).
    destruct (sim_branch g st X4 th N X7 sg t2 o s2) as [J2 Q]; auto.
    - unfold X4, X3. auto 8 with bkeep.
    - exact (at_cur_nextblock g X3 sg I3 E4 A3).
    - apply if_wf.
    - exact (linked_incl [X7] X6 I6 (linked_from [newblock st; if2 st; X3; X4; X5] X6 _ st if_chain)).
    - apply if_lenN.
    - rewrite if_final. split; [apply Forall_app; auto|exact Q].
  Qed.

  (* the position at the end of the condition block is still there when the else branch starts *)
  Lemma if_cond_end : at_cur g X3 sg ->
    exists bc, cur X3 = Some bc /\ bc < nb X6 /\ P g bc (len X6 bc) sg.
  Proof.
    intros (bc & Hc & HP). exists bc. destruct if_mid as (_ & _ & [I3 _] & [I4 _] & _).
    pose proof (proj2 I3 bc Hc) as Hlt.
    pose proof (grows_R (nb X4) X4 X6 (linked_grows _ _ (linked_prefix [X5; X6] [X7] X4
      (linked_from [newblock st; if2 st; X3] X4 _ st if_chain))) I4 (le_n _)) as H46.
    assert (E : nb X4 = S (nb X3)) by apply nb_nextblock.
    split; [exact Hc|]. split; [destruct (R_nb _ _ _ H46); lia|].
    rewrite (R_len _ _ _ bc H46); [|lia|].
    - unfold X4, nextblock. now rewrite len_nextblock_from.
    - change (cur X4) with (Some (nb X3)). intros Q. inversion Q. lia.
  Qed.

  Lemma if_skip t1 : hasel = false -> eval_refs sg c t1 true ->
    Forall (justified g) t1 /\ post g st (visit true (If c th hasel el) st) ONorm sg.
  Proof.
    intros Hh Hev. destruct (if_cond t1 true Hev) as [A3 J1]. split; auto. split; auto.
    destruct (if_cond_end A3) as (bc & Hc & Hlt & HP). destruct if_mid as (_ & _ & _ & _ & _ & _ & [_ E7] & _).
    assert (E : X7 = add_edge bc N X6) by (unfold X7; rewrite Hh; now rewrite Hc).
    rewrite if_final. pose proof if_lenN as LN.
    rewrite E in E7, LN |- *.
    destruct (add_edge_sound g X6 bc N sg E7 HP) as [PN HPn]. apply cip_sound; auto.
  Qed.

  Lemma if_else t1 t2 o s2 : hasel = true -> eval_refs sg c t1 true -> sim_stmt el sg t2 o s2 ->
    Forall (justified g) (t1 ++ t2) /\ post g st (visit true (If c th hasel el) st) o s2.
  Proof.
    intros Hh Hev IH. destruct (if_cond t1 true Hev) as [A3 J1].
    destruct (if_cond_end A3) as (bc & Hc & Hlt & HP).
    destruct if_mid as (_ & _ & _ & _ & _ & [I6 _] & [_ E7] & _).
    assert (E : X7 = link_cur N (visit true el (nextblock_from (Some bc) X6))).
    { unfold X7. rewrite Hh. now rewrite Hc. }
    rewrite E in E7.
    destruct (linked_each g [nextblock_from (Some bc) X6; visit true el (nextblock_from (Some bc) X6);
                             link_cur N (visit true el (nextblock_from (Some bc) X6))] X6 I6)
      as (_ & [IY EY] & _); [repeat apply conj; auto with bstep|exact E7|].
    destruct (sim_branch g st (nextblock_from (Some bc) X6) el N X7 sg t2 o s2) as [J2 Q]; auto.
    - unfold X6, X5, X4, X3. auto 10 with bkeep.
    - now apply at_cur_nextblock_from.
    - apply if_wf.
    - rewrite E. apply incl_refl.
    - apply if_lenN.
    - rewrite if_final. split; [apply Forall_app; auto|exact Q].
  Qed.
End IfCase.

Lemma sim_if_exc c th h el sg tr : eval_refs sg c tr false -> sim_stmt (If c th h el) sg tr OExc sg.
Proof. intros Hev st g Hi Hw He HA HK. eapply if_exc; eauto. Qed.
Lemma sim_if_then c th h el sg t1 t2 o s2 : eval_refs sg c t1 true -> sim_stmt th sg t2 o s2 ->
  sim_stmt (If c th h el) sg (t1 ++ t2) o s2.
Proof. intros Hev IH st g Hi Hw He HA HK. eapply if_then; eauto. Qed.
Lemma sim_if_else c th el sg t1 t2 o s2 : eval_refs sg c t1 true -> sim_stmt el sg t2 o s2 ->
  sim_stmt (If c th true el) sg (t1 ++ t2) o s2.
Proof. intros Hev IH st g Hi Hw He HA HK. eapply if_else; eauto. Qed.
Lemma sim_if_skip c th el sg t1 : eval_refs sg c t1 true -> sim_stmt (If c th false el) sg t1 ONorm sg.
Proof. intros Hev st g Hi Hw He HA HK. eapply if_skip; eauto. Qed.

Lemma inl_true st : inl st = true -> exists L r, loops st = L :: r.
Proof. unfold inl. destruct (loops st) as [|L r]; [discriminate|eauto]. Qed.

Lemma sim_break sg : sim_stmt Break sg [] OBrk sg.
Proof.
  intros st g Hi Hw He HA HK. simpl in *. split; [constructor|]. split; auto.
  destruct (inl_true st Hw) as (L & r & HL). destruct HA as (b & Hc & HP).
  unfold v_break in *. rewrite HL, Hc in *.
  eapply chain_edges_sound2; [exact He| |exact HP]. apply incl_refl.
Qed.

Lemma sim_continue sg : sim_stmt Continue sg [] OCont sg.
Proof.
  intros st g Hi Hw He HA HK. simpl in *. split; [constructor|]. split; auto.
  destruct (inl_true st Hw) as (L & r & HL). destruct HA as (b & Hc & HP).
  unfold v_break in *. rewrite HL, Hc in *.
  apply (chain_edges_sound g (l_excs L) (l_loop L) _ b (len st b) st sg He HP). auto.
Qed.

Lemma sim_return sg : sim_stmt Return sg [] ORet sg.
Proof.
  intros st g Hi Hw He HA HK. simpl in *. split; [constructor|]. split; auto.
  destruct HA as (b & Hc & HP). unfold v_return in *. rewrite Hc in *.
  apply (chain_edges_sound g (excs st) 1 _ b (len st b) st sg He HP). auto.
Qed.

Lemma sim_raise sg : sim_stmt Raise sg [] OExc sg.
Proof. intros st g Hi Hw He HA HK. split; [constructor|]. split; auto. Qed.

Lemma inv_of n X Y : R n X Y -> inv Y. Proof. apply R_inv. Qed.

Lemma visit_step s : step (visit true s).
Proof. intros X n Z. apply visit_R. Qed.

Section TryFinCase.
  Variables (body fexc fnorm : stmt) (st g : bst) (sg : state).
  Hypothesis Hi : inv st.
  Hypothesis Hw : wf (inl st) (TryFin body fexc fnorm) = true.
  Hypothesis He : ext (visit true (TryFin body fexc fnorm) st) g.
  Hypothesis HA : at_cur g st sg.
  Hypothesis HK : Kexc g (excs st) sg.

  Local Definition B := nb st.
  Local Definition EP := S (nb st).
  Local Definition X1 := set_cur (Some EP) (newblock (nextblock st)).
  Local Definition X2 := exc_edge X1.
  Local Definition X3 := visit true fexc X2.
  Local Definition X4 := match cur X3, excs X3 with Some b, x :: _ => add_edge b (x_entry x) X3 | _, _ => X3 end.
  Local Definition FE := nb X4.
  Local Definition X5 := set_cur (Some FE) (newblock X4).
  Local Definition X6 := visit true fnorm X5.
  Local Definition fexit := match cur X6 with Some b => Some (b, len X6 b) | None => None end.
  Local Definition d := mk_excd EP (Some (FE, fexit)).
  Local Definition X7 := push_exc d (push_loop_exc d X6).
  Local Definition X8 := nextblock (add_edge B EP (set_cur (Some B) X7)).
  Local Definition X9v := visit true body X8.
  Local Definition X9 := pop_loop_exc (pop_exc X9v).
  Local Definition XF := match cur X9 with
            | Some b => let s1 := add_edge b FE X9 in
                match fexit with
                | Some (fxb, k) => set_cur (Some (nb s1)) (add_edge_k fxb k (nb s1) (newblock s1))
                | None => set_cur None s1 end
            | None => X9 end.

  (* These are the states of P_FlowCFG.TryFinBuild for the repaired visitor, recognised one at a time:
     comparing the two towers of constants directly takes the kernel minutes. *)
  Lemma tf_same :
    let ve := visit true fexc in let vn := visit true fnorm in let vb := visit true body in
    X1 = tf1 st /\ X2 = tf2 true st /\ X3 = tf3 true ve st /\ X4 = tf4 true ve st /\ X5 = tf5 true ve st /\
    X6 = tf6 true ve vn st /\ X7 = tf7 true ve vn st /\ X8 = tf8 true ve vn st /\
    X9v = tf9v true vb ve vn st /\ X9 = tf9 true vb ve vn st /\ XF = b_tryfin true vb ve vn st.
  Proof.
    intros ve vn vb.
    assert (E1 : X1 = tf1 st) by reflexivity.
    assert (E2 : X2 = tf2 true st) by (unfold X2, tf2; now rewrite E1).
    assert (E3 : X3 = tf3 true ve st) by (unfold X3, tf3; now rewrite E2).
    assert (E4 : X4 = tf4 true ve st) by (unfold X4, tf4; now rewrite E3).
    assert (E5 : X5 = tf5 true ve st) by (unfold X5, FE, tf5; now rewrite E4).
    assert (E6 : X6 = tf6 true ve vn st) by (unfold X6, tf6; now rewrite E5).
    assert (E7 : X7 = tf7 true ve vn st) by (unfold X7, d, fexit, FE, tf7, tf_d, tf_exit; now rewrite E4, E6).
    assert (E8 : X8 = tf8 true ve vn st) by (unfold X8, tf8; now rewrite E7).
    assert (E9v : X9v = tf9v true vb ve vn st) by (unfold X9v, tf9v; now rewrite E8).
    assert (E9 : X9 = tf9 true vb ve vn st) by (unfold X9, tf9; now rewrite E9v).
    assert (EF : XF = b_tryfin true vb ve vn st)
      by (unfold XF, fexit, FE, b_tryfin, tf_exit; now rewrite E9, E4, E6).
    exact (conj E1 (conj E2 (conj E3 (conj E4 (conj E5 (conj E6 (conj E7 (conj E8 (conj E9v (conj E9 EF)))))))))).
  Qed.
  Lemma tf_final : visit true (TryFin body fexc fnorm) st = XF.
  Proof. rewrite visit_TryFin. symmetry. apply tf_same. Qed.
  Lemma tf_chain : linked st [nextblock st; X1; X2; X3; X4; X5; X6; X7].
  Proof.
    destruct tf_same as (E1 & E2 & E3 & E4 & E5 & E6 & E7 & _). rewrite E1, E2, E3, E4, E5, E6, E7.
    apply tf_links; apply visit_step.
  Qed.
  Lemma tf_R78 n Z : n <= B -> R n Z X7 -> R n Z X8.
  Proof.
    destruct tf_same as (_ & _ & _ & _ & _ & _ & E7 & E8 & _). rewrite E7, E8.
    apply tf_link78; auto; apply visit_step.
  Qed.
  Lemma tf_chain9 : linked X8 [X9v; X9; XF].
  Proof.
    destruct tf_same as (_ & _ & _ & _ & _ & _ & _ & E8 & E9v & E9 & EF). rewrite E8, E9v, E9, EF.
    apply tf_links9, visit_step.
  Qed.

  Lemma tf_nb7 : nb X7 = nb X6.
  Proof. unfold X7, push_loop_exc. simpl. destruct (loops X6); reflexivity. Qed.

  Lemma tf_I7 : inv X7.
  Proof. exact (R_inv _ _ _ (linked_grows _ _ tf_chain 0 st (R0 st Hi))). Qed.
  Lemma tf_mid : each (fun Y => inv Y /\ ext Y g) [nextblock st; X1; X2; X3; X4; X5; X6; X7] /\
                 each (fun Y => inv Y /\ ext Y g) [X8; X9v; X9; XF].
  Proof.
    pose proof (tf_R78 0 X7 (Nat.le_0_l _) (R0 X7 tf_I7)) as R78.
    destruct (linked_each g _ X8 (R_inv _ _ _ R78) tf_chain9) as [E8 MB]; [rewrite <- tf_final; exact He|].
    split; [|split; [split; [exact (R_inv _ _ _ R78)|exact E8]|exact MB]].
    exact (proj2 (linked_each g _ st Hi tf_chain (ext_trans _ _ _ (R_ext _ _ _ R78) E8))).
  Qed.
  Lemma tf_wf : wf (inl st) body = true /\ wf (inl st) fexc = true /\ wf (inl st) fnorm = true.
  Proof. simpl in Hw. apply andb_true_iff in Hw. destruct Hw as [H1 H2]. apply andb_true_iff in H1. tauto. Qed.

  Lemma tf_nb1 : nb X1 = S (S B).
  Proof. unfold X1. change (nb (set_cur (Some EP) (newblock (nextblock st)))) with (S (nb (nextblock st))).
    now rewrite nb_nextblock. Qed.

  (* the block of the try body stays empty while the finally clauses are built *)
  Lemma tf_lenB : len X7 B = 0 /\ B < nb X7.
  Proof.
    destruct tf_mid as [(_ & [I1 _] & _) _]. pose proof tf_nb1 as N1.
    pose proof (grows_R (S B) X1 X7 (linked_grows _ _ (linked_from [nextblock st] X1 _ st tf_chain)) I1
                  ltac:(lia)) as H.
    split; [|destruct (R_nb _ _ _ H); lia]. rewrite (R_len _ _ _ B H); [|lia|].
    - change (len X1 B) with (len (nextblock st) B). unfold nextblock. rewrite len_nextblock_from.
      apply len_fresh; auto.
    - unfold X1, EP, B. simpl. intros E. inversion E. lia.
  Qed.

  Lemma tf_C2 : ceq st X2. Proof. unfold X2, X1. auto 6 with bkeep. Qed.
  Lemma tf_C5 : ceq st X5.
  Proof.
    unfold X5. apply ceq_set_cur, ceq_newblock. unfold X4.
    assert (H3 : ceq st X3) by (apply visit_keeps, tf_C2).
    destruct (cur X3); [destruct (excs X3)|]; auto with bkeep.
  Qed.
  Lemma tf_C6 : ceq st X6. Proof. apply visit_keeps, tf_C5. Qed.
  Lemma tf_C78 : ceq X7 X8. Proof. unfold X8. auto 6 with bkeep. Qed.
  Lemma tf_loops8 : loops X8 = match loops st with
                               | L :: r => mk_loopd (l_next L) (l_loop L) (d :: l_excs L) :: r
                               | [] => [] end.
  Proof.
    rewrite (proj1 tf_C78), <- (proj1 tf_C6). change (loops X7) with (loops (push_loop_exc d X6)). unfold push_loop_exc.
    destruct (loops X6) eqn:E6; [exact E6|reflexivity].
  Qed.
  Lemma tf_ctx8 : excs X8 = d :: excs st /\ inl X8 = inl st.
  Proof.
    split.
    - rewrite (proj2 tf_C78). simpl. now rewrite excs_push_loop_exc, (proj2 tf_C6).
    - unfold inl. rewrite tf_loops8. destruct (loops st); reflexivity.
  Qed.

  (* whatever reaches the exception entry of the try/finally also reaches the enclosing handler *)
  Lemma tf_outer s1 : P g EP 0 s1 -> at_cur g X2 s1 /\ Kexc g (excs st) s1.
  Proof.
    intros HP. destruct tf_mid as [(_ & [I1 _] & [_ E2] & _) _].
    assert (A1 : at_cur g X1 s1).
    { exists EP. split; [reflexivity|]. change (len X1 EP) with (len (nextblock st) EP).
      rewrite len_fresh; [exact HP|exact (R_inv 0 st _ (R_nextblock _ _ _ (R0 _ Hi)))|].
      rewrite nb_nextblock. apply le_n. }
    destruct (exc_edge_sound g X1 s1 I1 E2 A1) as [A2 K2]. split; [exact A2|].
    assert (E1 : excs X1 = excs st) by (unfold X1; simpl; apply (ceq_nextblock st st (ceq_refl st))).
    now rewrite E1 in K2.
  Qed.

  Lemma tf_enter_body : at_cur g X8 sg /\ P g EP 0 sg.
  Proof.
    destruct tf_mid as [([I0 E0] & _) ([I8 E8] & _)]. destruct tf_lenB as [LB HB].
    destruct (at_cur_nextblock g st sg Hi E0 HA) as (b & Hc & PB). inversion Hc; subst b. clear Hc.
    unfold nextblock in PB. rewrite len_nextblock_from, (len_fresh st) in PB by auto.
    set (Y := add_edge B EP (set_cur (Some B) X7)).
    assert (RY : R 0 X7 Y) by (apply R_add_edge, R_set_cur_some; [apply Nat.le_0_l|exact HB|apply R0, tf_I7]).
    assert (EY : ext Y g).
    { eapply ext_trans; [|exact E8]. exact (R_ext _ _ _ (R_nextblock _ _ _ (R0 Y (R_inv _ _ _ RY)))). }
    assert (PY : P g B (len Y B) sg) by (change (len Y B) with (len X7 B); now rewrite LB).
    split.
    - apply at_cur_nextblock; [exact (R_inv _ _ _ RY)|exact E8|]. exists B. split; [reflexivity|exact PY].
    - eapply P_edge_ext; [|exact EY|exact PY]. left. reflexivity.
  Qed.

  Lemma tf_incl7F : incl (eds X7) (eds XF).
  Proof.
    destruct tf_mid as [_ ([I8 _] & _)].
    eapply incl_tran; [|exact (linked_incl _ X8 I8 tf_chain9)].
    exact (ext_edges _ _ (R_ext _ _ _ (tf_R78 0 X7 (Nat.le_0_l _) (R0 X7 tf_I7)))).
  Qed.

  (* a finally clause that does not complete normally ends the statement *)
  Lemma tf_clause Y s s1 t2 o2 s2 o1 : ceq st Y -> inv Y -> at_cur g Y s1 -> ext (visit true s Y) g ->
    wf (inl st) s = true -> Kexc g (excs st) s1 -> incl (eds (visit true s Y)) (eds X7) ->
    (at_cur g (visit true s Y) s2 -> Kexc g (excs st) s2 -> post g st XF o1 s2) ->
    sim_stmt s s1 t2 o2 s2 ->
    Forall (justified g) t2 /\ post g st (visit true (TryFin body fexc fnorm) st) (fin_out o1 o2) s2.
  Proof.
    intros C IY AY EV Hws K1 M Cont IH.
    destruct (sim_at s s1 t2 o2 s2 st Y g IH C IY Hws EV AY K1) as [J Q]. split; [exact J|].
    rewrite tf_final. pose proof (incl_tran M tf_incl7F) as MF.
    destruct o2; try (apply (post_mono g st (visit true s Y)); [exact MF|discriminate|exact Q]).
    destruct Q as [K2 A2]. exact (Cont A2 K2).
  Qed.

  (* the try body raised: the exception copy of the finally clause runs *)
  Lemma tf_exc t1 s1 t2 o2 s2 : sim_stmt body sg t1 OExc s1 -> sim_stmt fexc s1 t2 o2 s2 ->
    Forall (justified g) (t1 ++ t2) /\
    post g st (visit true (TryFin body fexc fnorm) st) (fin_out OExc o2) s2.
  Proof.
    intros IHb IHe. destruct tf_enter_body as [A8 PE]. destruct tf_ctx8 as [E8 L8].
    destruct tf_mid as [(_ & _ & [I2 _] & [I3 E3] & _) ([I8 _] & [_ E9v] & _)]. destruct tf_wf as (Wb & We & _).
    destruct (IHb X8 g I8) as [J1 [K9 _]]; [now rewrite L8|exact E9v|exact A8|now rewrite E8|].
    rewrite E8 in K9. destruct (tf_outer s1 K9) as [A2 K2].
    destruct (tf_clause X2 fexc s1 t2 o2 s2 OExc tf_C2 I2 A2 E3 We K2) as [J2 Q]; auto.
    - exact (linked_incl _ X3 I3 (linked_from [nextblock st; X1; X2] X3 _ st tf_chain)).
    - intros _ K. split; auto.
    - split; [apply Forall_app; auto|exact Q].
  Qed.

  Lemma tf_pop9 : cur X9 = cur X9v /\ sts X9 = sts X9v /\ eds X9 = eds X9v.
  Proof. unfold X9, pop_loop_exc. simpl. destruct (loops X9v); auto. Qed.

  (* what the finally clause has to deliver once it completes, for each way of leaving the body *)
  Definition tf_cont (o1 : out) : Prop :=
    forall fxb k s2, fexit = Some (fxb, k) -> P g fxb k s2 -> Kexc g (excs st) s2 -> post g st XF o1 s2.

  Lemma tf_leave o1 s1 : o1 <> OExc -> post g X8 X9v o1 s1 -> P g FE 0 s1 /\ tf_cont o1.
  Proof.
    intros Ho [K9 P9]. destruct tf_ctx8 as [E8 _]. pose proof tf_loops8 as L8.
    destruct tf_mid as [_ (_ & [I9v _] & [I9 _] & [_ EF] & _)]. destruct tf_pop9 as (C9 & S9 & D9).
    destruct o1; try congruence.
    - (* the body completed *)
      destruct P9 as (b9 & Hc9 & HP9). rewrite <- C9 in Hc9.
      assert (HL : len X9 b9 = len X9v b9) by (unfold len; now rewrite S9).
      split.
      + eapply P_edge_ext; [|exact EF|exact HP9]. unfold XF. rewrite Hc9. cbv zeta. rewrite <- HL.
        destruct fexit as [[fxb k]|]; simpl; auto.
      + intros fxb k s2 Hf HP2 HK2. split; auto. unfold XF. rewrite Hc9, Hf. cbv zeta.
        exists (nb X9). split; [reflexivity|].
        match goal with |- P g _ (len ?Y _) _ => change (len Y (nb X9)) with (len X9 (nb X9)) end.
        rewrite (len_fresh X9); [|exact I9|apply le_n].
        eapply P_edge_ext; [|exact EF|exact HP2]. unfold XF. rewrite Hc9, Hf. cbv zeta. simpl. auto.
    - (* break *)
      rewrite L8 in P9. destruct (loops st) as [|L r] eqn:EL; [destruct P9|].
      destruct (chain_fin _ _ _ _ _ _ _ P9) as [PF PC]. split; [exact PF|].
      intros fxb k s2 Hf HP2 HK2. split; auto. rewrite EL. eapply chain_impl; [|exact (PC fxb k s2 Hf HP2)].
      intros s [A Bp]. split; auto. eapply hp_mono; [|exact Bp].
      exact (linked_incl [X9; XF] X9v I9v (proj2 tf_chain9)).
    - (* continue *)
      rewrite L8 in P9. destruct (loops st) as [|L r] eqn:EL; [destruct P9|].
      destruct (chain_fin _ _ _ _ _ _ _ P9) as [PF PC]. split; [exact PF|].
      intros fxb k s2 Hf HP2 HK2. split; auto. rewrite EL. exact (PC fxb k s2 Hf HP2).
    - (* return *)
      rewrite E8 in P9. destruct (chain_fin _ _ _ _ _ _ _ P9) as [PF PC]. split; [exact PF|].
      intros fxb k s2 Hf HP2 HK2. split; auto. exact (PC fxb k s2 Hf HP2).
  Qed.

  Lemma tf_other t1 o1 s1 t2 o2 s2 : o1 <> OExc ->
    sim_stmt body sg t1 o1 s1 -> sim_stmt fnorm s1 t2 o2 s2 ->
    Forall (justified g) (t1 ++ t2) /\
    post g st (visit true (TryFin body fexc fnorm) st) (fin_out o1 o2) s2.
  Proof.
    intros Ho IHb IHn. destruct tf_enter_body as [A8 PE]. destruct tf_ctx8 as [E8 L8].
    destruct tf_mid as [(_ & _ & _ & _ & [I4 _] & [I5 _] & [I6 E6] & _) ([I8 _] & [_ E9v] & _)].
    destruct tf_wf as (Wb & _ & Wn).
    destruct (IHb X8 g I8) as [J1 P9]; [now rewrite L8|exact E9v|exact A8|now rewrite E8|].
    pose proof P9 as [K9 _]. rewrite E8 in K9. destruct (tf_outer s1 K9) as [_ K2].
    destruct (tf_leave o1 s1 Ho P9) as [PF Cont].
    assert (A5 : at_cur g X5 s1).
    { exists FE. split; [reflexivity|]. change (len X5 FE) with (len X4 FE).
      now rewrite (len_fresh X4 FE I4 (le_n _)). }
    destruct (tf_clause X5 fnorm s1 t2 o2 s2 o1 tf_C5 I5 A5 E6 Wn K2) as [J2 Q]; auto.
    - exact (linked_incl _ X6 I6 (linked_from [nextblock st; X1; X2; X3; X4; X5] X6 _ st tf_chain)).
    - intros (fxb & Hc6 & HP6) K. apply (Cont fxb (len X6 fxb)); auto.
      change (cur X6 = Some fxb) in Hc6. unfold fexit. now rewrite Hc6.
    - split; [apply Forall_app; auto|exact Q].
  Qed.
End TryFinCase.

Lemma sim_tryfin_exc body fexc fnorm sg t1 s1 t2 o2 s2 :
  sim_stmt body sg t1 OExc s1 -> sim_stmt fexc s1 t2 o2 s2 ->
  sim_stmt (TryFin body fexc fnorm) sg (t1 ++ t2) (fin_out OExc o2) s2.
Proof. intros IHb IHe st g Hi Hw He HA HK. eapply tf_exc; eauto. Qed.
Lemma sim_tryfin_other body fexc fnorm sg t1 o1 s1 t2 o2 s2 : o1 <> OExc ->
  sim_stmt body sg t1 o1 s1 -> sim_stmt fnorm s1 t2 o2 s2 ->
  sim_stmt (TryFin body fexc fnorm) sg (t1 ++ t2) (fin_out o1 o2) s2.
Proof. intros Ho IHb IHn st g Hi Hw He HA HK. eapply tf_other; eauto. Qed.

Lemma cur_refs c : forall X, cur (refs c X) = cur X.
Proof.
  induction c as [|r c IH]; intros X; simpl; auto. rewrite IH. unfold v_ref, append.
  destruct (cur X) eqn:E; simpl; auto.
Qed.

Definition sim_loop f c tg body h el (sg : state) (tr : list event) (o : out) (s2 : state) : Prop :=
  forall st g, inv st -> wf (inl st) (Loop f c tg body h el) = true ->
    ext (visit true (Loop f c tg body h el) st) g ->
    P g (nb st) 0 sg -> Kexc g (excs st) sg ->
    Forall (justified g) tr /\ post g st (visit true (Loop f c tg body h el) st) o s2.

Section LoopCase.
  Variables (isfor : bool) (c tg : list nref) (body : stmt) (hasel : bool) (el : stmt).
  Variables (st g : bst).
  Hypothesis Hi : inv st.
  Hypothesis Hw : wf (inl st) (Loop isfor c tg body hasel el) = true.
  Hypothesis He : ext (visit true (Loop isfor c tg body hasel el) st) g.

  Local Definition LC := nb st.
  Local Definition LN := S (nb st).
  Local Definition Y2 := newblock (nextblock st).
  Local Definition Y3 := push_loop (mk_loopd LN LC []) Y2.
  Local Definition Y4 := refs c Y3.
  Local Definition Y5 := nextblock Y4.
  Local Definition Y6 := if isfor then nextblock (asgs tg Y5) else Y5.
  Local Definition Y7v := visit true body Y6.
  Local Definition Y7 := pop_loop Y7v.
  Local Definition Y8 := match cur Y7 with
            | Some b => let s1 := add_edge b LC Y7 in if isfor then s1 else add_edge b LN s1
            | None => Y7 end.
  Local Definition Y9 := if hasel then link_cur LN (visit true el (nextblock_from (cur Y4) Y8))
            else add_edge_o (cur Y4) LN Y8.

  (* these are the states of P_FlowCFG.LoopBuild (see tf_same) *)
  Lemma lp_same : let vb := visit true body in let ve := visit true el in
    Y2 = lp2 st /\ Y3 = lp3 st /\ Y4 = lp4 c st /\ Y5 = lp5 c st /\ Y6 = lp6 isfor c tg st /\
    Y7v = lp7v isfor c tg vb st /\ Y7 = lp7 isfor c tg vb st /\ Y8 = lp8 isfor c tg vb st /\
    Y9 = lp9 isfor c tg vb hasel ve st.
  Proof.
    unfold Y9, Y8, Y7, Y7v, Y6, Y5, Y4, Y3, Y2, LN, LC, lp9, lp8, lp7, lp7v, lp6, lp5, lp4, lp3, lp2.
    repeat split.
  Qed.
  Lemma lp_final : visit true (Loop isfor c tg body hasel el) st = cur_if_parents LN Y9.
  Proof. destruct lp_same as (_ & _ & _ & _ & _ & _ & _ & _ & E9). rewrite E9. apply visit_Loop. Qed.
  Lemma lp_chain : linked st [nextblock st; Y2; Y3; Y4; Y5; Y6; Y7v; Y7; Y8; Y9].
  Proof.
    destruct lp_same as (E2 & E3 & E4 & E5 & E6 & E7v & E7 & E8 & E9).
    rewrite E2, E3, E4, E5, E6, E7v, E7, E8, E9. apply lp_links; apply visit_step.
  Qed.
  Lemma lp_mid : each (fun Y => inv Y /\ ext Y g) [nextblock st; Y2; Y3; Y4; Y5; Y6; Y7v; Y7; Y8; Y9].
  Proof. apply (linked_each g _ st Hi lp_chain). rewrite lp_final in He. exact He. Qed.
  Lemma lp_I9 : inv Y9.
  Proof using Hi Hw He. apply lp_mid. Qed.
  Lemma lp_wf : wf true body = true /\ wf (inl st) el = true.
  Proof. apply andb_true_iff, Hw. Qed.

  Lemma lp_cur4 : cur Y4 = Some LC.
  Proof. unfold Y4. rewrite cur_refs. reflexivity. Qed.
  Lemma lp_nb4 : S LN < nb Y5 /\ nb Y5 = S (nb Y4).
  Proof.
    destruct lp_mid as (_ & [I2 _] & _).
    destruct (R_nb _ _ _ (grows_R 0 Y2 Y4 (linked_grows _ _ (linked_prefix [Y3; Y4] _ Y2
      (linked_from [nextblock st] Y2 _ st lp_chain))) I2 (Nat.le_0_l _))) as [H _].
    change (nb Y2) with (S (nb (nextblock st))) in H. rewrite nb_nextblock in H.
    assert (E : nb Y5 = S (nb Y4)) by apply nb_nextblock. unfold LN. split; [lia|exact E].
  Qed.

  (* next_block never receives statements *)
  Lemma lp_lenN : len Y9 LN = 0.
  Proof.
    destruct lp_mid as ([I1 _] & [I2 _] & _).
    pose proof (fresh_empty (nextblock st) Y9 I1 (grows_R _ _ _ (linked_grows _ _
      (linked_from [nextblock st] Y2 _ st lp_chain)) I2 (le_n _))) as H.
    now rewrite nb_nextblock in H.
  Qed.

  (* the condition block keeps its statements while the body is built *)
  Lemma lp_R58 : R (nb Y5) Y5 Y8.
  Proof.
    destruct lp_mid as (_ & _ & _ & _ & [I5 _] & _).
    exact (grows_R _ _ _ (linked_grows _ _ (linked_prefix [Y6; Y7v; Y7; Y8] [Y9] Y5
      (linked_from [nextblock st; Y2; Y3; Y4] Y5 _ st lp_chain))) I5 (le_n _)).
  Qed.
  Lemma lp_lenC : len Y8 LC = len Y4 LC.
  Proof.
    destruct lp_nb4 as [N5 E5]. rewrite (R_len (nb Y5) Y5 Y8 LC lp_R58).
    - unfold Y5, nextblock. apply len_nextblock_from.
    - unfold LC, LN in *. lia.
    - change (cur Y5) with (Some (nb Y4)). intros E. inversion E. unfold LC, LN in *. lia.
  Qed.

  Lemma lp_ceq6 : loops Y6 = mk_loopd LN LC [] :: loops st /\ excs Y6 = excs st.
  Proof.
    assert (H : ceq Y3 Y6) by (unfold Y6, Y5, Y4; destruct isfor; auto 6 with bkeep).
    destruct H as [A B']. rewrite A, B'. destruct (ceq_nextblock st st (ceq_refl st)) as [C D].
    split; [simpl; f_equal; exact C|exact D].
  Qed.
  Lemma lp_ceq8 : ceq st Y8.
  Proof.
    assert (H7 : ceq st Y7).
    { apply (ceq_pop_loop st (mk_loopd LN LC []) Y2); [unfold Y2; auto with bkeep|].
      unfold Y7v, Y6, Y5, Y4. destruct isfor; auto 8 with bkeep. }
    unfold Y8. destruct (cur Y7); [destruct isfor|]; auto with bkeep.
  Qed.

  Lemma lp_start sg : P g LC 0 sg -> at_cur g Y3 sg.
  Proof.
    intros HP. exists LC. split; [reflexivity|].
    change (len Y3 LC) with (len (nextblock st) LC). unfold nextblock.
    now rewrite len_nextblock_from, (len_fresh st) by auto.
  Qed.
  Lemma lp_head sg : P g LC 0 sg -> at_cur g Y4 sg.
  Proof. intros HP. destruct lp_mid as (_ & _ & [I3 _] & [_ E4] & _). exact (refs_pass g c Y3 sg I3 E4 (lp_start sg HP)). Qed.
  Lemma lp_head_ev sg tr ok : P g LC 0 sg -> eval_refs sg c tr ok -> Forall (justified g) tr.
  Proof.
    intros HP Hev. destruct lp_mid as (_ & _ & [I3 _] & [_ E4] & _).
    exact (proj2 (refs_sound g c Y3 sg tr ok I3 E4 (lp_start sg HP) Hev)).
  Qed.
  Lemma lp_head_eval sg tr ok : P g LC 0 sg -> head_eval isfor sg c tr ok -> Forall (justified g) tr.
  Proof.
    unfold head_eval. intros HP H. destruct (Sumbool.sumbool_of_bool isfor) as [E|E]; rewrite E in H.
    - destruct H as [-> _]. constructor.
    - eapply lp_head_ev; eauto.
  Qed.

  Lemma lp_exc sg tr : P g LC 0 sg -> Kexc g (excs st) sg -> head_eval isfor sg c tr false ->
    Forall (justified g) tr /\ post g st (visit true (Loop isfor c tg body hasel el) st) OExc sg.
  Proof. intros HP HK H. split; [eapply lp_head_eval; eauto|split; auto]. Qed.

  Lemma lp_P_end sg : P g LC 0 sg -> P g LC (len Y8 LC) sg.
  Proof. intros HP. destruct (lp_head sg HP) as (b & Hc & HPb). rewrite lp_cur4 in Hc. inversion Hc; subst.
    now rewrite lp_lenC. Qed.

  Lemma lp_exit sg t1 : hasel = false -> P g LC 0 sg -> Kexc g (excs st) sg ->
    head_eval isfor sg c t1 true ->
    Forall (justified g) t1 /\ post g st (visit true (Loop isfor c tg body hasel el) st) ONorm sg.
  Proof.
    intros Hh HP HK H. split; [eapply lp_head_eval; eauto|]. split; auto.
    destruct lp_mid as (_ & _ & _ & _ & _ & _ & _ & _ & _ & [_ E9] & _).
    rewrite lp_final. pose proof lp_lenN as HLN. unfold Y9 in E9, HLN |- *.
    rewrite Hh, lp_cur4 in E9, HLN |- *. simpl in E9, HLN |- *.
    destruct (add_edge_sound g Y8 LC LN sg E9 (lp_P_end sg HP)) as [PN HPn]. apply cip_sound; auto.
  Qed.

  Lemma lp_else sg t1 t2 o s2 : hasel = true -> P g LC 0 sg -> Kexc g (excs st) sg ->
    head_eval isfor sg c t1 true -> sim_stmt el sg t2 o s2 ->
    Forall (justified g) (t1 ++ t2) /\ post g st (visit true (Loop isfor c tg body hasel el) st) o s2.
  Proof.
    intros Hh HP HK H IH. destruct lp_mid as (_ & _ & _ & _ & _ & _ & _ & _ & [I8 _] & [_ E9] & _).
    assert (E : Y9 = link_cur LN (visit true el (nextblock_from (Some LC) Y8))).
    { unfold Y9. now rewrite Hh, lp_cur4. }
    rewrite E in E9. destruct lp_nb4 as [N5 _].
    assert (HC : LC < nb Y8).
    { destruct (R_nb _ _ _ lp_R58). unfold LC, LN in *. lia. }
    destruct (linked_each g [nextblock_from (Some LC) Y8; visit true el (nextblock_from (Some LC) Y8);
                             link_cur LN (visit true el (nextblock_from (Some LC) Y8))] Y8 I8)
      as (_ & [IY EY] & _); [repeat apply conj; auto with bstep|exact E9|].
    destruct (sim_branch g st (nextblock_from (Some LC) Y8) el LN Y9 sg t2 o s2) as [J2 Q]; auto.
    - pose proof lp_ceq8. auto with bkeep.
    - apply at_cur_nextblock_from; auto. apply lp_P_end, HP.
    - apply lp_wf.
    - rewrite E. apply incl_refl.
    - apply lp_lenN.
    - rewrite lp_final. split; [apply Forall_app; split; auto; eapply lp_head_eval; eauto|exact Q].
  Qed.

  Lemma lp_enter sg : at_cur g st sg -> P g LC 0 sg.
  Proof.
    intros HA. destruct lp_mid as ([_ E1] & _).
    destruct (at_cur_nextblock g st sg Hi E1 HA) as (b & Hc & HP). inversion Hc; subst b.
    unfold nextblock in HP. now rewrite len_nextblock_from, (len_fresh st) in HP by auto.
  Qed.

  Lemma lp_body_entry sg : P g LC 0 sg -> Kexc g (excs st) sg ->
    at_cur g Y6 (if isfor then bind tg sg else sg) /\ Kexc g (excs st) (if isfor then bind tg sg else sg) /\
    Forall (justified g) (if isfor then bind_ev tg sg else []).
  Proof.
    intros HP HK. destruct lp_mid as (_ & _ & _ & [I4 _] & [I5 E5] & [_ E6] & _).
    assert (A5 : at_cur g Y5 sg) by (apply at_cur_nextblock; [exact I4|exact E5|exact (lp_head sg HP)]).
    assert (X5 : excs Y5 = excs st).
    { assert (H : ceq Y3 Y5) by (unfold Y5, Y4; auto with bkeep). rewrite (proj2 H).
      exact (proj2 (ceq_nextblock st st (ceq_refl st))). }
    unfold Y6 in *. destruct (Sumbool.sumbool_of_bool isfor) as [E|E]; rewrite E in E6 |- *; [|auto].
    destruct (linked_each g [asgs tg Y5; nextblock (asgs tg Y5)] Y5 I5) as (_ & [IA EA] & _);
      [repeat apply conj; auto with bstep|exact E6|].
    destruct (asgs_sound g tg Y5 sg I5 EA A5) as (AA & KA & JA); [now rewrite X5|]. rewrite X5 in KA.
    split; [|split; auto]. apply at_cur_nextblock; auto.
  Qed.

  Lemma lp_body sg t1 t2 ob s1 : P g LC 0 sg -> Kexc g (excs st) sg ->
    head_eval isfor sg c t1 true ->
    sim_stmt body (if isfor then bind tg sg else sg) t2 ob s1 ->
    Forall (justified g) ((t1 ++ (if isfor then bind_ev tg sg else [])) ++ t2) /\ Kexc g (excs st) s1 /\
    match ob with
    | ONorm | OCont => P g LC 0 s1
    | OBrk => at_cur g (cur_if_parents LN Y9) s1
    | ORet => chain g (excs st) (fun s => P g 1 0 s) s1
    | OExc => True
    end.
  Proof.
    intros HP HK H IH. destruct (lp_body_entry sg HP HK) as (A6 & K6 & JB).
    destruct lp_mid as (_ & _ & _ & _ & _ & [I6 _] & [I7v E7v] & _ & [_ E8] & _).
    destruct lp_ceq6 as [CL6 CE6].
    destruct (IH Y6 g I6) as [J2 [K7 P7]]; [unfold inl; rewrite CL6; apply lp_wf|exact E7v|exact A6|now rewrite CE6|].
    fold Y7v in P7. rewrite CE6 in K7.
    split; [apply Forall_app; split; auto; apply Forall_app; split; auto; eapply lp_head_eval; eauto|]. split; auto.
    destruct ob; auto.
    - (* end of the body: back edge *)
      destruct P7 as (b & Hc & HPb).
      assert (Hc7 : cur Y7 = Some b) by exact Hc.
      eapply P_edge_ext; [|exact E8|exact HPb].
      unfold Y8. rewrite Hc7. cbv zeta. change (len Y7 b) with (len Y7v b).
      destruct (Sumbool.sumbool_of_bool isfor) as [E|E]; rewrite E; simpl; auto.
    - (* break: next_block *)
      rewrite CL6 in P7. simpl in P7. destruct P7 as [PN HPn].
      apply cip_sound; auto; [apply lp_lenN|]. eapply hp_mono; [|exact HPn].
      exact (linked_incl [Y7; Y8; Y9] Y7v I7v (linked_from [nextblock st; Y2; Y3; Y4; Y5; Y6] Y7v _ st lp_chain)).
    - (* continue *)
      rewrite CL6 in P7. simpl in P7. exact P7.
    - rewrite CE6 in P7. exact P7.
  Qed.
End LoopCase.

Lemma sim_loop_exc f c tg body h el sg tr : head_eval f sg c tr false ->
  sim_loop f c tg body h el sg tr OExc sg.
Proof. intros H st g Hi Hw He HP HK. eapply lp_exc; eauto. Qed.
Lemma sim_loop_exit f c tg body el sg t1 : head_eval f sg c t1 true ->
  sim_loop f c tg body false el sg t1 ONorm sg.
Proof. intros H st g Hi Hw He HP HK. eapply lp_exit; eauto. Qed.
Lemma sim_loop_else f c tg body el sg t1 t2 o s2 : head_eval f sg c t1 true -> sim_stmt el sg t2 o s2 ->
  sim_loop f c tg body true el sg (t1 ++ t2) o s2.
Proof. intros H IH st g Hi Hw He HP HK. eapply lp_else; eauto. Qed.
Lemma sim_loop_iter f c tg body h el sg t1 t2 ob s1 t3 o s2 : head_eval f sg c t1 true ->
  sim_stmt body (if f then bind tg sg else sg) t2 ob s1 -> ob = ONorm \/ ob = OCont ->
  sim_loop f c tg body h el s1 t3 o s2 ->
  sim_loop f c tg body h el sg ((t1 ++ (if f then bind_ev tg sg else [])) ++ t2 ++ t3) o s2.
Proof.
  intros H IHb Hob IHl st g Hi Hw He HP HK.
  destruct (lp_body f c tg body h el st g Hi Hw He sg t1 t2 ob s1 HP HK H IHb) as (J & K1 & Q).
  assert (HP1 : P g (nb st) 0 s1) by (destruct Hob; subst; exact Q).
  destruct (IHl st g Hi Hw He HP1 K1) as [J3 P3]. split; auto.
  rewrite app_assoc. apply Forall_app; auto.
Qed.
Lemma sim_loop_break f c tg body h el sg t1 t2 s1 : head_eval f sg c t1 true ->
  sim_stmt body (if f then bind tg sg else sg) t2 OBrk s1 ->
  sim_loop f c tg body h el sg ((t1 ++ (if f then bind_ev tg sg else [])) ++ t2) ONorm s1.
Proof.
  intros H IHb st g Hi Hw He HP HK.
  destruct (lp_body f c tg body h el st g Hi Hw He sg t1 t2 OBrk s1 HP HK H IHb) as (J & K1 & Q).
  split; [exact J|]. split; [exact K1|]. rewrite lp_final. exact Q.
Qed.
Lemma sim_loop_prop f c tg body h el sg t1 t2 ob s1 : head_eval f sg c t1 true ->
  sim_stmt body (if f then bind tg sg else sg) t2 ob s1 -> ob = ORet \/ ob = OExc ->
  sim_loop f c tg body h el sg ((t1 ++ (if f then bind_ev tg sg else [])) ++ t2) ob s1.
Proof.
  intros H IHb Hob st g Hi Hw He HP HK.
  destruct (lp_body f c tg body h el st g Hi Hw He sg t1 t2 ob s1 HP HK H IHb) as (J & K1 & Q).
  split; auto. split; auto. destruct Hob; subst; auto.
Qed.

Lemma loop_enter f c tg body h el st g sg : inv st -> wf (inl st) (Loop f c tg body h el) = true ->
  ext (visit true (Loop f c tg body h el) st) g -> at_cur g st sg -> P g (nb st) 0 sg.
Proof. intros Hi Hw He HA. eapply lp_enter; eauto. Qed.

Lemma sim_while c tg body h el sg tr o s2 : sim_loop false c tg body h el sg tr o s2 ->
  sim_stmt (Loop false c tg body h el) sg tr o s2.
Proof.
  intros IH st g Hi Hw He HA HK. apply IH; auto. eapply loop_enter; eauto.
Qed.
Lemma sim_for_exc c tg body h el sg tr : eval_refs sg c tr false ->
  sim_stmt (Loop true c tg body h el) sg tr OExc sg.
Proof.
  intros Hev st g Hi Hw He HA HK. split; [|split; auto].
  eapply lp_head_ev; eauto. eapply loop_enter; eauto.
Qed.
Lemma sim_for c tg body h el sg t1 t2 o s2 : eval_refs sg c t1 true ->
  sim_loop true c tg body h el sg t2 o s2 -> sim_stmt (Loop true c tg body h el) sg (t1 ++ t2) o s2.
Proof.
  intros Hev IH st g Hi Hw He HA HK. pose proof (loop_enter _ _ _ _ _ _ _ _ _ Hi Hw He HA) as HP.
  destruct (IH st g Hi Hw He HP HK) as [J2 P2]. split; auto.
  apply Forall_app; split; auto. eapply lp_head_ev; eauto.
Qed.

Definition sim_h (hs : handlers) (sg : state) (tr : list event) (o : out) (s2 : state) : Prop :=
  forall st g N E, inv st -> wf_h (inl st) hs = true -> E < nb st -> len st E = 0 ->
    ext (snd (visit_h true hs N E st)) g -> P g E 0 sg -> Kexc g (excs st) sg ->
    Forall (justified g) tr /\ posth g st (snd (visit_h true hs N E st)) N o s2.

Section HandlerCase.
  Variables (hastg : bool) (tl te : nat) (hb : stmt) (rest : handlers).
  Variables (st g : bst) (N E : nat).
  Hypothesis Hi : inv st.
  Hypothesis HE : E < nb st.
  Hypothesis HL : len st E = 0.

  (* the states of P_FlowCFG.HandlerBuild *)
  Let E2 := nb st.
  Let H1 := hc1 E st.
  Let H3 := hc3 E st.
  Let H4 := hc4 E st.
  Let H5 := hc5 hastg tl te E st.
  Let H6 := hc6 hastg tl te (visit true hb) N E st.

  Lemma hc_final : visit_h true (HCons hastg tl te hb rest) N E st = visit_h true rest N E2 H6.
  Proof. apply visit_HCons. Qed.
  Lemma hc_I1 : inv H1.
  Proof. exact (R_inv _ _ _ (R_set_cur_some 0 st st E (Nat.le_0_l _) HE (R0 st Hi))). Qed.
  Lemma hc_chain : linked H1 [newblock H1; H3; H4; H5; H6].
  Proof. apply hc_links, visit_step. Qed.
  Lemma hc_R6 : R (S E2) (newblock H1) H6.
  Proof.
    exact (grows_R _ _ _ (linked_grows _ _ (linked_from [] _ _ H1 hc_chain))
             (R_inv _ _ _ (R_newblock _ _ _ (R0 H1 hc_I1))) (le_n _)).
  Qed.
  Lemma hc_I6 : inv H6. Proof. exact (R_inv _ _ _ hc_R6). Qed.
  Lemma hc_E2_lt : E2 < nb H6. Proof. exact (proj1 (R_nb _ _ _ hc_R6)). Qed.
  Lemma hc_lenE2 : len H6 E2 = 0. Proof. exact (fresh_empty H1 H6 hc_I1 hc_R6). Qed.
  Lemma hc_rest : R 0 H6 (snd (visit_h true rest N E2 H6)).
  Proof. apply (visit_h_R true rest N E2 H6 0 H6 (Nat.le_0_l _) hc_E2_lt (R0 H6 hc_I6)). Qed.

  Lemma hc_ceq5 : ceq st H5.
  Proof. unfold H5, hc5, hc4, hc3, hc1. destruct (Sumbool.sumbool_of_bool hastg) as [Q|Q]; rewrite Q; auto 8 with bkeep. Qed.

  Hypothesis He : ext (snd (visit_h true (HCons hastg tl te hb rest) N E st)) g.

  Lemma hc_mid : each (fun Y => inv Y /\ ext Y g) [newblock H1; H3; H4; H5; H6].
  Proof.
    apply (linked_each g _ H1 hc_I1 hc_chain). rewrite hc_final in He.
    exact (ext_trans _ _ _ (R_ext _ _ _ hc_rest) He).
  Qed.

  (* the exception also reaches the next clause *)
  Lemma hc_next sg : P g E 0 sg -> P g E2 0 sg.
  Proof.
    intros HP. destruct hc_mid as (_ & [_ E3] & _). eapply P_edge_ext; [|exact E3|exact HP].
    unfold H3, hc3, add_edge. left. change (len (newblock (hc1 E st)) E) with (len st E). now rewrite HL.
  Qed.

  Lemma hc_skip sg tr o s2 : wf_h (inl st) (HCons hastg tl te hb rest) = true ->
    P g E 0 sg -> Kexc g (excs st) sg -> sim_h rest sg tr o s2 ->
    Forall (justified g) tr /\ posth g st (snd (visit_h true (HCons hastg tl te hb rest) N E st)) N o s2.
  Proof.
    intros Hw HP HK IH. assert (C6 : ceq st H6) by (pose proof hc_ceq5; unfold H6, hc6; auto with bkeep).
    destruct C6 as [CL CE]. apply andb_true_iff in Hw. destruct Hw as [_ Hw].
    pose proof (hc_next sg HP) as HP2. rewrite hc_final in *.
    destruct (IH H6 g N E2 hc_I6) as [J Q];
      [now rewrite (inl_eq H6 st CL)|exact hc_E2_lt|exact hc_lenE2|exact He|exact HP2|now rewrite CE|].
    split; auto. unfold posth in *. destruct o; [now rewrite CE in Q|..]; eapply post_ctx; eauto.
  Qed.

  Lemma hc_match sg tr o s2 : wf_h (inl st) (HCons hastg tl te hb rest) = true ->
    P g E 0 sg -> Kexc g (excs st) sg ->
    sim_stmt hb (if hastg then upd sg te true else sg) tr o s2 ->
    Forall (justified g) ((if hastg then [(tl, te, sg te)] else []) ++ tr) /\
    posth g st (snd (visit_h true (HCons hastg tl te hb rest) N E st)) N o s2.
  Proof.
    intros Hw HP HK IH. destruct hc_mid as (_ & [I3 _] & [I4 E4] & [I5 E5] & [_ E6] & _).
    apply andb_true_iff in Hw. destruct Hw as [Hw _].
    assert (A4 : at_cur g H4 sg).
    { apply at_cur_nextblock; [exact I3|exact E4|]. exists E. split; [reflexivity|].
      change (P g E (len st E) sg). now rewrite HL. }
    assert (A5 : at_cur g H5 (if hastg then upd sg te true else sg) /\
                 Kexc g (excs st) (if hastg then upd sg te true else sg) /\
                 Forall (justified g) (if hastg then [(tl, te, sg te)] else [])).
    { unfold H5, hc5 in E5 |- *.
      destruct (Sumbool.sumbool_of_bool hastg) as [Q|Q]; rewrite Q in E5 |- *; [|auto].
      destruct (v_asg_sound g H4 tl te sg I4 E5 A4) as (A & K & J).
      assert (C4 : ceq st H4) by (unfold H4, hc4, hc3, hc1; auto 8 with bkeep).
      rewrite (proj2 C4) in K. auto. }
    destruct A5 as (A5 & K5 & J5).
    destruct (sim_linked g st H5 hb N _ tr o s2 hc_ceq5 I5 A5 E6 Hw K5 IH) as [J Q].
    split; [apply Forall_app; auto|]. rewrite hc_final.
    exact (posth_mono g st H6 _ N o s2 (ext_edges _ _ (R_ext _ _ _ hc_rest)) Q).
  Qed.
End HandlerCase.

Lemma sim_h_nil sg : sim_h HNil sg [] OExc sg.
Proof. intros st g N E Hi Hw HE HL He HP HK. split; [constructor|]. split; auto. Qed.
Lemma sim_h_match (hastg : bool) tl te hb rest (sg : state) t o s2 :
  sim_stmt hb (if hastg then upd sg te true else sg) t o s2 ->
  sim_h (HCons hastg tl te hb rest) sg ((if hastg then [(tl, te, sg te)] else []) ++ t) o s2.
Proof. intros IH st g N E Hi Hw HE HL He HP HK. eapply hc_match; eauto. Qed.
Lemma sim_h_skip hastg tl te hb rest sg t o s2 : sim_h rest sg t o s2 ->
  sim_h (HCons hastg tl te hb rest) sg t o s2.
Proof. intros IH st g N E Hi Hw HE HL He HP HK. eapply hc_skip; eauto. Qed.

(* the chain of clause entry blocks ends in the block that is linked to the enclosing handler *)
Lemma hwalk g hs : forall st N E sg, inv st -> E < nb st -> len st E = 0 ->
  ext (snd (visit_h true hs N E st)) g -> P g E 0 sg ->
  P g (fst (visit_h true hs N E st)) 0 sg /\
  len (snd (visit_h true hs N E st)) (fst (visit_h true hs N E st)) = 0.
Proof.
  induction hs as [|hastg tl te hb rest IH]; intros st N E sg Hi HE HL He HP.
  - simpl. auto.
  - rewrite hc_final in *. apply IH; auto.
    + apply hc_I6; auto.
    + apply hc_E2_lt; auto.
    + apply hc_lenE2; auto.
    + eapply hc_next; eauto.
Qed.

Section TryCase.
  Variables (body : stmt) (hasel : bool) (el : stmt) (hs : handlers) (st g : bst) (sg : state).
  Hypothesis Hi : inv st.
  Hypothesis Hw : wf (inl st) (Try body hasel el hs) = true.
  Hypothesis He : ext (visit true (Try body hasel el hs) st) g.
  Hypothesis HA : at_cur g st sg.
  Hypothesis HK : Kexc g (excs st) sg.

  Local Definition TN := nb st.
  Local Definition TE := S (S (nb st)).
  Local Definition T1 := newblock st.
  Local Definition T3 := newblock (newblock T1).
  Local Definition T5 := nextblock (push_exc (mk_excd TE None) T3).
  Local Definition T6 := nextblock (link_cur TE T5).
  Local Definition T7v := visit true body T6.
  Local Definition T7 := pop_exc T7v.
  Local Definition T8 := match cur T7 with
                         | None => T7
                         | Some _ => link_cur TN (if hasel then visit true el (nextblock T7) else T7) end.
  Local Definition T9r := visit_h true hs TN TE T8.
  Local Definition T10 := match excs (snd T9r) with
                          | x :: _ => add_edge (fst T9r) (x_entry x) (snd T9r)
                          | [] => snd T9r end.

  (* these are the states of P_FlowCFG.TryBuild (see tf_same) *)
  Lemma tr_same :
    let vb := visit true body in let ve := visit true el in let vh := visit_h true hs in
    T3 = try3 st /\ T5 = try5 st /\ T6 = try6 st /\ T7v = try7v vb st /\ T7 = try7 vb st /\
    T8 = try8 vb hasel ve st /\ T9r = try9 vb hasel ve vh st /\ T10 = try10 vb hasel ve vh st.
  Proof.
    unfold T10, T9r, T8, T7, T7v, T6, T5, T3, T1, TE, TN, try10, try9, try8, try7, try7v, try6, try5, try3.
    repeat split.
  Qed.
  Lemma tr_final : visit true (Try body hasel el hs) st = cur_if_parents TN T10.
  Proof. rewrite (proj2 (proj2 (proj2 (proj2 (proj2 (proj2 (proj2 tr_same))))))). apply visit_Try. Qed.
  Lemma tr_chain : linked st [T1; newblock T1; T3; T5; T6; T7v; T7; T8].
  Proof.
    destruct tr_same as (E3 & E5 & E6 & E7v & E7 & E8 & _). rewrite E3, E5, E6, E7v, E7, E8.
    apply try_links; apply visit_step.
  Qed.
  Lemma tr_R10 n Z : n <= S TN -> R n Z T1 -> R n Z T10 /\ fst T9r < nb (snd T9r).
  Proof.
    intros Hn H. destruct tr_same as (_ & _ & _ & _ & _ & _ & E9 & _).
    destruct (try_links9 (visit true body) hasel (visit true el) (visit_h true hs) st
                (visit_step body) (visit_step el) (fun N E X n Z => visit_h_R true hs N E X n Z) n Z Hn H) as [A B'].
    rewrite <- E9 in A, B'. split; [|exact B']. unfold T10. destruct (excs (snd T9r)); auto with bstep.
  Qed.
  Lemma tr_I1 : inv T1. Proof. exact (R_inv _ _ _ (R_newblock _ _ _ (R0 st Hi))). Qed.
  Lemma tr_I10 : inv T10.
  Proof using Hi Hw He. exact (R_inv _ _ _ (proj1 (tr_R10 0 T1 (Nat.le_0_l _) (R0 T1 tr_I1)))). Qed.

  Lemma tr_R38 : R (S TE) T3 T8.
  Proof.
    exact (grows_R _ _ _ (linked_grows _ _ (linked_from [T1; newblock T1] T3 _ st tr_chain))
             (R_inv _ _ _ (R_newblock _ _ _ (R_newblock _ _ _ (R0 T1 tr_I1)))) (le_n _)).
  Qed.
  Lemma tr_TE_lt : TE < nb T8. Proof. exact (proj1 (R_nb _ _ _ tr_R38)). Qed.
  Lemma tr_lenE : len T8 TE = 0.
  Proof. exact (fresh_empty (newblock T1) T8 (R_inv _ _ _ (R_newblock _ _ _ (R0 T1 tr_I1))) tr_R38). Qed.
  Lemma tr_lenN : len T10 TN = 0.
  Proof. exact (fresh_empty st T10 Hi (proj1 (tr_R10 (S TN) T1 (le_n _) (R_refl _ _ tr_I1 (le_n _))))). Qed.

  Lemma tr_mid : each (fun Y => inv Y /\ ext Y g) [T1; newblock T1; T3; T5; T6; T7v; T7; T8] /\
                 (inv (snd T9r) /\ ext (snd T9r) g) /\ ext T10 g.
  Proof.
    assert (E10 : ext T10 g) by (rewrite tr_final in He; exact He).
    assert (I8 : inv T8) by exact (R_inv _ _ _ (linked_grows _ _ tr_chain 0 st (R0 st Hi))).
    destruct (visit_h_R true hs TN TE T8 0 T8 (Nat.le_0_l _) tr_TE_lt (R0 T8 I8)) as (R89 & _).
    fold T9r in R89.
    assert (R910 : R 0 (snd T9r) T10).
    { pose proof (R0 _ (R_inv _ _ _ R89)). unfold T10. destruct (excs (snd T9r)); auto with bstep. }
    pose proof (ext_trans _ _ _ (R_ext _ _ _ R910) E10) as E9.
    split; [|split; [split; [exact (R_inv _ _ _ R89)|exact E9]|exact E10]].
    exact (proj2 (linked_each g _ st Hi tr_chain (ext_trans _ _ _ (R_ext _ _ _ R89) E9))).
  Qed.
  Lemma tr_incl_8F : incl (eds T8) (eds T10).
  Proof.
    destruct tr_mid as ((_ & _ & _ & _ & _ & _ & _ & [I8 _] & _) & _).
    destruct (visit_h_R true hs TN TE T8 0 T8 (Nat.le_0_l _) tr_TE_lt (R0 T8 I8)) as (R89 & _).
    eapply incl_tran; [exact (ext_edges _ _ (R_ext _ _ _ R89))|]. fold T9r. unfold T10.
    destruct (excs (snd T9r)); [apply incl_refl|apply incl_tl, incl_refl].
  Qed.
  Lemma tr_wf : wf (inl st) body = true /\ wf (inl st) el = true /\ wf_h (inl st) hs = true.
  Proof. simpl in Hw. apply andb_true_iff in Hw. destruct Hw as [H1 H2]. apply andb_true_iff in H1. tauto. Qed.

  Lemma tr_ceq6 : loops T6 = loops st /\ excs T6 = mk_excd TE None :: excs st.
  Proof.
    assert (H : ceq (push_exc (mk_excd TE None) T3) T6) by (unfold T6, T5; auto 6 with bkeep).
    destruct H as [A B']. rewrite A, B'. split; reflexivity.
  Qed.
  Lemma tr_ceq7 : ceq st T7.
  Proof.
    apply (ceq_pop_exc st (mk_excd TE None) T3); [unfold T3, T1; auto with bkeep|].
    unfold T7v, T6, T5. auto 6 with bkeep.
  Qed.
  Lemma tr_ceq8 : ceq st T8.
  Proof. pose proof tr_ceq7. unfold T8. destruct (cur T7); [destruct hasel|]; auto with bkeep. Qed.

  (* whatever reaches the handler entry also reaches the enclosing handler *)
  Lemma tr_outer s1 : P g TE 0 s1 -> Kexc g (excs st) s1.
  Proof.
    intros HP. destruct tr_mid as ((_ & _ & _ & _ & _ & _ & _ & [I8 _] & _) & [_ E9] & E10).
    destruct (hwalk g hs T8 TN TE s1 I8 tr_TE_lt tr_lenE E9 HP) as [PE' LE'].
    fold T9r in PE', LE'. unfold T10 in E10.
    pose proof (proj2 (visit_h_keeps true hs TN TE st T8 tr_ceq8)) as CE. fold T9r in CE. rewrite CE in E10.
    destruct (excs st) as [|x r]; simpl; auto.
    eapply (add_edge_sound g (snd T9r)); [exact E10|]. now rewrite LE'.
  Qed.

  Lemma tr_enter : at_cur g T6 sg /\ P g TE 0 sg.
  Proof.
    destruct tr_mid as ((_ & _ & [I3 _] & [I5 E5] & [_ E6] & _) & _).
    assert (A5 : at_cur g T5 sg).
    { apply at_cur_nextblock; [exact (R_inv 0 T3 _ (R_push_exc _ _ _ _ (R0 _ I3)))|exact E5|exact HA]. }
    destruct (linked_each g [link_cur TE T5; T6] T5 I5) as (_ & [IY EY] & _);
      [unfold T6; repeat apply conj; auto with bstep|exact E6|].
    destruct (link_cur_sound g T5 TE sg EY A5) as [PE _]. split; auto.
    apply at_cur_nextblock; [exact IY|exact E6|].
    destruct A5 as (b & Hc & HP). exists b. unfold link_cur. rewrite Hc. split; auto.
  Qed.

  Lemma tr_body t1 o1 s1 : sim_stmt body sg t1 o1 s1 ->
    Forall (justified g) t1 /\ post g T6 T7v o1 s1 /\ P g TE 0 s1 /\ Kexc g (excs st) s1.
  Proof.
    intros IH. destruct tr_enter as [A6 PE]. destruct tr_ceq6 as [CL CE].
    destruct tr_mid as ((_ & _ & _ & _ & [I6 _] & [_ E7v] & _) & _).
    destruct (IH T6 g I6) as [J1 P7]; [rewrite (inl_eq T6 st CL); apply tr_wf|exact E7v|exact A6|now rewrite CE|].
    fold T7v in P7. pose proof P7 as [K7 _]. rewrite CE in K7. simpl in K7.
    split; auto. split; auto. split; auto. apply tr_outer; auto.
  Qed.

  Lemma tr_norm t1 s1 : hasel = false -> sim_stmt body sg t1 ONorm s1 ->
    Forall (justified g) t1 /\ post g st (visit true (Try body hasel el hs) st) ONorm s1.
  Proof.
    intros Hh IH. destruct (tr_body t1 ONorm s1 IH) as (J1 & [_ A7] & PE & KO).
    split; auto. split; auto. rewrite tr_final.
    destruct tr_mid as ((_ & _ & _ & _ & _ & _ & _ & [_ E8] & _) & _).
    destruct A7 as (b & Hc & HP).
    assert (E : T8 = link_cur TN T7) by (unfold T8; change (cur T7) with (cur T7v); now rewrite Hc, Hh).
    rewrite E in E8.
    destruct (link_cur_sound g T7 TN s1 E8 (ex_intro _ b (conj Hc HP))) as [PN HPn].
    apply cip_sound; auto; [apply tr_lenN|]. eapply hp_mono; [apply tr_incl_8F|]. rewrite E. exact HPn.
  Qed.

  Lemma tr_else t1 s1 t2 o s2 : hasel = true -> sim_stmt body sg t1 ONorm s1 -> sim_stmt el s1 t2 o s2 ->
    Forall (justified g) (t1 ++ t2) /\ post g st (visit true (Try body hasel el hs) st) o s2.
  Proof.
    intros Hh IHb IHe. destruct (tr_body t1 ONorm s1 IHb) as (J1 & [_ A7] & PE & KO).
    destruct tr_mid as ((_ & _ & _ & _ & _ & _ & [I7 _] & [_ E8] & _) & _).
    destruct A7 as (b & Hc & HP).
    assert (E : T8 = link_cur TN (visit true el (nextblock T7))).
    { unfold T8. change (cur T7) with (cur T7v). now rewrite Hc, Hh. }
    rewrite E in E8.
    destruct (linked_each g [nextblock T7; visit true el (nextblock T7); link_cur TN (visit true el (nextblock T7))]
                T7 I7) as (_ & [IY EY] & _); [repeat apply conj; auto with bstep|exact E8|].
    destruct (sim_branch g st (nextblock T7) el TN T10 s1 t2 o s2) as [J2 Q]; auto.
    - pose proof tr_ceq7. auto with bkeep.
    - apply at_cur_nextblock; auto. exists b. split; auto.
    - apply tr_wf.
    - rewrite <- E. apply tr_incl_8F.
    - apply tr_lenN.
    - rewrite tr_final. split; [apply Forall_app; auto|exact Q].
  Qed.

  Lemma tr_prop t1 o s1 : o = OBrk \/ o = OCont \/ o = ORet -> sim_stmt body sg t1 o s1 ->
    Forall (justified g) t1 /\ post g st (visit true (Try body hasel el hs) st) o s1.
  Proof.
    intros Ho IH. destruct (tr_body t1 o s1 IH) as (J1 & P7 & PE & KO). split; auto.
    rewrite tr_final. destruct tr_mid as ((_ & _ & _ & _ & _ & [I7v _] & _) & _).
    apply (post_mono g T6 T7v (cur_if_parents TN T10)) in P7.
    - (* the body was visited with the loop stack of st and one more handler, which has no finally clause *)
      destruct tr_ceq6 as [CL CE]. destruct P7 as [_ P7]. split; [exact KO|].
      destruct Ho as [-> | [-> | ->]]; [rewrite CL in P7|rewrite CL in P7|rewrite CE in P7]; exact P7.
    - eapply incl_tran; [|apply tr_incl_8F].
      exact (linked_incl [T7; T8] T7v I7v (linked_from [T1; newblock T1; T3; T5; T6] T7v _ st tr_chain)).
    - destruct Ho as [-> | [-> | ->]]; discriminate.
  Qed.

  Lemma tr_exc t1 s1 t2 o s2 : sim_stmt body sg t1 OExc s1 -> sim_h hs s1 t2 o s2 ->
    Forall (justified g) (t1 ++ t2) /\ post g st (visit true (Try body hasel el hs) st) o s2.
  Proof.
    intros IHb IHh. destruct (tr_body t1 OExc s1 IHb) as (J1 & _ & PE & KO).
    destruct tr_ceq8 as [CL CE]. destruct tr_mid as ((_ & _ & _ & _ & _ & _ & _ & [I8 _] & _) & [_ E9] & _).
    destruct (IHh T8 g TN TE I8) as [J2 Q]; auto using tr_TE_lt, tr_lenE.
    - rewrite (inl_eq T8 st CL). apply tr_wf.
    - now rewrite CE.
    - fold T9r in Q. split; [apply Forall_app; auto|]. rewrite tr_final.
      assert (M : incl (eds (snd T9r)) (eds T10)).
      { unfold T10. destruct (excs (snd T9r)); [apply incl_refl|apply incl_tl, incl_refl]. }
      apply (post_ctx g st T8 _ o s2 CL CE), posth_end; [apply tr_lenN|].
      exact (posth_mono g T8 _ T10 TN o s2 M Q).
  Qed.
End TryCase.

Lemma sim_try_norm body el hs sg t1 s1 : sim_stmt body sg t1 ONorm s1 ->
  sim_stmt (Try body false el hs) sg t1 ONorm s1.
Proof. intros IH st g Hi Hw He HA HK. eapply tr_norm; eauto. Qed.
Lemma sim_try_else body el hs sg t1 s1 t2 o s2 : sim_stmt body sg t1 ONorm s1 -> sim_stmt el s1 t2 o s2 ->
  sim_stmt (Try body true el hs) sg (t1 ++ t2) o s2.
Proof. intros IHb IHe st g Hi Hw He HA HK. eapply tr_else; eauto. Qed.
Lemma sim_try_exc body h el hs sg t1 s1 t2 o s2 : sim_stmt body sg t1 OExc s1 -> sim_h hs s1 t2 o s2 ->
  sim_stmt (Try body h el hs) sg (t1 ++ t2) o s2.
Proof. intros IHb IHh st g Hi Hw He HA HK. eapply tr_exc; eauto. Qed.
Lemma sim_try_prop body h el hs sg t1 o s1 : o = OBrk \/ o = OCont \/ o = ORet -> sim_stmt body sg t1 o s1 ->
  sim_stmt (Try body h el hs) sg t1 o s1.
Proof. intros Ho IH st g Hi Hw He HA HK. eapply tr_prop; eauto. Qed.

Theorem sim_all : forall it sg tr o s2, exec it sg tr o s2 ->
  match it with
  | IS s => sim_stmt s sg tr o s2
  | IL f c tg body h el => sim_loop f c tg body h el sg tr o s2
  | IH hs => sim_h hs sg tr o s2
  end.
Proof.
  induction 1.
  - apply sim_skip. - apply sim_call. - apply sim_call_exc. - apply sim_ref. - apply sim_asg.
  - now apply sim_del. - now apply sim_del_exc.
  - eapply sim_seq; eauto. - eapply sim_seq_stop; eauto.
  - now apply sim_if_exc. - eapply sim_if_then; eauto. - eapply sim_if_else; eauto.
  - now apply sim_if_skip.
  - now apply sim_while. - now apply sim_for_exc. - eapply sim_for; eauto.
  - now apply sim_loop_exc. - now apply sim_loop_exit. - eapply sim_loop_else; eauto.
  - eapply sim_loop_iter; eauto. - eapply sim_loop_break; eauto. - eapply sim_loop_prop; eauto.
  - now apply sim_try_norm. - eapply sim_try_else; eauto. - eapply sim_try_exc; eauto.
  - eapply sim_try_prop; eauto.
  - apply sim_h_nil. - now apply sim_h_match. - now apply sim_h_skip.
  - eapply sim_tryfin_exc; eauto. - eapply sim_tryfin_other; eauto.
  - apply sim_break. - apply sim_continue. - apply sim_return. - apply sim_raise.
Qed.

Definition s_init : state := fun _ => false.

(* the Argument assignments in the body block *)
Lemma args_grows args : forall X, grows X (fold_left (fun st r => append (LAsg (fst r) (snd r)) st) args X).
Proof. induction args as [|[l e] args IH]; intros X n Z H; simpl; [exact H|]. apply IH. auto with bstep. Qed.
Lemma args_keeps args : forall a X, ceq a X ->
  ceq a (fold_left (fun st r => append (LAsg (fst r) (snd r)) st) args X).
Proof. induction args as [|[l e] args IH]; intros a X H; simpl; [exact H|]. apply IH. auto with bkeep. Qed.
Lemma args_at_cur g args : forall X sg, inv X ->
  ext (fold_left (fun st r => append (LAsg (fst r) (snd r)) st) args X) g -> at_cur g X sg ->
  at_cur g (fold_left (fun st r => append (LAsg (fst r) (snd r)) st) args X) (bind args sg).
Proof.
  induction args as [|[l e] args IH]; intros X sg Hi He HA; simpl in *; [exact HA|].
  destruct (linked_each g [append (LAsg l e) X; fold_left (fun st r => append (LAsg (fst r) (snd r)) st) args
                                                  (append (LAsg l e) X)] X Hi) as (_ & [I1 E1] & _);
    [repeat apply conj; auto using args_grows with bstep|exact He|].
  apply IH; auto. exact (at_cur_append g X (LAsg l e) sg E1 HA).
Qed.

(* Every read (or del) of a name that happens while the name is unbound, in any execution of the
   function body, is a reference statement of the built graph at a position that some path from the
   entry point reaches with the name unbound. *)
Theorem cfg_covers_paths args body tr o s2 :
  wf false body = true ->
  exec (IS body) (bind args s_init) tr o s2 ->
  Forall (justified (build true args body)) tr.
Proof.
  intros Hw Hex. set (g := build true args body). set (X00 := mk_bst 2 [] [] (Some 0) [] []).
  assert (I00 : inv X00) by (split; simpl; [intros p []|intros b Hb; inversion Hb; lia]).
  assert (L : linked X00 [nextblock X00; st_init args; visit true body (st_init args); g]).
  { unfold g, build, st_init. fold X00. repeat apply conj; auto using args_grows with bstep. }
  destruct (linked_each g _ X00 I00 L (ext_refl g)) as (_ & [I0 E0] & [Iv Ei] & [_ Eg] & _).
  assert (A0 : at_cur g (nextblock X00) s_init).
  { exists 2. split; [reflexivity|]. apply (P_edge g 0 0 2); [apply P_entry|].
    apply (ext_edges _ _ E0). simpl. auto. }
  destruct (args_keeps args X00 (nextblock X00)) as [CL CE]; [auto with bkeep|].
  destruct (sim_all _ _ _ _ _ Hex (st_init args) g Iv) as [J _]; auto.
  - unfold inl. unfold st_init. fold X00. now rewrite CL.
  - now apply args_at_cur.
  - unfold st_init. fold X00. now rewrite CE.
Qed.
