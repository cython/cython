(* C25 proofs: precedence table, refutation witnesses for the printer as found (print false), qualified names
   (the read-back theorem for the repaired printer is in P_ExprPrint_Read.v). *)
From Coq Require Import List NArith Bool Arith Lia.
From CyVerif Require Import Gen.Gen_Prec Model.M_ExprPrint.
Import ListNotations.
Open Scope nat_scope.

(* ------------------------------------------------------------------ the table *)
(* Python's documented operator precedence (reference manual 6.17), as levels of the
   expression grammar, lowest binding first *)
Definition py_level_bin (o : binop) : nat :=
  match o with
  | BOr => 5 | BXor => 6 | BAnd => 7 | BLShift | BRShift => 8 | BAdd | BSub => 9
  | BMul | BMatMul | BDiv | BFloorDiv | BMod => 10 | BPow => 12
  end.
Definition all_binops := [BAdd; BSub; BMul; BMatMul; BDiv; BFloorDiv; BMod; BLShift; BRShift; BAnd; BOr; BXor; BPow].
Definition all_cmpops := [CLt; CLe; CGt; CGe; CEq; CNe; CIn; CNotIn; CIs; CIsNot].
Definition all_unops := [UNeg; UPos; UInv].

Definition table_ok : bool :=
  forallb (fun o => prec_bin o =? py_level_bin o) all_binops &&
  forallb (fun o => prec_cmp o =? 4) all_cmpops &&
  forallb (fun o => prec_un o =? 11) all_unops &&
  (prec_bool LOr =? 1) && (prec_bool LAnd =? 2) && (prec_not =? 3) &&
  (test_prec =? 0) && (atom_prec =? 13).

Lemma table_ok_true : table_ok = true.
Proof. vm_compute. reflexivity. Qed.

Lemma prec_bin_py : forall o, prec_bin o = py_level_bin o.
Proof. destruct o; vm_compute; reflexivity. Qed.
Lemma prec_cmp_py : forall o, prec_cmp o = 4.
Proof. destruct o; vm_compute; reflexivity. Qed.
Lemma prec_un_py : forall o, prec_un o = 11.
Proof. destruct o; vm_compute; reflexivity. Qed.
Lemma prec_bool_py : forall o, prec_bool o = match o with LOr => 1 | LAnd => 2 end.
Proof. destruct o; vm_compute; reflexivity. Qed.
Lemma prec_not_py : prec_not = 3. Proof. vm_compute; reflexivity. Qed.
Lemma test_prec_py : test_prec = 0. Proof. vm_compute; reflexivity. Qed.
Lemma atom_prec_py : atom_prec = 13. Proof. vm_compute; reflexivity. Qed.

Lemma prec_table_is_pythons :
  (forall o, prec_bin o = py_level_bin o) /\ (forall o, prec_cmp o = 4) /\ (forall o, prec_un o = 11) /\
  prec_bool LOr = 1 /\ prec_bool LAnd = 2 /\ prec_not = 3.
Proof.
  repeat split; auto using prec_bin_py, prec_cmp_py, prec_un_py, prec_not_py; apply prec_bool_py.
Qed.

(* ------------------------------------------------------------------ witnesses against the printer as found *)
Definition na := EName [97%N]. Definition nb := EName [98%N]. Definition nc := EName [99%N].
Definition bad (e : expr) : Prop :=
  wf e = true /\ exists e', reparse 1000 (print false e) = RExpr e' /\ expr_eqb e e' = false.
Definition w_sub := EBin BSub na (EBin BSub nb nc).               (* a - (b - c)       -> a - b - c *)
Definition w_pow := EBin BPow (EBin BPow na nb) nc.               (* (a ** b) ** c     -> a ** b ** c *)
Definition w_divmul := EBin BDiv na (EBin BMul nb nc).            (* a / (b * c)       -> a / b * c *)
Definition w_cond := EBin BAdd (ECond na nb nc) (ENum KInt false [49%N]).  (* (a if b else c) + 1 *)
Definition w_casc := ECmp na CLt nb (CCons CLt nc CNil).          (* a < b < c         -> a < b *)
Definition w_cmpcmp := ECmp (ECmp na CLt nb CNil) CLt nc CNil.    (* (a < b) < c       -> a < b < c *)
Definition w_lam := ELambda [[113%N]] (EName [113%N]).            (* lambda q: q       -> ... *)
Definition w_tup := ETuple (ECons na ENil).                       (* (a,)              -> (a) *)
Definition w_attr := EAttr (EBin BAdd na nb) [99%N].              (* (a + b).c         -> a + b.c *)
Definition w_negpow := EBin BPow (ENum KInt true [49%N]) na.      (* (-1) ** a         -> -1 ** a *)
Definition w_seqmul := EBin BMul (EList (ECons na ENil)) nb.      (* [a] * b           -> [a, b] *)

Lemma old_refuted : bad w_sub /\ bad w_pow /\ bad w_divmul /\ bad w_cond /\ bad w_casc /\ bad w_cmpcmp /\
                    bad w_lam /\ bad w_tup /\ bad w_attr /\ bad w_negpow /\ bad w_seqmul.
Proof.
  repeat split; try (vm_compute; reflexivity); eexists; split; vm_compute; reflexivity.
Qed.

Lemma old_cond_syntax_error :    (* a if (b if c else d) else e is printed as text that does not parse at all *)
  reparse 1000 (print false (ECond na (ECond nb nc na) nb)) = RError.
Proof. vm_compute. reflexivity. Qed.

(* the repaired printer on the same witnesses *)
Lemma new_on_witnesses :
  forallb (fun e => match reparse 1000 (print true e) with RExpr e' => expr_eqb e e' | _ => false end)
    [w_sub; w_pow; w_divmul; w_cond; w_casc; w_cmpcmp; w_lam; w_tup; w_attr; w_negpow; w_seqmul;
     ECond na (ECond nb nc na) nb] = true.
Proof. vm_compute. reflexivity. Qed.

(* ------------------------------------------------------------------ qualified names *)
(* glob only under function/lambda parents and never on lambdas (what the generator produces
   and what the two rules are compared on) *)
Fixpoint swf (infunc : bool) (s : scope) : bool :=
  match s with
  | Scope k _ glob ch =>
      (negb glob || (infunc && match k with KLam => false | _ => true end)) &&
      swfs (match k with KClass => false | _ => true end) ch
  end
with swfs (infunc : bool) (l : scopes) : bool :=
  match l with SNil => true | SCons s l' => swf infunc s && swfs infunc l' end.

(* invariant tying the transform's state to the rule's parent *)
Definition st_ok (st : qname) (infunc : bool) (parent : option (skind * qname)) : Prop :=
  match parent with
  | None => st = [] /\ infunc = false
  | Some (KClass, pq) => st = pq /\ infunc = false
  | Some (_, pq) => st = pq ++ [locals_t] /\ infunc = true
  end.

Scheme scope_mut := Induction for scope Sort Prop
with scopes_mut := Induction for scopes Sort Prop.

Combined Scheme scope_scopes_ind from scope_mut, scopes_mut.

Lemma qual_walk_both :
  (forall s st infunc parent, st_ok st infunc parent -> swf infunc s = true ->
        cy_walk true st infunc s = rule_walk parent s) /\
  (forall l st infunc parent, st_ok st infunc parent -> swfs infunc l = true ->
        cy_walks true st infunc l = rule_walks parent l).
Proof.
  apply scope_scopes_ind.
  - intros k name glob ch IH st infunc parent Hst Hwf.
    cbn [cy_walk rule_walk swf] in *.
    apply andb_true_iff in Hwf. destruct Hwf as [Hg Hch].
    assert (Hq : cy_node_qualname true st infunc k name glob = rule_qualname parent k name glob /\
                 st_ok (cy_child_state true st infunc k name glob)
                       (match k with KClass => false | _ => true end)
                       (Some (k, rule_qualname parent k name glob))).
    { destruct parent as [[pk pq]|]; cbn [st_ok] in Hst.
      - destruct pk; destruct Hst as [-> ->]; destruct k; destruct glob; cbn in Hg; try discriminate;
          cbn [cy_node_qualname cy_child_state rule_qualname st_ok sname andb];
          rewrite <- ?app_assoc; cbn [app]; auto.
      - destruct Hst as [-> ->]. destruct k; destruct glob; cbn in Hg; try discriminate;
          cbn [cy_node_qualname cy_child_state rule_qualname st_ok sname andb app]; auto. }
    destruct Hq as [Hq Hst']. rewrite Hq. f_equal.
    apply IH; assumption.
  - intros; reflexivity.
  - intros s IHs l IHl st infunc parent Hst Hwf.
    cbn [cy_walks rule_walks swfs] in *. apply andb_true_iff in Hwf. destruct Hwf as [H1 H2].
    rewrite (IHs _ _ _ Hst H1), (IHl _ _ _ Hst H2). reflexivity.
Qed.

Lemma qualname_eq_fixed : forall l, swfs false l = true -> cy_module true l = rule_module l.
Proof.
  intros l H. unfold cy_module, rule_module. apply (proj2 qual_walk_both); [split; reflexivity | exact H].
Qed.

(* the transform as found (fixed = false): a def under a global declaration inside a function keeps the prefix *)
Definition w_scopes : scopes :=
  SCons (Scope KFunc [111%N] false (SCons (Scope KFunc [103%N] true (SCons (Scope KFunc [104%N] false SNil) SNil)) SNil)) SNil.
Lemma qualname_old_refuted : swfs false w_scopes = true /\ cy_module false w_scopes <> rule_module w_scopes.
Proof. split; [reflexivity | vm_compute; discriminate]. Qed.
(* ... and is right on every forest without such a def *)
Fixpoint no_glob_def (s : scope) : bool :=
  match s with Scope k _ glob ch => negb (match k with KFunc => glob | _ => false end) && no_glob_defs ch end
with no_glob_defs (l : scopes) : bool :=
  match l with SNil => true | SCons s l' => no_glob_def s && no_glob_defs l' end.
Lemma qual_old_new_both :
  (forall s st infunc, no_glob_def s = true -> cy_walk false st infunc s = cy_walk true st infunc s) /\
  (forall l st infunc, no_glob_defs l = true -> cy_walks false st infunc l = cy_walks true st infunc l).
Proof.
  apply scope_scopes_ind.
  - intros k name glob ch IH st infunc H. cbn [no_glob_def] in H. apply andb_true_iff in H. destruct H as [Hg Hc].
    cbn [cy_walk].
    assert (E1 : cy_node_qualname false st infunc k name glob = cy_node_qualname true st infunc k name glob)
      by (destruct k; destruct glob; try discriminate; destruct infunc; reflexivity).
    assert (E2 : cy_child_state false st infunc k name glob = cy_child_state true st infunc k name glob)
      by (destruct k; destruct glob; try discriminate; destruct infunc; reflexivity).
    rewrite E1, E2, IH by exact Hc. reflexivity.
  - reflexivity.
  - intros s IHs l IHl st infunc H. cbn [no_glob_defs] in H. apply andb_true_iff in H. destruct H as [H1 H2].
    cbn [cy_walks]. rewrite IHs, IHl by assumption. reflexivity.
Qed.
Lemma qualname_eq_old_partial : forall l, swfs false l = true -> no_glob_defs l = true ->
  cy_module false l = rule_module l.
Proof.
  intros l H G. unfold cy_module. rewrite (proj2 qual_old_new_both) by exact G. apply qualname_eq_fixed. exact H.
Qed.
