(* C33 -- text codecs of the string conversions (Model/M_Convert.v, strings section).
   The UTF-8 table and the strict decoder are those of C18 (Model/M_IntFmt.v utf8_ref /
   utf8_decode, over Z); P_IntFmtUtf8.decode_flat and decode_inv relate the two on whole strings.
   Here that is carried over to the codec of the model (over N), in both directions:
     decode (encode s) = s   for every string the codec accepts  (Python -> C -> Python)
     encode (decode b) = b   for every byte string the decoder accepts (C -> Python -> C, the
                             codec_law hypothesis of P_Convert.to_from, discharged in to_from_closed). *)
From Coq Require Import ZArith NArith List Bool Lia ZifyBool ZifyNat ZifyN.
From CyVerif Require Import Lib.CInt Model.M_Convert Proof.P_Convert.
From CyVerif Require Model.M_IntFmt Proof.P_IntFmtUtf8.
Import ListNotations.
Open Scope Z_scope.

Module F := M_IntFmt.
Module U := P_IntFmtUtf8.

Lemma zs_ns l : Forall (fun z => 0 <= z) l -> zs (ns l) = l.
Proof.
  induction 1 as [|z r Hz _ IH]; [reflexivity|].
  unfold zs, ns in *. cbn [map]. rewrite IH, Z2N.id by exact Hz. reflexivity.
Qed.

Lemma encodable_scalar c : encodable c = true <-> U.scalar (Z.of_N c).
Proof. unfold encodable, M_Convert.is_surrogate, U.scalar, F.is_surrogate. lia. Qed.

Lemma encodable_zs s : forallb encodable s = true <-> Forall U.scalar (zs s).
Proof.
  unfold zs. rewrite forallb_forall, Forall_map, Forall_forall.
  split; intros H c Hc; apply encodable_scalar, H, Hc.
Qed.

Lemma flat_ref_bytes zl : Forall U.scalar zl -> Forall (fun b => 0 <= b) (flat_map F.utf8_ref zl).
Proof.
  induction 1 as [|cp r Hv _ IH]; [constructor|]. cbn [flat_map]. apply Forall_app. split; [|exact IH].
  eapply Forall_impl; [|apply (U.ref_bytes cp Hv)]. cbn. intros; lia.
Qed.

(* Python -> C -> Python: decode (encode s) = s for every accepted string *)
Theorem utf8_decode_encode s b : utf8_encode s = Ok b -> utf8_decode b = Ok s.
Proof.
  rewrite utf8_encode_char. destruct (forallb encodable s) eqn:A; [|discriminate]. intros [= <-].
  pose proof (proj1 (encodable_zs s) A) as V. unfold utf8_decode.
  rewrite (zs_ns _ (flat_ref_bytes _ V)), (U.decode_flat _ V), ns_zs. reflexivity.
Qed.

(* rejection: exactly the strings holding a lone surrogate (or a value that is no code point),
   and always UnicodeEncodeError *)
Theorem utf8_encode_rejects s e :
  utf8_encode s = Err e <-> e = UnicodeEncodeError /\ exists c, In c s /\ encodable c = false.
Proof.
  rewrite utf8_encode_char. destruct (forallb encodable s) eqn:A.
  - split; [discriminate|]. intros (_ & c & Hc & Hf). rewrite forallb_forall in A.
    rewrite (A c Hc) in Hf. discriminate.
  - split; [|intros [-> _]; reflexivity]. intros [= <-]. split; [reflexivity|].
    induction s as [|c r IH]; [discriminate|]. cbn [forallb] in A.
    destruct (encodable c) eqn:Ec.
    + destruct (IH A) as (c' & Hin & Hf). exists c'. split; [right; exact Hin|exact Hf].
    + exists c. split; [left; reflexivity|exact Ec].
Qed.

(* C -> Python -> C: encode (decode b) = b for every byte string the strict decoder accepts *)
Theorem utf8_codec_law : codec_law EUtf8.
Proof.
  intros b s. cbn [decode_with encode_with cd_dec cd_enc utf8_codec]. unfold utf8_decode.
  destruct (F.utf8_decode (zs b)) as [zl|] eqn:D; [|discriminate]. intros [= <-].
  destruct (U.decode_inv zl (zs b) D) as [E V].
  assert (P : zs (ns zl) = zl) by (apply zs_ns; eapply Forall_impl; [|exact V]; intros z [H _]; lia).
  rewrite utf8_encode_char, (proj2 (encodable_zs _)), P, E, ns_zs; [reflexivity|]. rewrite P. exact V.
Qed.

(* the encoded form has a NUL byte exactly where the text has U+0000 *)
Lemma utf8_encode_nul s b : utf8_encode s = Ok b -> (In 0%N b <-> In 0%N s).
Proof.
  revert b. induction s as [|c r IH]; intros b; cbn [utf8_encode].
  - intros [= <-]. reflexivity.
  - destruct (utf8_enc1 c) as [bs|] eqn:E1; [|discriminate].
    destruct (utf8_encode r) as [t|] eqn:Er; [|discriminate]. intros [= <-].
    specialize (IH t eq_refl). rewrite in_app_iff. cbn [In]. rewrite IH.
    assert (Hb : In 0%N bs <-> c = 0%N); [|tauto].
    unfold utf8_enc1 in E1. destruct (encodable c); [|discriminate]. injection E1 as <-.
    destruct (N.ltb_spec c 128) as [L|G].
    + rewrite (utf8_ref_ascii c L). cbn [In]. split; [intros [H|[]]; exact H|intros ->; left; reflexivity].
    + split; [|intros ->; lia]. intros H. unfold ns in H. apply in_map_iff in H as (z & Hz & Hin).
      pose proof (U.ref_high (Z.of_N c) ltac:(lia)) as Hh. rewrite Forall_forall in Hh.
      specialize (Hh z Hin). lia.
Qed.

Definition codec_inv (e : senc) : Prop :=
  forall s b, encode_with e s = Ok b -> decode_with e b = Ok s.

Lemma ascii_codec_inv : codec_inv EAscii.
Proof.
  intros s b. cbn. destruct (all_ascii s) eqn:A; [|discriminate]. intros [= <-]. rewrite A. reflexivity.
Qed.

Lemma utf8_codec_inv : codec_inv EUtf8.
Proof. intros s b. cbn. apply utf8_decode_encode. Qed.

Lemma accepted_codec_inv e : str_accepts_unicode e = true -> codec_inv e.
Proof. destruct e; try discriminate; intros _; [apply ascii_codec_inv|apply utf8_codec_inv]. Qed.

Lemma accepted_codec_law e : str_accepts_unicode e = true -> codec_law e.
Proof. destruct e; try discriminate; intros _; [apply ascii_codec_law|apply utf8_codec_law]. Qed.

(* what s.encode(E) can raise *)
Lemma encode_with_error e s x : str_accepts_unicode e = true ->
  encode_with e s = Err x -> x = UnicodeEncodeError.
Proof.
  destruct e; try discriminate; intros _; cbn.
  - destruct (all_ascii s); [discriminate|]. intros [= <-]. reflexivity.
  - intros H. apply utf8_encode_rejects in H as [-> _]. reflexivity.
Qed.

(* PyUnicode_AsUTF8AndSize accepts exactly the strings without lone surrogates *)
Lemma api_exact_encodable a e s : forallb encodable s = true -> api_exact a e s.
Proof. intros H _ _. rewrite utf8_encode_char, H. eexists; reflexivity. Qed.

(* ascii: accepted iff every code point is below 128; then the bytes are the code points *)
Theorem ascii_decision a s : api_exact a EAscii s ->
  unicode_asas a EAscii s = if all_ascii s then Ok (s, length s) else Err UnicodeEncodeError.
Proof. intros Hx. rewrite asas_spec by (reflexivity || exact Hx). cbn. destruct (all_ascii s); reflexivity. Qed.

(* utf8: accepted iff encodable; the length is the number of BYTES and the bytes decode back *)
Theorem utf8_decision a s :
  (forall b n, unicode_asas a EUtf8 s = Ok (b, n) ->
     n = length b /\ utf8_decode b = Ok s /\ forallb encodable s = true) /\
  (forall x, unicode_asas a EUtf8 s = Err x ->
     x = UnicodeEncodeError /\ exists c, In c s /\ encodable c = false).
Proof.
  rewrite asas_spec by (reflexivity || (intros _ H; discriminate)).
  cbn [encode_with cd_enc utf8_codec]. split.
  - intros b n. destruct (utf8_encode s) as [b'|] eqn:E; [|discriminate]. cbn [rmap]. intros [= <- <-].
    split; [reflexivity|]. split; [apply utf8_decode_encode; exact E|].
    rewrite utf8_encode_char in E. destruct (forallb encodable s); [reflexivity|discriminate].
  - intros x. destruct (utf8_encode s) as [b'|x'] eqn:E; [discriminate|]. cbn [rmap]. intros [= <-].
    apply utf8_encode_rejects. exact E.
Qed.

(* end to end: def f(T x): return x on a str argument *)
(* std::string, every c_string_type: from_string_and_size (s.encode(E)) *)
Theorem string_bytes_of_str a sc s : api_exact a (sc_enc sc) s ->
  string_roundtrip_l a sc (PStr s) =
    bind (encode_with (sc_enc sc) s) (from_string_and_size sc).
Proof.
  intros Hx. unfold string_roundtrip_l, string_from_py_l. rewrite as_string_and_size_str by exact Hx.
  destruct (encode_with (sc_enc sc) s); reflexivity.
Qed.

(* char*: the same bytes, cut at the first NUL by strlen *)
Theorem charp_of_str a sc s : api_exact a (sc_enc sc) s ->
  charp_roundtrip_l a sc (PStr s) =
    bind (encode_with (sc_enc sc) s) (fun b => from_string_and_size sc (until_nul b)).
Proof.
  intros Hx. unfold charp_roundtrip_l. rewrite charp_from_py_str by exact Hx.
  destruct (encode_with (sc_enc sc) s); reflexivity.
Qed.

(* c_string_type=str: the encoded text is decoded back to the text *)
Lemma built_of_encoded sc s b : sc_type sc = SUnicode -> str_accepts_unicode (sc_enc sc) = true ->
  encode_with (sc_enc sc) s = Ok b -> from_string_and_size sc b = Ok (PStr s).
Proof.
  intros Ht Ha E. unfold from_string_and_size. rewrite Ht, (accepted_codec_inv _ Ha s b E). reflexivity.
Qed.

(* std::string: the text itself or UnicodeEncodeError; NULs included *)
Theorem string_str_roundtrip a sc s : api_exact a (sc_enc sc) s ->
  sc_type sc = SUnicode -> str_accepts_unicode (sc_enc sc) = true ->
  string_roundtrip_l a sc (PStr s) =
    match encode_with (sc_enc sc) s with Ok _ => Ok (PStr s) | Err _ => Err UnicodeEncodeError end.
Proof.
  intros Hx Ht Ha. rewrite string_bytes_of_str by exact Hx.
  destruct (encode_with (sc_enc sc) s) as [b|x] eqn:E; cbn [bind].
  - exact (built_of_encoded sc s b Ht Ha E).
  - rewrite (encode_with_error _ s x Ha E). reflexivity.
Qed.

Lemma encode_with_nul e s b : encode_with e s = Ok b -> (In 0%N b <-> In 0%N s).
Proof.
  destruct e; cbn; try discriminate.
  - destruct (all_ascii s); [|discriminate]. intros [= <-]. reflexivity.
  - apply utf8_encode_nul.
Qed.

(* char*: the same on NUL-free text *)
Theorem charp_str_roundtrip a sc s : api_exact a (sc_enc sc) s ->
  sc_type sc = SUnicode -> str_accepts_unicode (sc_enc sc) = true -> ~ In 0%N s ->
  charp_roundtrip_l a sc (PStr s) =
    match encode_with (sc_enc sc) s with Ok _ => Ok (PStr s) | Err _ => Err UnicodeEncodeError end.
Proof.
  intros Hx Ht Ha Hn. rewrite charp_of_str by exact Hx.
  destruct (encode_with (sc_enc sc) s) as [b|x] eqn:E; cbn [bind].
  - rewrite until_nul_id by (rewrite (encode_with_nul _ s b E); exact Hn).
    exact (built_of_encoded sc s b Ht Ha E).
  - rewrite (encode_with_error _ s x Ha E). reflexivity.
Qed.

(* nested types without the codec hypothesis *)
Theorem to_from_closed sc : (sc_type sc = SUnicode -> str_accepts_unicode (sc_enc sc) = true) ->
  forall t c v, wf sc t c -> to_py sc t c = Ok v -> from_py sc t v = Ok c.
Proof. intros H. apply to_from. intros Ht. apply accepted_codec_law, H, Ht. Qed.
