(* C22 -- the compiler's exception-state scheme refines CPython's semantics (all statements,
   with-blocks included).
   Induction on statements (mutual with handler lists); invariant Rel: same core (heap, names,
   log), the scheme's top exc_info item is the reference one or (unrepaired ExceptionSave, nothing
   in the reference top item) the topmost value underneath, and live handler temps hold the
   exception in the reference top item. *)
From Coq Require Import List Bool Arith Lia.
From CyVerif Require Import Model.M_Exc.
Import ListNotations.

Lemma let_pair (A B C : Type) (p : A * B) (k : A -> B -> C) :
  (let (x, y) := p in k x y) = k (fst p) (snd p).
Proof. destruct p; reflexivity. Qed.

(* the reference semantics never produces the scheme-only outcome *)
Lemma lift_raise_internal_oc c st : exists e, fst (lift (raise_internal c) st) = ORaise e.
Proof. unfold lift, raise_internal, alloc, raise_with. simpl. eauto. Qed.

Lemma lift_do_raise_oc w cz st : exists e, fst (lift (do_raise w cz) st) = ORaise e.
Proof.
  unfold lift, do_raise, raise_internal, alloc, raise_with.
  destruct w; simpl.
  - destruct cz; simpl; eauto. destruct (lookup x _); simpl; eauto.
  - destruct (lookup x _); simpl; eauto.
    destruct cz; simpl; eauto. destruct (lookup x0 _); simpl; eauto.
Qed.

Lemma after_no_crash o o2 : o <> OCrash -> o2 <> OCrash -> after o o2 <> OCrash.
Proof. destruct o2; simpl; auto. Qed.

(* ReraiseStatNode with live handler temps *)
Lemma reraise_sch_live b c e : cur c = Some (Some e) ->
  reraise_sch b c = (ORaise e, set_cur (Some (if b then Some e else None)) c).
Proof.
  intros H. unfold reraise_sch. rewrite H. destruct b; [|reflexivity].
  destruct c; simpl in *; subst; reflexivity.
Qed.

Scheme stmt_mind := Induction for stmt Sort Prop
  with handlers_mind := Induction for handlers Sort Prop.
Combined Scheme stmt_handlers_ind from stmt_mind, handlers_mind.

(* the same for the desugared language (P_ExcLab, P_ExcVars) *)
Scheme cstmt_mind := Induction for cstmt Sort Prop
  with chandlers_mind := Induction for chandlers Sort Prop.
Combined Scheme cstmt_chandlers_ind from cstmt_mind, chandlers_mind.

Lemma lift_raise_internal_nc c st : fst (lift (raise_internal c) st) <> OCrash.
Proof. destruct (lift_raise_internal_oc c st) as [e ->]. discriminate. Qed.

Lemma bind_no_crash (p : oc * state) (k : oc -> state -> oc * state) :
  fst p <> OCrash -> (forall o r1, o <> OCrash -> fst (k o r1) <> OCrash) ->
  fst (let (o, r1) := p in k o r1) <> OCrash.
Proof. destruct p as [o r1]. intros H K. exact (K o r1 H). Qed.

Lemma ref_no_crash :
  (forall s r, fst (exec_ref s r) <> OCrash) /\
  (forall hs e r, fst (handle_ref hs e r) <> OCrash).
Proof.
  apply stmt_handlers_ind; simpl; intros; try discriminate.
  - destruct (lift_do_raise_oc w cz r) as [e ->]. discriminate.
  - unfold reraise_dynamic. destruct (handled r); simpl; discriminate.
  - apply bind_no_crash; [apply H|]. intros [] r1 N; auto; discriminate.
  - apply bind_no_crash; [apply H|]. intros [] r1 N; auto; discriminate.
  - apply bind_no_crash; [apply H|]. intros o r1 N.
    destruct o; try congruence; (apply bind_no_crash; [apply H0|]); intros o2 r2 N2; simpl;
      apply after_no_crash; auto; discriminate.
  - apply bind_no_crash; [apply H|]. intros o r1 N.
    destruct o, x; simpl; try congruence; try discriminate; try apply lift_raise_internal_nc.
  - revert r. induction n; intros r; simpl; try discriminate.
    apply bind_no_crash; [apply H|]. intros [] r1 N; auto; discriminate.
  - destruct (pat_matches pat (cls_of r e)); auto.
    apply bind_no_crash; [apply H | auto].
Qed.

Section Main.
Variables fx sx : bool.

Definition top_rel (b tr tc : option nat) : Prop :=
  tc = tr \/ (sx = false /\ tr = None /\ tc = b).

Definition Rel (r c : state) : Prop :=
  co r = co c /\ below r = below c /\ top_rel (below c) (top r) (top c) /\
  (forall e, cur c = Some (Some e) -> top r = Some e) /\
  (fx = true -> cur c <> Some None).

Definition shape (c c' : state) : Prop :=
  cur c' = cur c \/ (fx = false /\ cur c' = Some None /\ cur c <> None).

Definition Post (r c r' c' : state) : Prop :=
  Rel r' c' /\ wx c' = wx c /\ shape c c' /\ below c' = below c /\ top r' = top r.

Definition Res (pr pc : oc * state) (r c : state) : Prop :=
  (fx = false /\ fst pc = OCrash) \/ (fst pc = fst pr /\ Post r c (snd pr) (snd pc)).

Lemma rel_handled r c : Rel r c -> handled r = handled c.
Proof.
  intros (_ & Hb & Ht & _ & _). unfold handled.
  destruct Ht as [-> | (_ & -> & ->)].
  - rewrite Hb. reflexivity.
  - rewrite Hb. destruct (below c); reflexivity.
Qed.

Lemma shape_refl c : shape c c.
Proof. left; reflexivity. Qed.

Lemma shape_trans a b c : shape a b -> shape b c -> shape a c.
Proof.
  unfold shape. intros [H1 | (F1 & H1 & N1)] [H2 | (F2 & H2 & N2)].
  - left; congruence.
  - right; repeat split; auto. congruence.
  - right; repeat split; auto. congruence.
  - right; repeat split; auto.
Qed.

Lemma post_refl r c : Rel r c -> Post r c r c.
Proof. intros H. repeat split; auto using shape_refl; apply H. Qed.

Lemma post_trans r c r1 c1 r2 c2 : Post r c r1 c1 -> Post r1 c1 r2 c2 -> Post r c r2 c2.
Proof.
  intros (R1 & W1 & S1 & B1 & T1) (R2 & W2 & S2 & B2 & T2).
  repeat split; try apply R2; try congruence. eapply shape_trans; eauto.
Qed.

Lemma res_ret o r c r1 c1 : Post r c r1 c1 -> Res (o, r1) (o, c1) r c.
Proof. right; split; auto. Qed.

Lemma res_trans r c r1 c1 pr pc : Post r c r1 c1 -> Res pr pc r1 c1 -> Res pr pc r c.
Proof. intros P [L | (E & Q)]; [left; auto | right; split; eauto using post_trans]. Qed.

(* the value ExceptionSave stores is one ExceptionReset may write back *)
Lemma saved_rel r c : Rel r c -> top_rel (below c) (top r) (if sx then top c else handled c).
Proof.
  intros (_ & Hb & Ht & _ & _). unfold top_rel in *. destruct sx eqn:E.
  - destruct Ht as [-> | (F & _)]; [left; reflexivity | discriminate].
  - unfold handled. destruct Ht as [-> | (_ & -> & ->)].
    + destruct (top r); [left; reflexivity | right; auto].
    + right. repeat split. destruct (below c); reflexivity.
Qed.

(* it stays one while the statement runs *)
Lemma top_rel_post r c r1 c1 sv :
  Post r c r1 c1 -> top_rel (below c) (top r) sv -> top_rel (below c1) (top r1) sv.
Proof. intros (_ & _ & _ & B & T). rewrite B, T. auto. Qed.

Lemma rel_set_wx r c w : Rel r c -> Rel r (set_wx w c).
Proof. intros (Hc & Hb & Ht & Hv & Hz). repeat split; simpl; auto. Qed.

(* shared operations: lift and logst replace the core by one computed from the core and the
   handled exception, which related states have in common *)
Lemma rel_set_co r c k : Rel r c -> Rel (set_co k r) (set_co k c).
Proof. intros (Hc & Hb & Ht & Hv & Hz). repeat split; simpl; auto. Qed.

Lemma res_core o k r c : Rel r c -> Res (o, set_co k r) (o, set_co k c) r c.
Proof.
  intros H. apply res_ret. split; [apply rel_set_co, H|]. repeat split. left; reflexivity.
Qed.

Lemma lift_rel g r c : Rel r c ->
  exists o k, lift g r = (o, set_co k r) /\ lift g c = (o, set_co k c).
Proof.
  intros H. unfold lift. rewrite <- (rel_handled _ _ H), <- (proj1 H).
  destruct (g (co r) (handled r)) as [o k]. eauto.
Qed.

Lemma raise_internal_rel n r c : Rel r c ->
  exists e k, lift (raise_internal n) r = (ORaise e, set_co k r) /\
              lift (raise_internal n) c = (ORaise e, set_co k c).
Proof.
  intros H. destruct (lift_rel (raise_internal n) r c H) as (o & k & E1 & E2).
  destruct (lift_raise_internal_oc n r) as [e E]. rewrite E1 in E. cbn in E. subst o. eauto.
Qed.

Lemma logst_rel ev r c : Rel r c -> exists k, logst ev r = set_co k r /\ logst ev c = set_co k c.
Proof. intros H. unfold logst. rewrite <- (rel_handled _ _ H), <- (proj1 H). eauto. Qed.

Lemma reraise_res r c : Rel r c -> Res (reraise_dynamic r) (reraise_sch fx c) r c.
Proof.
  intros H. unfold reraise_sch. destruct (cur c) as [[e|]|] eqn:E.
  - (* temps live: they hold the exception in the reference top item *)
    pose proof H as (Hc & Hb & Ht & Hv & Hz). specialize (Hv e E).
    unfold reraise_dynamic, handled. rewrite Hv. apply res_ret.
    destruct fx eqn:F.
    + apply post_refl; auto.
    + repeat split; simpl; auto; try discriminate; try congruence.
      right. repeat split; auto. congruence.
  - (* zeroed temps: only without the repair *)
    destruct fx eqn:F.
    + exfalso. destruct H as (_ & _ & _ & _ & Hz). apply Hz; auto.
    + left; auto.
  - unfold reraise_dynamic. rewrite <- (rel_handled _ _ H). destruct (handled r).
    + apply res_ret, post_refl, H.
    + destruct (lift_rel (raise_internal c_runtime) r c H) as (o & k & -> & ->). apply res_core, H.
Qed.

(* writing a saved value back into the top item (ExceptionReset on an exit path) *)
Lemma rel_reset r c sv : Rel r c -> top_rel (below c) (top r) sv -> Rel r (set_top sv c).
Proof. intros (Hc & Hb & Ht & Hv & Hz) Hsv. repeat split; simpl; auto. Qed.

Lemma post_reset r c r1 c1 sv :
  Post r c r1 c1 -> top_rel (below c) (top r) sv -> Post r c r1 (set_top sv c1).
Proof.
  intros P Hsv. pose proof (rel_reset _ _ _ (proj1 P) (top_rel_post _ _ _ _ _ P Hsv)).
  destruct P as (_ & W & S & B & T). repeat split; simpl; auto; apply H.
Qed.

(* entering a handler / a finally clause with a pending exception: GetException *)
Lemma rel_enter r c e : Rel r c ->
  Rel (set_top (Some e) r) (set_cur (Some (Some e)) (set_top (Some e) c)).
Proof.
  intros (Hc & Hb & Ht & Hv & Hz). repeat split; simpl; auto.
  - left; reflexivity.
  - congruence.
  - discriminate.
Qed.

(* leaving it (entered in state ce): ExceptionReset, the enclosing handler's temps are current again *)
Lemma post_exit r c re ce r2 c2 sv :
  Rel r c -> top_rel (below c) (top r) sv -> wx ce = wx c -> below ce = below c ->
  Post re ce r2 c2 ->
  Post r c (set_top (top r) r2) (set_top sv (set_cur (cur c) c2)).
Proof.
  intros (Hc & Hb & Ht & Hv & Hz) Hsv W1 B1 ((Hc2 & Hb2 & Ht2 & Hv2 & Hz2) & W2 & _ & B2 & _).
  repeat split; simpl; auto; try congruence.
  left; reflexivity.
Qed.

(* handler bodies for which the generated code skips GetException *)
Lemma trivial_exec : forall s, trivial (desugar s) = true ->
  exists o, o <> OCrash /\ (forall r, exec_ref s r = (o, r)) /\
            (forall c, exec_sch fx sx (desugar s) c = (o, c)).
Proof.
  induction s; simpl; intros T; try discriminate.
  - exists ONorm; repeat split; auto; discriminate.
  - apply andb_prop in T. destruct T as [T1 T2].
    destruct (IHs1 T1) as (o1 & N1 & R1 & C1). destruct (IHs2 T2) as (o2 & N2 & R2 & C2).
    destruct o1; try (eexists; repeat split; intros; try rewrite R1; try rewrite C1; try reflexivity; congruence).
    exists o2. repeat split; auto; intros; [rewrite R1; apply R2 | rewrite C1; apply C2].
  - exists ORet; repeat split; auto; discriminate.
Qed.

Definition PS (s : stmt) : Prop :=
  forall r c, Rel r c -> Res (exec_ref s r) (exec_sch fx sx (desugar s) c) r c.
Definition PH (hs : handlers) : Prop :=
  forall e sv r c, Rel r c -> top_rel (below c) (top r) sv ->
    Res (handle_ref hs e r) (handle_sch fx sx (desugar_h hs) e sv c) r c.

(* a sub-statement run in related states: the scheme crashed (only without the repair), or both
   runs ended with the same outcome; Q is what is to be shown of the two results *)
Lemma ps_run s r c : PS s -> Rel r c -> forall Q : oc * state -> oc * state -> Prop,
  (fx = false -> forall pr c1, Q pr (OCrash, c1)) ->
  (forall o r1 c1, o <> OCrash -> Post r c r1 c1 -> Q (o, r1) (o, c1)) ->
  Q (exec_ref s r) (exec_sch fx sx (desugar s) c).
Proof.
  intros IH HR Q C K. pose proof (proj1 ref_no_crash s r) as NC. specialize (IH r c HR).
  destruct (exec_ref s r) as [o r1], (exec_sch fx sx (desugar s) c) as [o' c1].
  destruct IH as [[F E] | [E P]]; cbn in *; subst; auto.
Qed.

(* the end of a with-block entered with core k0: both runs have installed the core k, the scheme
   has written sv into the top item and puts the statement's own exit_var flag back *)
Lemma post_with r c k0 r1 c1 k sv :
  Post (set_co k0 r) (set_wx true (set_co k0 c)) r1 c1 -> top_rel (below c1) (top r1) sv ->
  Post r c (set_co k r1) (mkst k sv (below c1) (cur c1) (wx c)).
Proof. intros ((Hc & Hb & Ht & Hv & Hz) & W & S & B & T) Hsv. repeat split; simpl; auto. Qed.

(* __exit__(None, None, None) after a body that was left, in state cA, without an exception *)
Lemma with_exit_none k x o r c k0 r1 cA :
  Post (set_co k0 r) (set_wx true (set_co k0 c)) r1 cA ->
  Res (match x with
       | XRaise n => lift (raise_internal n) (logst (ev_exit k None) r1)
       | _ => (o, logst (ev_exit k None) r1)
       end)
      (let (o', c2) := (let (o2, c3) := exec_sch fx sx (CExitNone k x) cA in (after o o2, c3)) in
       (o', set_wx (wx c) c2)) r c.
Proof.
  intros P. pose proof (rel_set_wx _ _ false (proj1 P)) as HRA.
  pose proof (fun k' => post_with r c k0 r1 cA k' _ P (proj1 (proj2 (proj2 (proj1 P))))) as PW.
  cbn [exec_sch]. replace (wx cA) with true by (symmetry; apply P).
  destruct (logst_rel (ev_exit k None) _ _ HRA) as (k1 & -> & ->).
  destruct x as [| |n]; try (apply res_ret, PW).
  destruct (raise_internal_rel n _ _ (rel_set_co _ _ k1 HRA)) as (e & k2 & -> & ->).
  apply res_ret, PW.
Qed.

Lemma ps_seq a b : PS a -> PS b -> PS (SSeq a b).
Proof.
  intros IHa IHb r c HR. simpl.
  apply (ps_run _ _ _ IHa HR); [left; auto|]. intros o r1 c1 NC P.
  destruct o; try (apply res_ret, P).
  eapply res_trans; [exact P | apply IHb, P].
Qed.

Lemma ps_try body hs orelse : PS body -> PH hs -> PS orelse -> PS (STry body hs orelse).
Proof.
  intros IHbody IHhs IHorelse r c HR. simpl.
  pose proof (saved_rel _ _ HR) as Hsv.
  remember (if sx then top c else handled c) as sv eqn:Esv. clear Esv.
  apply (ps_run _ _ _ IHbody HR); [left; auto|]. intros o r1 c1 NC P.
  destruct o; try congruence; try (apply res_ret, post_reset; assumption).
  - (* else clause *)
    apply (ps_run _ _ _ IHorelse (proj1 P)); [left; auto|]. intros o r2 c2 NC2 P2.
    pose proof (post_trans _ _ _ _ _ _ P P2) as P'.
    destruct o; apply res_ret; auto using post_reset.
  - (* handlers *)
    eapply res_trans; [exact P|]. apply IHhs; [apply P | eapply top_rel_post; eassumption].
Qed.

Lemma ps_finally body fin : PS body -> PS fin -> PS (SFinally body fin).
Proof.
  intros IHbody IHfin r c HR. simpl.
  apply (ps_run _ _ _ IHbody HR); [left; auto|]. intros o r1 c1 NC P.
  destruct o; try congruence.
  2: { (* exception pending *)
    pose proof (rel_enter r1 c1 e (proj1 P)) as HRe.
    apply (ps_run _ _ _ IHfin HRe); [left; auto|]. intros o r2 c2 NC2 P2.
    assert (PX : Post r c (set_top (top r1) r2) (set_top (top c1) (set_cur (cur c1) c2))).
    { eapply post_trans; [exact P|].
      eapply post_exit; [apply P | apply P | | | exact P2]; reflexivity. }
    destruct o; try congruence; try (apply res_ret, PX).
    destruct (proj1 (proj2 (proj2 P2))) as [S2 | (F2 & S2 & _)]; cbn in S2 |- *; rewrite S2;
      [apply res_ret, PX | left; auto]. }
  all: apply (ps_run _ _ _ IHfin (proj1 P)); [left; auto|]; intros o r2 c2 _ P2;
    apply res_ret; eapply post_trans; eassumption.
Qed.

(* WithTransform = try/finally around try/except with the implicit handler *)
Lemma ps_with k x body : PS body -> PS (SWith k x body).
Proof.
  intros IHb r c HR. cbn [desugar]. set (xn := CExitNone k x). cbn [exec_ref exec_sch].
  destruct (logst_rel (fun _ _ => EvEnter k) r c HR) as (k0 & -> & ->).
  pose proof (rel_set_wx _ _ true (rel_set_co _ _ k0 HR)) as HR0.
  pose proof (saved_rel _ _ HR0) as Hsv.
  remember (if sx then top (set_wx true (set_co k0 c)) else handled (set_wx true (set_co k0 c))) as sv eqn:Esv.
  clear Esv.
  apply (ps_run _ _ _ IHb HR0); [left; auto|]. intros o r1 c1 NC P.
  pose proof (top_rel_post _ _ _ _ _ P Hsv) as Hsv1.
  destruct o; try congruence.
  2: { (* exception in the body: the implicit handler calls __exit__ with the exception *)
    cbn [handle_sch pat_matches orb negb trivial bind_opt exec_sch cur set_cur].
    assert (HRE : Rel (set_top (Some e) r1)
                      (set_wx false (set_cur (Some (Some e)) (set_co (co c1) (set_top (Some e) c1)))))
      by exact (rel_set_wx _ _ false (rel_enter r1 c1 e (proj1 P))).
    destruct (logst_rel (ev_exit k (Some e)) _ _ HRE) as (k1 & -> & ->).
    destruct x as [| |n].
    - (* __exit__ returned false: re-raise from the handler temps *)
      erewrite reraise_sch_live by reflexivity. apply res_ret, (post_with _ _ _ _ _ k1 sv P Hsv1).
    - (* swallowed *)
      apply res_ret, (post_with _ _ _ _ _ k1 sv P Hsv1).
    - (* __exit__ raised *)
      destruct (raise_internal_rel n _ _ (rel_set_co _ _ k1 HRE)) as (e2 & k2 & -> & ->).
      apply res_ret, (post_with _ _ _ _ _ k2 sv P Hsv1). }
  (* no exception: ExceptionReset unless the body completed, then __exit__(None, None, None) *)
  all: apply (with_exit_none k x _ r c k0); auto using post_reset.
Qed.

Lemma ps_loop n body : PS body -> PS (SLoop n body).
Proof.
  intros IHbody. induction n as [|n IHn]; intros r c HR.
  - apply res_ret, post_refl, HR.
  - simpl.
    apply (ps_run _ _ _ IHbody HR); [left; auto|]. intros o r1 c1 NC P.
    destruct o; try congruence; try (apply res_ret, P);
      (eapply res_trans; [exact P | apply IHn, P]).
Qed.

Lemma ph_cons pat name body tl : PS body -> PH tl -> PH (HCons pat name body tl).
Proof.
  intros IHbody IHtl e sv r c HR Hsv.
  assert (Hco : co c = co r) by (symmetry; apply HR).
  assert (Hcls : cls_of c e = cls_of r e) by (unfold cls_of; rewrite Hco; reflexivity).
  destruct name as [x|]; cbn [handle_ref handle_sch desugar_h]; rewrite Hcls;
    destruct (pat_matches pat (cls_of r e)); try (apply IHtl; auto; fail).
  - (* except .. as x: the body is wrapped in try/finally: del x *)
    cbn [orb exec_sch bind_opt unbind_opt]. rewrite Hco.
    pose proof (rel_set_co _ _ (bind x e (co r)) (rel_enter r c e HR)
                : Rel _ (set_cur (Some (Some e)) (set_co (bind x e (co r)) (set_top (Some e) c)))) as HRe.
    apply (ps_run _ _ _ IHbody HRe); [left; auto|]. intros o r2 c2 NC P2.
    pose proof (proj1 P2) as HR2. apply (rel_set_co _ _ (unbind x (co r2))) in HR2.
    destruct o; try congruence; simpl; replace (co c2) with (co r2) by apply P2; apply res_ret;
      (eapply (post_exit r c); [exact HR | exact Hsv | | | split; [exact HR2 | apply P2]]; reflexivity).
  - cbn [orb bind_opt unbind_opt]. destruct (trivial (desugar body)) eqn:Tr; cbn [negb].
    + (* GetException skipped: the body cannot observe the exception state *)
      destruct (trivial_exec body Tr) as (o & No & -> & ->).
      destruct o; try congruence; apply res_ret, post_reset, Hsv;
        destruct HR as (Hc & Hb & Ht & Hv & Hz); repeat split; simpl; auto; left; reflexivity.
    + rewrite Hco.
      pose proof (rel_set_co _ _ (co r) (rel_enter r c e HR)
                  : Rel _ (set_cur (Some (Some e)) (set_co (co r) (set_top (Some e) c)))) as HRe.
      apply (ps_run _ _ _ IHbody HRe); [left; auto|]. intros o r2 c2 NC P2.
      destruct o; try congruence; apply res_ret;
        (eapply (post_exit r c); [exact HR | exact Hsv | | | exact P2]; reflexivity).
Qed.

Lemma main : (forall s, PS s) /\ (forall hs, PH hs).
Proof.
  apply stmt_handlers_ind; auto using ps_seq, ps_try, ps_finally, ps_with, ps_loop, ph_cons.
  - (* SSkip *) intros r c HR. apply res_ret, post_refl, HR.
  - (* SLog *) intros n r c HR. simpl.
    destruct (logst_rel (fun _ _ => EvLog n) r c HR) as (k & -> & ->). apply res_core, HR.
  - (* SProbe *) intros r c HR. simpl.
    destruct (logst_rel ev_probe r c HR) as (k & -> & ->). apply res_core, HR.
  - (* SRaise *) intros w cz r c HR. simpl.
    destruct (lift_rel (do_raise w cz) r c HR) as (o & k & -> & ->). apply res_core, HR.
  - (* SReraise *) intros r c HR. apply reraise_res, HR.
  - (* SReturn *) intros r c HR. apply res_ret, post_refl, HR.
  - (* SBreak *) intros r c HR. apply res_ret, post_refl, HR.
  - (* SContinue *) intros r c HR. apply res_ret, post_refl, HR.
  - (* HNil *) intros e sv r c HR Hsv. apply res_ret, post_reset; auto using post_refl.
Qed.

Lemma rel_init h t b : Rel (init_state h t b) (init_state h t b).
Proof. repeat split; simpl; auto; try discriminate. left; reflexivity. Qed.

End Main.

(* ---------- the statements used by Prop/C22.v ---------- *)

(* observable part of a run: outcome (with the identity of the propagating exception), the core
   (heap = __context__/__cause__/__suppress_context__ of every exception, names, log with every
   probe and every heap snapshot) and what sys.exc_info() shows afterwards *)
Definition same_obs (pr pc : oc * state) : Prop :=
  fst pc = fst pr /\ co (snd pc) = co (snd pr) /\ handled (snd pc) = handled (snd pr).

Theorem scheme_refines_reference_core : forall fx sx s r c,
  Rel fx sx r c ->
  (fx = false /\ fst (exec_sch fx sx (desugar s) c) = OCrash) \/
  same_obs (exec_ref s r) (exec_sch fx sx (desugar s) c).
Proof.
  intros fx sx s r c HR.
  destruct (proj1 (main fx sx) s r c HR) as [L | (E & (HR' & _))]; [left; auto | right].
  repeat split; auto.
  - symmetry; apply HR'.
  - symmetry; eapply rel_handled; eauto.
Qed.

(* with the repaired ReraiseStatNode: every program of the fragment, every calling context *)
Theorem repaired_matches_reference : forall sx s h t b,
  same_obs (run_ref s h t b) (run_sch true sx s h t b).
Proof.
  intros sx s h t b. unfold run_ref, run_sch.
  destruct (scheme_refines_reference_core true sx s _ _ (rel_init true sx h t b)) as [(F & _) | H];
    [discriminate | exact H].
Qed.

(* the code as it is: equal whenever the zeroed-temps state is not reached *)
Theorem current_matches_reference_unless_crash : forall sx s h t b,
  fst (run_sch false sx s h t b) <> OCrash ->
  same_obs (run_ref s h t b) (run_sch false sx s h t b).
Proof.
  intros sx s h t b NC. unfold run_ref, run_sch in *.
  destruct (scheme_refines_reference_core false sx s _ _ (rel_init false sx h t b)) as [(_ & F) | H];
    [contradiction | exact H].
Qed.

Definition reraise_twice : stmt :=
  STry (SRaise (RNew 3) NoCause)
       (HCons None None
          (SSeq (STry SReraise (HCons None None SSkip HNil) SSkip) SReraise) HNil)
       SSkip.

Theorem current_reraise_refuted :
  exists s h t b, fst (run_sch false false s h t b) = OCrash /\
                  fst (run_ref s h t b) = ORaise 0.
Proof. exists reraise_twice, [], None, None. vm_compute. auto. Qed.

(* the top exc_info item after the statement *)
Theorem top_item_restored : forall fx sx s h t b,
  (b = None \/ sx = true) ->
  fst (run_sch fx sx s h t b) <> OCrash ->
  top (snd (run_sch fx sx s h t b)) = t /\ top (snd (run_ref s h t b)) = t.
Proof.
  intros fx sx s h t b Hb NC. unfold run_ref, run_sch in *.
  destruct (proj1 (main fx sx) s _ _ (rel_init fx sx h t b)) as [(_ & F) | (E & (HR' & _ & _ & B & T))];
    [contradiction |].
  simpl in T, B. split; auto.
  destruct HR' as (_ & _ & [Ht | (Hs & Hn & Ht)] & _); rewrite Ht; auto.
  - rewrite B. destruct Hb as [-> | Hb]; [congruence | congruence].
Qed.

Definition catch_one : stmt := STry (SRaise (RNew 3) NoCause) (HCons None None SSkip HNil) SSkip.
Definition outer_obj : eobj := mkobj 9 true None None false.

Theorem top_item_refuted :
  exists s h t b fx, fst (run_sch fx false s h t b) <> OCrash /\
    top (snd (run_sch fx false s h t b)) <> top (snd (run_ref s h t b)).
Proof. exists catch_one, [outer_obj], None, (Some 0), true. vm_compute. repeat split; discriminate. Qed.

(* try/finally of the generated code *)
Theorem finally_runs_once : forall fx sx body fin c o c1,
  exec_sch fx sx body c = (o, c1) -> o <> OCrash ->
  exists cin pending,
    co cin = co c1 /\
    (fst (exec_sch fx sx (CFinally true body fin) c) = OCrash \/
     (fst (exec_sch fx sx (CFinally true body fin) c) = after pending (fst (exec_sch fx sx fin cin)) /\
      co (snd (exec_sch fx sx (CFinally true body fin) c)) = co (snd (exec_sch fx sx fin cin)))).
Proof.
  intros fx sx body fin c o c1 E NC. simpl. rewrite E.
  destruct o; try congruence;
    try (exists c1; eexists; split; [reflexivity|]; right;
         destruct (exec_sch fx sx fin c1) as [o2 c2]; simpl; split; reflexivity).
  exists (set_cur (Some (Some e)) (set_top (Some e) c1)).
  destruct (exec_sch fx sx fin (set_cur (Some (Some e)) (set_top (Some e) c1))) as [o2 c2] eqn:F.
  destruct o2; simpl.
  - destruct (cur c2) as [[e'|]|]; [exists (ORaise e') | exists ONorm | exists ONorm];
      (split; [reflexivity|]); simpl; auto.
  - exists ONorm; split; [reflexivity|]; right; simpl; auto.
  - exists ONorm; split; [reflexivity|]; right; simpl; auto.
  - exists ONorm; split; [reflexivity|]; right; simpl; auto.
  - exists ONorm; split; [reflexivity|]; right; simpl; auto.
  - exists ONorm; split; [reflexivity|]; left; auto.
Qed.

Theorem return_in_finally_swallows : forall fx sx body fin c e c1 c2,
  exec_sch fx sx body c = (ORaise e, c1) ->
  exec_sch fx sx fin (set_cur (Some (Some e)) (set_top (Some e) c1)) = (ORet, c2) ->
  exec_sch fx sx (CFinally true body fin) c = (ORet, set_top (top c1) (set_cur (cur c1) c2)).
Proof. intros fx sx body fin c e c1 c2 E F. simpl. rewrite E, F. reflexivity. Qed.
