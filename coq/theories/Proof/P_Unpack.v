(* Proofs about Model/M_Unpack.v: the generated unpacking code computes Python's unpacking. *)
From Coq Require Import ZArith List Bool Arith Lia.
From CyVerif Require Import Lib.ListFacts Model.M_Unpack.
Import ListNotations.

(* what Python guarantees about values: an exact tuple/list stores exactly what it iterates over, ends
   with StopIteration, and its (private) iterator cannot be observed *)
Inductive wf : val -> Prop :=
| wf_atom : forall z, wf (VAtom z)
| wf_seq : forall h store items,
    (exactb (h_kind h) = true -> store = items /\ h_end h = EndStop /\ h_logs h = false) ->
    Forall wf items ->
    wf (VSeq h store items).

(* the static type the compiler inferred for the right-hand side is sound (None is a VAtom) *)
Definition st_ok (st : stype) (v : val) : Prop :=
  match st, v with
  | SList, VSeq h _ _ => h_kind h = KList
  | STuple, VSeq h _ _ => h_kind h = KTuple
  | _, _ => True
  end.

(* a tuple subclass that does not override __iter__ *)
Definition plain_tuplesub (v : val) : Prop :=
  match v with
  | VSeq h store items => h_kind h = KTupleSub -> store = items /\ h_end h = EndStop /\ h_logs h = false
  | VAtom _ => True
  end.

(* observable part of one unpacking step *)
Definition obs {E} (v : val) (r : nat * res E) : list event * res E := (emit v (fst r), snd r).

(* ------------------------------------------------------------------------------------------------ *)
(* lists                                                                                              *)
(* ------------------------------------------------------------------------------------------------ *)
Lemma collect_some : forall l, collect (map Some l) = Some l.
Proof. induction l as [|x l IH]; simpl; [reflexivity|]. rewrite IH. reflexivity. Qed.

Lemma index_seq : forall n (l : list val) a, a + n <= length l ->
  map (nth_error l) (seq a n) = map Some (firstn n (skipn a l)).
Proof.
  induction n as [|n IH]; intros l a H; [reflexivity|].
  destruct (nth_error_lt_Some l a ltac:(lia)) as [x Hx].
  cbn [seq map]. rewrite (skipn_nth_error_cons _ _ _ Hx). cbn [firstn map]. rewrite Hx.
  f_equal. apply IH. lia.
Qed.

Lemma copy_items_all : forall store, copy_items store (length store) = Vals store.
Proof.
  intros store. unfold copy_items. rewrite index_seq by lia.
  cbn [skipn]. rewrite firstn_all, collect_some. reflexivity.
Qed.

(* the right targets read from the end, index len-(i+1) for i = 0..nr-1, are the last nr items reversed *)
Lemma rindex_spec : forall (rest : list val) nr, nr <= length rest ->
  map (fun i => nth_error rest (length rest - (i + 1))) (seq 0 nr)
  = map Some (rev (skipn (length rest - nr) rest)).
Proof.
  intros rest nr. induction nr as [|nr IH]; intros H.
  - rewrite Nat.sub_0_r, skipn_all. reflexivity.
  - rewrite seq_S, map_app, IH by lia. cbn [map Nat.add].
    destruct (nth_error_lt_Some rest (length rest - S nr) ltac:(lia)) as [x Hx].
    rewrite (skipn_nth_error_cons _ _ _ Hx).
    replace (S (length rest - S nr)) with (length rest - nr) by lia.
    cbn [rev]. rewrite map_app. cbn [map].
    replace (length rest - (nr + 1)) with (length rest - S nr) by lia.
    rewrite Hx. reflexivity.
Qed.

Lemma gen_loop_spec : forall k i its acc,
  gen_loop k i its acc =
  if k <=? length its then LoopOk (rev acc ++ firstn k its) (skipn k its)
  else LoopShort (i + length its).
Proof.
  induction k as [|k IH]; intros i its acc.
  - cbn. rewrite app_nil_r. reflexivity.
  - destruct its as [|x r]; cbn [gen_loop].
    + cbn. rewrite Nat.add_0_r. reflexivity.
    + rewrite IH. cbn [length firstn skipn rev].
      change (S k <=? S (length r)) with (k <=? length r).
      destruct (k <=? length r).
      * rewrite <- app_assoc. reflexivity.
      * f_equal. lia.
Qed.

Lemma Forall_firstn_skipn : forall {A} (P : A -> Prop) n l,
  Forall P l -> Forall P (firstn n l) /\ Forall P (skipn n l).
Proof. intros A P n l H. rewrite <- (firstn_skipn n l) in H. apply Forall_app in H. exact H. Qed.

Lemma wf_new_list : forall l, Forall wf l -> wf (new_list l).
Proof. intros l H. constructor; [intros _; repeat split; reflexivity|exact H]. Qed.

(* ------------------------------------------------------------------------------------------------ *)
(* one level                                                                                          *)
(* ------------------------------------------------------------------------------------------------ *)
Lemma cy_generic_correct : forall h store items n,
  cy_generic h n items = map_res erase (ref_unpack n None (VSeq h store items)).
Proof.
  intros h store items n. unfold cy_generic, ref_unpack, map_res.
  rewrite gen_loop_spec. cbn [rev app fst snd Nat.add].
  destruct (Nat.leb_spec n (length items)) as [Hle|Hgt].
  - destruct (Nat.ltb_spec (length items) n) as [Hlt|_]; [lia|].
    destruct (Nat.eqb_spec (length items) n) as [Heq|Hne].
    + rewrite skipn_all2 by lia. rewrite firstn_all2 by lia. cbn [fst snd].
      rewrite Heq. destruct (h_end h); reflexivity.
    + pose proof (skipn_length n items) as Hs.
      destruct (skipn n items) as [|y rest]; [cbn in Hs; lia|]. reflexivity.
  - destruct (Nat.ltb_spec (length items) n) as [_|Hge]; [|lia].
    cbn [fst snd]. unfold iter_end. destruct (h_end h); reflexivity.
Qed.

Lemma cy_fast_correct : forall h items n,
  h_end h = EndStop ->
  snd (cy_fast n items) = snd (map_res erase (ref_unpack n None (VSeq h items items))).
Proof.
  intros h items n He. unfold cy_fast, ref_unpack, map_res. rewrite He. cbn [fst snd].
  destruct (Nat.eqb_spec (length items) n) as [Heq|Hne]; cbn [negb].
  - destruct (Nat.ltb_spec (length items) n) as [Hlt|_]; [lia|].
    cbn [snd]. rewrite <- Heq. apply copy_items_all.
  - destruct (Nat.ltb_spec n (length items)) as [Hlt|Hge];
      destruct (Nat.ltb_spec (length items) n) as [Hlt2|Hge2]; try lia; reflexivity.
Qed.

Lemma emit_nolog : forall h store items c, h_logs h = false -> emit (VSeq h store items) c = [].
Proof. intros h store items c H. unfold emit. rewrite H. reflexivity. Qed.

(* a type test may select the size-checked item copy whenever it guarantees what Python guarantees
   about exact tuples and lists *)
Lemma fast_or_generic : forall (fast : bool) h store items n,
  (fast = true -> store = items /\ h_end h = EndStop /\ h_logs h = false) ->
  obs (VSeq h store items) (if fast then cy_fast n store else cy_generic h n items)
  = obs (VSeq h store items) (map_res erase (ref_unpack n None (VSeq h store items))).
Proof.
  intros [|] h store items n Hf.
  - destruct (Hf eq_refl) as (-> & He & Hl).
    unfold obs. rewrite !emit_nolog by exact Hl. f_equal. apply cy_fast_correct. exact He.
  - rewrite (cy_generic_correct h store items n). reflexivity.
Qed.

Lemma cy_par_correct : forall st n v, wf v -> st_ok st v ->
  obs v (cy_par st n v) = obs v (map_res erase (ref_unpack n None v)).
Proof.
  intros st n v Hwf Hst. destruct v as [z|h store items]; [reflexivity|].
  inversion Hwf as [|h' s' i' Hex Hit]; subst.
  apply fast_or_generic. intros Hf. apply Hex.
  destruct st; cbn in Hst; try rewrite Hst; auto; discriminate.
Qed.

Lemma cy_star_correct : forall nl nr v, wf v ->
  obs v (cy_star nl nr v) = obs v (map_res erase (ref_unpack nl (Some nr) v)).
Proof.
  intros nl nr v Hwf. destruct v as [z|h store items]; [reflexivity|].
  inversion Hwf as [|h' s' i' Hex Hit]; subst.
  unfold cy_star, cy_star_g.
  assert (Hsrc : (if (nl =? 0) && exactb (h_kind h) then store else items) = items).
  { destruct (nl =? 0); cbn [andb]; [|reflexivity].
    destruct (exactb (h_kind h)) eqn:Ek; [|reflexivity]. destruct (Hex eq_refl) as (-> & _). reflexivity. }
  rewrite Hsrc. clear Hsrc. f_equal.
  unfold ref_unpack, map_res. rewrite gen_loop_spec. cbn [rev app fst snd Nat.add].
  destruct (Nat.leb_spec nl (length items)) as [Hle|Hgt].
  - destruct (Nat.ltb_spec (length items) nl) as [Hlt|_]; [lia|].
    rewrite skipn_length.
    replace (nl + S (length items - nl)) with (S (length items)) by lia.
    cbn [fst snd]. destruct (h_end h); [|reflexivity].
    destruct (Nat.ltb_spec (length items - nl) nr) as [Hs|Hs];
      destruct (Nat.ltb_spec (length items) (nl + nr)) as [Hs2|Hs2]; try lia.
    + cbn [erase]. do 3 f_equal. lia.
    + pose proof (rindex_spec (skipn nl items) nr) as R. rewrite skipn_length in R.
      rewrite R by lia. rewrite collect_some, rev_involutive, skipn_skipn.
      replace (length items - nl - nr + nl) with (length items - nr) by lia.
      reflexivity.
  - destruct (Nat.ltb_spec (length items) nl) as [_|Hge]; [|lia].
    cbn [fst snd]. unfold iter_end. destruct (h_end h); reflexivity.
Qed.

Theorem cy_unpack_correct : forall st nl star v, wf v -> st_ok st v ->
  obs v (cy_unpack st nl star v) = obs v (map_res erase (ref_unpack nl star v)).
Proof.
  intros st nl [nr|] v Hwf Hst; cbn [cy_unpack].
  - apply cy_star_correct. exact Hwf.
  - apply cy_par_correct; assumption.
Qed.

(* the off-by-one variant of the length guard is wrong exactly at the boundary: a, *b, c = [1, 2] *)
Theorem cy_star_guard_tight : exists nl nr v, wf v /\
  snd (cy_star_g true nl nr v) <> snd (map_res erase (ref_unpack nl (Some nr) v)).
Proof.
  exists 1, 1, (new_list [VAtom 1; VAtom 2]). split.
  - apply wf_new_list. repeat constructor.
  - cbv. discriminate.
Qed.

Definition nvals (nl : nat) (star : option nat) : nat :=
  nl + match star with None => 0 | Some nr => S nr end.

(* the only way the reference yields values *)
Lemma ref_unpack_vals : forall nl star h store items c vals,
  ref_unpack nl star (VSeq h store items) = (c, Vals vals) ->
  match star with
  | None => length items = nl /\ vals = items
  | Some nr => nl + nr <= length items /\
               vals = firstn nl items ++ new_list (firstn (length items - nl - nr) (skipn nl items))
                                      :: skipn (length items - nr) items
  end.
Proof.
  intros nl star h store items c vals H. unfold ref_unpack in H.
  destruct star as [nr|]; destruct (Nat.ltb_spec (length items) nl) as [Hlt|Hge];
    try (destruct (h_end h); discriminate).
  - destruct (h_end h); [|discriminate].
    destruct (Nat.ltb_spec (length items) (nl + nr)) as [Hlt2|Hge2]; [discriminate|].
    injection H as _ <-. split; [exact Hge2|reflexivity].
  - destruct (Nat.eqb_spec (length items) nl) as [Heq|Hne]; [|discriminate].
    destruct (h_end h); [|discriminate]. injection H as _ <-. split; [exact Heq|reflexivity].
Qed.

Lemma ref_unpack_length : forall nl star v c vals,
  ref_unpack nl star v = (c, Vals vals) -> length vals = nvals nl star.
Proof.
  intros nl star v c vals H. destruct v as [z|h store items]; [discriminate|].
  apply ref_unpack_vals in H. unfold nvals. destruct star as [nr|]; destruct H as [Hl ->]; [|lia].
  rewrite app_length. cbn [length]. rewrite firstn_length, skipn_length. lia.
Qed.

Lemma ref_unpack_wf : forall nl star v c vals, wf v ->
  ref_unpack nl star v = (c, Vals vals) -> Forall wf vals.
Proof.
  intros nl star v c vals Hwf H. destruct v as [z|h store items]; [discriminate|].
  inversion Hwf as [|h' s' i' Hex Hit]; subst.
  apply ref_unpack_vals in H. destruct star as [nr|]; destruct H as [_ ->]; [|exact Hit].
  apply Forall_app. split; [apply Forall_firstn_skipn; exact Hit|].
  constructor; [|apply Forall_firstn_skipn; exact Hit].
  apply wf_new_list, Forall_firstn_skipn, Forall_firstn_skipn. exact Hit.
Qed.

(* the starred target is always bound to a new exact list *)
Theorem starred_is_new_list : forall st nl nr v c vals, wf v -> st_ok st v ->
  cy_unpack st nl (Some nr) v = (c, Vals vals) -> exists l, nth_error vals nl = Some (new_list l).
Proof.
  intros st nl nr v c vals Hwf Hst H.
  pose proof (cy_unpack_correct st nl (Some nr) v Hwf Hst) as C. rewrite H in C.
  unfold obs, map_res in C. cbn [snd] in C. injection C as _ C.
  destruct v as [z|h store items]; [discriminate|].
  destruct (ref_unpack nl (Some nr) (VSeq h store items)) as [c' [e|vals']] eqn:R; [discriminate|].
  injection C as ->. apply ref_unpack_vals in R. destruct R as [Hl ->].
  eexists. rewrite nth_error_app2 by (rewrite firstn_length; lia).
  rewrite firstn_length. replace (nl - Nat.min nl (length items)) with 0 by lia. reflexivity.
Qed.

(* __Pyx_unpack_tuple2 *)
Theorem cy_tuple2_correct : forall fx v, wf v -> (fx = false -> plain_tuplesub v) ->
  obs v (cy_tuple2 fx v) = obs v (map_res erase (ref_unpack 2 None v)).
Proof.
  intros fx v Hwf Hp. destruct v as [z|h store items]; [reflexivity|].
  inversion Hwf as [|h' s' i' Hex Hit]; subst.
  unfold cy_tuple2.
  (* the size test of __Pyx_unpack_tuple2 is the fast path for two targets *)
  replace (if length store =? 2 then (0, copy_items store 2)
           else if length store <? 2 then (0, Err (CNeedMore (length store))) else (0, Err (CTooMany 2)))
    with (cy_fast 2 store).
  2:{ unfold cy_fast. destruct (Nat.eqb_spec (length store) 2); [reflexivity|]. cbn [negb].
      destruct (Nat.ltb_spec (length store) 2), (Nat.ltb_spec 2 (length store)); try lia; reflexivity. }
  apply fast_or_generic.
  destruct (h_kind h) eqn:Ek; try discriminate; intros Hf.
  - apply Hex. reflexivity.
  - destruct fx; [discriminate|]. apply (Hp eq_refl). exact Ek.
Qed.

(* class T(tuple): def __iter__(self): return iter([7, 8]);  for k, v in obj.items() with an item T((1, 2, 3)):
   Python binds 7, 8; PyTuple_Check + GET_SIZE raises "too many values" *)
Theorem cy_tuple2_refuted : exists v, wf v /\
  snd (cy_tuple2 false v) <> snd (map_res erase (ref_unpack 2 None v)).
Proof.
  exists (VSeq {| h_kind := KTupleSub; h_id := 1; h_logs := false; h_end := EndStop |}
               [VAtom 1; VAtom 2; VAtom 3] [VAtom 7; VAtom 8]).
  split.
  - constructor; [discriminate|repeat constructor].
  - cbv. discriminate.
Qed.

(* ------------------------------------------------------------------------------------------------ *)
(* nested targets                                                                                     *)
(* ------------------------------------------------------------------------------------------------ *)
Section TargetInd.
  Variable P : target -> Prop.
  Hypothesis Hname : forall x, P (TName x).
  Hypothesis Hseq : forall ls star rs, Forall P ls -> Forall P rs -> P (TSeq ls star rs).
  Fixpoint target_ind' (t : target) : P t :=
    let go := fix go (l : list target) : Forall P l :=
                match l with [] => Forall_nil P | t1 :: r => Forall_cons t1 (target_ind' t1) (go r) end in
    match t with
    | TName x => Hname x
    | TSeq ls star rs => Hseq ls star rs (go ls) (go rs)
    end.
End TargetInd.

Section Map.
  Context {E1 E2 : Type}.
  Variable f : E1 -> E2.

  (* rec2 assigns to target t what rec1 does, up to f on the exception *)
  Definition agrees (rec1 : target -> val -> list event * ares E1)
             (rec2 : target -> val -> list event * ares E2) (t : target) : Prop :=
    forall v, wf v -> rec2 t v = map_a f (rec1 t v).

  Lemma seq_assign_map : forall rec1 rec2 ts, Forall (agrees rec1 rec2) ts ->
    forall vs, Forall wf vs -> seq_assign rec2 ts vs = map_a f (seq_assign rec1 ts vs).
  Proof.
    intros rec1 rec2 ts Hts. induction Hts as [|t1 ts Ht _ IH]; intros vs Hvs.
    - destruct vs; reflexivity.
    - destruct vs as [|v1 vs]; [reflexivity|]. inversion Hvs as [|? ? Hv1 Hvs']; subst.
      cbn [seq_assign]. rewrite (Ht v1 Hv1), (IH vs Hvs').
      destruct (rec1 t1 v1) as [ev a]. destruct a; cbn; try reflexivity.
      destruct (seq_assign rec1 ts vs) as [ev2 a2]. reflexivity.
  Qed.

  (* one level: only the unpack call that the level really makes has to agree *)
  Lemma assign_level_map : forall rec1 rec2 unp1 unp2 ls star rs v,
    Forall (agrees rec1 rec2) ls -> Forall (agrees rec1 rec2) rs ->
    let nl := match star with None => length ls + length rs | Some _ => length ls end in
    let s := option_map (fun _ => length rs) star in
    obs v (unp2 nl s v) = obs v (map_res f (unp1 nl s v)) ->
    (forall c vals, unp1 nl s v = (c, Vals vals) -> Forall wf vals) ->
    assign_level rec2 unp2 ls star rs v = map_a f (assign_level rec1 unp1 ls star rs v).
  Proof.
    intros rec1 rec2 unp1 unp2 ls star rs v Hls Hrs nl s Hu Hw. unfold assign_level. fold nl s.
    destruct (unp1 nl s v) as [c1 r1]. destruct (unp2 nl s v) as [c2 r2].
    unfold obs, map_res in Hu. cbn [fst snd] in Hu. injection Hu as Hev Hr. rewrite Hev. subst r2.
    destruct r1 as [e|vals]; [reflexivity|].
    destruct (Forall_firstn_skipn wf (length ls) vals (Hw c1 vals eq_refl)) as [Hfi Hsk].
    rewrite (seq_assign_map rec1 rec2 ls Hls) by exact Hfi.
    destruct (seq_assign rec1 ls (firstn (length ls) vals)) as [ev1 a1].
    destruct a1; cbn [map_a fst snd]; try reflexivity.
    destruct star as [x|].
    - destruct (skipn (length ls) vals) as [|sv rv]; [reflexivity|].
      inversion Hsk; subst.
      rewrite (seq_assign_map rec1 rec2 rs Hrs) by assumption.
      destruct (seq_assign rec1 rs rv) as [ev2 a2]. reflexivity.
    - rewrite (seq_assign_map rec1 rec2 rs Hrs) by assumption.
      destruct (seq_assign rec1 rs (skipn (length ls) vals)) as [ev2 a2]. reflexivity.
  Qed.

  Lemma assign_map (u1 : stype -> nat -> option nat -> val -> nat * res E1)
                   (u2 : stype -> nat -> option nat -> val -> nat * res E2) :
    (forall st nl s v, wf v -> st_ok st v -> obs v (u2 st nl s v) = obs v (map_res f (u1 st nl s v))) ->
    (forall st nl s v c vals, wf v -> u1 st nl s v = (c, Vals vals) -> Forall wf vals) ->
    forall t st v, wf v -> st_ok st v -> assign u2 st t v = map_a f (assign u1 st t v).
  Proof.
    intros Hu Hw. induction t as [x|ls star rs IHl IHr] using target_ind'; intros st v Hwf Hst; [reflexivity|].
    cbn [assign]. apply assign_level_map.
    - eapply Forall_impl; [|exact IHl]. intros t Ht v' Hv'. apply Ht; [exact Hv'|exact I].
    - eapply Forall_impl; [|exact IHr]. intros t Ht v' Hv'. apply Ht; [exact Hv'|exact I].
    - apply Hu; assumption.
    - intros c vals. apply Hw. exact Hwf.
  Qed.
End Map.

(* the generated code against the reference, nested targets, any static type at the top *)
Lemma cy_assign_ref : forall t st v, wf v -> st_ok st v ->
  assign cy_unpack st t v = map_a erase (assign (fun _ => ref_unpack) st t v).
Proof.
  apply (assign_map erase (fun _ => ref_unpack) cy_unpack).
  - intros. apply cy_unpack_correct; assumption.
  - intros st nl s v c vals Hv. apply ref_unpack_wf. exact Hv.
Qed.

Theorem cy_assign_correct : forall st t v, wf v -> st_ok st v ->
  cy_assign st t v = map_a erase (ref_assign t v).
Proof.
  intros st t v Hwf Hst. unfold cy_assign, ref_assign. rewrite cy_assign_ref by assumption.
  destruct t; reflexivity.
Qed.

(* for k, v in obj.items() with a two-target pattern *)
Theorem cy_items_assign_correct : forall fx ls rs v, wf v -> (fx = false -> plain_tuplesub v) ->
  length ls + length rs = 2 ->
  cy_items_assign fx (TSeq ls None rs) v = map_a erase (ref_assign (TSeq ls None rs) v).
Proof.
  intros fx ls rs v Hwf Hp Hlen. unfold cy_items_assign, ref_assign, assign_top. cbn [assign].
  assert (Hrec : forall ts, Forall (agrees erase (assign (fun _ => ref_unpack) SObj) (assign cy_unpack SObj)) ts).
  { intros ts. apply Forall_forall. intros t _ v' Hv'. apply cy_assign_ref; [exact Hv'|exact I]. }
  apply assign_level_map; [apply Hrec|apply Hrec| |]; rewrite Hlen; cbn [option_map].
  - apply cy_tuple2_correct; assumption.
  - intros c vals. apply ref_unpack_wf. exact Hwf.
Qed.

(* ------------------------------------------------------------------------------------------------ *)
(* the totalised branches are never taken                                                             *)
(* ------------------------------------------------------------------------------------------------ *)
Lemma seq_assign_not_stuck : forall {E} (rec : target -> val -> list event * ares E) ts,
  Forall (fun t => forall v, wf v -> snd (rec t v) <> AStuck) ts ->
  forall vs, Forall wf vs -> length vs = length ts -> snd (seq_assign rec ts vs) <> AStuck.
Proof.
  intros E rec ts Hts. induction Hts as [|t1 ts Ht _ IH]; intros vs Hvs Hlen.
  - destruct vs; [discriminate|discriminate].
  - destruct vs as [|v1 vs]; [discriminate|]. inversion Hvs as [|? ? Hv1 Hvs']; subst.
    cbn [seq_assign]. specialize (Ht v1 Hv1). destruct (rec t1 v1) as [ev a].
    destruct a; cbn [snd] in *; try assumption; try discriminate.
    specialize (IH vs Hvs' ltac:(cbn in Hlen; lia)).
    destruct (seq_assign rec ts vs) as [ev2 a2]. exact IH.
Qed.

Theorem ref_assign_not_stuck : forall t v, wf v -> snd (ref_assign t v) <> AStuck.
Proof.
  unfold ref_assign.
  induction t as [x|ls star rs IHl IHr] using target_ind'; intros v Hwf; [discriminate|].
  cbn [assign]. unfold assign_level.
  set (nl := match star with None => length ls + length rs | Some _ => length ls end).
  set (s := option_map (fun _ => length rs) star).
  pose proof (ref_unpack_length nl s v) as L. pose proof (ref_unpack_wf nl s v) as W.
  destruct (ref_unpack nl s v) as [c r]. destruct r as [e|vals]; [discriminate|].
  specialize (L c vals eq_refl). specialize (W c vals Hwf eq_refl).
  assert (Hlen : length vals = length ls + match star with None => 0 | Some _ => 1 end + length rs).
  { rewrite L. unfold nvals, nl, s. destruct star; cbn [option_map]; lia. }
  pose proof (seq_assign_not_stuck (assign (fun _ => ref_unpack) SObj) ls IHl
                (firstn (length ls) vals) (proj1 (Forall_firstn_skipn wf _ _ W))
                ltac:(rewrite firstn_length; lia)) as S1.
  destruct (seq_assign (assign (fun _ => ref_unpack) SObj) ls (firstn (length ls) vals)) as [ev1 a1].
  destruct a1; cbn [snd] in *; try assumption; try discriminate.
  pose proof (proj2 (Forall_firstn_skipn wf (length ls) vals W)) as Hsk.
  pose proof (skipn_length (length ls) vals) as Hsl.
  destruct star as [x|].
  - destruct (skipn (length ls) vals) as [|sv rv]; [cbn in Hsl; lia|].
    inversion Hsk; subst.
    pose proof (seq_assign_not_stuck (assign (fun _ => ref_unpack) SObj) rs IHr rv ltac:(assumption)
                  ltac:(cbn in Hsl; lia)) as S2.
    destruct (seq_assign (assign (fun _ => ref_unpack) SObj) rs rv) as [ev2 a2]. exact S2.
  - pose proof (seq_assign_not_stuck (assign (fun _ => ref_unpack) SObj) rs IHr _ Hsk ltac:(lia)) as S2.
    destruct (seq_assign (assign (fun _ => ref_unpack) SObj) rs (skipn (length ls) vals)) as [ev2 a2].
    exact S2.
Qed.

(* the compiled code never reads outside the store and never mis-counts the unpacked temps *)
Theorem cy_assign_safe : forall st t v, wf v -> st_ok st v ->
  snd (cy_assign st t v) <> AStuck /\ snd (cy_assign st t v) <> AExc COutOfBounds.
Proof.
  intros st t v Hwf Hst. rewrite (cy_assign_correct st t v Hwf Hst).
  pose proof (ref_assign_not_stuck t v Hwf) as N.
  unfold map_a. cbn [snd]. destruct (snd (ref_assign t v)) as [|e|].
  - split; discriminate.
  - split; [discriminate|]. destruct e; discriminate.
  - contradiction.
Qed.
