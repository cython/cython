(* C25, embedded-signature parameter list: proofs about Model/M_ArgList.v *)
From Coq Require Import List Bool Arith Lia.
From CyVerif Require Import Model.M_ArgList.
Import ListNotations.

Set Implicit Arguments.

Section Proofs.
Variable A : Type.
Notation tokA := (tok A).

(* ---------------- list.insert *)
Lemma insert_app : forall (X : Type) (a b : list X) (n : nat) (x : X),
  insert (length a + n) x (a ++ b) = a ++ insert n x b.
Proof.
  unfold insert. induction a as [|h a IH]; intros b n x; cbn [length app Nat.add firstn skipn].
  - reflexivity.
  - f_equal. apply IH.
Qed.

Lemma insert_app0 : forall (X : Type) (a b : list X) (x : X),
  insert (length a) x (a ++ b) = a ++ x :: b.
Proof.
  intros X a b x. rewrite <- (Nat.add_0_r (length a)). rewrite insert_app. reflexivity.
Qed.

Lemma insert_past_end : forall (X : Type) (l : list X) (n : nat) (x : X),
  length l <= n -> insert n x l = l ++ [x].
Proof.
  intros X l n x H. unfold insert. rewrite firstn_all2 by exact H. rewrite skipn_all2 by exact H. reflexivity.
Qed.

(* an optional marker inserted behind a prefix a, or right after it *)
Lemma ins_opt_app : forall (X : Type) (a b : list X) (n m : nat) (o : option X),
  n = length a + m -> ins_opt n o (a ++ b) = a ++ ins_opt m o b.
Proof. intros X a b n m o ->. destruct o; [apply insert_app|reflexivity]. Qed.

Lemma ins_opt_app0 : forall (X : Type) (a b : list X) (n : nat) (o : option X),
  n = length a -> ins_opt n o (a ++ b) = a ++ opt_list o ++ b.
Proof. intros X a b n o ->. destruct o; [apply insert_app0|reflexivity]. Qed.

(* ---------------- hide_self filter *)
Lemma visible_plain : forall (hs : bool) (l : list A), visible hs (plain l) = plain l.
Proof.
  intros hs l. unfold visible, plain. induction l as [|a l IH]; cbn [map filter fst].
  - reflexivity.
  - rewrite andb_false_r. cbn [negb]. f_equal. exact IH.
Qed.

Lemma map_arg_plain : forall l : list A, map (fun a : argnode A => TArg (snd a)) (plain l) = map (@TArg A) l.
Proof. intro l. unfold plain. rewrite map_map. reflexivity. Qed.

Lemma adjust_plain : forall (hs : bool) (l : list A) npo np, adjust hs (plain l) npo np = (npo, np).
Proof.
  intros hs l. unfold plain. induction l as [|a l IH]; intros npo np; cbn [map adjust fst].
  - reflexivity.
  - rewrite andb_false_r. apply IH.
Qed.

(* ---------------- the layout of the code as it is *)
Lemma layout_star_then_slash : forall (po pk ko : list A) (va kw : option A),
  ins_opt (length po) (slash_tok A (length po))
    (ins_opt (length pk + length po) (star_tok va (length ko)) (map (@TArg A) (po ++ pk ++ ko))) ++ kw_toks kw
  = canon {| s_po := po; s_pk := pk; s_va := va; s_ko := ko; s_kw := kw |}.
Proof.
  intros po pk ko va kw. unfold canon, slash_tok. cbn [s_po s_pk s_va s_ko s_kw]. rewrite !map_app.
  rewrite (ins_opt_app (map (@TArg A) po) _ (length pk)) by (rewrite map_length; lia).
  rewrite (ins_opt_app0 (map (@TArg A) pk)), ins_opt_app0 by (rewrite map_length; reflexivity).
  destruct po; cbn [length Nat.eqb opt_list]; rewrite <- !app_assoc; reflexivity.
Qed.

(* THE PROPERTY of _fmt_arglist: for every source signature the token list is the canonical rendering.
   Holds whenever no argument is hidden (every def / method / classmethod / staticmethod / cpdef
   function in every format; __init__ outside format c), with or without the repair. *)
Theorem arglist_canonical : forall (fx hs : bool) (s : sigsrc A),
  fmt_of StarThenSlash fx s hs = canon s.
Proof.
  intros fx hs [po pk va ko kw]. unfold fmt_of, fmt_arglist, args_of. cbn [s_po s_pk s_va s_ko s_kw].
  rewrite visible_plain, map_arg_plain, adjust_plain. destruct fx; apply layout_star_then_slash.
Qed.

(* a listed self is an ordinary first argument *)
Lemma listed_first_arg : forall (fx b : bool) (self : A) (args : list (argnode A)) npo np va nk kw,
  fmt_arglist StarThenSlash fx ((b, self) :: args) npo np va nk kw false
  = fmt_arglist StarThenSlash fx ((false, self) :: args) npo np va nk kw false.
Proof. reflexivity. Qed.

Theorem arglist_visible_self_canonical : forall (fx : bool) (self : A) (s : sigsrc A),
  fmt_of_self StarThenSlash fx self true s false
    = canon {| s_po := self :: s_po s; s_pk := s_pk s; s_va := s_va s; s_ko := s_ko s; s_kw := s_kw s |}
  /\ (s_po s = [] ->
      fmt_of_self StarThenSlash fx self false s false
      = canon {| s_po := []; s_pk := self :: s_pk s; s_va := s_va s; s_ko := s_ko s; s_kw := s_kw s |}).
Proof.
  intros fx self [po pk va ko kw]. cbn [s_po s_pk s_va s_ko s_kw].
  split; [|intros ->]; unfold fmt_of_self; rewrite listed_first_arg.
  - exact (arglist_canonical fx false {| s_po := self :: po; s_pk := pk; s_va := va; s_ko := ko; s_kw := kw |}).
  - exact (arglist_canonical fx false {| s_po := []; s_pk := self :: pk; s_va := va; s_ko := ko; s_kw := kw |}).
Qed.

(* ---------------- hidden self (format c: the constructor signature  Class(args)  of __init__) *)
Lemma hidden_self_list : forall (self : A) (s : sigsrc A),
  map (fun a : argnode A => TArg (snd a)) (visible true ((true, self) :: args_of s))
  = map (@TArg A) (s_po s ++ s_pk s ++ s_ko s).
Proof.
  intros self s. unfold args_of. cbn [visible filter fst andb negb].
  change (filter _ (plain (s_po s ++ s_pk s ++ s_ko s))) with (visible true (plain (s_po s ++ s_pk s ++ s_ko s))).
  rewrite visible_plain. apply map_arg_plain.
Qed.

(* with the repair, the hidden self argument leaves the canonical rendering of the remaining
   parameters, wherever self stands (positional-only or not) *)
Theorem arglist_hidden_self_fixed : forall (self : A) (self_po : bool) (s : sigsrc A),
  (self_po = false -> s_po s = []) ->
  fmt_of_self StarThenSlash true self self_po s true = canon s.
Proof.
  intros self self_po [po pk va ko kw] Hpo. cbn [s_po] in Hpo.
  unfold fmt_of_self, fmt_arglist. rewrite hidden_self_list. unfold args_of.
  cbn [s_po s_pk s_va s_ko s_kw adjust fst andb].
  (* the hidden self is taken off the count it was part of *)
  destruct self_po.
  - cbn [Nat.eqb Nat.sub]. rewrite adjust_plain, Nat.sub_0_r. apply layout_star_then_slash.
  - rewrite (Hpo eq_refl). cbn [length Nat.eqb Nat.sub]. rewrite adjust_plain, Nat.sub_0_r.
    apply (layout_star_then_slash []).
Qed.

(* without the repair (fix_hidden = false) the hidden self counts for the marker positions; the result is
   still right exactly when that does not matter: self not positional-only and no keyword-only
   parameters (the star marker, if any, is then appended at the end either way) *)
Theorem arglist_hidden_self_asis_partial : forall (self : A) (s : sigsrc A),
  s_po s = [] -> s_ko s = [] ->
  fmt_of_self StarThenSlash false self false s true = canon s.
Proof.
  intros self [po pk va ko kw]. cbn [s_po s_pk s_va s_ko s_kw]. intros -> ->.
  unfold fmt_of_self, fmt_arglist. rewrite hidden_self_list.
  cbn [s_po s_pk s_va s_ko s_kw fst snd length app Nat.add Nat.eqb slash_tok ins_opt canon map opt_list].
  rewrite app_nil_r. unfold slash_tok. cbn [Nat.eqb ins_opt].
  destruct (star_tok va 0) as [t|]; cbn [ins_opt opt_list]; [|reflexivity].
  rewrite insert_past_end by (rewrite map_length; lia). rewrite <- !app_assoc. reflexivity.
Qed.

(* ---------------- reading back *)
Lemma take_args_map : forall (l : list A) (r : list tokA),
  (match r with TArg _ :: _ => False | _ => True end) ->
  take_args (map (@TArg A) l ++ r) = (l, r).
Proof.
  induction l as [|a l IH]; intros r Hr; cbn [map app take_args].
  - destruct r as [|[x| | |x|x] r]; try reflexivity. contradiction.
  - rewrite (IH r Hr). reflexivity.
Qed.

Lemma read_tail_kw : forall (po pk ko : list A) (va kw : option A),
  read_tail po pk va ko (kw_toks kw) = Some {| s_po := po; s_pk := pk; s_va := va; s_ko := ko; s_kw := kw |}.
Proof. intros. destruct kw; reflexivity. Qed.

Lemma read_star_canon : forall (po pk ko : list A) (va kw : option A),
  read_star po pk (opt_list (star_tok va (length ko)) ++ map (@TArg A) ko ++ kw_toks kw)
  = Some {| s_po := po; s_pk := pk; s_va := va; s_ko := ko; s_kw := kw |}.
Proof.
  intros po pk ko va kw. unfold star_tok. destruct va as [v|].
  - cbn [opt_list app read_star]. rewrite take_args_map by (destruct kw; exact I).
    cbn [fst snd]. apply read_tail_kw.
  - destruct ko as [|k ko].
    + cbn [length Nat.eqb opt_list app map read_star]. destruct kw; reflexivity.
    + cbn [length Nat.eqb opt_list app read_star]. rewrite take_args_map by (destruct kw; exact I).
      cbn [fst snd]. apply read_tail_kw.
Qed.

Lemma tail_no_arg : forall (ko : list A) (va kw : option A),
  match opt_list (star_tok va (length ko)) ++ map (@TArg A) ko ++ kw_toks kw with TArg _ :: _ => False | _ => True end.
Proof.
  intros ko va kw. unfold star_tok. destruct va as [v|]; [exact I|].
  destruct ko as [|k ko]; cbn [length Nat.eqb opt_list app map]; [destruct kw; exact I|exact I].
Qed.

Lemma tail_no_slash : forall (ko : list A) (va kw : option A),
  match opt_list (star_tok va (length ko)) ++ map (@TArg A) ko ++ kw_toks kw with TSlash :: _ => False | _ => True end.
Proof.
  intros ko va kw. unfold star_tok. destruct va as [v|]; [exact I|].
  destruct ko as [|k ko]; cbn [length Nat.eqb opt_list app map]; [destruct kw; exact I|exact I].
Qed.

(* the canonical rendering reads back, by the Python parameter grammar, as exactly the source
   parameter list: names in order, kinds and both star parameters *)
Theorem canon_reads_back : forall s : sigsrc A, read_sig (canon s) = Some s.
Proof.
  intros [po pk va ko kw]. unfold canon, read_sig. cbn [s_po s_pk s_va s_ko s_kw].
  destruct po as [|p po].
  - cbn [map app]. rewrite take_args_map by apply tail_no_arg. cbn [fst snd].
    pose proof (read_star_canon [] pk ko va kw) as H.
    pose proof (tail_no_slash ko va kw) as Hns.
    destruct (opt_list (star_tok va (length ko)) ++ map (@TArg A) ko ++ kw_toks kw) as [|[x| | |x|x] r];
      try exact H. contradiction.
  - rewrite take_args_map by exact I. cbn [fst snd app].
    rewrite take_args_map by apply tail_no_arg.
    cbn [fst snd]. apply read_star_canon.
Qed.

(* the embedded parameter list parses to the same parameter list as the source *)
Theorem arglist_reads_back : forall (fx hs : bool) (s : sigsrc A),
  read_sig (fmt_of StarThenSlash fx s hs) = Some s.
Proof. intros. rewrite arglist_canonical. apply canon_reads_back. Qed.

Theorem arglist_hidden_self_fixed_reads_back : forall (self : A) (self_po : bool) (s : sigsrc A),
  (self_po = false -> s_po s = []) ->
  read_sig (fmt_of_self StarThenSlash true self self_po s true) = Some s.
Proof. intros. rewrite arglist_hidden_self_fixed by assumption. apply canon_reads_back. Qed.

End Proofs.

(* ---------------- refutations by witness *)
(* inserting '/' first and keeping the star index (the seeded order): f(a, /, b, *, c) comes out as
   f(a, /, *, b, c) - b silently becomes keyword-only - and h(a, b, /, *, c) as the unparsable
   h(a, b, *, /, c) *)
Theorem slash_first_refuted :
  fmt_of SlashThenStar false w_seed false = [TArg 1; TSlash; TStar; TArg 2; TArg 3] /\
  fmt_of SlashThenStar false w_seed false <> canon w_seed /\
  read_sig (fmt_of SlashThenStar false w_seed false)
    = Some {| s_po := [1]; s_pk := []; s_va := None; s_ko := [2; 3]; s_kw := None |} /\
  fmt_of SlashThenStar false w_seed2 false = [TArg 1; TArg 2; TStar; TSlash; TArg 3] /\
  read_sig (fmt_of SlashThenStar false w_seed2 false) = None /\
  fmt_of StarThenSlash false w_seed false = canon w_seed /\
  fmt_of StarThenSlash false w_seed2 false = canon w_seed2.
Proof. vm_compute. repeat split; try reflexivity. discriminate. Qed.

(* without the repair, format c, cdef class K: def __init__(self, a, *, k): the class docstring starts
   K(a, k, [star])  (unparsable);  def __init__(self, a, *args, k):  K(a, k, *args)  (k not keyword-only);
   def __init__(self, /, a): K(a, /)  (a becomes positional-only) *)
Theorem hidden_self_asis_refuted :
  fmt_of_self StarThenSlash false 0 false w_init true = [TArg 1; TArg 2; TStar] /\
  read_sig (fmt_of_self StarThenSlash false 0 false w_init true) = None /\
  fmt_of_self StarThenSlash false 0 false w_init2 true = [TArg 1; TArg 2; TVarArgs 9] /\
  read_sig (fmt_of_self StarThenSlash false 0 false w_init2 true) <> Some w_init2 /\
  fmt_of_self StarThenSlash false 0 true
      {| s_po := []; s_pk := [1]; s_va := None; s_ko := []; s_kw := None |} true = [TArg 1; TSlash] /\
  fmt_of_self StarThenSlash true 0 false w_init true = canon w_init /\
  fmt_of_self StarThenSlash true 0 false w_init2 true = canon w_init2.
Proof. vm_compute. repeat split; try reflexivity. discriminate. Qed.
