(* P_AsyncGenRun -- histories: the async generator layer over two generator machines related by a
   simulation gives equal observations (lifting of P_AsyncGen.aw_step_sim); instance Cython / CPython;
   properties of ag_closed and of finished awaitables; refutations of the variants. *)
From Coq Require Import ZArith List Bool.
From CyVerif Require Import Lib.CInt Model.M_Gen Model.M_AsyncGen Proof.P_Gen Proof.P_AsyncGen.
Import ListNotations.
Open Scope Z_scope.

(* two generator machines related by R, as in Section P_AsyncGen.LayerSim, and the hooks flag of the world *)
Section RunSim.
Variables G1 G2 L : Type.
Variable gop1 : G1 -> op -> result * G1 * list (L * input).
Variable gop2 : G2 -> op -> result * G2 * list (L * input).
Variables (gdone1 : G1 -> bool) (gdone2 : G2 -> bool) (gwr1 : G1 -> bool) (gwr2 : G2 -> bool).
Variable av : avar.
Variable hooks : bool.
Variable R : G1 -> G2 -> Prop.
Hypothesis Hop : forall g1 g2 o, R g1 g2 ->
  fst (fst (gop1 g1 o)) = fst (fst (gop2 g2 o)) /\ snd (gop1 g1 o) = snd (gop2 g2 o)
  /\ (o <> Del -> R (snd (fst (gop1 g1 o))) (snd (fst (gop2 g2 o)))).
Hypothesis Hdone : forall g1 g2, R g1 g2 -> gdone1 g1 = gdone2 g2.
Hypothesis Hwr : forall g1 g2, R g1 g2 -> gwr1 g1 = gwr2 g2.

Notation RA := (Rag G1 G2 R).
Notation step1 := (aw_step G1 L gop1 gdone1 gwr1 av).
Notation step2 := (aw_step G2 L gop2 gdone2 gwr2 av).
Notation drive1 := (drive G1 L gop1 gdone1 gwr1 av).
Notation drive2 := (drive G2 L gop2 gdone2 gwr2 av).
Notation wop1 := (world_op G1 L gop1 gdone1 gwr1 av hooks).
Notation wop2 := (world_op G2 L gop2 gdone2 gwr2 av hooks).

Lemma drive_sim : forall fuel a1 a2 w, RA a1 a2 ->
  exists vs r a1' a2' w' l, drive1 fuel a1 w = (vs, r, a1', w', l) /\ drive2 fuel a2 w = (vs, r, a2', w', l) /\ RA a1' a2'.
Proof.
  induction fuel as [|f IH]; intros a1 a2 w H; cbn [drive].
  - eauto 12.
  - destruct (aw_step_sim av Hop Hdone Hwr a1 a2 w (StSend VNone) H) as (r & a1' & a2' & w' & l & E1 & E2 & H').
    rewrite E1, E2. destruct r; eauto 12.
    destruct (IH a1' a2' w' H') as (vs & r2 & b1 & b2 & w2 & l2 & F1 & F2 & H2).
    rewrite F1, F2. eauto 12.
Qed.

Definition Rw (w1 : world G1) (w2 : world G2) : Prop :=
  RA (w_ag G1 w1) (w_ag G2 w2) /\ w_slots G1 w1 = w_slots G2 w2.

Lemma world_op_sim : forall w1 w2 o, Rw w1 w2 ->
  fst (wop1 w1 o) = fst (wop2 w2 o) /\ (o <> ADel -> Rw (snd (wop1 w1 o)) (snd (wop2 w2 o))).
Proof.
  intros [a1 sl1] [a2 sl2] o [H Hs]; cbn in H, Hs; subst sl2.
  destruct o as [j k|j s|j|]; cbn [world_op w_ag w_slots].
  - destruct a1 as [g1 c1 r1 h1 f1], a2 as [g2 c2 r2 h2 f2]. destruct H as (HR & Hc & Hr & Hh & Hf); cbn in *; subst.
    unfold ag_new; cbn. destruct h2; cbn; (split; [reflexivity|intros _; repeat split; auto]).
  - unfold get_slot; cbn [w_slots]. destruct (nth_error sl1 j) as [[x|]|]; cbv beta iota.
    2-3: (* empty slot *)
      destruct H as (HR & Hc & Hr & Hh & Hf); cbn; rewrite Hr; split; [reflexivity|intros _; repeat split; auto].
    destruct (aw_step_sim av Hop Hdone Hwr a1 a2 x s H) as (r & a1' & a2' & w' & l & E1 & E2 & H').
    rewrite E1, E2. destruct H' as (HR & Hc & Hr & Hh & Hf). cbn. rewrite Hr.
    split; [reflexivity|intros _; repeat split; auto].
  - unfold get_slot; cbn [w_slots]. destruct (nth_error sl1 j) as [[x|]|]; cbv beta iota.
    2-3: destruct H as (HR & Hc & Hr & Hh & Hf); cbn; rewrite Hr; split; [reflexivity|intros _; repeat split; auto].
    destruct (drive_sim DRIVE_MAX a1 a2 x H) as (vs & r & a1' & a2' & w' & l & E1 & E2 & H').
    rewrite E1, E2. destruct H' as (HR & Hc & Hr & Hh & Hf). cbn. rewrite Hr.
    split; [reflexivity|intros _; repeat split; auto].
  - split; [|congruence].
    destruct a1 as [g1 c1 r1 h1 f1], a2 as [g2 c2 r2 h2 f2]. destruct H as (HR & Hc & Hr & Hh & Hf); cbn in *; subst.
    unfold ag_del; cbn. rewrite (Hdone _ _ HR). destruct (gdone2 g2); [reflexivity|].
    destruct (f2 && negb c2); [reflexivity|].
    destruct (Hop g1 g2 Del HR) as (E1 & E2 & _).
    destruct (gop1 g1 Del) as [[? ?] ?], (gop2 g2 Del) as [[? ?] ?]; cbn in *; subst; reflexivity.
Qed.

Theorem run_world_sim : forall h w1 w2, Rw w1 w2 ->
  run_world G1 L gop1 gdone1 gwr1 av hooks w1 h = run_world G2 L gop2 gdone2 gwr2 av hooks w2 h.
Proof.
  induction h as [|o h IH]; intros w1 w2 H; [reflexivity|].
  destruct (world_op_sim w1 w2 o H) as (E & Hn).
  destruct o; cbn [run_world]; try (rewrite E; reflexivity);
    (destruct (wop1 w1 _) as [x1 w1'], (wop2 w2 _) as [x2 w2']; cbn in E, Hn; subst x2;
     rewrite (IH w1' w2' (Hn ltac:(discriminate))); reflexivity).
Qed.
End RunSim.

(* ---------------- instance: Coroutine.c + AsyncGen.c  vs  CPython 3.12 ---------------- *)
Section Inst.
Variable L : Type.
Variable start : L.
Variable step : L -> input -> outcome L.

Definition Rcp (s : cstate L) (p : pstate L) : Prop := P_Gen.cwf L s /\ p = abs L s.

Lemma Rcp_op : forall s p o, Rcp s p ->
  fst (fst (cy_op L start step false true fx_all s o)) = fst (fst (py_op L start step false true p o))
  /\ snd (cy_op L start step false true fx_all s o) = snd (py_op L start step false true p o)
  /\ (o <> Del -> Rcp (snd (fst (cy_op L start step false true fx_all s o)))
                      (snd (fst (py_op L start step false true p o)))).
Proof.
  intros s p o [Hw ->]. pose proof (op_sim L start step false true s o Hw) as Hsim.
  destruct o;
    try (destruct (Hsim ltac:(discriminate)) as [-> W];
         split; [reflexivity|split; [reflexivity|intros _; split; [exact W|reflexivity]]]).
  destruct (del_sim L start step false true s Hw) as [E1 E2].
  split; [symmetry; exact E1|]. split; [symmetry; exact E2|]. intros []; reflexivity.
Qed.

Lemma Rcp_done : forall s p, Rcp s p -> c_done L s = p_done L p.
Proof. intros [lab run yf] p [[Hr Hy] ->]; cbn in *; subst; destruct lab; reflexivity. Qed.

Lemma Rcp_wrapped : forall s p, Rcp s p -> c_wrapped L s = p_wrapped L p.
Proof.
  intros [lab run yf] p [[Hr Hy] ->]; cbn in *; subst. destruct lab; cbn in *; subst; try reflexivity;
    try (destruct yf; reflexivity).
Qed.

Definition Rworld := Rw (cstate L) (pstate L) Rcp.

(* every body, every variant of the layer, hooks installed or not, every pair of corresponding states,
   every history: equal observations (results, ag_running, resumptions of the body, suspension values,
   hook events) *)
Theorem agen_bisim : forall av hooks h w1 w2, Rworld w1 w2 ->
  run_cy_ag L start step fx_all av hooks w1 h = run_py_ag L start step av hooks w2 h.
Proof.
  intros av hooks h w1 w2 H. unfold run_cy_ag, run_py_ag.
  apply (run_world_sim (cstate L) (pstate L) L _ _ _ _ _ _ av hooks Rcp Rcp_op Rcp_done Rcp_wrapped h w1 w2 H).
Qed.

Corollary agen_bisim_init : forall av hooks h,
  run_cy_ag L start step fx_all av hooks (world_init (cstate L) (c_init L)) h
  = run_py_ag L start step av hooks (world_init (pstate L) (p_init L)) h.
Proof.
  intros. apply agen_bisim. split; [|reflexivity]. cbn. repeat split; auto.
Qed.
End Inst.

(* ---------------- ag_closed and finished awaitables (any underlying generator) ---------------- *)
Section Closed.
Variables G L : Type.
Variable gop : G -> op -> result * G * list (L * input).
Variables (gdone gwr : G -> bool).
Variable av : avar.

(* aclose(): once the first step of the awaitable has been taken the generator is marked closed, whatever
   the body does with GeneratorExit -- in particular when it answers with another yield *)
Theorem aclose_marks_closed : forall a arg, av_closed_first av = true ->
  ag_running_async G a = false -> gdone (ag_gen G a) = false -> is_none arg = true ->
  ag_closed G (snd (fst (fst (athrow_send G L gop gdone gwr av a KClose AInit arg)))) = true.
Proof.
  intros [g c r h f] arg Hv Hr Hd Ha; cbn in Hr, Hd; subst.
  unfold athrow_send; cbn. rewrite Hd, Ha, Hv. destruct c; [reflexivity|]. cbn.
  destruct (gop g (ThrowNC EGenExit)) as [[r g'] l]. destruct r; cbn; try reflexivity.
  destruct (gwr g'); reflexivity.
Qed.

(* a closed generator: the first step of every new aclose()/athrow() awaitable is StopAsyncIteration, the body
   is not resumed, nothing changes *)
Theorem closed_gen_answers_stopasync : forall a k arg, (forall v, k <> KSend v) ->
  ag_closed G a = true -> ag_running_async G a = false -> gdone (ag_gen G a) = false ->
  athrow_send G L gop gdone gwr av a k AInit arg = (RRaise EStopAsync, a, AClosed, []).
Proof.
  intros [g c r h f] k arg Hk Hc Hr Hd; cbn in Hc, Hr, Hd; subst.
  unfold athrow_send; cbn. rewrite Hd. reflexivity.
Qed.

(* a finished awaitable never touches the generator again *)
Theorem finished_awaitable_inert : forall a k s,
  exists r, aw_step G L gop gdone gwr av a (Awt k AClosed) s = (r, a, Awt k AClosed, [])
            /\ (r = RNone \/ exists m, r = RRaise (ERuntime m)).
Proof.
  intros a k s. destruct k, s;
    cbv [aw_step aw_kind aw_state asend_send asend_throw asend_close athrow_send athrow_throw athrow_close is_aclosed];
    try destruct (av_t313 av); cbv beta iota;
    eexists; (split; [reflexivity|]); first [left; reflexivity | right; eexists; reflexivity].
Qed.
End Closed.

(* ---------------- refutations ---------------- *)
(* witness body: answers GeneratorExit at its first yield with another yield, awaits when U0 is thrown *)
Definition ag_w_step (k : Z) (i : input) : outcome Z :=
  match i with
  | ISend _ => if k =? 0 then OYield (VInt 1) 1 else OYield (VInt 3) 2
  | IThrow EGenExit => if k =? 1 then OYield (VInt 2) 2 else ORaise EGenExit
  | IThrow (EUser 0) => ODelegate (VInt 5) (list_sub []) 2
  | IThrow e => ORaise e
  end.
Definition ares_of {L : Type} (l : list (obs L)) : list ares := map (o_res L) l.
Definition wc := world_init (cstate Z) (c_init Z).
Definition wp := world_init (pstate Z) (p_init Z).
Definition av_with (t pad cf ne : bool) := {| av_t313 := t; av_pad := pad; av_closed_first := cf; av_nullexc := ne |}.

(* the seeded variant: anext, aclose (RuntimeError), aclose again *)
Definition h_seeded := [ANew 0 (KSend VNone); ADrive 0; ANew 0 KClose; ADrive 0; ANew 0 KClose; ADrive 0].
Theorem closed_late_refuted :
  ares_of (run_cy_ag Z 0 ag_w_step fx_all (av_with false false false false) false wc h_seeded)
  <> ares_of (run_py_ag Z 0 ag_w_step av_py false wp h_seeded).
Proof. vm_compute. discriminate. Qed.

(* AsyncGen.c as it is vs CPython 3.12.1, one variant at a time *)
Definition h_t313 := [ANew 0 (KSend VNone); ADrive 0; ANew 0 (KSend VNone); AStep 0 StClose; ANew 1 KClose; ADrive 1].
Theorem t313_refuted :
  ares_of (run_cy_ag Z 0 ag_w_step fx_all (av_with true false true false) false wc h_t313)
  <> ares_of (run_py_ag Z 0 ag_w_step av_py false wp h_t313).
Proof. vm_compute. discriminate. Qed.

Definition h_running := [ANew 0 (KSend VNone); ADrive 0; ANew 0 (KThrow (EUser 0)); AStep 0 (StSend VNone);
                         ANew 1 (KSend VNone); AStep 1 (StSend VNone)].
Theorem pad_refuted :
  ares_of (run_cy_ag Z 0 ag_w_step fx_all (av_with false true true false) false wc h_running)
  <> ares_of (run_py_ag Z 0 ag_w_step av_py false wp h_running).
Proof. vm_compute. discriminate. Qed.

Definition h_nullexc := [ANew 0 (KSend VNone); ADrive 0; ANew 0 KClose; AStep 0 (StThrow (EUser 0))].
Theorem nullexc_refuted :
  ares_of (run_cy_ag Z 0 ag_w_step fx_all (av_with false false true true) false wc h_nullexc)
  <> ares_of (run_py_ag Z 0 ag_w_step av_py false wp h_nullexc).
Proof. vm_compute. discriminate. Qed.

Theorem ag_fresh_del_refuted :
  ares_of (run_cy_ag Z 0 ag_w_step fx_none av_py false wc [ADel])
  <> ares_of (run_py_ag Z 0 ag_w_step av_py false wp [ADel]).
Proof. vm_compute. discriminate. Qed.

(* non-vacuity: on the witness body the history of the seeded change runs through a yielded value, the
   "ignored GeneratorExit" error and the StopAsyncIteration answer *)
Example agen_nonvacuous :
  ares_of (run_py_ag Z 0 ag_w_step av_py false wp h_seeded)
  = [ANewOk; AR (RRaise (EStopIter (VInt 1))); ANewOk; AR (RRaise (ERuntime M_IGNORED)); ANewOk; AR (RRaise EStopAsync)].
Proof. vm_compute. reflexivity. Qed.
