(* C41 -- proofs about Model/M_Directives.v against Model/M_DirectivesDoc.v *)
From Coq Require Import ZArith NArith List Bool Lia ZifyBool ZifyN.
From CyVerif Require Import Model.M_Directives Model.M_DirectivesDoc.
Import ListNotations.
Open Scope N_scope.

Lemma str_eqb_eq a b : str_eqb a b = true <-> a = b.
Proof.
  revert b. induction a as [|x a IH]; destruct b as [|y b]; simpl; split; intro H; try congruence; try reflexivity.
  - apply andb_true_iff in H. destruct H as [H1 H2]. apply N.eqb_eq in H1. apply IH in H2. congruence.
  - inversion H; subst. rewrite N.eqb_refl. simpl. apply IH. reflexivity.
Qed.

Lemma str_eqb_refl a : str_eqb a a = true.
Proof. apply str_eqb_eq. reflexivity. Qed.

Lemma str_eqb_neq a b : str_eqb a b = false <-> a <> b.
Proof. rewrite <- str_eqb_eq. destruct (str_eqb a b); intuition congruence. Qed.

Lemma str_eqb_spec a b : reflect (a = b) (str_eqb a b).
Proof. destruct (str_eqb a b) eqn:E; constructor; [apply str_eqb_eq|apply str_eqb_neq]; exact E. Qed.

Lemma mem_In name l : mem name l = true -> In name l.
Proof.
  unfold mem. intros H. apply existsb_exists in H. destruct H as (x & Hx & E).
  apply str_eqb_eq in E. subst. exact Hx.
Qed.

Lemma get_set d k v m : get d (set k v m) = if str_eqb d k then Some v else get d m.
Proof.
  induction m as [|[k' v'] m IH]; simpl; [reflexivity|].
  destruct (str_eqb_spec k k') as [<-|N]; simpl.
  - destruct (str_eqb d k); reflexivity.
  - rewrite IH. destruct (str_eqb_spec d k') as [->|_]; [|reflexivity].
    rewrite (proj2 (str_eqb_neq k' k)) by congruence. reflexivity.
Qed.

Lemma get_pop_other d k m : str_eqb d k = false -> get d (pop k m) = get d m.
Proof.
  intros H. induction m as [|[k' v'] m IH]; simpl; [reflexivity|].
  destruct (str_eqb_spec k k') as [<-|_]; simpl; [rewrite H|rewrite IH]; reflexivity.
Qed.

Lemma get_app d a b : get d (a ++ b) = or_else (get d a) (get d b).
Proof.
  induction a as [|[k v] a IH]; simpl; [reflexivity|].
  destruct (str_eqb d k); [reflexivity|apply IH].
Qed.

Lemma or_else_assoc a b c : or_else (or_else a b) c = or_else a (or_else b c).
Proof. destruct a; reflexivity. Qed.

Lemma or_else_none a : or_else a None = a.
Proof. destruct a; reflexivity. Qed.

(* d.update(l): the last assignment in l wins, else the old value *)
Lemma get_update d l : forall base, get d (update base l) = or_else (get d (rev l)) (get d base).
Proof.
  unfold update. induction l as [|[k v] l IH]; intros base; simpl; [reflexivity|].
  rewrite IH, get_set, get_app. simpl.
  destruct (get d (rev l)); simpl; [reflexivity|]. destruct (str_eqb d k); reflexivity.
Qed.

Definition not_upper (x : N) : bool := negb ((65 <=? x) && (x <=? 90)).

Lemma lower_ci s : forall w, forallb not_upper w = true -> str_eqb (lower s) w = ci_eq s w.
Proof.
  induction s as [|c s IH]; intros [|x w] Hw; simpl; try reflexivity.
  simpl in Hw. apply andb_true_iff in Hw. destruct Hw as [Hx Hw].
  rewrite (IH w Hw). f_equal.
  unfold lower_char, not_upper in *.
  destruct ((65 <=? c) && (c <=? 90)) eqn:U; simpl.
  - destruct (N.eqb_spec c x) as [E|E]; simpl; [|reflexivity].
    subst. rewrite U in Hx. discriminate.
  - rewrite orb_false_r. reflexivity.
Qed.

Lemma parse_bool_doc relaxed name text :
  parse_bool relaxed name text =
  match doc_bool relaxed text with Some b => Ok (VBool b) | None => Err EBadBool name end.
Proof.
  unfold parse_bool, doc_bool.
  destruct (str_eqb text w_true); [reflexivity|].
  destruct (str_eqb text w_false); [reflexivity|].
  destruct relaxed; simpl; [|reflexivity].
  rewrite !(lower_ci text) by reflexivity.
  rewrite !orb_false_r.
  destruct (ci_eq text w_ltrue || ci_eq text w_yes); [reflexivity|].
  destruct (ci_eq text w_lfalse || ci_eq text w_no); reflexivity.
Qed.

Section ParseProofs.
  Variable types : list (str * dtype).
  Variable defaults : list str.
  Variable digit_val : N -> option N.
  Variable codec_class : str -> N.
  (* strict = true is the repaired parser, which refuses to set a value-less directive *)
  Variable strict : bool.

  Notation pvalue := (parse_directive_value types digit_val codec_class).
  Notation dvalue := (doc_value types digit_val codec_class).

  Lemma encoding_doc text :
    (if encoding_lookup_raises codec_class text then None
     else Some (normalise_encoding_name codec_class text)) = doc_encoding codec_class text.
  Proof.
    unfold encoding_lookup_raises, normalise_encoding_name, doc_encoding.
    destruct text as [|c t]; [reflexivity|].
    set (e := c :: t).
    unfold common_encoding_names. cbn [assoc].
    rewrite !(lower_ci e) by reflexivity.
    destruct (ci_eq e [117; 116; 102; 56]); [reflexivity|].
    destruct (ci_eq e [117; 116; 102; 45; 56]); [reflexivity|].
    destruct (ci_eq e [100; 101; 102; 97; 117; 108; 116]); [reflexivity|].
    destruct (ci_eq e [97; 115; 99; 105; 105]); [reflexivity|].
    destruct (ci_eq e [117; 115; 45; 97; 115; 99; 105; 105]); [reflexivity|].
    cbn [orb].
    destruct (codec_class e =? 3) eqn:E3; [reflexivity|].
    destruct (codec_class e =? 1); [reflexivity|].
    destruct (codec_class e =? 2); reflexivity.
  Qed.

  (* THE per-value theorem: the parser returns exactly the documented value of the text, or an
     error exactly when the text has no documented value; the only other outcome is the
     "option does not exist -> None" exit of the docstring (unknown name / value-less directive) *)
  Theorem parse_value_ok_or_error relaxed name text :
    match pvalue relaxed name text with
    | Ok v => dvalue relaxed name text = Some v \/
              (v = VNone /\ dvalue relaxed name text = None /\
               (lookup_type name types = None \/ lookup_type name types = Some TNoValue))
    | Err _ who => dvalue relaxed name text = None /\ who = name
    end.
  Proof.
    unfold parse_directive_value, doc_value.
    destruct (lookup_type name types) as [[| | | |args amap| | | |]|]; simpl; auto.
    - rewrite parse_bool_doc. destruct (doc_bool relaxed text); simpl; auto.
    - destruct (py_int digit_val text); simpl; auto.
    - unfold parse_enum. destruct (mem _ args); auto.
    - rewrite <- encoding_doc. destruct (encoding_lookup_raises codec_class text); simpl; auto.
  Qed.

  Definition sim (st : dict) (f : smap) : Prop := forall k, get k st = f k.

  Lemma sim_set st f k v : sim st f -> sim (set k v st) (upd k v f).
  Proof. intros H k'. rewrite get_set. unfold upd. destruct (str_eqb k' k); [reflexivity|apply H]. Qed.

  Notation settable := (settable types).

  Lemma dvalue_unsettable relaxed name text : settable name = false -> dvalue relaxed name text = None.
  Proof.
    unfold M_Directives.settable, doc_value.
    destruct (lookup_type name types) as [[| | | |args amap| | | |]|]; try discriminate; reflexivity.
  Qed.

  (* the guard of the repaired parser followed by the value parser: a value exactly when documented;
     the code as it is needs the directive to be settable *)
  Lemma guarded_value_doc relaxed name text : (strict = false -> settable name = true) ->
    if strict && negb (settable name) then dvalue relaxed name text = None
    else match pvalue relaxed name text with
         | Ok v => dvalue relaxed name text = Some v
         | Err _ _ => dvalue relaxed name text = None
         end.
  Proof.
    intros Hset. destruct (settable name) eqn:Es.
    - rewrite andb_false_r. pose proof (parse_value_ok_or_error relaxed name text) as H.
      destruct (pvalue relaxed name text) as [v|e w]; [|apply H].
      destruct H as [H|(_ & _ & [H|H])]; [exact H| |]; unfold M_Directives.settable in Es; rewrite H in Es; discriminate.
    - destruct strict eqn:Est; [apply dvalue_unsettable, Es|]. discriminate (Hset eq_refl).
  Qed.

  Lemma expand_all_doc relaxed prefix text : forall ds found st f,
    sim st f -> (strict = false -> forall d, In d ds -> settable d = true) ->
    match expand_all types digit_val codec_class strict relaxed prefix text ds found st with
    | Ok (found', st') =>
        exists f', doc_assign_all types digit_val codec_class relaxed text (filter (starts_with prefix) ds) f = Some f'
                   /\ sim st' f'
                   /\ found' = (found || match filter (starts_with prefix) ds with [] => false | _ => true end)
    | Err _ _ => doc_assign_all types digit_val codec_class relaxed text (filter (starts_with prefix) ds) f = None
    end.
  Proof.
    induction ds as [|d ds IH]; intros found st f Hsim Hset; simpl.
    - exists f. rewrite orb_false_r. auto.
    - assert (Hset' : strict = false -> forall x, In x ds -> settable x = true).
      { intros E x Hx. apply (Hset E). right. exact Hx. }
      destruct (starts_with prefix d); [|apply IH; assumption]. simpl.
      pose proof (guarded_value_doc relaxed d text (fun E => Hset E d (or_introl eq_refl))) as Hv.
      destruct (strict && negb (settable d)); [rewrite Hv; reflexivity|].
      destruct (pvalue relaxed d text) as [v|e w]; rewrite Hv; [|reflexivity].
      specialize (IH true (set d v st) (upd d v f) (sim_set _ _ _ _ Hsim) Hset').
      destruct (expand_all _ _ _ _ _ _ _ ds true (set d v st)) as [[found' st']|e w]; [|exact IH].
      destruct IH as (f' & H1 & H2 & H3). exists f'. rewrite orb_true_r. auto.
  Qed.

  Section Items.
  (* the code as it is (strict = false) needs: no directive of the defaults table is value-less *)
  Hypothesis all_settable : strict = false -> forall d, In d defaults -> settable d = true.

  Lemma parse_item_doc relaxed ignore st f it :
    sim st f ->
    match parse_item types defaults digit_val codec_class strict relaxed ignore st it with
    | Ok st' => exists f', doc_item types defaults digit_val codec_class relaxed ignore f it = Some f' /\ sim st' f'
    | Err _ _ => doc_item types defaults digit_val codec_class relaxed ignore f it = None
    end.
  Proof.
    intros Hsim. unfold parse_item, doc_item.
    destruct (strip it) as [|c t] eqn:Eit; [exists f; auto|].
    destruct (cut_at 61 (c :: t)) as [[n0 v0]|]; [|reflexivity].
    destruct (mem (strip n0) defaults) eqn:Em.
    - destruct (is_list_type types (strip n0)).
      + rewrite <- (Hsim (strip n0)).
        destruct (get (strip n0) st) as [[| | | |l]|]; try reflexivity;
          (eexists; split; [reflexivity|apply sim_set, Hsim]).
      + pose proof (guarded_value_doc relaxed (strip n0) (strip v0)
                      (fun E => all_settable E _ (mem_In _ _ Em))) as Hv.
        destruct (strict && negb (settable (strip n0))); [rewrite Hv; reflexivity|].
        destruct (pvalue relaxed (strip n0) (strip v0)) as [v|e w]; rewrite Hv; [|reflexivity].
        eexists. split; [reflexivity|]. apply sim_set, Hsim.
    - unfold all_targets.
      destruct (ends_with [46; 97; 108; 108] (strip n0)); [|simpl; destruct ignore; simpl; [exists f; auto|reflexivity]].
      pose proof (expand_all_doc relaxed (drop_last 3 (strip n0)) (strip v0) defaults false st f Hsim all_settable) as H.
      destruct (filter (starts_with (drop_last 3 (strip n0))) defaults) as [|t0 ts].
      + destruct (expand_all _ _ _ _ _ _ _ defaults false st) as [[found st']|e w]; [|discriminate H].
        destruct H as (f' & [= <-] & H2 & ->). simpl.
        destruct ignore; simpl; [exists f; auto|reflexivity].
      + destruct (expand_all _ _ _ _ _ _ _ defaults false st) as [[found st']|e w]; [|exact H].
        destruct H as (f' & H1 & H2 & ->). simpl. exists f'. auto.
  Qed.

  Lemma parse_items_doc relaxed ignore : forall items st f,
    sim st f ->
    match parse_items types defaults digit_val codec_class strict relaxed ignore st items with
    | Ok st' => exists f', doc_items types defaults digit_val codec_class relaxed ignore f items = Some f' /\ sim st' f'
    | Err _ _ => doc_items types defaults digit_val codec_class relaxed ignore f items = None
    end.
  Proof.
    induction items as [|it r IH]; intros st f Hsim; simpl.
    - exists f. auto.
    - pose proof (parse_item_doc relaxed ignore st f it Hsim) as H.
      destruct (parse_item _ _ _ _ _ _ _ st it) as [st'|e w].
      + destruct H as (f' & H1 & H2). rewrite H1. apply IH, H2.
      + rewrite H. reflexivity.
  Qed.

  (* THE list theorem: for every text, flags and current settings, parse_directive_list returns
     a dict that is, key by key, the documented map of the text -- or an error exactly when the
     documentation gives the text no meaning.  Never a silently different value. *)
  Theorem parse_list_ok_or_error relaxed ignore cur s :
    match parse_directive_list types defaults digit_val codec_class strict relaxed ignore cur s with
    | Ok d => exists f, doc_list types defaults digit_val codec_class relaxed ignore (fun k => get k cur) s = Some f
                        /\ forall k, get k d = f k
    | Err _ _ => doc_list types defaults digit_val codec_class relaxed ignore (fun k => get k cur) s = None
    end.
  Proof.
    unfold parse_directive_list, doc_list.
    apply (parse_items_doc relaxed ignore (split_on 44 s) cur (fun k => get k cur)).
    intros k. reflexivity.
  Qed.
  End Items.
End ParseProofs.

Lemma strs_eqb_eq a b : strs_eqb a b = true -> a = b.
Proof.
  revert b. induction a as [|x a IH]; destruct b as [|y b]; simpl; intro H; try congruence.
  apply andb_true_iff in H. destruct H as [H1 H2]. apply str_eqb_eq in H1. apply IH in H2. congruence.
Qed.

Lemma value_eqb_eq a b : value_eqb a b = true -> a = b.
Proof.
  destruct a, b; simpl; intro H; try discriminate; try reflexivity.
  - apply Bool.eqb_prop in H. congruence.
  - apply Z.eqb_eq in H. congruence.
  - apply str_eqb_eq in H. congruence.
  - apply strs_eqb_eq in H. congruence.
Qed.

Lemma value_eqb_refl v : value_eqb v v = true.
Proof.
  destruct v as [b|z|s| |l]; simpl; [apply Bool.eqb_reflx|apply Z.eqb_refl|apply str_eqb_refl|reflexivity|].
  induction l as [|x l IH]; simpl; [reflexivity|]. rewrite str_eqb_refl. exact IH.
Qed.

(* well-formed dicts: no repeated key (what a Python dict is) *)
Definition keys (m : dict) : list str := map fst m.
Definition wf (m : dict) : Prop := NoDup (keys m).

Lemma get_none_iff d m : get d m = None <-> ~ In d (keys m).
Proof.
  induction m as [|[k v] m IH]; simpl; [tauto|].
  destruct (str_eqb_spec d k) as [->|N]; [split; [discriminate|tauto]|].
  rewrite IH. intuition congruence.
Qed.

Lemma keys_set x k v m : In x (keys (set k v m)) <-> x = k \/ In x (keys m).
Proof.
  induction m as [|[k' v'] m IH]; simpl; [intuition congruence|].
  destruct (str_eqb_spec k k') as [<-|_]; simpl; [|rewrite IH]; intuition congruence.
Qed.

Lemma wf_set k v m : wf m -> wf (set k v m).
Proof.
  unfold wf. induction m as [|[k' v'] m IH]; simpl; intro H.
  - constructor; [intros []|constructor].
  - inversion H as [|? ? Hn Hd]; subst. destruct (str_eqb_spec k k') as [<-|N]; simpl.
    + constructor; assumption.
    + constructor; [|apply IH, Hd]. intro Hin. apply (keys_set k' k v m) in Hin.
      destruct Hin as [Hin|Hin]; [congruence|contradiction].
Qed.

Lemma wf_update l : forall base, wf base -> wf (update base l).
Proof.
  unfold update. induction l as [|[k v] l IH]; intros base H; simpl; [exact H|]. apply IH, wf_set, H.
Qed.

Lemma wf_nil : wf [].
Proof. constructor. Qed.

Lemma wf_get_rev d m : wf m -> get d (rev m) = get d m.
Proof.
  unfold wf. induction m as [|[k v] m IH]; simpl; intro H; [reflexivity|].
  inversion H as [|? ? Hn Hd]; subst. rewrite get_app, (IH Hd). simpl.
  destruct (str_eqb_spec d k) as [->|_]; [|apply or_else_none].
  apply get_none_iff in Hn. rewrite Hn. reflexivity.
Qed.

Lemma get_in d m v : get d m = Some v -> In (d, v) m.
Proof.
  induction m as [|[k x] m IH]; simpl; [discriminate|].
  destruct (str_eqb_spec d k) as [->|_]; [intros [= ->]; left; reflexivity|right; apply IH, H].
Qed.

Lemma dict_incl_get a b d v : dict_incl a b = true -> get d a = Some v -> get d b = Some v.
Proof.
  unfold dict_incl. intros H Hg. rewrite forallb_forall in H.
  specialize (H (d, v) (get_in _ _ _ Hg)). simpl in H. rewrite Hg in H.
  destruct (get d b) as [y|]; [|discriminate]. apply value_eqb_eq in H. congruence.
Qed.

Lemma dict_eqb_get a b d : dict_eqb a b = true -> get d a = get d b.
Proof.
  unfold dict_eqb. intros H. apply andb_true_iff in H. destruct H as [H1 H2].
  destruct (get d a) as [v|] eqn:Ea.
  - symmetry. apply (dict_incl_get a b d v H1 Ea).
  - destruct (get d b) as [y|] eqn:Eb; [|reflexivity].
    rewrite (dict_incl_get b a d y H2 Eb) in Ea. discriminate.
Qed.

Lemma get_filter_key (P : str -> bool) d m :
  get d (filter (fun kv => P (fst kv)) m) = if P d then get d m else None.
Proof.
  induction m as [|[k v] m IH]; simpl; [destruct (P d); reflexivity|].
  destruct (P k) eqn:Ek; simpl; (destruct (str_eqb_spec d k) as [->|_]; [|exact IH]); rewrite Ek in *;
    [reflexivity|exact IH].
Qed.

Lemma filter_rev {A} (P : A -> bool) l : filter P (rev l) = rev (filter P l).
Proof.
  induction l as [|x l IH]; simpl; [reflexivity|].
  rewrite filter_app, IH. simpl. destruct (P x); simpl; [reflexivity|]. rewrite app_nil_r. reflexivity.
Qed.

Definition is_vlist (v : value) : bool := match v with VList _ => true | _ => false end.
Definition scalar_sets (sets : list (str * value)) : Prop := Forall (fun kv => is_vlist (snd kv) = false) sets.

Inductive scalar_tree : tree -> Prop :=
| ST k sets ch : scalar_sets sets -> Forall scalar_tree ch -> scalar_tree (Node k sets ch).

Lemma merge_scalar acc : scalar_sets acc -> forall base, fold_left merge_one acc base = update base acc.
Proof.
  unfold update. induction 1 as [|[k v] acc Hv Hacc IH]; intros base; simpl; [reflexivity|].
  rewrite <- IH. f_equal. unfold merge_one. simpl in *. destruct v; try discriminate; destruct (get k base) as [[]|]; reflexivity.
Qed.

Lemma kind_eq_dec (a b : kind) : {a = b} + {a <> b}.
Proof. decide equality. Qed.

Section ScopeProofs.
  Variable scopes : list (str * list str).
  Variable immediate : list str.
  Variable non_inherited : list str.

  Notation scope_ok := (scope_ok scopes).
  Notation enter := (enter scopes immediate non_inherited).
  Notation visit := (visit scopes immediate non_inherited).
  Notation visit_list := (visit_list scopes immediate non_inherited).
  Notation explicit := (explicit_for_contents scopes immediate).
  Notation spec_at := (spec_at scopes immediate).

  Lemma get_pops d names : mem d names = false -> forall m,
    get d (fold_left (fun acc n => pop n acc) names m) = get d m.
  Proof.
    induction names as [|n names IH]; intros Hm m; simpl; [reflexivity|].
    unfold mem in Hm. simpl in Hm. apply orb_false_iff in Hm. destruct Hm as [H1 H2].
    rewrite (IH H2). apply get_pop_other, H1.
  Qed.

  Lemma copy_inherited_get d cur new : mem d non_inherited = false -> wf new ->
    get d (copy_inherited non_inherited cur new) = or_else (get d new) (get d cur).
  Proof.
    intros Hm Hw. unfold copy_inherited. rewrite get_update, (wf_get_rev d new Hw), (get_pops d _ Hm). reflexivity.
  Qed.

  (* decorators are processed last to first, so the one written first wins *)
  Lemma last_first_rev d k : forall sets base,
    last_setting scopes d k (rev sets) base = or_else (first_setting scopes d k sets) base.
  Proof.
    assert (A : forall a b base, last_setting scopes d k (a ++ b) base
                                 = last_setting scopes d k b (last_setting scopes d k a base)).
    { induction a as [|[n v] a IH]; intros b base; simpl; [reflexivity|apply IH]. }
    induction sets as [|[n v] sets IH]; intros base; simpl; [reflexivity|].
    rewrite A, IH. simpl. destruct (str_eqb d n && legal_here scopes n k); [reflexivity|].
    destruct (first_setting scopes d k sets); reflexivity.
  Qed.

  (* the loop over the decorators: the kept settings [acc] overlay cur like the running dict does *)
  Lemma extract_loop_last d k cur : forall rs curopt acc rej,
    get d curopt = or_else (get d (rev acc)) (get d cur) -> scalar_sets acc -> scalar_sets rs ->
    let '(acc', _) := extract_loop scopes (scope_name k) rs curopt acc rej in
    or_else (get d (rev acc')) (get d cur) = last_setting scopes d k rs (get d curopt) /\ scalar_sets acc'.
  Proof.
    induction rs as [|[n v] rs IH]; intros curopt acc rej I1 Sa Sr; simpl; [rewrite <- I1; auto|].
    inversion Sr as [|? ? Sv Sr']; subst. unfold legal_here.
    destruct (scope_ok n (scope_name k)) eqn:Eok; [|rewrite andb_false_r; apply IH; assumption].
    rewrite andb_true_r.
    assert (Hchg : forall (rej0 : list (str * str)),
              let '(acc', _) := extract_loop scopes (scope_name k) rs (set n v curopt) (acc ++ [(n, v)]) rej0 in
              or_else (get d (rev acc')) (get d cur) =
              last_setting scopes d k rs (if str_eqb d n then Some v else get d curopt) /\ scalar_sets acc').
    { intros rej0. rewrite <- get_set. apply IH; [|apply Forall_app; split; [exact Sa|constructor; [exact Sv|constructor]]|exact Sr'].
      rewrite get_set, rev_app_distr. simpl. destruct (str_eqb d n); [reflexivity|exact I1]. }
    destruct (get n curopt) as [v0|] eqn:Eg; [|apply Hchg].
    destruct (value_eqb v0 v) eqn:Ev; [|apply Hchg].
    (* a decorator that repeats the running value is dropped *)
    apply value_eqb_eq in Ev. subst v0.
    replace (if str_eqb d n then Some v else get d curopt) with (get d curopt); [apply IH; assumption|].
    destruct (str_eqb_spec d n) as [->|_]; [exact Eg|reflexivity].
  Qed.

  Lemma extract_directives_spec d k cur sets : scalar_sets sets ->
    let '(opt, contents, _) := extract_directives scopes immediate cur (scope_name k) sets in
    wf opt /\ wf contents /\
    or_else (get d opt) (get d cur) = or_else (first_setting scopes d k sets) (get d cur) /\
    get d contents = (if mem d immediate then None else get d opt).
  Proof.
    intros Ss. unfold extract_directives.
    pose proof (extract_loop_last d k cur (rev sets) cur [] [] eq_refl (Forall_nil _) (Forall_rev Ss)) as H.
    rewrite last_first_rev in H.
    destruct (extract_loop scopes (scope_name k) (rev sets) cur [] []) as [acc rej].
    destruct H as [H Sacc].
    rewrite (merge_scalar acc Sacc).
    rewrite (merge_scalar _ (incl_Forall (incl_filter _ acc) Sacc)).
    split; [apply wf_update, wf_nil|]. split; [apply wf_update, wf_nil|].
    rewrite !get_update. simpl. rewrite !or_else_none. split; [exact H|].
    rewrite <- filter_rev. rewrite (get_filter_key (fun x => negb (mem x immediate))).
    destruct (mem d immediate); reflexivity.
  Qed.

  Lemma with_dict_spec d : forall sets dd rej, wf dd ->
    let '(dd', _) := with_dict scopes sets dd rej in
    wf dd' /\ get d dd' = last_setting scopes d KWith sets (get d dd).
  Proof.
    induction sets as [|[n v] sets IH]; intros dd rej Hw; simpl; [auto|].
    unfold legal_here. simpl.
    destruct (scope_ok n _) eqn:Eok.
    - specialize (IH (set n v dd) rej (wf_set n v dd Hw)).
      destruct (with_dict scopes sets (set n v dd) rej) as [dd' rej']. destruct IH as [IH1 IH2].
      split; [exact IH1|]. rewrite IH2, get_set, andb_true_r. reflexivity.
    - specialize (IH dd (rej ++ [(n, scope_name KWith)]) Hw). simpl in IH.
      destruct (with_dict scopes sets dd _) as [dd' rej']. destruct IH as [IH1 IH2].
      split; [exact IH1|]. rewrite IH2, andb_false_r. reflexivity.
  Qed.

  (* the end of visit_with_directives, for any directive dicts: the node gets cur overlaid with dirs,
     its contents cur overlaid with contents; an overlay that changes nothing installs nothing *)
  Lemma install_spec d cur dirs contents (rej : list (str * str)) :
    mem d non_inherited = false -> wf dirs -> wf contents ->
    match fst (match dirs with
               | [] => (None, rej)
               | _ => if dict_eqb (copy_inherited non_inherited cur dirs) cur then (None, rej)
                      else (Some (copy_inherited non_inherited cur dirs,
                                  copy_inherited non_inherited cur contents), rej)
               end) with
    | None => get d cur = or_else (get d dirs) (get d cur)
    | Some (new, newc) => get d new = or_else (get d dirs) (get d cur) /\
                          get d newc = or_else (get d contents) (get d cur)
    end.
  Proof.
    intros Hm Wd Wc. destruct dirs as [|x dirs'] eqn:Ed; [reflexivity|]. rewrite <- Ed in *. clear Ed.
    destruct (dict_eqb (copy_inherited non_inherited cur dirs) cur) eqn:Eq; simpl.
    - apply (dict_eqb_get _ _ d) in Eq. rewrite copy_inherited_get in Eq by assumption. symmetry. exact Eq.
    - split; apply copy_inherited_get; assumption.
  Qed.

  Lemma enter_decorated cur k sets : k <> KWith ->
    enter cur k sets =
    let '(dirs, contents, rej) := extract_directives scopes immediate cur (scope_name k) sets in
    match dirs with
    | [] => (None, rej)
    | _ => if dict_eqb (copy_inherited non_inherited cur dirs) cur then (None, rej)
           else (Some (copy_inherited non_inherited cur dirs, copy_inherited non_inherited cur contents), rej)
    end.
  Proof. destruct k; try reflexivity. contradiction. Qed.

  Lemma explicit_decorated k sets d : k <> KWith -> k <> KProbe ->
    explicit k sets d = if mem d immediate then None else first_setting scopes d k sets.
  Proof. destruct k; try reflexivity; contradiction. Qed.

  (* what visit_with_directives puts in effect for the contents of a node, and, for a decorated
     def or class, on the node itself (its own decorators always count, immediate or not) *)
  Lemma enter_spec d cur k sets :
    k <> KProbe -> scalar_sets sets -> mem d non_inherited = false ->
    match fst (enter cur k sets) with
    | None => get d cur = or_else (explicit k sets d) (get d cur) /\
              (k <> KWith -> get d cur = or_else (first_setting scopes d k sets) (get d cur))
    | Some (new, newc) => get d newc = or_else (explicit k sets d) (get d cur) /\
                          (k <> KWith -> get d new = or_else (first_setting scopes d k sets) (get d cur))
    end.
  Proof.
    intros Hk Ss Hm. destruct (kind_eq_dec k KWith) as [->|Hw].
    - unfold enter. pose proof (with_dict_spec d sets [] [] wf_nil) as H.
      destruct (with_dict scopes sets [] []) as [dd rej]. destruct H as [Wd H]. simpl in H.
      pose proof (install_spec d cur dd dd rej Hm Wd Wd) as I. rewrite H in I.
      destruct (fst _) as [[new newc]|]; (split; [apply I|contradiction]).
    - rewrite (enter_decorated cur k sets Hw), (explicit_decorated k sets d Hw Hk).
      pose proof (extract_directives_spec d k cur sets Ss) as H.
      destruct (extract_directives scopes immediate cur (scope_name k) sets) as [[opt contents] rej].
      destruct H as (Wo & Wc & H1 & H2).
      pose proof (install_spec d cur opt contents rej Hm Wo Wc) as I.
      destruct (fst _) as [[new newc]|].
      + destruct I as [I1 I2]. rewrite I1, I2, H2.
        split; [destruct (mem d immediate); [reflexivity|exact H1]|intros _; exact H1].
      + rewrite H1 in I. split; [destruct (mem d immediate); [reflexivity|exact I]|intros _; exact I].
  Qed.

  Fixpoint tree_ind2 (P : tree -> Prop)
           (H : forall k sets ch, Forall P ch -> P (Node k sets ch)) (t : tree) : P t :=
    match t with
    | Node k sets ch =>
        H k sets ch ((fix go (l : list tree) : Forall P l :=
                        match l with
                        | [] => Forall_nil P
                        | x :: r => Forall_cons x (tree_ind2 P H x) (go r)
                        end) ch)
    end.

  Lemma visit_node cur k sets ch : k <> KProbe ->
    visit cur (Node k sets ch) =
    match enter cur k sets with
    | (None, rej) => let '(l', st', e) := visit_list cur ch in (ANode k cur cur l', st', rej ++ e)
    | (Some (new, newc), rej) => let '(l', _, e) := visit_list newc ch in (ANode k new newc l', cur, rej ++ e)
    end.
  Proof. destruct k; try reflexivity. contradiction. Qed.

  Definition node_ok (d : str) (t : tree) : Prop :=
    forall cur, match t with Node k sets ch =>
      let '(a, st, _) := visit cur t in
      st = cur /\
      get d (body_dict a) = or_else (explicit k sets d) (get d cur) /\
      forall q a', q <> [] -> lookup_path (achildren a) q = Some a' ->
                   Some (get d (body_dict a')) = spec_at d (get d (body_dict a)) ch q
    end.

  Definition forest_ok (d : str) (forest : list tree) : Prop :=
    forall cur,
      let '(l, st, _) := visit_list cur forest in
      st = cur /\
      forall p a, lookup_path l p = Some a -> Some (get d (body_dict a)) = spec_at d (get d cur) forest p.

  Lemma forest_from_nodes d forest : Forall (node_ok d) forest -> forest_ok d forest.
  Proof.
    induction 1 as [|t forest Ht Hf IH]; intros cur.
    - simpl. split; [reflexivity|]. intros [|i q] a; simpl; [discriminate|]. destruct i; discriminate.
    - cbn [M_Directives.visit_list].
      specialize (Ht cur). destruct t as [k sets ch].
      destruct (visit cur (Node k sets ch)) as [[a st1] e1]. destruct Ht as (E1 & Hb & Hsub). subst st1.
      specialize (IH cur). destruct (visit_list cur forest) as [[l st2] e2]. destruct IH as (E2 & IH).
      split; [exact E2|].
      intros [|i q] a' Hl; [discriminate|]. destruct i as [|i].
      + cbn [lookup_path nth_error] in Hl. cbn [M_DirectivesDoc.spec_at nth_error].
        destruct q as [|j q].
        * inversion Hl; subst a'. rewrite Hb. reflexivity.
        * rewrite <- Hb. apply Hsub; [discriminate|exact Hl].
      + cbn [lookup_path nth_error] in Hl. cbn [M_DirectivesDoc.spec_at nth_error].
        apply (IH (i :: q) a'). exact Hl.
  Qed.

  Lemma node_ok_all d t : mem d non_inherited = false -> scalar_tree t -> node_ok d t.
  Proof.
    intros Hm. induction t as [k sets ch IHch] using tree_ind2. intros Hs cur.
    inversion Hs as [? ? ? Ss Sch]; subst.
    assert (Hforest : forest_ok d ch).
    { apply forest_from_nodes. apply Forall_forall. intros x Hx.
      rewrite Forall_forall in IHch, Sch. apply IHch; [exact Hx|apply Sch, Hx]. }
    destruct (kind_eq_dec k KProbe) as [->|Hk].
    { split; [reflexivity|]. split; [reflexivity|].
      intros q a' Hq Hl. simpl in Hl. destruct q as [|i q]; [contradiction|]. destruct i; discriminate. }
    rewrite (visit_node cur k sets ch Hk).
    pose proof (enter_spec d cur k sets Hk Ss Hm) as He.
    (* the contents are visited under newc, or under cur when nothing was installed *)
    destruct (M_Directives.enter scopes immediate non_inherited cur k sets) as [[[new newc]|] rej];
      destruct He as [He _].
    - specialize (Hforest newc). destruct (visit_list newc ch) as [[l st'] e]. destruct Hforest as [_ Hf].
      split; [reflexivity|]. split; [exact He|]. intros q a' _ Hl. apply Hf, Hl.
    - specialize (Hforest cur). destruct (visit_list cur ch) as [[l st'] e]. destruct Hforest as [Hst Hf].
      split; [exact Hst|]. split; [exact He|]. intros q a' _ Hl. apply Hf, Hl.
  Qed.

  (* THE scoping theorem, for ALL forests, paths and inherited directives: the dict the code
     builds by copying and updating while descending gives, for the code enclosed by the node
     at path p, the innermost enclosing explicit (legal) setting, else the value around the
     forest; and the transform's current dict is the same after the traversal as before. *)
  Theorem effective_directive d cur forest :
    mem d non_inherited = false -> Forall scalar_tree forest ->
    let '(l, st, _) := visit_list cur forest in
    st = cur /\
    forall p a, lookup_path l p = Some a ->
                Some (get d (body_dict a)) = spec_at d (get d cur) forest p.
  Proof.
    intros Hm Hs. apply (forest_from_nodes d forest).
    apply Forall_forall. intros t Ht. apply node_ok_all; [exact Hm|].
    rewrite Forall_forall in Hs. apply Hs, Ht.
  Qed.

  (* settings illegal in their scope: exactly these are reported *)
  Definition rejected (scope : str) (sets : list (str * value)) : list (str * str) :=
    map (fun kv => (fst kv, scope)) (filter (fun kv => negb (scope_ok (fst kv) scope)) sets).

  Lemma rejected_in scope sets n v :
    In (n, v) sets -> scope_ok n scope = false -> In (n, scope) (rejected scope sets).
  Proof.
    intros Hin Hs. apply (in_map (fun kv => (fst kv, scope)) _ (n, v)), filter_In.
    split; [exact Hin|]. simpl. rewrite Hs. reflexivity.
  Qed.

  Lemma extract_loop_rej scope : forall rs curopt acc rej,
    snd (extract_loop scopes scope rs curopt acc rej) = rej ++ rejected scope rs.
  Proof.
    unfold rejected. induction rs as [|[m v] rs IH]; intros curopt acc rej; simpl; [symmetry; apply app_nil_r|].
    destruct (scope_ok m scope); simpl.
    - destruct (get m curopt) as [v0|]; [destruct (value_eqb v0 v)|]; apply IH.
    - rewrite IH, <- app_assoc. reflexivity.
  Qed.

  Lemma with_dict_rej : forall sets dd rej,
    snd (with_dict scopes sets dd rej) = rej ++ rejected (scope_name KWith) sets.
  Proof.
    unfold rejected. induction sets as [|[m v] sets IH]; intros dd rej; simpl; [symmetry; apply app_nil_r|].
    change [119; 105; 116; 104; 32; 115; 116; 97; 116; 101; 109; 101; 110; 116] with (scope_name KWith).
    destruct (scope_ok m (scope_name KWith)); simpl; [apply IH|].
    rewrite IH, <- app_assoc. reflexivity.
  Qed.

  Lemma enter_rej cur k sets :
    snd (enter cur k sets) =
    match k with KWith => rejected (scope_name k) sets | _ => rejected (scope_name k) (rev sets) end.
  Proof.
    destruct (kind_eq_dec k KWith) as [->|Hw].
    - unfold enter. pose proof (with_dict_rej sets [] []) as R.
      destruct (with_dict scopes sets [] []) as [dd rej]. simpl in R. subst rej.
      destruct dd; [reflexivity|]. destruct (dict_eqb _ _); reflexivity.
    - rewrite (enter_decorated cur k sets Hw). unfold extract_directives.
      transitivity (rejected (scope_name k) (rev sets)); [|destruct k; try reflexivity; contradiction].
      pose proof (extract_loop_rej (scope_name k) (rev sets) cur [] []) as R.
      destruct (extract_loop scopes (scope_name k) (rev sets) cur [] []) as [acc rej]. simpl in R. subst rej.
      destruct (fold_left merge_one acc []); [reflexivity|]. destruct (dict_eqb _ _); reflexivity.
  Qed.
End ScopeProofs.

Section ScopeProofs2.
  Variable scopes : list (str * list str).
  Variable immediate : list str.
  Variable non_inherited : list str.

  Definition w_module : str := [109; 111; 100; 117; 108; 101].

  Lemma header_split_spec header :
    header_split scopes header =
    (filter (fun kv => scope_ok scopes (fst kv) w_module) header, rejected scopes w_module header).
  Proof.
    unfold rejected. induction header as [|[n v] header IH]; simpl; [reflexivity|].
    rewrite IH. fold w_module. destruct (scope_ok scopes n w_module); reflexivity.
  Qed.

  (* header comment, else command line / cythonize options, else default *)
  Theorem module_precedence defaults options header d :
    get d (fst (module_dict scopes defaults options header)) = module_value scopes defaults options header d.
  Proof.
    unfold module_dict, module_value, header_setting. rewrite header_split_spec. simpl.
    rewrite !get_update, <- filter_rev.
    rewrite (get_filter_key (fun x => scope_ok scopes x w_module)). fold w_module.
    destruct (scope_ok scopes d w_module); reflexivity.
  Qed.

  (* module + forest: the value in effect for the code at a path *)
  Theorem effective_in_module defaults options header body d :
    mem d non_inherited = false -> Forall scalar_tree body ->
    let '(md, l, st, _) := visit_module scopes immediate non_inherited defaults options header body in
    st = md /\
    forall p a, lookup_path l p = Some a ->
      Some (get d (body_dict a)) =
      spec_at scopes immediate d (module_value scopes defaults options header d) body p.
  Proof.
    intros Hm Hs. unfold visit_module.
    pose proof (module_precedence defaults options header d) as Hmod.
    destruct (module_dict scopes defaults options header) as [md rej]. simpl in Hmod.
    pose proof (effective_directive scopes immediate non_inherited d md body Hm Hs) as H.
    destruct (visit_list scopes immediate non_inherited md body) as [[l st] e].
    rewrite <- Hmod. exact H.
  Qed.

  (* settings never leak to siblings or outward: two programs that agree on the nodes ON the
     path (kinds and settings) give the same value there, whatever else they contain *)
  Fixpoint same_on_path (f1 f2 : list tree) (p : list nat) : Prop :=
    match p with
    | [] => True
    | i :: q => match nth_error f1 i, nth_error f2 i with
                | Some (Node k1 s1 c1), Some (Node k2 s2 c2) =>
                    k1 = k2 /\ s1 = s2 /\ match q with [] => True | _ => same_on_path c1 c2 q end
                | _, _ => False
                end
    end.

  Lemma spec_at_same d : forall p f1 f2 outer, same_on_path f1 f2 p ->
    spec_at scopes immediate d outer f1 p = spec_at scopes immediate d outer f2 p.
  Proof.
    induction p as [|i q IH]; intros f1 f2 outer H; [reflexivity|].
    simpl in *. destruct (nth_error f1 i) as [[k1 s1 c1]|], (nth_error f2 i) as [[k2 s2 c2]|]; try contradiction.
    destruct H as (-> & -> & H). destruct q; [reflexivity|]. apply IH, H.
  Qed.

  Theorem no_leak d cur f1 f2 p a1 a2 :
    mem d non_inherited = false -> Forall scalar_tree f1 -> Forall scalar_tree f2 ->
    same_on_path f1 f2 p ->
    lookup_path (fst (fst (visit_list scopes immediate non_inherited cur f1))) p = Some a1 ->
    lookup_path (fst (fst (visit_list scopes immediate non_inherited cur f2))) p = Some a2 ->
    get d (body_dict a1) = get d (body_dict a2).
  Proof.
    intros Hm S1 S2 Hsame L1 L2.
    pose proof (effective_directive scopes immediate non_inherited d cur f1 Hm S1) as H1.
    pose proof (effective_directive scopes immediate non_inherited d cur f2 Hm S2) as H2.
    destruct (visit_list scopes immediate non_inherited cur f1) as [[l1 st1] e1].
    destruct (visit_list scopes immediate non_inherited cur f2) as [[l2 st2] e2].
    simpl in *. destruct H1 as [_ H1], H2 as [_ H2].
    specialize (H1 p a1 L1). specialize (H2 p a2 L2).
    rewrite (spec_at_same d p f1 f2 _ Hsame) in H1. congruence.
  Qed.

  (* a setting that is illegal in its scope is reported (and, by explicit_for_contents /
     header_setting in the theorems above, never applied) *)
  Theorem scope_violation_rejected cur k sets ch n v :
    k <> KProbe -> In (n, v) sets -> scope_ok scopes n (scope_name k) = false ->
    In (n, scope_name k) (snd (visit scopes immediate non_inherited cur (Node k sets ch))).
  Proof.
    intros Hk Hin Hs.
    assert (He : In (n, scope_name k) (snd (enter scopes immediate non_inherited cur k sets))).
    { pose proof (proj1 (in_rev sets (n, v)) Hin) as Hin'.
      rewrite enter_rej. destruct k; apply (rejected_in scopes _ _ n v); assumption. }
    rewrite (visit_node scopes immediate non_inherited cur k sets ch Hk).
    destruct (enter scopes immediate non_inherited cur k sets) as [[[new newc]|] rej];
      destruct (visit_list scopes immediate non_inherited _ ch) as [[l st] e];
      simpl; apply in_or_app; left; exact He.
  Qed.

  (* executable check over a concrete scopes table: for every entry (d, legal) and every scope
     kind, a node of that kind setting d is accepted iff its scope name is in legal; when it is
     rejected the value seen by the enclosed code is the surrounding one *)
  Definition one_scope_check (defaults : dict) (d : str) (legal : list str) (k : kind) : bool :=
    let v := VStr [42] in
    let '(a, st, rej) := visit scopes immediate non_inherited defaults (Node k [(d, v)] [Node KProbe [] []]) in
    let inside := match achildren a with p :: _ => get d (body_dict p) | [] => None end in
    if mem (scope_name k) legal
    then match rej with [] => true | _ => false end
    else match rej with [(n, s)] => str_eqb n d && str_eqb s (scope_name k) | _ => false end
         && match inside, get d defaults with
            | Some x, Some y => value_eqb x y | None, None => true | _, _ => false end.

  Definition header_scope_check (defaults : dict) (d : str) (legal : list str) : bool :=
    let v := VStr [42] in
    let '(md, rej) := module_dict scopes defaults [] [(d, v)] in
    if mem w_module legal
    then match rej with [] => true | _ => false end
    else match rej with [(n, s)] => str_eqb n d && str_eqb s w_module | _ => false end
         && match get d md, get d defaults with
            | Some x, Some y => value_eqb x y | None, None => true | _, _ => false end.

  Definition scope_table_check (defaults : dict) : bool :=
    forallb (fun e => match snd e with [] => false | _ => true end &&
                      header_scope_check defaults (fst e) (snd e) &&
                      forallb (one_scope_check defaults (fst e) (snd e)) [KFunc; KClass; KCClass; KWith])
            scopes.

  (* The check does not depend on what the table says: it passes for every table that lists each
     directive once, with a non-empty list of scopes.  A single setting is reported exactly when
     its scope is not listed, and a reported one installs nothing. *)
  Lemma enter_single_rejected cur k d v : scope_ok scopes d (scope_name k) = false ->
    enter scopes immediate non_inherited cur k [(d, v)] = (None, [(d, scope_name k)]).
  Proof.
    intros Hs. destruct k; unfold enter, extract_directives; simpl in Hs |- *; rewrite Hs; reflexivity.
  Qed.

  Lemma one_scope_check_ok defaults d legal k : k <> KProbe ->
    scope_ok scopes d (scope_name k) = mem (scope_name k) legal -> one_scope_check defaults d legal k = true.
  Proof.
    intros Hk Hs. unfold one_scope_check. rewrite (visit_node scopes immediate non_inherited _ _ _ _ Hk).
    destruct (mem (scope_name k) legal).
    - assert (R : snd (enter scopes immediate non_inherited defaults k [(d, VStr [42])]) = []).
      { rewrite enter_rej. unfold rejected. destruct k; simpl in Hs |- *; rewrite Hs; reflexivity. }
      destruct (enter scopes immediate non_inherited defaults k [(d, VStr [42])]) as [[[new newc]|] rej];
        simpl in R; subst rej; reflexivity.
    - rewrite enter_single_rejected by exact Hs. simpl. rewrite !str_eqb_refl.
      destruct (get d defaults) as [x|]; [apply value_eqb_refl|reflexivity].
  Qed.

  Lemma header_scope_check_ok defaults d legal :
    scope_ok scopes d w_module = mem w_module legal -> header_scope_check defaults d legal = true.
  Proof.
    intros Hs. unfold header_scope_check, module_dict. rewrite header_split_spec. unfold rejected. simpl.
    rewrite Hs. destruct (mem w_module legal); simpl; [reflexivity|]. rewrite !str_eqb_refl.
    destruct (get d defaults) as [x|]; [apply value_eqb_refl|reflexivity].
  Qed.

  Lemma scope_table_check_ok defaults :
    forallb (fun e => match snd e, lookup_scopes (fst e) scopes with
                      | _ :: _, Some l => strs_eqb l (snd e)
                      | _, _ => false end) scopes = true ->
    scope_table_check defaults = true.
  Proof.
    intros H. apply forallb_forall. intros [d legal] Hin. rewrite forallb_forall in H. specialize (H _ Hin).
    simpl in H |- *. destruct legal as [|s0 legal]; [discriminate|].
    destruct (lookup_scopes d scopes) as [l|] eqn:L; [|discriminate]. apply strs_eqb_eq in H. subst l.
    assert (Hs : forall s, scope_ok scopes d s = mem s (s0 :: legal)).
    { intros s. unfold scope_ok. rewrite L. reflexivity. }
    rewrite header_scope_check_ok, !one_scope_check_ok by (try discriminate; apply Hs). reflexivity.
  Qed.

  (* for a directive outside the immediate set the specification does not depend on the set:
     it is the plain rule "innermost enclosing explicit setting" *)
  Lemma spec_at_not_immediate d : mem d immediate = false ->
    forall p forest outer, spec_at scopes immediate d outer forest p = spec_at scopes [] d outer forest p.
  Proof.
    intros Hm. induction p as [|i q IH]; intros forest outer; [reflexivity|].
    simpl. destruct (nth_error forest i) as [[k sets ch]|]; [|reflexivity].
    assert (E : explicit_for_contents scopes immediate k sets d = explicit_for_contents scopes [] k sets d).
    { unfold explicit_for_contents. rewrite Hm. destruct k; reflexivity. }
    rewrite E. destruct q; [reflexivity|]. apply IH.
  Qed.

  Theorem inherited_directive d cur forest :
    mem d immediate = false -> mem d non_inherited = false -> Forall scalar_tree forest ->
    let '(l, st, _) := visit_list scopes immediate non_inherited cur forest in
    st = cur /\
    forall p a, lookup_path l p = Some a ->
                Some (get d (body_dict a)) = spec_at scopes [] d (get d cur) forest p.
  Proof.
    intros Hi Hm Hs.
    pose proof (effective_directive scopes immediate non_inherited d cur forest Hm Hs) as H.
    destruct (visit_list scopes immediate non_inherited cur forest) as [[l st] e].
    destruct H as [H1 H2]. split; [exact H1|]. intros p a Hl.
    rewrite <- (spec_at_not_immediate d Hi). apply H2, Hl.
  Qed.

  (* a decorated def / class / cdef class: the object itself sees its own first legal decorator
     setting of every directive; the code it encloses sees it unless the directive is immediate *)
  Theorem decorated_object d cur k sets ch :
    k <> KProbe -> k <> KWith -> scalar_tree (Node k sets ch) -> mem d non_inherited = false ->
    let '(a, st, _) := visit scopes immediate non_inherited cur (Node k sets ch) in
    st = cur /\
    get d (node_dict a) = or_else (first_setting scopes d k sets) (get d cur) /\
    get d (body_dict a) = or_else (if mem d immediate then None else first_setting scopes d k sets) (get d cur).
  Proof.
    intros Hk Hw Hs Hm.
    pose proof (node_ok_all scopes immediate non_inherited d (Node k sets ch) Hm Hs cur) as Hn.
    inversion Hs as [? ? ? Ss Sch]; subst.
    pose proof (enter_spec scopes immediate non_inherited d cur k sets Hk Ss Hm) as He.
    cbv beta iota in Hn. rewrite (visit_node scopes immediate non_inherited cur k sets ch Hk) in Hn |- *.
    rewrite (explicit_decorated scopes immediate k sets d Hw Hk) in Hn.
    destruct (enter scopes immediate non_inherited cur k sets) as [[[new newc]|] rej];
      destruct (visit_list scopes immediate non_inherited _ ch) as [[l st'] e];
      destruct Hn as (H1 & H2 & _); destruct He as [_ He];
      (split; [exact H1|]; split; [exact (He Hw)|exact H2]).
  Qed.

  (* what the table check gives for each documented behaviour directive *)
  Lemma immediate_table_behaviour d :
    immediate_table_ok immediate scopes non_inherited = true -> In d doc_behaviour ->
    mem d immediate = false /\ mem d non_inherited = false.
  Proof.
    unfold immediate_table_ok. rewrite !andb_true_iff, forallb_forall. intros ((_ & H) & _) Hd.
    specialize (H d Hd). rewrite andb_true_iff, !negb_true_iff in H. exact H.
  Qed.

  Lemma immediate_table_members d :
    immediate_table_ok immediate scopes non_inherited = true ->
    mem d immediate = true -> mem d doc_immediate = true /\ restricted_scope scopes d = true.
  Proof.
    unfold immediate_table_ok, same_set, subset. rewrite !andb_true_iff, !forallb_forall.
    intros (((H & _) & _) & H3) Hd. apply mem_In in Hd. split; [apply H, Hd|apply H3, Hd].
  Qed.
End ScopeProofs2.
