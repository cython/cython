(* C07 -- the destination rule of a ** b (PowNode.compute_c_result_type + PowNode.coerce_to):
   proofs about Model/M_PowDoc.v.  Every domain here is a finite product of enumerations; the
   statements are universally quantified and proved by exhaustive case analysis. *)
From Coq Require Import List Bool.
From CyVerif Require Import Model.M_PowDoc.
Import ListNotations.

Ltac all_cases :=
  repeat match goal with
         | x : cpow3 |- _ => destruct x
         | x : opnd |- _ => destruct x
         | x : ekind |- _ => destruct x
         | x : atype |- _ => destruct x
         | x : bkind |- _ => destruct x
         | x : dest |- _ => destruct x
         | x : bool |- _ => destruct x
         end.

(* the deterministic type function stays inside the documented (relational) table *)
Lemma pow_type_in_doc : forall cpow a b, doc_allows cpow a b (pow_type cpow (OC a) (EC b)) = true.
Proof. intros. all_cases; reflexivity. Qed.

(* model of the code = rule read from the documentation side *)
Lemma pow_coerced_eq_doc : forall c a b d, pow_coerced c a b d = doc_coerced c a b d.
Proof. intros [] a b d; [|reflexivity|reflexivity]. all_cases; reflexivity. Qed.

(* an explicit directive value fixes the type; the destination never changes it, never warns *)
Lemma explicit_dest_independent : forall c a b d,
  c <> CUnset ->
  o_type (pow_coerced c a b d) = pow_type (eff_cpow c) a b /\ o_warned (pow_coerced c a b d) = false.
Proof. intros c a b d H. destruct c; [congruence| |]; split; reflexivity. Qed.

(* a compile error is reported exactly when the (final) type is not assignable *)
Lemma rejected_iff_not_assignable : forall c a b d,
  o_rejected (pow_coerced c a b d) = negb (assignable (o_type (pow_coerced c a b d)) d).
Proof. reflexivity. Qed.

(* unset: either exactly the cpow=False rule, or the warned fallback, which needs a direct C
   int/float destination and C real operands, and then gives the cpow=True column *)
Lemma unset_is_false_or_fallback : forall a b d,
  (o_warned (pow_coerced CUnset a b d) = false /\ pow_coerced CUnset a b d = pow_coerced CFalse a b d) \/
  (o_warned (pow_coerced CUnset a b d) = true /\ is_direct_c_real d = true /\
   o_is_c_real a = true /\ e_is_c_real b = true /\
   o_type (pow_coerced CUnset a b d) = pow_type true a b /\ pow_type true a b <> pow_type false a b).
Proof.
  intros a b d. destruct (fallback_fires CUnset a b d) eqn:Hfb.
  - right. revert Hfb. all_cases; intros Hfb; try discriminate Hfb; repeat (split; try reflexivity); discriminate.
  - left. unfold pow_coerced. rewrite Hfb. split; reflexivity.
Qed.

(* base known non-negative, or exponent known integral: a real base cannot give a complex power *)
Definition provably_real (a : opnd) (b : ekind) : bool :=
  match a, b with
  | OC AUInt, EC _ | OPosFloat, EC _ | OPosIntConst, EC _ => true
  | OC _, EC k => b_is_int k || match k with BIntegralFloatConst => true | _ => false end
  | _, _ => false
  end.
Definition exponent_nonneg (b : ekind) : bool :=
  match b with EC BNonNegIntConst | EC BRuntimeUnsignedInt => true | _ => false end.

(* cpow=False (explicit): C semantics are only ever delivered where they coincide with Python's:
   C pow() only for provably real results, the C integer helper only for exponents known >= 0,
   whatever the destination *)
Lemma explicit_false_c_semantics_safe : forall a b d real,
  match deliver (o_type (pow_coerced CFalse a b d)) d real with
  | VFloat => provably_real a b = true
  | VInt => exponent_nonneg b = true
  | _ => True
  end.
Proof.
  intros a b.
  assert (Hi : pow_type false a b = RInt -> exponent_nonneg b = true) by (all_cases; (discriminate || reflexivity)).
  assert (Hf : pow_type false a b = RFloat -> provably_real a b = true) by (all_cases; (discriminate || reflexivity)).
  intros d real. change (o_type (pow_coerced CFalse a b d)) with (pow_type false a b).
  destruct (pow_type false a b); destruct d, real; cbn; auto.
Qed.

(* cpow=False (explicit), type soft complex: a non-real result never reaches a C real silently *)
Lemma explicit_false_nonreal_raises : forall a b,
  pow_type false a b = RSoftComplex ->
  deliver (o_type (pow_coerced CFalse a b DCFloat)) DCFloat false = VTypeError /\
  o_rejected (pow_coerced CFalse a b DCInt) = true /\
  deliver (o_type (pow_coerced CFalse a b DPyObj)) DPyObj false = VPyComplex /\
  deliver (o_type (pow_coerced CFalse a b DNone)) DNone false = VPyComplex.
Proof. intros a b H. all_cases; try discriminate H; repeat split; reflexivity. Qed.

Lemma pow_type_true_not_soft : forall a b, pow_type true a b <> RSoftComplex.
Proof. intros. all_cases; discriminate. Qed.

Lemma deliver_type_error : forall r d real, deliver r d real = VTypeError -> r = RSoftComplex \/ r = RObj.
Proof. intros r d real. destruct r, d, real; cbn; auto; discriminate. Qed.

(* cpow=True (explicit): the type is that of the cpow=True column whatever the destination, never soft
   complex; a TypeError on delivery needs a soft complex or an object, so here an object *)
Lemma explicit_true_no_softcomplex : forall a b d real,
  o_type (pow_coerced CTrue a b d) <> RSoftComplex /\
  (deliver (o_type (pow_coerced CTrue a b d)) d real = VTypeError -> o_type (pow_coerced CTrue a b d) = RObj).
Proof.
  intros. change (o_type (pow_coerced CTrue a b d)) with (pow_type true a b).
  split; [apply pow_type_true_not_soft|]. intros H.
  destruct (deliver_type_error _ _ _ H) as [E|E]; [destruct (pow_type_true_not_soft a b E)|exact E].
Qed.

Lemma crow_ok_model : forall row, crow_ok row = crow_model_ok row.
Proof. intros [[[[c a] b] d] [[r rej] w]]. unfold crow_ok, crow_model_ok. rewrite pow_coerced_eq_doc. reflexivity. Qed.
