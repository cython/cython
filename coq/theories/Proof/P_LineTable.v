(* Proofs about M_LineTable: the location table written by LineTable.py is read back by
   CPython 3.12's readers as exactly the recorded positions. *)
From Coq Require Import ZArith List Bool Lia ZifyBool ZifyNat.
From CyVerif Require Import Lib.CInt Model.M_LineTable.
Import ListNotations.
Open Scope Z_scope.

Definition zrange (n : nat) : list Z := map Z.of_nat (seq 0 n).

Lemma zrange_forall (P : Z -> bool) (n : nat) :
  forallb P (zrange n) = true -> forall z, 0 <= z < Z.of_nat n -> P z = true.
Proof.
  intros H z Hz. rewrite forallb_forall in H. apply H. unfold zrange.
  apply in_map_iff. exists (Z.to_nat z). split; [lia|]. apply in_seq. lia.
Qed.

Lemma if_false {A} (b : bool) (x y : A) : b = false -> (if b then x else y) = y.
Proof. intros ->. reflexivity. Qed.

Lemma land63_mod v : Z.land v 63 = v mod 64.
Proof. change 63 with (Z.ones 6). rewrite Z.land_ones by lia. reflexivity. Qed.

Lemma shiftr6_div v : Z.shiftr v 6 = v / 64.
Proof. rewrite Z.shiftr_div_pow2 by lia. reflexivity. Qed.

Lemma recompose6 v : Z.lor (Z.land v 63) (Z.shiftl (Z.shiftr v 6) 6) = v.
Proof. change 63 with (Z.ones 6). rewrite <- Z.ldiff_ones_r, Z.lor_comm by lia. apply Z.lor_ldiff_and. Qed.

(* a 6-bit value c as continuation byte 64 | c and as final byte c of a varint *)
Definition bits6_chk (c : Z) : bool :=
  let b := Z.lor 64 c in
  (Z.land b 63 =? c) && negb (Z.land b 64 =? 0) && (64 <=? b) && (b <? 128)
  && (Z.land c 63 =? c) && (Z.land c 64 =? 0).
Lemma bits6_all : forall c, 0 <= c < 64 -> bits6_chk c = true.
Proof. apply (zrange_forall bits6_chk 64). vm_compute. reflexivity. Qed.

(* payload bytes (< 128) are skipped by advance(), entry starts (>= 128) are not *)
Definition bit7_chk (b : Z) : bool := (Z.land b 128 =? 0) && negb (Z.land (128 + b) 128 =? 0).
Lemma bit7_all : forall b, 0 <= b < 128 -> bit7_chk b = true.
Proof. apply (zrange_forall bit7_chk 128). vm_compute. reflexivity. Qed.

Definition payload (bs : list Z) : Prop := Forall (fun b => 0 <= b < 128) bs.

(* the varint reader on a final byte c and on a continuation byte 64 | c *)
Lemma read_last c r val shift : 0 <= c < 64 ->
  read_varint_loop (c :: r) val shift = Some (Z.lor val (Z.shiftl c shift), r).
Proof.
  intros Hc. pose proof (bits6_all c Hc) as K. unfold bits6_chk in K. cbn [read_varint_loop].
  replace (Z.land c 63) with c by lia. replace (Z.land c 64 =? 0) with true by lia. reflexivity.
Qed.

Lemma read_cont c r val shift : 0 <= c < 64 ->
  read_varint_loop (Z.lor 64 c :: r) val shift = read_varint_loop r (Z.lor val (Z.shiftl c shift)) (shift + 6).
Proof.
  intros Hc. pose proof (bits6_all c Hc) as K. unfold bits6_chk in K. cbn [read_varint_loop].
  replace (Z.land (Z.lor 64 c) 63) with c by lia. replace (Z.land (Z.lor 64 c) 64 =? 0) with false by lia.
  reflexivity.
Qed.

Lemma cont_range c : 0 <= c < 64 -> 0 <= Z.lor 64 c < 128.
Proof. intros Hc. pose proof (bits6_all c Hc) as K. unfold bits6_chk in K. lia. Qed.

Lemma varint_loop_ok : forall fuel v,
  0 <= v -> Z.log2 v < Z.of_nat fuel ->
  exists bs, varint_loop fuel v = EOk bs /\ payload bs /\
    forall rest val shift, 0 <= shift ->
      read_varint_loop (bs ++ rest) val shift = Some (Z.lor val (Z.shiftl v shift), rest).
Proof.
  induction fuel as [|f IH]; intros v Hv Hf.
  - pose proof (Z.log2_nonneg v). lia.
  - cbn [varint_loop]. destruct (Z.leb_spec 64 v) as [Hbig|Hsmall].
    + destruct (IH (Z.shiftr v 6)) as (bs & -> & P & R).
      { rewrite shiftr6_div. lia. }
      { rewrite Z.log2_shiftr by lia. pose proof (Z.log2_le_mono 64 v Hbig) as L.
        change (Z.log2 64) with 6 in L. lia. }
      assert (Hc : 0 <= Z.land v 63 < 64) by (rewrite land63_mod; lia).
      exists (Z.lor 64 (Z.land v 63) :: bs). split; [reflexivity|]. split.
      * constructor; [exact (cont_range _ Hc)|exact P].
      * intros rest val shift Hs. cbn [app]. rewrite read_cont, R by lia.
        rewrite <- Z.lor_assoc, (Z.add_comm shift), <- Z.shiftl_shiftl, <- Z.shiftl_lor, recompose6 by lia.
        reflexivity.
    + exists [v]. split; [reflexivity|]. split; [repeat constructor; lia|].
      intros rest val shift _. apply read_last. lia.
Qed.

(* bs is read back as the varint v, whatever follows it *)
Definition varint_of (v : Z) (bs : list Z) : Prop :=
  payload bs /\ forall rest, read_varint (bs ++ rest) = Some (v, rest).

Lemma encode_varint_ok v : 0 <= v -> exists bs, encode_varint v = EOk bs /\ varint_of v bs.
Proof.
  intros Hv. unfold encode_varint. rewrite if_false by lia.
  destruct (varint_loop_ok (varint_fuel v) v Hv) as (bs & E & P & R).
  { unfold varint_fuel. pose proof (Z.log2_nonneg v). lia. }
  exists bs. split; [exact E|]. split; [exact P|].
  intros rest. unfold read_varint. rewrite R by lia.
  rewrite Z.shiftl_0_r, Z.lor_0_l. reflexivity.
Qed.

Lemma signed_even d : signed_of_uval (Z.shiftl d 1) = d.
Proof.
  unfold signed_of_uval. rewrite Z.shiftr_shiftl_l by lia.
  change 1 with (Z.ones 1) at 2. rewrite Z.land_ones, Z.shiftl_mul_pow2, Z.mod_mul by lia. apply Z.shiftl_0_r.
Qed.

Definition wf_pos (p : pos) : Prop :=
  let '(sl, el, sc, ec) := p in 0 <= sl /\ sl <= el /\ 0 <= sc /\ 0 <= ec.

(* what the encoder carries to the next entry *)
Definition next_last (fx : bool) (p : pos) : Z := if fx then p_start p else p_end p.

(* the encoder's own precondition chain: every start line >= the carried "last line" *)
Fixpoint chain (fx : bool) (last : Z) (ps : list pos) : Prop :=
  match ps with
  | [] => True
  | p :: r => last <= p_start p /\ chain fx (next_last fx p) r
  end.

(* sorted by start line, first <= first start: the documented input *)
Definition sorted_from (first : Z) (ps : list pos) : Prop := chain true first ps.

(* one table entry: start byte with bit 7 set, length field 0 (one code unit), then payload *)
Definition entry_wf (e : list Z) : Prop :=
  exists h t, e = h :: t /\ 128 <= h < 256 /\ Z.land h 7 = 0 /\ payload t.

Definition table_wf (n : nat) (bs : list Z) : Prop :=
  exists entries, bs = concat entries /\ length entries = n /\ Forall entry_wf entries.

Definition starts_ok (bs : list Z) : Prop :=
  match bs with [] => True | h :: _ => 128 <= h < 256 end.

Lemma entry_starts b rest : entry_wf b -> starts_ok (b ++ rest).
Proof. intros (h & t & -> & Hh & _). cbn. lia. Qed.

Lemma entry_length b : entry_wf b -> (1 <= length b)%nat.
Proof. intros (h & t & -> & _). cbn. lia. Qed.

Lemma entry_bytes b : entry_wf b -> Forall (fun x => 0 <= x < 256) b.
Proof.
  intros (h & t & -> & Hh & _ & Pt). constructor; [lia|].
  eapply Forall_impl; [|exact Pt]. cbn. intros; lia.
Qed.

Lemma chars_ok l : Forall (fun b => 0 <= b < 256) l -> chars l = EOk l.
Proof.
  intros H. unfold chars. replace (forallb byte_ok l) with true; [reflexivity|].
  symmetry. apply forallb_forall. intros b Hb. rewrite Forall_forall in H. specialize (H b Hb).
  unfold byte_ok. lia.
Qed.

Lemma skip_payload_app t rest : payload t -> starts_ok rest -> skip_payload (t ++ rest) = rest.
Proof.
  intros P S. induction P as [|b t Hb P IH]; cbn [app].
  - destruct rest as [|h r]; [reflexivity|]. cbn [skip_payload]. cbn in S.
    pose proof (bit7_all (h - 128) ltac:(lia)) as K. unfold bit7_chk in K.
    replace (128 + (h - 128)) with h in K by lia.
    destruct (Z.eqb_spec (Z.land h 128) 0); [lia|reflexivity].
  - cbn [skip_payload]. pose proof (bit7_all b Hb) as K. unfold bit7_chk in K.
    destruct (Z.eqb_spec (Z.land b 128) 0); [exact IH|lia].
Qed.

(* Both readers, started with computed line [last] on the entry e followed by anything, take e as one
   code unit at position p: co_positions() yields p, co_lines() its start line. *)
Definition reads (e : list Z) (p : pos) (last : Z) : Prop :=
  entry_wf e /\
  (forall rest, advance_with_locations (e ++ rest) last = Some (p, 1, p_start p, rest)) /\
  (forall rest, starts_ok rest -> advance (e ++ rest) last = Some (p_start p, 1, p_start p, rest)).

(* encode_location_start: the start byte 128 | code << 3 (length field 0) of an entry, as the readers take
   it apart; code 15 (no location) is never written *)
Definition start_chk (c : Z) : bool :=
  let h := Z.lor 128 (Z.shiftl c 3) in
  (128 <=? h) && (h <? 256) && (Z.land h 7 =? 0) && (entry_code h =? c) && negb (Z.shiftr h 3 =? 31).
Lemma start_all : forall c, 0 <= c < 15 -> start_chk c = true.
Proof. apply (zrange_forall start_chk 15). vm_compute. reflexivity. Qed.

(* What is left to show of an entry with code c: what the position reader makes of the payload, and the line
   delta.  The line reader needs no more: it skips the payload up to the next start byte. *)
Lemma reads_intro c t p last :
  0 <= c < 15 -> payload t ->
  (forall h rest, entry_code h = c ->
     advance_with_locations (h :: t ++ rest) last = Some (p, entry_units h, p_start p, rest)) ->
  (forall h rest, entry_code h = c -> get_line_delta (h :: t ++ rest) = Some (p_start p - last)) ->
  reads (Z.lor 128 (Z.shiftl c 3) :: t) p last.
Proof.
  intros Hc P A G. pose proof (start_all c Hc) as K. unfold start_chk in K.
  set (h := Z.lor 128 (Z.shiftl c 3)) in *.
  assert (Hh : 128 <= h < 256 /\ Z.land h 7 = 0 /\ entry_code h = c /\ Z.shiftr h 3 <> 31) by lia.
  clear K. destruct Hh as (Hh & Hlen & Hcode & Hnm).
  assert (U : entry_units h = 1) by (unfold entry_units; lia).
  split; [exists h, t; auto|]. split; intros rest; cbn [app].
  - rewrite (A h rest Hcode), U. reflexivity.
  - intros S. unfold advance. rewrite (G h rest Hcode), U, (skip_payload_app t rest P S).
    destruct (Z.eqb_spec (Z.shiftr h 3) 31); [contradiction|].
    replace (last + (p_start p - last)) with (p_start p) by lia. reflexivity.
Qed.

(* in the next four lemmas every test of the reader's dispatch is decided by the range of the code *)
Lemma awl_short b1 b2 rest line :
  0 <= entry_code b1 <= 9 ->
  advance_with_locations (b1 :: b2 :: rest) line =
  Some ((line, line, Z.lor (Z.shiftl (entry_code b1) 3) (Z.shiftr b2 4),
         Z.lor (Z.shiftl (entry_code b1) 3) (Z.shiftr b2 4) + Z.land b2 15),
        entry_units b1, line, rest).
Proof. intros H. unfold advance_with_locations. rewrite !if_false by lia. reflexivity. Qed.

Lemma awl_oneline b1 c ec rest line :
  10 <= entry_code b1 <= 12 ->
  advance_with_locations (b1 :: c :: ec :: rest) line =
  Some ((line + (entry_code b1 - 10), line + (entry_code b1 - 10), c, ec),
        entry_units b1, line + (entry_code b1 - 10), rest).
Proof.
  intros H. unfold advance_with_locations. rewrite !if_false by lia.
  replace ((10 <=? entry_code b1) && (entry_code b1 <=? 12)) with true by lia. reflexivity.
Qed.

Lemma gld_short b1 r : 0 <= entry_code b1 <= 9 -> get_line_delta (b1 :: r) = Some 0.
Proof. intros H. unfold get_line_delta. rewrite !if_false by lia. reflexivity. Qed.

Lemma gld_oneline b1 r : 10 <= entry_code b1 <= 12 -> get_line_delta (b1 :: r) = Some (entry_code b1 - 10).
Proof.
  intros H. unfold get_line_delta. rewrite !if_false by lia.
  assert (entry_code b1 = 10 \/ entry_code b1 = 11 \/ entry_code b1 = 12) as [E | [E | E]] by lia.
  all: rewrite E; reflexivity.
Qed.

(* the second byte of the short form and the code of the first, by enumeration of (start column, width) *)
Definition short_chk1 (sc dd : Z) : bool :=
  match short_bytes sc (sc + dd) with
  | [_; b2] =>
      (0 <=? Z.shiftr sc 3) && (Z.shiftr sc 3 <=? 9) && (0 <=? b2) && (b2 <? 128)
      && (Z.lor (Z.shiftl (Z.shiftr sc 3) 3) (Z.shiftr b2 4) =? sc) && (Z.land b2 15 =? dd)
  | _ => false
  end.
Definition short_chk (sc : Z) : bool := forallb (short_chk1 sc) (zrange 16).
Lemma short_all : forall sc dd, 0 <= sc < 80 -> 0 <= dd < 16 -> short_chk1 sc dd = true.
Proof.
  intros sc dd Hsc Hdd.
  assert (H : short_chk sc = true) by (revert sc Hsc; apply (zrange_forall short_chk 80); vm_compute; reflexivity).
  unfold short_chk in H. exact (zrange_forall _ 16 H dd Hdd).
Qed.

(* the three entry forms of encode_single_position *)
Lemma short_reads line sc ec :
  0 <= sc < 80 -> 0 <= ec - sc < 16 -> reads (short_bytes sc ec) (line, line, sc, ec) line.
Proof.
  intros Hc Hd. pose proof (short_all sc (ec - sc) Hc Hd) as K. unfold short_chk1 in K.
  replace (sc + (ec - sc)) with ec in K by lia. unfold short_bytes in *.
  set (b2 := Z.lor (Z.shiftl _ 4) _) in *.
  apply reads_intro; [lia|repeat constructor; lia| |]; intros h rest Eh; cbn [app p_start].
  - rewrite awl_short, Eh by lia. replace (Z.lor _ (Z.shiftr b2 4)) with sc by lia.
    replace (Z.land b2 15) with (ec - sc) by lia. repeat f_equal. lia.
  - rewrite gld_short by lia. f_equal. lia.
Qed.

Lemma oneline_reads last sl sc ec :
  0 <= sl - last < 3 -> 0 <= sc < 128 -> 0 <= ec < 128 ->
  reads (oneline_bytes (sl - last) sc ec) (sl, sl, sc, ec) last.
Proof.
  intros Hd Hc He. unfold oneline_bytes.
  apply reads_intro; [lia|repeat constructor; lia| |]; intros h rest Eh; cbn [app p_start].
  - rewrite awl_oneline, Eh by lia. repeat f_equal; lia.
  - rewrite gld_oneline, Eh by lia. f_equal. lia.
Qed.

Lemma long_reads last sl el sc ec v1 v2 v3 v4 :
  varint_of (Z.shiftl (sl - last) 1) v1 -> varint_of (el - sl) v2 ->
  varint_of (sc + 1) v3 -> varint_of (ec + 1) v4 ->
  reads (long_start :: v1 ++ v2 ++ v3 ++ v4) (sl, el, sc, ec) last.
Proof.
  intros (P1 & R1) (P2 & R2) (P3 & R3) (P4 & R4). unfold long_start.
  apply reads_intro; [lia|repeat (apply Forall_app; split); assumption| |].
  all: intros h rest Eh; cbn [p_start]; rewrite <- !app_assoc.
  - unfold advance_with_locations, read_signed_varint. rewrite Eh. cbn [Z.eqb Pos.eqb].
    rewrite R1, R2, R3, R4, signed_even. repeat f_equal; lia.
  - unfold get_line_delta, scan_signed_varint, scan_varint. rewrite Eh. cbn [Z.eqb Pos.eqb orb].
    rewrite R1, signed_even. reflexivity.
Qed.

Lemma entry_ok fx p last :
  wf_pos p -> last <= p_start p ->
  exists b, encode_single fx p last = EOk (b, next_last fx p) /\ reads b p last.
Proof.
  destruct p as [[[sl el] sc] ec]. unfold wf_pos, next_last. cbn [p_start p_end].
  intros (Hsl & Hel & Hsc & Hec) Hlast.
  unfold encode_single. rewrite if_false by lia. cbv zeta.
  destruct ((el =? sl) && ((sl - last =? 0) && (sc <? 80) && ((0 <=? ec - sc) && (ec - sc <? 16)))) eqn:Eshort;
    [|destruct ((el =? sl) && ((0 <=? sl - last) && (sl - last <? 3) && (sc <? 128) && (ec <? 128))) eqn:Eone].
  - assert (el = sl /\ sl = last) as (-> & <-) by lia.
    assert (R : reads (short_bytes sc ec) (sl, sl, sc, ec) sl) by (apply short_reads; lia).
    exists (short_bytes sc ec). split; [|exact R].
    rewrite chars_ok by apply entry_bytes, R. destruct fx; reflexivity.
  - assert (el = sl) as -> by lia.
    assert (R : reads (oneline_bytes (sl - last) sc ec) (sl, sl, sc, ec) last) by (apply oneline_reads; lia).
    exists (oneline_bytes (sl - last) sc ec). split; [|exact R].
    rewrite chars_ok by apply entry_bytes, R. destruct fx; reflexivity.
  - destruct (encode_varint_ok (Z.shiftl (sl - last) 1)) as (v1 & -> & V1).
    { rewrite Z.shiftl_mul_pow2; lia. }
    destruct (encode_varint_ok (el - sl)) as (v2 & -> & V2); [lia|].
    destruct (encode_varint_ok (sc + 1)) as (v3 & -> & V3); [lia|].
    destruct (encode_varint_ok (ec + 1)) as (v4 & -> & V4); [lia|].
    exists (long_start :: v1 ++ v2 ++ v3 ++ v4). split; [destruct fx; reflexivity|].
    apply long_reads; assumption.
Qed.

(* total + well-formed output, for both variants, under the variant's own precondition chain *)
Lemma build_loop_wf fx : forall ps last,
  Forall wf_pos ps -> chain fx last ps ->
  exists bs, build_loop fx ps last = EOk bs /\ table_wf (length ps) bs /\ Forall (fun b => 0 <= b < 256) bs.
Proof.
  induction ps as [|p r IH]; intros last W C.
  - exists []. split; [reflexivity|]. split; [exists []; repeat split; constructor|constructor].
  - inversion W as [|? ? Wp Wr]; subst. destruct C as [Cl Cr].
    destruct (entry_ok fx p last Wp Cl) as (b & E & EW & _).
    destruct (IH _ Wr Cr) as (bs & EB & (entries & -> & Hn & HF) & Hby).
    exists (b ++ concat entries). cbn [build_loop]. rewrite E. cbn [ebind snd fst]. rewrite EB. cbn [ebind].
    split; [reflexivity|]. split.
    + exists (b :: entries). cbn [concat length]. repeat split; [lia|constructor; assumption].
    + apply Forall_app. split; [exact (entry_bytes b EW)|exact Hby].
Qed.

Lemma reads_decode e p last fuel rest ps :
  reads e p last -> decode_loop fuel rest (p_start p) = DOk ps ->
  decode_loop (S fuel) (e ++ rest) last = DOk (p :: ps).
Proof.
  intros ((h & t & -> & _) & A & _) D. specialize (A rest). cbn [app] in *.
  cbn [decode_loop]. rewrite A, D. reflexivity.
Qed.

Lemma reads_lines e p last fuel rest ls :
  reads e p last -> starts_ok rest -> lines_loop fuel rest (p_start p) = LOk ls ->
  lines_loop (S fuel) (e ++ rest) last = LOk (p_start p :: ls).
Proof.
  intros ((h & t & -> & _) & _ & A) S D. specialize (A rest S). cbn [app] in *.
  cbn [lines_loop]. rewrite A, D. reflexivity.
Qed.

(* round trip for the repaired variant *)
Lemma build_loop_roundtrip : forall ps last,
  Forall wf_pos ps -> sorted_from last ps ->
  exists bs, build_loop true ps last = EOk bs /\ starts_ok bs /\
    (forall fuel, (length bs <= fuel)%nat -> decode_loop fuel bs last = DOk ps) /\
    (forall fuel, (length bs <= fuel)%nat -> lines_loop fuel bs last = LOk (map p_start ps)).
Proof.
  induction ps as [|p r IH]; intros last W C.
  - exists []. split; [reflexivity|]. split; [exact I|]. split; intros fuel _; destruct fuel; reflexivity.
  - inversion W as [|? ? Wp Wr]; subst. destruct C as [Cl Cr].
    destruct (entry_ok true p last Wp Cl) as (b & E & R).
    destruct (IH _ Wr Cr) as (bs & EB & SB & D1 & D2).
    exists (b ++ bs). cbn [build_loop]. rewrite E. cbn [ebind snd fst]. rewrite EB. cbn [ebind].
    split; [reflexivity|]. split; [apply entry_starts, R|].
    pose proof (entry_length b (proj1 R)) as Lb.
    split; intros fuel Hf; rewrite app_length in Hf; (destruct fuel as [|f]; [lia|]).
    + apply (reads_decode b p last f bs r R). apply D1. lia.
    + apply (reads_lines b p last f bs _ R SB). apply D2. lia.
Qed.

Theorem decode_encode_fixed : forall ps first,
  Forall wf_pos ps -> sorted_from first ps ->
  exists bs, build_line_table true ps first = EOk bs /\
             decode_positions first bs = DOk ps /\
             decode_lines first bs = LOk (map p_start ps).
Proof.
  intros ps first W C. destruct (build_loop_roundtrip ps first W C) as (bs & E & _ & D1 & D2).
  exists bs. split; [exact E|]. split; [apply D1|apply D2]; lia.
Qed.

Theorem bytes_wellformed : forall fx ps first,
  Forall wf_pos ps -> chain fx first ps ->
  exists bs, build_line_table fx ps first = EOk bs /\ table_wf (length ps) bs /\
             Forall (fun b => 0 <= b < 256) bs.
Proof. intros fx ps first. apply build_loop_wf. Qed.

(* the code as it is agrees with the repaired variant on single-line positions *)
Definition single_line (p : pos) : Prop := p_end p = p_start p.

Lemma encode_single_fx p last : single_line p -> encode_single false p last = encode_single true p last.
Proof.
  destruct p as [[[sl el] sc] ec]. unfold single_line. cbn [p_start p_end]. intros ->. reflexivity.
Qed.

Lemma build_loop_fx : forall ps last, Forall single_line ps -> build_loop false ps last = build_loop true ps last.
Proof.
  induction ps as [|p r IH]; intros last S; [reflexivity|].
  inversion S as [|? ? Sp Sr]; subst. cbn [build_loop]. rewrite (encode_single_fx p last Sp).
  destruct (encode_single true p last) as [[b l]| | |]; cbn [ebind]; try reflexivity.
  rewrite (IH _ Sr). reflexivity.
Qed.

Theorem decode_encode_current_single_line : forall ps first,
  Forall wf_pos ps -> Forall single_line ps -> sorted_from first ps ->
  exists bs, build_line_table false ps first = EOk bs /\
             decode_positions first bs = DOk ps /\
             decode_lines first bs = LOk (map p_start ps).
Proof.
  intros ps first W S C. unfold build_line_table. rewrite (build_loop_fx ps first S).
  exact (decode_encode_fixed ps first W C).
Qed.

(* F1: the code as it is, on a multi-line span followed by another entry *)
Theorem decode_encode_current_refuted :
  exists ps first, Forall wf_pos ps /\ sorted_from first ps /\
    exists bs, build_line_table false ps first = EOk bs /\ decode_positions first bs <> DOk ps.
Proof.
  exists [(1, 3, 0, 5); (4, 4, 0, 1)], 1. split; [|split].
  - repeat constructor; cbn; lia.
  - cbn. lia.
  - eexists. split; [vm_compute; reflexivity|]. vm_compute. intros H. discriminate H.
Qed.

Theorem encode_current_rejects_sorted_refuted :
  exists ps first, Forall wf_pos ps /\ sorted_from first ps /\
    build_line_table false ps first = EAssertionError.
Proof.
  exists [(1, 3, 0, 5); (2, 2, 0, 1)], 1. split; [|split].
  - repeat constructor; cbn; lia.
  - cbn. lia.
  - vm_compute. reflexivity.
Qed.

(* the fuel of the model never runs out, on any input whatsoever *)

Lemma ebind_fuel {A B} (x : eres A) (f : A -> eres B) :
  x <> EOutOfFuel -> (forall a, f a <> EOutOfFuel) -> ebind x f <> EOutOfFuel.
Proof. intros Hx Hf. destruct x; cbn [ebind]; [apply Hf|discriminate..|contradiction]. Qed.

Lemma encode_varint_fuel v : encode_varint v <> EOutOfFuel.
Proof.
  destruct (Z.ltb_spec v 0) as [Hv|Hv].
  - unfold encode_varint. rewrite (proj2 (Z.ltb_lt v 0) Hv). discriminate.
  - destruct (encode_varint_ok v Hv) as (bs & -> & _). discriminate.
Qed.

Lemma encode_single_fuel fx p last : encode_single fx p last <> EOutOfFuel.
Proof.
  assert (C : forall l (z : Z), ebind (chars l) (fun b => EOk (b, z)) <> EOutOfFuel).
  { intros l z. unfold chars. destruct (forallb byte_ok l); discriminate. }
  destruct p as [[[sl el] sc] ec]. unfold encode_single.
  destruct (sl <? last); [discriminate|]. cbv zeta.
  destruct (_ && _); [apply C|]. destruct (_ && _); [apply C|].
  do 4 (apply ebind_fuel; [apply encode_varint_fuel|intro]). discriminate.
Qed.

Theorem build_never_out_of_fuel : forall fx ps first, build_line_table fx ps first <> EOutOfFuel.
Proof.
  intros fx ps. unfold build_line_table. induction ps as [|p r IH]; intros last; cbn [build_loop]; [discriminate|].
  apply ebind_fuel; [apply encode_single_fuel|intros bl].
  apply ebind_fuel; [apply IH|discriminate].
Qed.

Lemma read_varint_loop_shorter : forall bs val shift v r,
  read_varint_loop bs val shift = Some (v, r) -> (length r < length bs)%nat.
Proof.
  induction bs as [|b t IH]; intros val shift v r H; cbn [read_varint_loop] in H; [discriminate|].
  destruct (Z.land b 64 =? 0).
  - inversion H; subst. cbn. lia.
  - apply IH in H. cbn. lia.
Qed.

Lemma awl_shorter bs line tup n l' rest :
  advance_with_locations bs line = Some (tup, n, l', rest) -> (length rest < length bs)%nat.
Proof.
  unfold advance_with_locations, read_signed_varint, read_varint.
  destruct bs as [|b r]; [discriminate|]. cbn [length].
  destruct (entry_code b =? 15); [intros H; inversion H; subst; lia|].
  destruct (entry_code b =? 14).
  { destruct (read_varint_loop r 0 0) as [[u1 r1]|] eqn:E1; [|discriminate].
    destruct (read_varint_loop r1 0 0) as [[u2 r2]|] eqn:E2; [|discriminate].
    destruct (read_varint_loop r2 0 0) as [[u3 r3]|] eqn:E3; [|discriminate].
    destruct (read_varint_loop r3 0 0) as [[u4 r4]|] eqn:E4; [|discriminate].
    apply read_varint_loop_shorter in E1, E2, E3, E4.
    intros H; inversion H; subst. lia. }
  destruct (entry_code b =? 13).
  { destruct (read_varint_loop r 0 0) as [[u1 r1]|] eqn:E1; [|discriminate].
    apply read_varint_loop_shorter in E1. intros H; inversion H; subst. lia. }
  destruct ((10 <=? entry_code b) && (entry_code b <=? 12)).
  { destruct r as [|c [|ec r2]]; try discriminate. intros H; inversion H; subst. cbn. lia. }
  destruct r as [|c r1]; [discriminate|]. intros H; inversion H; subst. cbn. lia.
Qed.

Lemma decode_loop_fuel : forall fuel bs line, (length bs <= fuel)%nat -> decode_loop fuel bs line <> DOutOfFuel.
Proof.
  induction fuel as [|f IH]; intros bs line Hf.
  - destruct bs; [discriminate|cbn in Hf; lia].
  - destruct bs as [|b r]; [discriminate|]. cbn [decode_loop].
    destruct (advance_with_locations (b :: r) line) as [[[[tup n] l'] rest]|] eqn:E; [|discriminate].
    apply awl_shorter in E. specialize (IH rest l' ltac:(cbn in *; lia)).
    destruct (decode_loop f rest l'); try discriminate. congruence.
Qed.

Theorem decode_never_out_of_fuel : forall first bs, decode_positions first bs <> DOutOfFuel.
Proof. intros. apply decode_loop_fuel. lia. Qed.

Lemma skip_payload_le : forall bs, (length (skip_payload bs) <= length bs)%nat.
Proof.
  induction bs as [|b r IH]; [cbn; lia|]. cbn [skip_payload].
  destruct (Z.land b 128 =? 0); cbn [length]; lia.
Qed.

Lemma lines_loop_fuel : forall fuel bs line, (length bs <= fuel)%nat -> lines_loop fuel bs line <> LOutOfFuel.
Proof.
  induction fuel as [|f IH]; intros bs line Hf.
  - destruct bs; [discriminate|cbn in Hf; lia].
  - destruct bs as [|b r]; [discriminate|]. cbn [lines_loop]. unfold advance.
    destruct (get_line_delta (b :: r)); [|discriminate].
    pose proof (skip_payload_le r).
    specialize (IH (skip_payload r) (line + z) ltac:(cbn in *; lia)).
    destruct (lines_loop f (skip_payload r) (line + z)); try discriminate. congruence.
Qed.

Theorem lines_never_out_of_fuel : forall first bs, decode_lines first bs <> LOutOfFuel.
Proof. intros. apply lines_loop_fuel. lia. Qed.
