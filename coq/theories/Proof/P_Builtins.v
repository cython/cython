(* C13: proofs about Model/M_Builtins.v, numbered like its parts *)
From Coq Require Import ZArith List Bool Lia ZifyBool ZifyNat.
From CyVerif Require Import Lib.CInt Model.M_Builtins.
(* not imported: M_Index and M_Builtins both define py_slice, py_slice_adjust, is_valid_index *)
From CyVerif Require Proof.P_Index.
Import ListNotations.
Open Scope Z_scope.

(* brk: as P_Index.case_ifs, but conditions that contain no `if` themselves come first, so that no equation
   left in the context hides an `if` from lia; needed where one test is made on the outcome of another *)
Ltac brk1 :=
  match goal with
  | |- context [if ?c then _ else _] =>
      lazymatch c with
      | context [if _ then _ else _] => fail
      | _ => destruct c eqn:?
      end
  end.
Ltac brk := repeat brk1.

Lemma zlen_nonneg {A} (l : list A) : 0 <= zlen l.
Proof. unfold zlen. lia. Qed.

Lemma zlen_sub_at {A} (l : list A) p n :
  0 <= p -> 0 <= n -> p + n <= zlen l -> zlen (sub_at l p n) = n.
Proof.
  intros Hp Hn H. unfold sub_at, zlen in *. rewrite firstn_length, skipn_length. lia.
Qed.

Lemma skipn_skipn' {A} (a b : nat) (l : list A) : skipn a (skipn b l) = skipn (b + a) l.
Proof.
  revert l. induction b as [|b IH]; intros l; [reflexivity|].
  destruct l as [|x l]; [now rewrite !skipn_nil|]. cbn [skipn Nat.add]. apply IH.
Qed.

Lemma sub_at_sub_at {A} (l : list A) p k q m :
  0 <= p -> 0 <= q -> 0 <= m -> q + m <= k ->
  sub_at (sub_at l p k) q m = sub_at l (p + q) m.
Proof.
  intros Hp Hq Hm H. unfold sub_at.
  rewrite skipn_firstn_comm, firstn_firstn.
  replace (Init.Nat.min (Z.to_nat m) (Z.to_nat k - Z.to_nat q)) with (Z.to_nat m) by lia.
  rewrite skipn_skipn'. f_equal. f_equal. lia.
Qed.

Lemma sub_at_all_tail {A} (l : list A) p :
  0 <= p -> sub_at l p (zlen l - p) = skipn (Z.to_nat p) l.
Proof.
  intros Hp. unfold sub_at. apply firstn_all2. rewrite skipn_length. unfold zlen. lia.
Qed.

Lemma find_stops {A} (p : A -> bool) pre x post :
  p x = true -> find p (pre ++ x :: post) = find p (pre ++ [x]).
Proof.
  intros Hx. induction pre as [|y r IH]; cbn [app find]; [rewrite Hx; reflexivity|].
  destruct (p y); [reflexivity | exact IH].
Qed.

Lemma take_until_stops {A} (p : A -> bool) pre x post :
  p x = true -> take_until p (pre ++ x :: post) = take_until p (pre ++ [x]).
Proof.
  intros Hx. induction pre as [|y r IH]; cbn [app take_until]; [rewrite Hx; reflexivity|].
  destruct (p y); [reflexivity | rewrite IH; reflexivity].
Qed.

(* 1. list.pop *)

Lemma sadd_fits a b : ssize_min <= a + b <= ssize_max -> sadd a b = Some (a + b).
Proof. intros H. unfold sadd, fits_ssize. replace (_ && _) with true by lia. reflexivity. Qed.

Lemma is_valid_index_spec i n :
  ssize_min <= i <= ssize_max -> 0 <= n <= ssize_max ->
  is_valid_index i n = (0 <=? i) && (i <? n).
Proof. exact (P_Index.valid_index_spec i n). Qed.

Section ListPopProofs.
Context {A : Type}.

Theorem pop_index_eq (l : list A) alloc ix :
  ssize_min <= ix <= ssize_max -> zlen l <= ssize_max ->
  pyx_list_popindex l alloc ix = py_list_pop l ix.
Proof.
  intros Hix Hlen. pose proof (zlen_nonneg l) as Hn.
  unfold pyx_list_popindex.
  destruct (Z.ltb_spec (Z.shiftr alloc 1) (zlen l)) as [Hfast|]; [|reflexivity].
  replace (if ix <? 0 then sadd ix (zlen l) else Some ix)
    with (Some (if ix <? 0 then ix + zlen l else ix))
    by (destruct (Z.ltb_spec ix 0); [rewrite sadd_fits by (unfold ssize_min, ssize_max in *; lia)|]; reflexivity).
  set (cix := if ix <? 0 then ix + zlen l else ix).
  assert (Hcr : ssize_min <= cix <= ssize_max).
  { subst cix. unfold ssize_min, ssize_max in *. destruct (Z.ltb_spec ix 0); lia. }
  rewrite is_valid_index_spec by (unfold ssize_max in *; lia).
  destruct ((0 <=? cix) && (cix <? zlen l)) eqn:Ev; [|reflexivity].
  assert (Hv : 0 <= cix < zlen l) by lia.
  unfold py_list_pop. fold cix.
  destruct ((cix <? 0) || (zlen l <=? cix)) eqn:E2; [lia|].
  destruct (nth_error l (Z.to_nat cix)) as [v|] eqn:En; [|reflexivity].
  destruct (Z.ltb_spec (zlen l - 1 - cix) 0) as [|_]; [lia|].
  f_equal. f_equal. f_equal.
  replace (zlen l - 1 - cix) with (zlen l - (cix + 1)) by lia.
  rewrite sub_at_all_tail by lia. f_equal. lia.
Qed.

(* the macro: every C index value; values outside Py_ssize_t go to the generic call *)
Theorem pop_index_macro_eq (l : list A) alloc v :
  zlen l <= ssize_max -> pyx_list_popindex_macro l alloc v = py_list_pop l v.
Proof.
  intros Hlen. unfold pyx_list_popindex_macro, fits_ssize.
  destruct ((ssize_min <=? v) && (v <=? ssize_max)) eqn:E; [|reflexivity].
  apply pop_index_eq; lia.
Qed.

Theorem pop_index_error_iff (l : list A) alloc v :
  zlen l <= ssize_max ->
  (pyx_list_popindex_macro l alloc v = Raise IndexError <-> ~ (- zlen l <= v < zlen l)).
Proof.
  intros Hlen. rewrite pop_index_macro_eq by assumption. unfold py_list_pop.
  pose proof (zlen_nonneg l) as Hn.
  set (j := if v <? 0 then v + zlen l else v).
  assert (Hj : (0 <= j < zlen l) <-> (- zlen l <= v < zlen l)).
  { subst j. destruct (Z.ltb_spec v 0); lia. }
  destruct ((j <? 0) || (zlen l <=? j)) eqn:E.
  - split; [intros _; lia | reflexivity].
  - destruct (nth_error l (Z.to_nat j)) eqn:En.
    + split; [discriminate | intros; lia].
    + apply nth_error_None in En. unfold zlen in *. lia.
Qed.

Theorem pop_eq (l : list A) alloc :
  0 <= alloc -> pyx_list_pop l alloc = py_list_pop l (-1).
Proof.
  intros Ha. pose proof (zlen_nonneg l) as Hn. unfold pyx_list_pop.
  destruct (Z.ltb_spec (Z.shiftr alloc 1) (zlen l)) as [Hfast|]; [|reflexivity].
  assert (0 < zlen l) by (pose proof (proj2 (Z.shiftr_nonneg alloc 1) Ha); lia).
  unfold py_list_pop. change (-1 <? 0) with true. cbv iota.
  replace (-1 + zlen l) with (zlen l - 1) by lia.
  destruct ((zlen l - 1 <? 0) || (zlen l <=? zlen l - 1)) eqn:E; [lia|].
  destruct (nth_error l (Z.to_nat (zlen l - 1))) as [v|]; [|reflexivity].
  destruct (Z.ltb_spec (zlen l - 1) 0); [lia|].
  f_equal. f_equal.
  rewrite (skipn_all2 l) by (unfold zlen in *; lia). rewrite app_nil_r. reflexivity.
Qed.

End ListPopProofs.

(* 2. tailmatch *)

Lemma memcmp_in_bounds s sub st :
  0 <= st -> st + zlen sub <= zlen s ->
  memcmp_eq s sub st = Ok (zlist_eqb (sub_at s st (zlen sub)) sub).
Proof.
  intros H1 H2. unfold memcmp_eq.
  destruct ((st <? 0) || (zlen s <? st + zlen sub)) eqn:E; [lia | reflexivity].
Qed.

(* when the window is well formed it is the Python slice *)
Lemma py_slice_window (s : list Z) start stop :
  let n := zlen s in
  let sa := if start <? 0 then (if start + n <? 0 then 0 else start + n) else start in
  let ea := snd (py_slice_adjust n start stop) in
  sa <= ea -> py_slice s start stop = sub_at s sa (ea - sa).
Proof.
  pose proof (zlen_nonneg s) as Hn. cbv zeta. unfold py_slice, py_slice_adjust. cbn [snd].
  set (n := zlen s) in *. set (ea := if stop <? 0 then _ else _).
  assert (He : ea <= n) by (subst ea; brk; lia). clearbody ea. intros H.
  (* the start is not clipped at n, as it does not exceed the stop *)
  replace (if n <? start then n else start) with start by (revert H; brk; lia).
  destruct (Z.leb_spec ea (if start <? 0 then if start + n <? 0 then 0 else start + n else start));
    [replace (ea - _) with 0 by lia|]; reflexivity.
Qed.

(* comparing at position p inside the window [st0, e) is comparing inside the window's own list *)
Lemma memcmp_window s sub st0 e p :
  0 <= st0 <= p -> p + zlen sub <= e <= zlen s ->
  memcmp_eq s sub p = Ok (zlist_eqb (sub_at (sub_at s st0 (e - st0)) (p - st0) (zlen sub)) sub).
Proof.
  intros H1 H2. pose proof (zlen_nonneg sub).
  rewrite memcmp_in_bounds, sub_at_sub_at by lia. do 3 f_equal. lia.
Qed.

(* the repaired comparison on a window [st0, e) of s is Python's test on that window *)
Lemma tailmatch_on_window s sub st0 e dir :
  0 <= st0 -> 0 <= e <= zlen s ->
  let st := if 0 <? dir then (if st0 <? e - zlen sub then e - zlen sub else st0) else st0 in
  (if zlen sub <=? e - st then memcmp_eq s sub st else Ok false)
  = Ok (if e <? st0 then false
        else if 0 <? dir then is_suffix sub (sub_at s st0 (e - st0))
             else is_prefix sub (sub_at s st0 (e - st0))).
Proof.
  intros H0 He. cbv zeta. pose proof (zlen_nonneg sub) as Hm.
  destruct (Z.ltb_spec e st0) as [Hlt|Hge].
  - destruct (Z.ltb_spec 0 dir); brk; try lia; reflexivity.
  - unfold is_suffix, is_prefix. rewrite zlen_sub_at by lia.
    destruct (Z.leb_spec (zlen sub) (e - st0)) as [Hle|Hle]; cbn [andb].
    + (* the window holds sub: the comparison is made at e - len(sub) or at st0 *)
      destruct (Z.ltb_spec 0 dir); brk; try lia;
        rewrite (memcmp_window s sub st0 e) by lia; do 3 f_equal; lia.
    + destruct (Z.ltb_spec 0 dir); brk; try lia; reflexivity.
Qed.

(* adding before comparing (fixed = false) is, without overflow, comparing the difference (fixed = true) *)
Lemma sadd_cmp st m e (x y : res bool) :
  0 <= st -> 0 <= m -> st + m <= ssize_max ->
  match sadd st m with None => UB | Some t => if t <=? e then x else y end
  = if m <=? e - st then x else y.
Proof.
  intros H1 H2 H3. rewrite sadd_fits by (unfold ssize_min; lia).
  replace (st + m <=? e) with (m <=? e - st) by lia. reflexivity.
Qed.

(* the helper's window [st0, e): it clips before it wraps, CPython after, with the same result *)
Lemma bytes_single_spec s sub start stop dir :
  exists e st0,
    (forall fixed, pyx_bytes_single fixed s sub start stop dir =
       let st := if 0 <? dir then (if st0 <? e - zlen sub then e - zlen sub else st0) else st0 in
       if fixed then if zlen sub <=? e - st then memcmp_eq s sub st else Ok false
       else match sadd st (zlen sub) with
            | None => UB
            | Some t => if t <=? e then memcmp_eq s sub st else Ok false
            end) /\
    0 <= e <= zlen s /\ 0 <= st0 <= Z.max (zlen s) start /\
    snd (py_slice_adjust (zlen s) start stop) = e /\
    (if start <? 0 then if start + zlen s <? 0 then 0 else start + zlen s else start) = st0.
Proof.
  pose proof (zlen_nonneg s). do 2 eexists. split; [intros fixed; reflexivity|].
  unfold py_slice_adjust. cbn [snd]. repeat split; brk; lia.
Qed.

(* the test `sub_len <= end - start` (fixed = true, the text in /repo) agrees with CPython for ALL start/end *)
Theorem bytes_tailmatch_fixed_eq s sub start stop dir :
  pyx_bytes_single true s sub start stop dir = Ok (py_tailmatch s sub start stop dir).
Proof.
  destruct (bytes_single_spec s sub start stop dir) as (e & st0 & -> & He & H0 & Ee & Es).
  unfold py_tailmatch. cbv zeta. rewrite Ee, Es. apply tailmatch_on_window; lia.
Qed.

(* the test `start + sub_len <= end` (fixed = false): equal whenever start + len(sub) cannot overflow
   (both buffers live in one address space: len(s) + len(sub) <= PY_SSIZE_T_MAX) *)
Theorem bytes_tailmatch_eq_partial s sub start stop dir :
  zlen s + zlen sub <= ssize_max -> ssize_min <= start -> start + zlen sub <= ssize_max ->
  pyx_bytes_single false s sub start stop dir = Ok (py_tailmatch s sub start stop dir).
Proof.
  intros Hs Hlo Hno. rewrite <- bytes_tailmatch_fixed_eq.
  destruct (bytes_single_spec s sub start stop dir) as (e & st0 & E & He & H0 & _).
  rewrite !E. cbv zeta. pose proof (zlen_nonneg sub).
  apply sadd_cmp; unfold ssize_max in *; brk; lia.
Qed.

(* full statement for fixed = false, which is false: forall s sub start stop dir, start/stop in Py_ssize_t ->
   pyx_bytes_single false s sub start stop dir = Ok (py_tailmatch s sub start stop dir) *)
Theorem bytes_tailmatch_refuted :
  exists s sub start stop dir,
    ssize_min <= start <= ssize_max /\ ssize_min <= stop <= ssize_max /\
    pyx_bytes_single false s sub start stop dir = UB /\
    py_tailmatch s sub start stop dir = false.
Proof.
  exists [97; 98; 99], [97], ssize_max, ssize_max, (-1).
  unfold ssize_min, ssize_max. repeat split; try lia; vm_compute; reflexivity.
Qed.

Theorem tuple_loop_eq {S} (single : S -> res bool) subs :
  pyx_tuple_loop single subs = py_tuple_match single subs.
Proof.
  unfold py_tuple_match. induction subs as [|x r IH]; [reflexivity|].
  cbn [pyx_tuple_loop find].
  destruct (single x) as [[|]| |] eqn:E; cbn [is_ok_false negb]; try (rewrite E; reflexivity).
  exact IH.
Qed.

(* 3. slice normalisation *)

Theorem decode_c_bytes_range_eq len start stop :
  0 <= len -> pyx_decode_c_bytes_range len start stop = py_slice_range len start stop.
Proof.
  intros Hl. unfold pyx_decode_c_bytes_range, py_slice_range, py_slice_adjust.
  destruct (Z.ltb_spec start 0), (Z.ltb_spec stop 0); cbn [orb];
  brk; try lia; try reflexivity; f_equal; f_equal; lia.
Qed.

Theorem substring_range_eq len start stop :
  0 <= len -> pyx_substring_range len start stop = py_slice_range len start stop.
Proof.
  intros Hl. unfold pyx_substring_range, py_slice_range, py_slice_adjust.
  brk; try lia; try reflexivity; f_equal; f_equal; lia.
Qed.

(* the decoded range always lies inside the buffer *)
Theorem decode_c_bytes_range_in_bounds len start stop o n :
  0 <= len -> pyx_decode_c_bytes_range len start stop = Some (o, n) -> 0 <= o /\ 0 < n /\ o + n <= len.
Proof.
  intros Hl. rewrite decode_c_bytes_range_eq by assumption.
  unfold py_slice_range, py_slice_adjust.
  brk; intros [= <- <-]; lia.
Qed.

(* char*: same as Python slicing of the strlen-long string when the caller's stop is inside it *)
Theorem decode_c_string_range_eq_partial len start stop :
  0 <= len -> stop <= len ->
  pyx_decode_c_string_range len start stop = py_slice_range len start stop.
Proof.
  intros Hl Hs. unfold pyx_decode_c_string_range, py_slice_range, py_slice_adjust.
  destruct (Z.ltb_spec start 0), (Z.ltb_spec stop 0); cbn [orb];
  brk; try lia; try reflexivity; f_equal; f_equal; lia.
Qed.

(* 4. abs *)

Lemma pow2_63 : 2 ^ 63 = 9223372036854775808. Proof. reflexivity. Qed.

(* any width: only the promotion to at least int matters *)
Theorem abs_c_eq w ovf x :
  in_range w true x -> x <> min_int (if w <? 32 then 32 else w) true ->
  pyx_abs_c w ovf x = py_abs_c w x /\ pyx_abs_c w ovf x = Ok (Z.abs x).
Proof.
  intros Hx Hne. unfold pyx_abs_c, py_abs_c. set (W := if w <? 32 then 32 else w) in *.
  (* x lies in the promoted type as well, and is not its minimum: |x| fits *)
  assert (E : in_rangeb W true (Z.abs x) = true).
  { apply in_rangeb_spec. unfold in_range, min_int, max_int in *.
    assert (2 ^ (w - 1) <= 2 ^ (W - 1))
      by (apply Z.pow_le_mono_r; subst W; destruct (Z.ltb_spec w 32); lia).
    lia. }
  rewrite E. destruct (Z.eqb_spec x (min_int W true)); [contradiction|].
  replace (if x <? 0 then - x else x) with (Z.abs x) by (destruct (Z.ltb_spec x 0); lia).
  split; reflexivity.
Qed.

(* the most negative value: OverflowError under overflowcheck (which is what Python's value, not
   representable in the result type, must become), undefined behaviour without it *)
Theorem abs_c_min w :
  (w = 32 \/ w = 64) ->
  pyx_abs_c w true (min_int w true) = py_abs_c w (min_int w true) /\
  py_abs_c w (min_int w true) = Raise OverflowError /\
  pyx_abs_c w false (min_int w true) = UB.
Proof. intros [->| ->]; vm_compute; repeat split. Qed.

(* 5. ord / chr *)

Theorem ord_fixed_eq o : pyx_ord true o = py_ord o.
Proof.
  destruct o as [l|l|l|]; try reflexivity; unfold py_ord; cbn [seq_of pyx_ord];
  (destruct l as [|c [|d r]]; [reflexivity | reflexivity |]);
  unfold zlen; cbn [length]; (destruct (Z.eqb_spec (Z.of_nat (S (S (length r)))) 1); [lia | reflexivity]).
Qed.

Theorem ord_eq_partial o :
  (forall l, o = OStr l -> zlen l = 1) -> pyx_ord false o = py_ord o.
Proof.
  intros H. rewrite <- ord_fixed_eq. destruct o as [l|l|l|]; try reflexivity.
  specialize (H l eq_refl). destruct l as [|c [|d r]]; try reflexivity; unfold zlen in H; cbn [length] in H; lia.
Qed.

(* full statement (false on the tree): forall o, pyx_ord false o = py_ord o *)
Theorem ord_refuted : exists o, pyx_ord false o = Raise ValueError /\ py_ord o = Raise TypeError.
Proof. exists (OStr [97; 98]). split; reflexivity. Qed.

Theorem chr_eq v : pyx_chr v = py_chr v.
Proof.
  unfold pyx_chr, py_chr, in_rangeb, min_int, max_int.
  change (2 ^ (32 - 1)) with 2147483648.
  destruct ((Z.opp 2147483648 <=? v) && (v <=? 2147483648 - 1)) eqn:E1;
  destruct ((v <? -2147483648) || (2147483647 <? v)) eqn:E2; try lia; try reflexivity.
  destruct ((v <? 0) || (1114111 <? v)) eqn:E3; destruct ((0 <=? v) && (v <? 1114112)) eqn:E4; try lia; reflexivity.
Qed.

(* 6. dict *)

Theorem dict_get_eq d k dflt : pyx_dict_get d k dflt = py_dict_get d k dflt.
Proof. destruct k as [z|]; [|reflexivity]. unfold pyx_dict_get, py_dict_get. cbn. destruct (lookup d z); reflexivity. Qed.

Theorem dict_pop_313_eq d k dflt : pyx_dict_pop_313 d k dflt = py_dict_pop d k dflt.
Proof.
  destruct k as [z|]; [|destruct d, dflt; reflexivity]. unfold pyx_dict_pop_313, py_dict_pop, PyDict_Pop_313.
  destruct (lookup d z); [reflexivity|]. destruct dflt; reflexivity.
Qed.

(* the statement form d.pop(k, default): same final dict / same exception whatever the default *)
Theorem dict_pop_ignore_eq d k dflt :
  pyx_dict_pop_ignore d k =
  match py_dict_pop d k (Some dflt) with Ok (_, d') => Ok d' | Raise e => Raise e | UB => UB end.
Proof.
  destruct k as [z|]; [|destruct d; reflexivity]. unfold pyx_dict_pop_ignore, py_dict_pop.
  destruct (lookup d z); reflexivity.
Qed.

Theorem dict_pop_keyerror_iff d z dflt :
  pyx_dict_pop_313 d (KInt z) dflt = Raise KeyError <-> (lookup d z = None /\ dflt = None).
Proof.
  rewrite dict_pop_313_eq. unfold py_dict_pop. destruct (lookup d z); destruct dflt; split;
    try discriminate; try (intros [? ?]; discriminate); intuition.
Qed.

Theorem dict_setdefault_eq d k dflt : pyx_dict_setdefault d k dflt = py_dict_setdefault d k dflt.
Proof. destruct k; reflexivity. Qed.

(* 7. min / max *)

Section MinMaxProofs.
Variable cmp : Z -> Z -> option bool.
Variable args : nat -> Z.

(* refs 1..m hold the arguments and ref m + i, distinct from all of them, the winner so far:
   the chain over `is` on top of `last` continues Python's scan from the value of `last` *)
Lemma chain_eval (is : list nat) (m : nat) (env : nat -> Z) :
  (forall i, In i is -> (1 <= i <= m)%nat /\ env i = args i) ->
  forall last o t0, eval cmp args last env = (o, t0) ->
  eval cmp args (build_chain is m last) env =
  match o with
  | Ok cur => let '(o', t) := py_scan cmp cur (map args is) in (o', t0 ++ t)
  | other => (other, t0)
  end.
Proof.
  induction is as [|i r IH]; intros Hin last o t0 Hl.
  - cbn [build_chain map py_scan]. rewrite Hl. destruct o; try reflexivity. now rewrite app_nil_r.
  - cbn [build_chain map py_scan].
    destruct (Hin i (or_introl eq_refl)) as [Hi Hei].
    assert (Hneq : Nat.eqb i (m + i) = false) by (apply Nat.eqb_neq; lia).
    set (last' := ELet (m + i) last (ECond (ERef i) (ERef (m + i)) (ERef i) (ERef (m + i)))).
    assert (Hl' : eval cmp args last' env =
                  match o with
                  | Ok cur => match cmp (args i) cur with
                              | None => (Raise CmpError, t0 ++ [(args i, cur)])
                              | Some c => (Ok (if c then args i else cur), t0 ++ [(args i, cur)])
                              end
                  | other => (other, t0)
                  end).
    { subst last'. cbn [eval]. rewrite Hl. destruct o as [cur| |]; try reflexivity.
      unfold upd. rewrite Hneq, Nat.eqb_refl, Hei. cbn [app].
      destruct (cmp (args i) cur) as [[|]|]; cbn [eval]; unfold upd;
        rewrite ?Hneq, ?Nat.eqb_refl, ?Hei; reflexivity. }
    assert (Hin' : forall j, In j r -> (1 <= j <= m)%nat /\ env j = args j)
      by (intros j Hj; apply Hin; right; exact Hj).
    rewrite (IH Hin' last' _ _ (surjective_pairing _)), Hl'.
    destruct o as [cur| |]; try reflexivity.
    destruct (cmp (args i) cur) as [c|]; cbn [fst snd]; [|reflexivity].
    destruct (py_scan cmp (if c then args i else cur) (map args r)) as [o' t].
    rewrite <- app_assoc. reflexivity.
Qed.

Lemma wrap_lets_eval (is : list nat) body (env : nat -> Z) :
  NoDup is ->
  exists env', (forall i, In i is -> env' i = args i) /\
               (forall j, ~ In j is -> env' j = env j) /\
               eval cmp args (wrap_lets is body) env = eval cmp args body env'.
Proof.
  revert env. induction is as [|i r IH]; intros env Hnd.
  - exists env. repeat split; intros; try reflexivity; contradiction.
  - inversion Hnd as [|? ? Hni Hnd']; subst. cbn [wrap_lets eval].
    destruct (IH (upd env i (args i)) Hnd') as [env' [H1 [H2 H3]]].
    exists env'. split; [|split].
    + intros j [Hji|Hj]; [subst j|apply H1; exact Hj].
      rewrite (H2 i Hni). unfold upd. now rewrite Nat.eqb_refl.
    + intros j Hj. rewrite H2 by (intros Hc; apply Hj; right; exact Hc).
      unfold upd. destruct (Nat.eqb_spec j i) as [->|]; [exfalso; apply Hj; left; reflexivity | reflexivity].
    + rewrite H3. destruct (eval cmp args body env') as [o t]. reflexivity.
Qed.

(* the unrolled conditional chain computes Python's left-to-right scan: same winner (ties keep the
   first), same exception, same sequence of comparison calls - for ANY comparison function *)
Theorem minmax_unrolled_eq (m : nat) env :
  eval cmp args (build_minmax m) env = py_scan cmp (args 0%nat) (map args (seq 1 m)).
Proof.
  unfold build_minmax.
  destruct (wrap_lets_eval (seq 1 m) (build_chain (seq 1 m) m (EArg 0)) env (seq_NoDup m 1))
    as [env' [H1 [_ H3]]].
  rewrite H3.
  rewrite (chain_eval (seq 1 m) m env') with (o := Ok (args 0%nat)) (t0 := []).
  - destruct (py_scan cmp (args 0%nat) (map args (seq 1 m))). reflexivity.
  - intros i Hi. split; [apply in_seq in Hi; lia | apply H1; exact Hi].
  - reflexivity.
Qed.
End MinMaxProofs.

Lemma map_nth_seq (l : list Z) : map (fun i => nth i l 0) (seq 0 (length l)) = l.
Proof.
  induction l as [|y r IH]; [reflexivity|]. cbn [length seq map nth]. f_equal.
  rewrite <- seq_shift, map_map. exact IH.
Qed.

Theorem minmax_list_eq cmp x rest :
  pyx_minmax cmp (x :: rest) = py_minmax cmp (x :: rest).
Proof.
  unfold pyx_minmax, py_minmax. rewrite minmax_unrolled_eq.
  cbn [length]. replace (S (length rest) - 1)%nat with (length rest) by lia.
  f_equal. unfold nth_arg. rewrite <- seq_shift, map_map. exact (map_nth_seq rest).
Qed.

(* ties keep the first: with a comparison that never answers true the first argument wins *)
Corollary minmax_ties_keep_first cmp x rest :
  (forall a b, cmp a b = Some false) -> fst (pyx_minmax cmp (x :: rest)) = Ok x.
Proof.
  intros H. rewrite minmax_list_eq. unfold py_minmax.
  revert x. induction rest as [|y r IH]; intros x; [reflexivity|].
  cbn [py_scan]. rewrite H. specialize (IH x). destruct (py_scan cmp x r). exact IH.
Qed.

(* 8. any / all *)

Theorem anyall_inlined_eq filt pred is_any xs :
  pyx_anyall filt pred is_any xs = py_anyall filt pred is_any xs.
Proof.
  unfold py_anyall, decides, item_outcome, pred_evaluated.
  induction xs as [|x r IH]; [reflexivity|].
  cbn [pyx_anyall find take_until].
  destruct (filt x) as [[|]|] eqn:Ef;
    [destruct (pred x) as [b|] eqn:Ep; [destruct (Bool.eqb b is_any)|]| |];
    cbn [filter]; rewrite ?Ef, ?Ep, ?IH; reflexivity.
Qed.

(* early exit: nothing after the deciding item is evaluated *)
Theorem anyall_early_exit filt pred is_any pre x post :
  decides filt pred is_any x = true ->
  pyx_anyall filt pred is_any (pre ++ x :: post) = pyx_anyall filt pred is_any (pre ++ [x]).
Proof.
  intros Hd. rewrite !anyall_inlined_eq. unfold py_anyall.
  rewrite (find_stops _ pre x post Hd), (take_until_stops _ pre x post Hd). reflexivity.
Qed.
