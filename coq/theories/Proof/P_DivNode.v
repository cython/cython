(* Proofs about Model/M_DivNode.v: which tests DivNode / ModNode emit, given what the compiler knows
   of the divisor, and that the statement emitted with cdivision off is Python's // and %: the
   emitted tests are shown to be the guards of M_CMath's nodes whenever they matter, so that the
   node theorems of P_CMath apply.  The variants lacking a clause are refuted; divmod() helper. *)
From Coq Require Import ZArith List Bool Lia ZifyBool.
From CyVerif Require Import Lib.CInt Model.M_CMath Proof.P_CMath Model.M_DivNode.
Open Scope Z_scope.

(* --- unsigned result types: the C operators are Python's // and % --------------------- *)

Lemma unsigned_c_ops w a b :
  2 <= w -> in_range w false a -> in_range w false b -> b <> 0 ->
  cdiv_c w false a b = a / b /\ cmod_c w false a b = a mod b.
Proof.
  intros Hw Ha Hb Hb0.
  assert (Hub : div_ub w false a b = false) by (unfold div_ub; lia).
  destruct (cdivision_is_trunc w false a b Hw Ha Hb Hub) as [Eq Er].
  rewrite Eq, Er. unfold in_range, min_int in *.
  split; [apply Z.quot_div_nonneg | apply Z.rem_mod_nonneg]; lia.
Qed.

(* --- decisions ------------------------------------------------------------------------- *)

Lemma zero_test_present v d b :
  zc v = true -> (d = DOpaque -> oq v = true) -> divisor_value d b -> b = 0 ->
  zerodivision_check v py_cfg d = true.
Proof.
  intros Hz Ho Hd ->. unfold zerodivision_check, py_cfg. cbn [cforced cdir negb andb].
  destruct d as [|c|]; cbn [may_equal divisor_value] in *.
  - reflexivity.
  - subst c. rewrite Hz. reflexivity.
  - now apply Ho.
Qed.

Lemma min_test_eq v d s b :
  (d = DOpaque -> oq v = true) -> divisor_value d b ->
  min_division_check v py_cfg false s d && (b =? -1) = s && (b =? -1).
Proof.
  intros Ho Hd. unfold min_division_check, py_cfg. cbn [cforced cdir negb andb].
  destruct (Z.eqb_spec b (-1)) as [->|N]; [|now rewrite !andb_false_r].
  destruct d as [|c|]; cbn [may_equal divisor_value] in *;
    [| subst c | rewrite Ho by reflexivity]; now rewrite !andb_true_r.
Qed.

(* The zero test is left out only for a numeric constant divisor different from 0. *)
Theorem zero_test_omitted_only_nonzero_const v d :
  zc v = true -> oq v = true -> zerodivision_check v py_cfg d = false ->
  exists c, d = DNum c /\ c <> 0.
Proof.
  intros Hz Ho H. unfold zerodivision_check, py_cfg in H. cbn [cforced cdir negb andb] in H.
  destruct d as [|c|]; cbn [may_equal] in H.
  - discriminate.
  - exists c. split; [reflexivity|]. rewrite Hz in H. cbn [andb] in H. lia.
  - congruence.
Qed.

(* cdivision (directive or forced on the node): no test is emitted, C operators are used *)
Theorem decisions_cdivision v c is_mod s d :
  (cdir c || cforced c) = true ->
  exists k, decisions v c is_mod s d = (false, false, true, k).
Proof.
  intros Hc. exists (has_constant_result d).
  unfold decisions, zerodivision_check, min_division_check, c_operator.
  destruct (cdir c), (cforced c); cbn in *; try discriminate; reflexivity.
Qed.

(* --- the emitted statement, cdivision off ---------------------------------------------- *)

Theorem div_stmt_python v w s d a b :
  zc v = true -> (d = DOpaque -> oq v = true) ->
  2 <= w -> in_range w s a -> in_range w s b -> divisor_value d b ->
  div_stmt v py_cfg w s d a b = py_floordiv w s a b.
Proof.
  intros Hz Ho Hw Ha Hb Hd.
  rewrite <- (div_node_python w s (has_constant_result d) a b Hw Ha Hb).
  unfold div_stmt, div_node.
  destruct (Z.eqb_spec b 0) as [Hb0|Hb0].
  - rewrite (zero_test_present v d b Hz Ho Hd Hb0). reflexivity.
  - rewrite andb_false_r, (min_test_eq v d s b Ho Hd). cbn [orb]. rewrite andb_true_r.
    destruct (s && (b =? -1) && (a =? min_int w s)); [reflexivity|].
    destruct (div_ub w s a b) eqn:Hub; [reflexivity|].
    unfold c_operator, py_cfg. cbn [cforced cdir orb]. destruct s; cbn [negb]; [reflexivity|].
    f_equal. rewrite (div_int_floor _ _ _ _ _ Hw Ha Hb Hub). now apply unsigned_c_ops.
Qed.

Theorem mod_stmt_python v w s d a b :
  zc v = true -> (d = DOpaque -> oq v = true) ->
  2 <= w -> in_range w s a -> in_range w s b -> divisor_value d b ->
  mod_stmt v py_cfg w s d a b = py_mod a b.
Proof.
  intros Hz Ho Hw Ha Hb Hd. unfold mod_stmt, py_mod.
  destruct (Z.eqb_spec b 0) as [Hb0|Hb0].
  - rewrite (zero_test_present v d b Hz Ho Hd Hb0). reflexivity.
  - rewrite andb_false_r. unfold c_operator, py_cfg. cbn [cforced cdir orb].
    destruct s; cbn [negb].
    + now rewrite mod_int_floor.
    + assert (Hub : div_ub w false a b = false) by (unfold div_ub; lia).
      rewrite Hub. destruct (unsigned_c_ops w a b Hw Ha Hb Hb0) as [_ Er]. now rewrite Er.
Qed.

(* never a C division by zero (nor MIN / -1), ZeroDivisionError exactly for a zero divisor *)
Theorem div_stmt_safe v w s d a b :
  zc v = true -> (d = DOpaque -> oq v = true) ->
  2 <= w -> in_range w s a -> in_range w s b -> divisor_value d b ->
  div_stmt v py_cfg w s d a b <> UB /\
  (div_stmt v py_cfg w s d a b = ZeroDivisionError <-> b = 0).
Proof.
  intros Hz Ho Hw Ha Hb Hd. rewrite (div_stmt_python v w s d a b Hz Ho Hw Ha Hb Hd).
  unfold py_floordiv. destruct (Z.eqb_spec b 0) as [Hb0|Hb0].
  - split; [discriminate | tauto].
  - destruct (in_rangeb w s (a / b)); (split; [discriminate | split; [discriminate | contradiction]]).
Qed.

Theorem mod_stmt_safe v w s d a b :
  zc v = true -> (d = DOpaque -> oq v = true) ->
  2 <= w -> in_range w s a -> in_range w s b -> divisor_value d b ->
  mod_stmt v py_cfg w s d a b <> UB /\
  (mod_stmt v py_cfg w s d a b = ZeroDivisionError <-> b = 0).
Proof.
  intros Hz Ho Hw Ha Hb Hd. rewrite (mod_stmt_python v w s d a b Hz Ho Hw Ha Hb Hd).
  unfold py_mod. destruct (Z.eqb_spec b 0) as [Hb0|Hb0].
  - split; [discriminate | tauto].
  - split; [discriminate | split; [discriminate | contradiction]].
Qed.

(* --- what goes wrong in the other variants --------------------------------------------- *)

(* clause `or operand2.constant_result == 0` dropped: every constant zero divisor reaches the
   C division, whatever the type and the dividend *)
Theorem zero_const_clause_needed o w s a :
  div_stmt {| zc := false; oq := o |} py_cfg w s (DNum 0) a 0 = UB /\
  mod_stmt {| zc := false; oq := o |} py_cfg w s (DNum 0) a 0 = UB.
Proof.
  unfold div_stmt, mod_stmt, zerodivision_check, min_division_check, c_operator, div_ub, py_cfg.
  cbn [zc oq cforced cdir negb andb orb may_equal Z.eqb].
  destruct s; cbn [negb andb orb]; split; reflexivity.
Qed.

(* the code as it is: a type-cast constant divisor (`a // <int>0`) is taken for a non-zero
   constant, the statement divides by zero; same for MIN // <T>-1 *)
Theorem opaque_const_zero_refuted w s a :
  div_stmt as_is py_cfg w s DOpaque a 0 = UB /\ mod_stmt as_is py_cfg w s DOpaque a 0 = UB.
Proof.
  unfold div_stmt, mod_stmt, zerodivision_check, min_division_check, c_operator, div_ub, py_cfg, as_is.
  cbn [zc oq cforced cdir negb andb orb may_equal Z.eqb].
  destruct s; cbn [negb andb orb]; split; reflexivity.
Qed.

Theorem opaque_const_min_refuted w :
  div_stmt as_is py_cfg w true DOpaque (min_int w true) (-1) = UB.
Proof.
  unfold div_stmt, zerodivision_check, min_division_check, div_ub, py_cfg, as_is.
  cbn [zc oq cforced cdir negb andb orb may_equal Z.eqb].
  cbn [andb orb]. rewrite Z.eqb_refl. reflexivity.
Qed.

(* --- cdivision on: C truncation, no tests ----------------------------------------------- *)

Theorem stmt_cdivision v c w s d a b :
  (cdir c || cforced c) = true ->
  2 <= w -> in_range w s a -> in_range w s b -> div_ub w s a b = false ->
  div_stmt v c w s d a b = Value (Z.quot a b) /\ mod_stmt v c w s d a b = Value (Z.rem a b).
Proof.
  intros Hc Hw Ha Hb Hub.
  destruct (cdivision_is_trunc w s a b Hw Ha Hb Hub) as [Eq Er].
  unfold div_stmt, mod_stmt, zerodivision_check, min_division_check, c_operator.
  rewrite Hub.
  destruct (cdir c), (cforced c); cbn in *; try discriminate; rewrite ?Eq, ?Er; split; reflexivity.
Qed.

(* --- divmod(a, b) on two C integers: __Pyx_divmod_int_T ---------------------------------- *)

Lemma same_sign_trunc_is_floor a b :
  b <> 0 -> xorb (a <? 0) (b <? 0) = false ->
  Z.quot a b = a / b /\ Z.rem a b = a mod b.
Proof.
  intros Hb0 Hx. destruct (floor_from_trunc a b Hb0) as [Ed Em].
  pose proof (rem_between a b Hb0) as Hr.
  assert (Hadj : adj (Z.rem a b) b = 0).
  { unfold adj. destruct (Z.eqb_spec (Z.rem a b) 0); [reflexivity|].
    replace (Z.rem a b <? 0) with (a <? 0) by lia. now rewrite Hx. }
  rewrite Hadj in *. lia.
Qed.

Theorem divmod_python g w s a b :
  2 <= w -> in_range w s a -> in_range w s b -> b <> 0 -> div_ub w s a b = false ->
  divmod_q g w s a b = Value (a / b) /\ divmod_r g w s a b = Value (a mod b).
Proof.
  intros Hw Ha Hb Hb0 Hub. unfold divmod_q, divmod_r. rewrite Hub.
  replace (g && s && (b =? -1) && (a =? min_int w s)) with false by (unfold div_ub in Hub; lia).
  destruct (Z.eqb_spec b 0) as [|_]; [contradiction|].
  destruct (Z.eqb_spec a 0) as [->|Ha0].
  - rewrite Z.div_0_l, Z.mod_0_l by assumption. split; reflexivity.
  - destruct (div_steps_in_range w s a b Hw Ha Hb Hub) as (Hq & Hqb & Hr & _).
    assert (Hw1 : 1 <= w) by lia.
    destruct (xorb (a <? 0) (b <? 0)) eqn:Hx.
    + (* the text of DivInt and, once q and q*b are unwrapped, of ModInt *)
      split; f_equal.
      * exact (div_int_floor w s true a b Hw Ha Hb Hub).
      * rewrite (wrap_id _ _ _ Hw1 Hq), (wrap_id _ _ _ Hw1 Hqb), sub_quot_mul.
        exact (mod_int_old_floor w s true a b Hw1 Ha Hb Hb0).
    + destruct (same_sign_trunc_is_floor a b Hb0 Hx) as [<- <-].
      split; f_equal; now apply wrap_id.
Qed.

Theorem divmod_zero g w s a :
  divmod_q g w s a 0 = ZeroDivisionError /\ divmod_r g w s a 0 = ZeroDivisionError.
Proof. split; reflexivity. Qed.

(* the helper has no MIN / -1 test: the C division is executed (traps) *)
Theorem divmod_min_refuted :
  exists w s a b, 2 <= w /\ in_range w s a /\ in_range w s b /\ divmod_q false w s a b = UB.
Proof. exists 32, true, (-2147483648), (-1). unfold in_range. vm_compute. intuition congruence. Qed.

(* repaired helper: the quotient is Python's // as an outcome (OverflowError iff it does not fit),
   never UB *)
Theorem divmod_guarded_python w s a b :
  2 <= w -> in_range w s a -> in_range w s b ->
  divmod_q true w s a b = py_floordiv w s a b /\
  (divmod_q true w s a b = OverflowError \/ divmod_r true w s a b = py_mod a b).
Proof.
  intros Hw Ha Hb. unfold py_floordiv, py_mod.
  destruct (Z.eqb_spec b 0) as [Hb0|Hb0].
  - subst b. split; [reflexivity | right; reflexivity].
  - rewrite (floordiv_in_range_iff w s a b Hw Ha Hb Hb0).
    destruct (s && (a =? min_int w s) && (b =? -1)) eqn:Hg; cbn [negb].
    + assert (Ha0 : a <> 0).
      { destruct s; [|discriminate]. unfold min_int in Hg. pose proof (pow2_pos (w - 1) ltac:(lia)). lia. }
      assert (E : divmod_q true w s a b = OverflowError).
      { unfold divmod_q. destruct (Z.eqb_spec b 0); [contradiction|].
        destruct (Z.eqb_spec a 0); [contradiction|].
        replace (true && s && (b =? -1) && (a =? min_int w s)) with true by lia. reflexivity. }
      split; [exact E | left; exact E].
    + assert (Hub : div_ub w s a b = false) by (unfold div_ub; lia).
      destruct (divmod_python true w s a b Hw Ha Hb Hb0 Hub) as [Eq Er].
      split; [exact Eq | right; exact Er].
Qed.
