(* C32 -- proofs about the exception-specification model (Model/M_ExcSpec.v). *)
From Coq Require Import ZArith List Bool Lia ZifyBool.
From CyVerif Require Import Lib.CInt Model.M_ExcSpec.
Import ListNotations.
Open Scope Z_scope.

(* the value stored by the epilogue on the error path satisfies the caller's test -- also for NaN,
   for (unsigned)-1 and for opaque constants *)
Lemma c_test_self k s : sent_okb k s = true -> c_test k s (sent_val s) = true.
Proof.
  destruct s as [v o]; destruct k, v as [z|d|p| |a b|ob| |]; cbn; try discriminate; intros _.
  - apply Z.eqb_refl.
  - apply Z.eqb_refl.
  - destruct d as [| |q]; destruct o; cbn; try reflexivity; rewrite Z.eqb_refl; reflexivity.
  - apply Z.eqb_refl.
Qed.

(* __PYX_CHECK_FLOAT_EXCEPTION agrees with == whenever the constant is not NaN: the opaque flag
   does not change the meaning of the test *)
Lemma c_test_opaque k v o1 o2 r : c_test k (Sent v o1) r = c_test k (Sent v o2) r.
Proof.
  destruct k, v as [z|d|p| |a b|ob| |], r as [z'|d'|p'| |a' b'|ob'| |]; cbn; try reflexivity.
  destruct d as [| |q], d' as [| |q'], o1, o2; cbn; try reflexivity;
    try (rewrite Z.eqb_refl; reflexivity).
Qed.

Lemma c_test_sent_eqb k s t r :
  sent_okb k s = true -> sent_okb k t = true -> sent_eqb s t = true -> c_test k s r = c_test k t r.
Proof.
  destruct s as [v o], t as [v' o']; unfold sent_eqb; cbn [sent_val]. intros Hs Ht H.
  destruct v as [z|[| |q]|p| |a b|ob| |], v' as [z'|[| |q']|p'| |a' b'|ob'| |]; cbn in H; try discriminate;
    try (apply Z.eqb_eq in H; subst); apply c_test_opaque.
Qed.

Lemma state_eta st : {| pending := pending st; unraisable := unraisable st; gil := gil st; viol := viol st |} = st.
Proof. destruct st; reflexivity. Qed.

Definition clean (cn : bool) (st : state) : Prop := pending st = None /\ gil st = negb cn.

Local Opaque c_test.

Ltac destr_state st :=
  destruct st as [p u g vi]; cbn [pending unraisable gil viol] in *.

Lemma callee_return sp k fl r st : callee sp k fl (Return r) st = (CRet r, st).
Proof. destr_state st. destruct fl; reflexivity. Qed.

Definition after_raise (sp : fspec) (k : rkind) (e : exc) (st : state) : state :=
  if propagates sp k
  then {| pending := Some e; unraisable := unraisable st; gil := gil st; viol := viol st |}
  else {| pending := None; unraisable := unraisable st ++ [e]; gil := gil st; viol := viol st |}.

Lemma callee_raise sp k fl cn e st :
  ctx_okb fl cn = true -> gil st = negb cn ->
  callee sp k fl (Raise e) st = (CRet (error_retval sp k), after_raise sp k e st).
Proof.
  destr_state st. intros Hc Hg. subst g.
  unfold callee, after_raise, propagates, error_value, raise_in.
  destruct sp as [ev0 ec0]; cbn [ev ec].
  destruct fl, cn; try discriminate; destruct k, ev0 as [sn|], ec0 as [| |h]; reflexivity.
Qed.

Lemma documented_raise sp k e st :
  documented sp k (Raise e) st
  = {| o_err := propagates sp k; o_val := error_retval sp k; o_st := after_raise sp k e st |}.
Proof.
  unfold documented, after_raise. destruct (propagates sp k) eqn:P; [reflexivity|].
  unfold propagates in P. apply orb_false_elim in P. destruct P as [Ho P].
  unfold error_retval, error_value, noexcept_value. rewrite Ho.
  destruct (ev sp); [discriminate P | reflexivity].
Qed.

(* does the check after a call that returned r take the error path, [p] being pending *)
Definition ret_err (sp : fspec) (k : rkind) (r : cval) (p : option exc) : bool :=
  let occurred := match p with Some _ => true | None => false end in
  if is_obj k then match r with VNull => true | _ => false end
  else match ev sp with
       | Some s => c_test k s r && (negb (chk_true (ec sp)) || occurred)
       | None => chk_true (ec sp) && occurred
       end.

Lemma call_site_ret sp k cn r st :
  chk_plus (ec sp) = false -> gil st = negb cn ->
  call_site sp k cn (CRet r) st = {| o_err := ret_err sp k r (pending st); o_val := r; o_st := st |}.
Proof.
  destr_state st. intros Hp ->. unfold call_site, ret_err.
  destruct sp as [ev0 ec0]; cbn [ev ec] in *.
  destruct ec0 as [| |h]; try discriminate; destruct (is_obj k); try reflexivity;
    destruct ev0 as [s|]; cbn; try destruct (c_test k s r); cbn; try reflexivity;
    destruct p, cn; reflexivity.
Qed.

Lemma observe_via_return psp fsp k fl cn r st :
  chk_plus (ec psp) = false -> gil st = negb cn ->
  observe_via psp fsp k fl cn (Return r) st
  = {| o_err := ret_err psp k r (pending st); o_val := r; o_st := st |}.
Proof. intros. unfold observe_via. rewrite callee_return. apply call_site_ret; assumption. Qed.

Lemma observe_via_raise psp fsp k fl cn e st :
  chk_plus (ec psp) = false -> ctx_okb fl cn = true -> gil st = negb cn ->
  observe_via psp fsp k fl cn (Raise e) st
  = {| o_err := ret_err psp k (error_retval fsp k) (pending (after_raise fsp k e st));
       o_val := error_retval fsp k; o_st := after_raise fsp k e st |}.
Proof.
  intros Hp Hc Hg. unfold observe_via. rewrite (callee_raise fsp k fl cn e st Hc Hg).
  apply call_site_ret; [assumption|]. unfold after_raise. destruct (propagates fsp k); exact Hg.
Qed.

Lemma wf_sent_ok s c k : wf_specb {| ev := Some s; ec := c |} k = true -> sent_okb k s = true.
Proof. unfold wf_specb. cbn [ev]. lia. Qed.

Section Compat.
  Variables (fsp psp : fspec) (k : rkind).
  Hypothesis (Hwf : wf_specb fsp k = true) (Hwp : wf_specb psp k = true).
  Hypothesis (Hpf : chk_plus (ec fsp) = false) (Hpp : chk_plus (ec psp) = false).
  Hypothesis Hc : exc_compatible fsp psp = true.

  (* a value the function may return is not taken for its error value through the pointer *)
  Lemma compat_return_ok r :
    val_okb k r = true -> contract_okb fsp k (Return r) = true -> ret_err psp k r None = false.
  Proof.
    intros Hv Hcon. unfold ret_err.
    destruct (is_obj k) eqn:Ho; [destruct k; try discriminate; destruct r; try discriminate; reflexivity|].
    destruct fsp as [fev fec], psp as [pev pec]; cbn [ev ec] in *.
    destruct pev as [ps|]; [|apply andb_false_r].
    destruct pec as [| |h]; try discriminate; [|apply andb_false_r].
    unfold exc_compatible in Hc. cbn [ev ec] in Hc. rewrite Hpf in Hc. cbn in Hc.
    destruct fev as [fs|]; [|discriminate]. cbn in Hc.
    destruct (sent_eqb fs ps) eqn:Hse; [|discriminate].
    destruct fec; try discriminate. cbn in Hcon.
    rewrite <- (c_test_sent_eqb k fs ps r (wf_sent_ok _ _ _ Hwf) (wf_sent_ok _ _ _ Hwp) Hse).
    apply negb_true_iff in Hcon. rewrite Hcon. reflexivity.
  Qed.

  (* the check through the pointer fires on the function's error value exactly when the function
     propagates *)
  Lemma compat_raise_ok e st :
    ret_err psp k (error_retval fsp k) (pending (after_raise fsp k e st)) = propagates fsp k.
  Proof.
    unfold ret_err, error_retval, error_value, after_raise, propagates.
    destruct (is_obj k) eqn:Ho; [reflexivity|].
    destruct fsp as [fev fec], psp as [pev pec]; cbn [ev ec orb] in *.
    unfold exc_compatible in Hc; cbn [ev ec] in Hc.
    destruct fec as [| |fh]; try discriminate; destruct pec as [| |ph]; try discriminate;
      destruct fev as [fs|], pev as [ps|]; cbn in Hc |- *; try discriminate; try reflexivity;
      try apply andb_false_r.
    all: destruct (sent_eqb fs ps) eqn:Hse; try discriminate.
    all: rewrite <- (c_test_sent_eqb k fs ps _ (wf_sent_ok _ _ _ Hwf) (wf_sent_ok _ _ _ Hwp) Hse).
    all: rewrite (c_test_self k fs (wf_sent_ok _ _ _ Hwf)); reflexivity.
  Qed.
End Compat.

Theorem compat_sound : forall fsp psp k fl cn b st,
  wf_specb fsp k = true -> wf_specb psp k = true ->
  chk_plus (ec fsp) = false -> chk_plus (ec psp) = false ->
  exc_compatible fsp psp = true ->
  cython_body b = true -> body_val_okb k b = true ->
  ctx_okb fl cn = true -> clean cn st ->
  contract_okb fsp k b = true ->
  observe_via psp fsp k fl cn b st = documented fsp k b st.
Proof.
  intros fsp psp k fl cn b st Hwf Hwp Hpf Hpp Hc Hb Hv Hctx [Hp Hg] Hcon.
  destruct b as [r|e|x|e r]; try discriminate.
  - rewrite (observe_via_return psp fsp k fl cn r st Hpp Hg), Hp.
    rewrite (compat_return_ok fsp psp k Hwf Hwp Hpf Hpp Hc r Hv Hcon). reflexivity.
  - rewrite (observe_via_raise psp fsp k fl cn e st Hpp Hctx Hg).
    rewrite (compat_raise_ok fsp psp k Hwf Hwp Hpf Hpp Hc), documented_raise. reflexivity.
Qed.

Lemma exc_compatible_refl sp k :
  wf_specb sp k = true -> chk_plus (ec sp) = false -> exc_compatible sp sp = true.
Proof.
  destruct sp as [[s|] c]; intros Hwf Hp; destruct c; try discriminate; try reflexivity.
  all: apply wf_sent_ok in Hwf; unfold exc_compatible; cbn.
  all: replace (sent_eqb s s) with true; [reflexivity|].
  all: destruct s as [v o], k, v as [z|[| |q]|p| |a b|ob| |]; try discriminate; cbn;
       rewrite ?Z.eqb_refl; reflexivity.
Qed.

Theorem spec_faithful : forall sp k fl cn b st,
  wf_specb sp k = true -> chk_plus (ec sp) = false ->
  cython_body b = true -> body_val_okb k b = true ->
  ctx_okb fl cn = true -> clean cn st ->
  contract_okb sp k b = true ->
  observe sp k fl cn b st = documented sp k b st.
Proof.
  intros sp k fl cn b st Hwf Hplus. apply compat_sound; try assumption.
  exact (exc_compatible_refl sp k Hwf Hplus).
Qed.

(* "except? v": a legitimate return of the sentinel is not reported as an error, and nothing is
   left pending *)
Corollary sentinel_legit_ok : forall s k fl cn r st,
  wf_specb {| ev := Some s; ec := ChkYes |} k = true ->
  val_okb k r = true -> c_test k s r = true ->
  ctx_okb fl cn = true -> clean cn st ->
  observe {| ev := Some s; ec := ChkYes |} k fl cn (Return r) st = {| o_err := false; o_val := r; o_st := st |}.
Proof.
  intros. rewrite spec_faithful; auto.
Qed.

(* noexcept: the exception goes to the unraisable hook exactly once, is cleared, and the caller
   continues with the default value of the return type *)
Corollary noexcept_reports : forall sp k fl cn e st,
  wf_specb sp k = true -> propagates sp k = false ->
  ctx_okb fl cn = true -> clean cn st ->
  let o := observe sp k fl cn (Raise e) st in
  o_err o = false /\ o_val o = noexcept_value k /\
  pending (o_st o) = None /\ unraisable (o_st o) = unraisable st ++ [e] /\
  gil (o_st o) = gil st /\ viol (o_st o) = viol st.
Proof.
  intros sp k fl cn e st Hwf Hprop Hctx Hcl o. subst o.
  assert (Hplus : chk_plus (ec sp) = false).
  { unfold propagates in Hprop. destruct (ec sp); try reflexivity.
    destruct (is_obj k), (ev sp); discriminate. }
  rewrite spec_faithful; auto; [|unfold contract_okb; destruct (ev sp), (ec sp); reflexivity].
  unfold documented. rewrite Hprop. cbn. repeat split; reflexivity.
Qed.

(* a propagating specification delivers the exception raised in the body, and reports nothing *)
Corollary raise_propagates : forall sp k fl cn e st,
  wf_specb sp k = true -> chk_plus (ec sp) = false -> propagates sp k = true ->
  ctx_okb fl cn = true -> clean cn st ->
  let o := observe sp k fl cn (Raise e) st in
  o_err o = true /\ pending (o_st o) = Some e /\ unraisable (o_st o) = unraisable st /\
  gil (o_st o) = gil st /\ viol (o_st o) = viol st.
Proof.
  intros sp k fl cn e st Hwf Hplus Hprop Hctx Hcl o. subst o.
  rewrite spec_faithful; auto; [|unfold contract_okb; destruct (ev sp), (ec sp); reflexivity].
  unfold documented. rewrite Hprop. cbn. repeat split; reflexivity.
Qed.

(* why the contract hypothesis is there: plain "except v" whose body returns v takes the caller's
   error path although no exception is set *)
Theorem except_v_sentinel_return_is_error :
  exists sp k fl cn r st,
    wf_specb sp k = true /\ chk_plus (ec sp) = false /\ val_okb k r = true /\ ctx_okb fl cn = true /\ clean cn st /\
    contract_okb sp k (Return r) = false /\
    o_err (observe sp k fl cn (Return r) st) = true /\ pending (o_st (observe sp k fl cn (Return r) st)) = None.
Proof.
  exists {| ev := Some (Sent (VInt (-1)) false); ec := ChkNo |}, (KInt 32 true), FPlain, false, (VInt (-1)),
         {| pending := None; unraisable := []; gil := true; viol := O |}.
  unfold clean. repeat split; vm_compute; reflexivity.
Qed.

(* an exception that was already pending when the call was made: exactly the calls whose check
   condition holds report it; the others leave it pending *)
Theorem stale_characterised : forall sp k fl cn r e0 st,
  chk_plus (ec sp) = false -> val_okb k r = true -> pending st = Some e0 -> gil st = negb cn ->
  observe sp k fl cn (Return r) st = {| o_err := check_fires sp k r; o_val := r; o_st := st |}.
Proof.
  intros sp k fl cn r e0 st Hplus Hv Hp Hg.
  unfold observe. rewrite (observe_via_return sp sp k fl cn r st Hplus Hg), Hp. f_equal.
  unfold ret_err, check_fires.
  destruct (is_obj k) eqn:Ho; [destruct k; try discriminate; destruct r; try discriminate; reflexivity|].
  destruct (ev sp), (ec sp); try discriminate; cbn; rewrite ?orb_true_r, ?andb_true_r; reflexivity.
Qed.

Lemma in_rangeb_wrap w s v : 1 <= w -> in_rangeb w s (wrap w s v) = true.
Proof. intros. apply in_rangeb_spec. apply wrap_in_range. assumption. Qed.

Theorem normalise_wf : forall f k c sp,
  kind_okb k = true -> normalise f k c = Some sp -> wf_specb sp k = true.
Proof.
  intros f k c sp Hk H. unfold normalise in H.
  destruct (parse_clause (extern f) c) as [[val ck] hc] eqn:Hpc.
  assert (Hcoerce : forall s s', coerce_sent k s = Some s' -> sent_okb k s' = true).
  { intros [v o] s' Hc. destruct k, v; cbn in Hc; try discriminate; inversion Hc; subst; cbn; try reflexivity.
    apply in_rangeb_wrap. cbn in Hk. lia. }
  set (ck1 := if legacy f && negb (is_obj k) && negb hc && chk_true ck && negb (extern f) then ChkNo else ck) in *.
  destruct (chk_plus ck1) eqn:Hp1.
  - inversion H; subst. unfold wf_specb; cbn. rewrite Hk, Hp1. cbn. destruct (is_obj k); [apply orb_true_r|reflexivity].
  - destruct (is_obj k) eqn:Ho.
    + destruct val; try discriminate. inversion H; subst. unfold wf_specb; cbn. rewrite Hk, Ho. reflexivity.
    + cbn [andb] in H.
      match type of H with match ?v1 with _ => _ end = _ => destruct v1 as [s1|] eqn:Hv1 end.
      * destruct (coerce_sent k s1) as [s'|] eqn:Hc; try discriminate.
        inversion H; subst. unfold wf_specb; cbn. rewrite Hk, Ho, Hp1, (Hcoerce _ _ Hc). reflexivity.
      * inversion H; subst. unfold wf_specb; cbn. rewrite Hk, Ho. reflexivity.
Qed.

(* the specification chosen when no clause is written, by return type *)
Theorem default_spec_chosen : forall k,
  kind_okb k = true -> normalise plain_flags k CNone = Some (default_spec k).
Proof.
  intros k Hk. destruct k as [w s| | | | | |]; try reflexivity.
  cbn in Hk. assert (H : 1 <= w) by lia.
  pose proof (wrap_id w s (wrap w s (-1)) H (wrap_in_range w s (-1) H)) as E.
  unfold normalise, default_spec. cbn -[wrap]. rewrite E. reflexivity.
Qed.

(* ... it propagates, needs no user contract, and lies in the domain of spec_faithful *)
Theorem default_spec_in_domain : forall k b,
  kind_okb k = true ->
  wf_specb (default_spec k) k = true /\ chk_plus (ec (default_spec k)) = false /\
  propagates (default_spec k) k = true /\ contract_okb (default_spec k) k b = true.
Proof.
  intros k b Hk. split; [|split; [|split]].
  - apply (normalise_wf plain_flags k CNone); auto using default_spec_chosen.
  - destruct k; reflexivity.
  - destruct k; reflexivity.
  - destruct k; cbn; try reflexivity; destruct b; reflexivity.
Qed.

(* legacy_implicit_noexcept / extern declarations: no clause means noexcept (except for objects) *)
Theorem implicit_noexcept : forall f k,
  (legacy f = true \/ extern f = true) -> is_obj k = false ->
  normalise f k CNone = Some {| ev := None; ec := ChkNo |}.
Proof.
  intros f k H Ho. unfold normalise. destruct f as [lg ex px cp]; cbn in *.
  rewrite Ho. destruct lg, ex; cbn; try reflexivity. destruct H; discriminate.
Qed.

(* objects: every accepted declaration propagates through NULL *)
Theorem object_always_propagates : forall f c sp,
  normalise f KObject c = Some sp -> propagates sp KObject = true.
Proof. intros. reflexivity. Qed.

Theorem cpp_faithful_reduced : forall h k cn b st,
  kind_okb k = true -> cpp_body_okb h b = true -> body_val_okb k b = true -> clean cn st ->
  observe {| ev := None; ec := ChkPlus h |} k FPlain cn b st
  = documented {| ev := None; ec := ChkPlus h |} k b st.
Proof.
  intros h k cn b st Hk Hb Hv [Hp Hg]. destr_state st. subst p g.
  unfold observe, observe_via, callee, call_site, documented; cbn [ev ec].
  destruct b as [r|e|x|e r]; try discriminate; cbn in Hv.
  - destruct k, r; try discriminate; destruct h, cn; reflexivity.
  - destruct h, cn; reflexivity.
  - destruct h; try discriminate. destruct k, r; try discriminate; destruct cn; reflexivity.
Qed.
