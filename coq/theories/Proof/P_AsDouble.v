(* C06 -- proofs about the float(str/bytes) pre-scanner (Model/M_AsDouble.v). *)
From Coq Require Import ZArith List Bool Lia ZifyBool.
From CyVerif Require Import Model.M_AsDouble.
Import ListNotations.
Open Scope Z_scope.

(* ---------- stripping ---------- *)

Lemma lskip_some sp mem rest :
  lskip sp mem = Some rest ->
  exists ws, mem = ws ++ rest /\ Forall (fun c => sp c = true) ws /\
             exists c t, rest = c :: t /\ sp c = false.
Proof.
  revert rest. induction mem as [|c t IH]; intros rest H; cbn in H; [discriminate|].
  destruct (sp c) eqn:E.
  - destruct (IH _ H) as (ws & -> & Hws & Hr). exists (c :: ws). repeat split; auto.
  - injection H as <-. exists []. repeat split; auto. exists c, t. auto.
Qed.

Lemma lskip_terminated sp data : sp 0 = false -> lskip sp (data ++ [0]) <> None.
Proof.
  intros H0. induction data as [|c t IH]; cbn.
  - rewrite H0. discriminate.
  - destruct (sp c); [exact IH | discriminate].
Qed.

Lemma dropwhile_split sp l :
  exists ws, l = ws ++ dropwhile sp l /\ Forall (fun c => sp c = true) ws.
Proof.
  induction l as [|c t IH]; cbn.
  - exists []. auto.
  - destruct (sp c) eqn:E.
    + destruct IH as (ws & H1 & H2). exists (c :: ws). split; [cbn; congruence | auto].
    + exists []. auto.
Qed.

Lemma rstrip_split sp body :
  exists ws, body = rstrip sp body ++ ws /\ Forall (fun c => sp c = true) ws.
Proof.
  destruct body as [|c t]; cbn.
  - exists []. auto.
  - destruct (dropwhile_split sp (rev t)) as (ws & H1 & H2).
    exists (rev ws). split.
    + f_equal. rewrite <- (rev_involutive t), H1 at 1. rewrite rev_app_distr. reflexivity.
    + apply Forall_rev. exact H2.
Qed.

Lemma rstrip_length sp body : (length (rstrip sp body) <= length body)%nat.
Proof.
  destruct (rstrip_split sp body) as (ws & H & _). rewrite H at 2. rewrite app_length. lia.
Qed.

Lemma region_lt sp mem rest :
  lskip sp mem = Some rest -> (length (rstrip sp (removelast rest)) < length rest)%nat.
Proof.
  intros H. destruct (lskip_some _ _ _ H) as (_ & _ & _ & c & t & Hr & _).
  assert (Hne : rest <> []) by (rewrite Hr; discriminate).
  pose proof (rstrip_length sp (removelast rest)) as Hl.
  rewrite (app_removelast_last 0 Hne) at 2. rewrite app_length. cbn. lia.
Qed.

(* ---------- inf_nan never reads outside the buffer ---------- *)

Lemma rd_some l i : (i < length l)%nat -> exists c, rd l i = Some c.
Proof.
  intros H. unfold rd. destruct (nth_error l i) eqn:E; [eauto|].
  apply nth_error_None in E. lia.
Qed.

Lemma inf_nan_no_oob rest len :
  (1 <= len)%nat -> (len < length rest)%nat -> inf_nan rest (Z.of_nat len) <> INOOB.
Proof.
  intros H1 H2. unfold inf_nan.
  destruct (rd_some rest 0 ltac:(lia)) as (sign & ->).
  set (sg := (sign =? 45) || (sign =? 43)).
  set (st := if sg then 1%nat else 0%nat).
  set (n := if sg then Z.of_nat len - 1 else Z.of_nat len).
  (* the k-th character after the sign is read only under a test that gives k <= n *)
  assert (R : forall k, Z.of_nat k <= n -> exists c, rd rest (st + k) = Some c).
  { intros k Hk. apply rd_some. subst st n. destruct sg; lia. }
  destruct (R 0%nat ltac:(subst n; destruct sg; lia)) as (c0 & E0).
  rewrite Nat.add_0_r in E0. rewrite E0.
  destruct (is2 c0 110 78).
  { destruct (negb _) eqn:E3; [discriminate|].
    destruct (R 1%nat ltac:(lia)) as (c1 & ->). destruct (R 2%nat ltac:(lia)) as (c2 & ->).
    destruct (_ && _); discriminate. }
  destruct (is2 c0 105 73).
  { destruct (_ <? 3) eqn:E3; [discriminate|].
    destruct (R 1%nat ltac:(lia)) as (c1 & ->). destruct (R 2%nat ltac:(lia)) as (c2 & ->).
    cbv zeta. destruct (_ && _); [discriminate|].
    destruct (negb _) eqn:E8; [discriminate|].
    destruct (R 3%nat ltac:(lia)) as (c3 & ->). destruct (R 4%nat ltac:(lia)) as (c4 & ->).
    destruct (R 5%nat ltac:(lia)) as (c5 & ->). destruct (R 6%nat ltac:(lia)) as (c6 & ->).
    destruct (R 7%nat ltac:(lia)) as (c7 & ->).
    destruct (_ && _); discriminate. }
  destruct ((c0 =? 46) || is_digit c0); discriminate.
Qed.

(* ---------- the repaired underscore rule is CPython's ---------- *)

Definition st_ok (s : ust) (prev : Z) : Prop := st_d s = is_digit prev /\ st_u s = is_us prev.

Lemma st_ok0 : st_ok ust0 0.
Proof. split; reflexivity. Qed.

Lemma ustep_new punct s prev c :
  st_ok s prev ->
  fst (ustep true punct s c)
    = negb (if is_us c then is_digit prev else negb (is_us prev) || is_digit c)
  /\ st_ok (snd (ustep true punct s c)) c.
Proof.
  intros [Hd Hu]. unfold ustep. cbn [fst snd st_d st_u]. rewrite Hd, Hu.
  split; [|split; reflexivity].
  destruct (is_us c) eqn:Ec; unfold is_digit, is_us in *; lia.
Qed.

Lemma remove_us_cons c t :
  remove_us (c :: t) = if is_us c then remove_us t else c :: remove_us t.
Proof. unfold remove_us. cbn. destruct (is_us c); reflexivity. Qed.

Lemma copy_b_new : forall l cap out s prev err,
  st_ok s prev -> (length out + length (remove_us l) < cap)%nat ->
  copy_b true l cap out s err
  = if err || negb (us_ok_from prev l) then Fallback else Parse (rev out ++ remove_us l).
Proof.
  induction l as [|c t IH]; intros cap out s prev err Hs Hc.
  - cbn in *. destruct (Nat.leb_spec cap (length out)); [lia|].
    destruct Hs as [_ Hu]. rewrite Hu, negb_involutive, app_nil_r. reflexivity.
  - cbn [copy_b us_ok_from]. rewrite remove_us_cons in *.
    destruct (Nat.leb_spec cap (length out)); [destruct (is_us c); cbn in Hc; lia|].
    destruct (ustep_new is_punct_b s prev c Hs) as [He Hs'].
    destruct (ustep true is_punct_b s c) as [e s'] eqn:U. cbn [fst snd] in He, Hs'.
    rewrite (IH cap _ s' c (err || e) Hs').
    + rewrite He. destruct (is_us c) eqn:Ec.
      * destruct err, (is_digit prev), (us_ok_from c t); reflexivity.
      * cbn [rev]. rewrite <- app_assoc. cbn [app].
        destruct err, (negb (is_us prev) || is_digit c), (us_ok_from c t); reflexivity.
    + destruct (is_us c); cbn [length] in *; lia.
Qed.

Lemma copy_b_no_oob : forall fu l cap out s err,
  (length out + length (remove_us l) < cap)%nat ->
  copy_b fu l cap out s err <> OOBWrite /\ copy_b fu l cap out s err <> OOBRead.
Proof.
  induction l as [|c t IH]; intros cap out s err Hc.
  - cbn in *. destruct (Nat.leb_spec cap (length out)); [lia|].
    destruct (err || ufinal fu s); split; discriminate.
  - cbn [copy_b]. rewrite remove_us_cons in Hc.
    destruct (Nat.leb_spec cap (length out)); [destruct (is_us c); cbn in Hc; lia|].
    destruct (ustep fu is_punct_b s c) as [e s']. apply IH.
    destruct (is_us c); cbn [length] in *; lia.
Qed.

Lemma copy_u_new_sound : forall l cap out s prev r,
  st_ok s prev -> copy_u true l cap out s = Parse r ->
  r = rev out ++ remove_us l /\ us_ok_from prev l = true /\ Forall (fun c => c <= 127) l.
Proof.
  induction l as [|c t IH]; intros cap out s prev r Hs H.
  - cbn in *. destruct Hs as [_ Hu]. rewrite Hu in H.
    destruct (is_us prev); [discriminate|].
    destruct (cap <=? length out)%nat; [discriminate|]. injection H as <-.
    rewrite app_nil_r. auto.
  - cbn [copy_u us_ok_from] in *. rewrite remove_us_cons.
    destruct (cap <=? length out)%nat; [discriminate|].
    destruct (Z.ltb_spec 127 c); [discriminate|].
    destruct (ustep_new is_punct_u s prev c Hs) as [He Hs'].
    destruct (ustep true is_punct_u s c) as [e s'] eqn:U. cbn [fst snd] in He, Hs'.
    destruct e; [discriminate|].
    destruct (IH _ _ _ _ _ Hs' H) as (Hr & Hu & Hf).
    split; [|split].
    + rewrite Hr. destruct (is_us c); [reflexivity|]. cbn [rev]. rewrite <- app_assoc. reflexivity.
    + rewrite Hu, andb_true_r. symmetry in He. apply negb_false_iff in He. exact He.
    + constructor; [lia | exact Hf].
Qed.

Lemma copy_u_no_oob : forall fu l cap out s,
  (length out + length l < cap)%nat ->
  copy_u fu l cap out s <> OOBWrite /\ copy_u fu l cap out s <> OOBRead.
Proof.
  induction l as [|c t IH]; intros cap out s Hc.
  - cbn in *. destruct (ufinal fu s); [split; discriminate|].
    destruct (Nat.leb_spec cap (length out)); [lia|]. split; discriminate.
  - cbn [copy_u]. cbn [length] in Hc.
    destruct (Nat.leb_spec cap (length out)); [lia|].
    destruct (127 <? c); [split; discriminate|].
    destruct (ustep fu is_punct_u s c) as [e s']. destruct e; [split; discriminate|].
    apply IH. destruct (is_us c); cbn [length]; lia.
Qed.

(* ---------- strings without underscores ---------- *)

Lemma filter_len_le {A} (f : A -> bool) l : (length (filter f l) <= length l)%nat.
Proof. induction l as [|a t IH]; cbn; [lia|]. destruct (f a); cbn; lia. Qed.

Lemma filter_length_id {A} (f : A -> bool) l :
  length (filter f l) = length l -> filter f l = l /\ Forall (fun x => f x = true) l.
Proof.
  induction l as [|a t IH]; cbn; [auto|].
  pose proof (filter_len_le f t) as Hle.
  destruct (f a) eqn:E; cbn; intros H.
  - destruct IH as [H1 H2]; [lia|]. split; [congruence | auto].
  - lia.
Qed.

Lemma us_ok_no_us : forall l prev,
  is_us prev = false -> Forall (fun c => negb (is_us c) = true) l -> us_ok_from prev l = true.
Proof.
  induction l as [|c t IH]; intros prev Hp Hf; cbn.
  - rewrite Hp. reflexivity.
  - inversion Hf as [|? ? Hc Ht]; subst. apply negb_true_iff in Hc.
    rewrite Hc, Hp. cbn. apply IH; auto.
Qed.

(* ---------- the scanners ---------- *)

(* the input between the leading and the trailing spaces, as the C code delimits it *)
Definition strip (sp : Z -> bool) (data : list Z) : list Z :=
  match lskip sp (data ++ [0]) with
  | Some rest => rstrip sp (removelast rest)
  | None => []
  end.

Lemma isspace_b_0 : isspace_b 0 = false. Proof. reflexivity. Qed.
Lemma isspace_u_0 : isspace_u 0 = false. Proof. reflexivity. Qed.
Lemma isspace_u_new_0 : isspace_u_new 0 = false. Proof. reflexivity. Qed.

(* Both scanners skip the leading spaces, strip the trailing ones, try inf / nan, and otherwise
   run their copy loop over the stripped region. *)
Definition scan_frame (sp : Z -> bool) (copy : list Z -> scan_res) (data : list Z) : scan_res :=
  match lskip sp (data ++ [0]) with
  | None => OOBRead
  | Some rest =>
    let region := rstrip sp (removelast rest) in
    match region with
    | [] => Fallback
    | _ =>
      match inf_nan rest (Z.of_nat (length region)) with
      | INOOB => OOBRead
      | INFail => Fallback
      | INVal n k => Special n k
      | INCont => copy region
      end
    end
  end.

Lemma scan_bytes_frame fu data :
  scan_bytes fu data = scan_frame isspace_b (fun region =>
    let digits := length (remove_us region) in
    if (digits =? length region)%nat then Parse region
    else copy_b fu region (if (digits <? 40)%nat then 40%nat else S digits) [] ust0 false) data.
Proof. reflexivity. Qed.

Lemma scan_uni_frame fu fs data :
  scan_uni true fu fs data = scan_frame (if fs then isspace_u_new else isspace_u) (fun region =>
    copy_u fu region (if (length region <? 40)%nat then 40%nat else S (length region)) [] ust0) data.
Proof. reflexivity. Qed.

Lemma frame_parse sp copy data s' :
  scan_frame sp copy data = Parse s' -> copy (strip sp data) = Parse s'.
Proof.
  unfold scan_frame, strip. destruct (lskip sp (data ++ [0])) as [rest|]; [|discriminate].
  destruct (rstrip sp (removelast rest)) as [|c0 r0] eqn:R; [discriminate|]. rewrite <- R.
  destruct (inf_nan rest _); try discriminate. auto.
Qed.

Lemma frame_no_oob sp copy data :
  sp 0 = false -> (forall region, copy region <> OOBWrite /\ copy region <> OOBRead) ->
  scan_frame sp copy data <> OOBWrite /\ scan_frame sp copy data <> OOBRead.
Proof.
  intros H0 Hc. unfold scan_frame.
  destruct (lskip sp (data ++ [0])) as [rest|] eqn:L;
    [| exfalso; exact (lskip_terminated _ data H0 L)].
  pose proof (region_lt _ _ _ L) as Hlt.
  destruct (rstrip sp (removelast rest)) as [|c0 r0] eqn:R; [split; discriminate|]. rewrite <- R in *.
  assert (Hin := inf_nan_no_oob rest (length (rstrip sp (removelast rest)))).
  destruct (inf_nan rest _); try (split; discriminate); [apply Hc|].
  exfalso. apply Hin; [rewrite R; cbn; lia | exact Hlt | reflexivity].
Qed.

(* F4 repaired: what __Pyx__PyBytes_AsDouble hands to the C parser *)
Theorem scan_bytes_sound : forall data s',
  scan_bytes true data = Parse s' ->
  s' = remove_us (strip isspace_b data) /\ us_ok (strip isspace_b data) = true.
Proof.
  intros data s' H. rewrite scan_bytes_frame in H. apply frame_parse in H.
  set (region := strip isspace_b data) in *. cbv zeta in H.
  destruct (Nat.eqb_spec (length (remove_us region)) (length region)) as [E|E].
  - injection H as <-.
    destruct (filter_length_id _ _ E) as [H1 H2]. split; [symmetry; exact H1|].
    apply us_ok_no_us; [reflexivity | exact H2].
  - rewrite (copy_b_new region _ [] ust0 0 false st_ok0) in H.
    + cbn [orb rev app] in H. fold (us_ok region) in H. destruct (us_ok region); [|discriminate].
      injection H as <-. auto.
    + cbn [length]. destruct (Nat.ltb_spec (length (remove_us region)) 40); lia.
Qed.

Theorem scan_bytes_no_oob : forall fu data,
  scan_bytes fu data <> OOBWrite /\ scan_bytes fu data <> OOBRead.
Proof.
  intros fu data. rewrite scan_bytes_frame. apply frame_no_oob; [exact isspace_b_0|].
  intros region. cbv zeta. destruct (_ =? _)%nat; [split; discriminate|].
  apply copy_b_no_oob. cbn [length].
  destruct (Nat.ltb_spec (length (remove_us region)) 40); lia.
Qed.

(* F4 + F5 repaired (and the space test): what the unicode path hands to the C parser *)
Theorem scan_uni_sound : forall fs data s',
  scan_uni true true fs data = Parse s' ->
  let sp := if fs then isspace_u_new else isspace_u in
  s' = remove_us (strip sp data) /\ us_ok (strip sp data) = true
  /\ Forall (fun c => c <= 127) (strip sp data).
Proof.
  intros fs data s' H. rewrite scan_uni_frame in H. apply frame_parse in H.
  exact (copy_u_new_sound _ _ _ _ 0 _ st_ok0 H).
Qed.

Theorem scan_uni_no_oob : forall fu fs data,
  scan_uni true fu fs data <> OOBWrite /\ scan_uni true fu fs data <> OOBRead.
Proof.
  intros fu fs data. rewrite scan_uni_frame.
  apply frame_no_oob; [destruct fs; [exact isspace_u_new_0 | exact isspace_u_0]|].
  intros region. apply copy_u_no_oob. cbn [length].
  destruct (Nat.ltb_spec (length region) 40); lia.
Qed.

(* float(str): both paths *)
Theorem scan_str_no_oob : forall fu fs data,
  scan_str true fu fs data <> OOBWrite /\ scan_str true fu fs data <> OOBRead.
Proof.
  intros. unfold scan_str. destruct (is_ascii data);
    [apply scan_bytes_no_oob | apply scan_uni_no_oob].
Qed.

Theorem scan_str_sound : forall data s',
  scan_str true true true data = Parse s' ->
  let sp := if is_ascii data then isspace_b else isspace_u_new in
  s' = remove_us (strip sp data) /\ us_ok (strip sp data) = true.
Proof.
  intros data s'. unfold scan_str. destruct (is_ascii data); cbv zeta.
  - apply scan_bytes_sound.
  - intros H. apply scan_uni_sound in H. cbv zeta in H. tauto.
Qed.

(* ---------- the current code is refuted ---------- *)

(* F4: "1e+_5" is handed to the parser as "1e+5" although CPython's rule rejects it *)
Theorem scan_bytes_old_refuted :
  exists data s', scan_bytes false data = Parse s' /\ us_ok (strip isspace_b data) = false.
Proof. exists [49; 101; 43; 95; 53], [49; 101; 43; 53]. vm_compute. auto. Qed.

(* F5: U+2003 followed by 39 digits: the 41st byte is written into `char number[40]`;
   with 40 digits the (length+2)-th byte is written into the (length+1)-byte heap buffer *)
Theorem scan_str_old_oob_refuted :
  scan_str false false false (8195 :: repeat 49 39) = OOBWrite /\
  scan_str false false false (8195 :: repeat 49 40) = OOBWrite /\
  scan_str false false false (8195 :: repeat 49 38) = Parse (repeat 49 38 ++ [0]).
Proof. vm_compute. auto. Qed.

(* with `i <= end` the terminator (or the first stripped space) is copied as part of the number,
   so the parser can never consume the whole buffer: the path always falls back *)
Theorem scan_str_old_extra_char_refuted :
  exists data s', scan_str false false false data = Parse s' /\
                  s' <> remove_us (strip isspace_u data).
Proof. exists [8195; 49; 46; 53], [49; 46; 53; 0]. vm_compute. split; [reflexivity | discriminate]. Qed.

(* new: the unicode path strips the ASCII separators 0x1c-0x1f, CPython's float() does not:
   " inf\x1c" is returned as inf, CPython raises ValueError *)
Theorem scan_str_old_separator_refuted : forall todecimal,
  scan_str false false false [8195; 105; 110; 102; 28] = Special false false /\
  py_scan_str todecimal [8195; 105; 110; 102; 28] = PyParse [105; 110; 102; 28] /\
  infnan_spelling [105; 110; 102; 28] = None /\
  scan_str true true true [8195; 105; 110; 102; 28] = Fallback.
Proof. intros. vm_compute. auto. Qed.
