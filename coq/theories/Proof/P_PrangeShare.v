(* C37 -- proofs about the sharing classification (Model/M_PrangeShare.v): a body that passes the
   well-formedness check leaves the sequential values under every schedule; witnesses of accepted bodies
   that do not; names used in one declared role get the declared clause. *)
From Coq Require Import ZArith List Bool Lia ZifyBool Permutation.
From CyVerif Require Import Lib.CInt Model.M_PrangeShare Proof.P_IntPow Proof.P_Prange.
Import ListNotations.
Open Scope Z_scope.

(* arithmetic of the C type: the OpenMP combiners on wrapped values *)
Section Arith.
  Variable w : Z.
  Variable sg : bool.
  Hypothesis Hw : 2 <= w.
  (* as inside the model's own section: W and the range of values at this width and signedness *)
  Notation W := (W w sg).
  Notation rng := (in_range w sg).

  Lemma W_cong x : cong w (W x) x.
  Proof. apply wrap_mod. lia. Qed.
  Lemma W_eq x y : cong w x y -> W x = W y.
  Proof. apply wrap_eq_of_mod. lia. Qed.
  Lemma W_rng x : rng (W x).
  Proof. apply wrap_in_range. lia. Qed.
  Lemma W_id x : rng x -> W x = x.
  Proof. apply wrap_id. lia. Qed.

  Lemma W_l f : resp w f -> forall a b, W (f (W a) b) = W (f a b).
  Proof. intros Hf a b. apply W_eq. apply Hf; [apply W_cong|reflexivity]. Qed.
  Lemma W_r f : resp w f -> forall a b, W (f a (W b)) = W (f a b).
  Proof. intros Hf a b. apply W_eq. apply Hf; [reflexivity|apply W_cong]. Qed.

  Lemma rng_0 : rng 0.
  Proof. apply min_max_sign. lia. Qed.
  Lemma rng_1 : rng 1.
  Proof. apply in_range_1. lia. Qed.
  Lemma rng_b2z b : rng (b2z b).
  Proof. destruct b; [apply rng_1|apply rng_0]. Qed.

  (* the laws of the OpenMP combiner, for the six reduction operators *)
  Lemma mop_assoc o a b c : omp_reduction_op o = true ->
    mop w sg o a (mop w sg o b c) = mop w sg o (mop w sg o a b) c.
  Proof.
    intros Ho. destruct o; try discriminate; cbn [mop act].
    - rewrite (W_r _ resp_add), (W_l _ resp_add). f_equal. lia.
    - rewrite (W_r _ resp_mul), (W_l _ resp_mul). f_equal. lia.
    - rewrite (W_r _ resp_add), (W_l _ resp_add). f_equal. lia.
    - rewrite (W_r _ resp_land), (W_l _ resp_land). f_equal. apply Z.land_assoc.
    - rewrite (W_r _ resp_lxor), (W_l _ resp_lxor). f_equal. symmetry. apply Z.lxor_assoc.
    - rewrite (W_r _ resp_lor), (W_l _ resp_lor). f_equal. apply Z.lor_assoc.
  Qed.

  Lemma mop_comm o a b : omp_reduction_op o = true -> mop w sg o a b = mop w sg o b a.
  Proof.
    intros Ho. destruct o; try discriminate; cbn [mop act]; f_equal;
      [lia|lia|lia|apply Z.land_comm|apply Z.lxor_comm|apply Z.lor_comm].
  Qed.

  Lemma mop_ident o a : omp_reduction_op o = true -> rng a -> mop w sg o a (ident w sg o) = a.
  Proof.
    intros Ho Ha. destruct o; try discriminate; cbn [mop act ident].
    - rewrite Z.add_0_r. now apply W_id.
    - rewrite Z.mul_1_r. now apply W_id.
    - rewrite Z.add_0_r. now apply W_id.
    - rewrite (W_r _ resp_land), Z.land_m1_r. now apply W_id.
    - rewrite Z.lxor_0_r. now apply W_id.
    - rewrite Z.lor_0_r. now apply W_id.
  Qed.

  (* x o= v on a value that is "offset a combined with b" acts on b only; for - this is
     (a + b) - v = a + (b - v): partial differences are ADDED *)
  Lemma act_mop o a b v : omp_reduction_op o = true ->
    act w sg o (mop w sg o a b) v = mop w sg o a (act w sg o b v).
  Proof.
    intros Ho. destruct o; try discriminate; cbn [mop act].
    - rewrite (W_l _ resp_add), (W_r _ resp_add). f_equal. lia.
    - rewrite (W_l _ resp_mul), (W_r _ resp_mul). f_equal. lia.
    - rewrite (W_l _ resp_sub), (W_r _ resp_add). f_equal. lia.
    - rewrite (W_l _ resp_land), (W_r _ resp_land). f_equal. symmetry. apply Z.land_assoc.
    - rewrite (W_l _ resp_lxor), (W_r _ resp_lxor). f_equal. apply Z.lxor_assoc.
    - rewrite (W_l _ resp_lor), (W_r _ resp_lor). f_equal. symmetry. apply Z.lor_assoc.
  Qed.

  Lemma mop_rng o a b : omp_reduction_op o = true -> rng (mop w sg o a b).
  Proof. intros Ho. destruct o; try discriminate; cbn [mop act]; apply W_rng. Qed.

  Lemma ident_rng o : rng (ident w sg o).
  Proof. destruct o; cbn [ident]; try apply rng_0; [apply rng_1|apply W_rng]. Qed.

  Lemma act_rng o a v : rng a -> rng (act w sg o a v).
  Proof. intros Ha. destruct o; cbn [act]; try apply W_rng. destruct (v =? 0); [assumption|apply W_rng]. Qed.

  (* all values stay representable *)
  Definition Rng (e : env) : Prop := forall x, rng (e x).

  Lemma upd_rng e x v : Rng e -> rng v -> Rng (upd e x v).
  Proof. intros He Hv y. unfold upd. destruct (Nat.eqb y x); auto. Qed.

  Lemma eval_rng e ex : Rng e -> rng (eval w sg e ex).
  Proof.
    intros He. induction ex as [c|x|b a IHa c IHc]; cbn [eval]; [apply W_rng|apply He|].
    destruct b; cbn [bin]; try apply W_rng; apply rng_b2z.
  Qed.

  Lemma iter_pres (Q : env -> Prop) f : (forall k e, Q e -> Q (f k e)) ->
    forall n k e, Q e -> Q (iter n k f e).
  Proof. intros Hf. induction n as [|n IH]; intros k e He; cbn [iter]; auto. Qed.

  Lemma exec_rng st : forall e, Rng e -> Rng (exec w sg st e).
  Proof.
    induction st as [|a IHa b IHb|x ex|x o ex|c t IHt f IHf|par x n b IHb]; intros e He; cbn [exec]; auto.
    - apply upd_rng; [assumption|now apply eval_rng].
    - apply upd_rng; [assumption|]. apply act_rng, He.
    - destruct (_ =? 0); auto.
    - apply iter_pres; [|assumption]. intros k e' He'. apply IHb. apply upd_rng; [assumption|apply W_rng].
  Qed.

  (* simulation: two executions of a well-formed body *)
  Section Sim.
    Variable cls : var -> clause.

    (* agreement on everything an expression may read *)
    Definition Agree (D : list var) (e1 e2 : env) : Prop :=
      forall x, var_ok cls D x = true -> e1 x = e2 x.
    (* reduction variables of the first execution = offset a combined with the second *)
    Definition RedRel (a e1 e2 : env) : Prop :=
      forall x o, cls x = CRed o -> e1 x = mop w sg o (a x) (e2 x).

    Lemma mem_cons x y D : mem x (y :: D) = Nat.eqb x y || mem x D.
    Proof. reflexivity. Qed.

    Lemma mem_In x D : mem x D = true <-> In x D.
    Proof.
      unfold mem. rewrite existsb_exists. split.
      - intros (y & Hy & E). apply Nat.eqb_eq in E. now subst.
      - intros H. exists x. split; [assumption|apply Nat.eqb_refl].
    Qed.

    Lemma var_ok_mono D D' x : incl D D' -> var_ok cls D x = true -> var_ok cls D' x = true.
    Proof.
      intros Hi. unfold var_ok. destruct (cls x); auto.
      rewrite !mem_In. apply Hi.
    Qed.

    Lemma Agree_weaken D D' e1 e2 : incl D D' -> Agree D' e1 e2 -> Agree D e1 e2.
    Proof. intros Hi H x Hx. apply H. eapply var_ok_mono; eassumption. Qed.

    Lemma eval_agree D e1 e2 ex : expr_ok cls D ex = true -> Agree D e1 e2 ->
      eval w sg e1 ex = eval w sg e2 ex.
    Proof.
      intros Hok Ha. induction ex as [c|x|b a IHa c IHc]; cbn [eval expr_ok] in *; [reflexivity|now apply Ha|].
      apply andb_prop in Hok. destruct Hok. rewrite IHa, IHc by assumption. reflexivity.
    Qed.

    Lemma clause_eqb_eq a b : clause_eqb a b = true -> a = b.
    Proof.
      destruct a as [o| | |], b as [p| | |]; cbn; try discriminate; try reflexivity.
      destruct o, p; cbn; try discriminate; reflexivity.
    Qed.

    (* what a successful check says, statement form by statement form *)
    Lemma wf_seq D a b D' : wf cls D (SSeq a b) = Some D' ->
      exists D1, wf cls D a = Some D1 /\ wf cls D1 b = Some D'.
    Proof. cbn [wf]. destruct (wf cls D a) as [D1|]; [eauto|discriminate]. Qed.

    Lemma wf_assign D x ex D' : wf cls D (SAssign x ex) = Some D' ->
      cls x = CFirstLast /\ expr_ok cls D ex = true /\ D' = x :: D.
    Proof.
      cbn [wf]. destruct (clause_eqb (cls x) CFirstLast) eqn:Ec; [|discriminate].
      destruct (expr_ok cls D ex); [|discriminate]. intros [= <-]. auto using clause_eqb_eq.
    Qed.

    Lemma wf_inplace D x o ex D' : wf cls D (SInplace x o ex) = Some D' ->
      omp_reduction_op o = true /\ cls x = CRed o /\ expr_ok cls D ex = true /\ D' = D.
    Proof.
      cbn [wf]. destruct (omp_reduction_op o); [|discriminate].
      destruct (clause_eqb (cls x) (CRed o)) eqn:Ec; [|discriminate].
      destruct (expr_ok cls D ex); [|discriminate]. intros [= <-]. auto using clause_eqb_eq.
    Qed.

    Lemma wf_if D c t f D' : wf cls D (SIf c t f) = Some D' ->
      expr_ok cls D c = true /\ (exists Dt, wf cls D t = Some Dt) /\ (exists Df, wf cls D f = Some Df) /\ D' = D.
    Proof.
      cbn [wf]. destruct (expr_ok cls D c); [|discriminate].
      destruct (wf cls D t); [|discriminate]. destruct (wf cls D f); [|discriminate]. intros [= <-]. repeat split; eauto.
    Qed.

    Lemma wf_loop D par x n b D' : wf cls D (SLoop par x n b) = Some D' ->
      expr_ok cls D n = true /\ cls x = CFirstLast /\ (exists Db, wf cls (x :: D) b = Some Db) /\ D' = D.
    Proof.
      cbn [wf]. destruct (expr_ok cls D n); [|discriminate].
      destruct (clause_eqb (cls x) CFirstLast) eqn:Ec; [|discriminate].
      destruct (wf cls (x :: D) b); [|discriminate]. intros [= <-]. repeat split; eauto using clause_eqb_eq.
    Qed.

    Lemma wf_mono st : forall D D', wf cls D st = Some D' -> incl D D'.
    Proof.
      induction st as [|a IHa b IHb|x ex|x o ex|c t IHt f IHf|par x n b IHb]; intros D D' H.
      - injection H as <-. apply incl_refl.
      - apply wf_seq in H as (D1 & Ea & Eb). eapply incl_tran; [eapply IHa|eapply IHb]; eassumption.
      - apply wf_assign in H as (_ & _ & ->). apply incl_tl, incl_refl.
      - apply wf_inplace in H as (_ & _ & _ & ->). apply incl_refl.
      - apply wf_if in H as (_ & _ & _ & ->). apply incl_refl.
      - apply wf_loop in H as (_ & _ & _ & ->). apply incl_refl.
    Qed.

    Lemma Agree_upd_new D e1 e2 x v : Agree D e1 e2 -> Agree (x :: D) (upd e1 x v) (upd e2 x v).
    Proof.
      intros H y Hy. unfold upd. destruct (Nat.eqb y x) eqn:E; [reflexivity|]. apply H.
      unfold var_ok in *. destruct (cls y); auto. rewrite mem_cons, E in Hy. exact Hy.
    Qed.

    (* writing a variable that expressions may not read is invisible to what they may read *)
    Lemma upd_not_ok D e x y v : var_ok cls D x = true -> var_ok cls D y = false -> upd e y v x = e x.
    Proof. intros Hx Hy. unfold upd. destruct (Nat.eqb_spec x y) as [->|]; [congruence|reflexivity]. Qed.

    (* opt = false switches the reduction part off (used for the lastprivate argument) *)
    Definition RR (opt : bool) (a e1 e2 : env) : Prop := if opt then RedRel a e1 e2 else True.

    Lemma RR_upd_last opt a e1 e2 x v1 v2 : cls x = CFirstLast ->
      RR opt a e1 e2 -> RR opt a (upd e1 x v1) (upd e2 x v2).
    Proof.
      intros Hx. destruct opt; [|auto]. intros H y o Hy. unfold upd.
      destruct (Nat.eqb_spec y x) as [->|]; [congruence|now apply H].
    Qed.

    Lemma iter_sim f1 f2 (R : env -> env -> Prop) :
      (forall k e1 e2, R e1 e2 -> R (f1 k e1) (f2 k e2)) ->
      forall n k e1 e2, R e1 e2 -> R (iter n k f1 e1) (iter n k f2 e2).
    Proof. intros Hf. induction n as [|n IH]; intros k e1 e2 H; cbn [iter]; auto. Qed.

    Theorem sim st : forall opt D D' a e1 e2,
      wf cls D st = Some D' -> Agree D e1 e2 -> RR opt a e1 e2 ->
      Agree D' (exec w sg st e1) (exec w sg st e2) /\ RR opt a (exec w sg st e1) (exec w sg st e2).
    Proof.
      induction st as [|s1 IH1 s2 IH2|x ex|x o ex|c t IHt f IHf|par x n b IHb];
        intros opt D D' a e1 e2 Hwf Ha Hr; cbn [exec].
      - injection Hwf as <-. auto.
      - apply wf_seq in Hwf as (D1 & E1 & E2).
        destruct (IH1 opt _ _ _ _ _ E1 Ha Hr) as [Ha1 Hr1]. eapply IH2; eassumption.
      - apply wf_assign in Hwf as (Ec & Eo & ->). rewrite (eval_agree D e1 e2 ex Eo Ha). split.
        + now apply Agree_upd_new.
        + now apply RR_upd_last.
      - apply wf_inplace in Hwf as (Eop & Ec & Eo & ->). rewrite (eval_agree D e1 e2 ex Eo Ha). split.
        + intros y Hy. rewrite !(upd_not_ok D _ y x) by (assumption || (unfold var_ok; now rewrite Ec)).
          now apply Ha.
        + destruct opt; [|exact I]. cbn [RR] in *.
          intros y p Hy. unfold upd. destruct (Nat.eqb y x) eqn:E; [|now apply Hr].
          apply Nat.eqb_eq in E. subst y. rewrite Ec in Hy. injection Hy as <-.
          rewrite (Hr x o Ec). now apply act_mop.
      - apply wf_if in Hwf as (Eo & (Dt & Et) & (Df & Ef) & ->).
        rewrite (eval_agree D e1 e2 c Eo Ha). destruct (_ =? 0).
        + destruct (IHf opt _ _ _ _ _ Ef Ha Hr) as [A R]. split; [|assumption].
          apply (Agree_weaken D Df); [exact (wf_mono f _ _ Ef)|exact A].
        + destruct (IHt opt _ _ _ _ _ Et Ha Hr) as [A R]. split; [|assumption].
          apply (Agree_weaken D Dt); [exact (wf_mono t _ _ Et)|exact A].
      - apply wf_loop in Hwf as (Eo & Ec & (Db & Eb) & ->). rewrite (eval_agree D e1 e2 n Eo Ha).
        apply (iter_sim _ _ (fun u v => Agree D u v /\ RR opt a u v)); [|auto].
        intros k u v [A R].
        destruct (IHb opt (x :: D) Db a (upd u x (W k)) (upd v x (W k)) Eb) as [A' R'].
        + now apply Agree_upd_new.
        + now apply RR_upd_last.
        + split; [|assumption]. eapply Agree_weaken; [|eassumption].
          eapply incl_tran; [apply incl_tl, incl_refl|eapply wf_mono; eassumption].
    Qed.

    (* variables without a clause (shared, block-private) are never written by a well-formed body *)
    Lemma frame st : forall D D' e x, wf cls D st = Some D' -> var_ok cls [] x = true ->
      exec w sg st e x = e x.
    Proof.
      induction st as [|s1 IH1 s2 IH2|y ex|y o ex|c t IHt f IHf|par y n b IHb];
        intros D D' e x Hwf Hx; cbn [exec].
      - reflexivity.
      - apply wf_seq in Hwf as (D1 & E1 & E2).
        rewrite (IH2 _ _ _ _ E2 Hx). eapply IH1; eassumption.
      - apply wf_assign in Hwf as (Ec & _). apply (upd_not_ok []); [assumption|].
        unfold var_ok. now rewrite Ec.
      - apply wf_inplace in Hwf as (_ & Ec & _). apply (upd_not_ok []); [assumption|].
        unfold var_ok. now rewrite Ec.
      - apply wf_if in Hwf as (_ & (Dt & Et) & (Df & Ef) & _).
        destruct (_ =? 0); [eapply IHf|eapply IHt]; eassumption.
      - apply wf_loop in Hwf as (_ & Ec & (Db & Eb) & _).
        apply (iter_pres (fun e' => e' x = e x)); [|reflexivity].
        intros k e' He'. rewrite (IHb _ _ _ _ Eb Hx), <- He'. apply (upd_not_ok []); [assumption|].
        unfold var_ok. now rewrite Ec.
    Qed.

    (* from here on: one parallel loop with target tgt and a well-formed body, entered in environment e0 *)
    Variable tgt : var.
    Variable body : stmt.
    Variable Df : list var.
    Hypothesis Htgt : cls tgt = CFirstLast.
    Hypothesis Hwf : wf cls [tgt] body = Some Df.
    Variable e0 : env.
    Hypothesis He0 : Rng e0.
    Hypothesis Hops : forall x o, cls x = CRed o -> omp_reduction_op o = true.

    Notation xi := (exec_iter w sg tgt body).

    Lemma iter_step_sim opt a e1 e2 v : Agree [] e1 e2 -> RR opt a e1 e2 ->
      Agree Df (xi v e1) (xi v e2) /\ RR opt a (xi v e1) (xi v e2).
    Proof.
      intros A R. unfold exec_iter. eapply sim; [exact Hwf|now apply Agree_upd_new|].
      now apply RR_upd_last.
    Qed.

    (* an environment reachable inside the region: clause-less variables as in e0, values representable *)
    Definition Inv (e : env) : Prop := (forall x, var_ok cls [] x = true -> e x = e0 x) /\ Rng e.

    Lemma Inv_step v e : Inv e -> Inv (xi v e).
    Proof.
      intros [Hs Hr]. unfold exec_iter. split.
      - intros x Hx. rewrite (frame _ _ _ _ _ Hwf Hx), (upd_not_ok [] _ x tgt); [now apply Hs|assumption|].
        unfold var_ok. now rewrite Htgt.
      - apply exec_rng, upd_rng; [assumption|apply W_rng].
    Qed.

    Lemma Inv_run l : forall e, Inv e -> Inv (fold_left (fun e v => xi v e) l e).
    Proof. induction l as [|v l IH]; intros e He; cbn [fold_left]; [assumption|]. apply IH, Inv_step, He. Qed.

    Lemma Inv_e0 : Inv e0.
    Proof. split; [reflexivity|exact He0]. Qed.

    Lemma Inv_priv : Inv (priv_init w sg cls e0).
    Proof.
      split.
      - intros x Hx. unfold priv_init, var_ok in *. destruct (cls x); try discriminate; reflexivity.
      - intros x. unfold priv_init. destruct (cls x); try apply He0. apply ident_rng.
    Qed.

    Lemma Inv_agree e1 e2 : Inv e1 -> Inv e2 -> Agree [] e1 e2.
    Proof. intros [H1 _] [H2 _] x Hx. now rewrite H1, H2. Qed.

    (* contribution of iteration v to reduction variable x *)
    Definition contrib (x : var) (v : Z) : Z := xi v (priv_init w sg cls e0) x.

    Lemma step_contrib e v x o : Inv e -> cls x = CRed o ->
      xi v e x = mop w sg o (e x) (contrib x v).
    Proof.
      intros He Hx. unfold contrib.
      destruct (iter_step_sim true e e (priv_init w sg cls e0) v) as [_ R].
      - apply Inv_agree; [assumption|apply Inv_priv].
      - intros y p Hy. unfold priv_init. rewrite Hy. symmetry. apply mop_ident; [eauto|apply He].
      - now apply R.
    Qed.

    Lemma run_contrib l x o : cls x = CRed o -> forall e, Inv e ->
      fold_left (fun e v => xi v e) l e x = fold_left (mop w sg o) (map (contrib x) l) (e x).
    Proof.
      intros Hx. induction l as [|v l IH]; intros e He; cbn [fold_left map]; [reflexivity|].
      rewrite IH by now apply Inv_step. now rewrite (step_contrib e v x o He Hx).
    Qed.

    Lemma thr_steps_fst chunk lastv : forall e acc,
      fst (thr_steps w sg tgt body chunk lastv e acc) = fold_left (fun e v => xi v e) chunk e.
    Proof. induction chunk as [|v r IH]; intros e acc; cbn [thr_steps fold_left]; [reflexivity|apply IH]. Qed.

    (* the state a thread copies out for lastprivate is the state right after iteration lastv,
       started from some environment of the region *)
    Definition acc_ok (lastv : Z) (acc : option env) : Prop :=
      forall e', acc = Some e' -> exists e, Inv e /\ e' = xi lastv e.

    Lemma thr_steps_snd chunk lastv : forall e acc, Inv e -> acc_ok lastv acc ->
      acc_ok lastv (snd (thr_steps w sg tgt body chunk lastv e acc)) /\
      (In lastv chunk \/ acc <> None -> snd (thr_steps w sg tgt body chunk lastv e acc) <> None).
    Proof.
      induction chunk as [|v r IH]; intros e acc He Hacc; cbn [thr_steps snd].
      - split; [assumption|]. intros [[]|H]; assumption.
      - destruct (Z.eqb_spec v lastv) as [->|Hne].
        + destruct (IH (xi lastv e) (Some (xi lastv e))) as [A B].
          * now apply Inv_step.
          * intros e' [= <-]. now exists e.
          * split; [assumption|]. intros _. apply B. right. discriminate.
        + destruct (IH (xi v e) acc) as [A B]; [now apply Inv_step|assumption|].
          split; [assumption|]. intros [[E|Hin]|Hn]; [contradiction| |]; apply B; auto.
    Qed.

    Lemma thr_run_snd chunk lastv :
      acc_ok lastv (snd (thr_run w sg cls tgt body chunk lastv e0)) /\
      (In lastv chunk -> snd (thr_run w sg cls tgt body chunk lastv e0) <> None).
    Proof.
      destruct (thr_steps_snd chunk lastv (priv_init w sg cls e0) None Inv_priv) as [A B]; [intros ? [=]|].
      split; [exact A|]. intros H. apply B. now left.
    Qed.

    Lemma first_some_spec (l : list (option env)) (Q : env -> Prop) :
      (forall e, In (Some e) l -> Q e) ->
      match first_some l with Some e => Q e | None => forall o, In o l -> o = None end.
    Proof.
      induction l as [|[e|] l IH]; intros H; cbn [first_some].
      - intros o [].
      - apply H. now left.
      - specialize (IH (fun e He => H e (or_intror He))). destruct (first_some l); [assumption|].
        intros o [<-|Ho]; auto.
    Qed.

    (* lastprivate variables assigned on every path of an iteration *)
    Lemma last_value x e1 e2 v : In x Df -> cls x = CFirstLast -> Inv e1 -> Inv e2 ->
      xi v e1 x = xi v e2 x.
    Proof.
      intros Hin Hx H1 H2.
      destruct (iter_step_sim false e1 e1 e2 v) as [A _]; [now apply Inv_agree|exact I|].
      apply A. unfold var_ok. rewrite Hx. now apply mem_In.
    Qed.

    Lemma contrib_rng x v : in_range w sg (contrib x v).
    Proof. unfold contrib. apply (Inv_step v _ Inv_priv). Qed.

    Lemma par_red x o chunks lastv : cls x = CRed o ->
      par_exec w sg cls tgt body chunks lastv e0 x =
      fold_left (mop w sg o)
        (map (fun c => fold_left (mop w sg o) c (ident w sg o)) (map (map (contrib x)) chunks)) (e0 x).
    Proof.
      intros Hx. unfold par_exec. cbn zeta. rewrite Hx. rewrite !map_map. f_equal. apply map_ext.
      intros ch. unfold thr_run. rewrite thr_steps_fst. rewrite (run_contrib ch x o Hx _ Inv_priv).
      unfold priv_init. rewrite Hx. reflexivity.
    Qed.

    Lemma first_some_none (l : list (option env)) : (forall o, In o l -> o = None) -> first_some l = None.
    Proof.
      intros H. pose proof (first_some_spec l (fun _ => False)) as S.
      destruct (first_some l); [|reflexivity]. destruct S. intros e' He. discriminate (H _ He).
    Qed.

    Lemma concat_nil_all {A} (ls : list (list A)) : concat ls = [] -> forall l, In l ls -> l = [].
    Proof.
      induction ls as [|c cs IH]; intros H l []; cbn [concat] in H; apply app_eq_nil in H; destruct H; subst; auto.
    Qed.

    (* lastprivate: some thread runs the last iteration, and whichever does copies out the value the
       sequential loop leaves *)
    Lemma par_last x pre lastv chunks : cls x = CFirstLast -> In x Df ->
      Permutation (concat chunks) (pre ++ [lastv]) ->
      par_exec w sg cls tgt body chunks lastv e0 x = xi lastv (fold_left (fun e v => xi v e) pre e0) x.
    Proof.
      intros Hx Hdef Hperm. unfold par_exec. cbn zeta. rewrite Hx, map_map.
      set (runs := map (fun ch => snd (thr_run w sg cls tgt body ch lastv e0)) chunks).
      pose proof (first_some_spec runs (fun e' => exists e, Inv e /\ e' = xi lastv e)) as Hfs.
      assert (Hall : forall e, In (Some e) runs -> exists e1, Inv e1 /\ e = xi lastv e1).
      { intros e He. apply in_map_iff in He as (ch & Hch & _). exact (proj1 (thr_run_snd ch lastv) e Hch). }
      specialize (Hfs Hall). destruct (first_some runs) as [e'|].
      - destruct Hfs as (e1 & He1 & ->). apply (last_value x e1 _ lastv Hdef Hx He1), Inv_run, Inv_e0.
      - exfalso. assert (Hin : In lastv (concat chunks)).
        { eapply Permutation_in; [apply Permutation_sym; exact Hperm|]. apply in_or_app. right. now left. }
        apply in_concat in Hin as (ch & Hch & Hl).
        apply (proj2 (thr_run_snd ch lastv) Hl), Hfs, in_map_iff. exists ch. split; [reflexivity|assumption].
    Qed.

    (* a variable without a clause keeps its value, in the region and in the sequential loop *)
    Lemma clauseless_eq idxs chunks lastv x : cls x = CBlockPriv \/ cls x = CShared ->
      par_exec w sg cls tgt body chunks lastv e0 x = fold_left (fun e v => xi v e) idxs e0 x.
    Proof.
      intros Hx. symmetry. transitivity (e0 x).
      - apply (Inv_run idxs e0 Inv_e0). unfold var_ok. destruct Hx as [-> | ->]; reflexivity.
      - unfold par_exec. cbn zeta. destruct Hx as [-> | ->]; reflexivity.
    Qed.

    (* MAIN: under every assignment of the iterations to threads, in every order inside a thread,
       the region leaves in x what the sequential loop leaves *)
    Theorem share_par_eq_seq idxs chunks x :
      Permutation (concat chunks) idxs ->
      (cls x = CFirstLast -> In x Df) ->
      par_exec w sg cls tgt body chunks (last idxs 0) e0 x = seq_run w sg tgt body idxs e0 x.
    Proof.
      intros Hperm Hdef. unfold seq_run. destruct (cls x) as [o| | |] eqn:Hx.
      - (* reduction *)
        rewrite (par_red x o chunks _ Hx). rewrite (run_contrib idxs x o Hx e0 Inv_e0).
        pose proof (Hops x o Hx) as Ho.
        apply (reduction_on (in_range w sg) (mop w sg o) (ident w sg o)) with (chunks := map (map (contrib x)) chunks).
        + intros a b. now apply mop_rng.
        + intros a b c. now apply mop_assoc.
        + intros a b. now apply mop_comm.
        + intros a Ha. now apply mop_ident.
        + rewrite Forall_forall. intros z Hz. apply in_map_iff in Hz. destruct Hz as (v & <- & _).
          apply contrib_rng.
        + apply He0.
        + rewrite <- concat_map. now apply Permutation_map.
        + reflexivity.
      - (* lastprivate *)
        specialize (Hdef eq_refl). induction idxs as [|lastv pre _] using rev_ind.
        + apply Permutation_sym, Permutation_nil in Hperm.
          unfold par_exec. cbn zeta. rewrite Hx, map_map, first_some_none; [reflexivity|].
          intros o Ho. apply in_map_iff in Ho as (ch & <- & Hch).
          rewrite (concat_nil_all chunks Hperm ch Hch). reflexivity.
        + rewrite last_last, fold_left_app. now apply par_last.
      - apply clauseless_eq. now left.
      - apply clauseless_eq. now right.
    Qed.
  End Sim.

  (* the region as classified by the compiler model *)
  Lemma classify_red_omp r x o : classify r x = CRed o -> omp_reduction_op o = true.
  Proof.
    unfold classify. destruct (aget _ x) as [[p|]|].
    - destruct (Nat.eqb x (r_tgt r)); [discriminate|].
      destruct (omp_reduction_op p) eqn:E; [|discriminate]. intros [= <-]. exact E.
    - destruct (Nat.eqb _ _); discriminate.
    - destruct (amem _ _); discriminate.
  Qed.

  Theorem region_par_eq_seq fx r Df e0 idxs chunks x :
    region_wf fx r = Some Df -> Rng e0 -> Permutation (concat chunks) idxs ->
    classify r x <> CBlockPriv -> (classify r x = CFirstLast -> In x Df) ->
    region_par w sg r chunks (last idxs 0) e0 x = region_seq w sg r idxs e0 x.
  Proof.
    unfold region_wf. destruct (region_errors fx r); [|discriminate].
    destruct (clause_eqb (classify r (r_tgt r)) CFirstLast) eqn:Et; [|discriminate].
    apply clause_eqb_eq in Et. intros Hwf He0 Hperm Hnb Hdef.
    unfold region_par, region_seq. cbn zeta.
    set (e1 := match r_pre r with Some p => exec w sg p e0 | None => e0 end).
    assert (He1 : Rng e1) by (unfold e1; destruct (r_pre r); [now apply exec_rng|assumption]).
    pose proof (share_par_eq_seq (classify r) (r_tgt r) (r_body r) Df Et Hwf e1 He1
                  (classify_red_omp r) idxs chunks x Hperm Hdef) as H.
    destruct (classify r x) eqn:Hx; try exact H. contradiction.
  Qed.
End Arith.

(* accepted bodies for which the classification is NOT sound (64-bit signed) *)
Definition sharing_unsound (r : region) : Prop :=
  region_errors no_fixes r = [] /\
  exists idxs chunks e0 x,
    Permutation (concat chunks) idxs /\ (forall y, in_range 64 true (e0 y)) /\
    classify r x <> CBlockPriv /\
    region_par 64 true r chunks (last idxs 0) e0 x <> region_seq 64 true r idxs e0 x.

Ltac unsound idxs chunks e0 x :=
  split; [reflexivity|]; exists idxs, chunks, e0, x;
  split; [apply Permutation_refl|]; split; [intros y; vm_compute; split; discriminate|];
  split; [vm_compute; discriminate|vm_compute; discriminate].

(* x <<= 1 : an in-place operator that is not an OpenMP reduction operator gets firstprivate/lastprivate *)
Definition r_shl : region := {| r_pre := None; r_tgt := 0%nat; r_body := SInplace 1%nat OShl (EC 1) |}.
Theorem shl_unsound : sharing_unsound r_shl.
Proof. unsound [0; 1] [[0]; [1]] (fun _ : var => 1) 1%nat. Qed.

(* x = 0; x += i : the last recorded form wins, x becomes reduction(+:x) *)
Definition r_mixed : region :=
  {| r_pre := None; r_tgt := 0%nat; r_body := SSeq (SAssign 1%nat (EC 0)) (SInplace 1%nat OAdd (EV 0%nat)) |}.
Theorem mixed_unsound : sharing_unsound r_mixed.
Proof. unsound [0; 1; 2] [[0; 1]; [2]] (fun _ : var => 5) 1%nat. Qed.

(* x += 1 in the outer prange, x *= 2 in a nested prange: the nested operator replaces the outer one *)
Definition r_nested_op : region :=
  {| r_pre := None; r_tgt := 0%nat;
     r_body := SSeq (SInplace 1%nat OAdd (EC 1)) (SLoop true 2%nat (EC 2) (SInplace 1%nat OMul (EC 2))) |}.
Theorem nested_op_unsound : sharing_unsound r_nested_op.
Proof. unsound [0; 1] [[0; 1]] (fun _ : var => 3) 1%nat. Qed.

(* a += 1; b += a : reading a reduction variable is only rejected outside in-place statements *)
Definition r_read_rhs : region :=
  {| r_pre := None; r_tgt := 0%nat; r_body := SSeq (SInplace 1%nat OAdd (EC 1)) (SInplace 2%nat OAdd (EV 1%nat)) |}.
Theorem read_rhs_unsound : sharing_unsound r_read_rhs.
Proof. unsound [0; 1] [[0]; [1]] (fun _ : var => 0) 2%nat. Qed.

(* the same shapes are rejected by the well-formedness check, so the theorem does not speak about them *)
Lemma unsound_not_wf : forall fx, region_wf fx r_shl = None /\ region_wf fx r_mixed = None /\
                       region_wf fx r_nested_op = None /\ region_wf fx r_read_rhs = None.
Proof. intros [[] [] []]; vm_compute; auto. Qed.

(* with the proposed repairs three of the four shapes are rejected by the front end; the mixed
   plain/in-place form stays accepted (no repair proposed: the nested idiom  s = 0; for j in prange: s += j
   relies on it) *)
Lemma repairs_reject :
  region_errors all_fixes r_shl = [EUnsupportedOp] /\
  region_errors all_fixes r_nested_op = [EInconsistent] /\
  region_errors all_fixes r_read_rhs = [EReadReduction] /\
  region_errors all_fixes r_mixed = [].
Proof. vm_compute. auto. Qed.

(* the classification of uniformly used names:
   rho declares one role per name; [uses rho st]: every assignment form in st, at every nesting level,
   is the form of the declared role.  Then the compiler model gives every assigned name exactly the
   declared clause, whatever the nesting of range / prange loops and conditionals. *)

Fixpoint uses (rho : var -> clause) (st : stmt) : bool :=
  match st with
  | SSkip => true
  | SSeq a b => uses rho a && uses rho b
  | SAssign x _ => clause_eqb (rho x) CFirstLast
  | SInplace x o _ => omp_reduction_op o && clause_eqb (rho x) (CRed o)
  | SIf _ t e => uses rho t && uses rho e
  | SLoop _ x _ b => clause_eqb (rho x) CFirstLast && uses rho b
  end.

Fixpoint assignedb (x : var) (st : stmt) : bool :=
  match st with
  | SSkip => false
  | SSeq a b => assignedb x a || assignedb x b
  | SAssign y _ => Nat.eqb x y
  | SInplace y _ _ => Nat.eqb x y
  | SIf _ t e => assignedb x t || assignedb x e
  | SLoop _ y _ b => Nat.eqb x y || assignedb x b
  end.

(* assigned in the node itself (nested prange bodies and their targets belong to other nodes) *)
Fixpoint directb (x : var) (st : stmt) : bool :=
  match st with
  | SSkip => false
  | SSeq a b => directb x a || directb x b
  | SAssign y _ => Nat.eqb x y
  | SInplace y _ _ => Nat.eqb x y
  | SIf _ t e => directb x t || directb x e
  | SLoop false y _ b => Nat.eqb x y || directb x b
  | SLoop true _ _ _ => false
  end.

Section Declared.
  Variable rho : var -> clause.

  (* a recorded form (plain, or in-place with an operator) is that of the declared role, and the
     operator is one of the string *)
  Definition entry_ok (x : var) (v : option iop) : Prop :=
    match v with
    | None => rho x = CFirstLast
    | Some o => rho x = CRed o /\ omp_reduction_op o = true
    end.
  Definition allc (al : alist) : Prop := Forall (fun p => entry_ok (fst p) (snd p)) al.
  Definition dom (al : alist) (q : var) : Prop := aget al q <> None.

  Lemma aget_aset al x v q : aget (aset al x v) q = if Nat.eqb x q then Some v else aget al q.
  Proof.
    induction al as [|[y u] r IH]; cbn [aset aget].
    - reflexivity.
    - destruct (Nat.eqb y x) eqn:Eyx; cbn [aget].
      + apply Nat.eqb_eq in Eyx. subst y. destruct (Nat.eqb x q); reflexivity.
      + rewrite IH. destruct (Nat.eqb y q) eqn:Eyq; [|reflexivity].
        apply Nat.eqb_eq in Eyq. subst y. rewrite Nat.eqb_sym, Eyx. reflexivity.
  Qed.

  Lemma aget_in al y v : aget al y = Some v -> In (y, v) al.
  Proof.
    induction al as [|[z u] r IH]; cbn [aget]; [discriminate|].
    destruct (Nat.eqb z y) eqn:E; [|auto with datatypes].
    apply Nat.eqb_eq in E. subst. intros [= ->]. now left.
  Qed.

  Lemma allc_aget al y v : allc al -> aget al y = Some v -> entry_ok y v.
  Proof. intros H Hg. apply aget_in in Hg. unfold allc in H. rewrite Forall_forall in H. exact (H _ Hg). Qed.

  Lemma aset_allc al x v : allc al -> entry_ok x v -> allc (aset al x v).
  Proof.
    intros H Hx. induction H as [|[y u] r Hy Hr IH]; cbn [aset]; [repeat constructor; exact Hx|].
    destruct (Nat.eqb y x) eqn:E.
    - apply Nat.eqb_eq in E. subst. constructor; assumption.
    - constructor; assumption.
  Qed.

  Lemma aset_dom al x v q : q = x \/ dom al q -> dom (aset al x v) q.
  Proof.
    unfold dom. rewrite aget_aset. intros [->|H]; [rewrite Nat.eqb_refl; discriminate|].
    destruct (Nat.eqb x q); [discriminate|assumption].
  Qed.

  Lemma mark_fst x op acc : fst (mark x op acc) = aset (fst acc) x op.
  Proof. destruct acc. reflexivity. Qed.

  Lemma marks_allc st : forall acc, uses rho st = true -> allc (fst acc) -> allc (fst (marks st acc)).
  Proof.
    induction st as [|a IHa b IHb|x ex|x o ex|c t IHt f IHf|par x n b IHb]; intros acc Hu Ha; cbn [marks uses] in *.
    - assumption.
    - apply andb_prop in Hu as [Hu1 Hu2]. auto.
    - rewrite mark_fst. apply aset_allc; [assumption|]. apply clause_eqb_eq, Hu.
    - apply andb_prop in Hu as [Hp Hc]. rewrite mark_fst. apply aset_allc; [assumption|].
      split; [apply clause_eqb_eq, Hc|exact Hp].
    - apply andb_prop in Hu as [Hu1 Hu2]. auto.
    - apply andb_prop in Hu as [Hx Hb]. apply clause_eqb_eq in Hx. destruct par; [assumption|].
      apply IHb; [assumption|]. rewrite !mark_fst. repeat apply aset_allc; assumption.
  Qed.

  (* a node records the names it assigns itself, on top of those recorded before *)
  Lemma marks_dom st : forall acc q, dom (fst acc) q \/ directb q st = true -> dom (fst (marks st acc)) q.
  Proof.
    induction st as [|a IHa b IHb|x ex|x o ex|c t IHt f IHf|par x n b IHb]; intros acc q H; cbn [marks directb] in *.
    - destruct H as [H|H]; [exact H|discriminate].
    - apply IHb. rewrite orb_true_iff in H.
      destruct H as [H|[H|H]]; [left; apply IHa; now left|left; apply IHa; now right|now right].
    - rewrite mark_fst. apply aset_dom. rewrite Nat.eqb_eq in H. tauto.
    - rewrite mark_fst. apply aset_dom. rewrite Nat.eqb_eq in H. tauto.
    - apply IHf. rewrite orb_true_iff in H.
      destruct H as [H|[H|H]]; [left; apply IHt; now left|left; apply IHt; now right|now right].
    - destruct par; [destruct H as [H|H]; [exact H|discriminate]|].
      apply IHb. rewrite !mark_fst. rewrite orb_true_iff, Nat.eqb_eq in H.
      destruct H as [H|[H|H]]; [left|left|now right]; apply aset_dom; [right; apply aset_dom|]; tauto.
  Qed.

  Lemma aupdate_allc new : forall al, allc al -> allc new -> allc (aupdate al new).
  Proof.
    unfold aupdate. induction new as [|[y v] r IH]; intros al Ha Hn; cbn [fold_left]; [assumption|].
    inversion Hn as [|? ? Hy Hr]; subst. apply IH; [|assumption]. now apply aset_allc.
  Qed.

  Lemma aupdate_dom new : forall al q, dom al q \/ dom new q -> dom (aupdate al new) q.
  Proof.
    unfold aupdate. induction new as [|[y v] r IH]; intros al q H; cbn [fold_left].
    - destruct H as [H|H]; [exact H|now destruct H].
    - apply IH. unfold dom in H at 2. cbn [aget] in H. destruct (Nat.eqb_spec y q) as [->|].
      + left. apply aset_dom. now left.
      + destruct H as [H|H]; [left; apply aset_dom; now right|now right].
  Qed.

  Lemma nested_uses st : uses rho st = true ->
    Forall (fun nb => rho (fst nb) = CFirstLast /\ uses rho (snd nb) = true) (nested st).
  Proof.
    induction st as [|a IHa b IHb|x ex|x o ex|c t IHt f IHf|par x n b IHb]; intros Hu; cbn [nested uses] in *;
      try constructor.
    - apply andb_prop in Hu as [Hu1 Hu2]. apply Forall_app. auto.
    - apply andb_prop in Hu as [Hu1 Hu2]. apply Forall_app. auto.
    - apply andb_prop in Hu as [Hx Hb]. apply clause_eqb_eq in Hx. destruct par; [|auto].
      apply Forall_app. split; [auto|]. constructor; [|constructor]. cbn [fst snd]. auto.
  Qed.

  (* an assigned name is recorded in the node itself or in one of the nested prange nodes *)
  Definition recorded_in (x : var) (nb : var * stmt) : Prop := x = fst nb \/ directb x (snd nb) = true.

  Lemma assigned_where st x : assignedb x st = true ->
    directb x st = true \/ Exists (recorded_in x) (nested st).
  Proof.
    induction st as [|a IHa b IHb|y ex|y o ex|c t IHt f IHf|par y n b IHb]; intros H; cbn [assignedb directb nested] in *.
    - discriminate.
    - rewrite orb_true_iff, Exists_app. apply orb_prop in H as [H|H]; [apply IHa in H|apply IHb in H]; tauto.
    - now left.
    - now left.
    - rewrite orb_true_iff, Exists_app. apply orb_prop in H as [H|H]; [apply IHt in H|apply IHf in H]; tauto.
    - destruct par.
      + right. rewrite Exists_app, Exists_cons. unfold recorded_in at 2. cbn [fst snd].
        apply orb_prop in H as [H|H]; [apply Nat.eqb_eq in H|apply IHb in H]; tauto.
      + rewrite orb_true_iff. apply orb_prop in H as [H|H]; [|apply IHb in H]; tauto.
  Qed.

  Lemma node_assignments_allc tgt body : rho tgt = CFirstLast -> uses rho body = true ->
    allc (node_assignments tgt body).
  Proof.
    intros Ht Hu. unfold node_assignments, node_marks. apply aset_allc; [|exact Ht].
    apply marks_allc; [assumption|constructor].
  Qed.

  Lemma node_assignments_dom tgt body q : q = tgt \/ directb q body = true -> dom (node_assignments tgt body) q.
  Proof.
    intros H. unfold node_assignments, node_marks. apply aset_dom. destruct H as [->|H]; [now left|].
    right. apply marks_dom. now right.
  Qed.

  Lemma final_merge_spec nodes : forall st,
    Forall (fun nb => rho (fst nb) = CFirstLast /\ uses rho (snd nb) = true) nodes -> allc (fst st) ->
    let res := fold_left (fun st nb => let na := node_assignments (fst nb) (snd nb) in
                                       (aupdate (fst st) na, snd st ++ merge_errs (fst st) na)) nodes st in
    allc (fst res) /\
    (forall q, dom (fst st) q \/ Exists (recorded_in q) nodes -> dom (fst res) q).
  Proof.
    induction nodes as [|nb r IH]; intros st Hn Ha; cbn [fold_left].
    - split; [assumption|]. intros q [H|H]; [assumption|inversion H].
    - inversion Hn as [|? ? [Hx Hu] Hr]; subst.
      set (st1 := (aupdate (fst st) (node_assignments (fst nb) (snd nb)),
                   snd st ++ merge_errs (fst st) (node_assignments (fst nb) (snd nb)))).
      destruct (IH st1 Hr) as [A D].
      { cbn [st1 fst]. apply aupdate_allc; [assumption|now apply node_assignments_allc]. }
      split; [exact A|]. intros q H. apply D. rewrite Exists_cons in H. destruct H as [H|[Hq|H]].
      + left. cbn [st1 fst]. apply aupdate_dom. now left.
      + left. cbn [st1 fst]. apply aupdate_dom. right. apply node_assignments_dom, Hq.
      + now right.
  Qed.

  (* MAIN: the compiler model classifies every uniformly used name as declared *)
  Theorem classify_declared r x :
    rho (r_tgt r) = CFirstLast -> uses rho (r_body r) = true ->
    x = r_tgt r \/ assignedb x (r_body r) = true ->
    classify r x = rho x /\ (rho x = CFirstLast \/ exists o, rho x = CRed o /\ omp_reduction_op o = true).
  Proof.
    intros Ht Hu Hx.
    pose proof (final_merge_spec (nested (r_body r)) (node_assignments (r_tgt r) (r_body r), [])
                  (nested_uses _ Hu) (node_assignments_allc _ _ Ht Hu)) as [A D].
    fold (final_merge (r_tgt r) (r_body r)) in A, D. fold (final_assignments (r_tgt r) (r_body r)) in A, D.
    assert (Hd : dom (final_assignments (r_tgt r) (r_body r)) x).
    { apply D. cbn [fst]. destruct Hx as [->|Hx].
      - left. apply node_assignments_dom. now left.
      - destruct (assigned_where _ _ Hx) as [Hdir|Hn]; [left; apply node_assignments_dom; now right|now right]. }
    unfold classify. unfold dom in Hd. destruct (aget (final_assignments (r_tgt r) (r_body r)) x) as [op|] eqn:Eg; [|contradiction].
    pose proof (allc_aget _ _ _ A Eg) as Hop.
    destruct (Nat.eqb x (r_tgt r)) eqn:Et.
    - apply Nat.eqb_eq in Et. subst x. split; [now rewrite Ht|now left].
    - destruct op as [o|]; cbn [entry_ok] in Hop.
      + destruct Hop as [Er Ho]. rewrite Ho, Er. split; [reflexivity|right; eauto].
      + rewrite Hop. split; [reflexivity|now left].
  Qed.
End Declared.

(* wf only looks at the classification of the names it meets *)
Lemma wf_ext cls1 cls2 : (forall x, cls1 x = cls2 x) -> forall st D, wf cls1 D st = wf cls2 D st.
Proof.
  intros H.
  assert (Hv : forall D x, var_ok cls1 D x = var_ok cls2 D x) by (intros; unfold var_ok; now rewrite H).
  assert (He : forall D e, expr_ok cls1 D e = expr_ok cls2 D e).
  { intros D e. induction e as [c|x|b a IHa c IHc]; cbn [expr_ok]; [reflexivity|apply Hv|now rewrite IHa, IHc]. }
  induction st as [|a IHa b IHb|x ex|x o ex|c t IHt f IHf|par x n b IHb]; intros D; cbn [wf].
  - reflexivity.
  - rewrite IHa. destruct (wf cls2 D a); [apply IHb|reflexivity].
  - now rewrite H, He.
  - now rewrite H, He.
  - rewrite He, IHt, IHf. reflexivity.
  - rewrite He, H, IHb. reflexivity.
Qed.

(* a body that is well-formed for DECLARED roles which it uses uniformly is well-formed for the
   classification the compiler model computes (so the any-schedule theorem applies to it), as soon
   as the front end reports no error and the declaration agrees with the model on unassigned names
   (shared / block-private) *)
Theorem declared_region_wf fx r rho Df :
  rho (r_tgt r) = CFirstLast -> uses rho (r_body r) = true ->
  (forall x, x <> r_tgt r -> assignedb x (r_body r) = false -> rho x = classify r x) ->
  wf rho [r_tgt r] (r_body r) = Some Df ->
  region_errors fx r = [] ->
  region_wf fx r = Some Df.
Proof.
  intros Ht Hu Hun Hwf Herr.
  assert (Heq : forall x, classify r x = rho x).
  { intros x. destruct (Nat.eqb x (r_tgt r)) eqn:Et.
    - apply Nat.eqb_eq in Et. apply (classify_declared rho r x Ht Hu). now left.
    - destruct (assignedb x (r_body r)) eqn:Ea.
      + apply (classify_declared rho r x Ht Hu). now right.
      + symmetry. apply Hun; [|assumption]. intros ->. rewrite Nat.eqb_refl in Et. discriminate. }
  unfold region_wf. rewrite Herr, (Heq (r_tgt r)), Ht. cbn [clause_eqb].
  rewrite (wf_ext (classify r) rho Heq). exact Hwf.
Qed.
