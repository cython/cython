(* C40 - proofs about the model of safe type inference (M_Infer.v). *)
From Coq Require Import ZArith List Bool Lia ZifyBool.
From CyVerif Require Import Lib.CInt Model.M_Infer.
Import ListNotations.
Open Scope Z_scope.

(* the two ways a spanning type can fail to hold an assigned value unchanged:
   an integer (C or Python) stored into a C double, and a float object (possibly None) into a C double *)
Definition span_exc (t r : ty) : bool :=
  match r, t with
  | TCDouble, (TPyInt | TCLong | TCInt | TPyFloat) => true
  | _, _ => false
  end.
Definition Rf (t r : ty) : bool := tsub t r || span_exc t r.
(* Rf is what is claimed of the final type but is not kept by find_span (a bool held in an int object
   slot, then spanned with a double); R is: a bool source only ever sits in its own type or in object *)
Definition R (t r : ty) : bool :=
  match t with
  | TCBint => match r with TCBint | TObj => true | _ => false end
  | TPyBool => match r with TPyBool | TObj => true | _ => false end
  | _ => Rf t r
  end.

Lemma R_refl : forall t, R t t = true.
Proof. destruct t; reflexivity. Qed.
Lemma R_step : forall t acc t2, R t acc = true -> R t (find_span acc t2) = true.
Proof. destruct t, acc, t2; vm_compute; intros H; try reflexivity; try discriminate H. Qed.
Lemma R_right : forall t1 t2, R t2 (find_span t1 t2) = true.
Proof. destruct t1, t2; reflexivity. Qed.

Lemma fold_R_acc : forall l acc t, R t acc = true -> R t (fold_left find_span l acc) = true.
Proof. induction l as [|x l IH]; intros acc t H; simpl; [exact H|]. apply IH, R_step, H. Qed.
Lemma fold_R_in : forall l acc t, In t l -> R t (fold_left find_span l acc) = true.
Proof.
  induction l as [|x l IH]; intros acc t H; simpl in *; [contradiction|].
  destruct H as [-> | H]; [apply fold_R_acc, R_right | apply IH, H].
Qed.
Lemma reduce_R : forall types t, In t types -> R t (reduce_span types) = true.
Proof.
  intros [|x l] t H; simpl in *; [contradiction|].
  destruct H as [-> | H]; [apply fold_R_acc, R_refl | apply fold_R_in, H].
Qed.

Definition finish (fx : flags) (allf : bool) (r : ty) (mo : bool) : ty :=
  if is_pyobj r then r
  else match r with
       | TCDouble => if fx_float fx && negb allf then TObj else TCDouble
       | TCBint => if fx_bint fx && mo then TObj else TCBint
       | TCLong | TCInt => if mo then TPyInt else r
       | _ => r
       end.
Lemma safe_span_finish : forall fx types mo,
  safe_span fx types mo = finish fx (forallb is_floatty types) (reduce_span types) mo.
Proof. reflexivity. Qed.

(* finish keeps the type, gives up to object, or turns a C integer into a Python int *)
Lemma finish_cases : forall fx allf r mo,
  finish fx allf r mo = r \/ finish fx allf r mo = TObj \/ (is_cintw r = true /\ finish fx allf r mo = TPyInt).
Proof.
  intros fx allf r mo. unfold finish.
  destruct r, (fx_float fx && negb allf), (fx_bint fx && mo), mo; cbn; auto.
Qed.

Lemma finish_R : forall fx allf t r mo, R t r = true -> Rf t (finish fx allf r mo) = true.
Proof.
  intros fx allf t r mo H. destruct (finish_cases fx allf r mo) as [-> | [-> | [Hc ->]]].
  - destruct t; try exact H; destruct r; try discriminate H; reflexivity.
  - destruct t; reflexivity.
  - destruct r; try discriminate Hc; destruct t; try discriminate H; reflexivity.
Qed.

Lemma span_exc_inv : forall t r, span_exc t r = true ->
  r = TCDouble /\ (t = TPyInt \/ t = TCLong \/ t = TCInt \/ t = TPyFloat).
Proof. destruct t, r; simpl; intros H; try discriminate H; split; auto. Qed.

(* MAIN (all type lists): every assigned type is held unchanged by the safe spanning type, except
   exactly int / float-object into C double *)
Theorem safe_span_sound_partial : forall fx types mo t,
  In t types ->
  tsub t (safe_span fx types mo) = true \/
  (safe_span fx types mo = TCDouble /\ (t = TPyInt \/ t = TCLong \/ t = TCInt \/ t = TPyFloat)).
Proof.
  intros fx types mo t Hin. rewrite safe_span_finish.
  pose proof (finish_R fx (forallb is_floatty types) t _ mo (reduce_R types t Hin)) as H.
  unfold Rf in H. apply orb_true_iff in H. destruct H as [H | H]; [left; exact H | right].
  apply span_exc_inv, H.
Qed.

(* repaired variant: C double only when every assigned type is a float type *)
Lemma finish_double : forall fx allf r mo,
  fx_float fx = true -> finish fx allf r mo = TCDouble -> allf = true.
Proof.
  intros fx allf r mo Hfx. unfold finish. rewrite Hfx.
  destruct r, allf, mo, (fx_bint fx); simpl; intros H; try discriminate H; reflexivity.
Qed.

Theorem safe_span_double : forall fx types mo,
  fx_float fx = true -> safe_span fx types mo = TCDouble -> forall t, In t types -> is_floatty t = true.
Proof.
  intros fx types mo Hfx H. rewrite safe_span_finish in H.
  apply forallb_forall, (finish_double fx _ _ mo Hfx H).
Qed.

Theorem safe_span_sound_fixed : forall fx types mo t,
  fx_float fx = true -> In t types ->
  tsub t (safe_span fx types mo) = true \/ (safe_span fx types mo = TCDouble /\ t = TPyFloat).
Proof.
  intros fx types mo t Hfx Hin.
  destruct (safe_span_sound_partial fx types mo t Hin) as [H | [Hr Ht]]; [left; exact H|].
  right. split; [exact Hr|]. pose proof (safe_span_double fx types mo Hfx Hr t Hin) as Hf.
  destruct Ht as [-> | [-> | [-> | ->]]]; try discriminate Hf; reflexivity.
Qed.

Theorem safe_span_refuted :
  exists types mo t v, In t types /\ ty_ok t v = true /\ ty_ok (safe_span fx_none types mo) v = false.
Proof. exists [TCLong; TCDouble], false, TCLong, (VInt 5). vm_compute. auto. Qed.

Lemma finish_cint_mo : forall fx allf r mo, is_cintw (finish fx allf r mo) = true -> mo = false.
Proof.
  intros fx allf r mo. unfold finish.
  destruct r, mo; simpl; try reflexivity; try discriminate;
    destruct (fx_float fx), allf, (fx_bint fx); simpl; discriminate.
Qed.

(* a C integer type is chosen only for names not used in arithmetic and only when every assigned type
   is a C integer type contained in it *)
Theorem safe_span_cint : forall fx types mo,
  is_cintw (safe_span fx types mo) = true ->
  mo = false /\ forall t, In t types -> is_cintw t = true /\ tsub t (safe_span fx types mo) = true.
Proof.
  intros fx types mo H. split.
  - rewrite safe_span_finish in H. eapply finish_cint_mo, H.
  - intros t Hin. destruct (safe_span_sound_partial fx types mo t Hin) as [Hs | [Hr _]].
    + split; [|exact Hs]. destruct (safe_span fx types mo), t; simpl in *; try discriminate; reflexivity.
    + rewrite Hr in H. discriminate H.
Qed.

Theorem safe_span_bint : forall fx types mo,
  safe_span fx types mo = TCBint -> forall t, In t types -> t = TCBint.
Proof.
  intros fx types mo H t Hin.
  destruct (safe_span_sound_partial fx types mo t Hin) as [Hs | [Hr _]].
  - rewrite H in Hs. destruct t; vm_compute in Hs; try discriminate Hs; reflexivity.
  - rewrite H in Hr. discriminate Hr.
Qed.

Lemma in32_in64 : forall z, in32 z = true -> in64 z = true.
Proof. intros z. unfold in32, in64. lia. Qed.

Lemma tsub_sound : forall t r v, tsub t r = true -> ty_ok t v = true -> ty_ok r v = true.
Proof.
  intros t r v Hs Hv.
  destruct t, r; vm_compute in Hs; try discriminate Hs; clear Hs;
    destruct v; simpl in *; try discriminate Hv; try reflexivity; try exact Hv;
    try (apply in32_in64; exact Hv).
Qed.

(* observable Python type: a held value keeps its kind *)
Lemma ty_ok_kind : forall t v, ty_ok t v = true -> kmem (kind_of v) (kinds t) = true.
Proof. intros t v H. unfold ty_ok in H. apply andb_true_iff in H. apply H. Qed.

Lemma kind_ty_ok : forall t v, is_cintw t = false -> kmem (kind_of v) (kinds t) = true -> ty_ok t v = true.
Proof. intros t v Hc Hk. unfold ty_ok. rewrite Hk. destruct t; simpl in *; try reflexivity; discriminate Hc. Qed.

(* the values held by the three C types *)
Lemma ty_ok_cint_value : forall v, ty_ok TCLong v = true -> exists z, v = VInt z /\ - 2 ^ 63 <= z < 2 ^ 63.
Proof.
  intros v H. destruct v; try discriminate H. exists z. split; [reflexivity|].
  change (in64 z = true) in H. unfold in64 in H. lia.
Qed.
Lemma ty_ok_cdouble_value : forall v, ty_ok TCDouble v = true -> v = VFloat.
Proof. intros v H. destruct v; simpl in H; try discriminate H. reflexivity. Qed.
Lemma ty_ok_cbint_value : forall v, ty_ok TCBint v = true -> exists b, v = VBool b.
Proof. intros v H. destruct v; simpl in H; try discriminate H. eexists; reflexivity. Qed.

(* reference semantics of right-hand sides over a store of abstract values.  The store keeps the
   assignment that wrote each value; a NameNode only ever reads a value written by one of its
   reaching assignments (cf_state) - reaching-definition soundness is property C21's subject. *)
Definition store := nat -> option (value * nat).

Inductive ev (st : store) : expr -> value -> Prop :=
| ev_int : forall z, ev st (EInt z) (VInt z)
| ev_float : ev st EFloat VFloat
| ev_bool : forall b, ev st (EBool b) (VBool b)
| ev_str : ev st EStr VStr
| ev_none : ev st ENone VNone
| ev_name : forall x ann cf v w, st x = Some (v, w) -> In w cf -> ev st (EName x ann cf) v
| ev_bin : forall o a b v1 v2 v, ev st a v1 -> ev st b v2 -> pybin o v1 v2 = Some v -> ev st (EBin o a b) v
| ev_not : forall a v1 b, ev st a v1 -> ev st (EUn Not a) (VBool b)
| ev_un : forall o a v1 v, o <> Not -> ev st a v1 -> pyun o v1 = Some v -> ev st (EUn o a) v
| ev_cmp : forall a b v, ev st (ECmp a b) v
| ev_cond1 : forall c a b v, ev st a v -> ev st (ECond c a b) v
| ev_cond2 : forall c a b v, ev st b v -> ev st (ECond c a b) v
| ev_bool1 : forall a b v, ev st a v -> ev st (EBoolOp a b) v
| ev_bool2 : forall a b v, ev st b v -> ev st (EBoolOp a b) v
| ev_call : forall a v, ev st (ECall a) v
| ev_opaque : forall t a v, ty_ok t v = true -> ev st (EOpaque t a) v.

Lemma pybin_kind : forall o v1 v2 v, pybin o v1 v2 = Some v ->
  kbin o (kind_of v1) (kind_of v2) = Some (kind_of v).
Proof.
  intros o v1 v2 v H.
  destruct v1, v2, o; simpl in H; try discriminate H;
    repeat match goal with
    | H : context [if ?c then _ else _] |- _ => destruct c
    end; try discriminate H; inversion H; subst; reflexivity.
Qed.

Lemma pyun_kind : forall o v1 v, pyun o v1 = Some v -> kun o (kind_of v1) = Some (kind_of v).
Proof.
  intros o v1 v H. destruct o, v1; simpl in H; try discriminate H; inversion H; subst; reflexivity.
Qed.

Lemma kmem_forallb : forall (f : kind -> bool) l k, forallb f l = true -> kmem k l = true -> f k = true.
Proof.
  induction l as [|x l IH]; intros k Hf Hk; simpl in *; [discriminate Hk|].
  apply andb_true_iff in Hf. destruct Hf as [Hx Hl].
  apply orb_true_iff in Hk. destruct Hk as [Hk | Hk]; [|apply IH; assumption].
  destruct k, x; simpl in Hk; try discriminate Hk; exact Hx.
Qed.

Lemma ty_ok_obj : forall v, ty_ok TObj v = true.
Proof. destruct v; reflexivity. Qed.

(* what the node conditions are for: operands held by their types, result held by the node's type *)
Lemma bin_entry_sound T o t1 t2 v1 v2 v :
  bin_entry_ok T o t1 t2 = true -> ty_ok t1 v1 = true -> ty_ok t2 v2 = true ->
  kbin o (kind_of v1) (kind_of v2) = Some (kind_of v) -> ty_ok (bin_ty T o t1 t2) v = true.
Proof.
  intros [Hc Hall]%andb_prop H1 H2 Hk. apply kind_ty_ok; [apply negb_true_iff, Hc|].
  pose proof (kmem_forallb _ _ _ Hall (ty_ok_kind _ _ H1)) as H3. cbn beta in H3.
  pose proof (kmem_forallb _ _ _ H3 (ty_ok_kind _ _ H2)) as H4. cbn beta in H4.
  rewrite Hk in H4. exact H4.
Qed.

Lemma un_entry_sound T o t1 v1 v :
  un_entry_ok T o t1 = true -> ty_ok t1 v1 = true ->
  kun o (kind_of v1) = Some (kind_of v) -> ty_ok (un_ty T o t1) v = true.
Proof.
  intros [Hc Hall]%andb_prop H1 Hk. apply kind_ty_ok; [apply negb_true_iff, Hc|].
  pose proof (kmem_forallb _ _ _ Hall (ty_ok_kind _ _ H1)) as H3. cbn beta in H3.
  rewrite Hk in H3. exact H3.
Qed.

Section ExprSound.
  Variable T : tables.
  Variable E : nat -> ty.
  Variable MO : nat -> bool.
  Variable st : store.
  (* every name node of the expression reads a value its NameNode type describes *)
  Fixpoint names_ok (e : expr) : Prop :=
    match e with
    | EName x ann cf => forall v w, st x = Some (v, w) -> In w cf -> ty_ok (name_ty (E x) (MO x) ann) v = true
    | EBin _ a b | ECond _ a b | EBoolOp a b => names_ok a /\ names_ok b
    | EUn _ a => names_ok a
    | _ => True
    end.

  Lemma expr_sound : forall e v, ev st e v -> expr_ok T E MO e = true -> names_ok e ->
    ty_ok (ety T E MO e) v = true.
  Proof.
    intros e v H. induction H; intros Hok Hn; simpl in *; try reflexivity; try apply ty_ok_obj.
    - (* int *) unfold long_literal. destruct ((- 2 ^ 31 <=? z) && (z <? 2 ^ 31)) eqn:Hz; [|reflexivity].
      change (in64 z = true). unfold in64. lia.
    - (* name *) eapply Hn; eassumption.
    - (* bin *) apply andb_prop in Hok as [[Ha Hb]%andb_prop Hok].
      exact (bin_entry_sound _ _ _ _ _ _ _ Hok (IHev1 Ha (proj1 Hn)) (IHev2 Hb (proj2 Hn)) (pybin_kind _ _ _ _ H1)).
    - (* not *) apply andb_prop in Hok as [Ha Hok].
      exact (un_entry_sound _ _ _ _ (VBool b) Hok (IHev Ha Hn) eq_refl).
    - (* unop *) apply andb_prop in Hok as [Ha Hok].
      exact (un_entry_sound _ _ _ _ _ Hok (IHev Ha Hn) (pyun_kind _ _ _ H1)).
    - (* cond 1 *) apply andb_prop in Hok as [[Ha Hb]%andb_prop [H1 H2]%andb_prop].
      exact (tsub_sound _ _ _ H1 (IHev Ha (proj1 Hn))).
    - (* cond 2 *) apply andb_prop in Hok as [[Ha Hb]%andb_prop [H1 H2]%andb_prop].
      exact (tsub_sound _ _ _ H2 (IHev Hb (proj2 Hn))).
    - (* boolop 1 *) apply andb_prop in Hok as [[Ha Hb]%andb_prop [H1 H2]%andb_prop].
      exact (tsub_sound _ _ _ H1 (IHev Ha (proj1 Hn))).
    - (* boolop 2 *) apply andb_prop in Hok as [[Ha Hb]%andb_prop [H1 H2]%andb_prop].
      exact (tsub_sound _ _ _ H2 (IHev Hb (proj2 Hn))).
    - (* opaque *) exact H.
  Qed.
End ExprSound.

Lemma ty_eqb_eq : forall a b, ty_eqb a b = true -> a = b.
Proof. destruct a, b; simpl; intros H; try discriminate H; reflexivity. Qed.
Lemma pyobj_none : forall t, is_pyobj t = true -> ty_ok t VNone = true.
Proof. destruct t; simpl; intros H; try discriminate H; reflexivity. Qed.
Lemma is_none_rhs_inv : forall e, is_none_rhs e = true -> e = ENone.
Proof. destruct e; simpl; intros H; try discriminate H; reflexivity. Qed.

(* the type of a non-None assignment is among the types its target is inferred from *)
Lemma aty_inferred fx T s D w asg :
  nth_error (s_assigns s) w = Some asg -> is_none_rhs (a_rhs asg) = false ->
  In (aty fx T s D w) (inferred_types T s (lookup D) (mo_of fx s) (a_lhs asg)).
Proof.
  intros Hw Hisn. unfold inferred_types.
  assert (Hm : In (aty fx T s D w)
            (map (fun a => ety T (lookup D) (mo_of fx s) (a_rhs a))
               (filter (fun a => negb (is_none_rhs (a_rhs a))) (assigns_of s (a_lhs asg))))).
  { unfold aty. rewrite Hw.
    apply (in_map (fun a => ety T (lookup D) (mo_of fx s) (a_rhs a))). apply filter_In. split.
    - apply filter_In. split; [eapply nth_error_In; exact Hw | apply Nat.eqb_refl].
    - rewrite Hisn. reflexivity. }
  destruct (_ && _); [apply in_or_app; left|]; exact Hm.
Qed.

Section Trace.
  Variable fx : flags.
  Variable T : tables.
  Variable s : summary.
  Variable D : list ty.
  Local Notation MO := (mo_of fx s).
  Local Notation E := (lookup D).
  (* D is a state the inferer can stop at *)
  Hypothesis Hstable : stable fx T s D MSafe = true.
  (* pure Python: declared entries (arguments) are plain objects *)
  Hypothesis Hdecl : forall x d, nth x (s_decl s) None = Some d -> d = TObj.
  (* right-hand sides avoid the operator typings of bad_bin / bad_un / bad_cond / bad_bool *)
  Hypothesis Hexpr : forall a asg, nth_error (s_assigns s) a = Some asg -> expr_ok T E MO (a_rhs asg) = true.
  (* exclusion of the finding class: no int / float-object source of a local inferred as C double *)
  Hypothesis Hnoexc : forall a asg, nth_error (s_assigns s) a = Some asg ->
    span_exc (aty fx T s D a) (E (a_lhs asg)) = false.
  (* a local that is assigned None stays a Python object *)
  Hypothesis Hnone : forall a asg, nth_error (s_assigns s) a = Some asg ->
    is_none_rhs (a_rhs asg) = true -> is_pyobj (E (a_lhs asg)) = true.

  Definition inv (st : store) : Prop := forall x v w, st x = Some (v, w) ->
    exists asg, nth_error (s_assigns s) w = Some asg /\ a_lhs asg = x /\
      ty_ok (aty fx T s D w) v = true /\ (is_none_rhs (a_rhs asg) = true -> v = VNone).

  (* one step = any assignment of the function, in any order (control flow abstracted away) *)
  Inductive step : store -> store -> Prop :=
  | step_asg : forall st a asg v, nth_error (s_assigns s) a = Some asg -> ev st (a_rhs asg) v ->
      step st (fun y => if Nat.eqb y (a_lhs asg) then Some (v, a) else st y).
  Inductive steps : store -> store -> Prop :=
  | steps_refl : forall st, steps st st
  | steps_cons : forall st1 st2 st3, steps st1 st2 -> step st2 st3 -> steps st1 st3.

  Lemma stable_parts :
    (forall x, (x < length D)%nat -> stable_entry fx T s D MSafe x = true) /\
    (forall asg, In asg (s_assigns s) -> ann_ok fx T s D (a_rhs asg) = true).
  Proof.
    unfold stable in Hstable. apply andb_true_iff in Hstable. destruct Hstable as [H12 H3].
    apply andb_true_iff in H12. destruct H12 as [_ H2]. split.
    - intros x Hx. rewrite forallb_forall in H2. apply H2. apply in_seq. lia.
    - intros asg Hin. rewrite forallb_forall in H3. apply H3, Hin.
  Qed.

  Lemma entry_holds : forall w asg v,
    nth_error (s_assigns s) w = Some asg -> ty_ok (aty fx T s D w) v = true ->
    (is_none_rhs (a_rhs asg) = true -> v = VNone) -> ty_ok (E (a_lhs asg)) v = true.
  Proof.
    intros w asg v Hw Hv Hnv.
    destruct (is_none_rhs (a_rhs asg)) eqn:Hisn.
    { rewrite (Hnv eq_refl). apply pyobj_none. eapply Hnone; eassumption. }
    clear Hnv. pose proof (aty_inferred fx T s D w asg Hw Hisn) as Hin.
    set (x := a_lhs asg) in *.
    destruct (Nat.ltb_spec x (length D)) as [Hlt|Hge].
    2:{ unfold lookup. rewrite nth_overflow by exact Hge. apply ty_ok_obj. }
    pose proof (proj1 stable_parts x Hlt) as Hse. unfold stable_entry in Hse.
    destruct (nth x (s_decl s) None) as [d|] eqn:Hd.
    { apply ty_eqb_eq in Hse. rewrite Hse, (Hdecl _ _ Hd). apply ty_ok_obj. }
    apply orb_true_iff in Hse. destruct Hse as [Hse | Hse]; apply ty_eqb_eq in Hse.
    { rewrite Hse. apply ty_ok_obj. }
    unfold entry_type in Hse. rewrite Hd in Hse.
    destruct (inferred_types T s E MO x) as [|t0 tys]; [contradiction|]. cbn [span_mode] in Hse.
    destruct (safe_span_sound_partial fx (t0 :: tys) (MO x) _ Hin) as [Hs | [Hr Hexc]]; rewrite <- Hse in *.
    - eapply tsub_sound; eassumption.
    - exfalso. pose proof (Hnoexc w asg Hw) as Hne. fold x in Hne. rewrite Hr in Hne.
      destruct Hexc as [He | [He | [He | He]]]; rewrite He in Hne; discriminate Hne.
  Qed.

  Lemma names_hold : forall st e, inv st -> ann_ok fx T s D e = true -> names_ok E MO st e.
  Proof.
    intros st e Hinv. induction e; simpl; intros Ha; try exact I.
    - (* name *)
      intros v w Hst Hin. apply andb_prop in Ha as [_ Hann].
      destruct (Hinv _ _ _ Hst) as [asg [Hw [Hl [Hv Hnv]]]].
      pose proof (entry_holds w asg v Hw Hv Hnv) as Hent. rewrite Hl in Hent.
      unfold name_ty. destruct (is_pyobj (E x)); [|exact Hent].
      destruct ann as [t|]; [|exact Hent].
      destruct (negb (is_cint t && MO x)); [|exact Hent].
      rewrite forallb_forall in Hann. specialize (Hann w Hin). rewrite Hw in Hann.
      apply orb_true_iff in Hann. destruct Hann as [Hn | Hs].
      + apply andb_prop in Hn as [Hn Hp]. rewrite (Hnv Hn). apply pyobj_none, Hp.
      + eapply tsub_sound; eassumption.
    - (* bin *) apply andb_prop in Ha as [Ha1 Ha2]. auto.
    - (* un *) auto.
    - (* cond *) apply andb_prop in Ha as [[_ Ha2]%andb_prop Ha3]. auto.
    - (* boolop *) apply andb_prop in Ha as [Ha1 Ha2]. auto.
  Qed.

  Lemma step_inv : forall st st', inv st -> step st st' -> inv st'.
  Proof.
    intros st st' Hinv Hstep. destruct Hstep as [st a asg v Ha Hev].
    intros x v' w' Hst'. destruct (Nat.eqb x (a_lhs asg)) eqn:Hx.
    - inversion Hst'; subst v' w'. apply Nat.eqb_eq in Hx. exists asg. repeat split; auto.
      + unfold aty. rewrite Ha. apply expr_sound with (st := st); auto.
        * eapply Hexpr; eassumption.
        * apply names_hold; [exact Hinv|]. apply (proj2 stable_parts). eapply nth_error_In; eassumption.
      + intros Hn. rewrite (is_none_rhs_inv _ Hn) in Hev. inversion Hev. reflexivity.
    - apply Hinv, Hst'.
  Qed.

  Lemma steps_inv : forall st0 st, inv st0 -> steps st0 st -> inv st.
  Proof.
    intros st0 st H0 Hs. induction Hs as [st1|st1 st2 st3 H12 IH H23]; [exact H0|].
    eapply step_inv; [apply IH, H0 | exact H23].
  Qed.

  (* MAIN: in every state reachable from the empty store, by any sequence of the function's
     assignments evaluated in the reference semantics, every local holds a value that its inferred
     type represents with unchanged Python type and, for C integers, within range *)
  Theorem infer_sound_partial : forall st x v w,
    steps (fun _ => None) st -> st x = Some (v, w) -> ty_ok (E x) v = true.
  Proof.
    intros st x v w Hsteps.
    assert (Hinv : inv st).
    { eapply steps_inv; [|exact Hsteps]. intros x0 v0 w0 H0. discriminate H0. }
    intros Hst. destruct (Hinv _ _ _ Hst) as [asg [Hw [Hl [Hv Hnv]]]].
    rewrite <- Hl. eapply entry_holds; eassumption.
  Qed.
End Trace.

(* Everything above holds for any tables T; from here on, facts about the tables dumped from the running
   compiler (Gen/Gen_Infer.v). *)
From CyVerif Require Import Gen.Gen_Infer.

(* operator typings of the running compiler under which a Python value is NOT guaranteed to be held
   unchanged (beyond the C-integer-typed results, which are all excluded): bool objects through
   + * % and unary - ~ +, bint through unary - ~ +, and C long/int/double/float-object mixes in
   conditional and and/or expressions *)
Definition is_cint_result_bin (e : nat * nat * nat) : bool :=
  let '(o, t1, t2) := e in
  is_cintw (tb2 (tb_bin gen_tables) o (ty_of_idx t1) (ty_of_idx t2)).
Definition bad_bin_kinds : list (nat * nat * nat) := filter (fun e => negb (is_cint_result_bin e)) (bad_bin gen_tables).

Definition eq3 (a b : nat * nat * nat) : bool :=
  let '(a1, a2, a3) := a in let '(b1, b2, b3) := b in Nat.eqb a1 b1 && Nat.eqb a2 b2 && Nat.eqb a3 b3.
Definition eq2 (a b : nat * nat) : bool :=
  let '(a1, a2) := a in let '(b1, b2) := b in Nat.eqb a1 b1 && Nat.eqb a2 b2.
Definition subset {A} (eq : A -> A -> bool) (l1 l2 : list A) : bool :=
  forallb (fun x => existsb (eq x) l2) l1.
Definition known_bad_bin : list (nat * nat * nat) :=
  [(0, 3, 3); (2, 3, 3); (2, 3, 6); (2, 3, 7); (2, 3, 9); (2, 6, 3); (2, 7, 3); (2, 9, 3); (4, 3, 3);
   (8, 7, 9); (9, 7, 9); (10, 7, 9)]%nat.
Definition known_bad_un : list (nat * nat) :=
  [(0, 3); (0, 6); (0, 7); (0, 9); (1, 3); (1, 6); (1, 7); (1, 9); (3, 3); (3, 6); (3, 7); (3, 9)]%nat.
Definition known_bad_cond : list (nat * nat) := [(2, 8); (3, 9); (6, 8); (7, 8); (8, 2); (8, 6); (8, 7); (9, 3)]%nat.
(* stated as inclusions so that they survive repairs that shrink the sets *)
Lemma gen_bad_bin_kinds : subset eq3 bad_bin_kinds known_bad_bin = true.
Proof. vm_compute. reflexivity. Qed.
Lemma gen_bad_un : subset eq2 (bad_un gen_tables) known_bad_un = true.
Proof. vm_compute. reflexivity. Qed.
Lemma gen_bad_cond : subset eq2 (bad_cond gen_tables) known_bad_cond = true.
Proof. vm_compute. reflexivity. Qed.
Lemma gen_bad_bool : subset eq2 (bad_bool gen_tables) known_bad_cond = true.
Proof. vm_compute. reflexivity. Qed.

(* refutations on the faithful tables: unary minus of a bint is typed bint; a conditional
   expression over a C long and a C double is typed double *)
Lemma neg_bint_refuted : exists v1 v, ty_ok TCBint v1 = true /\ pyun Neg v1 = Some v /\
  ty_ok (un_ty gen_tables Neg TCBint) v = false.
Proof. exists (VBool true), (VInt (-1)). vm_compute. auto. Qed.
Lemma cond_long_double_refuted : exists v, ty_ok TCLong v = true /\ ty_ok (cond_ty gen_tables TCLong TCDouble) v = false.
Proof. exists (VInt 3). vm_compute. auto. Qed.
