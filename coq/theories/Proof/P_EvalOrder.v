(* P_EvalOrder - proofs for C20: the temp-machine code produced by the model of the code generator
   computes exactly the events, value and variables of the CPython-order reference semantics. *)
From Coq Require Import List Bool Arith Lia.
From CyVerif Require Import Model.M_CCallMap Model.M_EvalOrder Proof.P_CCallMap.
Import ListNotations.

(* top-level copies of the local recursions of eval and gen, with their unfolding equations *)
(* in a cascade: another comparison follows *)
Definition more {A B} (l : list A) (l' : list B) : bool :=
  match l, l' with _ :: _, _ :: _ => true | _, _ => false end.

Definition conn (isand : bool) (a b : expr) : expr := if isand then EAnd a b else EOr a b.

Section Copies.
Variable S : sem.
Variable vars : nat -> val.

Section Chain.
Variable m : mode.
Fixpoint echain (va : val) (ops : list op) (es : list expr) {struct es} : res :=
  match ops, es with
  | o :: ops', b :: es' =>
      let rb := eval S vars MVal b in
      let '(r, ev1) := opsem S o [va; rv rb] in
      match ops', es', m with
      | _ :: _, _ :: _, _ =>
          let '(t, ev2) := truthsem S r in
          if t then
            let rc := echain (rv rb) ops' es' in
            {| rv := rv rc; rk := rk rc; rev := rev rb ++ ev1 ++ ev2 ++ rev rc; rlf := rlf rb ++ rlf rc |}
          else {| rv := match m with MVal => r | MBool => VBool false end;
                  rk := match m with MVal => None | MBool => Some false end;
                  rev := rev rb ++ ev1 ++ ev2; rlf := rlf rb |}
      | _, _, MVal => {| rv := r; rk := None; rev := rev rb ++ ev1; rlf := rlf rb |}
      | _, _, MBool =>
          let '(t, ev2) := truthsem S r in
          {| rv := VBool t; rk := Some t; rev := rev rb ++ ev1 ++ ev2; rlf := rlf rb |}
      end
  | _, _ => match m with
            | MVal => {| rv := VNone; rk := None; rev := []; rlf := [] |}
            | MBool => let '(t, ev) := truthsem S VNone in
                       {| rv := VBool t; rk := Some t; rev := ev; rlf := [] |}
            end
  end.

Lemma echain_stop va ops es : more ops es = false ->
  echain va ops es = match m with
                     | MVal => {| rv := VNone; rk := None; rev := []; rlf := [] |}
                     | MBool => let '(t, ev) := truthsem S VNone in
                                {| rv := VBool t; rk := Some t; rev := ev; rlf := [] |}
                     end.
Proof. destruct ops, es; try discriminate; reflexivity. Qed.

Lemma echain_cons va o ops b es : echain va (o :: ops) (b :: es) =
  let rb := eval S vars MVal b in
  let '(r, ev1) := opsem S o [va; rv rb] in
  if more ops es then
    let '(t, ev2) := truthsem S r in
    if t then
      let rc := echain (rv rb) ops es in
      {| rv := rv rc; rk := rk rc; rev := rev rb ++ ev1 ++ ev2 ++ rev rc; rlf := rlf rb ++ rlf rc |}
    else {| rv := match m with MVal => r | MBool => VBool false end;
            rk := match m with MVal => None | MBool => Some false end;
            rev := rev rb ++ ev1 ++ ev2; rlf := rlf rb |}
  else match m with
       | MVal => {| rv := r; rk := None; rev := rev rb ++ ev1; rlf := rlf rb |}
       | MBool => let '(t, ev2) := truthsem S r in
                  {| rv := VBool t; rk := Some t; rev := rev rb ++ ev1 ++ ev2; rlf := rlf rb |}
       end.
Proof. destruct ops, es; reflexivity. Qed.
End Chain.

Section Scan.
Variable o : op.
Fixpoint rscan (best : val) (vs : list val) : val * list event :=
  match vs with
  | [] => (best, [])
  | v :: vs' => let '(r, ev1) := opsem S o [v; best] in
                let '(t, ev2) := truthsem S r in
                let '(w, ev3) := rscan (if t then v else best) vs' in
                (w, ev1 ++ ev2 ++ ev3)
  end.
End Scan.

Definition tobool (m : mode) (r : res) : res :=
  match m with
  | MVal => r
  | MBool => let '(t, ev) := truth_of S (rv r) (rk r) in
             {| rv := VBool t; rk := Some t; rev := rev r ++ ev; rlf := rlf r |}
  end.

Lemma eval_EOp m o es : eval S vars m (EOp o es) =
  let rs := evals S vars es in
  let '(v, ev) := opsem S o (map rv rs) in
  tobool m {| rv := v; rk := None; rev := flat_ev rs ++ ev; rlf := flat_lf rs |}.
Proof. reflexivity. Qed.

Lemma eval_ENot m a : eval S vars m (ENot a) =
  let ra := eval S vars MBool a in
  let t := match rk ra with Some t => negb t | None => false end in
  {| rv := VBool t; rk := Some t; rev := rev ra; rlf := rlf ra |}.
Proof. reflexivity. Qed.

Lemma eval_conn isand m a b : eval S vars m (conn isand a b) =
  let ra := eval S vars m a in
  let '(t, ev) := truth_of S (rv ra) (rk ra) in
  if Bool.eqb t isand then
    let rb := eval S vars m b in
    {| rv := rv rb; rk := rk rb; rev := rev ra ++ ev ++ rev rb; rlf := rlf ra ++ rlf rb |}
  else {| rv := rv ra; rk := Some t; rev := rev ra ++ ev; rlf := rlf ra |}.
Proof.
  destruct isand; cbn [conn eval]; cbv zeta;
    destruct (truth_of S (rv (eval S vars m a)) (rk (eval S vars m a))) as [[] ev]; reflexivity.
Qed.

Lemma eval_ECond m c a b : eval S vars m (ECond c a b) =
  let rc := eval S vars MBool c in
  let t := match rk rc with Some t => t | None => false end in
  let rx := if t then eval S vars MVal a else eval S vars MVal b in
  tobool m {| rv := rv rx; rk := None; rev := rev rc ++ rev rx; rlf := rlf rc ++ rlf rx |}.
Proof. reflexivity. Qed.

Lemma eval_ECmp m a ops rest : eval S vars m (ECmp a ops rest) =
  let ra := eval S vars MVal a in
  let rc := echain m (rv ra) ops rest in
  {| rv := rv rc; rk := rk rc; rev := rev ra ++ rev rc; rlf := rlf ra ++ rlf rc |}.
Proof. reflexivity. Qed.

Lemma eval_EMCall m mname o obj args : eval S vars m (EMCall mname o obj args) =
  let ro := eval S vars MVal obj in
  let '(f, ev1) := opsem S (OGetAttr mname) [rv ro] in
  let rs := evals S vars args in
  let '(v, ev2) := opsem S o (f :: map rv rs) in
  tobool m {| rv := v; rk := None; rev := rev ro ++ ev1 ++ flat_ev rs ++ ev2; rlf := rlf ro ++ flat_lf rs |}.
Proof. reflexivity. Qed.

Lemma eval_EMinMax m o args : eval S vars m (EMinMax o args) =
  let rs := evals S vars args in
  match map rv rs with
  | [] => tobool m {| rv := VNone; rk := None; rev := []; rlf := [] |}
  | v0 :: vs => let '(w, ev) := rscan o v0 vs in
                tobool m {| rv := w; rk := None; rev := flat_ev rs ++ ev; rlf := flat_lf rs |}
  end.
Proof. reflexivity. Qed.

Lemma eval_ECCall m o nreq ndecl recv npos names es : eval S vars m (ECCall o nreq ndecl recv npos names es) =
  let rr := eval S vars MVal recv in
  let rs := evals S vars es in
  let '(v, ev) := opsem S o (rv rr :: map (fun p => nth p (map rv rs) VNone) (ref_slots npos names ndecl 0)) in
  tobool m {| rv := v; rk := None; rev := rev rr ++ flat_ev rs ++ ev; rlf := rlf rr ++ flat_lf rs |}.
Proof. reflexivity. Qed.
End Copies.

Section GenCopies.
Variable F : flags.

Fixpoint gchain (m : mode) (r tb endl : nat) (ra : operand) (ops : list op) (es : list expr) (n : nat)
  {struct es} : list instr * nat :=
  match ops, es with
  | o :: ops', b :: es' =>
      let '(cb, rb, n1) := gen F CVal b n in
      let cmp := cb ++ [IOp r o [ra; rb]] in
      match ops', es', m with
      | _ :: _, _ :: _, _ =>
          let '(cc, n2) := gchain m r tb endl rb ops' es' n1 in
          (cmp ++ [IIsTrue tb (OTemp r); IJumpIf tb false endl] ++ cc, n2)
      | _, _, MVal => (cmp, n1)
      | _, _, MBool => (cmp ++ [IIsTrue tb (OTemp r)], n1)
      end
  | _, _ => match m with
            | MVal => ([IMove r ONoneC], n)
            | MBool => ([IMove r ONoneC; IIsTrue tb ONoneC], n)
            end
  end.

Lemma gchain_stop m r tb endl ra ops es n : more ops es = false ->
  gchain m r tb endl ra ops es n =
  (match m with MVal => [IMove r ONoneC] | MBool => [IMove r ONoneC; IIsTrue tb ONoneC] end, n).
Proof. destruct ops, es, m; try discriminate; reflexivity. Qed.

Lemma gchain_cons m r tb endl ra o ops b es n : gchain m r tb endl ra (o :: ops) (b :: es) n =
  let '(cb, rb, n1) := gen F CVal b n in
  let cmp := cb ++ [IOp r o [ra; rb]] in
  if more ops es then
    let '(cc, n2) := gchain m r tb endl rb ops es n1 in
    ((cmp ++ [IIsTrue tb (OTemp r)]) ++ IJumpIf tb false endl :: cc, n2)
  else match m with MVal => (cmp, n1) | MBool => (cmp ++ [IIsTrue tb (OTemp r)], n1) end.
Proof.
  destruct ops as [|o' ops], es as [|b' es]; try reflexivity.
  remember (o' :: ops) as ops' eqn:Eo. remember (b' :: es) as es' eqn:Ee.
  cbn [gchain]. destruct (gen F CVal b n) as [[cb rb] n1]. cbv zeta.
  destruct (gchain m r tb endl rb ops' es' n1) as [cc n2]. subst. cbn [more].
  rewrite <- (app_assoc (cb ++ [IOp r o [ra; rb]]) [IIsTrue tb (OTemp r)]). reflexivity.
Qed.

Section GScan.
Variable o : op.
Fixpoint gscan (best tb : nat) (rs : list operand) (l : nat) : list instr * nat :=
  match rs with
  | [] => ([], l)
  | r :: rs' =>
      let '(cc, l') := gscan best tb rs' (S l) in
      ([IOp tb o [r; OTemp best]; IIsTrue tb (OTemp tb); IJumpIf tb false l; IMove best r; ILabel l] ++ cc, l')
  end.
End GScan.

Lemma gen_EOp c o es n : gen F c (EOp o es) n =
  let '(code, rs, n1) := gens F es n in finish c (code ++ [IOp n1 o rs], OTemp n1, S n1).
Proof. reflexivity. Qed.

Lemma gen_ENot c a n : gen F c (ENot a) n =
  let '(ca, ra, n1) := gen F CBool a n in
  let t := match ra with OTemp t => t | _ => 0 end in
  finish_bool c (ca ++ [INot n1 t]) n1 (S n1).
Proof. reflexivity. Qed.

(* inside a jump-threaded tree the left operand gets its own label as the "next and" ("next or") label *)
Definition l_and (isand : bool) (my : nat) (andl : option nat) : option nat := if isand then Some my else andl.
Definition l_or (isand : bool) (my : nat) (orl : option nat) : option nat := if isand then orl else Some my.

Lemma gen_conn_thread isand m res andl orl endl a b n :
  gen F (CThread m res andl orl endl) (conn isand a b) n =
  let '(ca, _, n1) := gen F (CThread m res (l_and isand n andl) (l_or isand n orl) endl) a (S n) in
  let '(cb, _, n2) := gen F (CThread m res andl orl endl) b n1 in
  (ca ++ [ILabel n] ++ cb, OTemp res, n2).
Proof. destruct isand; reflexivity. Qed.

(* elsewhere the node opens a tree of its own: result temp n, end label S n *)
Lemma gen_conn_top isand c a b n : c = CVal \/ c = CBool ->
  gen F c (conn isand a b) n =
  let '(code, _, n2) := gen F (CThread (mode_of c) n None None (S n)) (conn isand a b) (S (S n)) in
  (code ++ [ILabel (S n)], OTemp n, n2).
Proof.
  intros [-> | ->]; destruct isand; cbn [conn gen mode_of];
    destruct (gen F _ a _) as [[ca ?] n1]; destruct (gen F _ b n1) as [[cb ?] n2];
    rewrite <- !app_assoc; reflexivity.
Qed.

(* CondExprNode, with the two branches and their delivery grouped *)
Lemma gen_ECond c cnd a b n : gen F c (ECond cnd a b) n =
  let '(cc, rc, n1) := gen F CBool cnd (S (S (S n))) in
  let t := match rc with OTemp t => t | _ => 0 end in
  let '(ca, ra, n2) := gen F CVal a n1 in
  let '(cb, rb, n3) := gen F CVal b n2 in
  finish c (cc ++ [IJumpIf t false (S n)] ++ (ca ++ [IMove n ra]) ++ [IGoto (S (S n)); ILabel (S n)]
               ++ (cb ++ [IMove n rb]) ++ [ILabel (S (S n))], OTemp n, n3).
Proof.
  cbn [gen]. destruct (gen F CBool cnd _) as [[cc rc] n1]. destruct (gen F CVal a n1) as [[ca ra] n2].
  destruct (gen F CVal b n2) as [[cb rb] n3]. rewrite <- !app_assoc. reflexivity.
Qed.

Lemma gen_ECmp c a ops rest n : gen F c (ECmp a ops rest) n =
  let r := n in let tb := S n in let endl := S (S n) in
  let '(ca, ra, n1) := gen F CVal a (S (S (S n))) in
  let m := mode_of c in
  let '(cc, n2) := gchain m r tb endl ra ops rest n1 in
  let code := ca ++ cc ++ [ILabel endl] in
  match m with
  | MVal => finish c (code, OTemp r, n2)
  | MBool => finish_bool c code tb n2
  end.
Proof. reflexivity. Qed.

Lemma gen_EMCall c mname o obj args n : gen F c (EMCall mname o obj args) n =
  let '(co, ro, n1) := gen F CVal obj n in
  if fx_mcall F then
    let '(ca, rs, n2) := gens F args (S n1) in
    finish c (co ++ [IOp n1 (OGetAttr mname) [ro]] ++ ca ++ [IOp n2 o (OTemp n1 :: rs)], OTemp n2, S n2)
  else
    let '(ca, rs, n2) := gens F args n1 in
    finish c (co ++ ca ++ [IOp n2 (OGetAttr mname) [ro]; IOp (S n2) o (OTemp n2 :: rs)], OTemp (S n2), S (S n2)).
Proof. reflexivity. Qed.

Lemma gen_EMinMax c o args n : gen F c (EMinMax o args) n =
  match args with
  | [] => finish c ([], ONoneC, n)
  | a0 :: rest =>
      let best := n in let tb := S n in
      if fx_minmax F then
        let '(c0, r0, n1) := gen F CVal a0 (S (S n)) in
        let '(cr, rs, n2) := gens F rest n1 in
        let '(cs, n3) := gscan o best tb rs n2 in
        finish c (c0 ++ cr ++ [IMove best r0] ++ cs, OTemp best, n3)
      else
        let '(cr, rs, n1) := gens F rest (S (S n)) in
        let '(c0, r0, n2) := gen F CVal a0 n1 in
        let '(cs, n3) := gscan o best tb rs n2 in
        finish c (cr ++ c0 ++ [IMove best r0] ++ cs, OTemp best, n3)
  end.
Proof. reflexivity. Qed.

Lemma gen_ECCall c o nreq ndecl recv npos names es n : gen F c (ECCall o nreq ndecl recv npos names es) n =
  ccall_code F c o nreq ndecl (gen F CVal recv) npos names (fun p => csimple F (nth p es ENone))
             (map (gen F CVal) es) n.
Proof. reflexivity. Qed.
End GenCopies.

Section Proofs.
Variable S : sem.
Variable F : flags.

Definition labels (c : list instr) : list nat :=
  flat_map (fun i => match i with ILabel l => [l] | _ => [] end) c.

Lemma labels_app c1 c2 : labels (c1 ++ c2) = labels c1 ++ labels c2.
Proof. apply flat_map_app. Qed.

Lemma run_app c1 : forall c2 st m,
  run S (c1 ++ c2) st m = let '(st', m') := run S c1 st m in run S c2 st' m'.
Proof.
  induction c1 as [|i c1 IH]; intros c2 st m; simpl; [reflexivity|].
  destruct m as [|l].
  - destruct (step S i st) as [st1 m1]. apply IH.
  - destruct i; try apply IH. destruct (Nat.eqb l l0); apply IH.
Qed.

Lemma run_skip c : forall st l, ~ In l (labels c) -> run S c st (Skip l) = (st, Skip l).
Proof.
  induction c as [|i c IH]; intros st l H; simpl; auto.
  destruct i; simpl in H; try (apply IH; exact H).
  destruct (Nat.eqb_spec l l0).
  - subst. exfalso. apply H. left. reflexivity.
  - apply IH. intro. apply H. right. assumption.
Qed.

Lemma run_label_hit l c st : run S (ILabel l :: c) st (Skip l) = run S c st Normal.
Proof. simpl. rewrite Nat.eqb_refl. reflexivity. Qed.

Lemma run_label_miss l l' c st : l <> l' -> run S (ILabel l' :: c) st (Skip l) = run S c st (Skip l).
Proof. intros H. simpl. destruct (Nat.eqb_spec l l'); [contradiction|reflexivity]. Qed.

Lemma run_op c st t o args :
  run S (IOp t o args :: c) st Normal =
  run S c (set_temp st t (fst (opsem S o (map (getop st) args))) (snd (opsem S o (map (getop st) args)))) Normal.
Proof. simpl. destruct (opsem S o (map (getop st) args)). reflexivity. Qed.

Definition lab_in (n n' : nat) (c : list instr) : Prop := forall l, In l (labels c) -> n <= l < n'.

Lemma lab_in_app n n' c1 c2 : lab_in n n' c1 -> lab_in n n' c2 -> lab_in n n' (c1 ++ c2).
Proof. unfold lab_in. intros H1 H2 l. rewrite labels_app, in_app_iff. intros [H|H]; auto. Qed.

Lemma lab_in_weak n n' m m' c : lab_in n n' c -> m <= n -> n' <= m' -> lab_in m m' c.
Proof. unfold lab_in. intros H H1 H2 l Hl. specialize (H l Hl). lia. Qed.

Lemma lab_in_nil n n' c : labels c = [] -> lab_in n n' c.
Proof. unfold lab_in. intros -> l []. Qed.

Lemma lab_in_label n n' l : n <= l < n' -> lab_in n n' [ILabel l].
Proof. unfold lab_in. simpl. intros H l' [<-|[]]. exact H. Qed.

Lemma lab_in_not n n' c l : lab_in n n' c -> l < n -> ~ In l (labels c).
Proof. unfold lab_in. intros H Hl Hin. specialize (H l Hin). lia. Qed.

(* the labels of a concatenation of sub-expression code, label-free instructions and single labels *)
Ltac labs :=
  repeat apply lab_in_app;
  first [ eapply lab_in_weak; [eassumption | lia | lia]
        | apply lab_in_nil; first [reflexivity | assumption]
        | apply lab_in_label; lia ].

Lemma skip_rest ca my cb st st1 l :
  run S ca st Normal = (st1, Skip l) -> l <> my -> ~ In l (labels cb) ->
  run S (ca ++ ILabel my :: cb) st Normal = (st1, Skip l).
Proof.
  intros H H1 H2. rewrite run_app, H.
  rewrite run_label_miss by auto. apply run_skip. auto.
Qed.

(* st' continues st; n is the counter when the code was generated, ex the one temp below it that may change *)
Definition ext (n : nat) (ex : option nat) (st st' : state) (evs : list event) (lfs : list nat) : Prop :=
  mvars st' = mvars st /\ trace st' = trace st ++ evs /\ leaflog st' = leaflog st ++ lfs /\
  forall t, t < n -> Some t <> ex -> temps st' t = temps st t.

Lemma ext_refl n ex st : ext n ex st st [] [].
Proof. unfold ext. rewrite !app_nil_r. auto. Qed.

Lemma ext_trans n n' ex st st1 st2 e1 e2 l1 l2 :
  ext n ex st st1 e1 l1 -> ext n' ex st1 st2 e2 l2 -> n <= n' -> ext n ex st st2 (e1 ++ e2) (l1 ++ l2).
Proof.
  unfold ext. intros (A1 & A2 & A3 & A4) (B1 & B2 & B3 & B4) Hn.
  repeat split; try congruence.
  - rewrite B2, A2, app_assoc. reflexivity.
  - rewrite B3, A3, app_assoc. reflexivity.
  - intros t Ht He. rewrite B4 by (auto; lia). auto.
Qed.

Lemma ext_none n ex st st' e l : ext n None st st' e l -> ext n ex st st' e l.
Proof. unfold ext. intros (A1 & A2 & A3 & A4). repeat split; auto. intros. apply A4; auto. discriminate. Qed.

Lemma ext_weak n n' ex st st' e l : ext n' ex st st' e l -> n <= n' -> ext n ex st st' e l.
Proof. unfold ext. intros (A1 & A2 & A3 & A4) H. repeat split; auto. intros. apply A4; auto. lia. Qed.

Lemma ext_set n ex st t v ev : n <= t \/ ex = Some t -> ext n ex st (set_temp st t v ev) ev [].
Proof.
  unfold ext, set_temp; simpl. intros H. rewrite app_nil_r. repeat split; auto.
  intros t' Ht He. unfold upd. destruct (Nat.eqb_spec t' t); auto. subst. destruct H; [lia|congruence].
Qed.

Definition opok (o : operand) (n : nat) : Prop := match o with OTemp t => t < n | _ => True end.

Definition oplo (o : operand) (n : nat) : Prop := match o with OTemp t => n <= t | _ => True end.

Lemma oplo_weak o n n' : oplo o n' -> n <= n' -> oplo o n.
Proof. destruct o; simpl; auto. lia. Qed.

Lemma opok_weak o n n' : opok o n -> n <= n' -> opok o n'.
Proof. destruct o; simpl; auto. lia. Qed.

Lemma set_temp_same st t v ev : temps (set_temp st t v ev) t = v.
Proof. simpl. unfold upd. rewrite Nat.eqb_refl. reflexivity. Qed.

Lemma getop_set_other st t v ev o : o <> OTemp t -> getop (set_temp st t v ev) o = getop st o.
Proof.
  intros H. destruct o as [t'| |]; simpl; auto. unfold upd.
  destruct (Nat.eqb_spec t' t); [congruence | reflexivity].
Qed.

Lemma getop_set_lo st t v ev k o : t < k -> oplo o k -> getop (set_temp st t v ev) o = getop st o.
Proof. intros Hk Ho. apply getop_set_other. intros ->. simpl in Ho. lia. Qed.

Lemma getops_set_lo st t v ev k rs :
  t < k -> Forall (fun o => oplo o k) rs -> map (getop (set_temp st t v ev)) rs = map (getop st) rs.
Proof. intros Hk. induction 1; simpl; f_equal; auto. eapply getop_set_lo; eauto. Qed.

Definition exec (n : nat) (c : list instr) (st st' : state) (evs : list event) (lfs : list nat) : Prop :=
  run S c st Normal = (st', Normal) /\ ext n None st st' evs lfs.

Lemma exec_nil n st : exec n [] st st [] [].
Proof. split; [reflexivity | apply ext_refl]. Qed.

Lemma exec_app {n n' c1 c2 st st1 st2 e1 e2 l1 l2} :
  n <= n' -> exec n c1 st st1 e1 l1 -> exec n' c2 st1 st2 e2 l2 -> exec n (c1 ++ c2) st st2 (e1 ++ e2) (l1 ++ l2).
Proof. intros H [A1 B1] [A2 B2]. split; [rewrite run_app, A1; exact A2 | eapply ext_trans; eauto]. Qed.

Lemma exec_snoc {n n' c1 c2 st st1 st2 e1 e2 l1} :
  n <= n' -> exec n c1 st st1 e1 l1 -> exec n' c2 st1 st2 e2 [] -> exec n (c1 ++ c2) st st2 (e1 ++ e2) l1.
Proof. intros H A B. rewrite <- (app_nil_r l1). exact (exec_app H A B). Qed.

Lemma exec_snoc0 {n n' c1 c2 st st1 st2 e1 l1} :
  n <= n' -> exec n c1 st st1 e1 l1 -> exec n' c2 st1 st2 [] [] -> exec n (c1 ++ c2) st st2 e1 l1.
Proof. intros H A B. rewrite <- (app_nil_r e1). exact (exec_snoc H A B). Qed.

Lemma exec_weak n {n' c st st' e l} : n <= n' -> exec n' c st st' e l -> exec n c st st' e l.
Proof. intros H [A B]. split; [exact A | eapply ext_weak; eauto]. Qed.

Lemma exec_vars {n c st st' e l} : exec n c st st' e l -> mvars st' = mvars st.
Proof. intros [_ (A & _)]. exact A. Qed.

Lemma exec_getop {n c st st' e l} o : exec n c st st' e l -> opok o n -> getop st' o = getop st o.
Proof.
  intros [_ (A1 & _ & _ & A4)] H. destruct o; simpl in *; [|congruence | reflexivity].
  apply A4; [exact H | discriminate].
Qed.

Lemma exec_getops {n c st st' e l} rs :
  exec n c st st' e l -> Forall (fun o => opok o n) rs -> map (getop st') rs = map (getop st) rs.
Proof. intros X. induction 1; simpl; f_equal; auto. eapply exec_getop; eauto. Qed.

Lemma exec_leaf n st t kind k : n <= t ->
  exists v ev st', leafsem S kind k = (v, ev) /\ exec n [ILeaf t kind k] st st' ev [k] /\ temps st' t = v.
Proof.
  intros H. destruct (leafsem S kind k) as [v ev] eqn:E. do 3 eexists. split; [reflexivity|].
  split; [split; [simpl; rewrite E; reflexivity|]|].
  - repeat split; auto. intros t' Ht _. simpl. unfold upd. destruct (Nat.eqb_spec t' t); [lia | reflexivity].
  - simpl. unfold upd. rewrite Nat.eqb_refl. reflexivity.
Qed.

Lemma exec_op n st t o args : n <= t ->
  exists v ev, opsem S o (map (getop st) args) = (v, ev) /\ exec n [IOp t o args] st (set_temp st t v ev) ev [].
Proof.
  intros H. destruct (opsem S o (map (getop st) args)) as [v ev] eqn:E. exists v, ev. split; [reflexivity|].
  split; [rewrite run_op, E; reflexivity | apply ext_set; auto].
Qed.

Lemma exec_istrue n st t src : n <= t ->
  exists b ev, truthsem S (getop st src) = (b, ev) /\ exec n [IIsTrue t src] st (set_temp st t (VBool b) ev) ev [].
Proof.
  intros H. destruct (truthsem S (getop st src)) as [b ev] eqn:E. exists b, ev. split; [reflexivity|].
  split; [simpl; rewrite E; reflexivity | apply ext_set; auto].
Qed.

Lemma exec_not n st t src b : n <= t -> temps st src = VBool b ->
  exec n [INot t src] st (set_temp st t (VBool (negb b)) []) [] [].
Proof. intros H T. split; [simpl; rewrite T; reflexivity | apply ext_set; auto]. Qed.

Lemma exec_move n st t src : n <= t -> exec n [IMove t src] st (set_temp st t (getop st src) []) [] [].
Proof. intros H. split; [reflexivity | apply ext_set; auto]. Qed.

Lemma exec_label n l st : exec n [ILabel l] st st [] [].
Proof. split; [reflexivity | apply ext_refl]. Qed.

Lemma exec_jump_no {n t} l {c st st' evs lfs} :
  temps st t = VBool true -> exec n c st st' evs lfs -> exec n (IJumpIf t false l :: c) st st' evs lfs.
Proof. intros T [B C]. split; [simpl; rewrite T; exact B | exact C]. Qed.

Lemma exec_jump_yes n {t l c st} :
  temps st t = VBool false -> ~ In l (labels c) -> exec n (IJumpIf t false l :: c ++ [ILabel l]) st st [] [].
Proof.
  intros T N. split; [|apply ext_refl]. simpl. rewrite T. simpl. rewrite run_app, run_skip by exact N.
  apply run_label_hit.
Qed.

Lemma exec_ite n t l1 l2 c1 c2 (b : bool) st st' evs lfs :
  temps st t = VBool b -> ~ In l1 (labels c1) -> ~ In l2 (labels c2) -> l2 <> l1 ->
  exec n (if b then c1 else c2) st st' evs lfs ->
  exec n ([IJumpIf t false l1] ++ c1 ++ [IGoto l2; ILabel l1] ++ c2 ++ [ILabel l2]) st st' evs lfs.
Proof.
  intros T N1 N2 D [B C]. split; [|exact C]. simpl. rewrite T. destruct b; simpl.
  - rewrite run_app, B. simpl. destruct (Nat.eqb_spec l2 l1); [contradiction|].
    rewrite run_app, run_skip by auto. apply run_label_hit.
  - rewrite run_app, run_skip by auto. simpl. rewrite Nat.eqb_refl, run_app, B. reflexivity.
Qed.

(* through which label an operand of a jump-threaded tree leaves when its truth value is t, and whether it
   delivers its value to the result temp first *)
Definition outcome (andl orl : option nat) (endl : nat) (t : bool) : nat * bool :=
  match andl, orl with
  | None, None => (endl, true)
  | Some al, None => if t then (al, false) else (endl, true)
  | None, Some ol => if t then (endl, true) else (ol, false)
  | Some al, Some ol => if t then (al, false) else (ol, false)
  end.

(* the operand stands under an `and` or an `or`: only then is its truth value taken, and the events of
   that test are part of the trace *)
Definition labeled (andl orl : option nat) : bool :=
  match andl, orl with None, None => false | _, _ => true end.

Definition wfctx (c : ctx) (n : nat) : Prop :=
  match c with
  | CThread _ res andl orl endl =>
      res < n /\ endl < n /\ (forall l, andl = Some l -> l < n) /\ (forall l, orl = Some l -> l < n)
  | _ => True
  end.

(* what code generated in context c from counter n (g = code, operand, new counter n') must do, R being the
   reference evaluation.  Its labels are fresh (in [n, n')).  In a value or boolean context: run from any state
   it falls through, adds R's events and leaf log, keeps the temps below n, and R's value is in the operand ro
   (a temp of [n, n') if a temp at all; for CBool always a temp).  In a jump-threaded context it leaves through
   the label that `outcome` names for R's truth value, adds R's events (and those of the truth test when
   labeled), keeps the temps below n other than res, and R's value is in res where `outcome` says so *)
Definition specR (c : ctx) (R : (nat -> val) -> res) (n : nat) (g : gres) : Prop :=
  let '(code, ro, n') := g in
  n <= n' /\ lab_in n n' code /\
  match c with
  | CThread m res andl orl endl =>
      forall st, exists st',
        let r := R (mvars st) in
        let tv := truth_of S (rv r) (rk r) in
        let oc := outcome andl orl endl (fst tv) in
        run S code st Normal = (st', Skip (fst oc)) /\
        ext n (Some res) st st' (rev r ++ if labeled andl orl then snd tv else []) (rlf r) /\
        (snd oc = true -> temps st' res = rv r)
  | _ =>
      opok ro n' /\ oplo ro n /\ (c = CBool -> exists t, ro = OTemp t) /\
      forall st, exists st', let r := R (mvars st) in
        run S code st Normal = (st', Normal) /\ ext n None st st' (rev r) (rlf r) /\ getop st' ro = rv r
  end.

Lemma wfctx_weak c n n' : wfctx c n -> n <= n' -> wfctx c n'.
Proof.
  destruct c; simpl; auto. intros (A & B & C & D) H. repeat split; try lia.
  - intros l Hl. specialize (C l Hl). lia.
  - intros l Hl. specialize (D l Hl). lia.
Qed.

Lemma outcome_lt m res andl orl endl n t : wfctx (CThread m res andl orl endl) n -> fst (outcome andl orl endl t) < n.
Proof.
  intros (_ & B & C & D). destruct andl as [al|], orl as [ol|], t; simpl; auto.
Qed.

Lemma tail_notest res andl orl endl t n :
  exists tail, thread_tail MBool res andl orl endl (OTemp t) n = (tail, n) /\ labels tail = [] /\
  forall st b, temps st t = VBool b ->
  exists st', run S tail st Normal = (st', Skip (fst (outcome andl orl endl b))) /\
    ext n (Some res) st st' [] [] /\ (snd (outcome andl orl endl b) = true -> temps st' res = VBool b).
Proof.
  destruct andl as [al|], orl as [ol|]; simpl; eexists; (split; [reflexivity|]); (split; [reflexivity|]);
    intros st b H; simpl; rewrite ?H; simpl; destruct b; simpl;
    first [ eexists; split; [reflexivity|]; split; [apply ext_refl | discriminate]
          | eexists; split; [reflexivity|]; split;
            [apply ext_set; auto | intros _; simpl; unfold upd; rewrite Nat.eqb_refl; reflexivity] ].
Qed.

Lemma tail_test res andl orl endl r n :
  opok r n -> res < n ->
  exists tail n2, thread_tail MVal res andl orl endl r n = (tail, n2) /\ n <= n2 /\ labels tail = [] /\
  forall st, let tv := truthsem S (getop st r) in
  exists st', run S tail st Normal = (st', Skip (fst (outcome andl orl endl (fst tv)))) /\
    ext n (Some res) st st' (if labeled andl orl then snd tv else []) [] /\
    (snd (outcome andl orl endl (fst tv)) = true -> temps st' res = getop st r).
Proof.
  intros Hr Hres.
  assert (G : forall st v ev, getop (set_temp st n v ev) r = getop st r).
  { intros. apply getop_set_other. intros ->. simpl in Hr. lia. }
  assert (X2 : forall st v ev w, ext n (Some res) st (set_temp (set_temp st n v ev) res w []) ev []).
  { intros. rewrite <- (app_nil_r ev) at 2. change (@nil nat) with (@nil nat ++ []).
    eapply ext_trans; [| |apply le_n]; apply ext_set; auto. }
  destruct andl as [al|], orl as [ol|]; simpl; do 2 eexists; (split; [reflexivity|]); (split; [lia|]);
    (split; [reflexivity|]); intros st; destruct (truthsem S (getop st r)) as [b ev] eqn:T;
    simpl; rewrite ?T; simpl; unfold upd; rewrite ?Nat.eqb_refl; simpl;
    destruct b; simpl; eexists; (split; [reflexivity|]); rewrite ?G; simpl.
  all: try (split; [apply ext_set; left; lia | discriminate]).
  all: (split; [| intros _; unfold upd; rewrite Nat.eqb_refl; reflexivity]).
  all: try apply X2.
  all: try (apply ext_set; auto).
Qed.

(* a node that produced a C truth value in temp t (NotNode, comparison in boolean context) *)
Lemma finish_bool_ok c R n code t n' :
  wfctx c n -> n <= n' -> lab_in n n' code -> n <= t < n' ->
  (forall st, exists b st', let r := R (mvars st) in
     rv r = VBool b /\ rk r = Some b /\ exec n code st st' (rev r) (rlf r) /\ temps st' t = VBool b) ->
  specR c R n (finish_bool c code t n').
Proof.
  intros W Hn Hl Ht Hrun.
  destruct c as [| |m res andl orl endl]; simpl.
  1,2: split; [lia|]; split; [auto|]; split; [simpl; lia|]; split; [simpl; lia|];
       (split; [first [discriminate | eauto]|]);
       intros st; destruct (Hrun st) as (b & st' & A & _ & [B C] & D); exists st'; simpl; rewrite A, D; auto.
  destruct W as (W1 & W2 & W3 & W4).
  destruct (tail_notest res andl orl endl t n') as (tail & E & Lt & Htl).
  rewrite E. split; [lia|]. split; [labs|].
  intros st. destruct (Hrun st) as (b & st' & A & K & [B C] & D).
  destruct (Htl st' b D) as (st2 & A2 & B2 & C2).
  exists st2. simpl. rewrite A, K. simpl. rewrite run_app, B. split; [exact A2|]. split; [|exact C2].
  pose proof (ext_trans _ _ _ _ _ _ _ _ _ _ (ext_none _ (Some res) _ _ _ _ C) B2 Hn) as X.
  destruct (labeled andl orl); rewrite ?app_nil_r in *; exact X.
Qed.

Lemma finish_MBool c code r n : mode_of c = MBool ->
  finish c (code, r, n) = finish_bool c (code ++ [IIsTrue n r]) n (Datatypes.S n).
Proof. destruct c as [| |[]]; try discriminate; reflexivity. Qed.

Lemma finish_ok c R n code ro n' :
  wfctx c n -> n <= n' -> lab_in n n' code -> opok ro n' -> oplo ro n ->
  (forall st, exists r0 st', R (mvars st) = tobool S (mode_of c) r0 /\ rk r0 = None /\
     exec n code st st' (rev r0) (rlf r0) /\ getop st' ro = rv r0) ->
  specR c R n (finish c (code, ro, n')).
Proof.
  intros W Hn Hl Ho Hlo. destruct (mode_of c) eqn:M; intros Hrun.
  - destruct c as [| |[] res andl orl endl]; try discriminate; simpl.
    + split; [lia|]. split; [auto|]. split; [auto|]. split; [auto|]. split; [discriminate|].
      intros st. destruct (Hrun st) as (r0 & st' & -> & _ & [B C] & D). exists st'. auto.
    + (* value mode inside a thread: tested only when a label follows *)
      destruct W as (W1 & W2 & W3 & W4).
      destruct (tail_test res andl orl endl ro n' Ho ltac:(lia)) as (tail & n2 & E & Hn2 & Lt & Ht).
      rewrite E. split; [lia|]. split; [labs|].
      intros st. destruct (Hrun st) as (r0 & st' & -> & K & [B C] & D).
      destruct (Ht st') as (st2 & A2 & B2 & C2). rewrite D in A2, B2, C2.
      exists st2. simpl. rewrite K. simpl. rewrite run_app, B. split; [exact A2|]. split; [|exact C2].
      rewrite <- (app_nil_r (rlf r0)). eapply ext_trans; [apply ext_none; exact C | exact B2 | auto].
  - rewrite finish_MBool by exact M. apply finish_bool_ok; [exact W | lia | labs | lia|].
    intros st. destruct (Hrun st) as (r0 & st1 & E & K & X & D).
    destruct (exec_istrue n' st1 n' ro (le_n _)) as (b & ev & T & X2). rewrite D in T.
    exists b, (set_temp st1 n' (VBool b) ev). cbv zeta. rewrite E. unfold tobool, truth_of. rewrite K, T.
    cbn [rv rk rev rlf]. split; [reflexivity|]. split; [reflexivity|].
    split; [exact (exec_snoc Hn X X2) | apply set_temp_same].
Qed.

Definition bshape (r : res) : Prop := exists b, rv r = VBool b /\ rk r = Some b.

Lemma tobool_shape r : bshape (tobool S MBool r).
Proof. unfold bshape, tobool. destruct (truth_of S (rv r) (rk r)) as [t ev]. simpl. eauto. Qed.

Lemma echain_shape vars : forall es va ops, bshape (echain S vars MBool va ops es).
Proof.
  unfold bshape. induction es as [|b es IH]; intros va ops; destruct ops as [|o ops];
    try (simpl; destruct (truthsem S VNone); simpl; eauto; fail).
  rewrite echain_cons. cbv zeta.
  destruct (opsem S o [va; rv (eval S vars MVal b)]) as [r ev1].
  destruct (more ops es); [|destruct (truthsem S r); cbn [rv rk]; eauto].
  destruct (truthsem S r) as [[] ev2]; cbn [rv rk]; eauto.
Qed.

(* shape: for results that end in tobool / truth_of: take the pairs apart and name the boolean *)
Ltac shape := unfold bshape, tobool, truth_of; simpl;
  repeat match goal with |- context [let '(_, _) := ?p in _] => destruct p end; simpl; eauto.

Lemma eval_shape vars e : bshape (eval S vars MBool e).
Proof.
  induction e as [kind k|x| |o es|e _|a IHa b IHb|a IHa b IHb|c _ a _ b _|a _ ops rest|m o obj _ args|o args
                  |o nreq ndecl recv _ npos names es].
  - shape.
  - shape.
  - shape.
  - rewrite eval_EOp. shape.
  - shape.
  - (* a and b: a's own boolean if it is false, else b's *)
    simpl. destruct IHa as (b1 & A1 & B1). rewrite A1, B1. simpl. destruct b1; simpl; [exact IHb|]. shape.
  - (* a or b *)
    simpl. destruct IHa as (b1 & A1 & B1). rewrite A1, B1. simpl. destruct b1; simpl; [|exact IHb]. shape.
  - shape.
  - rewrite eval_ECmp. destruct (echain_shape vars rest (rv (eval S vars MVal a)) ops) as (b & A & B).
    unfold bshape. cbn [rv rk]. eauto.
  - rewrite eval_EMCall. shape.
  - rewrite eval_EMinMax. cbv zeta. destruct (map rv (evals S vars args)); [shape|].
    destruct (rscan S o v l). shape.
  - rewrite eval_ECCall. shape.
Qed.

Definition gen_ok_at (e : expr) : Prop :=
  forall c n, wfctx c n -> specR c (fun vars => eval S vars (mode_of c) e) n (gen F c e n).

Lemma gen_val e n : gen_ok_at e ->
  exists code ro n', gen F CVal e n = (code, ro, n') /\
    n <= n' /\ lab_in n n' code /\ opok ro n' /\ oplo ro n /\
    forall st vars, mvars st = vars -> exists st', let r := eval S vars MVal e in
      exec n code st st' (rev r) (rlf r) /\ getop st' ro = rv r.
Proof.
  intros H. specialize (H CVal n I). destruct (gen F CVal e n) as [[code ro] n'].
  destruct H as (A & L & O & Q & _ & R). exists code, ro, n'. split; [reflexivity|]. do 4 (split; [assumption|]).
  intros st vars <-. destruct (R st) as (st' & B & C & D). exists st'. split; [split; [exact B | exact C] | exact D].
Qed.

Lemma gen_bool e n : gen_ok_at e ->
  exists code t n', gen F CBool e n = (code, OTemp t, n') /\ n <= n' /\ lab_in n n' code /\ n <= t < n' /\
    forall st vars, mvars st = vars -> exists st' b, let r := eval S vars MBool e in
      exec n code st st' (rev r) (rlf r) /\ temps st' t = VBool b /\ rv r = VBool b /\ rk r = Some b.
Proof.
  intros H. specialize (H CBool n I). destruct (gen F CBool e n) as [[code ro] n'].
  destruct H as (A & L & O & Q & (t & ->) & R); [reflexivity|]. exists code, t, n'. split; [reflexivity|].
  do 2 (split; [assumption|]). split; [exact (conj Q O)|].
  intros st vars <-. destruct (R st) as (st' & B & C & D). destruct (eval_shape (mvars st) e) as (b & V & K).
  exists st', b. simpl in D. split; [split; [exact B | exact C]|]. split; [congruence | auto].
Qed.

Lemma gens_ok es : Forall gen_ok_at es -> forall n,
  exists code rs n', gens F es n = (code, rs, n') /\
    n <= n' /\ lab_in n n' code /\ Forall (fun o => opok o n') rs /\ Forall (fun o => oplo o n) rs /\
    forall st vars, mvars st = vars -> exists st', let l := evals S vars es in
      exec n code st st' (flat_ev l) (flat_lf l) /\ map (getop st') rs = map rv l.
Proof.
  induction 1 as [|e es He Hes IH]; intros n; simpl.
  - exists [], [], n. split; [reflexivity|]. split; [lia|]. split; [labs|]. do 2 (split; [constructor|]).
    intros st vars _. exists st. split; [apply exec_nil | reflexivity].
  - destruct (gen_val e n He) as (c1 & r1 & n1 & -> & A1 & L1 & O1 & Q1 & R1).
    destruct (IH n1) as (c2 & rs & n2 & -> & A2 & L2 & O2 & Q2 & R2).
    exists (c1 ++ c2), (r1 :: rs), n2. split; [reflexivity|]. split; [lia|]. split; [labs|].
    split; [constructor; [eapply opok_weak; eauto | auto]|].
    split; [constructor; [auto | eapply Forall_impl; [|exact Q2]; intros o Ho; exact (oplo_weak o n n1 Ho A1)]|].
    intros st vars V. destruct (R1 st vars V) as (st1 & X1 & D1).
    destruct (R2 st1 vars) as (st2 & X2 & D2); [rewrite (exec_vars X1); exact V|].
    exists st2. split; [exact (exec_app A1 X1 X2)|].
    simpl. rewrite (exec_getop r1 X2 O1), D1, D2. reflexivity.
Qed.

Lemma gen_leaf kind k : gen_ok_at (ELeaf kind k).
Proof.
  intros c n W. apply (finish_ok c _ n [ILeaf n kind k] (OTemp n) (Datatypes.S n));
    [exact W | lia | labs | simpl; lia | simpl; lia|].
  intros st. destruct (exec_leaf n st n kind k (le_n _)) as (v & ev & st' & E & X & D).
  exists {| rv := v; rk := None; rev := ev; rlf := [k] |}, st'.
  split; [simpl; rewrite E; reflexivity|]. split; [reflexivity|]. split; [exact X | exact D].
Qed.

Lemma gen_name x : gen_ok_at (EName x).
Proof.
  intros c n W. apply (finish_ok c _ n [] (OVar x) n); [exact W | lia | labs | exact I | exact I|].
  intros st. exists {| rv := mvars st x; rk := None; rev := []; rlf := [] |}, st.
  split; [reflexivity|]. split; [reflexivity|]. split; [apply exec_nil | reflexivity].
Qed.

Lemma gen_none : gen_ok_at ENone.
Proof.
  intros c n W. apply (finish_ok c _ n [] ONoneC n); [exact W | lia | labs | exact I | exact I|].
  intros st. exists {| rv := VNone; rk := None; rev := []; rlf := [] |}, st.
  split; [reflexivity|]. split; [reflexivity|]. split; [apply exec_nil | reflexivity].
Qed.

Lemma gen_op o es : Forall gen_ok_at es -> gen_ok_at (EOp o es).
Proof.
  intros Hes c n W. rewrite gen_EOp.
  destruct (gens_ok es Hes n) as (code & rs & n1 & -> & A & L & O & Q & R).
  apply finish_ok; [exact W | lia | labs | simpl; lia | simpl; lia|].
  intros st. destruct (R st _ eq_refl) as (st1 & X1 & D1).
  destruct (exec_op n1 st1 n1 o rs (le_n _)) as (v & ev & E & X2). rewrite D1 in E.
  do 2 eexists. split; [rewrite eval_EOp; cbv zeta; rewrite E; reflexivity|]. split; [reflexivity|].
  split; [exact (exec_snoc A X1 X2) | apply set_temp_same].
Qed.

Lemma gen_not a : gen_ok_at a -> gen_ok_at (ENot a).
Proof.
  intros Ha c n W. rewrite gen_ENot.
  destruct (gen_bool a n Ha) as (ca & t & n1 & -> & A & L & T & R).
  apply finish_bool_ok; [exact W | lia | labs | lia|].
  intros st. destruct (R st _ eq_refl) as (st1 & b & X1 & D1 & V1 & K1).
  exists (negb b), (set_temp st1 n1 (VBool (negb b)) []).
  cbv zeta. rewrite eval_ENot. cbv zeta. rewrite K1. cbn [rv rk rev rlf].
  split; [reflexivity|]. split; [reflexivity|]. split; [|apply set_temp_same].
  exact (exec_snoc0 A X1 (exec_not n1 st1 n1 t b (le_n _) D1)).
Qed.

(* the left operand leaves through its own label exactly when the right operand is to be evaluated;
   otherwise it leaves as the whole node does *)
Lemma outcome_own isand my andl orl endl :
  outcome (l_and isand my andl) (l_or isand my orl) endl isand = (my, false).
Proof. destruct isand, andl, orl; reflexivity. Qed.

Lemma outcome_pass isand my andl orl endl :
  outcome (l_and isand my andl) (l_or isand my orl) endl (negb isand) = outcome andl orl endl (negb isand).
Proof. destruct isand, andl, orl; reflexivity. Qed.

Lemma labeled_own isand my andl orl : labeled (l_and isand my andl) (l_or isand my orl) = true.
Proof. destruct isand, andl, orl; reflexivity. Qed.

Lemma wfctx_own isand m res andl orl endl n : wfctx (CThread m res andl orl endl) n ->
  wfctx (CThread m res (l_and isand n andl) (l_or isand n orl) endl) (Datatypes.S n).
Proof.
  intros W. apply (wfctx_weak _ n (Datatypes.S n)) in W; [|lia]. destruct W as (A & B & C & D).
  destruct isand; simpl; repeat split; auto; intros l [= <-]; lia.
Qed.

Lemma conn_thread isand a b m res andl orl endl n :
  gen_ok_at a -> gen_ok_at b -> wfctx (CThread m res andl orl endl) n ->
  specR (CThread m res andl orl endl) (fun vars => eval S vars m (conn isand a b)) n
        (gen F (CThread m res andl orl endl) (conn isand a b) n).
Proof.
  intros Ha Hb W. rewrite gen_conn_thread.
  pose proof (Ha _ _ (wfctx_own isand _ _ _ _ _ _ W)) as H1.
  destruct (gen F (CThread m res (l_and isand n andl) (l_or isand n orl) endl) a (Datatypes.S n)) as [[ca ra] n1].
  destruct H1 as (A1 & L1 & R1).
  pose proof (Hb _ _ (wfctx_weak _ n n1 W ltac:(lia))) as H2.
  destruct (gen F (CThread m res andl orl endl) b n1) as [[cb rb] n2]. destruct H2 as (A2 & L2 & R2).
  split; [lia|]. split; [labs|].
  intros st. destruct (R1 st) as (st1 & B1 & C1 & D1). simpl in B1, C1, D1. rewrite labeled_own in C1.
  assert (V : mvars st1 = mvars st) by apply C1.
  cbv zeta. rewrite eval_conn. cbv zeta.
  destruct (truth_of S (rv (eval S (mvars st) m a)) (rk (eval S (mvars st) m a))) as [t ev]. cbn [fst snd] in *.
  destruct (Bool.eqb t isand) eqn:Et.
  - (* the right operand decides *)
    apply eqb_prop in Et. subst t. rewrite outcome_own in B1. cbn [fst] in B1.
    destruct (R2 st1) as (st2 & B2 & C2 & D2). rewrite V in B2, C2, D2. cbv zeta in B2, C2, D2.
    exists st2. cbn [rv rk rev rlf]. split; [rewrite run_app, B1; cbn [app]; rewrite run_label_hit; exact B2|].
    split; [|exact D2].
    pose proof (ext_weak n _ _ _ _ _ _ (ext_trans _ _ _ _ _ _ _ _ _ _ C1 C2 A1) ltac:(lia)) as X.
    rewrite <- !app_assoc in *. exact X.
  - (* the left operand decides: its value is the result, or control goes where the enclosing node sends it *)
    assert (t = negb isand) as -> by (destruct t, isand; auto; discriminate).
    rewrite outcome_pass in B1, D1.
    pose proof (outcome_lt _ _ _ _ _ _ (negb isand) W) as Hl.
    exists st1. cbn [rv rk rev rlf truth_of fst snd]. split; [|split; [|exact D1]].
    + apply skip_rest; [exact B1 | lia | eapply lab_in_not; [exact L2 | lia]].
    + apply (ext_weak n) in C1; [|lia]. destruct (labeled andl orl); rewrite app_nil_r; exact C1.
Qed.

(* a tree of its own: the result is in temp res when the end label is reached *)
Lemma thread_top c R n res endl k g :
  (match c with CThread _ _ _ _ _ => False | _ => True end) -> n <= res < k -> n <= endl < k ->
  specR (CThread (mode_of c) res None None endl) R k g ->
  specR c R n (let '(code, _, n2) := g in (code ++ [ILabel endl], OTemp res, n2)).
Proof.
  destruct g as [[code ro] n2]. intros Hc Hres Hend (A & L & R1).
  assert (X : forall st, exists st', let r := R (mvars st) in
                run S (code ++ [ILabel endl]) st Normal = (st', Normal) /\
                ext n None st st' (rev r) (rlf r) /\ getop st' (OTemp res) = rv r).
  { intros st. destruct (R1 st) as (st1 & B1 & C1 & D1). cbn [outcome labeled fst snd] in B1, C1, D1.
    exists st1. cbv zeta. rewrite run_app, B1, run_label_hit.
    split; [reflexivity|]. split; [|apply D1; reflexivity].
    rewrite app_nil_r in C1. destruct C1 as (E1 & E2 & E3 & E4).
    repeat split; auto. intros t Ht _. apply E4; [lia|]. intros [= ->]. lia. }
  destruct c; try contradiction; (split; [lia|]); (split; [labs|]); (split; [simpl; lia|]);
    (split; [simpl; lia|]); (split; [first [discriminate | eauto]|]); exact X.
Qed.

Lemma gen_conn isand a b : gen_ok_at a -> gen_ok_at b -> gen_ok_at (conn isand a b).
Proof.
  intros Ha Hb c n W. destruct c as [| |m res andl orl endl]; [| |apply conn_thread; auto].
  1,2: rewrite gen_conn_top by auto; apply (thread_top _ _ n n (Datatypes.S n) (Datatypes.S (Datatypes.S n))); [exact I | lia | lia|];
       apply conn_thread; auto;
       simpl; repeat split; try lia; discriminate.
Qed.

Lemma eqb_SSn_Sn n : Nat.eqb (Datatypes.S (Datatypes.S n)) (Datatypes.S n) = false.
Proof. apply Nat.eqb_neq. lia. Qed.

Lemma gen_cond cnd a b : gen_ok_at cnd -> gen_ok_at a -> gen_ok_at b -> gen_ok_at (ECond cnd a b).
Proof.
  intros Hc Ha Hb c n W. rewrite gen_ECond.
  destruct (gen_bool cnd (Datatypes.S (Datatypes.S (Datatypes.S n))) Hc) as (cc & t & n1 & -> & A1 & L1 & T1 & R1).
  destruct (gen_val a n1 Ha) as (ca & ra & n2 & -> & A2 & L2 & O2 & Q2 & R2).
  destruct (gen_val b n2 Hb) as (cb & rb & n3 & -> & A3 & L3 & O3 & Q3 & R3). cbv zeta.
  apply finish_ok; [exact W | lia | labs | simpl; lia | simpl; lia|].
  intros st. destruct (R1 st _ eq_refl) as (st1 & bb & X1 & D1 & _ & K1).
  pose proof (exec_vars X1) as V1.
  (* the branch that is taken, with the delivery of its value *)
  assert (Br : exists st2, let rx := if bb then eval S (mvars st) MVal a else eval S (mvars st) MVal b in
             exec n (if bb then ca ++ [IMove n ra] else cb ++ [IMove n rb]) st1 st2 (rev rx) (rlf rx) /\
             temps st2 n = rv rx).
  { destruct bb; [destruct (R2 st1 _ V1) as (st2 & X2 & D2) | destruct (R3 st1 _ V1) as (st2 & X2 & D2)];
      eexists; (split; [|rewrite set_temp_same; exact D2]);
      (refine (exec_snoc0 (le_n n) (exec_weak n _ X2) (exec_move n _ n _ (le_n _))); lia). }
  destruct Br as (st2 & X2 & D2).
  do 2 eexists. split; [rewrite eval_ECond; cbv zeta; rewrite K1; reflexivity|]. split; [reflexivity|].
  split; [|exact D2]. cbn [rev rlf].
  refine (exec_app (le_n n) (exec_weak n _ X1) _); [lia|].
  apply exec_ite with (b := bb); [exact D1 | | | lia | exact X2].
  - rewrite labels_app, app_nil_r. eapply lab_in_not; [exact L2 | lia].
  - rewrite labels_app, app_nil_r. eapply lab_in_not; [exact L3 | lia].
Qed.

(* method call with the attribute looked up first *)
Lemma gen_mcall mname o obj args :
  fx_mcall F = true -> gen_ok_at obj -> Forall gen_ok_at args -> gen_ok_at (EMCall mname o obj args).
Proof.
  intros Hf Ho Hargs c n W. rewrite gen_EMCall, Hf.
  destruct (gen_val obj n Ho) as (co & ro & n1 & -> & A1 & L1 & O1 & Q1 & R1).
  destruct (gens_ok args Hargs (Datatypes.S n1)) as (ca & rs & n2 & -> & A2 & L2 & O2 & Q2 & R2).
  apply finish_ok; [exact W | lia | labs | simpl; lia | simpl; lia|].
  intros st. destruct (R1 st _ eq_refl) as (st1 & X1 & D1).
  destruct (exec_op n1 st1 n1 (OGetAttr mname) [ro] (le_n _)) as (f & ev1 & E1 & X2).
  cbn [map] in E1. rewrite D1 in E1.
  destruct (R2 (set_temp st1 n1 f ev1) (mvars st)) as (st3 & X3 & D3); [exact (exec_vars X1)|].
  destruct (exec_op n2 st3 n2 o (OTemp n1 :: rs) (le_n _)) as (v & ev2 & E2 & X4).
  cbn [map] in E2. rewrite (exec_getop (OTemp n1) X3), D3 in E2 by (simpl; lia).
  cbn [getop] in E2. rewrite set_temp_same in E2.
  do 2 eexists. split; [rewrite eval_EMCall; cbv zeta; rewrite E1, E2; reflexivity|]. split; [reflexivity|].
  split; [|apply set_temp_same].
  refine (exec_app A1 X1 (exec_app _ X2 (exec_snoc _ X3 X4))); lia.
Qed.

Section ScanProof.
(* best and tb are the node's two temps, the operands lie at or above k *)
Variables (o : op) (n0 best tb k : nat).
Hypotheses (Hb : n0 <= best < k) (Ht : n0 <= tb < k) (Hbt : best <> tb).

Lemma scan_round r l st : oplo r k ->
  exists st', let '(rr, ev1) := opsem S o [getop st r; temps st best] in let '(t, ev2) := truthsem S rr in
    exec n0 [IOp tb o [r; OTemp best]; IIsTrue tb (OTemp tb); IJumpIf tb false l; IMove best r; ILabel l]
         st st' (ev1 ++ ev2) [] /\
    temps st' best = (if t then getop st r else temps st best) /\
    forall r', oplo r' k -> getop st' r' = getop st r'.
Proof.
  intros Hr.
  destruct (exec_op n0 st tb o [r; OTemp best]) as (rr & ev1 & E1 & X1); [lia|]. cbn [map getop] in E1. rewrite E1.
  destruct (exec_istrue n0 (set_temp st tb rr ev1) tb (OTemp tb)) as (t & ev2 & E2 & X2); [lia|].
  cbn [getop] in E2. rewrite set_temp_same in E2. rewrite E2.
  set (st2 := set_temp (set_temp st tb rr ev1) tb (VBool t) ev2) in *.
  pose proof (set_temp_same (set_temp st tb rr ev1) tb (VBool t) ev2 : temps st2 tb = VBool t) as Dt.
  assert (G2 : forall r', oplo r' k -> getop st2 r' = getop st r').
  { intros r' Hr'. unfold st2. rewrite !(getop_set_lo _ tb _ _ k) by (auto; lia). reflexivity. }
  pose proof (exec_app (le_n _) X1 X2) as X. destruct t.
  - eexists. split; [|split].
    + pose proof (exec_move n0 st2 best r ltac:(lia)) as X3.
      exact (exec_snoc0 (le_n _) X (exec_jump_no l Dt (exec_snoc0 (le_n _) X3 (exec_label _ _ _)))).
    + rewrite set_temp_same. apply G2, Hr.
    + intros r' Hr'. rewrite (getop_set_lo _ best _ _ k) by (auto; lia). apply G2, Hr'.
  - exists st2. split; [|split; [|exact G2]].
    + refine (exec_snoc0 (le_n _) X (exec_jump_yes n0 (c := [IMove best r]) Dt _)). intros [].
    + change (getop st2 (OTemp best) = getop st (OTemp best)). unfold st2.
      rewrite !getop_set_other by congruence. reflexivity.
Qed.

Lemma gscan_ok : forall rs l, Forall (fun r => oplo r k) rs ->
  exists cs l', gscan o best tb rs l = (cs, l') /\ l <= l' /\ lab_in l l' cs /\
  forall st, exists st', let p := rscan S o (temps st best) (map (getop st) rs) in
    exec n0 cs st st' (snd p) [] /\ temps st' best = fst p.
Proof.
  induction rs as [|r rs IH]; intros l Hlo; simpl.
  - exists [], l. split; [reflexivity|]. split; [lia|]. split; [labs|].
    intros st. exists st. split; [apply exec_nil | reflexivity].
  - pose proof (Forall_inv Hlo) as Hr. pose proof (Forall_inv_tail Hlo) as Hrs.
    destruct (IH (Datatypes.S l) Hrs) as (cc & l' & -> & Hl & Lc & Rc).
    eexists _, l'. split; [reflexivity|]. split; [lia|]. split.
    { apply (lab_in_app _ _ [_; _; _; _; _]); [|eapply lab_in_weak; [exact Lc | lia | lia]].
      intros x [<-|[]]. lia. }
    intros st. destruct (scan_round r l st Hr) as (st1 & X). destruct (Rc st1) as (st' & X2 & D2).
    cbv zeta in *. destruct (opsem S o [getop st r; temps st best]) as [rr ev1].
    destruct (truthsem S rr) as [t ev2]. destruct X as (X1 & Tb & G).
    rewrite Tb, (map_ext_Forall _ _ (Forall_impl _ G Hrs)) in X2, D2.
    destruct (rscan S o (if t then getop st r else temps st best) (map (getop st) rs)) as [w ev3].
    exists st'. split; [|exact D2]. rewrite app_assoc. exact (exec_app (le_n _) X1 X2).
Qed.
End ScanProof.

Lemma gen_minmax o args : fx_minmax F = true -> Forall gen_ok_at args -> gen_ok_at (EMinMax o args).
Proof.
  (* without arguments: the None node; otherwise, with the repair, the arguments are evaluated as a list *)
  intros Hf Hargs c n W. destruct args as [|a0 rest]; [exact (gen_none c n W)|].
  rewrite gen_EMinMax, Hf. cbv zeta.
  destruct (gens_ok _ Hargs (Datatypes.S (Datatypes.S n))) as (code & rs0 & n2 & E & A & L & O & Q & R).
  cbn [gens] in E. destruct (gen F CVal a0 _) as [[c0 r0] n1]. destruct (gens F rest n1) as [[cr rs] n2'].
  injection E as Ec <- ->. pose proof (Forall_inv_tail Q) as Qs.
  destruct (gscan_ok o n n (Datatypes.S n) (Datatypes.S (Datatypes.S n)) ltac:(lia) ltac:(lia) ltac:(lia) rs n2 Qs)
    as (cs & n3 & -> & A3 & L3 & R3).
  rewrite app_assoc, Ec.
  apply finish_ok; [exact W | lia | labs | simpl; lia | simpl; lia|].
  intros st. destruct (R st _ eq_refl) as (st1 & X1 & D1). cbn [evals map] in D1. injection D1 as D0 D1.
  pose proof (exec_move n st1 n r0 (le_n _)) as X2. rewrite D0 in X2.
  destruct (R3 (set_temp st1 n (rv (eval S (mvars st) MVal a0)) [])) as (st3 & X3 & D3).
  cbv zeta in X3, D3. rewrite set_temp_same in X3, D3.
  rewrite (getops_set_lo _ n _ _ _ _ (le_S _ _ (le_n _)) Qs), D1 in X3, D3.
  destruct (rscan S o (rv (eval S (mvars st) MVal a0)) (map rv (evals S (mvars st) rest))) as [w ev] eqn:Er.
  do 2 eexists. split; [rewrite eval_EMinMax; cbn [evals map]; cbv zeta; rewrite Er; reflexivity|].
  split; [reflexivity|]. split; [|exact D3]. cbn [rev rlf fst snd] in *.
  refine (exec_snoc (le_n _) (exec_weak n _ X1) (exec_app (le_n _) X2 X3)). lia.
Qed.

Definition chain_res (m : mode) (r tb : nat) (st' : state) (rc : res) : Prop :=
  match m with
  | MVal => temps st' r = rv rc
  | MBool => exists b, temps st' tb = VBool b /\ rv rc = VBool b /\ rk rc = Some b
  end.

Section ChainProof.
(* r and tb are the node's result and truth temps, endl its end label; the operands are evaluated at counters
   from k on *)
Variables (m : mode) (n0 r tb endl k : nat).
Hypotheses (Hr : n0 <= r < k) (Htb : n0 <= tb < k) (Hrt : r <> tb) (Hend : endl < k).

(* what is claimed of the code of a cascade, started with the left operand in ra *)
Definition chain_ok (ops : list op) (es : list expr) (ra : operand) (n : nat) : Prop :=
  exists cc n2, gchain F m r tb endl ra ops es n = (cc, n2) /\ n <= n2 /\ lab_in n n2 cc /\
  forall st, exists st',
    let rc := echain S (mvars st) m (getop st ra) ops es in
    exec n0 (cc ++ [ILabel endl]) st st' (rev rc) (rlf rc) /\ chain_res m r tb st' rc.

Lemma gchain_none ops es ra n : more ops es = false -> chain_ok ops es ra n.
Proof.
  intros M. unfold chain_ok. rewrite gchain_stop by exact M. do 2 eexists. split; [reflexivity|]. split; [lia|].
  split; [destruct m; labs|]. intros st. cbv zeta. rewrite echain_stop by exact M.
  pose proof (exec_move n0 st r ONoneC ltac:(lia)) as X1. destruct m.
  - eexists. split; [exact (exec_snoc0 (le_n _) X1 (exec_label _ _ _)) | apply set_temp_same].
  - destruct (exec_istrue n0 (set_temp st r VNone []) tb ONoneC) as (t & ev & T & X2); [lia|].
    cbn [getop] in *. rewrite T. eexists.
    split; [exact (exec_snoc0 (le_n _) (exec_app (le_n _) X1 X2) (exec_label _ _ _))|].
    exists t. rewrite set_temp_same. auto.
Qed.

Lemma cmp_step o b ra n : gen_ok_at b -> k <= n -> opok ra n ->
  exists cb rb n1, gen F CVal b n = (cb, rb, n1) /\ n <= n1 /\ lab_in n n1 cb /\ opok rb n1 /\ oplo rb k /\
  forall st, exists st1 rr ev1, let vb := eval S (mvars st) MVal b in
    opsem S o [getop st ra; rv vb] = (rr, ev1) /\
    exec n0 (cb ++ [IOp r o [ra; rb]]) st st1 (rev vb ++ ev1) (rlf vb) /\
    temps st1 r = rr /\ getop st1 rb = rv vb /\ mvars st1 = mvars st.
Proof.
  intros Hb Hn Hra. destruct (gen_val b n Hb) as (cb & rb & n1 & -> & A1 & L1 & O1 & Q1 & R1).
  assert (Qb : oplo rb k) by (eapply oplo_weak; eauto).
  exists cb, rb, n1. split; [reflexivity|]. do 4 (split; [assumption|]).
  intros st. destruct (R1 st _ eq_refl) as (st0 & X0 & D0).
  destruct (exec_op n0 st0 r o [ra; rb]) as (rr & ev1 & E & X1); [lia|].
  cbn [map] in E. rewrite (exec_getop ra X0 Hra), D0 in E.
  exists (set_temp st0 r rr ev1), rr, ev1. split; [exact E|].
  split; [refine (exec_snoc (le_n _) (exec_weak n0 _ X0) X1); lia|].
  split; [apply set_temp_same|]. split; [|exact (exec_vars X0)].
  rewrite (getop_set_lo _ _ _ _ k) by (auto; lia). exact D0.
Qed.

Lemma gchain_ok : forall es, Forall gen_ok_at es ->
  forall ops ra n, k <= n -> opok ra n -> chain_ok ops es ra n.
Proof.
  induction 1 as [|b es Hb Hes IH]; intros ops ra n Hn Hra; [apply gchain_none; destruct ops; reflexivity|].
  destruct ops as [|o ops]; [apply gchain_none; reflexivity|].
  unfold chain_ok. rewrite gchain_cons.
  destruct (cmp_step o b ra n Hb Hn Hra) as (cb & rb & n1 & -> & A1 & L1 & O1 & Qb & P). cbv zeta.
  destruct (more ops es) eqn:M.
  - (* another comparison follows: test the result, leave when it is false *)
    destruct (IH ops rb n1 ltac:(lia) O1) as (cc & n2 & -> & A2 & L2 & R2).
    do 2 eexists. split; [reflexivity|]. split; [lia|]. split; [labs|].
    intros st. destruct (P st) as (st1 & rr & ev1 & E & X1 & D & G & V).
    destruct (exec_istrue n0 st1 tb (OTemp r)) as (t & ev2 & T & X2); [lia|]. cbn [getop] in T. rewrite D in T.
    set (st2 := set_temp st1 tb (VBool t) ev2) in *.
    pose proof (set_temp_same st1 tb (VBool t) ev2 : temps st2 tb = VBool t) as Dt.
    pose proof (exec_snoc (le_n _) X1 X2) as X. rewrite <- (app_assoc _ ev1 ev2) in X.
    cbv zeta in *. rewrite echain_cons, M. cbv zeta. rewrite E, T, <- app_assoc. cbn [app].
    destruct t.
    + destruct (R2 st2) as (st3 & X3 & D3). cbv zeta in X3, D3.
      rewrite (getop_set_lo st1 tb _ _ k rb (proj2 Htb) Qb : getop st2 rb = _), G, (V : mvars st2 = _) in X3, D3.
      exists st3. cbn [rv rk rev rlf]. split; [|destruct m; exact D3].
      pose proof (exec_app (le_n _) X (exec_jump_no endl Dt X3)) as Y.
      rewrite <- !app_assoc in Y. rewrite <- !app_assoc. exact Y.
    + (* the comparison that fails gives the result of the cascade *)
      exists st2. cbn [rv rk rev rlf]. split.
      * refine (exec_snoc0 (le_n _) X (exec_jump_yes n0 Dt _)). eapply lab_in_not; [exact L2 | lia].
      * destruct m; [|exists false; auto].
        rewrite <- D. apply (getop_set_other st1 tb (VBool false) ev2 (OTemp r)). congruence.
  - (* the last comparison: its result, tested if a truth value is wanted *)
    destruct m; do 2 eexists; (split; [reflexivity|]); (split; [lia|]); (split; [labs|]);
      intros st; destruct (P st) as (st1 & rr & ev1 & E & X1 & D & _);
      cbv zeta in *; rewrite echain_cons, M; cbv zeta; rewrite E.
    + exists st1. split; [exact (exec_snoc0 (le_n _) X1 (exec_label _ _ _)) | exact D].
    + destruct (exec_istrue n0 st1 tb (OTemp r)) as (t & ev2 & T & X2); [lia|]. cbn [getop] in T. rewrite D in T.
      rewrite T. eexists. split; [|exists t; rewrite set_temp_same; auto].
      rewrite app_assoc. exact (exec_snoc0 (le_n _) (exec_snoc (le_n _) X1 X2) (exec_label _ _ _)).
Qed.
End ChainProof.

Lemma echain_rk_val vars : forall es va ops, rk (echain S vars MVal va ops es) = None.
Proof.
  induction es as [|b es IH]; intros va ops; destruct ops as [|o ops]; try reflexivity.
  rewrite echain_cons. cbv zeta. destruct (opsem S o _) as [r ev1].
  destruct (more ops es); [|reflexivity]. destruct (truthsem S r) as [[] ev2]; cbn [rk]; auto.
Qed.

Lemma gen_cmp a ops rest : gen_ok_at a -> Forall gen_ok_at rest -> gen_ok_at (ECmp a ops rest).
Proof.
  intros Ha Hrest c n W. rewrite gen_ECmp. cbv zeta.
  destruct (gen_val a (Datatypes.S (Datatypes.S (Datatypes.S n))) Ha) as (ca & ra & n1 & -> & A1 & L1 & O1 & Q1 & R1).
  destruct (gchain_ok (mode_of c) n n (Datatypes.S n) (Datatypes.S (Datatypes.S n)) (Datatypes.S (Datatypes.S (Datatypes.S n)))
              ltac:(lia) ltac:(lia) ltac:(lia) ltac:(lia) rest Hrest ops ra n1 A1 O1) as (cc & n2 & -> & A2 & L2 & R2).
  assert (Run : forall st, exists st',
            let ra' := eval S (mvars st) MVal a in
            let rc := echain S (mvars st) (mode_of c) (rv ra') ops rest in
            exec n (ca ++ cc ++ [ILabel (Datatypes.S (Datatypes.S n))]) st st' (rev ra' ++ rev rc) (rlf ra' ++ rlf rc) /\
            chain_res (mode_of c) n (Datatypes.S n) st' rc).
  { intros st. destruct (R1 st _ eq_refl) as (st1 & X1 & D1). destruct (R2 st1) as (st2 & X2 & D2).
    cbv zeta in X2, D2. rewrite D1, (exec_vars X1) in X2, D2. exists st2. split; [|exact D2].
    refine (exec_app (le_n _) (exec_weak n _ X1) X2). lia. }
  destruct (mode_of c) eqn:M.
  - apply finish_ok; [exact W | lia | labs | simpl; lia | simpl; lia|].
    intros st. destruct (Run st) as (st' & X & D). rewrite M. do 2 eexists.
    split; [rewrite eval_ECmp; reflexivity|]. split; [apply echain_rk_val|]. split; [exact X | exact D].
  - apply finish_bool_ok; [exact W | lia | labs | lia|].
    intros st. destruct (Run st) as (st' & X & (bb & D1 & D2 & D3)). exists bb, st'.
    cbv zeta. rewrite eval_ECmp. cbn [rv rk rev rlf]. auto.
Qed.

Definition select (es : list expr) (ps : list nat) : list expr := map (fun p => nth p es ENone) ps.

Lemma nth_gfs es : forall p n,
  nth p (map (gen F CVal) es) (fun n => ([], ONoneC, n)) n = gen F CVal (nth p es ENone) n.
Proof. induction es as [|e es IH]; intros [|p] n; simpl; auto. Qed.

Lemma gen_sel_gens es : forall ps n, gen_sel (map (gen F CVal) es) ps n = gens F (select es ps) n.
Proof.
  induction ps as [|p ps IH]; intros n; simpl; [reflexivity|].
  rewrite nth_gfs. destruct (gen F CVal (nth p es ENone) n) as [[c1 r1] n1]. rewrite IH. reflexivity.
Qed.

Lemma select_ok es ps : Forall gen_ok_at es -> Forall gen_ok_at (select es ps).
Proof.
  intros H. unfold select. apply Forall_forall. intros e He. apply in_map_iff in He.
  destruct He as (p & <- & _). destruct (Nat.lt_ge_cases p (length es)) as [L|L].
  - rewrite Forall_forall in H. apply H. apply nth_In. auto.
  - rewrite nth_overflow by auto. apply gen_none.
Qed.

Lemma select_all es : select es (seq 0 (length es)) = es.
Proof.
  enough (G : forall es0, map (fun p => nth p (es0 ++ es) ENone) (seq (length es0) (length es)) = es)
    by exact (G []).
  induction es as [|x r IH]; intros es0; simpl; [reflexivity|].
  rewrite nth_middle. f_equal. specialize (IH (es0 ++ [x])).
  rewrite <- app_assoc, app_length, Nat.add_1_r in IH. exact IH.
Qed.

Lemma evals_map vars es : evals S vars es = map (eval S vars MVal) es.
Proof. induction es; simpl; congruence. Qed.

Lemma tsimple_silent vars e : tsimple e = true ->
  rev (eval S vars MVal e) = [] /\ rlf (eval S vars MVal e) = [].
Proof. destruct e; try discriminate; intros _; split; reflexivity. Qed.

(* f = the events or the leaves of a result: evaluating the arguments at the positions ps, which list the
   arguments that are not names or None in call order, yields what evaluating all arguments in call order yields *)
Lemma sel_order {X} (f : res -> list X) vars es ps :
  (forall e, tsimple e = true -> f (eval S vars MVal e) = []) ->
  filter (fun p => negb (tsimple (nth p es ENone))) ps
    = filter (fun p => negb (tsimple (nth p es ENone))) (seq 0 (length es)) ->
  flat_map f (evals S vars (select es ps)) = flat_map f (evals S vars es).
Proof.
  intros Hs Hord.
  assert (Sil : forall qs, flat_map f (evals S vars (select es qs))
                  = flat_map f (evals S vars (select es (filter (fun p => negb (tsimple (nth p es ENone))) qs)))).
  { induction qs as [|q qs IH]; simpl; [reflexivity|].
    destruct (tsimple (nth q es ENone)) eqn:T; simpl; [rewrite Hs by exact T | rewrite IH]; auto. }
  rewrite Sil, Hord, <- Sil, select_all. reflexivity.
Qed.

Lemma nth_vals vars es q :
  nth q (map rv (evals S vars es)) VNone = rv (eval S vars MVal (nth q es ENone)).
Proof.
  rewrite evals_map, map_map.
  change VNone with ((fun e => rv (eval S vars MVal e)) ENone).
  apply map_nth.
Qed.

Lemma lookup_val st (f : nat -> val) : forall ks ops,
  map (getop st) ops = map f ks -> forall p, In p ks -> getop st (lookup p (combine ks ops)) = f p.
Proof.
  induction ks as [|k ks IH]; intros ops H p Hp; [destruct Hp|].
  destruct ops as [|o ops]; [discriminate|]. simpl in H. injection H as H1 H2. simpl.
  destruct (Nat.eqb_spec k p) as [->|Hn]; [exact H1|].
  apply IH; auto. destruct Hp; [contradiction | auto].
Qed.

(* the layout with the receiver first *)
Definition cc_code1 (c : ctx) (o : op) (grecv : nat -> gres) (gfs : list (nat -> gres))
    (temps args : list nat) (n : nat) : gres :=
  let inplace := filter (fun p => negb (memb p temps)) args in
  let '(c0, r0, n0) := grecv n in
  let '(c1, trs, n1) := gen_sel gfs temps n0 in
  let '(c2, irs, n2) := gen_sel gfs inplace n1 in
  let env := combine (temps ++ inplace) (trs ++ irs) in
  finish c (c0 ++ c1 ++ c2 ++ [IOp n2 o (r0 :: map (fun p => lookup p env) args)], OTemp n2, Datatypes.S n2).

Lemma cc_code1_ok c o nreq ndecl recv npos names es temps n :
  let slots := ref_slots npos names ndecl 0 in
  wfctx c n -> gen_ok_at recv -> Forall gen_ok_at es ->
  filter (fun p => negb (tsimple (nth p es ENone))) (cc_order temps slots)
    = filter (fun p => negb (tsimple (nth p es ENone))) (seq 0 (length es)) ->
  (forall p, In p slots -> In p (cc_order temps slots)) ->
  specR c (fun vars => eval S vars (mode_of c) (ECCall o nreq ndecl recv npos names es)) n
        (cc_code1 c o (gen F CVal recv) (map (gen F CVal) es) temps slots n).
Proof.
  intros slots W Hrecv Hes Hord Hin. unfold cc_code1, cc_order in *. cbv zeta.
  set (inplace := filter (fun p => negb (memb p temps)) slots) in *.
  destruct (gen_val recv n Hrecv) as (c0 & r0 & n0 & -> & A0 & L0 & O0 & Q0 & R0).
  rewrite gen_sel_gens.
  destruct (gens_ok _ (select_ok es temps Hes) n0) as (c1 & trs & n1 & -> & A1 & L1 & O1 & Q1 & R1).
  rewrite gen_sel_gens.
  destruct (gens_ok _ (select_ok es inplace Hes) n1) as (c2 & irs & n2 & -> & A2 & L2 & O2 & Q2 & R2).
  apply finish_ok; [exact W | lia | labs | simpl; lia | simpl; lia|].
  intros st. set (vars := mvars st).
  destruct (R0 st vars eq_refl) as (st0 & X0 & D0).
  destruct (R1 st0 vars (exec_vars X0)) as (st1 & X1 & D1).
  destruct (R2 st1 vars (eq_trans (exec_vars X1) (exec_vars X0))) as (st2 & X2 & D2). cbv zeta in *.
  (* the operand values at the call *)
  destruct (exec_op n2 st2 n2 o (r0 :: map (fun p => lookup p (combine (temps ++ inplace) (trs ++ irs))) slots) (le_n _))
    as (v & ev & E & X3).
  assert (G : map (getop st2) (trs ++ irs) = map (fun p => rv (eval S vars MVal (nth p es ENone))) (temps ++ inplace)).
  { rewrite !map_app, (exec_getops trs X2 O1), D1, D2. unfold select. rewrite !evals_map, !map_map. reflexivity. }
  cbn [map] in E. rewrite (exec_getop r0 X2 (opok_weak _ _ _ O0 A1)), (exec_getop r0 X1 O0), D0, map_map in E.
  rewrite (map_ext_in _ (fun q => nth q (map rv (evals S vars es)) VNone)) in E
    by (intros q Hq; rewrite nth_vals; apply (lookup_val st2 _ _ _ G), Hin, Hq).
  do 2 eexists. split; [rewrite eval_ECCall; cbv zeta; fold vars slots; rewrite E; reflexivity|].
  split; [reflexivity|]. split; [|apply set_temp_same]. cbn [rev rlf].
  (* the events and leaves: temps, then the arguments left in place *)
  assert (Ord : forall X (f : res -> list X), (forall e, tsimple e = true -> f (eval S vars MVal e) = []) ->
            flat_map f (evals S vars (select es temps)) ++ flat_map f (evals S vars (select es inplace))
            = flat_map f (evals S vars es)).
  { intros X f Hf. rewrite <- (sel_order f vars es (temps ++ inplace) Hf Hord).
    unfold select. rewrite !evals_map, !map_app, flat_map_app. reflexivity. }
  pose proof (exec_app A0 X0 (exec_app A1 X1 (exec_snoc A2 X2 X3))) as Y.
  unfold flat_ev, flat_lf in *. rewrite !app_assoc in Y.
  rewrite <- (app_assoc (rev _)), <- (app_assoc (rlf _)), (Ord _ rev), (Ord _ rlf), <- !app_assoc in Y;
    try (intros e T; apply tsimple_silent; exact T).
  exact Y.
Qed.

(* the layout of the tree as it is (temps, receiver, arguments left in place) is the same code when the
   receiver is a name or there are no temps *)
Lemma ccall_code_eq c o nreq ndecl recv npos names simple gfs n temps args :
  ccmap (cc_sorted F) (fx_cckeep F) npos ndecl names simple = CMOk temps args -> nreq <= length args ->
  fx_ccrecv F = true \/ tsimple recv = true \/ temps = [] ->
  ccall_code F c o nreq ndecl (gen F CVal recv) npos names simple gfs n
  = cc_code1 c o (gen F CVal recv) gfs temps args n.
Proof.
  intros M Hreq H. unfold ccall_code, cc_code1. rewrite M.
  destruct (Nat.ltb_spec (length args) nreq); [lia|].
  destruct (fx_ccrecv F); [reflexivity|]. destruct H as [H|[H|H]]; [discriminate| |].
  - destruct recv; try discriminate; simpl;
      destruct (gen_sel gfs temps n) as [[c1 trs] n1];
      destruct (gen_sel gfs _ n1) as [[c2 irs] n2]; rewrite ?app_nil_r; reflexivity.
  - subst temps. simpl. destruct (gen F CVal recv n) as [[c0 r0] n0].
    destruct (gen_sel gfs _ n0) as [[c2 irs] n2]. reflexivity.
Qed.

Lemma forallb_seq (f : nat -> bool) a n : forallb f (seq a n) = true -> forall p, a <= p < a + n -> f p = true.
Proof. intros H p Hp. rewrite forallb_forall in H. apply H. apply in_seq. auto. Qed.

(* for a covered call the mapping yields the declared binding as argument list, and an order of evaluation that
   visits the arguments other than names and None in call order *)
Lemma ccok_map nreq ndecl recv npos names es :
  ccok F nreq ndecl recv npos names es = true ->
  let slots := ref_slots npos names ndecl 0 in
  let ts := fun p => tsimple (nth p es ENone) in
  exists temps,
    ccmap (cc_sorted F) (fx_cckeep F) npos ndecl names (fun p => csimple F (nth p es ENone)) = CMOk temps slots /\
    filter (nonsimple ts) (cc_order temps slots) = filter (nonsimple ts) (seq 0 (length es)) /\
    (forall p, In p slots -> In p (cc_order temps slots)) /\ nreq <= length slots /\
    (fx_ccrecv F = true \/ tsimple recv = true \/ temps = []).
Proof.
  unfold ccok. cbv zeta.
  set (simple := fun p => csimple F (nth p es ENone)). set (ts := fun p => tsimple (nth p es ENone)).
  intros [[[[[[Hlen Kwf]%andb_prop Ksort]%andb_prop Kreq]%andb_prop Kkeep]%andb_prop Ksimple]%andb_prop Krecv]%andb_prop.
  apply Nat.eqb_eq in Hlen. apply Nat.leb_le in Kreq. rewrite Ksort in *.
  destruct (ccmap_ok_finer (fx_cckeep F) npos ndecl names simple ts Kwf) as (temps & E1 & E2 & E4).
  - apply orb_prop in Kkeep. destruct Kkeep as [[Kk|Kk]%orb_prop|Kk]; [auto | right; left | right; right];
      intros p Hp; apply (forallb_seq _ _ _ Kk); lia.
  - apply orb_prop in Ksimple. destruct Ksimple as [Ks|Ks]; [left | right; apply Nat.leb_le, Ks].
    intros p. unfold simple, ts.
    destruct (Nat.lt_ge_cases p (length es)) as [L|L]; [|rewrite nth_overflow by auto; reflexivity].
    rewrite forallb_forall in Ks. specialize (Ks _ (nth_In es ENone L)). intros Cs. rewrite Cs in Ks. exact Ks.
  - exists temps. rewrite Hlen. split; [exact E1|]. split; [exact E2|].
    split; [intros p Hp; apply E4, (slots_In npos ndecl names Kwf), Hp|].
    split; [rewrite (slots_length npos ndecl names Kwf); exact Kreq|].
    apply orb_prop in Krecv. destruct Krecv as [[Kr|Kr]%orb_prop|Kr]; auto.
    right; right. rewrite E1 in Kr. destruct temps; [reflexivity | discriminate].
Qed.

Lemma gen_ccall o nreq ndecl recv npos names es :
  ccok F nreq ndecl recv npos names es = true ->
  gen_ok_at recv -> Forall gen_ok_at es -> gen_ok_at (ECCall o nreq ndecl recv npos names es).
Proof.
  intros Hok Hrecv Hes c n W. destruct (ccok_map _ _ _ _ _ _ Hok) as (temps & M1 & M2 & M3 & M4 & M5).
  rewrite gen_ECCall, (ccall_code_eq _ _ _ _ _ _ _ _ _ _ _ _ M1 M4 M5). apply cc_code1_ok; auto.
Qed.

Section ExprInd.
Variable P : expr -> Prop.
Hypothesis HLeaf : forall kind k, P (ELeaf kind k).
Hypothesis HName : forall x, P (EName x).
Hypothesis HNone : P ENone.
Hypothesis HOp : forall o es, Forall P es -> P (EOp o es).
Hypothesis HNot : forall a, P a -> P (ENot a).
Hypothesis HAnd : forall a b, P a -> P b -> P (EAnd a b).
Hypothesis HOr : forall a b, P a -> P b -> P (EOr a b).
Hypothesis HCond : forall c a b, P c -> P a -> P b -> P (ECond c a b).
Hypothesis HCmp : forall a ops rest, P a -> Forall P rest -> P (ECmp a ops rest).
Hypothesis HMCall : forall m o obj args, P obj -> Forall P args -> P (EMCall m o obj args).
Hypothesis HMinMax : forall o args, Forall P args -> P (EMinMax o args).
Hypothesis HCCall : forall o nreq ndecl recv npos names es, P recv -> Forall P es ->
  P (ECCall o nreq ndecl recv npos names es).

Fixpoint expr_ind' (e : expr) : P e :=
  let go := fix go (l : list expr) : Forall P l :=
      match l with [] => Forall_nil P | x :: xs => Forall_cons x (expr_ind' x) (go xs) end in
  match e with
  | ELeaf kind k => HLeaf kind k
  | EName x => HName x
  | ENone => HNone
  | EOp o es => HOp o es (go es)
  | ENot a => HNot a (expr_ind' a)
  | EAnd a b => HAnd a b (expr_ind' a) (expr_ind' b)
  | EOr a b => HOr a b (expr_ind' a) (expr_ind' b)
  | ECond c a b => HCond c a b (expr_ind' c) (expr_ind' a) (expr_ind' b)
  | ECmp a ops rest => HCmp a ops rest (expr_ind' a) (go rest)
  | EMCall m o obj args => HMCall m o obj args (expr_ind' obj) (go args)
  | EMinMax o args => HMinMax o args (go args)
  | ECCall o nreq ndecl recv npos names es => HCCall o nreq ndecl recv npos names es (expr_ind' recv) (go es)
  end.
End ExprInd.

(* the expression contains a min/max or method-call node only if the corresponding repair is on, and only C calls
   that are covered (ccok) *)
Fixpoint eok (e : expr) : bool :=
  match e with
  | ELeaf _ _ | EName _ | ENone => true
  | EOp _ es => forallb eok es
  | ENot a => eok a
  | EAnd a b | EOr a b => eok a && eok b
  | ECond c a b => eok c && eok a && eok b
  | ECmp a _ rest => eok a && forallb eok rest
  | EMCall _ _ obj args => fx_mcall F && eok obj && forallb eok args
  | EMinMax _ args => fx_minmax F && forallb eok args
  | ECCall _ nreq ndecl recv npos names es =>
      eok recv && forallb eok es && ccok F nreq ndecl recv npos names es
  end.

Lemma forall_ok es : Forall (fun e => eok e = true -> gen_ok_at e) es -> forallb eok es = true -> Forall gen_ok_at es.
Proof.
  induction 1 as [|e es He Hes IH]; simpl; intros H; constructor;
    apply andb_true_iff in H; destruct H; auto.
Qed.

Theorem gen_correct : forall e, eok e = true -> gen_ok_at e.
Proof.
  intros e. induction e as [kind k|x| |o es IHes|a IHa|a b IHa IHb|a b IHa IHb|c a b IHc IHa IHb
                           |a ops rest IHa IHrest|m o obj args IHobj IHargs|o args IHargs
                           |o nreq ndecl recv npos names es IHrecv IHes] using expr_ind';
    simpl; rewrite ?andb_true_iff; intros Hok.
  - apply gen_leaf.
  - apply gen_name.
  - apply gen_none.
  - apply gen_op. apply forall_ok; auto.
  - apply gen_not; auto.
  - apply (gen_conn true); tauto.
  - apply (gen_conn false); tauto.
  - apply gen_cond; tauto.
  - apply gen_cmp; [|apply forall_ok]; tauto.
  - apply gen_mcall; [| |apply forall_ok]; tauto.
  - apply gen_minmax; [|apply forall_ok]; tauto.
  - apply gen_ccall; [| |apply forall_ok]; tauto.
Qed.

Lemma eoks_ok es : forallb eok es = true -> Forall gen_ok_at es.
Proof. apply forall_ok, Forall_forall. intros e _. apply gen_correct. Qed.

Theorem gen_expr_correct : forall e n st, eok e = true ->
  let '(code, ro, n') := gen F CVal e n in
  let r := eval S (mvars st) MVal e in
  exists st', run S code st Normal = (st', Normal) /\
    mvars st' = mvars st /\ trace st' = trace st ++ rev r /\ leaflog st' = leaflog st ++ rlf r /\
    getop st' ro = rv r /\ (forall t, t < n -> temps st' t = temps st t).
Proof.
  intros e n st H. pose proof (gen_correct e H CVal n I) as G.
  destruct (gen F CVal e n) as [[code ro] n']. destruct G as (A & L & O & Q & _ & R).
  destruct (R st) as (st' & B & (C1 & C2 & C3 & C4) & D). exists st'. simpl in *.
  repeat split; auto. intros t Ht. apply C4; auto. discriminate.
Qed.

End Proofs.

(* findings: the tree as it is deviates from the reference (witnesses on std_sem) *)
Definition asis : flags := mk_flags false false false false.
Definition repaired : flags := mk_flags true true true true.
Definition rvar : nat := 3.

Definition trace_of (Fl : flags) (s : stmt) : list event := trace (fst (run_stmt Fl s)).
Definition vars_of (Fl : flags) (s : stmt) : list val := map (mvars (fst (run_stmt Fl s))) [3; 0; 1; 2].
Definition ref_vars (s : stmt) : list val := map (svars (ref_run s)) [3; 0; 1; 2].

(* r = min(T(1), F(2), T(3)) *)
Definition w_minmax : stmt :=
  SAssign [TS (TName rvar)] (EMinMax (OLog 0) [ELeaf 0 1; ELeaf 1 2; ELeaf 0 3]).
(* r = T(1).m(T(2)) *)
Definition w_mcall : stmt :=
  SAssign [TS (TName rvar)] (EMCall 7 (OLog 1) (ELeaf 0 1) [ELeaf 0 2]).
(* T(1).a.b += T(2) *)
Definition w_inplace : stmt :=
  SAug (EOp (OGetAttr 1) [EOp (OGetAttr 0) [ELeaf 0 1]]) (OLog 2) (ELeaf 0 2).
(* (T(1)[T(2)], T(3)[T(4)]) = (T(5).a, T(6).a) = (T(7), T(8)) *)
Definition w_cascade : stmt :=
  SAssign [TTup [TStore OSetItem [ELeaf 0 1; ELeaf 0 2]; TStore OSetItem [ELeaf 0 3; ELeaf 0 4]];
           TTup [TStore (OSetAttr 0) [ELeaf 0 5]; TStore (OSetAttr 0) [ELeaf 0 6]]]
          (EOp (OSeq 0) [ELeaf 0 7; ELeaf 0 8]).

Lemma minmax_refuted_w : trace_of (mk_flags false true true true) w_minmax <> sev (ref_run w_minmax).
Proof. vm_compute. discriminate. Qed.
Lemma minmax_repaired_w : trace_of repaired w_minmax = sev (ref_run w_minmax) /\ vars_of repaired w_minmax = ref_vars w_minmax.
Proof. vm_compute. auto. Qed.
Lemma mcall_refuted_w : trace_of (mk_flags true false true true) w_mcall <> sev (ref_run w_mcall).
Proof. vm_compute. discriminate. Qed.
Lemma inplace_refuted_w : trace_of (mk_flags true true false true) w_inplace <> sev (ref_run w_inplace).
Proof. vm_compute. discriminate. Qed.
Lemma inplace_repaired_w : trace_of repaired w_inplace = sev (ref_run w_inplace).
Proof. vm_compute. reflexivity. Qed.
Lemma cascade_refuted_w : trace_of (mk_flags true true true false) w_cascade <> sev (ref_run w_cascade).
Proof. vm_compute. discriminate. Qed.
Lemma cascade_repaired_w : trace_of repaired w_cascade = sev (ref_run w_cascade).
Proof. vm_compute. reflexivity. Qed.

(* ConstantFolding._handle_NotNode without its test "operand.cascade is None" turns  not (a not in b < c)  into
   a in b < c : different meaning *)
Definition w_notflip_src : expr := ENot (ECmp (ELeaf 1 3) [OIn true; OLog 0] [ELeaf 1 4; ELeaf 0 5]).
Definition w_notflip_dst : expr := ECmp (ELeaf 1 3) [OIn false; OLog 0] [ELeaf 1 4; ELeaf 0 5].
Lemma notflip_refuted_w :
  rev (eval std_sem init_vars MVal w_notflip_src) <> rev (eval std_sem init_vars MVal w_notflip_dst) /\
  rv (eval std_sem init_vars MVal w_notflip_src) <> rv (eval std_sem init_vars MVal w_notflip_dst).
Proof. vm_compute. split; discriminate. Qed.

(* non-vacuity: a statement with a store target, a conditional, and/or, not, a cascade, a method call and min/max
   on which the repaired generator agrees with the reference *)
Definition w_big : stmt :=
  SAssign [TS (TStore OSetItem [ELeaf 0 20; EName 0]); TS (TName 1)]
    (ECond (EOr (ENot (ELeaf 1 1)) (ELeaf 0 2))
           (EAnd (ECmp (ELeaf 0 3) [OLog 0; OIn false; OLog 1] [ELeaf 0 4; ELeaf 0 5; ELeaf 1 6])
                 (EMCall 7 (OLog 2) (ELeaf 0 7) [EMinMax (OLog 0) [ELeaf 0 8; ELeaf 1 9; ELeaf 0 10]]))
           (ELeaf 0 11)).
Lemma big_agrees : trace_of repaired w_big = sev (ref_run w_big) /\ vars_of repaired w_big = ref_vars w_big
  /\ 10 <= length (trace_of repaired w_big).
Proof. vm_compute. repeat split; auto; repeat constructor. Qed.
