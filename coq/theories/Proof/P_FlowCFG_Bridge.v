(* C21 - from positions reached in the built graph (P_FlowCFG_Sim.P) to the hints computed by
   check_definitions (M_Flow.analyse on M_FlowCFG.cfg_of): a reference reached with its entry unbound
   is never classified "definitely bound". *)
From Coq Require Import NArith List Bool Arith Lia.
From CyVerif Require Import Model.M_Flow Model.M_FlowCFG Proof.P_Flow Proof.P_FlowCFG Proof.P_FlowCFG_Sim.
Import ListNotations.

(* ------------------------------------------------------------------ numbering of the definitions *)
Lemma number_stats_fst : forall ss next, map fst (fst (number_stats next ss)) = ss.
Proof.
  induction ss as [|s r IH]; intros next; simpl; auto.
  destruct (is_def s).
  - specialize (IH (S next)). destruct (number_stats (S next) r) as [l n]. simpl in *. now rewrite IH.
  - specialize (IH next). destruct (number_stats next r) as [l n]. simpl in *. now rewrite IH.
Qed.

Lemma number_stats_bounds : forall ss next,
  next <= snd (number_stats next ss) /\
  forall p, In p (fst (number_stats next ss)) -> is_def (fst p) = true ->
            next <= snd p < snd (number_stats next ss).
Proof.
  induction ss as [|s r IH]; intros next; simpl.
  - split; auto. intros p [].
  - destruct (is_def s) eqn:Ds.
    + destruct (IH (S next)) as [A B]. destruct (number_stats (S next) r) as [l n]. simpl in *.
      split; [lia|]. intros p [<-|Hp] Hd; simpl; [lia|]. specialize (B p Hp Hd). lia.
    + destruct (IH next) as [A B]. destruct (number_stats next r) as [l n]. simpl in *.
      split; [lia|]. intros p [<-|Hp] Hd; simpl in *; [congruence|]. apply B; auto.
Qed.

Lemma number_blocks_mono : forall bs start, start <= snd (number_blocks start bs).
Proof.
  induction bs as [|b r IH]; intros start; simpl; auto.
  pose proof (number_stats_bounds (b_stats b) start) as [A _].
  destruct (number_stats start (b_stats b)) as [ns n1]. specialize (IH n1).
  destruct (number_blocks n1 r) as [l n2]. simpl in *. lia.
Qed.

Lemma number_blocks_nth : forall bs start i blk, nth_error bs i = Some blk ->
  exists next, start <= next /\ next <= snd (number_blocks start bs) /\
    nth i (fst (number_blocks start bs)) [] = fst (number_stats next (b_stats blk)) /\
    snd (number_stats next (b_stats blk)) <= snd (number_blocks start bs).
Proof.
  induction bs as [|b r IH]; intros start i blk Hn; [destruct i; discriminate|].
  simpl. pose proof (number_stats_bounds (b_stats b) start) as [A _].
  destruct (number_stats start (b_stats b)) as [ns n1] eqn:E1. simpl in A.
  destruct i as [|i]; simpl in Hn.
  - inversion Hn; subst. exists start.
    destruct (number_blocks n1 r) as [l n2] eqn:E2. simpl. rewrite E1. simpl.
    pose proof (number_blocks_mono r n1) as Hm. rewrite E2 in Hm. simpl in Hm.
    repeat split; auto; lia.
  - destruct (IH n1 i blk Hn) as (next & H1 & H2 & H3 & H4).
    destruct (number_blocks n1 r) as [l n2]. simpl in *. exists next. repeat split; auto; lia.
Qed.

Lemma number_blocks_len : forall bs start, length (fst (number_blocks start bs)) = length bs.
Proof.
  induction bs as [|b r IH]; intros start; simpl; auto.
  destruct (number_stats start (b_stats b)) as [ns n1]. specialize (IH n1).
  destruct (number_blocks n1 r) as [l n2]. simpl in *. now rewrite IH.
Qed.

Lemma number_blocks_all : forall bs start p,
  In p (concat (fst (number_blocks start bs))) -> is_def (fst p) = true ->
  start <= snd p < snd (number_blocks start bs).
Proof.
  induction bs as [|b r IH]; intros start p Hp Hd; simpl in *; [contradiction|].
  pose proof (number_stats_bounds (b_stats b) start) as [A B].
  destruct (number_stats start (b_stats b)) as [ns n1]. specialize (IH n1 p).
  pose proof (number_blocks_mono r n1).
  destruct (number_blocks n1 r) as [l n2]. simpl in *.
  apply in_app_or in Hp. destruct Hp as [Hp|Hp].
  - specialize (B p Hp Hd). lia.
  - specialize (IH Hp Hd). lia.
Qed.

Lemma number_blocks_in : forall bs start ns, In ns (fst (number_blocks start bs)) ->
  exists blk, In blk bs /\ map fst ns = b_stats blk.
Proof.
  induction bs as [|b r IH]; intros start ns H; simpl in *; [contradiction|].
  pose proof (number_stats_fst (b_stats b) start) as F.
  destruct (number_stats start (b_stats b)) as [ns1 n1]. specialize (IH n1 ns).
  destruct (number_blocks n1 r) as [l n2]. simpl in *. destruct H as [<-|H].
  - exists b. split; auto.
  - destruct (IH H) as (blk & Hb & Hm). exists blk. split; auto.
Qed.

(* ------------------------------------------------------------------ Uninitialized bits *)
Lemma tb_bitN_nat j k : N.testbit (bitN j) (N.of_nat k) = (j =? k).
Proof.
  rewrite tb_bitN. destruct (Nat.eqb_spec j k) as [->|H].
  - apply N.eqb_refl. - apply N.eqb_neq. lia.
Qed.

(* the mask of an entry contains no Uninitialized bit but its own *)
Lemma mask_uninit all ne e e' : e < ne ->
  (forall p, In p all -> is_def (fst p) = true -> ne <= snd p) ->
  N.testbit (mask_of all e') (N.of_nat e) = (e' =? e).
Proof.
  intros He Hall. unfold mask_of.
  assert (G : forall l init, (forall p, In p l -> is_def (fst p) = true -> ne <= snd p) ->
    N.testbit (fold_left (fun acc p => if is_def (fst p) && (stat_entry (fst p) =? e')
                                       then N.lor acc (bitN (snd p)) else acc) l init) (N.of_nat e)
    = N.testbit init (N.of_nat e)).
  { induction l as [|p l IH]; intros init Hl; simpl; auto.
    rewrite IH by (intros; apply Hl; simpl; auto).
    destruct (is_def (fst p)) eqn:D; simpl; auto. destruct (stat_entry (fst p) =? e'); auto.
    rewrite N.lor_spec, tb_bitN_nat.
    assert (ne <= snd p) by (apply Hl; simpl; auto).
    destruct (Nat.eqb_spec (snd p) e); [lia|]. apply orb_false_r. }
  rewrite G by auto. apply tb_bitN_nat.
Qed.

(* the last definition of entry e in a block: Some None = deleted, Some (Some k) = assignment k *)
Fixpoint last_def (ns : list (stat * nat)) (e : nat) : option (option nat) :=
  match ns with
  | [] => None
  | (s, k) :: r =>
      match last_def r e with
      | Some v => Some v
      | None => match s with
                | SAssign e' => if e' =? e then Some (Some k) else None
                | SDel e' => if e' =? e then Some None else None
                | SRef _ => None
                end
      end
  end.

Lemma in_dict_set e v d e' v' :
  In (e', v') (dict_set e v d) <-> if e =? e' then v' = v else In (e', v') d.
Proof.
  unfold dict_set. simpl. rewrite filter_In, (Nat.eqb_sym e e'). simpl. destruct (Nat.eqb_spec e' e) as [->|Hne]; simpl; split.
  - intros [H|[_ H]]; [now inversion H|discriminate].
  - intros ->. now left.
  - intros [H|[H _]]; [inversion H; congruence|exact H].
  - auto.
Qed.

(* an entry keeps the last definition the block gives it; one the block does not define keeps what it had *)
Lemma in_gen_dict : forall ns d e v,
  In (e, v) (gen_dict ns d) <-> match last_def ns e with Some w => v = w | None => In (e, v) d end.
Proof.
  induction ns as [|[s k] r IH]; intros d e v; simpl; [reflexivity|].
  destruct s as [e'|e'|e']; rewrite IH; destruct (last_def r e) as [w|]; try reflexivity.
  - rewrite in_dict_set. destruct (e' =? e); reflexivity.
  - rewrite in_dict_set. destruct (e' =? e); reflexivity.
Qed.

Lemma in_gen_block ns e v : In (e, v) (gen_dict ns []) <-> last_def ns e = Some v.
Proof. rewrite in_gen_dict. destruct (last_def ns e) as [w|]; simpl; intuition congruence. Qed.

Lemma last_def_in_del : forall ns e, last_def ns e = Some None -> exists k, In (SDel e, k) ns.
Proof.
  induction ns as [|[s k'] r IH]; intros e H; simpl in *; [discriminate|].
  destruct (last_def r e) as [w|] eqn:E.
  - inversion H; subst. destruct (IH e E) as [k Hk]. exists k. now right.
  - destruct s as [e'|e'|e']; try discriminate.
    + destruct (e' =? e); discriminate.
    + destruct (Nat.eqb_spec e' e); [|discriminate]. subst. exists k'. now left.
Qed.

Lemma last_def_in : forall ns e k, last_def ns e = Some (Some k) -> In (SAssign e, k) ns.
Proof.
  induction ns as [|[s k'] r IH]; intros e k H; simpl in *; [discriminate|].
  destruct (last_def r e) as [w|] eqn:E.
  - inversion H; subst. right. apply IH; auto.
  - destruct s as [e'|e'|e']; try discriminate.
    + destruct (Nat.eqb_spec e' e); [|discriminate]. inversion H; subst. left; reflexivity.
    + destruct (e' =? e); discriminate.
Qed.

(* the bits a block generates: the Uninitialized bit of an entry it deletes last, the number of an
   assignment that is the last definition of its entry *)
Lemma tb_gen_block ns k : N.testbit (gen_bits (gen_dict ns [])) k = true <->
  exists e, last_def ns e = Some None /\ k = N.of_nat e \/
            exists j, last_def ns e = Some (Some j) /\ k = N.of_nat j.
Proof.
  unfold gen_bits.
  rewrite (tb_fold_lor (fun p => match snd p with None => bitN (fst p) | Some k => bitN k end)).
  rewrite N.bits_0, orb_false_l, existsb_exists. split.
  - intros ([e v] & Hin & Ht). apply in_gen_block in Hin.
    exists e. destruct v as [j|]; cbn [snd fst] in Ht; rewrite tb_bitN in Ht; apply N.eqb_eq in Ht; eauto.
  - intros (e & [(H & ->)|(j & H & ->)]); [exists (e, None)|exists (e, Some j)];
      (split; [now apply in_gen_block|cbn [snd fst]; rewrite tb_bitN; apply N.eqb_refl]).
Qed.

Lemma tb_kill_block mask ns k : N.testbit (kill_bits mask (gen_dict ns []) []) k = true <->
  exists e v, last_def ns e = Some v /\ N.testbit (mask e) k = true.
Proof.
  unfold kill_bits. simpl. rewrite (tb_fold_lor (fun p => mask (fst p))).
  rewrite N.bits_0, orb_false_l, existsb_exists. split.
  - intros ([e v] & Hin & Ht). exists e, v. split; [now apply in_gen_block|exact Ht].
  - intros (e & v & H & Ht). exists (e, v). split; [now apply in_gen_block|exact Ht].
Qed.

Section Uninit.
  Variables (mask : nat -> N) (ne : nat).
  Hypothesis mask_ok : forall e e', e < ne -> N.testbit (mask e') (N.of_nat e) = (e' =? e).

  Definition uninit_after (ns : list (stat * nat)) (e : nat) (xe : bool) : bool :=
    match last_def ns e with None => xe | Some None => true | Some (Some _) => false end.

  Lemma state_after_uninit : forall ns x e, e < ne ->
    (forall p, In p ns -> is_def (fst p) = true -> ne <= snd p) ->
    N.testbit (state_after mask ns x) (N.of_nat e) = uninit_after ns e (N.testbit x (N.of_nat e)).
  Proof.
    unfold state_after, uninit_after.
    induction ns as [|[s k] r IH]; intros x e He Hn; simpl; auto.
    rewrite IH by (auto; intros; apply Hn; simpl; auto).
    destruct (last_def r e) as [[w|]|]; auto.
    assert (Hk : is_def s = true -> ne <= k) by (intros; apply (Hn (s, k)); simpl; auto).
    destruct s as [e'|e'|e']; simpl.
    - rewrite N.lor_spec, N.ldiff_spec, mask_ok, tb_bitN_nat by auto.
      specialize (Hk eq_refl). destruct (Nat.eqb_spec k e); [lia|].
      destruct (e' =? e); destruct (N.testbit x (N.of_nat e)); reflexivity.
    - rewrite N.lor_spec, N.ldiff_spec, mask_ok, tb_bitN_nat by auto.
      destruct (e' =? e); destruct (N.testbit x (N.of_nat e)); reflexivity.
    - reflexivity.
  Qed.

  (* at the bit of an entry, a block generates after a last deletion and kills after any definition *)
  Lemma gen_uninit ns e : e < ne ->
    (forall p, In p ns -> is_def (fst p) = true -> ne <= snd p) ->
    N.testbit (gen_bits (gen_dict ns [])) (N.of_nat e)
    = match last_def ns e with Some None => true | _ => false end.
  Proof.
    intros He Hn. apply eq_iff_eq_true. rewrite tb_gen_block. split.
    - intros (e' & [(H & E)|(j & H & E)]); apply Nat2N.inj in E; subst; [now rewrite H|].
      apply last_def_in in H. specialize (Hn _ H eq_refl). simpl in Hn. lia.
    - destruct (last_def ns e) as [[j|]|] eqn:E; try discriminate. eauto.
  Qed.

  Lemma kill_uninit ns e : e < ne ->
    N.testbit (kill_bits mask (gen_dict ns []) []) (N.of_nat e)
    = match last_def ns e with Some _ => true | None => false end.
  Proof.
    intros He. apply eq_iff_eq_true. rewrite tb_kill_block. split.
    - intros (e' & v & H & Ht). rewrite mask_ok in Ht by auto. apply Nat.eqb_eq in Ht. subst. now rewrite H.
    - destruct (last_def ns e) as [v|] eqn:E; [|discriminate]. intros _. exists e, v.
      split; [exact E|]. rewrite mask_ok by auto. apply Nat.eqb_refl.
  Qed.

  Lemma transfer_uninit ps ns x e : e < ne ->
    (forall p, In p ns -> is_def (fst p) = true -> ne <= snd p) ->
    let d := gen_dict ns [] in
    N.testbit (transfer (mk_rblock ps (gen_bits d) (kill_bits mask d [])) x) (N.of_nat e)
    = uninit_after ns e (N.testbit x (N.of_nat e)).
  Proof.
    intros He Hn d. rewrite tb_transfer. cbn [r_gen r_kill]. unfold d.
    rewrite gen_uninit, kill_uninit by auto. unfold uninit_after.
    destruct (last_def ns e) as [[k|]|]; destruct (N.testbit x (N.of_nat e)); reflexivity.
  Qed.
End Uninit.

(* ------------------------------------------------------------------ lists *)
Lemma nth_repeat_false n : forall e, nth e (repeat false n) false = false.
Proof. induction n as [|n IH]; intros [|e]; simpl; auto. Qed.

Lemma firstn_S_nth {A} (l : list A) k x : nth_error l k = Some x -> firstn (S k) l = firstn k l ++ [x].
Proof.
  revert k. induction l as [|a l IH]; intros [|k] H; simpl in *; try discriminate.
  - now inversion H. - now rewrite (IH k H).
Qed.

Lemma nth_error_combine {A B} : forall (l1 : list A) (l2 : list B) i a b,
  nth_error l1 i = Some a -> nth_error l2 i = Some b -> nth_error (combine l1 l2) i = Some (a, b).
Proof.
  induction l1 as [|x l1 IH]; intros [|y l2] [|i] a b H1 H2; simpl in *; try discriminate.
  - inversion H1; inversion H2; subst; reflexivity.
  - now apply IH.
Qed.

Lemma state_after_app mask l1 l2 x : state_after mask (l1 ++ l2) x = state_after mask l2 (state_after mask l1 x).
Proof. unfold state_after. apply fold_left_app. Qed.

(* the hint at a position, read off the state after the statements before it *)
Lemma walk_nth c mask ns x k p : nth_error ns k = Some p ->
  nth k (walk c mask x ns) Bound =
  let e := stat_entry (fst p) in
  classify (nth e (c_closure c) false) (nth e (c_static c) false)
           (has_uninit (state_after mask (firstn k ns) x) e) (has_other mask (state_after mask (firstn k ns) x) e).
Proof.
  intros Hn.
  assert (Hlen : length (firstn k ns) = k).
  { apply firstn_length_le, Nat.lt_le_incl, nth_error_Some. congruence. }
  rewrite <- Hlen at 1. apply (walk_spec c mask ns x (firstn k ns) p (skipn (S k) ns)).
  rewrite <- (firstn_skipn (S k) ns) at 1. now rewrite (firstn_S_nth _ _ _ Hn), <- app_assoc.
Qed.

(* ------------------------------------------------------------------ the graph as analysed *)
Lemma reach_closed g : reachable g 0 = true /\
  forall u k v, In (u, k, v) (eds g) -> reachable g u = true -> reachable g v = true.
Proof.
  unfold reachable. destruct (closed_b g (reach_iter (nb g) g [0])) eqn:E; [|split; auto].
  unfold closed_b in E. apply andb_true_iff in E. destruct E as [E0 E1]. split; auto.
  intros u k v Hin Hu. rewrite forallb_forall in E1. specialize (E1 _ Hin). simpl in E1.
  rewrite Hu in E1. exact E1.
Qed.

Lemma P_reach g : forall b k sg, P g b k sg -> reachable g b = true.
Proof.
  destruct (reach_closed g) as [H0 Hc]. induction 1; auto. eapply Hc; eauto.
Qed.

Lemma block_stats_in g b s : In s (block_stats g b) -> In (b, s) (sts g).
Proof.
  unfold block_stats. intros H. apply in_rev, in_map_iff in H. destruct H as ([b' s'] & E & Hin).
  apply filter_In in Hin. destruct Hin as [Hin Hb]. simpl in E, Hb. apply Nat.eqb_eq in Hb. now subst.
Qed.

Lemma pos_lt b n : b <> 0 -> b < n -> 1 <= b < n.
Proof. lia. Qed.

Section Bridge.
  Variables (ne : nat) (g : bst) (r : result).
  Hypothesis Hok : graph_ok ne g = true.
  Hypothesis Han : analyse (cfg_of ne g) = Some r.

  Let fblock (b : nat) : block :=
    if reachable g b then
      mk_block (map (fun e => fst (fst e)) (filter (fun e => (snd e =? b) && reachable g (fst (fst e))) (eds g)))
               (map to_stat (block_stats g b)) []
    else mk_block [] [] [].
  Let blocks := map fblock (seq 0 (nb g)).
  Let cc := cfg_of ne g.

  Lemma br_blocks : c_blocks cc = blocks. Proof. reflexivity. Qed.

  Lemma br_ok : edges_at_end g = true /\ len g 0 = 0 /\ 1 <= nb g /\
    (forall u k v, In (u, k, v) (eds g) -> u < nb g /\ v < nb g) /\
    (forall b s, In (b, s) (sts g) -> b < nb g /\ entry_of s < ne).
  Proof.
    pose proof Hok as H'. unfold graph_ok in H'.
    apply andb_true_iff in H'. destruct H' as [H' H5]. apply andb_true_iff in H'. destruct H' as [H' H4].
    apply andb_true_iff in H'. destruct H' as [H' H3]. apply andb_true_iff in H'. destruct H' as [H1 H2].
    split; auto. split; [now apply Nat.eqb_eq|]. split; [now apply Nat.leb_le|]. split.
    - intros u k v Hin. rewrite forallb_forall in H4. specialize (H4 _ Hin). simpl in H4.
      apply andb_true_iff in H4. destruct H4. split; now apply Nat.ltb_lt.
    - intros b s Hin. rewrite forallb_forall in H5. specialize (H5 _ Hin). simpl in H5.
      apply andb_true_iff in H5. destruct H5. split; now apply Nat.ltb_lt.
  Qed.

  Let lnss := fst (number_blocks ne (tl blocks)).
  Let nbits := snd (number_blocks ne (tl blocks)).
  Let nss : list (list (stat * nat)) := [] :: lnss.
  Let mask := mask_of (concat nss).
  Let NS (b : nat) := nth b nss [].

  Lemma br_numbered : numbered cc = (nss, nbits).
  Proof.
    unfold numbered. rewrite br_blocks. change (c_ne cc) with ne. unfold nss, lnss, nbits.
    destruct (number_blocks ne (tl blocks)); reflexivity.
  Qed.

  Lemma br_blocks_len : length blocks = nb g.
  Proof. unfold blocks. now rewrite map_length, seq_length. Qed.
  Lemma br_tl_len : length (tl blocks) = nb g - 1.
  Proof. rewrite <- br_blocks_len. generalize blocks. intros [|a l]; simpl; lia. Qed.
  Lemma br_tl_nth b : 1 <= b < nb g -> nth_error (tl blocks) (b - 1) = Some (fblock b).
  Proof.
    intros Hb. unfold blocks. destruct (nb g) as [|n] eqn:En; [lia|]. simpl.
    rewrite <- seq_shift, map_map. rewrite nth_error_map.
    assert (E : nth_error (seq 0 n) (b - 1) = Some (b - 1)).
    { rewrite nth_error_nth' with (d := 0) by (rewrite seq_length; lia). rewrite seq_nth by lia. reflexivity. }
    rewrite E. simpl. f_equal. f_equal. lia.
  Qed.

  Lemma br_defs_ge p : In p (concat nss) -> is_def (fst p) = true -> ne <= snd p < nbits.
  Proof. unfold nss. simpl. apply number_blocks_all. Qed.

  Lemma br_mask_ok e e' : e < ne -> N.testbit (mask e') (N.of_nat e) = (e' =? e).
  Proof. intros He. apply mask_uninit with (ne := ne); auto. intros p Hp Hd. apply br_defs_ge; auto. Qed.

  (* the numbered statements of a reachable block *)
  Lemma br_NS b : 1 <= b < nb g -> reachable g b = true ->
    map fst (NS b) = map to_stat (block_stats g b) /\
    (forall p, In p (NS b) -> is_def (fst p) = true -> ne <= snd p < nbits).
  Proof.
    intros Hb Hr. destruct (number_blocks_nth (tl blocks) ne (b - 1) (fblock b) (br_tl_nth b Hb))
      as (next & H1 & H2 & H3 & H4).
    assert (E : NS b = fst (number_stats next (b_stats (fblock b)))).
    { unfold NS, nss. destruct b as [|b]; [lia|]. simpl. replace (S b - 1) with b in H3 by lia. exact H3. }
    assert (Eb : b_stats (fblock b) = map to_stat (block_stats g b)) by (unfold fblock; rewrite Hr; reflexivity).
    split.
    - rewrite E, number_stats_fst. exact Eb.
    - intros p Hp Hd. rewrite E in Hp. destruct (number_stats_bounds (b_stats (fblock b)) next) as [_ B].
      specialize (B p Hp Hd). fold nbits in H2, H4. lia.
  Qed.

  Lemma br_NS_len b : 1 <= b < nb g -> reachable g b = true -> length (NS b) = len g b.
  Proof.
    intros Hb Hr. destruct (br_NS b Hb Hr) as [E _].
    rewrite <- (map_length fst), E, map_length. apply len_block_stats.
  Qed.

  Lemma br_block0 k : stat_at g 0 k = None.
  Proof.
    destruct br_ok as (_ & H0 & _). unfold stat_at.
    assert (E : block_stats g 0 = []).
    { pose proof (len_block_stats g 0) as L. rewrite H0 in L. destruct (block_stats g 0); [auto|discriminate]. }
    rewrite E. destruct k; reflexivity.
  Qed.

  Lemma br_P_lt b k sg : P g b k sg -> b < nb g.
  Proof.
    destruct br_ok as (_ & _ & Hnb & Hedges & _).
    induction 1 as [| |u k v sg _ _ Hin]; auto. apply (Hedges _ _ _ Hin).
  Qed.

  (* a position with a statement lies in a reachable block other than the entry block, whose numbered
     list has the statement there *)
  Lemma br_at b k sg s : P g b k sg -> stat_at g b k = Some s ->
    1 <= b < nb g /\ reachable g b = true /\ entry_of s < ne /\
    exists num, nth_error (NS b) k = Some (to_stat s, num) /\ (is_def (to_stat s) = true -> ne <= num).
  Proof.
    intros HP Hs. pose proof (P_reach g b k sg HP) as Hr.
    assert (Hb : 1 <= b < nb g).
    { apply pos_lt; [|exact (br_P_lt b k sg HP)]. intros ->. rewrite br_block0 in Hs. discriminate. }
    destruct br_ok as (_ & _ & _ & _ & Hsts). destruct (br_NS b Hb Hr) as [E Hnum].
    split; [exact Hb|]. split; [exact Hr|]. split.
    - apply (Hsts b), block_stats_in, (nth_error_In _ k), Hs.
    - assert (H : nth_error (map fst (NS b)) k = Some (to_stat s)).
      { rewrite E, nth_error_map. unfold stat_at in Hs. now rewrite Hs. }
      rewrite nth_error_map in H. destruct (nth_error (NS b) k) as [[s' num]|] eqn:En; [|discriminate].
      simpl in H. inversion H; subst. exists num. split; auto.
      intros Hd. apply (Hnum (to_stat s, num)); auto. eapply nth_error_In; eauto.
  Qed.

  (* the raw blocks of initialize() *)
  Let rawF (p : block * list (stat * nat)) : rblock :=
    let d := gen_dict (snd p) [] in
    mk_rblock (b_parents (fst p)) (gen_bits d) (kill_bits mask d (b_bounded (fst p))).
  Let raw := initialize cc.

  Lemma br_raw : raw = mk_rblock (b_parents (fblock 0)) (all_uninit ne) 0%N ::
                       map rawF (combine (tl blocks) lnss).
  Proof.
    unfold raw, initialize. rewrite br_numbered, br_blocks.
    unfold blocks at 1. destruct br_ok as (_ & _ & Hnb & _).
    destruct (nb g) as [|n] eqn:En; [lia|]. unfold nss. simpl.
    f_equal; try (unfold blocks; rewrite En; reflexivity).
  Qed.

  Lemma br_lnss_len : length lnss = nb g - 1.
  Proof. unfold lnss. rewrite number_blocks_len. apply br_tl_len. Qed.

  Lemma br_raw_len : length raw = nb g.
  Proof.
    rewrite br_raw. simpl. rewrite map_length, combine_length, br_lnss_len, br_tl_len.
    destruct br_ok as (_ & _ & Hnb & _). lia.
  Qed.

  Lemma br_raw_nth b : 1 <= b < nb g ->
    nth_error raw b = Some (rawF (fblock b, NS b)).
  Proof.
    intros Hb. rewrite br_raw. destruct b as [|b]; [lia|]. simpl.
    rewrite nth_error_map.
    assert (E : nth_error (combine (tl blocks) lnss) b = Some (fblock (S b), nth b lnss [])).
    { pose proof (br_tl_nth (S b) Hb) as H1. replace (S b - 1) with b in H1 by lia.
      assert (H2 : nth_error lnss b = Some (nth b lnss [])).
      { apply nth_error_nth'. rewrite br_lnss_len. lia. }
      now apply nth_error_combine. }
    rewrite E. reflexivity.
  Qed.

  (* ---- the analysis result *)
  Lemma br_an : exists outs ins, reaching_definitions nbits raw = Some (outs, ins) /\
    res_cls r = map (fun p => walk cc mask (fst p) (snd p)) (combine ins nss).
  Proof.
    pose proof Han as H. fold cc in H. unfold analyse in H. rewrite br_numbered in H. fold raw in H.
    destruct (reaching_definitions nbits raw) as [[outs ins]|]; [|discriminate].
    exists outs, ins. split; auto. inversion H; subst. reflexivity.
  Qed.

  Lemma br_ne_nbits : ne <= nbits.
  Proof. unfold nbits. apply number_blocks_mono. Qed.

  Lemma br_entries ns p : In ns lnss -> In p ns -> stat_entry (fst p) < ne.
  Proof.
    intros Hns Hp. destruct (number_blocks_in (tl blocks) ne ns Hns) as (blk & Hb & Hm).
    assert (Hb' : In blk blocks) by (destruct blocks; simpl in *; auto).
    unfold blocks in Hb'. apply in_map_iff in Hb'. destruct Hb' as (b & <- & _).
    assert (Hs : In (fst p) (b_stats (fblock b))) by (rewrite <- Hm; now apply in_map).
    unfold fblock in Hs. destruct (reachable g b); simpl in Hs; [|contradiction].
    apply in_map_iff in Hs. destruct Hs as (s & Es & Hs).
    destruct br_ok as (_ & _ & _ & _ & Hsts). destruct (Hsts _ _ (block_stats_in g b s Hs)) as [_ Hlt].
    rewrite <- Es. destruct s; exact Hlt.
  Qed.

  Lemma br_gen_below rb : In rb raw -> bits_below nbits (r_gen rb).
  Proof.
    rewrite br_raw. intros [<-|Hin].
    - simpl. intros k Hk. apply all_uninit_spec in Hk. pose proof br_ne_nbits. lia.
    - apply in_map_iff in Hin. destruct Hin as ([blk ns] & <- & Hc). apply in_combine_r in Hc.
      unfold rawF. cbn [r_gen snd]. intros k Hk. apply tb_gen_block in Hk.
      pose proof br_ne_nbits. destruct Hk as (e & [(Hd & ->)|(j & Hd & ->)]).
      + apply last_def_in_del in Hd. destruct Hd as [j Hj].
        pose proof (br_entries ns _ Hc Hj) as He. simpl in He. lia.
      + apply last_def_in in Hd.
        assert (Hj : ne <= j < nbits); [|lia].
        apply (br_defs_ge (SAssign e, j)); [|reflexivity]. unfold nss. simpl. apply in_concat. eauto.
  Qed.

  Lemma nth_map_combine {A B C} (f : A * B -> C) (l1 : list A) (l2 : list B) i a b d :
    nth_error l1 i = Some a -> nth_error l2 i = Some b -> nth i (map f (combine l1 l2)) d = f (a, b).
  Proof.
    intros H1 H2. apply nth_error_nth. rewrite nth_error_map, (nth_error_combine l1 l2 i a b H1 H2). reflexivity.
  Qed.

  Section WithSolution.
    Variables (outs ins : list N).
    Hypothesis Hrd : reaching_definitions nbits raw = Some (outs, ins).
    Hypothesis Hcls : res_cls r = map (fun p => walk cc mask (fst p) (snd p)) (combine ins nss).

    Lemma br_eqs : rd_equations raw outs ins.
    Proof. eapply rd_fixpoint; [exact br_gen_below|exact Hrd]. Qed.
    Lemma br_ins_len : length ins = nb g.
    Proof. rewrite (rd_len_ins _ _ _ _ Hrd). apply br_raw_len. Qed.

    Lemma br_eq b : 1 <= b < nb g ->
      getN ins b = or_parents outs (r_parents (rawF (fblock b, NS b))) /\
      getN outs b = transfer (rawF (fblock b, NS b)) (getN ins b).
    Proof.
      intros Hb. destruct br_eqs as (_ & _ & Heq).
      apply Heq; [now rewrite br_raw_len|exact (br_raw_nth b Hb)].
    Qed.

    Lemma br_cls b : b < nb g -> nth b (res_cls r) [] = walk cc mask (getN ins b) (NS b).
    Proof.
      intros Hb. rewrite Hcls, (nth_map_combine _ ins nss b (getN ins b) (NS b)); [reflexivity| |].
      - unfold getN. apply nth_error_nth'. now rewrite br_ins_len.
      - unfold NS. apply nth_error_nth'. unfold nss. simpl. rewrite br_lnss_len. lia.
    Qed.

    Definition INb (b : nat) : N := if b =? 0 then all_uninit ne else getN ins b.

    (* reached with entry e unbound => the Uninitialized bit of e is in the state there *)
    Definition Q (b k : nat) (sg : state) : Prop :=
      forall e, e < ne -> sg e = false ->
        N.testbit (state_after mask (firstn k (NS b)) (INb b)) (N.of_nat e) = true.

    Lemma br_step_bit s num x sg e : e < ne -> (is_def (to_stat s) = true -> ne <= num) ->
      (sg e = false -> N.testbit x (N.of_nat e) = true) ->
      eff s sg e = false -> N.testbit (stat_step mask x (to_stat s, num)) (N.of_nat e) = true.
    Proof.
      intros He Hn Hx Hs.
      change (stat_step mask x (to_stat s, num)) with (state_after mask [(to_stat s, num)] x).
      rewrite (state_after_uninit mask ne br_mask_ok) by (auto; intros p [<-|[]]; auto).
      unfold uninit_after. destruct s as [l e'|l e'|l e']; simpl in *.
      - auto.
      - unfold upd in Hs. destruct (Nat.eqb_spec e e'); [discriminate|].
        destruct (Nat.eqb_spec e' e); [congruence|]. auto.
      - unfold upd in Hs. destruct (Nat.eqb_spec e e'); subst.
        + now rewrite Nat.eqb_refl.
        + destruct (Nat.eqb_spec e' e); [congruence|]. auto.
    Qed.

    Lemma br_outs_bit u e sg : Q u (len g u) sg -> u < nb g -> reachable g u = true -> e < ne -> sg e = false ->
      N.testbit (getN outs u) (N.of_nat e) = true.
    Proof.
      intros HQ Hu Hr He Hs. destruct u as [|u].
      - destruct br_eqs as (_ & H0 & _). rewrite H0, br_raw. simpl. apply all_uninit_spec. lia.
      - pose proof (pos_lt (S u) _ (Nat.neq_succ_0 u) Hu) as Hb.
        destruct (br_eq (S u) Hb) as [_ Ho]. rewrite Ho. unfold rawF. cbn [fst snd].
        assert (Eb : b_bounded (fblock (S u)) = []) by (unfold fblock; rewrite Hr; reflexivity).
        rewrite Eb.
        destruct (br_NS (S u) Hb Hr) as [_ Hnum].
        rewrite (transfer_uninit mask ne br_mask_ok) by (auto; intros p Hp Hd; apply (Hnum p Hp Hd)).
        specialize (HQ e He Hs). unfold INb in HQ. simpl in HQ.
        rewrite <- (br_NS_len (S u) Hb Hr), firstn_all in HQ.
        rewrite (state_after_uninit mask ne br_mask_ok) in HQ by (auto; intros p Hp Hd; apply (Hnum p Hp Hd)).
        exact HQ.
    Qed.

    Lemma br_inv : forall b k sg, P g b k sg -> Q b k sg.
    Proof.
      destruct br_ok as (Hend & _ & _ & Hedges & _).
      induction 1 as [|b k s sg HP IH Hs|u k v sg HP IH Hin]; intros e He Hse.
      - unfold INb. simpl. apply all_uninit_spec. lia.
      - destruct (br_at b k sg s HP Hs) as (_ & _ & _ & num & Hn & Hnum).
        rewrite (firstn_S_nth _ _ _ Hn), state_after_app.
        change (state_after mask [(to_stat s, num)] ?x) with (stat_step mask x (to_stat s, num)).
        apply (br_step_bit s num _ sg e); auto.
      - destruct (Hedges _ _ _ Hin) as [Hu Hv]. simpl.
        unfold INb. destruct (Nat.eqb_spec v 0) as [->|Hv0]; [apply all_uninit_spec; lia|].
        assert (Hk : k = len g u).
        { unfold edges_at_end in Hend. rewrite forallb_forall in Hend. specialize (Hend _ Hin). simpl in Hend.
          now apply Nat.eqb_eq. }
        subst k. pose proof (P_reach g u _ sg HP) as Hru.
        pose proof (br_outs_bit u e sg IH Hu Hru He Hse) as Ho.
        destruct (br_eq v (pos_lt v _ Hv0 Hv)) as [Hi _].
        rewrite Hi, tb_or_parents. apply existsb_exists. exists u. split; auto.
        unfold rawF. cbn [r_parents fst]. unfold fblock.
        destruct (reach_closed g) as [_ Hc]. rewrite (Hc _ _ _ Hin Hru). simpl.
        apply in_map_iff. exists (u, len g u, v). split; auto.
        apply filter_In. split; auto. simpl. rewrite Nat.eqb_refl, Hru. reflexivity.
    Qed.

    Lemma br_final b k sg s : P g b k sg -> stat_at g b k = Some s -> sg (entry_of s) = false ->
      exists c', cls_at ne g r b k = Some c' /\ c' <> Bound.
    Proof.
      intros HP Hs Hse. set (e := entry_of s) in *.
      destruct (br_at b k sg s HP Hs) as (Hb & Hr & He & num & Hn & _).
      pose proof (br_inv b k sg HP e He Hse) as HQ.
      assert (Hse' : stat_entry (to_stat s) = e) by (destruct s; reflexivity).
      unfold cls_at. rewrite Hr. eexists; split; [reflexivity|].
      rewrite (br_cls b) by lia. rewrite (walk_nth _ _ _ _ _ _ Hn). cbn [fst]. cbv zeta. rewrite Hse'.
      unfold INb in HQ. destruct (Nat.eqb_spec b 0); [lia|].
      rewrite has_uninit_spec, HQ. unfold classify.
      assert (Es : nth e (c_static cc) false = false) by apply nth_repeat_false.
      assert (Ec : nth e (c_closure cc) false = false) by apply nth_repeat_false.
      rewrite Es, Ec. destruct (has_other mask _ e); discriminate.
    Qed.
  End WithSolution.

  Theorem bridge b k sg s : P g b k sg -> stat_at g b k = Some s -> sg (entry_of s) = false ->
    exists c', cls_at ne g r b k = Some c' /\ c' <> Bound.
  Proof. destruct br_an as (outs & ins & Hrd & Hcls). eapply br_final; eauto. Qed.
End Bridge.

(* ------------------------------------------------------------------ end to end *)
Theorem unbound_use_is_checked ne args body tr o s2 l e r :
  wf false body = true ->
  graph_ok ne (build true args body) = true ->
  exec (IS body) (bind args s_init) tr o s2 ->
  In (l, e, false) tr ->
  analyse (cfg_of ne (build true args body)) = Some r ->
  exists b k s c', stat_at (build true args body) b k = Some s /\ label_of s = l /\ entry_of s = e /\
                   cls_at ne (build true args body) r b k = Some c' /\ c' <> Bound.
Proof.
  intros Hw Hok Hex Hin Han.
  pose proof (cfg_covers_paths args body tr o s2 Hw Hex) as HJ.
  rewrite Forall_forall in HJ. specialize (HJ _ Hin). simpl in HJ.
  destruct (HJ eq_refl) as (b & k & sg & s & HP & Hs & Hl & He & Hse).
  rewrite <- He in Hse.
  destruct (bridge ne _ r Hok Han b k sg s HP Hs Hse) as (c' & Hc & Hn).
  exists b, k, s, c'. auto.
Qed.

(* contrapositive: a NameNode all of whose statements carry no cf_maybe_null hint is never evaluated
   (read, assigned to, deleted) while its entry is unbound *)
Corollary no_hint_no_unbound_use ne args body tr o s2 l e r :
  wf false body = true ->
  graph_ok ne (build true args body) = true ->
  exec (IS body) (bind args s_init) tr o s2 ->
  analyse (cfg_of ne (build true args body)) = Some r ->
  (forall b k s, stat_at (build true args body) b k = Some s -> label_of s = l ->
                 cls_at ne (build true args body) r b k = Some Bound) ->
  ~ In (l, e, false) tr.
Proof.
  intros Hw Hok Hex Han Hall Hin.
  destruct (unbound_use_is_checked ne args body tr o s2 l e r Hw Hok Hex Hin Han)
    as (b & k & s & c' & Hs & Hl & He & Hc & Hn).
  rewrite (Hall b k s Hs Hl) in Hc. inversion Hc; subst. congruence.
Qed.

(* ------------------------------------------------------------------ the code as it is: refuted *)
(* x = 'a'
   for i in range(c):          entries: c = 0, t = 1, x = 2, i = 3
       try:
           try: break
           finally: pass
       finally: del x
   t.append(x)                                                            *)
Definition w1_args : list nref := [(0, 0); (1, 1)].
Definition w1_body : stmt :=
  Seq (Asg 2 2)
   (Seq (Loop true [(3, 0)] [(4, 3)]
           (TryFin (TryFin Break Skip Skip) (Del 5 2 false) (Del 6 2 false)) false Skip)
        (Ref 7 2)).

Lemma w1_exec : exists tr s2, exec (IS w1_body) (bind w1_args s_init) tr OExc s2 /\ In (7, 2, false) tr.
Proof.
  set (s0 := bind w1_args s_init).
  set (s1 := upd s0 2 true).
  set (s1b := bind [(4, 3)] s1).
  set (s3 := upd s1b 2 false).
  eexists _, s3.
  split; [|shelve].
  unfold w1_body. eapply x_seq; [apply x_asg|].
  eapply x_seq.
  - eapply x_for.
    + apply er_ok; [reflexivity|apply er_nil].
    + eapply (l_break true _ _ _ _ _ s1 [] _ s3); [split; reflexivity|].
      eapply (f_other _ _ _ s1b _ OBrk s1b _ ONorm s3); [|discriminate|].
      * eapply (f_other _ _ _ s1b [] OBrk s1b [] ONorm s1b); [apply x_break|discriminate|apply x_skip].
      * apply (x_del 6 2 false s1b). left. reflexivity.
  - apply (x_ref 7 2 s3).
  Unshelve. vm_compute. auto 10.
Qed.

Lemma w1_class : exists r, analyse (cfg_of 4 (build false w1_args w1_body)) = Some r /\
  graph_ok 4 (build false w1_args w1_body) = true /\ wf false w1_body = true /\
  forallb (fun q => match q with (s, b, k) =>
             match s with LRef 7 2 => match cls_at 4 (build false w1_args w1_body) r b k with
                                      | Some Bound => true | _ => false end
                        | _ => true end end)
          (all_stats (build false w1_args w1_body)) = true /\
  existsb (fun q => match q with (LRef 7 2, _, _) => true | _ => false end)
          (all_stats (build false w1_args w1_body)) = true.
Proof. vm_compute. eexists; repeat split. Qed.

(* x = 'a'
   try:
       try: del x
       finally: g(c); return     <- the finally clause cannot complete normally
   except: t.append(x)                                                     *)
Definition w2_body : stmt :=
  Seq (Asg 2 2)
   (Try (TryFin (Del 3 2 false) (Seq Call Return) (Seq Call Return)) false Skip
        (HCons false 0 0 (Ref 4 2) HNil)).

Lemma w2_exec : exists tr s2, exec (IS w2_body) (bind w1_args s_init) tr OExc s2 /\ In (4, 2, false) tr.
Proof.
  set (s0 := bind w1_args s_init).
  set (s1 := upd s0 2 true).
  set (s2 := upd s1 2 false).
  eexists _, s2.
  split; [|shelve].
  unfold w2_body. eapply x_seq; [apply x_asg|].
  eapply (t_exc _ _ _ _ s1 _ s2 _ OExc s2).
  - eapply (f_other _ _ _ s1 _ ONorm s2 [] OExc s2); [|discriminate|].
    + apply (x_del 3 2 false s1). left. reflexivity.
    + apply x_seq_stop; [discriminate|apply x_call_exc].
  - apply h_match. apply (x_ref 4 2 s2).
  Unshelve. vm_compute. auto 10.
Qed.

Lemma w2_class : exists r, analyse (cfg_of 3 (build false w1_args w2_body)) = Some r /\
  graph_ok 3 (build false w1_args w2_body) = true /\ wf false w2_body = true /\
  forallb (fun q => match q with (s, b, k) =>
             match s with LRef 4 2 => match cls_at 3 (build false w1_args w2_body) r b k with
                                      | Some Bound => true | _ => false end
                        | _ => true end end)
          (all_stats (build false w1_args w2_body)) = true /\
  existsb (fun q => match q with (LRef 4 2, _, _) => true | _ => false end)
          (all_stats (build false w1_args w2_body)) = true.
Proof. vm_compute. eexists; repeat split. Qed.

(* the repaired variant on the same programs: the theorem's hypotheses hold (non-vacuous) *)
Lemma w1_fixed_ok : graph_ok 4 (build true w1_args w1_body) = true /\ wf false w1_body = true /\
  exists r, analyse (cfg_of 4 (build true w1_args w1_body)) = Some r.
Proof. vm_compute. repeat split. eexists; reflexivity. Qed.
