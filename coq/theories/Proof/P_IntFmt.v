(* Proofs about Model/M_IntFmt.v, part 2: the do-while loop for any digit format (Section DoWhile), its two
   instances (the pair tables of 'd' and 'o', hex), sign and padding, the main theorem (CIntToPyUnicode returns
   CPython's text) and the 'c' range test. *)
From Coq Require Import ZArith List Bool Lia ZifyBool ZifyNat.
From CyVerif Require Import Lib.CInt Model.M_IntFmt Proof.P_IntFmtDigits.
Import ListNotations.
Open Scope Z_scope.
(* no goal of this file needs the meaning of / or mod (those facts come from part 1), and with
   the division hook on, lia in the contexts below takes minutes *)
Ltac Zify.zify_post_hook ::= idtac.

Lemma abs_bound w s v : 1 <= w -> in_range w s v -> Z.abs v <= 2 ^ (if s then w - 1 else w).
Proof.
  intros Hw Hr. pose proof (pow2_split w Hw). pose proof (pow2_pos (w - 1) ltac:(lia)).
  unfold in_range, min_int, max_int in Hr. destruct s; lia.
Qed.

(* what the digit phase of CIntToPyUnicode leaves: the digits D at the end of the buffer, after one
   excess '0' iff last_one_off is set, and room for the sign *)
Definition digits_left (w : Z) (s : bool) (r : lres) (D : list Z) : Prop :=
  exists dpos loo,
    r = LDone dpos (opt0 loo ++ D) loo
    /\ dpos + b2z loo = buf_size w - Z.of_nat (length D)
    /\ Z.of_nat (length D) + b2z s <= buf_size w.

(* The do-while loop, for any format whose pass writes the k characters [chunk n] of n = |remaining|
   and goes on with remaining / c, where c >= 2^lg: it leaves the digits [ds |v|] in the buffer,
   preceded by one excess '0' iff it leaves last_one_off set.  [inv] is what the format keeps
   true of last_one_off. *)
Section DoWhile.
Variables (w : Z) (s : bool) (fc hexoff : Z).
Variables (c lg k : Z) (chunk ds : Z -> list Z) (nl : Z -> bool -> bool) (inv : bool -> Prop).
Hypothesis Hw : 1 <= w.
Hypothesis Hlg : 0 < lg.
Hypothesis Hc : 2 ^ lg <= c.
Hypothesis Hk : forall n, Z.of_nat (length (chunk n)) = k.
Hypothesis pass : forall f rem dpos buf loo, in_range w s rem -> k <= dpos ->
  digits_loop (S f) w s fc hexoff rem dpos buf loo =
    if Z.quot rem c =? 0 then LDone (dpos - k) (chunk (Z.abs rem) ++ buf) (nl (Z.abs rem) loo)
    else digits_loop f w s fc hexoff (Z.quot rem c) (dpos - k) (chunk (Z.abs rem) ++ buf)
                     (nl (Z.abs rem) loo).
Hypothesis inv_nl : forall n loo, inv loo -> inv (nl n loo).
Hypothesis last : forall n loo, inv loo -> 0 <= n -> n / c = 0 -> chunk n = opt0 (nl n loo) ++ ds n.
Hypothesis more : forall n, 0 <= n -> n / c <> 0 -> ds n = ds (n / c) ++ chunk n.

Let c_ge_2 : 2 <= 2 ^ lg <= c.
Proof. split; [apply (Z.pow_le_mono_r 2 1 lg); lia | exact Hc]. Qed.

Lemma pass_abs f rem dpos buf loo : in_range w s rem -> k <= dpos ->
  digits_loop (S f) w s fc hexoff rem dpos buf loo =
    if Z.abs rem / c =? 0 then LDone (dpos - k) (chunk (Z.abs rem) ++ buf) (nl (Z.abs rem) loo)
    else digits_loop f w s fc hexoff (Z.quot rem c) (dpos - k) (chunk (Z.abs rem) ++ buf)
                     (nl (Z.abs rem) loo).
Proof.
  intros Hr Hd. rewrite pass by assumption.
  replace (Z.quot rem c =? 0) with (Z.abs rem / c =? 0); [reflexivity|].
  rewrite <- quot_abs by (clear - c_ge_2; lia). destruct (Z.quot rem c); reflexivity.
Qed.

Definition leaves (r : lres) (rem dpos : Z) (buf : list Z) (room : Z) : Prop :=
  exists len loo,
    r = LDone (dpos - len) (opt0 loo ++ ds (Z.abs rem) ++ buf) loo
    /\ len = Z.of_nat (length (opt0 loo ++ ds (Z.abs rem))) /\ len <= room.

Lemma last_pass f rem dpos buf loo room : inv loo -> in_range w s rem ->
  k <= room <= dpos -> Z.abs rem / c = 0 ->
  leaves (digits_loop (S f) w s fc hexoff rem dpos buf loo) rem dpos buf room.
Proof.
  intros Hi Hr Hd E. rewrite pass_abs, E by (assumption || lia).
  exists k, (nl (Z.abs rem) loo).
  rewrite app_assoc, <- (last _ loo Hi (Z.abs_nonneg rem) E), Hk. repeat split. apply Hd.
Qed.

Lemma room_for_pass m dpos : 0 <= m -> k * (m / lg + 1) <= dpos -> k <= k * (m / lg + 1) <= dpos.
Proof.
  intros Hm Hd. pose proof (Z.div_pos m lg Hm Hlg).
  assert (0 <= k) by (rewrite <- (Hk 0); apply Nat2Z.is_nonneg). nia.
Qed.

(* m bounds the bits of |rem|, so at most m / lg + 1 passes are to come: that many fit the fuel
   and the room *)
Lemma do_while : forall fuel rem dpos buf loo m,
  inv loo -> in_range w s rem -> 0 <= m -> Z.abs rem <= 2 ^ m -> m / lg <= Z.of_nat fuel ->
  k * (m / lg + 1) <= dpos ->
  leaves (digits_loop (S fuel) w s fc hexoff rem dpos buf loo) rem dpos buf (k * (m / lg + 1)).
Proof.
  assert (C0 : 0 < c) by (clear - c_ge_2; lia).
  induction fuel as [|fuel IH]; intros rem dpos buf loo m Hi Hr Hm Hle Hf Hd.
  (* with no fuel left as with some: this pass is the last (last_pass), or n = |rem| >= c >= 2^lg,
     hence lg <= m and the quotient is bounded by 2^(m - lg), with one pass fewer to come *)
  all: pose proof (room_for_pass m dpos Hm Hd) as Hk1.
  all: destruct (Z.eq_dec (Z.abs rem / c) 0) as [E|E]; [apply last_pass; assumption|].
  all: pose proof (Z.abs_nonneg rem) as Hn; set (n := Z.abs rem) in *.
  all: destruct (more_pass_bounds c (2 ^ lg) n (2 ^ (m - lg)) c_ge_2 Hn E) as (N & NX).
  all: destruct (pow2_le_split lg m (Z.lt_le_incl _ _ Hlg) Hm (Z.le_trans _ _ _ N Hle)) as [ML MP].
  all: pose proof (div_sub_same m lg Hlg) as DS.
  - pose proof (Z.div_pos (m - lg) lg ltac:(clear - ML; lia) Hlg) as DP. clear - Hf DS DP. lia.
  - rewrite MP in Hle.
    destruct (IH (Z.quot rem c) (dpos - k) (chunk n ++ buf) (nl n loo) (m - lg))
      as (len & loo' & L & K1 & K2).
    + apply inv_nl, Hi.
    + apply quot_in_range; [assumption..|clear - C0; lia].
    + clear - ML. lia.
    + rewrite quot_abs by assumption. apply NX, Hle.
    + rewrite DS. clear - Hf. lia.
    + rewrite DS. clear - Hd. lia.
    + exists (len + k), loo'. rewrite pass_abs by (assumption || (clear - Hk1; lia)). fold n.
      destruct (Z.eqb_spec (n / c) 0) as [E0|_]; [destruct (E E0)|].
      rewrite L. rewrite quot_abs in * by assumption. fold n in K1 |- *.
      rewrite (more n Hn E). rewrite DS in K2.
      rewrite !app_assoc in *. rewrite (app_length _ (chunk n)), Nat2Z.inj_add, Hk, <- K1.
      replace (dpos - k - len) with (dpos - (len + k)) by (clear; lia).
      repeat split. clear - K2. lia.
Qed.

(* the loop as CIntToPyUnicode starts it: all of the buffer free, last_one_off clear *)
Lemma loop_from_start v : inv false -> in_range w s v ->
  k * ((if s then w - 1 else w) / lg + 1) + b2z s <= buf_size w ->
  digits_left w s (digits_loop (loop_fuel w) w s fc hexoff v (buf_size w) [] false) (ds (Z.abs v)).
Proof.
  intros Hi Hr Hfit. pose proof (abs_bound w s v Hw Hr) as M.
  set (m := if s then w - 1 else w) in *.
  assert (Hm : 0 <= m <= w) by (subst m; clear - Hw; destruct s; lia).
  assert (Zs : 0 <= b2z s) by (clear; destruct s; cbn; lia).
  destruct (do_while (Z.to_nat w) v (buf_size w) [] false m Hi Hr (proj1 Hm) M)
    as (len & loo & L & K1 & K2); [|clear - Hfit Zs; lia|].
  { pose proof (Z.div_le_compat_l m 1 lg (proj1 Hm) ltac:(clear - Hlg; lia)) as D.
    rewrite Z.div_1_r in D. clear - D Hm. lia. }
  exists (buf_size w - len), loo. unfold loop_fuel. rewrite L, app_nil_r.
  rewrite app_length, Nat2Z.inj_add in K1.
  assert (O : Z.of_nat (length (opt0 loo)) = b2z loo) by (destruct loo; reflexivity).
  clear - K1 K2 O Hfit Zs. repeat split; lia.
Qed.
End DoWhile.

Lemma pair_digits w s fc b table hexoff v : 1 <= w -> is_pair_fc fc b table -> in_range w s v ->
  digits_left w s (digits_loop (loop_fuel w) w s fc hexoff v (buf_size w) [] false)
              (py_digits b false (Z.abs v)).
Proof.
  intros Hw Hfc Hr.
  assert (Hb : b = 8 \/ b = 10) by (destruct Hfc as [(_ & -> & _)|(_ & -> & _)]; auto).
  apply loop_from_start with (c := b * b) (lg := 6) (k := 2)
         (chunk := fun n => [48 + n / b mod b; 48 + n mod b]) (ds := py_digits b false)
         (nl := fun n _ => n mod (b * b) <? b) (inv := fun _ => True).
  - (* Hw *) exact Hw.
  - (* Hlg *) lia.
  - (* Hc *) destruct Hb as [-> | ->]; lia.
  - (* Hk *) reflexivity.
  - (* pass *) intros. apply (pair_unfold w s fc b table); assumption.
  - (* inv_nl *) trivial.
  - (* last *) intros n _ _. apply last_pass_chars, Hb.
  - (* more *) intros n. apply more_pass_chars, Hb.
  - (* inv at the start *) exact I.
  - exact Hr.
  - (* the buffer is large enough *) apply (buf_bounds w s), Hw.
Qed.

Lemma hex_digits w s (upp : bool) v : 1 <= w -> in_range w s v ->
  digits_left w s (digits_loop (loop_fuel w) w s 120 (if upp then 16 else 0) v (buf_size w) [] false)
              (py_digits 16 upp (Z.abs v)).
Proof.
  intros Hw Hr.
  apply loop_from_start with (c := 16) (lg := 4) (k := 1)
         (chunk := fun n => [digit_char upp (n mod 16)]) (ds := py_digits 16 upp)
         (nl := fun _ loo => loo) (inv := fun loo => loo = false).
  - (* Hw *) exact Hw.
  - (* Hlg *) lia.
  - (* Hc *) lia.
  - (* Hk *) reflexivity.
  - (* pass *) intros. apply hex_unfold; assumption.
  - (* inv_nl *) trivial.
  - (* last *) intros n loo ->. apply hex_last.
  - (* more *) intros n. apply hex_more.
  - (* inv at the start *) reflexivity.
  - exact Hr.
  - (* the buffer is large enough *) apply (buf_bounds w s), Hw.
Qed.

Definition valid_fc (fc : Z) : Prop := fc = 100 \/ fc = 111 \/ fc = 120 \/ fc = 88.

Lemma digits_phase w s v fc : 1 <= w -> in_range w s v -> valid_fc fc ->
  digits_left w s (digits_loop (loop_fuel w) w s (if fc =? 88 then 120 else fc) (if fc =? 88 then 16 else 0)
                               v (buf_size w) [] false)
              (py_digits (fmt_base fc) (fmt_upper fc) (Z.abs v)).
Proof.
  intros Hw Hr [-> | [-> | [-> | ->]]].
  - exact (pair_digits w s 100 10 DIGIT_PAIRS_10 0 v Hw ltac:(right; auto) Hr).
  - exact (pair_digits w s 111 8 DIGIT_PAIRS_8 0 v Hw ltac:(left; auto) Hr).
  - exact (hex_digits w s false v Hw Hr).
  - exact (hex_digits w s true v Hw Hr).
Qed.

Lemma build_from_ascii_fits ul chars cl (ps : bool) pad : cl = Z.of_nat (length chars) -> cl + b2z ps <= ul ->
  build_from_ascii ul chars cl ps pad =
    Text ((if ps then [45] else []) ++ repeat pad (Z.to_nat (ul - cl - b2z ps)) ++ chars).
Proof.
  intros -> H. unfold build_from_ascii. rewrite Nat2Z.id, firstn_all.
  destruct (Z.ltb_spec (Z.of_nat (length chars)) 0); [lia|].
  rewrite Z.ltb_irrefl. cbn [orb].
  destruct ps; cbn [b2z app] in *.
  - destruct (Z.ltb_spec (ul - Z.of_nat (length chars)) 0); [lia|].
    destruct (Z.ltb_spec 0 (ul - Z.of_nat (length chars))); [reflexivity|lia].
  - destruct (Z.ltb_spec (ul - Z.of_nat (length chars)) 0); [lia|].
    rewrite Z.sub_0_r. destruct (Z.ltb_spec 0 (ul - Z.of_nat (length chars))); [reflexivity|].
    replace (Z.to_nat _) with 0%nat by lia. reflexivity.
Qed.

Lemma single {A} (l : list A) : length l = 1%nat -> exists c, l = [c].
Proof. destruct l as [|c [|d r]]; cbn; intros H; try discriminate. exists c. reflexivity. Qed.

Lemma okb_fmt_base fc : okb (fmt_base fc).
Proof. unfold okb, fmt_base. destruct (fc =? 100), (fc =? 111); auto. Qed.

(* CIntToPyUnicode returns exactly CPython's text; a Text is none of the Err outcomes, so no write
   leaves the buffer, no table index is out of range, the assert holds, the loop terminates *)
Theorem format_eq w s v width pad fc :
  1 <= w -> in_range w s v -> valid_fc fc ->
  cint_to_unicode w s v width pad fc = Text (py_format_int v width pad fc).
Proof.
  intros Hw Hr Hfc.
  destruct (digits_phase w s v fc Hw Hr Hfc) as (dpos & loo & L & P & S).
  pose proof (py_digits_nonempty (fmt_base fc) (fmt_upper fc) (Z.abs v) (okb_fmt_base fc)
                (Z.abs_nonneg v)) as NE.
  unfold cint_to_unicode, py_format_int. rewrite L.
  set (D := py_digits (fmt_base fc) (fmt_upper fc) (Z.abs v)) in *.
  assert (A : (if loo then match opt0 loo ++ D with
                            | c :: rest => if c =? 48 then Some rest else None | [] => None end
               else Some (opt0 loo ++ D)) = Some D) by (destruct loo; reflexivity).
  rewrite A. clear A L.
  replace (buf_size w - (dpos + b2z loo)) with (Z.of_nat (length D)) by lia.
  set (n := Z.of_nat (length D)) in *.
  assert (Sg : s && (v <=? -1) = (v <? 0)).
  { destruct s; [cbn [andb]; lia|]. unfold in_range, min_int in Hr. cbn [andb]. lia. }
  rewrite Sg. destruct (Z.ltb_spec v 0) as [Neg|Pos].
  - assert (b2z s = 1) by (destruct s; [reflexivity|discriminate]).
    destruct (Z.eqb_spec (Z.max (n + 1) width) 1); [lia|].
    destruct ((pad =? 32) || (width <=? n + 1)) eqn:G.
    + destruct (Z.ltb_spec (dpos + b2z loo - 1) 0); [lia|].
      rewrite build_from_ascii_fits by (cbn [length b2z]; lia). cbn [app b2z length].
      destruct (Z.eqb_spec pad 32).
      * do 3 f_equal. lia.
      * do 2 replace (Z.to_nat _) with 0%nat by lia. reflexivity.
    + rewrite build_from_ascii_fits by (cbn [b2z]; lia). cbn [app b2z length].
      destruct (Z.eqb_spec pad 32); [lia|]. do 4 f_equal. lia.
  - destruct (Z.eqb_spec (Z.max n width) 1) as [U|U].
    + destruct (single D ltac:(lia)) as [c ->]. cbn [length app].
      replace (Z.to_nat _) with 0%nat by lia. destruct (pad =? 32); reflexivity.
    + rewrite build_from_ascii_fits by (cbn [b2z]; lia). cbn [app b2z length].
      replace (Z.to_nat (Z.max n width - n - 0)) with (Z.to_nat (width - Z.of_nat (0 + length D))) by lia.
      destruct (pad =? 32); reflexivity.
Qed.

Theorem no_error w s v width pad fc e :
  1 <= w -> in_range w s v -> valid_fc fc -> cint_to_unicode w s v width pad fc <> Err e.
Proof. intros Hw Hr Hfc. rewrite format_eq by assumption. discriminate. Qed.

Theorem digits_correct w s v fc :
  1 <= w -> in_range w s v -> valid_fc fc ->
  exists ds,
    cint_to_unicode w s v 0 32 fc = Text ((if v <? 0 then [45] else []) ++ ds)
    /\ parse_base (fmt_base fc) ds = Z.abs v
    /\ forallb (is_digit_of (fmt_base fc) (fmt_upper fc)) ds = true
    /\ no_leading_zero (Z.abs v) ds.
Proof.
  intros Hw Hr Hfc. rewrite format_eq by assumption.
  exists (py_digits (fmt_base fc) (fmt_upper fc) (Z.abs v)).
  destruct (py_digits_correct (fmt_base fc) (fmt_upper fc) (okb_fmt_base fc)
              (S (Z.to_nat (Z.abs v))) (Z.abs v) ltac:(lia)) as (P1 & P2 & P3).
  repeat split; try assumption.
  unfold py_format_int. change (32 =? 32) with true. cbv iota.
  replace (Z.to_nat (0 - _)) with 0%nat by lia. reflexivity.
Qed.

Lemma accepts_fixed w s v : 1 <= w -> in_range w s v ->
  uchar_accepts true w s v = (0 <=? v) && (v <? 1114112).
Proof.
  intros Hw Hr. unfold uchar_accepts.
  destruct (Z.ltb_spec v 0) as [Neg|Pos].
  - assert (s = true) by (destruct s; [reflexivity|unfold in_range, min_int in Hr; lia]). subst s.
    cbn [negb orb]. lia.
  - assert (C1 : negb s || (v =? 0) || (0 <? v) = true) by lia. rewrite C1. cbn [andb].
    rewrite land_high by assumption.
    destruct (Z.leb_spec (sizeof w) 2) as [Sm|Lg]; cbn [orb].
    + pose proof (small_type w s v Hw Sm Hr). lia.
    + destruct (Z.ltb_spec v 2097152); cbn [negb andb]; [rewrite int_id by lia|]; lia.
Qed.

Theorem char_range_fixed w s v width pad :
  1 <= w -> in_range w s v -> uchar_to_unicode true w s v width pad = py_format_char v width pad.
Proof.
  intros Hw Hr. unfold uchar_to_unicode, py_format_char. rewrite accepts_fixed by assumption.
  destruct ((0 <=? v) && (v <? 1114112)) eqn:A; cbn [negb]; [|reflexivity].
  assert (R : 0 <= v < 1114112) by lia. rewrite int_id by lia.
  destruct (mod_small_256_2097152 v) as [M1 M2].
  destruct (Z.leb_spec width 1).
  - unfold from_ordinal. replace (Z.to_nat (width - 1)) with 0%nat by lia.
    assert (B : (0 <=? v) && (v <=? 1114111) = true) by lia. rewrite B. reflexivity.
  - unfold from_ordinal_padded, from_ordinal.
    assert (B : (0 <=? v) && (v <=? 1114111) = true) by lia. rewrite B.
    destruct ((width - 1 <=? 250) && ((v <? 55296) || (57343 <? v))).
    + destruct (Z.leb_spec v 255); [rewrite M1 by lia; reflexivity|].
      destruct (Z.ltb_spec v 65536); [reflexivity|].
      rewrite M2 by lia.
      assert (B2 : (65536 <=? v) && (v <=? 1114111) = true) by lia. rewrite B2. reflexivity.
    + destruct (Z.leb_spec v 127); [|reflexivity].
      cbv zeta. rewrite M1 by lia. destruct (Z.ltb_spec 127 v); [lia|reflexivity].
Qed.

(* the test as written agrees with the repaired one below 0x200000 and for 8/16-bit types *)
Theorem char_range_partial w s v width pad :
  1 <= w -> in_range w s v -> (v < 2097152 \/ sizeof w <= 2) ->
  uchar_to_unicode false w s v width pad = py_format_char v width pad.
Proof.
  intros Hw Hr H. rewrite <- char_range_fixed with (w := w) (s := s) by assumption.
  unfold uchar_to_unicode. replace (uchar_accepts false w s v) with (uchar_accepts true w s v); [reflexivity|].
  unfold uchar_accepts.
  destruct (Z.ltb_spec v 0) as [Neg|Pos].
  - assert (s = true) by (destruct s; [reflexivity|unfold in_range, min_int in Hr; lia]). subst s.
    assert (C1 : negb true || (v =? 0) || (0 <? v) = false) by lia. rewrite C1. reflexivity.
  - rewrite land_high by assumption.
    destruct (Z.leb_spec (sizeof w) 2) as [Sm|Lg]; cbn [orb]; [reflexivity|].
    assert (L : (v <? 2097152) = true) by lia. rewrite L. reflexivity.
Qed.

(* F17: as written, a value with a bit above bit 20 set is never rejected *)
Theorem char_range_refuted :
  exists w s v width pad, 1 <= w /\ in_range w s v /\
    py_format_char v width pad = COverflowError /\
    uchar_to_unicode false w s v width pad = CText [65].
Proof.
  exists 64, true, 4294967361, 0, 32. unfold in_range. vm_compute. intuition congruence.
Qed.

Theorem char_range_refuted_exc :
  exists w s v width pad, 1 <= w /\ in_range w s v /\
    py_format_char v width pad = COverflowError /\
    uchar_to_unicode false w s v width pad = CValueError.
Proof.
  exists 32, false, 2097152, 0, 32. unfold in_range. vm_compute. intuition congruence.
Qed.
