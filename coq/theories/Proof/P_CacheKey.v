(* Proofs for C48 (compilation caches never return stale results). *)
From Coq Require Import List NArith String Bool Lia.
From CyVerif Require Import Model.M_CacheKey Gen.Gen_Fingerprint.
Import ListNotations.
Local Open Scope list_scope.

Lemma app_eq_length {A} : forall (a b x y : list A),
  List.length a = List.length b -> (a ++ x = b ++ y)%list -> a = b /\ x = y.
Proof.
  induction a as [|h a IH]; intros [|h' b] x y Hl He; simpl in *; try discriminate.
  - auto.
  - injection He as Hh Ht. injection Hl as Hl.
    destruct (IH b x y Hl Ht) as [-> ->]. subst. auto.
Qed.

Lemma serialise_injective : forall l1 l2 : list value, serialise l1 = serialise l2 -> l1 = l2.
Proof.
  unfold serialise.
  induction l1 as [|v1 l1 IH]; intros [|v2 l2] H; simpl in *; try discriminate; auto.
  injection H as Hn Hr.
  apply Nnat.Nat2N.inj in Hn.
  destruct (app_eq_length _ _ _ _ Hn Hr) as [-> Hrest].
  f_equal. apply IH. exact Hrest.
Qed.

Section CacheProofs.
  Variable comp Req K Out : Type.
  Variable get : Req -> comp -> value.
  Variable hash : list N -> K.
  Variable keqb : K -> K -> bool.
  Variable compile : Req -> Out.
  Variable ok : Out -> bool.
  Variable bypass : Req -> bool.
  Variable ks aff : list comp.

  (* TRUSTED: SHA-256 has no collisions among the serialisations that occur *)
  Hypothesis hash_inj : forall a b, hash a = hash b -> a = b.
  Hypothesis keqb_spec : forall a b, keqb a b = true <-> a = b.
  (* the inputs in [aff] are all the output-affecting ones *)
  Hypothesis compile_dep : forall r1 r2,
    (forall c, In c aff -> get r1 c = get r2 c) -> compile r1 = compile r2.

  Notation key := (key comp Req get K hash ks).
  Notation find := (find K keqb Out).
  Notation step := (step comp Req get K hash keqb Out compile ok bypass ks).
  Notation exec := (exec comp Req get K hash keqb Out compile ok bypass ks).
  Notation run := (run comp Req get K hash keqb Out compile ok bypass ks).

  Lemma key_injective_on_components : forall r1 r2,
    key r1 = key r2 -> forall c, In c ks -> get r1 c = get r2 c.
  Proof using hash_inj.
    unfold M_CacheKey.key. intros r1 r2 H.
    apply hash_inj, serialise_injective in H. exact (ext_in_map H).
  Qed.

  (* every entry of the store was produced by compiling some earlier request of [seen] *)
  Definition store_ok (seen : list Req) (st : store K Out) : Prop :=
    forall k o, In (k, o) st -> exists r, In r seen /\ k = key r /\ o = compile r.

  Lemma find_in : forall k st o, find k st = Some o -> In (k, o) st.
  Proof using keqb_spec.
    induction st as [|[k' o'] st IH]; simpl; intros o H; [discriminate|].
    destruct (keqb k k') eqn:E.
    - apply keqb_spec in E. injection H as ->. subst. auto.
    - right. auto.
  Qed.

  Lemma store_ok_mono : forall seen r st, store_ok seen st -> store_ok (seen ++ [r]) st.
  Proof using Type.
    intros seen r st H k o Hin. destruct (H k o Hin) as [r' [Hr' Hk]].
    exists r'. split; [apply in_or_app; left; exact Hr' | exact Hk].
  Qed.

  Lemma step_store : forall seen st r, store_ok seen st -> store_ok (seen ++ [r]) (fst (step st r)).
  Proof using Type.
    intros seen st r Hok. unfold M_CacheKey.step.
    destruct (bypass r); [apply store_ok_mono; exact Hok|].
    destruct (find (key r) st); [apply store_ok_mono; exact Hok|]. cbn [fst].
    destruct (ok (compile r)); [|apply store_ok_mono; exact Hok].
    intros k o [He|Hin].
    - injection He as <- <-. exists r. split; [apply in_or_app; right; left; reflexivity | split; reflexivity].
    - apply (store_ok_mono seen r st Hok). exact Hin.
  Qed.

  (* a hit returns what an earlier request with the same key compiled to *)
  Lemma step_fresh : forall seen st r,
    incl aff ks -> store_ok seen st -> snd (snd (step st r)) = compile r.
  Proof.
    intros seen st r Hincl Hok. unfold M_CacheKey.step.
    destruct (bypass r); [reflexivity|].
    destruct (find (key r) st) as [o1|] eqn:Ef; [|reflexivity]. cbn [snd].
    apply find_in in Ef. destruct (Hok _ _ Ef) as [r' [_ [Hk ->]]].
    apply compile_dep. intros c Hc. symmetry.
    apply (key_injective_on_components r r' Hk c). apply Hincl. exact Hc.
  Qed.

  Lemma exec_sound : forall h seen st,
    incl aff ks -> store_ok seen st -> map snd (snd (exec st h)) = map compile h.
  Proof.
    induction h as [|r h IH]; intros seen st Hincl Hok; simpl; [reflexivity|].
    pose proof (step_fresh seen st r Hincl Hok) as Hf.
    pose proof (step_store seen st r Hok) as Hok1.
    destruct (step st r) as [st1 [hw o]]. cbn [fst snd] in Hf, Hok1.
    specialize (IH (seen ++ [r]) st1 Hincl Hok1).
    destruct (exec st1 h) as [st2 rs]. simpl in *. rewrite Hf, IH. reflexivity.
  Qed.

  (* over all histories, every request (hit, miss or bypass) yields exactly what a fresh
     compilation of that request yields *)
  Theorem cache_hit_is_fresh : forall h,
    incl aff ks -> map snd (run h) = map compile h.
  Proof.
    intros h Hincl. unfold M_CacheKey.run. apply (exec_sound h [] [] Hincl).
    intros k o [].
  Qed.

  (* the other half: a request that differs from every earlier request in some key component
     is never answered from the cache *)
  Lemma exec_store : forall h seen st,
    store_ok seen st -> store_ok (seen ++ h) (fst (exec st h)).
  Proof using Type.
    induction h as [|r h IH]; intros seen st Hok; simpl.
    - rewrite app_nil_r. exact Hok.
    - pose proof (step_store seen st r Hok) as Hok1.
      destruct (step st r) as [st1 res]. cbn [fst] in Hok1.
      specialize (IH (seen ++ [r]) st1 Hok1).
      destruct (exec st1 h) as [st2 rs]. simpl in *. rewrite <- app_assoc in IH. exact IH.
  Qed.

  Theorem change_causes_miss : forall h r,
    (forall r', In r' h -> exists c, In c ks /\ get r c <> get r' c) ->
    fst (snd (step (fst (exec [] h)) r)) <> Hit.
  Proof using hash_inj keqb_spec.
    intros h r Hdiff. unfold M_CacheKey.step.
    destruct (bypass r); [simpl; discriminate|].
    destruct (find (key r) (fst (exec [] h))) as [o|] eqn:Ef; [|simpl; discriminate].
    exfalso. apply find_in in Ef.
    assert (Hok : store_ok ([] ++ h) (fst (exec [] h))).
    { apply exec_store. intros k o' []. }
    destruct (Hok _ _ Ef) as [r' [Hin [Hk _]]]. simpl in Hin.
    destruct (Hdiff r' Hin) as [c [Hc Hne]].
    apply Hne. exact (key_injective_on_components r r' Hk c Hc).
  Qed.
End CacheProofs.

Lemma mem_In : forall n l, mem n l = true <-> In n l.
Proof.
  intros n l. unfold mem. rewrite existsb_exists. split.
  - intros [x [Hx He]]. apply String.eqb_eq in He. subst. exact Hx.
  - intros H. exists n. split; [exact H | apply String.eqb_refl].
Qed.

Lemma fingerprint_complete_incl : forall req t,
  fingerprint_complete req t = true -> incl (required_of req t) (key_of t).
Proof.
  intros req t H. unfold fingerprint_complete in H. apply andb_true_iff in H as [H _].
  rewrite forallb_forall in H. intros n Hn. apply mem_In. apply H. exact Hn.
Qed.

(* the tree as it should be: the observed table, with the repairs that are not yet applied
   ([f8_fixed], [modopts_fixed] are written by props/C48.py) modelled by [repaired] *)
Definition effective (t : table) : table := repaired (negb f8_fixed) (negb modopts_fixed) t.

Lemma cythonize_complete : fingerprint_complete required_cythonize (effective cythonize_table) = true.
Proof. vm_compute. reflexivity. Qed.

Lemma inline_complete : fingerprint_complete required_inline (effective inline_table) = true.
Proof. vm_compute. reflexivity. Qed.

(* findings, on the tree as observed (vacuous once the flag says the repair is applied) *)
Lemma cythonize_directives_refuted :
  f8_fixed = false -> In "dir:boundscheck"%string (missing required_cythonize cythonize_table).
Proof. intro H. first [discriminate H | apply (proj1 (mem_In _ _)); vm_compute; reflexivity]. Qed.

Lemma inline_directives_refuted :
  f8_fixed = false -> In "inl:dir:cdivision"%string (missing required_inline inline_table).
Proof. intro H. first [discriminate H | apply (proj1 (mem_In _ _)); vm_compute; reflexivity]. Qed.

Lemma module_options_refuted :
  modopts_fixed = false -> In "glob:docstrings"%string (missing required_cythonize cythonize_table).
Proof. intro H. first [discriminate H | apply (proj1 (mem_In _ _)); vm_compute; reflexivity]. Qed.

(* independent of the state of the tree: a key that leaves the directives out is incomplete *)
Lemma without_directives_refuted :
  fingerprint_complete required_cythonize (without_directives (effective cythonize_table)) = false
  /\ fingerprint_complete required_inline (without_directives (effective inline_table)) = false.
Proof. vm_compute. split; reflexivity. Qed.

(* the cache theorem instantiated with the key components / required inputs of the tables *)
Section Instantiated.
  Variable Req K Out : Type.
  Variable get : Req -> string -> value.
  Variable hash : list N -> K.
  Variable keqb : K -> K -> bool.
  Variable compile : Req -> Out.
  Variable ok : Out -> bool.
  Variable bypass : Req -> bool.
  Hypothesis hash_inj : forall a b, hash a = hash b -> a = b.
  Hypothesis keqb_spec : forall a b, keqb a b = true <-> a = b.

  Theorem table_never_stale req t :
    fingerprint_complete req t = true ->
    (forall r1 r2, (forall c, In c (required_of req t) -> get r1 c = get r2 c) -> compile r1 = compile r2) ->
    forall h, map snd (run string Req get K hash keqb Out compile ok bypass (key_of t) h) = map compile h.
  Proof.
    intros Hc Hdep h.
    apply (cache_hit_is_fresh string Req K Out get hash keqb compile ok bypass _ _ hash_inj keqb_spec Hdep).
    apply fingerprint_complete_incl. exact Hc.
  Qed.
End Instantiated.
