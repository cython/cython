(* C50: Transitions.TransitionMap refines a function code -> state set. *)
From Coq Require Import ZArith NArith List Bool Lia ZifyBool ZifyNat.
From CyVerif Require Import Model.M_Plex.
Import ListNotations.
Open Scope Z_scope.

Definition znth (l : list Z) (i : Z) : Z := nth (Z.to_nat i) l 0.

Fixpoint sorted (l : list Z) : Prop :=
  match l with
  | x :: ((y :: _) as t) => x < y /\ sorted t
  | _ => True
  end.

Lemma sorted_tail x t : sorted (x :: t) -> sorted t.
Proof. destruct t; cbn; tauto. Qed.

Lemma sorted_head_lt t : forall x, sorted (x :: t) -> forall y, In y t -> x < y.
Proof.
  induction t as [|a t IH]; intros x Hs y Hy; [contradiction|].
  destruct Hs as [Hxa Hs]. destruct Hy as [->|Hy]; [assumption|].
  specialize (IH a Hs y Hy). lia.
Qed.

Lemma sorted_nth_lt l : sorted l -> forall i j, (i < j < length l)%nat -> nth i l 0 < nth j l 0.
Proof.
  induction l as [|a t IH]; intros Hs i j Hij; [cbn in Hij; lia|].
  destruct j as [|j]; [lia|]. destruct i as [|i].
  - cbn [nth]. apply (sorted_head_lt t a Hs). apply nth_In. cbn in Hij. lia.
  - cbn [nth]. apply IH; [eapply sorted_tail; eauto|]. cbn in Hij. lia.
Qed.

Lemma sorted_nth_le l : sorted l -> forall i j, (i <= j < length l)%nat -> nth i l 0 <= nth j l 0.
Proof.
  intros Hs i j Hij. destruct (Nat.eq_dec i j) as [->|Hne]; [lia|].
  pose proof (sorted_nth_lt l Hs i j ltac:(lia)). lia.
Qed.

(* number of split points <= c *)
Definition count_le (l : list Z) (c : Z) : nat := length (filter (fun x => x <=? c) l).

Lemma count_le_cons a t c : count_le (a :: t) c = ((if (a <=? c)%Z then 1 else 0) + count_le t c)%nat.
Proof. unfold count_le. cbn [filter]. destruct (a <=? c); reflexivity. Qed.

Lemma count_le_app l1 l2 c : count_le (l1 ++ l2) c = (count_le l1 c + count_le l2 c)%nat.
Proof. unfold count_le. rewrite filter_app, app_length. reflexivity. Qed.

Lemma count_le_mono l c d : c <= d -> (count_le l c <= count_le l d)%nat.
Proof.
  intros H. induction l as [|a t IH]; [cbn; lia|]. rewrite !count_le_cons.
  destruct (Z.leb_spec a c), (Z.leb_spec a d); lia.
Qed.

Lemma count_le_zero l c : (forall y, In y l -> c < y) -> count_le l c = O.
Proof.
  induction l as [|a t IH]; intros H; [reflexivity|]. rewrite count_le_cons, IH.
  - specialize (H a (or_introl eq_refl)). destruct (Z.leb_spec a c); lia.
  - intros y Hy. apply H. right. exact Hy.
Qed.

(* in a sorted list the entries <= c are exactly the first count_le l c ones *)
Lemma count_le_nth c : forall l, sorted l -> forall i, (i < length l)%nat ->
  (nth i l 0 <= c <-> (i < count_le l c)%nat).
Proof.
  induction l as [|a t IH]; intros Hs i Hi; [cbn in Hi; lia|]. rewrite count_le_cons.
  assert (Hz : c < a -> count_le t c = O).
  { intros Hca. apply count_le_zero. intros y Hy. pose proof (sorted_head_lt t a Hs y Hy). lia. }
  destruct i as [|i]; cbn [nth].
  - destruct (Z.leb_spec a c); split; intros; try lia; rewrite Hz in * by lia; lia.
  - rewrite (IH (sorted_tail _ _ Hs) i) by (cbn in Hi; lia).
    destruct (Z.leb_spec a c); split; intros; try lia; rewrite Hz in * by lia; lia.
Qed.

Lemma count_le_segment l c k : sorted l -> (S k < length l)%nat ->
  nth k l 0 <= c < nth (S k) l 0 -> count_le l c = S k.
Proof.
  intros Hs Hk Hc. pose proof (count_le_nth c l Hs k ltac:(lia)).
  pose proof (count_le_nth c l Hs (S k) Hk). lia.
Qed.

Definition count_lt (l : list Z) (c : Z) : nat := count_le l (c - 1).

Lemma count_lt_nth l k : sorted l -> (k < length l)%nat -> count_lt l (nth k l 0) = k.
Proof.
  intros Hs Hk. unfold count_lt. pose proof (count_le_nth (nth k l 0 - 1) l Hs k Hk).
  destruct k as [|j]; [lia|]. pose proof (count_le_nth (nth (S j) l 0 - 1) l Hs j ltac:(lia)).
  pose proof (sorted_nth_lt l Hs j (S j) ltac:(lia)). lia.
Qed.

(* against a member d of a sorted list, c < d can be read off the counts *)
Lemma count_lt_in l c d : sorted l -> In d l -> (c < d <-> (count_le l c <= count_lt l d)%nat).
Proof.
  intros Hs Hin. destruct (In_nth l d 0 Hin) as (i & Hi & <-). rewrite count_lt_nth by assumption.
  pose proof (count_le_nth c l Hs i Hi). lia.
Qed.

Lemma nth_insert {A} (d x : A) : forall k l i, (k <= length l)%nat ->
  nth i (firstn k l ++ x :: skipn k l) d =
  if (i <? k)%nat then nth i l d else if (i =? k)%nat then x else nth (i - 1) l d.
Proof.
  induction k as [|k IH]; intros l i Hk.
  - cbn [firstn skipn app]. destruct i as [|i]; [reflexivity|].
    cbn [nth]. replace (S i - 1)%nat with i by lia. reflexivity.
  - destruct l as [|a t]; [cbn in Hk; lia|]. cbn [firstn skipn app].
    destruct i as [|i]; [reflexivity|]. cbn [nth]. rewrite IH by (cbn in Hk; lia).
    destruct (Nat.ltb_spec i k), (Nat.ltb_spec (S i) (S k)); try lia; [reflexivity|].
    destruct (Nat.eqb_spec i k), (Nat.eqb_spec (S i) (S k)); try lia; [reflexivity|].
    destruct i as [|i]; [lia|]. cbn [nth]. replace (S i - 1)%nat with i by lia.
    replace (S (S i) - 1)%nat with (S i) by lia. reflexivity.
Qed.

Lemma insert_length {A} (x : A) k l : (k <= length l)%nat ->
  length (firstn k l ++ x :: skipn k l) = S (length l).
Proof.
  intros H. rewrite app_length. cbn [length]. rewrite firstn_length_le, skipn_length by assumption. lia.
Qed.

Lemma count_le_insert x k l c :
  count_le (firstn k l ++ x :: skipn k l) c = ((if (x <=? c)%Z then 1 else 0) + count_le l c)%nat.
Proof.
  rewrite count_le_app, count_le_cons.
  assert (H : count_le l c = (count_le (firstn k l) c + count_le (skipn k l) c)%nat)
    by (rewrite <- count_le_app, firstn_skipn; reflexivity).
  rewrite H. lia.
Qed.

Lemma sorted_insert x : forall l k, sorted l -> (0 < k < length l)%nat ->
  nth (k - 1) l 0 < x < nth k l 0 -> sorted (firstn k l ++ x :: skipn k l).
Proof.
  induction l as [|a t IH]; intros k Hs Hk Hx; [cbn in Hk; lia|].
  destruct k as [|k]; [lia|]. cbn [firstn skipn app].
  destruct k as [|k].
  - cbn [firstn skipn app]. cbn [Nat.sub nth] in Hx. destruct t as [|b t]; [cbn in Hk; lia|].
    cbn [nth] in Hx. cbn [sorted] in *. tauto.
  - destruct t as [|b t]; [cbn in Hk; lia|].
    assert (Hs' : sorted (b :: t)) by (eapply sorted_tail; eauto).
    specialize (IH (S k) Hs' ltac:(cbn in Hk |- *; lia)).
    replace (S (S k) - 1)%nat with (S k) in Hx by lia. cbn [nth] in Hx.
    replace (S k - 1)%nat with k in IH by lia.
    specialize (IH Hx). cbn [firstn skipn app] in IH |- *. cbn [sorted]. split; [|exact IH].
    destruct Hs; assumption.
Qed.

(* the invariant of the class docstring *)
Record tm_inv (m : tmap) : Prop := {
  inv_len : length (tm_codes m) = S (length (tm_sets m));
  inv_n : (1 <= length (tm_sets m))%nat;
  inv_first : nth 0 (tm_codes m) 0 = - maxint;
  inv_last : nth (length (tm_sets m)) (tm_codes m) 0 = maxint;
  inv_sorted : sorted (tm_codes m) }.

(* the executable test of the invariant *)
Lemma sorted_b_spec l : sorted_b l = true -> sorted l.
Proof.
  induction l as [|a t IH]; [intros; exact I|]. destruct t as [|b t']; [intros; exact I|].
  intros H. change (sorted_b (a :: b :: t')) with ((a <? b) && sorted_b (b :: t')) in H.
  apply andb_true_iff in H. destruct H as [H1 H2].
  change (a < b /\ sorted (b :: t')). split; [lia|auto].
Qed.

Lemma tm_inv_b_spec m : tm_inv_b m = true -> tm_inv m.
Proof.
  unfold tm_inv_b. intros H. repeat (apply andb_true_iff in H; destruct H as [H ?]).
  constructor.
  - apply Nat.eqb_eq. assumption.
  - apply Nat.leb_le. assumption.
  - lia.
  - lia.
  - apply sorted_b_spec. assumption.
Qed.

(* the denotation: the set of the segment [code_k, code_k+1) that contains c, i.e. k + 1 = number of
   split points <= c *)
Definition tm_get (m : tmap) (c : Z) : sset :=
  nth (count_le (tm_codes m) c - 1) (tm_sets m) s_empty.

Lemma tm_new_inv : tm_inv tm_new.
Proof. constructor; cbn; unfold maxint; try lia; auto. Qed.

Lemma tm_new_get c : tm_get tm_new c = s_empty.
Proof. unfold tm_get, tm_new. cbn [tm_sets]. destruct (_ - 1)%nat as [|[|?]]; reflexivity. Qed.

(* the definition agrees with the segment reading *)
Lemma tm_get_segment m c k : tm_inv m -> (k < length (tm_sets m))%nat ->
  nth k (tm_codes m) 0 <= c < nth (S k) (tm_codes m) 0 -> tm_get m c = nth k (tm_sets m) s_empty.
Proof.
  intros I Hk Hc. unfold tm_get.
  rewrite (count_le_segment _ c k (inv_sorted m I)), Nat.sub_succ, Nat.sub_0_r by (rewrite ?(inv_len m I); lia).
  reflexivity.
Qed.

Lemma count_le_pos m c : tm_inv m -> - maxint <= c -> (1 <= count_le (tm_codes m) c)%nat.
Proof.
  intros I Hc. apply (count_le_nth c _ (inv_sorted m I) O); [rewrite (inv_len m I); lia|].
  rewrite (inv_first m I). exact Hc.
Qed.

Lemma count_le_lt_n m c : tm_inv m -> c < maxint -> (count_le (tm_codes m) c <= length (tm_sets m))%nat.
Proof.
  intros I Hc. pose proof (count_le_nth c _ (inv_sorted m I) (length (tm_sets m))) as H.
  rewrite (inv_len m I), (inv_last m I) in H. lia.
Qed.

Lemma land_m2 x : Z.land x (-2) = 2 * (x / 2).
Proof.
  change (-2) with (Z.lnot (Z.ones 1)).
  rewrite <- Z.ldiff_land, Z.ldiff_ones_r by lia.
  rewrite Z.shiftr_div_pow2, Z.shiftl_mul_pow2 by lia. change (2 ^ 1) with 2. lia.
Qed.

Lemma div2_exact a : 2 * a / 2 = a.
Proof. rewrite Z.mul_comm. apply Z.div_mul. lia. Qed.

Lemma code_at_even l a : 0 <= a -> code_at l (2 * a) = znth l a.
Proof. intros. unfold code_at, znth. rewrite div2_exact. reflexivity. Qed.

(* termination (enough fuel = the distance) and the loop invariant map[lo] <= code < map[hi] *)
Lemma split_loop_spec codes code : sorted codes -> forall fuel a b,
  0 <= a < b -> b < Z.of_nat (length codes) -> (Z.to_nat (b - a) <= fuel)%nat ->
  znth codes a <= code < znth codes b ->
  exists a', split_loop fuel codes code (2 * a) (2 * b) = Some (2 * a', 2 * (a' + 1))
             /\ a <= a' < b /\ znth codes a' <= code < znth codes (a' + 1).
Proof.
  intros Hs. induction fuel as [|f IH]; intros a b Hab Hb Hf Hc.
  - lia.
  - cbn [split_loop]. destruct (Z.ltb_spec (2 * b - 2 * a) 4) as [Hlt|Hge].
    + exists a. replace (a + 1) with b by lia. split; [reflexivity|]. split; [lia|].
      replace b with (a + 1) in Hc by lia. replace (a + 1) with b by lia.
      replace b with (a + 1) by lia. exact Hc.
    + rewrite land_m2. replace (2 * a + 2 * b) with (2 * (a + b)) by lia. rewrite div2_exact.
      set (m := (a + b) / 2). assert (Hm : a < m < b) by (unfold m; Zify.zify_pre_hook;
        pose proof (Z.div_mod (a + b) 2 ltac:(lia)); pose proof (Z.mod_pos_bound (a + b) 2 ltac:(lia)); lia).
      rewrite code_at_even by lia.
      destruct (Z.ltb_spec code (znth codes m)) as [Hl|Hl].
      * destruct (IH a m ltac:(lia) ltac:(lia) ltac:(lia) ltac:(lia)) as (a' & E & R & C).
        exists a'. split; [exact E|]. split; [lia|exact C].
      * destruct (IH m b ltac:(lia) ltac:(lia) ltac:(lia) ltac:(lia)) as (a' & E & R & C).
        exists a'. split; [exact E|]. split; [lia|exact C].
Qed.

Lemma znth_nth l (k : nat) : znth l (Z.of_nat k) = nth k l 0.
Proof. unfold znth. rewrite Nat2Z.id. reflexivity. Qed.

(* what split(code) gives: a map m' that has the split point code and denotes what m does, and the
   flat index i of code in it *)
Definition split_post (m : tmap) (code i : Z) (m' : tmap) : Prop :=
  tm_inv m' /\ In code (tm_codes m')
  /\ i = 2 * Z.of_nat (count_lt (tm_codes m') code)
  /\ (forall c, tm_get m' c = tm_get m c)
  /\ (forall x, In x (tm_codes m) -> In x (tm_codes m'))
  /\ (forall x, x <= code -> count_lt (tm_codes m') x = count_lt (tm_codes m) x).

Lemma split_post_found m k : tm_inv m -> (k < length (tm_codes m))%nat ->
  split_post m (nth k (tm_codes m) 0) (2 * Z.of_nat k) m.
Proof.
  intros I Hk. split; [exact I|]. split; [apply nth_In; exact Hk|].
  rewrite (count_lt_nth _ k (inv_sorted m I) Hk). auto.
Qed.

(* map[hi:hi] = [code, map[hi - 1].copy()]: a new split point inside segment k, which keeps its set
   on both sides *)
Definition tm_insert (m : tmap) (k : nat) (code : Z) : tmap :=
  {| tm_codes := firstn (S k) (tm_codes m) ++ code :: skipn (S k) (tm_codes m);
     tm_sets := firstn (S k) (tm_sets m) ++ nth k (tm_sets m) s_empty :: skipn (S k) (tm_sets m) |}.

Lemma split_post_insert m k code : tm_inv m -> (k < length (tm_sets m))%nat ->
  nth k (tm_codes m) 0 < code < nth (S k) (tm_codes m) 0 ->
  split_post m code (2 * Z.of_nat (S k)) (tm_insert m k code).
Proof.
  intros I Hk Hc. unfold split_post, tm_insert. cbn [tm_codes tm_sets].
  pose proof (inv_len m I) as Hlen. pose proof (inv_sorted m I) as Hs.
  set (n := length (tm_sets m)) in *.
  assert (Hcnt : count_le (tm_codes m) code = S k) by (apply count_le_segment; [exact Hs|lia|lia]).
  assert (Hcnt' : count_le (tm_codes m) (code - 1) = S k) by (apply count_le_segment; [exact Hs|lia|lia]).
  split; [|split; [|split; [|split; [|split]]]].
  - constructor; cbn [tm_codes tm_sets]; rewrite ?insert_length by (fold n; lia); fold n.
    + lia.
    + lia.
    + rewrite nth_insert by lia. exact (inv_first m I).
    + rewrite nth_insert by lia.
      destruct (Nat.ltb_spec (S n) (S k)); [lia|]. destruct (Nat.eqb_spec (S n) (S k)); [lia|].
      replace (S n - 1)%nat with n by lia. exact (inv_last m I).
    + apply sorted_insert; [assumption|lia|]. replace (S k - 1)%nat with k by lia. lia.
  - apply in_or_app; right; left; reflexivity.
  - unfold count_lt. rewrite count_le_insert. destruct (Z.leb_spec code (code - 1)); lia.
  - intros c. unfold tm_get. cbn [tm_codes tm_sets]. rewrite count_le_insert, nth_insert by (fold n; lia).
    destruct (Z.leb_spec code c) as [Hle|Hgt].
    + pose proof (count_le_mono (tm_codes m) code c Hle) as Hm. rewrite Hcnt in Hm.
      destruct (Nat.ltb_spec (1 + count_le (tm_codes m) c - 1) (S k)); [lia|].
      destruct (Nat.eqb_spec (1 + count_le (tm_codes m) c - 1) (S k)) as [Heq|Hneq].
      * replace (count_le (tm_codes m) c - 1)%nat with k by lia. reflexivity.
      * f_equal. lia.
    + pose proof (count_le_mono (tm_codes m) c (code - 1) ltac:(lia)) as Hm. rewrite Hcnt' in Hm.
      cbn [Nat.add]. destruct (Nat.ltb_spec (count_le (tm_codes m) c - 1) (S k)); [reflexivity|lia].
  - intros x Hx. rewrite <- (firstn_skipn (S k) (tm_codes m)) in Hx.
    apply in_app_or in Hx. apply in_or_app. destruct Hx; [left; assumption|right; right; assumption].
  - intros x Hx. unfold count_lt. rewrite count_le_insert. destruct (Z.leb_spec code (x - 1)); lia.
Qed.

(* the split point is found (maxint directly, the others by the search) or inserted *)
Lemma tm_split_spec m code : tm_inv m -> - maxint <= code <= maxint ->
  exists i m', tm_split m code = Some (i, m') /\ split_post m code i m'.
Proof.
  intros I Hc. unfold tm_split.
  pose proof (inv_len m I) as Hlen. pose proof (inv_n m I) as Hn.
  pose proof (inv_sorted m I) as Hs. pose proof (inv_last m I) as HL. pose proof (inv_first m I) as HF.
  set (n := length (tm_sets m)) in *.
  destruct (Z.eqb_spec code maxint) as [Heq|Hne].
  { eexists _, m. split; [reflexivity|]. rewrite Heq, <- HL. apply split_post_found; [exact I|lia]. }
  destruct (split_loop_spec (tm_codes m) code Hs (length (tm_codes m)) 0 (Z.of_nat n))
    as (a' & E & R & C); try lia.
  { rewrite znth_nth. unfold znth. cbn [Z.to_nat]. rewrite HF, HL. lia. }
  change (2 * 0) with 0 in E. rewrite E, code_at_even by lia.
  set (k := Z.to_nat a') in *. replace a' with (Z.of_nat k) in * by lia.
  replace (Z.of_nat k + 1) with (Z.of_nat (S k)) in * by lia. rewrite !znth_nth in *.
  destruct (Z.eqb_spec (nth k (tm_codes m) 0) code) as [Heq|Hneq].
  { eexists _, m. split; [reflexivity|]. rewrite <- Heq. apply split_post_found; [exact I|lia]. }
  rewrite div2_exact, Nat2Z.id. replace (S k - 1)%nat with k by lia.
  exists (2 * Z.of_nat (S k)), (tm_insert m k code). split; [reflexivity|].
  apply split_post_insert; [exact I|lia|lia].
Qed.

Lemma upd_from_nth i j s : forall sets k0 k, (k < length sets)%nat ->
  nth k (upd_from k0 i j s sets) s_empty =
  if (i <=? 2 * (k0 + Z.of_nat k)) && (2 * (k0 + Z.of_nat k) <? j)
  then s_union (nth k sets s_empty) s else nth k sets s_empty.
Proof.
  induction sets as [|x t IH]; intros k0 k Hk; [cbn in Hk; lia|].
  cbn [upd_from]. destruct k as [|k].
  - cbn [nth]. replace (k0 + Z.of_nat 0) with k0 by lia. reflexivity.
  - cbn [nth]. rewrite IH by (cbn in Hk; lia). replace (k0 + 1 + Z.of_nat k) with (k0 + Z.of_nat (S k)) by lia.
    reflexivity.
Qed.

Lemma upd_from_length i j s : forall sets k0, length (upd_from k0 i j s sets) = length sets.
Proof. induction sets; intros; cbn; [reflexivity|]. rewrite IHsets. reflexivity. Qed.

Theorem tm_add_set_spec m c0 c1 s : tm_inv m -> - maxint <= c0 <= maxint -> - maxint <= c1 <= maxint ->
  exists m', tm_add_set m c0 c1 s = Some m' /\ tm_inv m'
    /\ forall c, - maxint <= c < maxint ->
         tm_get m' c = if (c0 <=? c) && (c <? c1) then s_union (tm_get m c) s else tm_get m c.
Proof.
  intros I H0 H1. unfold tm_add_set.
  destruct (tm_split_spec m c0 I H0) as (i & m1 & E1 & I1 & In1 & Ei & G1 & M1 & C1).
  rewrite E1.
  destruct (tm_split_spec m1 c1 I1 H1) as (j & m2 & E2 & I2 & In2 & Ej & G2 & M2 & C2).
  rewrite E2. eexists. split; [reflexivity|]. split.
  - destruct I2. constructor; cbn [tm_codes tm_sets]; rewrite ?upd_from_length; assumption.
  - intros c Hc. unfold tm_get at 1. cbn [tm_codes tm_sets].
    pose proof (count_le_pos m2 c I2 ltac:(lia)) as Hp.
    pose proof (count_le_lt_n m2 c I2 ltac:(lia)) as Hq.
    rewrite upd_from_nth by lia.
    fold (tm_get m2 c). rewrite G2, G1.
    replace (0 + Z.of_nat (count_le (tm_codes m2) c - 1)) with (Z.of_nat (count_le (tm_codes m2) c) - 1) by lia.
    pose proof (count_lt_in (tm_codes m2) c c1 (inv_sorted m2 I2) In2) as HA.
    pose proof (count_lt_in (tm_codes m2) c c0 (inv_sorted m2 I2) (M2 _ In1)) as HB.
    (* for an inverted range j <= i and nothing is updated *)
    assert (Hij : (c0 <= c1 -> i = 2 * Z.of_nat (count_lt (tm_codes m2) c0)) /\ (c1 < c0 -> j <= i)).
    { split; intros H; [rewrite <- (C2 c0 H) in Ei; exact Ei|].
      pose proof (count_le_mono (tm_codes m1) (c1 - 1) (c0 - 1) ltac:(lia)) as Hmono.
      fold (count_lt (tm_codes m1) c1) in Hmono. rewrite <- (C2 c1 ltac:(lia)) in Hmono.
      fold (count_lt (tm_codes m1) c0) in Hmono. lia. }
    destruct (Z.leb_spec c0 c), (Z.ltb_spec c c1);
      match goal with |- (if ?b then _ else _) = _ => destruct b eqn:Eb end; try reflexivity; exfalso; lia.
Qed.

Corollary tm_add_spec m c0 c1 st : tm_inv m -> - maxint <= c0 <= maxint -> - maxint <= c1 <= maxint ->
  exists m', tm_add m c0 c1 st = Some m' /\ tm_inv m'
    /\ forall c, - maxint <= c < maxint ->
         tm_get m' c = if (c0 <=? c) && (c <? c1) then s_add st (tm_get m c) else tm_get m c.
Proof.
  intros I H0 H1. destruct (tm_add_set_spec m c0 c1 (s_single st) I H0 H1) as (m' & E & I' & G).
  exists m'. split; [exact E|]. split; [exact I'|]. intros c Hc. rewrite (G c Hc).
  destruct ((c0 <=? c) && (c <? c1)); [|reflexivity].
  unfold s_union, s_single, s_add, s_empty. apply N.bits_inj. intros k.
  rewrite N.lor_spec, !N.setbit_eqb, N.bits_0. destruct (N.eqb_spec (N.of_nat st) k); cbn;
    rewrite ?orb_true_r, ?orb_false_r; reflexivity.
Qed.

(* every history of add / add_set refines the abstract map *)
Inductive tm_op := OpAdd (c0 c1 : Z) (st : nat) | OpAddSet (c0 c1 : Z) (s : sset).

Definition op_ok (o : tm_op) : Prop :=
  match o with OpAdd c0 c1 _ | OpAddSet c0 c1 _ => - maxint <= c0 <= maxint /\ - maxint <= c1 <= maxint end.

Definition tm_apply (m : tmap) (o : tm_op) : option tmap :=
  match o with OpAdd c0 c1 st => tm_add m c0 c1 st | OpAddSet c0 c1 s => tm_add_set m c0 c1 s end.

Fixpoint tm_run (m : tmap) (ops : list tm_op) : option tmap :=
  match ops with [] => Some m | o :: t => do m' <- tm_apply m o; tm_run m' t end.

(* the abstract map *)
Definition f_apply (f : Z -> sset) (o : tm_op) : Z -> sset :=
  fun c => match o with
           | OpAdd c0 c1 st => if (c0 <=? c) && (c <? c1) then s_add st (f c) else f c
           | OpAddSet c0 c1 s => if (c0 <=? c) && (c <? c1) then s_union (f c) s else f c
           end.
Definition f_run (f : Z -> sset) (ops : list tm_op) : Z -> sset := fold_left f_apply ops f.

Theorem tm_refines ops : forall m f, tm_inv m -> Forall op_ok ops ->
  (forall c, - maxint <= c < maxint -> tm_get m c = f c) ->
  exists m', tm_run m ops = Some m' /\ tm_inv m'
    /\ forall c, - maxint <= c < maxint -> tm_get m' c = f_run f ops c.
Proof.
  induction ops as [|o t IH]; intros m f I Hok Hf.
  - exists m. cbn. auto.
  - inversion Hok as [|? ? Ho Ht]; subst. cbn [tm_run].
    assert (exists m1, tm_apply m o = Some m1 /\ tm_inv m1 /\
              forall c, - maxint <= c < maxint -> tm_get m1 c = f_apply f o c) as (m1 & E & I1 & G1).
    { destruct o as [c0 c1 st|c0 c1 s]; cbn in Ho; destruct Ho as [Ha Hb]; cbn [tm_apply f_apply];
        [destruct (tm_add_spec m c0 c1 st I Ha Hb) as (m1 & E & I1 & G)
        |destruct (tm_add_set_spec m c0 c1 s I Ha Hb) as (m1 & E & I1 & G)];
        exists m1; (split; [exact E|]); (split; [exact I1|]);
        intros c Hc; rewrite (G c Hc), (Hf c Hc); reflexivity. }
    rewrite E. destruct (IH m1 (f_apply f o) I1 Ht G1) as (m' & E' & I' & G').
    exists m'. split; [exact E'|]. split; [exact I'|]. exact G'.
Qed.

Lemma items_loop_cons els a b t x s :
  items_loop els (a :: b :: t) (x :: s) =
  (if negb (s_is_empty x) || els then [(a, b, x)] else []) ++ items_loop els (b :: t) s.
Proof. reflexivity. Qed.

(* every item is a segment with its set; a segment is listed iff its set or S_0 is non-empty *)
Lemma items_loop_spec els : forall codes sets c0 c1 s,
  In (c0, c1, s) (items_loop els codes sets) <->
  exists k, (k < length sets)%nat /\ (S k < length codes)%nat /\ nth k codes 0 = c0 /\ nth (S k) codes 0 = c1
            /\ nth k sets s_empty = s /\ (negb (s_is_empty s) || els = true).
Proof.
  induction codes as [|a t IH]; intros sets c0 c1 s.
  - cbn. split; [contradiction|]. intros (k & _ & H & _). lia.
  - destruct t as [|b t'].
    + cbn. split; [contradiction|]. intros (k & _ & H & _). lia.
    + destruct sets as [|x sets'].
      * cbn. split; [contradiction|]. intros (k & H & _). lia.
      * rewrite items_loop_cons, in_app_iff, IH. split.
        -- intros [H|(k & Hk1 & Hk2 & E0 & E1 & Es & Hne)].
           ++ destruct (negb (s_is_empty x) || els) eqn:Eb; [|contradiction].
              destruct H as [H|[]]. inversion H; subst. exists O. cbn. repeat split; try lia.
           ++ exists (S k). cbn [nth length] in *. repeat split; try lia; assumption.
        -- intros (k & Hk1 & Hk2 & E0 & E1 & Es & Hne). destruct k as [|k].
           ++ left. cbn [nth] in *. subst. rewrite Hne. left. reflexivity.
           ++ right. exists k. cbn [nth length] in *. repeat split; try lia; assumption.
Qed.
