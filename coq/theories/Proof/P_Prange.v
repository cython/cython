(* C37 -- proofs about Model/M_Prange.v, in its three parts: the iteration space of the generated loop,
   reductions under any schedule, the exception hand-off after the region. *)
From Coq Require Import ZArith List Bool Lia ZifyBool Permutation.
From CyVerif Require Import Lib.CInt Model.M_Prange Proof.P_IntPow.
Import ListNotations.
Open Scope Z_scope.

Lemma c_abs_int_fits step : Z.abs step <= 2 ^ 31 - 1 -> c_abs_int step = Z.abs step.
Proof.
  intros H. unfold c_abs_int. rewrite wrap_id; [reflexivity|lia|].
  unfold in_range, min_int, max_int. change (32 - 1) with 31. lia.
Qed.

Lemma quot_sign step : step <> 0 -> Z.quot step (Z.abs step) = Z.sgn step.
Proof.
  intros H. destruct (Z.lt_trichotomy step 0) as [N|[E|P]]; [|contradiction|].
  - rewrite Z.abs_neq by lia. rewrite Z.quot_opp_r by lia. rewrite Z.quot_same by lia. lia.
  - rewrite Z.abs_eq by lia. rewrite Z.quot_same by lia. lia.
Qed.

Lemma nsteps_sgn start stop step : step <> 0 ->
  nsteps start stop step = Some (Z.quot (stop - start + step - Z.sgn step) step).
Proof.
  intros Hs. unfold nsteps, b2z. destruct (Z.eqb_spec step 0); [contradiction|].
  do 2 f_equal. destruct (Z.ltb_spec 0 step), (Z.ltb_spec step 0); lia.
Qed.

Lemma nsteps_old_fits start stop step : step <> 0 -> Z.abs step <= 2 ^ 31 - 1 ->
  nsteps_old start stop step = nsteps start stop step.
Proof.
  intros Hs Hfit. rewrite nsteps_sgn by assumption. unfold nsteps_old.
  rewrite c_abs_int_fits by assumption.
  replace ((step =? 0) || (Z.abs step =? 0)) with false by lia.
  now rewrite quot_sign.
Qed.

(* C division rounds towards zero; the numerator is shifted so that it yields the ceiling of d / s
   for d > 0 and something non-positive otherwise *)
Lemma quot_ceil d s : 0 < s -> Z.max 0 (Z.quot (d + s - 1) s) = if 0 <? d then (d - 1) / s + 1 else 0.
Proof.
  intros Hs. destruct (Z.ltb_spec 0 d) as [Hp|Hn].
  - rewrite Z.quot_div_nonneg by lia.
    replace (d + s - 1) with ((d - 1) + 1 * s) by lia. rewrite Z.div_add by lia.
    assert (0 <= (d - 1) / s) by (apply Z.div_pos; lia). lia.
  - assert (Hq : Z.quot (d + s - 1) s <= 0).
    { destruct (Z.le_gt_cases 0 (d + s - 1)).
      - rewrite Z.quot_small by lia. lia.
      - pose proof (Z.mul_quot_ge (d + s - 1) s ltac:(lia) ltac:(lia)). nia. }
    lia.
Qed.

Theorem nsteps_count start stop step :
  step <> 0 ->
  exists n, nsteps start stop step = Some n /\ Z.max 0 n = py_range_len start stop step.
Proof.
  intros Hs. rewrite nsteps_sgn by assumption.
  eexists; split; [reflexivity|].
  unfold py_range_len. destruct (Z.ltb_spec 0 step) as [Hp|Hn].
  - rewrite Z.sgn_pos, quot_ceil by lia. replace (0 <? stop - start) with (start <? stop) by lia. reflexivity.
  - rewrite Z.sgn_neg, <- (Z.quot_opp_opp _ step) by lia.
    replace (- (stop - start + step - -1)) with (start - stop + - step - 1) by lia.
    rewrite quot_ceil by lia. replace (0 <? start - stop) with (stop <? start) by lia. reflexivity.
Qed.

Lemma loop_indices_max n : loop_indices n = loop_indices (Z.max 0 n).
Proof.
  unfold loop_indices. destruct (Z.le_gt_cases 0 n); [now rewrite Z.max_r by lia|].
  rewrite Z.max_l by lia. replace (Z.to_nat n) with O by lia. reflexivity.
Qed.

(* the values assigned to the loop target by the generated loop = list(range(start, stop, step)) *)
Theorem prange_values_eq start stop step :
  step <> 0 ->
  prange_values start stop step = Some (py_range start stop step).
Proof.
  intros Hs. destruct (nsteps_count start stop step Hs) as (n & Hn & Hlen).
  unfold prange_values. rewrite Hn. f_equal. unfold py_range. rewrite <- Hlen.
  rewrite loop_indices_max. unfold loop_indices. rewrite map_map. reflexivity.
Qed.

(* lastprivate: the value the target has after the loop is that of the last logical iteration *)
Theorem lastprivate_is_last start stop step :
  step <> 0 -> 0 < py_range_len start stop step ->
  exists vs, prange_values start stop step = Some vs /\
             last vs start = start + step * (py_range_len start stop step - 1).
Proof.
  intros Hs Hpos. eexists; split; [apply prange_values_eq; assumption|].
  unfold py_range. set (k := py_range_len start stop step) in *.
  replace (Z.to_nat k) with (S (Z.to_nat (k - 1))) by lia.
  rewrite seq_S, map_app. cbn [map]. rewrite last_last. f_equal. f_equal. lia.
Qed.

(* finding: abs() is int abs(int): a step that is a non-zero multiple of 2^32 makes the C
   expression divide by zero *)
Theorem nsteps_old_abs_truncation_refuted :
  (exists start stop step, step <> 0 /\ nsteps_old start stop step = None) /\
  (exists start stop step n, nsteps_old start stop step = Some n /\ Z.max 0 n <> py_range_len start stop step).
Proof.
  split.
  - exists 0, 10, 4294967296. split; [lia|]. vm_compute. reflexivity.
  - exists 0, 4294967298, 4294967297, 1. split; vm_compute; [reflexivity|discriminate].
Qed.

(* a commutative monoid on a sub-domain P (for a C type: its representable values) *)
Section MonoidOn.
  Context {A : Type} (P : A -> Prop) (op : A -> A -> A) (e : A).
  Hypothesis P_op : forall a b, P (op a b).
  Hypothesis op_assoc : forall a b c, op a (op b c) = op (op a b) c.
  Hypothesis op_comm : forall a b, op a b = op b a.
  Hypothesis op_id : forall a, P a -> op a e = a.

  Lemma fold_P l : forall a, P a -> P (fold_left op l a).
  Proof. induction l as [|x l IH]; intros a Ha; cbn [fold_left]; [assumption|]. apply IH, P_op. Qed.

  Lemma fold_init_on l : Forall P l -> forall a, P a -> fold_left op l a = op a (fold_left op l e).
  Proof.
    induction 1 as [|x l Hx Hl IH]; intros a Ha; cbn [fold_left]; [now rewrite op_id|].
    rewrite (IH (op a x)) by apply P_op. rewrite (IH (op e x)) by apply P_op.
    rewrite (op_comm e x), (op_id x Hx). symmetry. apply op_assoc.
  Qed.

  Lemma fold_perm_on l l' : Permutation l l' -> forall a, fold_left op l a = fold_left op l' a.
  Proof.
    induction 1 as [|x l l' _ IH|x y l|l1 l2 l3 _ IH1 _ IH2]; intros a; cbn [fold_left].
    - reflexivity.
    - apply IH.
    - f_equal. rewrite <- !op_assoc. f_equal. apply op_comm.
    - now rewrite IH1.
  Qed.

  Lemma fold_partials_on (chunks : list (list A)) : Forall (Forall P) chunks -> forall a, P a ->
    fold_left op (map (fun c => fold_left op c e) chunks) a = fold_left op (concat chunks) a.
  Proof.
    induction 1 as [|c cs Hc Hcs IH]; intros a Ha; cbn [map concat fold_left]; [reflexivity|].
    rewrite fold_left_app. rewrite <- (fold_init_on c Hc a Ha). apply IH. now apply fold_P.
  Qed.

  (* every partition of every permutation of the contributions, partial results in any order *)
  Theorem reduction_on (xs : list A) (chunks : list (list A)) (partials : list A) init :
    Forall P xs -> P init ->
    Permutation (concat chunks) xs ->
    Permutation partials (map (fun c => fold_left op c e) chunks) ->
    fold_left op partials init = fold_left op xs init.
  Proof.
    intros Hxs Hi Hc Hp. rewrite (fold_perm_on _ _ Hp).
    rewrite fold_partials_on; [now apply fold_perm_on| |assumption].
    assert (Hall : Forall P (concat chunks)).
    { rewrite Forall_forall in *. intros x Hx. apply Hxs. eapply Permutation_in; eassumption. }
    clear - Hall. induction chunks as [|c cs IH]; [constructor|].
    cbn [concat] in Hall. rewrite Forall_app in Hall. destruct Hall. constructor; auto.
  Qed.
End MonoidOn.

Section Monoid.
  Context {A : Type} (op : A -> A -> A) (e : A).
  Hypothesis op_assoc : forall a b c, op a (op b c) = op (op a b) c.
  Hypothesis op_comm : forall a b, op a b = op b a.
  Hypothesis op_id : forall a, op a e = a.

  Lemma seq_reduce_map (f : Z -> A) l a : seq_reduce op f a l = fold_left op (map f l) a.
  Proof. unfold seq_reduce. revert a. induction l as [|x l IH]; intros a; cbn; [reflexivity|apply IH]. Qed.

  (* any partition of any permutation of the iterations, partial results combined in any order *)
  Theorem reduction_schedule_independent (f : Z -> A) init idxs chunks partials :
    Permutation (concat chunks) idxs ->
    Permutation partials (map (seq_reduce op f e) chunks) ->
    fold_left op partials init = seq_reduce op f init idxs.
  Proof.
    intros Hc Hp. rewrite seq_reduce_map.
    apply (reduction_on (fun _ => True) op e) with (chunks := map (map f) chunks); auto.
    - apply Forall_forall. auto.
    - rewrite <- concat_map. apply Permutation_map, Hc.
    - rewrite map_map. erewrite map_ext; [exact Hp|]. intros c. symmetry. apply seq_reduce_map.
  Qed.
End Monoid.

(* the reduction operators Cython accepts, on mathematical integers ... *)
Definition reduce_ops : list ((Z -> Z -> Z) * Z) :=
  [(Z.add, 0); (Z.mul, 1); (Z.land, -1); (Z.lor, 0); (Z.lxor, 0)].

Lemma reduce_ops_monoid : forall op e, In (op, e) reduce_ops ->
  (forall a b c, op a (op b c) = op (op a b) c) /\ (forall a b, op a b = op b a) /\ (forall a, op a e = a).
Proof.
  intros op e H. cbn in H.
  destruct H as [H|[H|[H|[H|[H|[]]]]]]; inversion H; subst; clear H.
  - repeat split; intros; lia.
  - repeat split; intros; lia.
  - repeat split; intros; [apply Z.land_assoc | apply Z.land_comm | apply Z.land_m1_r].
  - repeat split; intros; [apply Z.lor_assoc | apply Z.lor_comm | apply Z.lor_0_r].
  - repeat split; intros; [symmetry; apply Z.lxor_assoc | apply Z.lxor_comm | apply Z.lxor_0_r].
Qed.

(* ... and on a C integer type with wrap-around.  The operations + - * & | ^ respect congruence
   modulo 2^w (a negative w makes the congruence equality) *)
Definition cong (w x y : Z) : Prop := x mod 2 ^ w = y mod 2 ^ w.
Definition resp (w : Z) (f : Z -> Z -> Z) : Prop :=
  forall a a' b b', cong w a a' -> cong w b b' -> cong w (f a b) (f a' b').

Lemma resp_add {w} : resp w Z.add.
Proof. intros a a' b b' H1 H2. unfold cong in *. rewrite (Zplus_mod a), (Zplus_mod a'), H1, H2. reflexivity. Qed.
Lemma resp_sub {w} : resp w Z.sub.
Proof. intros a a' b b' H1 H2. unfold cong in *. rewrite (Zminus_mod a), (Zminus_mod a'), H1, H2. reflexivity. Qed.
Lemma resp_mul {w} : resp w Z.mul.
Proof. intros a a' b b' H1 H2. unfold cong in *. rewrite (Zmult_mod a), (Zmult_mod a'), H1, H2. reflexivity. Qed.

(* a bitwise operation acts on the low w bits alone *)
Lemma resp_bitwise {w} f g :
  (forall a b k, Z.testbit (f a b) k = g (Z.testbit a k) (Z.testbit b k)) -> resp w f.
Proof.
  intros Hf a a' b b' H1 H2. unfold cong in *. destruct (Z.lt_ge_cases w 0) as [Hn|Hw].
  { rewrite Z.pow_neg_r, !Zmod_0_r in * by exact Hn. now subst. }
  apply Z.bits_inj'. intros k Hk. destruct (Z.lt_ge_cases k w).
  - rewrite !Z.mod_pow2_bits_low, !Hf by lia.
    rewrite <- (Z.mod_pow2_bits_low a w k), <- (Z.mod_pow2_bits_low b w k), H1, H2, !Z.mod_pow2_bits_low by lia.
    reflexivity.
  - rewrite !Z.mod_pow2_bits_high by lia. reflexivity.
Qed.
Lemma resp_land {w} : resp w Z.land.
Proof. exact (resp_bitwise _ andb Z.land_spec). Qed.
Lemma resp_lor {w} : resp w Z.lor.
Proof. exact (resp_bitwise _ orb Z.lor_spec). Qed.
Lemma resp_lxor {w} : resp w Z.lxor.
Proof. exact (resp_bitwise _ xorb Z.lxor_spec). Qed.

Definition addw w s a b := wrap w s (a + b).
Definition mulw w s a b := wrap w s (a * b).

(* transfer: for such an operation the wrapped sequential fold is the mathematical fold reduced to the
   type, so a sequential C loop and the Z-level theorem above speak about the same value modulo 2^w *)
Lemma fold_wrap (f : Z -> Z -> Z) w s : 1 <= w -> resp w f ->
  forall l a, wrap w s (fold_left (fun a b => wrap w s (f a b)) l a) = wrap w s (fold_left f l a).
Proof.
  intros Hw Hf.
  assert (G : forall l u v, cong w u v -> wrap w s (fold_left f l u) = wrap w s (fold_left f l v)).
  { induction l as [|y l IH]; intros u v E; cbn [fold_left]; [now apply wrap_eq_of_mod|].
    apply IH, Hf; [exact E|reflexivity]. }
  induction l as [|x l IH]; intros a; cbn [fold_left]; [reflexivity|].
  rewrite IH. apply G. apply wrap_mod. exact Hw.
Qed.

Definition opt_list (o : option Z) : list Z := match o with Some x => [x] | None => [] end.

Lemma run_app evs1 evs2 : run (evs1 ++ evs2) = fold_left step evs2 (run evs1).
Proof. unfold run. apply fold_left_app. Qed.

(* conservation: after any sequence of events, the raised exception objects are exactly the saved
   one plus those left pending in thread states (as multisets) *)
Lemma conservation_gen evs : forall s,
  Permutation (opt_list (saved (fold_left step evs s)) ++ map snd (pending (fold_left step evs s)))
              (opt_list (saved s) ++ map snd (pending s) ++ raised evs).
Proof.
  induction evs as [|ev evs IH]; intros s; cbn [fold_left raised flat_map].
  - rewrite app_nil_r. reflexivity.
  - rewrite IH. destruct ev as [t e|t k]; cbn [step].
    + unfold fetch. destruct (saved s) as [x|] eqn:Hs; cbn [saved pending opt_list map snd app].
      * apply perm_skip. fold (raised evs).
        change (e :: map snd (pending s) ++ raised evs) with ((e :: map snd (pending s)) ++ raised evs).
        apply (Permutation_middle (map snd (pending s)) (raised evs) e).
      * change ([e] ++ raised evs) with (e :: raised evs).
        apply Permutation_middle.
    + cbn [saved pending]. reflexivity.
Qed.

Theorem exceptions_conserved evs :
  Permutation (raised evs) (opt_list (snd (fst (finish (run evs)))) ++ snd (finish (run evs))).
Proof.
  unfold finish. cbn [fst snd]. unfold run.
  pose proof (conservation_gen evs h0) as H. cbn [h0 saved pending opt_list map app] in H.
  symmetry. exact H.
Qed.

(* the exception re-raised in the caller is the first one fetched; nothing is saved iff nothing raised *)
Lemma saved_first_gen evs : forall s,
  saved (fold_left step evs s) = match saved s with Some x => Some x | None => hd_error (raised evs) end.
Proof.
  induction evs as [|ev evs IH]; intros s; cbn [fold_left raised flat_map].
  - destruct (saved s); reflexivity.
  - rewrite IH. destruct ev as [t e|t k]; cbn [step].
    + unfold fetch. destruct (saved s); cbn [saved app hd_error]; reflexivity.
    + cbn [saved app]. reflexivity.
Qed.

Theorem saved_is_first_raised evs : snd (fst (finish (run evs))) = hd_error (raised evs).
Proof. unfold finish, run. cbn [fst snd]. rewrite saved_first_gen. reflexivity. Qed.

(* each raised exception object is disposed of exactly once: if the raised objects are pairwise
   distinct, so are (re-raised ++ released), and they are the same objects *)
Theorem each_exception_once evs :
  NoDup (raised evs) ->
  NoDup (opt_list (snd (fst (finish (run evs)))) ++ snd (finish (run evs))) /\ (forall e, In e (raised evs) <-> In e (opt_list (snd (fst (finish (run evs)))) ++ snd (finish (run evs)))).
Proof.
  intros Hnd. pose proof (exceptions_conserved evs) as P. split.
  - eapply Permutation_NoDup; eassumption.
  - intros e. split; intros H; [eapply Permutation_in; eassumption|].
    eapply Permutation_in; [apply Permutation_sym|]; eassumption.
Qed.

Lemma why_no_raise evs : forall s, raised evs = [] ->
  why (fold_left step evs s) = why s \/ (exists t k, In (Exit t k) evs /\ why (fold_left step evs s) = k).
Proof.
  induction evs as [|ev evs IH]; intros s Hr; cbn [fold_left]; [now left|].
  destruct ev as [t e|t k]; cbn [raised flat_map app] in Hr; [discriminate|].
  destruct (IH (step s (Exit t k)) Hr) as [H|(t' & k' & Hin & Hk)].
  - right. exists t, k. split; [now left|]. rewrite H. reflexivity.
  - right. exists t', k'. split; [now right|assumption].
Qed.

(* errors win: the dispatch value after the region is 4 iff some thread raised; otherwise it is
   0 or one of the exit kinds (1 continue, 2 break, 3 return) some thread wrote *)
Theorem why_is_allowed_outcome evs :
  (forall t k, In (Exit t k) evs -> 1 <= k <= 3) ->
  let w := fst (fst (finish (run evs))) in
  (w = 4 <-> raised evs <> []) /\
  (raised evs = [] -> w = 0 \/ exists t k, In (Exit t k) evs /\ w = k).
Proof.
  intros Hwf. cbn zeta. unfold finish. cbn [fst].
  pose proof (saved_is_first_raised evs) as Hs. unfold finish in Hs. cbn [fst snd] in Hs.
  assert (Hnone : raised evs = [] ->
                  why (run evs) = 0 \/ exists t k, In (Exit t k) evs /\ why (run evs) = k).
  { intros Hr. unfold run. destruct (why_no_raise evs h0 Hr) as [E|E]; [left; rewrite E; reflexivity|right; exact E]. }
  split; [split|].
  - intros Hw Hr. rewrite Hs, Hr in Hw. cbn [hd_error] in Hw.
    destruct (Hnone Hr) as [E|(t & k & Hin & Hk)]; [lia|]. specialize (Hwf t k Hin). lia.
  - intros Hr. rewrite Hs. destruct (raised evs); [contradiction|reflexivity].
  - intros Hr. rewrite Hs, Hr. cbn [hd_error]. exact (Hnone Hr).
Qed.
