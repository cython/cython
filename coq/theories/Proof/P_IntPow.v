(* Proofs for Model/M_IntPow.v (C07): the square-and-multiply loop of __Pyx_pow_<type> returns b^e reduced
   to the C type.  wrap respects + and * modulo 2^w (wrap_mod, wrap_eq_of_mod), so the loop invariant
   (t * b^e is the result) is kept modulo 2^w although every product is wrapped on the way; one exponent bit
   goes per iteration, so w iterations are enough.  At the end the 2**n fast path of Optimize.c. *)
From Coq Require Import ZArith List Bool Lia ZifyBool.
From CyVerif Require Import Lib.CInt Model.M_IntPow.
Open Scope Z_scope.

(* wrap is a ring homomorphism modulo 2^w: Lib.CInt.wrap_mod and wrap_eq_of_mod carry the facts below *)

Lemma pow_mod_l a k n : 0 < n -> 0 <= k -> (a mod n) ^ k mod n = a ^ k mod n.
Proof.
  intros Hn Hk. pattern k. apply natlike_ind; [reflexivity | | exact Hk].
  intros x Hx IH. rewrite !Z.pow_succ_r by lia.
  rewrite Z.mul_mod, IH, Z.mod_mod by lia. rewrite <- Z.mul_mod by lia. reflexivity.
Qed.

(* --- the "1 or b" factor ---------------------------------------------------------------- *)

Lemma mod2_cases e : e mod 2 = 0 \/ e mod 2 = 1.
Proof. Z.to_euclidean_division_equations. lia. Qed.

Lemma land_1 e : Z.land e 1 = e mod 2.
Proof. change 1 with (Z.ones 1). rewrite Z.land_ones by lia. reflexivity. Qed.

Lemma lnot_land_1 e : Z.land (Z.lnot e) 1 = 1 - e mod 2.
Proof. rewrite land_1. unfold Z.lnot. Z.to_euclidean_division_equations. lia. Qed.

Lemma wrap_0 w s : 1 <= w -> wrap w s 0 = 0.
Proof. intros Hw. apply wrap_id; [exact Hw|]. apply min_max_sign, Hw. Qed.

Lemma pow_factor_spec w s b e : 1 <= w -> in_range w s b ->
  pow_factor w s b e = if e mod 2 =? 1 then b else 1.
Proof.
  intros Hw Hb. unfold pow_factor. rewrite lnot_land_1, land_1.
  destruct (mod2_cases e) as [H|H]; rewrite H; cbn [Z.eqb Pos.eqb].
  - rewrite Z.mul_0_r, wrap_0 by lia. reflexivity.
  - rewrite Z.mul_1_r, wrap_id by assumption. apply Z.lor_0_r.
Qed.

(* --- the loop ----------------------------------------------------------------------------- *)

Lemma pow_split b e : 0 <= e -> b ^ e = (b * b) ^ (e / 2) * (if e mod 2 =? 1 then b else 1).
Proof.
  intros He. rewrite <- Z.pow_2_r, <- Z.pow_mul_r by (try lia; Z.to_euclidean_division_equations; lia).
  pose proof (Z.div_mod e 2 ltac:(lia)) as E.
  destruct (mod2_cases e) as [H|H]; rewrite H in *; cbn [Z.eqb Pos.eqb].
  - rewrite Z.mul_1_r. f_equal. lia.
  - replace e with (2 * (e / 2) + 1) at 1 by lia.
    rewrite Z.pow_add_r, Z.pow_1_r by (try lia; Z.to_euclidean_division_equations; lia). reflexivity.
Qed.

(* one exponent bit per iteration *)
Lemma half_fuel e f : 0 <= e < 2 ^ Z.of_nat (S f) -> 0 <= e / 2 < 2 ^ Z.of_nat f.
Proof.
  intros He. rewrite Nat2Z.inj_succ, Z.pow_succ_r in He by lia.
  split; [apply Z.div_pos; lia|apply Z.div_lt_upper_bound; lia].
Qed.

Lemma pow_loop_correct fuel : forall w s t b e,
  1 <= w -> in_range w s t -> in_range w s b -> 0 <= e < 2 ^ Z.of_nat fuel ->
  pow_loop fuel w s t b e = Some (wrap w s (t * b ^ e)).
Proof.
  induction fuel as [|f IH]; intros w s t b e Hw Ht Hb He.
  - assert (e = 0) by (cbn in He; lia). subst e. cbn. rewrite Z.mul_1_r, wrap_id by assumption. reflexivity.
  - cbn [pow_loop]. destruct (Z.eqb_spec e 0) as [->|Hne].
    + rewrite Z.pow_0_r, Z.mul_1_r, wrap_id by assumption. reflexivity.
    + rewrite pow_factor_spec by assumption.
      rewrite Z.shiftr_div_pow2 by lia. change (2 ^ 1) with 2.
      pose proof (pow2_pos w ltac:(lia)) as P. pose proof (half_fuel e f He) as Hdiv.
      set (fac := if e mod 2 =? 1 then b else 1).
      set (b' := if e / 2 =? 0 then b else wrap w s (b * b)).
      (* when no exponent bit is left the base is not squared any more, and not used either *)
      assert (Hb' : b' ^ (e / 2) mod 2 ^ w = (b * b) ^ (e / 2) mod 2 ^ w).
      { unfold b'. destruct (Z.eqb_spec (e / 2) 0) as [->|]; [reflexivity|].
        rewrite <- (pow_mod_l (wrap w s (b * b))), wrap_mod, pow_mod_l by lia. reflexivity. }
      rewrite IH; try assumption;
        [|apply wrap_in_range; lia|unfold b'; destruct (_ =? 0); [assumption|apply wrap_in_range; lia]].
      f_equal. apply wrap_eq_of_mod; [exact Hw|].
      rewrite (pow_split b e) by lia. fold fac.
      rewrite Z.mul_mod, wrap_mod, Hb', <- Z.mul_mod by lia. f_equal. ring.
Qed.

(* --- main theorems ------------------------------------------------------------------------ *)

Lemma in_range_1 w s : 2 <= w -> in_range w s 1.
Proof. intros Hw. apply in_range_nonneg_iff; [lia|lia|]. apply Z.pow_gt_1; destruct s; lia. Qed.

Lemma in_range_lt_pow w s e : 2 <= w -> in_range w s e -> e < 2 ^ Z.of_nat (Z.to_nat w).
Proof.
  intros Hw He. rewrite Z2Nat.id by lia. unfold in_range, min_int, max_int in He.
  pose proof (pow2_split w ltac:(lia)). pose proof (pow2_pos (w - 1) ltac:(lia)). destruct s; lia.
Qed.

(* for every width, signedness, base and non-negative exponent: the result is b^e reduced to the type *)
Theorem int_pow_wrap w s b e :
  2 <= w -> in_range w s b -> in_range w s e -> 0 <= e ->
  int_pow w s b e = Some (wrap w s (b ^ e)).
Proof.
  intros Hw Hb He He0. unfold int_pow. assert (Hw1 : 1 <= w) by lia.
  destruct (Z.eqb_spec e 3) as [->|N3].
  { f_equal. apply wrap_eq_of_mod; [lia|]. pose proof (pow2_pos w ltac:(lia)).
    rewrite Z.mul_mod, wrap_mod, <- Z.mul_mod by lia. f_equal. ring. }
  destruct (Z.eqb_spec e 2) as [->|N2]; [f_equal; f_equal; ring|].
  destruct (Z.eqb_spec e 1) as [->|N1]; [rewrite Z.pow_1_r, wrap_id by assumption; reflexivity|].
  destruct (Z.eqb_spec e 0) as [->|N0]; [rewrite Z.pow_0_r, wrap_id by (try lia; apply in_range_1; lia); reflexivity|].
  replace (s && (e <? 0)) with false by lia.
  rewrite pow_loop_correct; try assumption.
  - rewrite Z.mul_1_l. reflexivity.
  - apply in_range_1; lia.
  - split; [lia|]. eapply in_range_lt_pow; eassumption.
Qed.

(* exact whenever the mathematical power fits the C type *)
Theorem int_pow_exact w s b e :
  2 <= w -> in_range w s b -> in_range w s e -> 0 <= e -> in_range w s (b ^ e) ->
  int_pow w s b e = Some (b ^ e).
Proof. intros. rewrite int_pow_wrap by assumption. rewrite wrap_id by (try lia; assumption). reflexivity. Qed.

(* negative exponent on a signed type: 0 (C truncation of b^e), never the loop *)
Theorem int_pow_neg w b e : e < 0 -> int_pow w true b e = Some 0.
Proof.
  intros He. unfold int_pow.
  destruct (Z.eqb_spec e 3); [lia|]. destruct (Z.eqb_spec e 2); [lia|].
  destruct (Z.eqb_spec e 1); [lia|]. destruct (Z.eqb_spec e 0); [lia|].
  cbn [andb]. destruct (Z.ltb_spec e 0); [reflexivity|lia].
Qed.

(* the loop always terminates within w iterations on in-range exponents: never out of fuel *)
Theorem int_pow_terminates w s b e :
  2 <= w -> in_range w s b -> in_range w s e -> int_pow w s b e <> None.
Proof.
  intros Hw Hb He. destruct (Z.ltb_spec e 0) as [Hn|Hp].
  - destruct s.
    + rewrite int_pow_neg by assumption. discriminate.
    + unfold in_range, min_int in He. lia.
  - rewrite int_pow_wrap by assumption. discriminate.
Qed.

(* a power of two below the sign bit (signed) or the width (unsigned) is a value of the type *)
Lemma wrap_pow2 w (s : bool) n : 1 <= w -> 0 <= n < (if s then w - 1 else w) -> wrap w s (2 ^ n) = 2 ^ n.
Proof.
  intros Hw Hn. apply wrap_id; [exact Hw|].
  apply in_range_nonneg_iff; [exact Hw|apply Z.pow_nonneg; lia|apply Z.pow_lt_mono_r; lia].
Qed.

(* 2**n fast path *)
Theorem pow2_correct n : 0 <= n -> pow2_value n = Some (2 ^ n).
Proof.
  intros Hn. unfold pow2_value, pow2. rewrite Z.shiftl_1_l.
  destruct (Z.eqb_spec n 0) as [->|N0]; [reflexivity|].
  destruct (Z.ltb_spec n 0); [lia|].
  destruct (Z.leb_spec n (2 ^ 63 - 1)); [|reflexivity].
  destruct (Z.leb_spec n 62); [|destruct (Z.leb_spec n 63)]; f_equal;
    [apply wrap_pow2; lia|apply wrap_pow2; lia|apply Z.shiftl_1_l].
Qed.

(* the shifts performed on the fast paths are in range of the C type (no UB) *)
Theorem pow2_shift_defined n :
  match pow2 n with
  | P2Long _ => 0 <= n <= 62 | P2ULL _ => n = 63 | P2Lshift k => k = n /\ 63 < n | _ => True
  end.
Proof.
  unfold pow2. destruct (Z.eqb_spec n 0); [exact I|]. destruct (Z.ltb_spec n 0); [exact I|].
  destruct (Z.leb_spec n (2 ^ 63 - 1)); [|exact I].
  destruct (Z.leb_spec n 62); [lia|]. destruct (Z.leb_spec n 63); lia.
Qed.

