(* P_Gen -- proofs about M_Gen: the Cython generator object (with the repairs switched on)
   and the CPython 3.12 generator object are the same machine, for every body, every
   sub-iterator and every history; the code as it is agrees on histories that avoid five
   explicit situations and is refuted on each of them (the fifth, a never-started async generator
   that is dropped, in P_AsyncGenRun.ag_fresh_del_refuted). *)
From Coq Require Import ZArith List Bool.
From CyVerif Require Import Lib.CInt Model.M_Gen.
Import ListNotations.
Open Scope Z_scope.

Section Sim.
Variable L : Type.
Variable start : L.
Variable step : L -> input -> outcome L.
Variable coro : bool.
Variable agen : bool.

Notation cyop := (cy_op L start step coro agen).
Notation pyop := (py_op L start step coro agen).
Notation runcy := (run_cy L start step coro agen).
Notation runpy := (run_py L start step coro agen).
Notation abs := (abs L).
Notation cy_resume := (cy_send_ex L start step coro agen).
Notation py_resume := (py_send_ex L start step coro agen).
Notation cy_amsend := (cy_amsend L start step coro agen).
Notation cy_throw := (cy_throw L start step coro agen).
Notation cy_close := (cy_close L start step coro agen).
Notation py_send := (py_send L start step coro agen).
Notation py_throw := (py_throw L start step coro agen).
Notation py_close := (py_close L start step coro agen).

(* states between operations: not running, and a delegate only while suspended *)
Definition cwf (s : cstate L) : Prop :=
  c_running s = false /\ match c_label s with RAt _ => True | _ => c_yf s = None end.

Lemma cwf_init : cwf (c_init L).
Proof. split; reflexivity. Qed.

Lemma pep479_id : forall a e, is_stopiter e || is_stopasync e && a = false -> pep479 a e = e.
Proof.
  intros a [ | | | | | |id] H; try reflexivity; [discriminate H|].
  cbn [is_stopiter is_stopasync orb] in H. cbn [pep479]. rewrite H. reflexivity.
Qed.

Lemma pep479_not_si : forall e, is_stopiter e = false -> pep479 false e = e.
Proof. intros e H. apply pep479_id. rewrite H, andb_false_r. reflexivity. Qed.

Definition input_of (a : sendarg) : input := match a with AVal v => ISend v | AExc e => IThrow e end.

(* CPython's function returns y where Coroutine.c's returns x, and x leaves the object well-formed *)
Definition sim_out {R : Type} (y : R * pstate L * log L) (x : R * cstate L * log L) : Prop :=
  y = (fst (fst x), abs (snd (fst x)), snd x) /\ cwf (snd (fst x)).

Lemma sim_out_map : forall (R R' : Type) (f : R -> R') y x, sim_out y x ->
  sim_out (let '(r, p, l) := y in (f r, p, l)) (let '(r, s, l) := x in (f r, s, l)).
Proof. intros R R' f y [[r s] l] [-> W]. split; [reflexivity|exact W]. Qed.

(* resuming the body at a suspension point: the one place where [step] is looked at *)
Lemma resume_sim : forall k run yf a closing,
  sim_out (py_resume (PSuspended k yf) a closing) (unrun L (cy_resume (CState (RAt k) run None) a closing)).
Proof. intros. cbn. unfold cy_run_user. destruct (step k _); repeat split. Qed.

Lemma resume_log : forall k run yf a closing,
  snd (cy_resume (CState (RAt k) run yf) a closing) = [(k, input_of a)].
Proof. intros. cbn. unfold cy_run_user. destruct (step k _); reflexivity. Qed.

Lemma resume_done : forall lab run a closing,
  let x := cy_resume (CState lab run None) a closing in
  match fst (fst x) with GNext _ => True | _ => snd (fst x) = CState RDone run None end.
Proof.
  intros [|k|] run a closing; cbn.
  - destruct a as [[|z]|e]; try reflexivity. unfold cy_run_user. destruct (step start _); cbn; auto.
  - unfold cy_run_user. destruct (step k _); cbn; auto.
  - destruct (coro && negb closing); [|destruct a]; reflexivity.
Qed.

Lemma amsend_sim : forall fx k yf v,
  sim_out (py_send (PSuspended k yf) v) (cy_amsend fx (CState (RAt k) false yf) v).
Proof.
  intros fx k [it|] v; cbn -[cy_send_ex py_send_ex sub_send]; [|apply resume_sim].
  destruct (sub_send it v) as [[y|e] it']; [repeat split|apply resume_sim].
Qed.

Lemma throw_sim : forall cog k yf e,
  sim_out (py_throw cog (PSuspended k yf) e) (cy_throw fx_all cog (CState (RAt k) false yf) e).
Proof.
  intros cog k [it|] e; cbn -[cy_send_ex py_send_ex]; [|apply resume_sim].
  destruct (is_genexit e && cog).
  - unfold py_close_iter, cy_close_iter. destruct (si_close it) as [[[e'|] it']|]; apply resume_sim.
  - destruct (si_throw it) as [f|]; [destruct (f e) as [[y|e'] it']|]; [repeat split|apply resume_sim..].
Qed.

(* the argument with which close() resumes the body: GeneratorExit, or what closing the delegate raised *)
Definition close_arg (fx : fixes) (yf : option subiter) : sendarg :=
  match yf with
  | Some it => match si_close it with Some (Some e, _) => arg_at_yf fx e | _ => AExc EGenExit end
  | None => AExc EGenExit
  end.
(* close(): classification of the body's answer; a returned value is tolerated when [lenient] *)
Definition close_gres (lenient : bool) (r : gres) : gres :=
  match r with
  | GError e => if is_genexit e || is_stopiter e then GReturn VNone else GError e
  | GReturn v => if is_none v || lenient then GReturn VNone else GError (ERuntime 1)
  | GNext _ => GError (ERuntime 1)
  end.

Lemma cy_close_eq : forall fx lab yf,
  cy_close fx (CState lab false yf) =
  let '(r, s, l) := cy_resume (CState lab true None) (close_arg fx yf) true in
  (close_gres (fx_close_ret fx) r, c_set_running L s false, l).
Proof.
  intros fx lab [it|]; unfold M_Gen.cy_close, cy_close_iter, close_arg; cbn -[cy_send_ex];
    [destruct (si_close it) as [[[e|] it']|]|];
    destruct (cy_resume _ _ _) as [[[v|v|e0] s] l]; cbn; try reflexivity;
    destruct (_ || _); reflexivity.
Qed.

Lemma py_close_eq : forall k yf,
  py_close (PSuspended k yf) =
  let '(r, p, l) := py_resume (PSuspended k None) (close_arg fx_all yf) true in (close_gres true r, p, l).
Proof.
  intros k [it|]; unfold M_Gen.py_close, py_close_iter, close_arg; cbn -[py_send_ex];
    [destruct (si_close it) as [[[e|] it']|]|];
    destruct (py_resume _ _ _) as [[[v|v|e0] s] l]; cbn; try reflexivity;
    try (destruct (_ || _); reflexivity); destruct v; reflexivity.
Qed.

Lemma close_sim : forall k yf, sim_out (py_close (PSuspended k yf)) (cy_close fx_all (CState (RAt k) false yf)).
Proof.
  intros k yf. rewrite cy_close_eq, py_close_eq.
  destruct (resume_sim k true None (close_arg fx_all yf) true) as [-> W].
  destruct (cy_resume _ _ _) as [[r s] l]. split; [reflexivity|exact W].
Qed.

Definition done_answer (o : op) : result :=
  match o with
  | Next | Send _ => RRaise (if coro then ERuntime 2 else if agen then EStopAsync else EStopIter VNone)
  | Throw e | ThrowNC e => RRaise (if coro then ERuntime 2 else e)
  | Close | Del => RNone
  end.

Lemma cy_done : forall fx o, cyop fx (CState RDone false None) o = (done_answer o, CState RDone false None, []).
Proof. intros fx o. unfold done_answer. destruct o, coro; reflexivity. Qed.

Lemma py_done : forall o, pyop PCompleted o = (done_answer o, PCompleted, []).
Proof. intros o. unfold done_answer. destruct o, coro; reflexivity. Qed.

Lemma fresh_sim : forall o, o <> Del -> sim_out (pyop PCreated o) (cyop fx_all (CState RFresh false None) o).
Proof.
  intros [|[|z]|e| | |e] Ho; try congruence; cbn; unfold cy_run_user;
    try destruct (step start _); repeat split.
Qed.

Lemma op_sim : forall s o, cwf s -> o <> Del -> sim_out (pyop (abs s) o) (cyop fx_all s o).
Proof.
  intros [lab run yf] o [Hr Hy] Ho; cbn in Hr, Hy; subst run.
  destruct lab as [|k|]; [subst yf; apply fresh_sim, Ho| |subst yf].
  - destruct o; try congruence; apply sim_out_map;
      first [apply amsend_sim|apply throw_sim|apply close_sim].
  - cbn [M_Gen.abs c_running c_label]. rewrite cy_done, py_done. repeat split.
Qed.

Lemma del_sim : forall s, cwf s ->
  fst (fst (pyop (abs s) Del)) = fst (fst (cyop fx_all s Del)) /\ snd (pyop (abs s) Del) = snd (cyop fx_all s Del).
Proof.
  intros [lab run yf] [Hr Hy]; cbn in Hr, Hy; subst run.
  destruct lab as [|k|]; [subst yf; cbn; destruct coro, agen; split; reflexivity| |subst yf; split; reflexivity].
  cbn [M_Gen.abs c_running c_label c_yf cy_op py_op cy_del py_del].
  destruct (close_sim k yf) as [-> _]. destruct (cy_close _ _) as [[[v|v|e] s] l]; split; reflexivity.
Qed.

Theorem gen_bisim : forall h s, cwf s ->
  runpy (abs s) h = (fst (runcy fx_all s h), option_map abs (snd (runcy fx_all s h))).
Proof.
  induction h as [|o h IH]; intros s Hs; [reflexivity|].
  pose proof (op_sim s o Hs) as Hsim.
  destruct o; cbn [run_cy run_py];
    try (destruct (Hsim ltac:(discriminate)) as [-> W];
         destruct (cyop fx_all s _) as [[r s'] l]; cbn [fst snd];
         rewrite (IH s' W); destruct (runcy fx_all s' h); reflexivity).
  destruct (del_sim s Hs) as [E1 E2].
  destruct (pyop (abs s) Del) as [[r1 p] l1], (cyop fx_all s Del) as [[r2 s'] l2]. cbn in E1, E2. subst. reflexivity.
Qed.

Corollary gen_bisim_init : forall h,
  runpy (p_init L) h = (fst (runcy fx_all (c_init L) h), option_map abs (snd (runcy fx_all (c_init L) h))).
Proof. intro h. apply (gen_bisim h (c_init L) cwf_init). Qed.

Theorem running_rejects : forall fx s o, c_running s = true -> o <> Del ->
  cyop fx s o = (RRaise (EValue 0), s, []) /\ pyop PExecuting o = (RRaise (EValue 0), PExecuting, []).
Proof.
  intros fx [lab run yf] o Hr Ho; cbn in Hr; subst run.
  destruct o; try congruence; cbn; auto.
Qed.

(* the exception with which close() resumes the body (sub-iterator closed first) *)
Definition close_exc (s : cstate L) : exc :=
  match c_yf s with
  | Some it => match si_close it with Some (Some e, _) => e | _ => EGenExit end
  | None => EGenExit
  end.
Definition sub_close_raises_si (s : cstate L) : bool :=
  match c_yf s with
  | Some it => match si_close it with Some (Some e, _) => is_stopiter e | _ => false end
  | None => false
  end.
Definition is_closing (o : op) : bool := match o with Close | Del => true | _ => false end.

(* A: non-None value sent to a just-started object *)
Definition hit_first_send (s : cstate L) (o : op) : bool :=
  match c_label s, o with RFresh, Send (VInt _) => true | _, _ => false end.
(* B: StopIteration thrown into a just-started object *)
Definition hit_throw_si_fresh (s : cstate L) (o : op) : bool :=
  match c_label s, o with RFresh, (Throw e | ThrowNC e) => is_stopiter e || (is_stopasync e && agen) | _, _ => false end.
(* C: close()/del, and the body answers the exception with return <non-None> *)
Definition hit_close_ret (s : cstate L) (o : op) : bool :=
  is_closing o &&
  match c_label s with
  | RAt k => match step k (IThrow (close_exc s)) with OReturn (VInt _) => true | _ => false end
  | _ => false
  end.
(* D: a StopIteration reaches the yield-from point from outside the delegate's send/throw:
   thrown by the caller when the delegate has no throw method, or raised by the delegate's close() *)
Definition hit_si_at_yf (s : cstate L) (o : op) : bool :=
  match c_yf s, o with
  | Some it, Throw e =>
      if is_genexit e then sub_close_raises_si s
      else match si_throw it with None => is_stopiter e | Some _ => false end
  | Some it, ThrowNC e => match si_throw it with None => is_stopiter e | Some _ => false end
  | Some _, (Close | Del) => sub_close_raises_si s
  | _, _ => false
  end.
(* E: a never-started async generator is dropped (RuntimeWarning "coroutine ... was never awaited") *)
Definition hit_ag_fresh_del (s : cstate L) (o : op) : bool :=
  match c_label s, o with RFresh, Del => agen && negb coro | _, _ => false end.
Definition avoid (s : cstate L) (o : op) : bool :=
  negb (hit_first_send s o || hit_throw_si_fresh s o || hit_close_ret s o || hit_si_at_yf s o
        || hit_ag_fresh_del s o).


(* the repairs matter only in the situations above *)
Lemma arg_at_yf_fx : forall fx e, is_stopiter e = false -> arg_at_yf fx e = AExc e.
Proof. intros fx e H. unfold arg_at_yf. destruct (fx_si_at_yf fx), e; try reflexivity; discriminate H. Qed.

Lemma amsend_current : forall fx s v, hit_first_send s (Send v) = false -> cy_amsend fx s v = cy_amsend fx_all s v.
Proof. intros fx [[|k|] run yf] [|z] H; try discriminate H; reflexivity. Qed.

Lemma throw_current : forall fx (cog : bool) s e, let o := if cog then Throw e else ThrowNC e in
  hit_throw_si_fresh s o = false -> hit_si_at_yf s o = false -> cy_throw fx cog s e = cy_throw fx_all cog s e.
Proof.
  intros fx cog [lab [|] [it|]] e o Hf Hy; try reflexivity; unfold M_Gen.cy_throw; cbn -[cy_send_ex arg_at_yf].
  - destruct cog, (is_genexit e) eqn:G; cbn -[cy_send_ex arg_at_yf] in *; rewrite ?G in Hy.
    1: { unfold sub_close_raises_si in Hy; cbn in Hy. unfold cy_close_iter.
         destruct (si_close it) as [[[e'|] it']|]; try reflexivity. rewrite !(arg_at_yf_fx _ _ Hy). reflexivity. }
    all: destruct (si_throw it); [reflexivity|]; rewrite !(arg_at_yf_fx _ _ Hy); reflexivity.
  - destruct lab; try reflexivity. cbn. unfold cy_exit_error.
    rewrite pep479_id by (destruct cog; exact Hf). destruct (fx_throw_si_fresh fx); reflexivity.
Qed.

Lemma close_arg_fx : forall fx s, hit_si_at_yf s Close = false -> close_arg fx (c_yf s) = AExc (close_exc s).
Proof.
  intros fx [lab run [it|]] H; [|reflexivity]. unfold close_arg, close_exc, hit_si_at_yf, sub_close_raises_si in *.
  cbn [c_yf] in *. destruct (si_close it) as [[[e|] it']|]; try reflexivity. apply arg_at_yf_fx, H.
Qed.

Lemma close_current : forall fx s, hit_close_ret s Close = false -> hit_si_at_yf s Close = false ->
  cy_close fx s = cy_close fx_all s.
Proof.
  intros fx s Hr Hy. pose proof (close_arg_fx fx s Hy) as E. pose proof (close_arg_fx fx_all s Hy) as E'.
  destruct s as [lab [|] yf]; [reflexivity|]. rewrite !cy_close_eq. cbn [c_yf] in E, E'. rewrite E, E'.
  unfold hit_close_ret in Hr. cbn [is_closing andb c_label] in Hr. generalize dependent (close_exc (CState lab false yf)).
  intros e Hr _ _. destruct lab as [|k|]; cbn.
  - reflexivity.
  - unfold cy_run_user. destruct (step k (IThrow e)) as [| |[|z]|]; try reflexivity. discriminate Hr.
  - destruct coro; reflexivity.
Qed.

Lemma op_current : forall fx s o, avoid s o = true -> cyop fx s o = cyop fx_all s o.
Proof.
  intros fx s o Ha. apply negb_true_iff in Ha. rewrite !orb_false_iff in Ha.
  destruct Ha as [[[[Hsend Hfresh] Hret] Hyf] Hdel].
  destruct o; cbn [cy_op].
  - rewrite (amsend_current fx s VNone); [reflexivity|destruct s as [[] ? ?]; reflexivity].
  - rewrite (amsend_current fx s v Hsend). reflexivity.
  - rewrite (throw_current fx true s e Hfresh Hyf). reflexivity.
  - rewrite (close_current fx s Hret Hyf). reflexivity.
  - destruct s as [[|k|] run yf]; unfold cy_del; cbn [c_label].
    + cbn in Hdel |- *. destruct coro; [reflexivity|]. destruct agen; [discriminate Hdel|reflexivity].
    + rewrite (close_current fx (CState (RAt k) run yf) Hret Hyf). reflexivity.
    + reflexivity.
  - rewrite (throw_current fx false s e Hfresh Hyf). reflexivity.
Qed.

(* histories on which none of these situations arises (followed along the run) *)
Fixpoint avoids (s : cstate L) (h : list op) : bool :=
  match h with
  | [] => true
  | o :: h' =>
      avoid s o &&
      match o with Del => true | _ => avoids (snd (fst (cyop fx_none s o))) h' end
  end.

Lemma run_current : forall h s, avoids s h = true -> runcy fx_none s h = runcy fx_all s h.
Proof.
  induction h as [|o h IH]; intros s Ha; [reflexivity|].
  cbn [avoids] in Ha. apply andb_true_iff in Ha. destruct Ha as [Ha Hrest].
  pose proof (op_current fx_none s o Ha) as Heq.
  destruct o; cbn [run_cy]; rewrite <- Heq; try reflexivity;
    destruct (cyop fx_none s _) as [[r s'] l]; rewrite (IH s' Hrest); reflexivity.
Qed.

Theorem gen_bisim_current_partial : forall h s, cwf s -> avoids s h = true ->
  runpy (abs s) h = (fst (runcy fx_none s h), option_map abs (snd (runcy fx_none s h))).
Proof. intros h s Hs Ha. rewrite (run_current h s Ha). apply gen_bisim; assumption. Qed.

Lemma cwf_done : forall s, cwf s -> c_label s = RDone -> s = CState RDone false None.
Proof. intros [lab run yf] [Hr Hy] Hl; cbn in Hr, Hy, Hl; subst lab; subst; reflexivity. Qed.

Lemma close_ok_done : forall fx s, cwf s -> fst (fst (cyop fx s Close)) = RNone ->
  snd (fst (cyop fx s Close)) = CState RDone false None.
Proof.
  intros fx [lab run yf] [Hr Hy]; cbn in Hr; subst run. cbn [cy_op]. rewrite cy_close_eq.
  pose proof (resume_done lab true (close_arg fx yf) true) as D.
  destruct (cy_resume _ _ _) as [[[v|v|e] s] l]; cbn in D |- *; [discriminate|subst s; reflexivity..].
Qed.

(* a close() that succeeded leaves the object finished: closing again does nothing *)
Theorem close_idempotent : forall fx s, cwf s ->
  fst (fst (cyop fx s Close)) = RNone ->
  cyop fx (snd (fst (cyop fx s Close))) Close = (RNone, snd (fst (cyop fx s Close)), []).
Proof.
  intros fx s Hs H. rewrite (close_ok_done fx s Hs H). apply cy_done.
Qed.

(* abandoning a suspended object resumes its body exactly once (with GeneratorExit when it
   does not delegate); abandoning a fresh or finished one does not run it *)
Theorem cleanup_exactly_once : forall fx s, cwf s ->
  match c_label s with
  | RAt k => exists i, snd (cyop fx s Del) = [(k, i)] /\ (c_yf s = None -> i = IThrow EGenExit)
  | _ => snd (cyop fx s Del) = []
  end.
Proof.
  intros fx [lab run yf] [Hr Hy]; cbn in Hr, Hy; subst run.
  destruct lab as [|k|]; cbn [c_label]; [subst yf; cbn; destruct (_ || _); reflexivity| |subst yf; rewrite cy_done; reflexivity].
  exists (input_of (close_arg fx yf)). split; [|intros H; cbn in H; subst yf; reflexivity].
  cbn [cy_op cy_del c_label]. rewrite cy_close_eq.
  pose proof (resume_log k true None (close_arg fx yf) true) as E.
  destruct (cy_resume _ _ _) as [[r s] l]. cbn in E |- *. subst l. destruct (close_gres _ r); reflexivity.
Qed.

Theorem finished_never_resumed : forall fx s o, cwf s -> c_label s = RDone ->
  snd (cyop fx s o) = [] /\ snd (fst (cyop fx s o)) = s.
Proof. intros fx s o Hs Hl. rewrite (cwf_done s Hs Hl), cy_done. split; reflexivity. Qed.

(* abandonment leaves a suspended object finished unless its body ignores the exception by yielding *)
Theorem del_finishes : forall fx s, cwf s ->
  (exists e, fst (fst (cyop fx s Del)) = RUnraisable e) \/ c_label s = RFresh
  \/ c_label (snd (fst (cyop fx s Del))) = RDone.
Proof.
  intros fx s Hs. pose proof (close_ok_done fx s Hs) as C. destruct s as [[|k|] run yf].
  - right; left; reflexivity.
  - cbn [cy_op cy_del c_label] in *. destruct (cy_close fx _) as [[[v|v|e] s'] l]; cbn in *;
      [right; right; rewrite C; reflexivity..|left; eauto].
  - right; right. rewrite (cwf_done _ Hs eq_refl), cy_done. reflexivity.
Qed.

End Sim.
Definition w_step (k : Z) (i : input) : outcome Z :=
  match i with
  | ISend v => if k =? 0 then OYield (VInt 1) 1 else OReturn v
  | IThrow EGenExit => OReturn (VInt 5)
  | IThrow e => ORaise e
  end.

Definition results {A B C : Type} (x : list (A * B) * C) : list A := map fst (fst x).

Theorem first_send_refuted :
  results (run_cy Z 0 w_step false false fx_none (c_init Z) [Send (VInt 7); Next])
  <> results (run_py Z 0 w_step false false (p_init Z) [Send (VInt 7); Next]).
Proof. cbv. discriminate. Qed.

Theorem throw_si_fresh_refuted :
  results (run_cy Z 0 w_step false false fx_none (c_init Z) [Throw (EStopIter (VInt 5))])
  <> results (run_py Z 0 w_step false false (p_init Z) [Throw (EStopIter (VInt 5))]).
Proof. cbv. discriminate. Qed.

Theorem close_ret_refuted :
  results (run_cy Z 0 w_step false false fx_none (c_init Z) [Next; Close])
  <> results (run_py Z 0 w_step false false (p_init Z) [Next; Close]).
Proof. cbv. discriminate. Qed.

(* delegation to a list iterator (no throw method), then throw(StopIteration(5)) *)
Definition w_step_yf (k : Z) (i : input) : outcome Z :=
  match i with
  | ISend v => if k =? 0 then ODelegate (VInt 1) (list_sub [VInt 2]) 1 else OReturn v
  | IThrow e => ORaise e
  end.
Theorem si_at_yf_refuted :
  results (run_cy Z 0 w_step_yf false false fx_none (c_init Z) [Next; Throw (EStopIter (VInt 5))])
  <> results (run_py Z 0 w_step_yf false false (p_init Z) [Next; Throw (EStopIter (VInt 5))]).
Proof. cbv. discriminate. Qed.

(* non-vacuity: a history on the witness body that avoids these situations and exercises
   start, send, throw, close and a second close *)
Example avoids_nonvacuous :
  avoids Z 0 w_step_yf false false (c_init Z) [Next; Send (VInt 3); Close; Close; Next] = true
  /\ cwf Z (c_init Z).
Proof. split; [reflexivity|apply cwf_init]. Qed.
