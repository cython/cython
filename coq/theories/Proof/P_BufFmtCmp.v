(* C17 -- __pyx_typeinfo_cmp: the type-info comparison that replaces the format check when the
   exporter is a Cython memoryview.  Soundness of the repaired comparison for ALL type-info trees:
   "equal" type infos have pairwise compatible scalar members (same size, dimensions, absolute
   offset; same typegroup and signedness up to C char); refuted for the code as it is. *)
From Coq Require Import ZArith List Bool Lia.
From CyVerif Require Import Model.M_BufFmt.
Import ListNotations.
Open Scope Z_scope.

Definition opt_all (P : cinfo -> Prop) (fs : option (list (cinfo * Z))) : Prop :=
  match fs with None => True | Some l => Forall (fun f => P (fst f)) l end.
Section CInd.
  Variable P : cinfo -> Prop.
  Hypothesis H : forall s g u arr fl fs, opt_all P fs -> P (CInfo s g u arr fl fs).
  Fixpoint cinfo_ind2 (a : cinfo) : P a :=
    match a with
    | CInfo s g u arr fl fs =>
      H s g u arr fl fs
        (match fs as o return opt_all P o with
         | None => I
         | Some l => (fix go (l : list (cinfo * Z)) : Forall (fun f => P (fst f)) l :=
                        match l with
                        | [] => Forall_nil _
                        | f :: r => Forall_cons f (cinfo_ind2 (fst f)) (go r)
                        end) l
         end)
    end.
End CInd.

Definition cflat_fields (l : list (cinfo * Z)) (o : Z) : list cleaf :=
  (fix go (l : list (cinfo * Z)) : list cleaf :=
     match l with [] => [] | (t, fo) :: r => cflat t (o + fo) ++ go r end) l.
Definition cmp_fields (fixh : bool) (la lb : list (cinfo * Z)) : bool :=
  (fix go (la : list (cinfo * Z)) (lb : list (cinfo * Z)) : bool :=
     match la, lb with
     | [], [] => true
     | (ta, oa) :: ra, (tb, ob) :: rb => (oa =? ob) && ticmp fixh ta tb && go ra rb
     | _, _ => false
     end) la lb.

Lemma forall2b_app : forall (f : cleaf -> cleaf -> bool) a1 b1 a2 b2,
  forall2b f a1 b1 = true -> forall2b f a2 b2 = true -> forall2b f (a1 ++ a2) (b1 ++ b2) = true.
Proof.
  intros f a1. induction a1 as [|x r IH]; intros [|y r'] a2 b2 H1 H2; cbn in *; try discriminate; auto.
  apply andb_prop in H1. destruct H1 as [Hx Hr]. rewrite Hx. cbn. apply IH; assumption.
Qed.

Lemma zlist_eqb_refl : forall l, zlist_eqb l l = true.
Proof. induction l as [|x r IH]; cbn; [reflexivity|]. rewrite Z.eqb_refl, IH. reflexivity. Qed.

(* equal lengths + prefix comparison = list equality *)
Lemma arr_prefix_eq : forall a b, length a = length b -> arr_prefix_eqb a b = true -> zlist_eqb a b = true.
Proof.
  induction a as [|x r IH]; intros [|y r'] Hl Hp; cbn in *; try discriminate; auto.
  apply andb_prop in Hp. destruct Hp as [Hx Hr]. rewrite Hx. cbn. apply IH; [lia|exact Hr].
Qed.

(* two scalar members at the same offset *)
Lemma leaf_compat : forall g1 g2 u1 u2 s a1 a2 o, zlist_eqb a1 a2 = true ->
  (g1 = g2 /\ u1 = u2) \/ g1 = 72 \/ g2 = 72 ->
  forall2b cleaf_compat [(g1, s, u1, a1, o)] [(g2, s, u2, a2, o)] = true.
Proof.
  intros g1 g2 u1 u2 s a1 a2 o Hd Hg. cbn [forall2b cleaf_compat]. rewrite !Z.eqb_refl, Hd. cbn [andb].
  rewrite andb_true_r.
  destruct Hg as [[-> ->]|[->| ->]]; rewrite ?Z.eqb_refl; cbn; rewrite ?orb_true_r; reflexivity.
Qed.

(* member arrays that compare equal, given the claim for each member *)
Lemma cmp_fields_sound : forall la,
  Forall (fun f => forall b o, ticmp true (fst f) b = true ->
                   forall2b cleaf_compat (cflat (fst f) o) (cflat b o) = true) la ->
  forall lb o, cmp_fields true la lb = true ->
  forall2b cleaf_compat (cflat_fields la o) (cflat_fields lb o) = true.
Proof.
  induction la as [|[ta oa] ra IHr]; intros IH [|[tb ob] rb] o Hk; cbn in Hk; try discriminate; [reflexivity|].
  apply andb_prop in Hk as [Hk Hr]. apply andb_prop in Hk as [Ho Ht]. apply Z.eqb_eq in Ho. subst ob.
  cbn [cflat_fields]. fold (cflat_fields ra o). fold (cflat_fields rb o).
  apply forall2b_app; [exact (Forall_inv IH tb (o + oa) Ht)|exact (IHr (Forall_inv_tail IH) rb o Hr)].
Qed.

Theorem ticmp_sound : forall a b o, ticmp true a b = true ->
  forall2b cleaf_compat (cflat a o) (cflat b o) = true.
Proof.
  intros a. induction a as [sa ga ua aa fa fsa IH] using cinfo_ind2.
  intros [sb gb ub ab fb fsb] o Hc.
  cbn [ticmp] in Hc. fold (cmp_fields true) in Hc.
  set (ndim_eq := Nat.eqb (length aa) (length ab)) in *.
  set (cont := if negb (arr_prefix_eqb aa ab) then false else _) in Hc.
  (* either way past the first test: the part after it holds, sizes and ndim agree, and the groups and
     signedness agree or a C char is among two scalars *)
  assert (H : cont = true /\ sa = sb /\ ndim_eq = true /\
              ((ga = gb /\ ua = ub) \/ ((ga = 72 \/ gb = 72) /\ fsa = None /\ fsb = None))).
  { destruct ((sa =? sb) && (ga =? gb) && (ua =? ub) && ndim_eq) eqn:Hb.
    - apply andb_prop in Hb as [Hb Hn]. apply andb_prop in Hb as [Hb Hu]. apply andb_prop in Hb as [Hs Hg].
      apply Z.eqb_eq in Hs, Hg, Hu. repeat split; auto.
    - destruct (((ga =? 72) || (gb =? 72)) && (sa =? sb) && ndim_eq && is_none fsa && is_none fsb) eqn:Hh;
        [|discriminate Hc].
      apply andb_prop in Hh as [Hh Hnb]. apply andb_prop in Hh as [Hh Hna]. apply andb_prop in Hh as [Hh Hn].
      apply andb_prop in Hh as [Hg Hs]. apply Z.eqb_eq in Hs.
      destruct fsa; [discriminate Hna|]. destruct fsb; [discriminate Hnb|].
      apply orb_prop in Hg as [Hg|Hg]; apply Z.eqb_eq in Hg; repeat split; auto. }
  destruct H as (Hk & -> & Hn & Hg). unfold cont in Hk. clear cont Hc.
  destruct (arr_prefix_eqb aa ab) eqn:Ha; [|discriminate Hk]. cbn [negb] in Hk.
  assert (Hd : zlist_eqb aa ab = true) by (apply arr_prefix_eq; [apply Nat.eqb_eq; exact Hn|exact Ha]).
  destruct Hg as [[<- <-]|[Hh [-> ->]]]; cbn [cflat]; [|apply leaf_compat; auto].
  destruct (ga =? 83) eqn:Hg83; [|destruct fsa, fsb; apply leaf_compat; auto].
  destruct (fa =? fb); [|discriminate Hk]. cbn [negb] in Hk.
  destruct fsa as [la|], fsb as [lb|]; try discriminate Hk; [|apply leaf_compat; auto].
  apply (cmp_fields_sound la IH lb o Hk).
Qed.

(* witnesses: A {int i; char s[3]} against B {int i; signed char s} (both 8 bytes) *)
Definition ci_int : cinfo := CInfo 4 73 0 [] 0 None.
Definition ci_A : cinfo := CInfo 8 83 0 [] 0 (Some [(ci_int, 0); (CInfo 1 72 0 [3] 0 None, 4)]).
Definition ci_B : cinfo := CInfo 8 83 0 [] 0 (Some [(ci_int, 0); (CInfo 1 73 0 [] 0 None, 4)]).
Lemma ticmp_char_array_witness :
  ticmp false ci_B ci_A = true /\ ticmp false ci_A ci_B = true /\ cinfo_compat ci_B ci_A = false /\
  ticmp true ci_B ci_A = false /\ ticmp true ci_A ci_B = false /\ ticmp true ci_A ci_A = true.
Proof. repeat split; vm_compute; reflexivity. Qed.
