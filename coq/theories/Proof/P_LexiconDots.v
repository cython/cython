(* C43 - runs of dots: the TEXT rule (ellipsis | punct | diphthong) of the lexicon under longest match,
   and the relative import level that Parsing.p_from_import_statement computes from the tokens. *)
From Coq Require Import ZArith List Bool Lia Arith PeanoNat.
From CyVerif Require Import Model.M_Plex Proof.P_Plex_Deriv Model.M_Lexicon Proof.P_Lexicon.
Import ListNotations.

Lemma n_matches_empty : forall w, n_matches EEmpty w = false.
Proof. induction w as [|e w IH]; [reflexivity|]. cbn [n_matches n_deriv]. exact IH. Qed.

Lemma firstn_dots j n : (j <= n)%nat -> firstn j (dots n) = dots j.
Proof.
  unfold dots. revert n. induction j as [|j IH]; intros n H; [reflexivity|].
  destruct n as [|n]; [lia|]. cbn [repeat firstn]. rewrite IH by lia. reflexivity.
Qed.
Lemma length_dots n : length (dots n) = n.
Proof. unfold dots. apply repeat_length. Qed.
Lemma dots_S n : dots (S n) = dot_ev :: dots n.
Proof. reflexivity. Qed.

(* which runs of dots are tokens at all *)
Lemma text_dots_ge4 n : n_matches lex_text (dots (4 + n)) = false.
Proof.
  change (dots (4 + n)) with (dot_ev :: dot_ev :: dot_ev :: dot_ev :: dots n).
  cbn [n_matches].
  replace (n_deriv dot_ev (n_deriv dot_ev (n_deriv dot_ev (n_deriv dot_ev lex_text)))) with EEmpty
    by (vm_compute; reflexivity).
  apply n_matches_empty.
Qed.
Theorem text_rule_dots : forall n, L lex_text (dots n) <-> (n = 1 \/ n = 3)%nat.
Proof.
  intros n. rewrite <- n_matches_correct.
  destruct n as [|[|[|[|n]]]].
  - split; [vm_compute; discriminate | lia].
  - split; [auto | intros _; vm_compute; reflexivity].
  - split; [vm_compute; discriminate | lia].
  - split; [auto | intros _; vm_compute; reflexivity].
  - change (S (S (S (S n)))) with (4 + n)%nat. rewrite text_dots_ge4. split; [discriminate | lia].
Qed.
Lemma number_dots_ge2 b n : n_matches (lex_number b) (dots (2 + n)) = false.
Proof.
  change (dots (2 + n)) with (dot_ev :: dot_ev :: dots n). cbn [n_matches].
  replace (n_deriv dot_ev (n_deriv dot_ev (lex_number b))) with EEmpty by (destruct b; vm_compute; reflexivity).
  apply n_matches_empty.
Qed.
Theorem number_rules_dots : forall b n, ~ L (lex_number b) (dots n).
Proof.
  intros b n H. apply n_matches_correct in H.
  destruct n as [|[|n]].
  - destruct b; vm_compute in H; discriminate.
  - destruct b; vm_compute in H; discriminate.
  - change (S (S n)) with (2 + n)%nat in H. rewrite number_dots_ge2 in H. discriminate.
Qed.

(* longest match: meaning of the executable function *)
(* the two accumulators only shift the result *)
Lemma longest_from_shift : forall w r pos best,
  longest_from r w pos best = match longest r w with O => best | j => (pos + j)%nat end.
Proof.
  unfold longest. induction w as [|e w IH]; intros r pos best; cbn [longest_from]; [reflexivity|].
  destruct (is_empty (n_deriv e r)); [reflexivity|]. rewrite (IH _ (S pos)), (IH _ 1%nat).
  destruct (longest_from (n_deriv e r) w 0 0), (e_nullable (n_deriv e r)); cbn; lia.
Qed.

Lemma longest_cons r e w : longest r (e :: w) =
  if is_empty (n_deriv e r) then O
  else match longest (n_deriv e r) w with
       | O => if e_nullable (n_deriv e r) then 1%nat else O
       | j => S j
       end.
Proof. unfold longest at 1. cbn [longest_from]. rewrite longest_from_shift. reflexivity. Qed.

Theorem longest_spec : forall r w,
  let k := longest r w in
  (k <= length w)%nat /\ ((0 < k)%nat -> L r (firstn k w)) /\
  (forall j, (k < j <= length w)%nat -> ~ L r (firstn j w)).
Proof.
  intros r w. cbv zeta. setoid_rewrite <- n_matches_correct. revert r.
  induction w as [|e w IH]; intros r; [cbn; repeat split; intros; lia|].
  rewrite longest_cons. cbn [length]. destruct (is_empty (n_deriv e r)) eqn:He.
  - apply is_empty_spec in He. split; [lia|]. split; [lia|]. intros [|j] Hj; [lia|].
    cbn [firstn n_matches]. rewrite He, n_matches_empty. discriminate.
  - destruct (IH (n_deriv e r)) as (H1 & H2 & H3). destruct (longest (n_deriv e r) w) as [|k].
    + destruct (e_nullable (n_deriv e r)) eqn:Hn; (split; [lia|]).
      * split; [intros _; exact Hn|]. intros [|[|j]] Hj; [lia|lia|]. exact (H3 (S j) ltac:(lia)).
      * split; [lia|]. intros [|[|j]] Hj; [lia| |exact (H3 (S j) ltac:(lia))]. cbn. rewrite Hn. discriminate.
    + split; [lia|]. split; [intros _; exact (H2 ltac:(lia))|]. intros [|j] Hj; [lia|]. exact (H3 j ltac:(lia)).
Qed.

(* the three properties determine the number *)
Lemma longest_unique r w k : (k <= length w)%nat -> ((0 < k)%nat -> L r (firstn k w)) ->
  (forall j, (k < j <= length w)%nat -> ~ L r (firstn j w)) -> longest r w = k.
Proof.
  intros H1 H2 H3. destruct (longest_spec r w) as (G1 & G2 & G3).
  destruct (lt_eq_lt_dec (longest r w) k) as [[Hlt|E]|Hlt]; [exfalso|exact E|exfalso].
  - apply (G3 k); [lia|]. apply H2. lia.
  - apply (H3 (longest r w)); [lia|]. apply G2. lia.
Qed.

Lemma longest_text_dots_ge3 n : longest lex_text (dots (3 + n)) = 3%nat.
Proof.
  apply longest_unique; rewrite ?length_dots.
  - lia.
  - intros _. rewrite firstn_dots by lia. apply text_rule_dots. auto.
  - intros j Hj. rewrite firstn_dots by lia. rewrite text_rule_dots. lia.
Qed.
Lemma longest_number_dots b n : longest (lex_number b) (dots n) = 0%nat.
Proof.
  apply longest_unique; [lia|lia|]. rewrite length_dots. intros j Hj. rewrite firstn_dots by lia.
  apply number_rules_dots.
Qed.

Lemma dot_tokens_lt3 n : (n < 3)%nat -> dot_tokens n = repeat 1%nat n.
Proof. intros H. unfold dot_tokens. rewrite Nat.div_small, Nat.mod_small by lia. reflexivity. Qed.
Lemma dot_tokens_add3 n : dot_tokens (3 + n) = 3%nat :: dot_tokens n.
Proof.
  unfold dot_tokens.
  replace (3 + n)%nat with (n + 1 * 3)%nat by lia.
  rewrite Nat.div_add, Nat.mod_add by lia. rewrite Nat.add_1_r. reflexivity.
Qed.

Theorem scan_dots_correct : forall fixed n fuel, (n <= fuel)%nat -> scan_dots fuel fixed n = dot_tokens n.
Proof.
  intros fixed n. induction n as [n IH] using (well_founded_induction lt_wf). intros fuel Hf.
  destruct n as [|[|[|n]]].
  - destruct fuel; reflexivity.
  - destruct fuel as [|fuel]; [lia|]. cbn [scan_dots]. rewrite longest_number_dots. cbn [Nat.ltb Nat.leb].
    replace (longest lex_text (dots 1)) with 1%nat by (vm_compute; reflexivity).
    cbn [Nat.sub]. rewrite (IH 0%nat) by lia. reflexivity.
  - destruct fuel as [|fuel]; [lia|]. cbn [scan_dots]. rewrite longest_number_dots. cbn [Nat.ltb Nat.leb].
    replace (longest lex_text (dots 2)) with 1%nat by (vm_compute; reflexivity).
    change (2 - 1)%nat with 1%nat. rewrite (IH 1%nat) by lia. reflexivity.
  - destruct fuel as [|fuel]; [lia|]. cbn [scan_dots]. rewrite longest_number_dots. cbn [Nat.ltb Nat.leb].
    change (S (S (S n))) with (3 + n)%nat. rewrite longest_text_dots_ge3.
    replace (3 + n - 3)%nat with n by lia. rewrite (IH n) by lia. rewrite dot_tokens_add3. reflexivity.
Qed.

Theorem dot_tokens_level : forall n, import_level (dot_tokens n) = n.
Proof.
  intros n. induction n as [n IH] using (well_founded_induction lt_wf).
  destruct (Nat.lt_ge_cases n 3) as [H | H].
  - rewrite dot_tokens_lt3 by exact H. destruct n as [|[|[|n]]]; try reflexivity; lia.
  - replace n with (3 + (n - 3))%nat at 1 by lia. rewrite dot_tokens_add3. cbn [import_level fold_right].
    fold (import_level (dot_tokens (n - 3))). rewrite IH by lia. lia.
Qed.
Theorem dot_tokens_shape : forall n, Forall (fun k => k = 1 \/ k = 3)%nat (dot_tokens n).
Proof.
  intros n. unfold dot_tokens. apply Forall_app. split; apply Forall_forall; intros x Hx; apply repeat_spec in Hx; lia.
Qed.
