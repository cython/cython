(* Proofs about Model/M_PyLongBinop.v (Optimize.c: PyLongBinop / PyLongCompare).  The size switch lets
   through ints of one or two digits only (unpack_spec), so the unpacked value is below 2^60
   (2^30 before a product); on such operands calculate_long gives up or is Python's operator and
   every C operation on the way is defined (calc_long_correct).  The special cases in front of
   it (zero operand, single-digit `&`) and the digit-wise comparison are checked separately. *)
From Coq Require Import ZArith List Bool Lia ZifyBool.
From CyVerif Require Import Lib.CInt Lib.PyLong Model.M_CMath Proof.P_CMath Model.M_PyLongBinop.
Import ListNotations.
Open Scope Z_scope.

Lemma p30 : 2 ^ 30 = 1073741824. Proof. reflexivity. Qed.
Lemma p53 : 2 ^ 53 = 9007199254740992. Proof. reflexivity. Qed.
Lemma p60 : 2 ^ 60 = 1152921504606846976. Proof. reflexivity. Qed.
Lemma p63 : 2 ^ 63 = 9223372036854775808. Proof. reflexivity. Qed.
Lemma p64 : 2 ^ 64 = 18446744073709551616. Proof. reflexivity. Qed.
Lemma mask_val : MASK = 1073741823. Proof. reflexivity. Qed.
Lemma mask_ones : MASK = Z.ones 30. Proof. reflexivity. Qed.

Lemma in_range64 v : in_range 64 true v <-> -9223372036854775808 <= v <= 9223372036854775807.
Proof. unfold in_range. change (min_int 64 true) with (-9223372036854775808).
  change (max_int 64 true) with 9223372036854775807. tauto. Qed.

Lemma ckl_in_range v k : in_range 64 true v -> ckl v k = k v.
Proof. intros H. unfold ckl. now rewrite (proj2 (in_rangeb_spec _ _ _) H). Qed.

Lemma ckl_ok v k : -9223372036854775808 <= v <= 9223372036854775807 -> ckl v k = k v.
Proof. intros H. now apply ckl_in_range, in_range64. Qed.

Lemma c_shl_ok a b k : 0 <= b < 64 -> c_shl a b k = k (wrap 64 true (a * 2 ^ b)).
Proof. intros H. unfold c_shl. now replace ((0 <=? b) && (b <? 64)) with true by lia. Qed.

Lemma c_shr_ok a b k : 0 <= b < 64 -> c_shr a b k = k (Z.shiftr a b).
Proof. intros H. unfold c_shr. now replace ((0 <=? b) && (b <? 64)) with true by lia. Qed.

Lemma shift_nonneg : 0 <= SHIFT.
Proof. discriminate. Qed.

Lemma value_mag x : value SHIFT x = if pl_neg x then - mag SHIFT (pl_digits x) else mag SHIFT (pl_digits x).
Proof. reflexivity. Qed.

Lemma mag_digits x :
  (ndigits x = 1 -> mag SHIFT (pl_digits x) = digit x 0) /\
  (ndigits x = 2 -> mag SHIFT (pl_digits x) = digit x 0 + 1073741824 * digit x 1) /\
  (ndigits x = 3 ->
     mag SHIFT (pl_digits x) = digit x 0 + 1073741824 * digit x 1 + 1152921504606846976 * digit x 2).
Proof.
  unfold ndigits, digit. destruct (pl_digits x) as [|d0 [|d1 [|d2 [|d3 r]]]];
    cbn [length nth mag]; change (2 ^ SHIFT) with 1073741824; repeat split; lia.
Qed.

Lemma mag_size x : wf SHIFT x ->
  (ndigits x = 0 -> mag SHIFT (pl_digits x) = 0) /\
  (ndigits x = 1 -> 1 <= mag SHIFT (pl_digits x) < 1073741824) /\
  (ndigits x = 2 -> 1073741824 <= mag SHIFT (pl_digits x) < 1152921504606846976) /\
  (ndigits x = 3 -> 1152921504606846976 <= mag SHIFT (pl_digits x) < 1237940039285380274899124224) /\
  (4 <= ndigits x -> 1237940039285380274899124224 <= mag SHIFT (pl_digits x)).
Proof.
  intros W. pose proof (mag_bounds SHIFT x shift_nonneg W) as B.
  split; [intros E; now destruct (no_digits SHIFT x W E) as [-> _]|].
  do 3 (split; [intros E; rewrite E in B; apply B; discriminate|]).
  intros E. apply Z.le_trans with (2 ^ (SHIFT * (ndigits x - 1))); [|apply B; lia].
  change 1237940039285380274899124224 with (2 ^ (SHIFT * (4 - 1))). apply pow2_mono. unfold SHIFT. lia.
Qed.

Lemma low_digit x : wf SHIFT x -> ndigits x <> 0 ->
  0 <= digit x 0 < 1073741824 /\ 0 < mag SHIFT (pl_digits x)
  /\ exists q, mag SHIFT (pl_digits x) = digit x 0 + 1073741824 * q.
Proof.
  intros W N. split; [exact (digit_bound SHIFT x 0 shift_nonneg W)|]. split.
  - pose proof (mag_bounds SHIFT x shift_nonneg W N). pose proof (pow2_pos (SHIFT * (ndigits x - 1))).
    pose proof (ndigits_nonneg x). unfold SHIFT in *. lia.
  - unfold ndigits, digit in *. destruct (pl_digits x) as [|d0 r]; [contradiction|].
    exists (mag SHIFT r). reflexivity.
Qed.

Lemma is_zero_spec x : wf SHIFT x -> is_zero x = (value SHIFT x =? 0).
Proof.
  intros W. unfold is_zero. rewrite value_mag. destruct (Z.eqb_spec (ndigits x) 0) as [E|E].
  - now destruct (no_digits SHIFT x W E) as [-> ->].
  - destruct (low_digit x W E) as (_ & Hpos & _). destruct (pl_neg x); lia.
Qed.

Lemma rd_ok x i k : Z.of_nat i < Z.max 1 (ndigits x) -> rd x i k = k (digit x i).
Proof. intros H. unfold rd. now replace (Z.of_nat i <? Z.max 1 (ndigits x)) with true by lia. Qed.

Lemma guards_34 o : guard_long o 3 = false /\ guard_llong o 3 = false
  /\ guard_long o 4 = false /\ guard_llong o 4 = false.
Proof. destruct o; vm_compute; repeat split. Qed.

Lemma guards_2 o : guard_long o 2 = negb (is_mul o) /\ (is_mul o = true -> guard_llong o 2 = false).
Proof. destruct o; vm_compute; split; congruence. Qed.

Definition small_enough (o : op) (x : pylong) : bool :=
  (ndigits x =? 1) || ((ndigits x =? 2) && negb (is_mul o)).

(* three and four digits never pass a guard: only the one- and two-digit arms are live *)
Lemma unpack_spec o x kl kll big : wf SHIFT x ->
  unpack o x kl kll big = if small_enough o x then kl (value SHIFT x) else big.
Proof.
  intros W. destruct (mag_size x W) as (_ & S1 & S2 & _). destruct (mag_digits x) as (D1 & _).
  unfold unpack, small_enough, unpack_join. cbv zeta.
  change (Z.of_nat 2) with 2. change (Z.of_nat 3) with 3. change (Z.of_nat 4) with 4.
  destruct (guards_34 o) as (-> & -> & -> & ->). rewrite !andb_false_r.
  destruct (guards_2 o) as [-> G2]. rewrite value_mag. unfold is_pos, is_zero.
  destruct (Z.eqb_spec (ndigits x) 1) as [E1|E1]; cbn [orb].
  - specialize (S1 E1). rewrite rd_ok, <- (D1 E1) by lia. replace (ndigits x =? 0) with false by lia.
    destruct (pl_neg x); cbn [negb andb]; [|reflexivity]. rewrite ckl_ok by lia. f_equal. lia.
  - destruct (Z.eqb_spec (ndigits x) 2) as [E2|E2]; cbn [andb]; [|reflexivity].
    destruct (is_mul o) eqn:Em; cbn [negb]; [now rewrite (G2 eq_refl)|]. specialize (S2 E2).
    rewrite (join_c_exact 64 false SHIFT 2 x shift_nonneg ltac:(lia) (proj1 W))
      by (clear - E2; unfold ndigits, SHIFT in *; lia).
    rewrite wrap_id by (try lia; apply in_range64; lia).
    replace (ndigits x =? 0) with false by lia.
    destruct (pl_neg x); cbn [negb andb]; [|reflexivity]. rewrite ckl_ok by lia. f_equal. lia.
Qed.

(* floor division / modulo as written in the helper: same text as CMath.c DivInt/ModInt *)
Lemma c_div_py_ok a b : in_range 64 true a -> in_range 64 true b -> b <> 0 ->
  ~ (a = min_int 64 true /\ b = -1) -> c_div_py a b = RInt (a / b).
Proof.
  intros Ha Hb Hb0 Hm. assert (Hub : div_ub 64 true a b = false) by (unfold div_ub; lia).
  destruct (div_steps_in_range 64 true a b ltac:(lia) Ha Hb Hub) as (Hq & Hqb & Hr & Hd).
  unfold c_div_py. change (_ || _) with (div_ub 64 true a b). rewrite Hub.
  rewrite (ckl_in_range _ _ Hq), (ckl_in_range _ _ Hqb), sub_quot_mul, (ckl_in_range _ _ Hr).
  rewrite adapt_python_adj, <- (proj1 (floor_from_trunc a b Hb0)). now apply ckl_in_range.
Qed.

Lemma c_mod_py_ok a b : in_range 64 true a -> in_range 64 true b -> b <> 0 ->
  ~ (a = min_int 64 true /\ b = -1) -> c_mod_py a b = RInt (a mod b).
Proof.
  intros Ha Hb Hb0 Hm. assert (Hub : div_ub 64 true a b = false) by (unfold div_ub; lia).
  destruct (mod_steps_in_range 64 true a b ltac:(lia) Ha Hb Hb0) as (Hr & Hab & Hd).
  unfold c_mod_py. change (_ || _) with (div_ub 64 true a b). rewrite Hub.
  rewrite (ckl_in_range _ _ Hr), adapt_python_adj, (ckl_in_range _ _ Hab).
  rewrite <- (proj2 (floor_from_trunc a b Hb0)). now apply ckl_in_range.
Qed.

Lemma shl_check a b : 0 <= b < 64 ->
  Z.shiftr (wrap 64 true (a * 2 ^ b)) b = a -> wrap 64 true (a * 2 ^ b) = a * 2 ^ b.
Proof.
  intros Hb E. rewrite Z.shiftr_div_pow2 in E by lia.
  destruct (wrap_repr 64 true (a * 2 ^ b) ltac:(lia)) as [k Hk]. rewrite p64 in Hk.
  assert (P : 0 < 2 ^ b <= 2 ^ 63) by (split; [apply pow2_pos | apply pow2_mono]; lia). rewrite p63 in P.
  set (x := wrap 64 true (a * 2 ^ b)) in *. set (Pb := 2 ^ b) in *.
  (* a * Pb <= x < (a + 1) * Pb, and x - a * Pb is a multiple of 2^64 *)
  pose proof (Z.div_mod x Pb ltac:(lia)) as DM. pose proof (Z.mod_pos_bound x Pb ltac:(lia)) as MB.
  rewrite E in DM. assert (k = 0) by nia. subst k. lia.
Qed.

Lemma shiftr_shl_exact a b : 0 <= b -> Z.shiftr (a * 2 ^ b) b = a.
Proof. intros Hb. rewrite Z.shiftr_div_pow2 by lia. apply Z.div_mul.
  assert (0 < 2 ^ b) by (apply Z.pow_pos_nonneg; lia). lia. Qed.

Lemma template_ok_view o ord c : template_ok o ord c = true ->
  -1073741824 <= c <= 1073741824
  /\ (is_shift o = true -> ord = ObjC /\ 1 <= c <= 63)
  /\ (is_div o = true -> ord = ObjC -> c <> 0).
Proof.
  unfold template_ok, c_small. change (2 ^ 30) with 1073741824. intros T.
  split; [lia|]. split.
  - destruct o; try discriminate; intros _; (destruct ord; [split; [reflexivity | lia] | exfalso; lia]).
  - destruct o; try discriminate; intros _ ->; lia.
Qed.

Lemma py_binop_operands o ord c v :
  py_binop o ord c v = py_binop o ObjC (snd (operands ord c v)) (fst (operands ord c v)).
Proof. destruct ord; reflexivity. Qed.

Lemma calc_long_correct o x ival a b :
  o <> OpEq -> o <> OpNe ->
  -1152921504606846976 < a < 1152921504606846976 ->
  -1152921504606846976 < b < 1152921504606846976 ->
  -1152921504606846976 < ival < 1152921504606846976 ->
  (is_mul o = true -> -1073741824 <= a <= 1073741824 /\ -1073741824 <= b <= 1073741824) ->
  (is_div o = true -> b <> 0) ->
  (is_shift o = true -> 0 <= b < 64) ->
  calc_long o x ival a b = RFallback \/ calc_long o x ival a b = py_binop o ObjC b a.
Proof.
  intros NE1 NE2 Ha Hb Hi Hmul Hdiv Hsh.
  assert (Ra : in_range 64 true a) by (apply in_range64; clear - Ha; lia).
  assert (Rb : in_range 64 true b) by (apply in_range64; clear - Hb; lia).
  assert (Nm : ~ (a = min_int 64 true /\ b = -1))
    by (change (min_int 64 true) with (-9223372036854775808); clear - Ha; lia).
  unfold py_binop. cbn [operands].
  destruct o; try congruence; unfold calc_long, calc_llong.
  - (* Add *) right. now rewrite ckl_ok by (clear - Ha Hb; lia).
  - (* Subtract *) right. now rewrite ckl_ok by (clear - Ha Hb; lia).
  - (* Multiply *) right. destruct (Hmul eq_refl) as [Ma Mb]. now rewrite ckl_ok by (clear - Ma Mb; nia).
  - (* Remainder *) specialize (Hdiv eq_refl). right. rewrite c_mod_py_ok by assumption.
    now destruct (Z.eqb_spec b 0).
  - (* FloorDivide *) specialize (Hdiv eq_refl). right. rewrite c_div_py_ok by assumption.
    now destruct (Z.eqb_spec b 0).
  - (* TrueDivide *) specialize (Hdiv eq_refl).
    change (LONG_BITS <=? 53) with false. cbv iota. rewrite ckl_ok by (clear - Hi; lia).
    destruct ((Z.abs ival <=? 2 ^ 53) || (ndigits x <=? 52 / SHIFT)); [right | left; reflexivity].
    now destruct (Z.eqb_spec b 0).
  - (* And *) right. reflexivity.
  - (* Or *) right. reflexivity.
  - (* Xor *) right. reflexivity.
  - (* Lshift: the shifted value is kept only if shifting back restores a *)
    specialize (Hsh eq_refl). change LONG_BITS with 64.
    rewrite !c_shl_ok by exact Hsh. replace (b <? 64) with true by lia. rewrite !c_shr_ok by exact Hsh.
    set (xx := wrap 64 true (a * 2 ^ b)).
    destruct (Z.eqb_spec a (Z.shiftr xx b)) as [E|E].
    + right. f_equal. rewrite Z.shiftl_mul_pow2 by lia. apply shl_check; [lia | symmetry; exact E].
    + left. destruct (Z.eqb_spec a 0) as [A0|_]; [|reflexivity].
      exfalso. apply E. subst xx. rewrite A0. now rewrite Z.shiftr_0_l.
  - (* Rshift *)
    specialize (Hsh eq_refl). change LONG_BITS with 64.
    replace (b >=? 64) with false by lia. right. now rewrite c_shr_ok.
Qed.

Lemma let_pair {A} (p : Z * Z) (f : Z -> Z -> A) : (let '(a, b) := p in f a b) = f (fst p) (snd p).
Proof. destruct p; reflexivity. Qed.

Lemma small_value o x : wf SHIFT x -> small_enough o x = true ->
  value SHIFT x <> 0 /\ -1152921504606846976 < value SHIFT x < 1152921504606846976
  /\ (ndigits x <= 1 \/ is_mul o = true -> -1073741824 < value SHIFT x < 1073741824).
Proof.
  intros W Es. destruct (mag_size x W) as (_ & S1 & S2 & _). unfold small_enough in Es.
  rewrite value_mag. destruct (pl_neg x); lia.
Qed.

Lemma fast_general_correct o ord c x :
  template_ok o ord c = true -> o <> OpEq -> o <> OpNe -> wf SHIFT x ->
  fast_general o ord c x = RFallback \/ fast_general o ord c x = py_binop o ord c (value SHIFT x).
Proof.
  intros T N1 N2 W. unfold fast_general. rewrite unpack_spec by exact W.
  destruct (small_enough o x) eqn:Es; [|left; reflexivity].
  destruct (small_value o x W Es) as (V0 & V60 & V30).
  destruct (template_ok_view o ord c T) as (Hc & Hsh & Hdiv).
  rewrite let_pair, py_binop_operands.
  destruct ord; cbn [operands fst snd]; apply calc_long_correct; try assumption.
  - (* x op c *) clear - Hc. lia.
  - intros M. specialize (V30 (or_intror M)). clear - V30 Hc. lia.
  - intros D. now apply Hdiv.
  - intros S. destruct (Hsh S) as [_ Hs]. clear - Hs. lia.
  - (* c op x *) clear - Hc. lia.
  - intros M. specialize (V30 (or_intror M)). clear - V30 Hc. lia.
  - intros _. exact V0.
  - intros S. now destruct (Hsh S).
Qed.

(* the single-digit `&` shortcut: only the lowest digit of x (of its two's complement, if x is
   negative) meets a constant below 2^30 *)
Lemma land_low c v k : Z.land c MASK = c -> Z.land c (v + k * 1073741824) = Z.land c v.
Proof.
  intros H. rewrite <- H, <- !Z.land_assoc, !(Z.land_comm MASK), mask_ones, !Z.land_ones by lia.
  rewrite p30. now rewrite Z_mod_plus_full.
Qed.

Lemma py_and ord c v : py_binop OpAnd ord c v = RInt (Z.land c v).
Proof. destruct ord; cbn; [now rewrite Z.land_comm | reflexivity]. Qed.

Lemma after_zero_correct o ord c x :
  template_ok o ord c = true -> o <> OpEq -> o <> OpNe -> wf SHIFT x -> is_zero x = false ->
  after_zero o ord c x = RFallback \/ after_zero o ord c x = py_binop o ord c (value SHIFT x).
Proof.
  intros T N1 N2 W Hnz.
  assert (G := fast_general_correct o ord c x T N1 N2 W).
  destruct o; try exact G. unfold after_zero.
  destruct (Z.eqb_spec (Z.land c MASK) c) as [Hc|_]; [|exact G]. clear G. right.
  unfold is_zero in Hnz.
  destruct (low_digit x W ltac:(lia)) as (Hd0 & Hpos & q & Em).
  rewrite rd_ok by lia. unfold is_pos, is_zero. rewrite Hnz, andb_true_r, py_and, value_mag, Em.
  destruct (pl_neg x); cbn [negb].
  - rewrite mask_val, !ckl_ok by lia. f_equal.
    replace (- (digit x 0 + 1073741824 * q)) with (1073741823 - digit x 0 + 1 + (- q - 1) * 1073741824) by ring.
    symmetry. now apply land_low.
  - f_equal. rewrite (Z.mul_comm 1073741824 q). symmetry. now apply land_low.
Qed.

Lemma after_zero_of_zero o ord c x : wf SHIFT x -> is_zero x = true -> o <> OpAnd ->
  after_zero o ord c x = RFallback.
Proof.
  intros W E N. assert (F : fast_general o ord c x = RFallback).
  { unfold fast_general. rewrite unpack_spec by exact W. unfold small_enough, is_zero in *.
    now replace (ndigits x =? 1) with false by lia; replace (ndigits x =? 2) with false by lia. }
  destruct o; try exact F. congruence.
Qed.

Lemma unpacked_correct o ord zc c x :
  template_ok o ord c = true -> o <> OpEq -> o <> OpNe -> wf SHIFT x ->
  unpacked o ord zc c x = RFallback \/ unpacked o ord zc c x = py_binop o ord c (value SHIFT x).
Proof.
  intros T N1 N2 W. unfold unpacked.
  destruct (is_zero x) eqn:Z; [|now apply after_zero_correct].
  assert (Hv : value SHIFT x = 0) by (rewrite is_zero_spec in Z by exact W; lia).
  rewrite Hv. destruct (template_ok_view o ord c T) as (Hc & Hsh & Hdiv).
  (* the table of special cases for a zero operand against the operator identities at 0 *)
  destruct o; try congruence; destruct ord; try (now destruct (Hsh eq_refl));
    try (rewrite after_zero_of_zero by (assumption || discriminate); left; reflexivity);
    try (destruct zc; [right; reflexivity
                      | rewrite after_zero_of_zero by (assumption || discriminate); left; reflexivity]);
    right; unfold py_binop; cbn [operands];
    rewrite ?ckl_ok by (clear - Hc; lia);
    try rewrite (proj2 (Z.eqb_neq c 0) (Hdiv eq_refl eq_refl));
    now rewrite ?Z.add_0_r, ?Z.sub_0_r, ?Z.mul_0_r, ?Z.land_0_r, ?Z.lor_0_r, ?Z.lxor_0_r,
      ?Z.shiftl_0_l, ?Z.shiftr_0_l.
Qed.

Lemma land_mask v : Z.land v MASK = v mod 1073741824.
Proof. rewrite mask_ones, Z.land_ones by lia. reflexivity. Qed.

Section Euclid.
Local Ltac Zify.zify_post_hook ::= Z.to_euclidean_division_equations.

(* u has three, two or one digits; unless x has as many, the magnitudes differ by their size, and
   else they are equal iff all digits are *)
Lemma cmp_digitwise_spec ne x u : wf SHIFT x -> 0 < u < 9223372036854775808 ->
  cmp_digitwise ne x u = cmp_ret ne (negb (mag SHIFT (pl_digits x) =? u)).
Proof.
  intros W Hu. destruct (mag_digits x) as (V1 & V2 & V3).
  destruct (mag_size x W) as (S0 & S1 & S2 & S3 & S4). pose proof (ndigits_nonneg x) as N0.
  pose proof (digit_bound SHIFT x 0 shift_nonneg W) as D0.
  pose proof (digit_bound SHIFT x 1 shift_nonneg W) as D1.
  pose proof (digit_bound SHIFT x 2 shift_nonneg W) as D2. change (2 ^ SHIFT) with 1073741824 in D0, D1, D2.
  unfold cmp_digitwise, dne.
  rewrite (wrap_id 64 false u) by (try apply in_range_unsigned; lia).
  cbv zeta. change (SHIFT * 2) with 60. change (SHIFT * 1) with 30.
  change (Z.of_nat 0 * SHIFT) with 0. change (Z.of_nat 1 * SHIFT) with 30. change (Z.of_nat 2 * SHIFT) with 60.
  rewrite !land_mask. rewrite !Z.shiftr_div_pow2 by lia. rewrite p30, p60. rewrite Z.pow_0_r, Z.div_1_r.
  set (n := ndigits x) in *. set (m := mag SHIFT (pl_digits x)) in *.
  assert (Q : forall K, 0 < K -> (u / K =? 0) = (u <? K))
    by (intros K HK; apply Bool.eq_true_iff_eq; rewrite Z.eqb_eq, Z.ltb_lt, Z.div_small_iff; lia).
  rewrite !Q by lia. clear Q.
  destruct (Z.ltb_spec u 1152921504606846976) as [U2|U2]; cbn [negb];
    [destruct (Z.ltb_spec u 1073741824) as [U1|U1]; cbn [negb]|].
  - destruct (Z.eqb_spec n 1) as [E|E]; cbn [negb]; [|f_equal; clear V1 V2 V3 D0 D1 D2; lia].
    rewrite rd_ok by (fold n; rewrite E; reflexivity). f_equal. specialize (V1 E). clear - V1 Hu U1. lia.
  - destruct (Z.eqb_spec n 2) as [E|E]; cbn [negb]; [|f_equal; clear V1 V2 V3 D0 D1 D2; lia].
    rewrite !rd_ok by (fold n; rewrite E; reflexivity). f_equal. specialize (V2 E). clear - V2 D0 D1 Hu U1 U2. lia.
  - destruct (Z.eqb_spec n 3) as [E|E]; cbn [negb]; [|f_equal; clear V1 V2 V3 D0 D1 D2; lia].
    rewrite !rd_ok by (fold n; rewrite E; reflexivity). f_equal. specialize (V3 E). clear - V3 D0 D1 D2 Hu U2. lia.
Qed.
End Euclid.

Lemma cmp_ret_negb ne b : cmp_ret ne (negb b) = RBool (if ne then negb b else b).
Proof. unfold cmp_ret. now rewrite negb_involutive. Qed.

Lemma compare_spec ne c x : wf SHIFT x -> -9223372036854775808 < c < 9223372036854775808 ->
  compare ne c x = cmp_ret ne (negb (value SHIFT x =? c)).
Proof.
  intros W Hc. unfold compare, is_neg.
  destruct (value_sign SHIFT x shift_nonneg W) as [Sn Sp].
  destruct (Z.eqb_spec c 0) as [->|Hc0]; [now rewrite is_zero_spec|].
  destruct (Z.ltb_spec c 0) as [Hneg|Hpos]; destruct (pl_neg x) eqn:En; cbn [negb];
    try specialize (Sn eq_refl); try specialize (Sp eq_refl).
  - rewrite ckl_ok, cmp_digitwise_spec by (try exact W; lia). rewrite value_mag, En. do 2 f_equal. lia.
  - now replace (value SHIFT x =? c) with false by lia.
  - now replace (value SHIFT x =? c) with false by lia.
  - rewrite cmp_digitwise_spec by (try exact W; lia). now rewrite value_mag, En.
Qed.

Theorem compare_correct ne c x : wf SHIFT x ->
  -9223372036854775808 < c < 9223372036854775808 ->
  compare ne c x = RBool (if ne then negb (value SHIFT x =? c) else (value SHIFT x =? c)).
Proof. intros W Hc. rewrite compare_spec by assumption. apply cmp_ret_negb. Qed.

Theorem binop_correct o ord zc c x :
  template_ok o ord c = true -> wf SHIFT x ->
  binop o ord zc c x = RFallback \/ binop o ord zc c x = py_binop o ord c (value SHIFT x).
Proof.
  intros T W. destruct (template_ok_view o ord c T) as (Hc & _).
  destruct o; try (apply unpacked_correct; [exact T | discriminate | discriminate | exact W]).
  all: (* Eq, Ne *) right; unfold binop; rewrite compare_correct by (try exact W; lia);
    unfold py_binop; destruct ord; cbn [operands]; [reflexivity | now rewrite Z.eqb_sym].
Qed.

Lemma accepts_template_ok o ord c : accepts o ord c = true -> template_ok o ord c = true.
Proof. unfold accepts, template_ok. destruct o, ord; intros H; try exact H; lia. Qed.

Lemma py_binop_not_ub o ord c v : py_binop o ord c v <> RUB.
Proof. unfold py_binop. destruct ord; cbn [operands]; destruct o; try discriminate;
  match goal with |- (if ?b then _ else _) <> _ => destruct b; discriminate end. Qed.

Theorem fast_path_correct o ord zc c x : accepts o ord c = true -> wf SHIFT x ->
  forall r, binop o ord zc c x = r -> r <> RFallback -> r = py_binop o ord c (value SHIFT x).
Proof.
  intros A W r E N. destruct (binop_correct o ord zc c x (accepts_template_ok _ _ _ A) W) as [F|F]; congruence.
Qed.

Theorem fast_path_ub_free o ord zc c x : template_ok o ord c = true -> wf SHIFT x ->
  binop o ord zc c x <> RUB.
Proof.
  intros T W. destruct (binop_correct o ord zc c x T W) as [F|F]; rewrite F; [discriminate | apply py_binop_not_ub].
Qed.

(* Eq / Ne never defer and are right for every constant that fits a long (except LONG_MIN,
   whose negation `intval = -intval` would overflow) *)
Theorem compare_decides c x : wf SHIFT x -> -9223372036854775808 < c < 9223372036854775808 ->
  forall ord zc, binop OpEq ord zc c x = RBool (value SHIFT x =? c)
              /\ binop OpNe ord zc c x = RBool (negb (value SHIFT x =? c)).
Proof. intros W Hc ord zc. unfold binop. rewrite !compare_correct by assumption. split; reflexivity. Qed.

Theorem zerodiv_exact o ord c x : template_ok o ord c = true -> wf SHIFT x ->
  (binop o ord true c x = RZeroDiv <-> is_div o = true /\ snd (operands ord c (value SHIFT x)) = 0).
Proof.
  intros T W. split.
  - intros E. destruct (binop_correct o ord true c x T W) as [F|F]; [congruence|].
    rewrite E in F. unfold py_binop in F. destruct ord; cbn [operands snd] in *;
      destruct o; try discriminate; cbn [is_div];
      match type of F with _ = (if ?b =? 0 then _ else _) => destruct (Z.eqb_spec b 0); [tauto | discriminate] end.
  - intros [Hd Hz]. destruct ord; cbn [operands snd] in Hz.
    + destruct (template_ok_view o ObjC c T) as (_ & _ & Hdiv). now destruct (Hdiv Hd eq_refl).
    + assert (Z : is_zero x = true) by (rewrite is_zero_spec by exact W; lia).
      destruct o; try discriminate; unfold binop, unpacked; rewrite Z; reflexivity.
Qed.

Definition double_exact (v : Z) : Prop :=
  exists m e, v = m * 2 ^ e /\ Z.abs m < 2 ^ 53 /\ 0 <= e <= 971.

Lemma double_exact_small v : Z.abs v <= 2 ^ 53 -> double_exact v.
Proof.
  intros H. rewrite p53 in H. unfold double_exact. rewrite p53.
  destruct (Z.eqb_spec (Z.abs v) 9007199254740992) as [E|E].
  - exists (Z.sgn v * 4503599627370496), 1. change (2 ^ 1) with 2. lia.
  - exists v, 0. rewrite Z.pow_0_r. lia.
Qed.

Theorem truediv_exact ord zc c x a b : template_ok OpTrueDivide ord c = true -> wf SHIFT x ->
  binop OpTrueDivide ord zc c x = RFloatDiv a b ->
  (a, b) = operands ord c (value SHIFT x) /\ b <> 0
  /\ Z.abs a <= 2 ^ 53 /\ Z.abs b <= 2 ^ 53 /\ double_exact a /\ double_exact b.
Proof.
  intros T W E. destruct (template_ok_view _ ord c T) as (Hc & _ & Hdiv). specialize (Hdiv eq_refl).
  assert (G : (a, b) = operands ord c (value SHIFT x) /\ b <> 0 /\ Z.abs a <= 2 ^ 53 /\ Z.abs b <= 2 ^ 53);
    [| destruct G as (G1 & G2 & G3 & G4); repeat split; auto using double_exact_small ].
  unfold binop, unpacked in E.
  destruct (is_zero x) eqn:Z.
  - destruct ord; [| destruct zc; [discriminate|]];
      rewrite after_zero_of_zero in E by (assumption || discriminate); discriminate.
  - unfold after_zero, fast_general in E. rewrite unpack_spec in E by exact W.
    destruct (small_enough OpTrueDivide x) eqn:Es; [|discriminate].
    destruct (small_value _ x W Es) as (V0 & V60 & V30).
    rewrite let_pair in E. unfold calc_long in E. change (LONG_BITS <=? 53) with false in E. cbv iota in E.
    rewrite ckl_ok in E by (clear - V60; lia). change (52 / SHIFT) with 1 in E. rewrite p53 in *.
    destruct ((Z.abs (value SHIFT x) <=? 9007199254740992) || (ndigits x <=? 1)) eqn:Ec; [|discriminate].
    injection E as <- <-.
    assert (Bv : Z.abs (value SHIFT x) <= 9007199254740992) by (clear - V30 Ec; lia).
    assert (Bc : Z.abs c <= 9007199254740992) by (clear - Hc; lia).
    destruct ord; cbn [operands fst snd]; repeat split; auto.
Qed.

(* the compile-time restriction of shifts to `x << c` is needed by the C text *)
Theorem cobj_shift_is_ub_without_guard :
  exists c xv, c_small c = true /\ binop_z OpLshift CObj false c xv = RUB.
Proof. exists 3, 64. split; vm_compute; reflexivity. Qed.
