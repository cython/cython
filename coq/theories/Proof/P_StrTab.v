(* Proofs for Model/M_StrTab.v (C10), two theorems about a whole string table: every non-empty table
   comes back from the LZSS codec, and the lzss branch is stored exactly when it saves 200 bytes.
   The round trip of the codec is P_LZSS's (through P_StrLit.lzss_roundtrip), that of the length index
   P_StrLit.string_table_roundtrip. *)
From Coq Require Import NArith ZArith List Bool Lia ZifyBool ZifyNat ZifyN.
From CyVerif Require Import Lib.CInt Model.M_LZSS Model.M_StrLit Model.M_StrTab Proof.P_LZSS Proof.P_StrLit.
Import ListNotations.
Open Scope Z_scope.

(* ------------------------------------------------------------------ the table *)
(* split (decode (encode (concat table))) = table, for EVERY non-empty table - whether or not
   the 200-byte saving test selects the LZSS branch for it *)
Theorem table_lzss_roundtrip : forall fx texts bstrs,
  Forall (Forall (fun c => is_scalar c = true)) texts -> Forall bytesN bstrs ->
  index_ok fx (map utf8_len texts) -> index_ok fx (map nlen bstrs) ->
  concat (map (flat_map enc_char) texts) ++ concat bstrs <> [] ->
  exists t c, gen_table fx texts bstrs = GOk t /\ lzss_compress (t_data t) = Some c /\ bytesN c
              /\ lzss_unpack t c = Some (texts, bstrs).
Proof.
  intros fx texts bstrs Hs Hb Hi1 Hi2 Hne.
  destruct (string_table_roundtrip fx texts bstrs Hs Hi1 Hi2) as (t & G & D & U).
  destruct (lzss_roundtrip (t_data t)) as (c & Ec & Bc & Dc); [rewrite D; now apply table_data_bytes|now rewrite D|].
  exists t, c. split; [exact G|]. split; [exact Ec|]. split; [exact Bc|].
  unfold lzss_unpack. now rewrite Dc, map_N2Z_id.
Qed.

(* the storage-mode threshold: the lzss branch exists (and is the default) exactly when it saves at
   least 200 bytes *)
Theorem lzss_stored_iff_saving : forall cd data c, lzss_compress data = Some c ->
  (In (90%N, c) (compressions cd data) <-> (nlen c + 200 <= nlen data)%N)
  /\ (default_compression (compressions cd data) = 90 <-> (nlen c + 200 <= nlen data)%N).
Proof.
  intros cd data c E.
  assert (A : In (90%N, c) (compressions cd data) <-> (nlen c + 200 <= nlen data)%N).
  { split.
    - intros Hin. destruct (select_loop_in _ _ _ _ _ _ Hin) as [_ H]. exact H.
    - intros Hs. unfold compressions. cbn [select_loop]. unfold compress_with at 1.
      change (90 =? 90)%N with true. cbv iota. rewrite E.
      destruct (N.ltb_spec (nlen data) (nlen c + 200)) as [C|_]; [lia|]. now left. }
  split; [exact A|]. unfold default_compression.
  destruct (existsb (fun p : N * list N => (fst p =? 90)%N) (compressions cd data)) eqn:X.
  - apply existsb_exists in X as ((a & c') & Hin & Ha). cbn [fst] in Ha. apply N.eqb_eq in Ha. subst a.
    destruct (select_loop_in _ _ _ _ _ _ Hin) as [Ec Hsz]. unfold compress_with in Ec.
    change (90 =? 90)%N with true in Ec. cbv iota in Ec. rewrite E in Ec. injection Ec as <-. tauto.
  - split; [discriminate|]. intros Hs. apply A in Hs.
    assert (existsb (fun p : N * list N => (fst p =? 90)%N) (compressions cd data) = true) as Y.
    { apply existsb_exists. exists (90%N, c). split; [exact Hs|reflexivity]. }
    congruence.
Qed.
