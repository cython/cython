(* C33 -- proofs about Model/M_Convert.v *)
From Coq Require Import ZArith NArith List Bool Lia ZifyBool ZifyNat ZifyN.
From CyVerif Require Import Lib.CInt Model.M_Convert.
From CyVerif Require Model.M_IntFmt.
Import ListNotations.
Open Scope Z_scope.

Lemma list_eqb_N_sound a b : list_eqb N.eqb a b = true -> a = b.
Proof.
  revert b. induction a as [|x a IH]; destruct b as [|y b]; cbn; try discriminate; auto.
  intros H. apply andb_prop in H. destruct H as [H1 H2]. apply N.eqb_eq in H1. f_equal; auto.
Qed.

Fixpoint pyeqb_sound (a b : pyval) {struct a} : pyeqb a b = true -> a = b.
Proof.
  destruct a; destruct b; cbn; try discriminate; intros H.
  - reflexivity.
  - f_equal. apply Bool.eqb_prop. exact H.
  - f_equal. apply Z.eqb_eq. exact H.
  - f_equal. apply Z.eqb_eq. exact H.
  - f_equal. apply list_eqb_N_sound. exact H.
  - f_equal. apply list_eqb_N_sound. exact H.
  - f_equal. revert l0 H. induction l as [|u us IHl]; intros [|w ws] H; try discriminate; auto.
    apply andb_prop in H. destruct H as [H1 H2]. f_equal.
    + apply pyeqb_sound. exact H1.
    + apply IHl. exact H2.
Qed.

Fixpoint ceqb_sound (a b : cval) {struct a} : ceqb a b = true -> a = b.
Proof.
  destruct a; destruct b; cbn; try discriminate; intros H.
  - f_equal. apply Z.eqb_eq. exact H.
  - f_equal. apply Z.eqb_eq. exact H.
  - f_equal. apply list_eqb_N_sound. exact H.
  - f_equal. revert l0 H. induction l as [|u us IHl]; intros [|w ws] H; try discriminate; auto.
    apply andb_prop in H. destruct H as [H1 H2]. f_equal.
    + apply ceqb_sound. exact H1.
    + apply IHl. exact H2.
Qed.

Lemma mapM_Forall2 {A B} (f : A -> res B) l ys :
  mapM f l = Ok ys <-> Forall2 (fun x y => f x = Ok y) l ys.
Proof.
  revert ys. induction l as [|x r IH]; intros ys; cbn.
  - split; [intros [= <-]; constructor|intros H; inversion H; reflexivity].
  - split.
    + destruct (f x) as [y|] eqn:Hx; [|discriminate].
      destruct (mapM f r) as [yr|] eqn:Hr; [|discriminate].
      intros [= <-]. constructor; [exact Hx|apply IH; reflexivity].
    + intros H. inversion H as [|? y ? yr Hx Hr]; subst. apply IH in Hr. rewrite Hx, Hr. reflexivity.
Qed.

(* the first failing element, in iteration order, decides; nothing is returned *)
Definition first_err {A B} (f : A -> res B) (l : list A) (e : exc) : Prop :=
  exists pre x post ys, l = pre ++ x :: post /\ mapM f pre = Ok ys /\ f x = Err e.

Lemma mapM_err_first {A B} (f : A -> res B) l e :
  mapM f l = Err e <-> first_err f l e.
Proof.
  unfold first_err. split.
  - induction l as [|x r IH]; cbn; [discriminate|].
    destruct (f x) as [y|e'] eqn:Hx.
    + destruct (mapM f r) as [yr|e''] eqn:Hr; [discriminate|].
      intros H. inversion H; subst. destruct (IH eq_refl) as (pre & x0 & post & ys & H1 & H2 & H3).
      exists (x :: pre), x0, post, (y :: ys). subst r. cbn. rewrite Hx, H2. auto.
    + intros H. inversion H; subst. exists [], x, r, []. auto.
  - intros (pre & x & post & ys & -> & Hp & Hx). revert ys Hp.
    induction pre as [|p pre IH]; intros ys Hp; cbn.
    + rewrite Hx. reflexivity.
    + cbn in Hp. destruct (f p) as [y|]; [|discriminate].
      destruct (mapM f pre) as [yp|] eqn:Hpre; [|discriminate].
      rewrite (IH yp eq_refl). reflexivity.
Qed.

Lemma Forall2_len {A B} (R : A -> B -> Prop) l vs : Forall2 R l vs -> length l = length vs.
Proof. induction 1; cbn; auto. Qed.

Lemma Forall2_In_r {A B} (R : A -> B -> Prop) l vs v :
  Forall2 R l vs -> In v vs -> exists x, In x l /\ R x v.
Proof.
  induction 1 as [|x0 v0 l vs H0 _ IH]; intros Hin; [destruct Hin|].
  destruct Hin as [<-|Hin]; [exists x0; cbn; auto|].
  destruct (IH Hin) as (x & Hx & Hr). exists x. cbn. auto.
Qed.

Lemma Forall2_law_inv {A B} (R : A -> B -> Prop) (g : B -> res A) l vs :
  Forall2 R l vs -> (forall x v, In x l -> R x v -> g v = Ok x) -> mapM g vs = Ok l.
Proof.
  induction 1 as [|x v l vs Hxv H IH]; intros Hlaw; cbn; [reflexivity|].
  rewrite (Hlaw x v (or_introl eq_refl) Hxv). rewrite IH; [reflexivity|].
  intros x' v' Hin. apply Hlaw. right. exact Hin.
Qed.

Lemma Forall2_NoDup {A B} (R : A -> B -> Prop) l vs :
  Forall2 R l vs -> (forall x y v, In x l -> In y l -> R x v -> R y v -> x = y) ->
  NoDup l -> NoDup vs.
Proof.
  induction 1 as [|x v l vs Hxv HF IH]; intros Hinj Hnd; constructor; inversion Hnd as [|? ? Hx Hl]; subst.
  - intros Hin. destruct (Forall2_In_r _ _ _ _ HF Hin) as (y & Hy & Hyv).
    apply Hx. rewrite (Hinj x y v); cbn; auto.
  - apply IH; [|exact Hl]. intros x' y' v' Hx' Hy'. apply Hinj; right; assumption.
Qed.

Lemma NoDup_mid {A} (l r : list A) a : NoDup (l ++ a :: r) -> ~ In a l.
Proof. intros H Hin. apply (NoDup_remove_2 _ _ _ H), in_or_app. left. exact Hin. Qed.

(* insert-if-absent: a new key is appended *)
Lemma existsb_fresh {A B} (eqb : A -> A -> bool) (key : B -> A) x acc :
  (forall a, eqb x a = true -> x = a) -> ~ In x (map key acc) ->
  existsb (fun p => eqb x (key p)) acc = false.
Proof.
  intros Hs Hn. destruct (existsb _ acc) eqn:E; [|reflexivity].
  apply existsb_exists in E as (p & Hp & E). apply Hs in E. destruct Hn. subst x. apply in_map, Hp.
Qed.

Lemma dict_set_fresh k v d : ~ In k (map fst d) -> dict_set k v d = d ++ [(k, v)].
Proof.
  induction d as [|[k' v'] d IH]; cbn; intros H; [reflexivity|].
  destruct (pyeqb k k') eqn:E; [apply pyeqb_sound in E; destruct H; left; congruence|].
  rewrite IH by tauto. reflexivity.
Qed.

(* the container loops, for any element converters *)
Section GenericProofs.
  Context {X Y : Type}.
  Variable fromX : pyval -> res X.
  Variable toX : X -> res pyval.
  Variable fromY : pyval -> res Y.
  Variable toY : Y -> res pyval.
  Variable eqb : X -> X -> bool.
  Hypothesis eqb_sound : forall a b, eqb a b = true -> a = b.

  (* vector / std::list / C array payload: order preserving round trip *)
  Lemma seq_roundtrip (l : list X) (vs : list pyval) :
    (forall x v, In x l -> toX x = Ok v -> fromX v = Ok x) ->
    mapM toX l = Ok vs -> seq_from_py fromX (PList vs) = Ok l.
  Proof.
    intros Hlaw H. unfold seq_from_py. cbn. apply mapM_Forall2 in H.
    eapply Forall2_law_inv; eauto.
  Qed.

  Lemma seq_error_position (v : pyval) (e : exc) :
    seq_from_py fromX v = Err e <->
    iter_items v = Err e \/ exists items, iter_items v = Ok items /\ first_err fromX items e.
  Proof.
    unfold seq_from_py. destruct (iter_items v) as [items|e'] eqn:Hi; cbn.
    - rewrite mapM_err_first. split.
      + intros H. right. exists items. auto.
      + intros [H|(it & H & H')]; [discriminate|]. inversion H; subst. exact H'.
    - split.
      + intros H. left. inversion H. reflexivity.
      + intros [H|(it & H & _)]; [inversion H; reflexivity|discriminate].
  Qed.

  (* set / unordered_set: the loop converts the items, then inserts them *)
  Lemma set_loop_spec items : forall acc, set_loop fromX eqb items acc =
    rmap (fun xs => fold_left (fun a x => set_insert eqb x a) xs acc) (mapM fromX items).
  Proof.
    induction items as [|it r IH]; intros acc; cbn; [reflexivity|].
    destruct (fromX it) as [x|]; [|reflexivity]. rewrite IH. destruct (mapM fromX r); reflexivity.
  Qed.

  (* whatever the accumulator: the first failing element decides *)
  Lemma set_loop_err items acc e :
    set_loop fromX eqb items acc = Err e <-> first_err fromX items e.
  Proof.
    rewrite set_loop_spec, <- mapM_err_first. destruct (mapM fromX items); cbn; split; congruence.
  Qed.

  Lemma set_insert_In x a acc : In a (set_insert eqb x acc) <-> In a acc \/
      (a = x /\ existsb (eqb x) acc = false).
  Proof.
    unfold set_insert. destruct (existsb (eqb x) acc) eqn:He.
    - split; [auto|]. intros [H|[_ H]]; [exact H|discriminate].
    - rewrite in_app_iff. cbn. split.
      + intros [H|[H|[]]]; auto.
      + intros [H|[H _]]; auto.
  Qed.

  Lemma inserts_In xs : forall acc a,
    In a (fold_left (fun a x => set_insert eqb x a) xs acc) -> In a acc \/ In a xs.
  Proof.
    induction xs as [|x r IH]; cbn; intros acc a Ha; [auto|].
    apply IH in Ha as [Ha|Ha]; [|auto]. apply set_insert_In in Ha as [Ha|[Ha _]]; auto.
  Qed.

  (* duplicates collapse: the result holds only converted items *)
  Lemma set_members items r :
    set_loop fromX eqb items [] = Ok r ->
    exists xs, mapM fromX items = Ok xs /\ forall a, In a r -> In a xs.
  Proof.
    rewrite set_loop_spec. destruct (mapM fromX items) as [xs|]; [|discriminate]. intros [= <-].
    exists xs. split; [reflexivity|]. intros a Ha. apply inserts_In in Ha as [[]|Ha]. exact Ha.
  Qed.

  Lemma set_insert_fresh x acc : ~ In x acc -> set_insert eqb x acc = acc ++ [x].
  Proof.
    intros H. unfold set_insert. rewrite (existsb_fresh eqb (fun a => a)); [reflexivity|apply eqb_sound|].
    rewrite map_id. exact H.
  Qed.

  Lemma inserts_fresh xs : forall acc, NoDup (acc ++ xs) ->
    fold_left (fun a x => set_insert eqb x a) xs acc = acc ++ xs.
  Proof.
    induction xs as [|x r IH]; intros acc Hnd; cbn [fold_left]; [symmetry; apply app_nil_r|].
    rewrite set_insert_fresh by exact (NoDup_mid _ _ _ Hnd).
    rewrite IH, <- app_assoc; [reflexivity|]. rewrite <- app_assoc. exact Hnd.
  Qed.

  (* C -> Python: images that are new are appended as they come *)
  Lemma pyset_loop_ok l : forall acc vs, pyset_loop toX l acc = Ok vs ->
    exists ws, Forall2 (fun x v => toX x = Ok v) l ws /\ (NoDup (acc ++ ws) -> vs = acc ++ ws).
  Proof.
    induction l as [|x r IH]; intros acc vs H; cbn in H.
    - injection H as <-. exists []. split; [constructor|]. intros _. symmetry. apply app_nil_r.
    - destruct (toX x) as [v|] eqn:Hx; [|discriminate]. unfold pyset_add in H.
      destruct (hashable v); [|discriminate]. apply IH in H as (ws & HF & Hvs).
      exists (v :: ws). split; [constructor; assumption|]. intros Hnd.
      rewrite (existsb_fresh pyeqb (fun a => a)), <- app_assoc in Hvs; [exact (Hvs Hnd)|apply pyeqb_sound|].
      rewrite map_id. exact (NoDup_mid _ _ _ Hnd).
  Qed.

  (* C set -> Python set -> C set is the identity (any element converters obeying the law) *)
  Theorem set_roundtrip (l : list X) (vs : list pyval) :
    NoDup l -> (forall x v, In x l -> toX x = Ok v -> fromX v = Ok x) ->
    pyset_loop toX l [] = Ok vs -> set_from_py fromX eqb (PSet vs) = Ok l.
  Proof.
    intros Hnd Hlaw H. apply pyset_loop_ok in H as (ws & HF & ->).
    - unfold set_from_py. cbn. rewrite set_loop_spec, (Forall2_law_inv _ _ _ _ HF Hlaw). cbn.
      f_equal. apply inserts_fresh. exact Hnd.
    - apply (Forall2_NoDup _ _ _ HF); [|exact Hnd].
      intros x y v Hx Hy Hxv Hyv. apply Hlaw in Hxv, Hyv; congruence.
  Qed.

  Definition kv_rel (c : X * Y) (p : pyval * pyval) : Prop :=
    toX (fst c) = Ok (fst p) /\ toY (snd c) = Ok (snd p).

  Definition conv_kv (p : pyval * pyval) : res (X * Y) :=
    match fromX (fst p) with
    | Err e => Err e
    | Ok k => match fromY (snd p) with Err e => Err e | Ok y => Ok (k, y) end
    end.

  Lemma map_loop_spec kvs : forall acc, map_loop fromX fromY eqb kvs acc =
    rmap (fun ps : list (X * Y) => fold_left (fun a p => map_insert eqb (fst p) (snd p) a) ps acc)
         (mapM conv_kv kvs).
  Proof.
    induction kvs as [|[k v] r IH]; intros acc; cbn; [reflexivity|]. unfold conv_kv at 1. cbn.
    destruct (fromX k) as [ck|]; [|reflexivity]. destruct (fromY v) as [cv|]; [|reflexivity].
    rewrite IH. destruct (mapM conv_kv r); reflexivity.
  Qed.

  (* key before value, entries in dict order; the first failure decides *)
  Lemma map_loop_err kvs acc e :
    map_loop fromX fromY eqb kvs acc = Err e <-> first_err conv_kv kvs e.
  Proof.
    rewrite map_loop_spec, <- mapM_err_first. destruct (mapM conv_kv kvs); cbn; split; congruence.
  Qed.

  Lemma map_inserts_fresh (ps : list (X * Y)) : forall acc, NoDup (map fst (acc ++ ps)) ->
    fold_left (fun a p => map_insert eqb (fst p) (snd p) a) ps acc = acc ++ ps.
  Proof.
    induction ps as [|[k y] r IH]; intros acc Hnd; cbn [fold_left fst snd]; [symmetry; apply app_nil_r|].
    unfold map_insert. rewrite (existsb_fresh eqb fst); [|apply eqb_sound|].
    - rewrite IH, <- app_assoc; [reflexivity|]. rewrite <- app_assoc. exact Hnd.
    - rewrite map_app in Hnd. exact (NoDup_mid _ _ _ Hnd).
  Qed.

  Lemma pydict_loop_ok kv : forall acc d, pydict_loop toX toY kv acc = Ok d ->
    exists ps, Forall2 kv_rel kv ps /\ (NoDup (map fst (acc ++ ps)) -> d = acc ++ ps).
  Proof.
    induction kv as [|[k y] r IH]; intros acc d H; cbn in H.
    - injection H as <-. exists []. split; [constructor|]. intros _. symmetry. apply app_nil_r.
    - destruct (toY y) as [pv|] eqn:Hy; [|discriminate]. destruct (toX k) as [pk|] eqn:Hk; [|discriminate].
      destruct (hashable pk); [|discriminate]. apply IH in H as (ps & HF & Hd).
      exists ((pk, pv) :: ps). split; [constructor; [split|]; assumption|]. intros Hnd.
      rewrite dict_set_fresh, <- app_assoc in Hd; [exact (Hd Hnd)|].
      rewrite map_app in Hnd. exact (NoDup_mid _ _ _ Hnd).
  Qed.

  Lemma kv_rel_keys kv ps :
    Forall2 kv_rel kv ps -> Forall2 (fun k pk => toX k = Ok pk) (map fst kv) (map fst ps).
  Proof. induction 1 as [|c p kv ps [Hk _]]; constructor; assumption. Qed.

  (* C map -> Python dict -> C map is the identity *)
  Theorem map_roundtrip kv d :
    NoDup (map fst kv) ->
    (forall k v, In k (map fst kv) -> toX k = Ok v -> fromX v = Ok k) ->
    (forall y v, In y (map snd kv) -> toY y = Ok v -> fromY v = Ok y) ->
    pydict_loop toX toY kv [] = Ok d -> map_from_py fromX fromY eqb (PDict d) = Ok kv.
  Proof.
    intros Hnd HlK HlV H. apply pydict_loop_ok in H as (ps & HF & ->).
    - unfold map_from_py. cbn. rewrite map_loop_spec, (Forall2_law_inv _ conv_kv _ _ HF).
      + cbn. f_equal. apply map_inserts_fresh. exact Hnd.
      + intros [k y] p Hin [Hk Hy]. unfold conv_kv. cbn [fst snd] in Hk, Hy.
        rewrite (HlK k _ (in_map fst _ _ Hin) Hk), (HlV y _ (in_map snd _ _ Hin) Hy). reflexivity.
    - apply (Forall2_NoDup _ _ _ (kv_rel_keys _ _ HF)); [|exact Hnd].
      intros x y v Hx Hy Hxv Hyv. apply HlK in Hxv, Hyv; congruence.
  Qed.

  Theorem pair_roundtrip x y px py :
    fromX px = Ok x -> fromY py = Ok y ->
    pair_from_py fromX fromY (PTuple [px; py]) = Ok (x, y).
  Proof. intros H1 H2. unfold pair_from_py. cbn. rewrite H1, H2. reflexivity. Qed.

  Theorem pair_error_order v a b e :
    unpack2 v = Ok (a, b) ->
    (pair_from_py fromX fromY v = Err e <->
     fromX a = Err e \/ (exists x, fromX a = Ok x) /\ fromY b = Err e).
  Proof.
    intros Hu. unfold pair_from_py. rewrite Hu. destruct (fromX a) as [x|e1].
    - destruct (fromY b) as [y|e2]; split.
      + discriminate.
      + intros [H|[_ H]]; discriminate.
      + intros H. right. split; [eauto|]. inversion H; reflexivity.
      + intros [H|[_ H]]; [discriminate|]. inversion H; reflexivity.
    - split.
      + intros H. left. inversion H; reflexivity.
      + intros [H|[[x H] _]]; [inversion H; reflexivity|discriminate].
  Qed.

  Lemma arr_loop_spec n items :
    arr_loop fromX n items =
    match mapM fromX (firstn n items) with
    | Err e => Err e
    | Ok xs => if Nat.eqb (length items) n then Ok xs
               else if Nat.ltb n (length items) then Err IndexTooMany else Err IndexNotEnough
    end.
  Proof.
    revert n. induction items as [|it r IH]; intros [|m]; cbn; try reflexivity.
    destruct (fromX it) as [x|e]; [|reflexivity].
    rewrite IH. destruct (mapM fromX (firstn m r)) as [xs|e]; [|reflexivity].
    unfold Nat.ltb. cbn.
    destruct (Nat.eqb (length r) m); [reflexivity|].
    destruct (length r) as [|l']; [reflexivity|]. destruct (Nat.leb m l'); reflexivity.
  Qed.

  Lemma py_len_items v m :
    py_len v = Some m -> exists items, iter_items v = Ok items /\ length items = m.
  Proof.
    destruct v; cbn; intros H; inversion H; subst; eexists; split; try reflexivity;
      rewrite ?map_length; reflexivity.
  Qed.

  (* a result is produced only from exactly n items, all converted *)
  Theorem arr_exact n v xs :
    arr_from_py fromX n v = Ok xs ->
    exists items, iter_items v = Ok items /\ length items = n /\ mapM fromX items = Ok xs.
  Proof.
    unfold arr_from_py. intros H.
    assert (G : arr_run fromX n v = Ok xs ->
                exists items, iter_items v = Ok items /\ length items = n /\ mapM fromX items = Ok xs).
    { unfold arr_run. destruct (iter_items v) as [items|e]; [|discriminate].
      destruct items as [|i0 ir].
      - destruct n; [|discriminate]. intros E. inversion E. exists []. auto.
      - rewrite arr_loop_spec. destruct (mapM fromX (firstn n (i0 :: ir))) as [ys|e] eqn:Hm; [|discriminate].
        destruct (Nat.eqb (length (i0 :: ir)) n) eqn:Hl.
        + apply Nat.eqb_eq in Hl. intros E. inversion E; subst ys. exists (i0 :: ir).
          split; [reflexivity|]. split; [exact Hl|]. rewrite <- Hl in Hm. rewrite firstn_all in Hm. exact Hm.
        + destruct (Nat.ltb n (length (i0 :: ir))); discriminate. }
    destruct (py_len v) as [m|]; [|exact (G H)].
    destruct (Nat.eqb m n); [exact (G H)|]. destruct (Nat.leb n m); discriminate.
  Qed.

  Theorem arr_wrong_length_raises n v items :
    iter_items v = Ok items -> length items <> n -> exists e, arr_from_py fromX n v = Err e.
  Proof.
    intros Hi Hl. destruct (arr_from_py fromX n v) as [xs|e] eqn:H; [|eauto].
    exfalso. destruct (arr_exact _ _ _ H) as (items' & H1 & H2 & _). congruence.
  Qed.

  Theorem arr_roundtrip n (l : list X) vs :
    length l = n -> (forall x v, In x l -> toX x = Ok v -> fromX v = Ok x) ->
    mapM toX l = Ok vs -> arr_from_py fromX n (PList vs) = Ok l.
  Proof.
    intros Hn Hlaw H. apply mapM_Forall2 in H.
    assert (Hlen : length vs = n) by (rewrite <- Hn; symmetry; eapply Forall2_len; eauto).
    assert (Hback : mapM fromX vs = Ok l) by (eapply Forall2_law_inv; eauto).
    unfold arr_from_py. cbn. rewrite Hlen, Nat.eqb_refl. unfold arr_run. cbn.
    destruct vs as [|v0 vr].
    - cbn in Hback. inversion Hback. subst. cbn. reflexivity.
    - rewrite arr_loop_spec. rewrite <- Hlen at 1. rewrite firstn_all, Hback, Hlen, Nat.eqb_refl. reflexivity.
  Qed.
End GenericProofs.

Definition codec_law (e : senc) : Prop :=
  forall b s, decode_with e b = Ok s -> encode_with e s = Ok b.

Lemma ascii_codec_law : codec_law EAscii.
Proof.
  intros b s. cbn. destruct (all_ascii b) eqn:Ha; [|discriminate].
  intros H. inversion H; subst. rewrite Ha. reflexivity.
Qed.

(* the str object: the ascii flag is "every code point below 128" *)
Lemma is_ascii_all s : is_ascii s = all_ascii s.
Proof.
  unfold is_ascii. induction s as [|c r IH]; [reflexivity|].
  cbn [maxchar fold_right all_ascii forallb]. fold (maxchar r). fold (all_ascii r).
  rewrite <- IH. destruct (N.ltb_spec c 128), (N.ltb_spec (maxchar r) 128); cbn [andb]; lia.
Qed.

Lemma kind1_not_ascii : exists s, kind_of s = K1BYTE /\ is_ascii s = false.
Proof. exists [233%N]. split; reflexivity. Qed.

Lemma ns_zs l : ns (zs l) = l.
Proof. unfold ns, zs. rewrite map_map. rewrite <- (map_id l) at 2. apply map_ext. intros a. apply N2Z.id. Qed.

Lemma utf8_ref_ascii c : (c < 128)%N -> ns (M_IntFmt.utf8_ref (Z.of_N c)) = [c].
Proof.
  intros H. unfold M_IntFmt.utf8_ref. replace (Z.of_N c <? 128) with true by lia.
  cbn [ns map]. rewrite N2Z.id. reflexivity.
Qed.

Lemma utf8_ref_length z : 128 <= z -> (2 <= length (M_IntFmt.utf8_ref z))%nat.
Proof.
  intros H. unfold M_IntFmt.utf8_ref. replace (z <? 128) with false by lia.
  destruct (z <? 2048); [cbn; lia|]. destruct (z <? 65536); cbn; lia.
Qed.

(* utf8_encode = the table applied to every code point, or UnicodeEncodeError *)
Lemma utf8_encode_char s :
  utf8_encode s = if forallb encodable s then Ok (ns (flat_map M_IntFmt.utf8_ref (zs s)))
                  else Err UnicodeEncodeError.
Proof.
  induction s as [|c r IH]; [reflexivity|].
  cbn [utf8_encode forallb zs map flat_map]. unfold utf8_enc1.
  destruct (encodable c); cbn [andb]; [|reflexivity].
  rewrite IH. fold (zs r). destruct (forallb encodable r); [|reflexivity].
  unfold ns. rewrite map_app. reflexivity.
Qed.

Lemma enc1_ascii c : (c < 128)%N -> utf8_enc1 c = Some [c].
Proof.
  intros H. unfold utf8_enc1, encodable, is_surrogate.
  replace ((c <? 1114112)%N && negb ((55296 <=? c)%N && (c <=? 57343)%N)) with true by lia.
  rewrite (utf8_ref_ascii c H). reflexivity.
Qed.

Lemma enc1_length c bs : utf8_enc1 c = Some bs ->
  (1 <= length bs)%nat /\ (length bs = 1%nat <-> (c < 128)%N).
Proof.
  destruct (N.ltb_spec c 128) as [L|G].
  - rewrite (enc1_ascii c L). intros [= <-]. cbn. lia.
  - unfold utf8_enc1. destruct (encodable c); [|discriminate]. intros [= <-].
    unfold ns. rewrite map_length. pose proof (utf8_ref_length (Z.of_N c)). lia.
Qed.

Lemma utf8_encode_ascii s : all_ascii s = true -> utf8_encode s = Ok s.
Proof.
  induction s as [|c r IH]; [reflexivity|]. cbn [all_ascii forallb]. fold (all_ascii r).
  intros H. apply andb_prop in H as [Hc Hr]. cbn [utf8_encode].
  rewrite (enc1_ascii c) by lia. rewrite (IH Hr). reflexivity.
Qed.

Lemma utf8_encode_length s : forall b, utf8_encode s = Ok b ->
  (length s <= length b)%nat /\ (length s = length b <-> all_ascii s = true).
Proof.
  induction s as [|c r IH]; intros b; cbn [utf8_encode].
  - intros [= <-]. cbn. split; [lia|]. split; reflexivity.
  - destruct (utf8_enc1 c) as [bs|] eqn:E1; [|discriminate].
    destruct (utf8_encode r) as [t|] eqn:Er; [|discriminate]. intros [= <-].
    destruct (enc1_length c bs E1) as [L1 L2]. destruct (IH t eq_refl) as [M1 M2].
    rewrite app_length. cbn [length all_ascii forallb]. fold (all_ascii r). split; [lia|].
    rewrite andb_true_iff. destruct (N.ltb_spec c 128); split; intros; lia.
Qed.

Lemma firstn_length_all {A} (l : list A) : firstn (length l) l = l.
Proof. apply firstn_all. Qed.

(* the C helper computes CPython's s.encode(E) and reports the number of BYTES:
   all strings; Full API and Limited API with the NULL check; the Limited API as it is
   (Limited false) on the strings PyUnicode_AsUTF8AndSize accepts (see asas_limited_refuted) *)
Definition api_exact (a : api) (e : senc) (s : list N) : Prop :=
  a = Limited false -> e = EAscii -> exists b, utf8_encode s = Ok b.

Lemma utf8_encode_error s x : utf8_encode s = Err x -> x = UnicodeEncodeError.
Proof. rewrite utf8_encode_char. destruct (forallb encodable s); congruence. Qed.

Theorem asas_spec a e s : str_accepts_unicode e = true -> api_exact a e s ->
  unicode_asas a e s = rmap (fun b => (b, length b)) (encode_with e s).
Proof.
  destruct e; try discriminate; intros _ Hx; unfold unicode_asas, py_as_utf8; cbn [encode_with cd_enc ascii_codec utf8_codec].
  2: reflexivity.
  destruct a as [|checked].
  - rewrite is_ascii_all. destruct (all_ascii s) eqn:A; [|reflexivity].
    rewrite (utf8_encode_ascii s A). reflexivity.
  - destruct (utf8_encode s) as [b|x] eqn:E.
    + destruct (utf8_encode_length s b E) as [_ H]. destruct (all_ascii s) eqn:A.
      * rewrite (utf8_encode_ascii s A) in E. injection E as <-. rewrite Nat.eqb_refl. reflexivity.
      * destruct (Nat.eqb_spec (length s) (length b)) as [Q|Q]; [|reflexivity].
        apply H in Q. discriminate.
    + destruct (all_ascii s) eqn:A; [rewrite (utf8_encode_ascii s A) in E; discriminate|].
      destruct checked.
      * rewrite (utf8_encode_error s x E). reflexivity.
      * destruct (Hx eq_refl eq_refl) as [b Hb]. rewrite E in Hb. discriminate.
Qed.

(* the Limited-API text as it is: a lone surrogate under ascii ends in SystemError *)
Theorem asas_limited_refuted :
  exists s, unicode_asas (Limited false) EAscii s = Err SystemError /\
            encode_with EAscii s = Err UnicodeEncodeError.
Proof. exists [97; 55296]%N. split; reflexivity. Qed.

Lemma checked_exact a e s : a <> Limited false -> api_exact a e s.
Proof. intros H E. contradiction. Qed.

Lemma sized_exact b : sized (b, length b) = Ok b.
Proof. unfold sized. cbn [fst snd]. rewrite Nat.leb_refl, firstn_all. reflexivity. Qed.

(* under an encoding that does not accept str both sides are TypeError *)
Lemma obj_asas_str a sc s : api_exact a (sc_enc sc) s ->
  obj_asas a sc (PStr s) = rmap (fun b => (b, length b)) (encode_with (sc_enc sc) s).
Proof.
  intros Hx. cbn [obj_asas]. destruct (str_accepts_unicode (sc_enc sc)) eqn:A; [exact (asas_spec a _ s A Hx)|].
  destruct (sc_enc sc); try discriminate; reflexivity.
Qed.

(* (pointer, length) users see exactly s.encode(E) *)
Theorem as_string_and_size_str a sc s : api_exact a (sc_enc sc) s ->
  as_string_and_size_l a sc (PStr s) = encode_with (sc_enc sc) s.
Proof.
  intros Hx. unfold as_string_and_size_l. rewrite obj_asas_str by exact Hx.
  destruct (encode_with (sc_enc sc) s); [apply sized_exact|reflexivity].
Qed.

(* pointer-only users see the same bytes *)
Theorem charp_from_py_str a sc s : api_exact a (sc_enc sc) s ->
  charp_from_py_l a sc (PStr s) = rmap CBytes (encode_with (sc_enc sc) s).
Proof.
  intros Hx. unfold charp_from_py_l. rewrite obj_asas_str by exact Hx.
  destruct (encode_with (sc_enc sc) s); reflexivity.
Qed.

Lemma as_string_and_size_bytes a sc b :
  as_string_and_size_l a sc (PBytes b) = Ok b /\ as_string_and_size_l a sc (PByteArray b) = Ok b.
Proof. unfold as_string_and_size_l, obj_asas. cbn [bind]. rewrite sized_exact. split; reflexivity. Qed.

Lemma full_exact e s : api_exact Full e s.
Proof. intros H. discriminate. Qed.

(* the Limited-API variant of the helper (with the NULL check) is observably the same function;
   as it is, it is the same on every argument but a str with a lone surrogate under ascii *)
Theorem limited_api_agrees a sc v :
  (forall s, v = PStr s -> api_exact a (sc_enc sc) s) ->
  as_string_and_size_l a sc v = as_string_and_size_l Full sc v /\
  charp_from_py_l a sc v = charp_from_py_l Full sc v.
Proof.
  intros Hx. assert (E : obj_asas a sc v = obj_asas Full sc v).
  { destruct v; try reflexivity. rewrite !obj_asas_str; [reflexivity|apply full_exact|apply Hx; reflexivity]. }
  unfold as_string_and_size_l, charp_from_py_l. rewrite E. split; reflexivity.
Qed.

(* the object built from a buffer gives that buffer back, with its length, whenever the text
   codec inverts its own decoding *)
Lemma built_asas sc b v : (sc_type sc = SUnicode -> codec_law (sc_enc sc)) ->
  from_string_and_size sc b = Ok v -> obj_asas Full sc v = Ok (b, length b).
Proof.
  intros Hc. unfold from_string_and_size. destruct (sc_type sc).
  - intros [= <-]. reflexivity.
  - intros [= <-]. reflexivity.
  - destruct (decode_with (sc_enc sc) b) as [s|] eqn:Hd; [|discriminate]. intros [= <-].
    rewrite obj_asas_str by apply full_exact. rewrite (Hc eq_refl _ _ Hd). reflexivity.
Qed.

(* std::string is length based in both directions: C -> Python -> C is exact for every byte
   string (embedded NULs included) *)
Theorem string_to_from sc b v :
  (sc_type sc = SUnicode -> codec_law (sc_enc sc)) ->
  string_to_py sc (CBytes b) = Ok v -> string_from_py sc v = Ok (CBytes b).
Proof.
  intros Hc H. unfold string_from_py, string_from_py_l, as_string_and_size_l.
  rewrite (built_asas sc b v Hc H). cbn [bind]. rewrite sized_exact. reflexivity.
Qed.

Theorem string_bytes_roundtrip sc b :
  sc_type sc = SBytes -> string_roundtrip sc (PBytes b) = Ok (PBytes b).
Proof.
  intros H. unfold string_roundtrip, string_roundtrip_l, string_from_py_l, string_to_py, from_string_and_size.
  rewrite (proj1 (as_string_and_size_bytes Full sc b)). cbn. rewrite H. reflexivity.
Qed.

(* c_string_type=str with a non ascii/utf8 encoding: what to_py produces is refused by from_py *)
Theorem string_latin1_raises sc b v :
  sc_type sc = SUnicode -> sc_enc sc = ELatin1 ->
  string_to_py sc (CBytes b) = Ok v -> string_from_py sc v = Err TypeError.
Proof.
  intros Ht He. unfold string_to_py, from_string_and_size, string_from_py, string_from_py_l. rewrite Ht, He. cbn.
  intros H; inversion H; subst. rewrite as_string_and_size_str by apply full_exact. rewrite He. reflexivity.
Qed.

Lemma until_nul_app b1 b2 : ~ In 0%N b1 -> until_nul (b1 ++ b2) = b1 ++ until_nul b2.
Proof.
  induction b1 as [|x r IH]; cbn; intros H; [reflexivity|].
  destruct (N.eqb_spec x 0) as [E|_]; [destruct (H (or_introl E))|].
  f_equal. apply IH. intros Hin. apply H. right. exact Hin.
Qed.

Lemma until_nul_id b : ~ In 0%N b -> until_nul b = b.
Proof. intros H. rewrite <- (app_nil_r b) at 1. rewrite until_nul_app by exact H. apply app_nil_r. Qed.

Lemma until_nul_cut b1 b2 : ~ In 0%N b1 -> until_nul (b1 ++ 0%N :: b2) = b1.
Proof. intros H. rewrite until_nul_app by exact H. apply app_nil_r. Qed.

(* char*: strlen decides what comes back ... *)
Lemma charp_bytes_roundtrip sc b :
  sc_type sc = SBytes -> charp_roundtrip sc (PBytes b) = Ok (PBytes (until_nul b)).
Proof.
  intros Ht. unfold charp_roundtrip, charp_roundtrip_l, charp_from_py_l, charp_to_py, from_string_and_size. cbn.
  rewrite Ht. reflexivity.
Qed.

(* ... exact on NUL-free byte strings ... *)
Theorem charp_nul_free_roundtrip sc b :
  sc_type sc = SBytes -> ~ In 0%N b -> charp_roundtrip sc (PBytes b) = Ok (PBytes b).
Proof. intros Ht Hn. rewrite (charp_bytes_roundtrip sc b Ht), (until_nul_id b Hn). reflexivity. Qed.

(* ... and silently cut at the first NUL otherwise *)
Theorem charp_truncates sc b1 b2 :
  sc_type sc = SBytes -> ~ In 0%N b1 ->
  charp_roundtrip sc (PBytes (b1 ++ 0%N :: b2)) = Ok (PBytes b1).
Proof. intros Ht Hn. rewrite (charp_bytes_roundtrip sc _ Ht), (until_nul_cut b1 b2 Hn). reflexivity. Qed.

Theorem charp_roundtrip_refuted :
  exists sc b r, charp_roundtrip sc (PBytes b) = Ok (PBytes r) /\ r <> b.
Proof.
  exists {| sc_type := SBytes; sc_enc := ENone |}, [97; 0; 98]%N, [97]%N.
  split; [reflexivity|discriminate].
Qed.

(* char* C -> Python -> C: exact for every NUL-free buffer *)
Theorem charp_to_from sc b v :
  (sc_type sc = SUnicode -> codec_law (sc_enc sc)) -> ~ In 0%N b ->
  charp_to_py sc (CBytes b) = Ok v -> charp_from_py sc v = Ok (CBytes b).
Proof.
  intros Hc Hn H. unfold charp_to_py in H. rewrite (until_nul_id b Hn) in H.
  unfold charp_from_py, charp_from_py_l. rewrite (built_asas sc b v Hc H). reflexivity.
Qed.

Lemma lookup_all_cons n r d :
  lookup_all (n :: r) (PDict d) =
    match dict_get n d with
    | None => Err ValueError
    | Some x => match lookup_all r (PDict d) with Ok xs => Ok (x :: xs) | Err e => Err e end
    end.
Proof. unfold lookup_all. cbn [mapM getitem_str]. destruct (dict_get n d); reflexivity. Qed.

Lemma lookup_all_ext names d1 d2 :
  (forall n, In n names -> dict_get n d1 = dict_get n d2) ->
  lookup_all names (PDict d1) = lookup_all names (PDict d2).
Proof.
  induction names as [|n r IH]; intros H; [reflexivity|].
  rewrite !lookup_all_cons, (H n (or_introl eq_refl)), IH; [reflexivity|].
  intros n' Hin. apply H. right. exact Hin.
Qed.

(* only the member keys of the dict matter: any other key is ignored *)
Theorem struct_only_member_keys sc fs d1 d2 :
  (forall n, In n (field_names fs) -> dict_get n d1 = dict_get n d2) ->
  from_py sc (TStruct fs) (PDict d1) = from_py sc (TStruct fs) (PDict d2).
Proof. intros H. cbn. rewrite (lookup_all_ext _ d1 d2 H). reflexivity. Qed.

Lemma lookup_all_missing names d :
  (exists n, In n names /\ dict_get n d = None) -> lookup_all names (PDict d) = Err ValueError.
Proof.
  induction names as [|n0 r IH]; intros (n & Hin & Hn); [destruct Hin|].
  rewrite lookup_all_cons. destruct (dict_get n0 d) as [x|] eqn:H0; [|reflexivity].
  destruct Hin as [->|Hin]; [congruence|].
  rewrite IH; [reflexivity|]. exists n. auto.
Qed.

Lemma lookup_all_present names d :
  (forall n, In n names -> dict_get n d <> None) -> exists vals, lookup_all names (PDict d) = Ok vals.
Proof.
  induction names as [|n0 r IH]; intros H; [exists []; reflexivity|].
  rewrite lookup_all_cons.
  destruct (dict_get n0 d) as [x|] eqn:H0; [|destruct (H n0 (or_introl eq_refl) H0)].
  destruct IH as (vals & Hv); [intros n Hin; apply H; right; exact Hin|].
  rewrite Hv. eauto.
Qed.

(* a missing member key is always a ValueError, whatever else the dict holds and whatever the
   other members convert to (all lookups precede all conversions) *)
Theorem struct_missing_key_raises sc fs d n :
  In n (field_names fs) -> dict_get n d = None ->
  from_py sc (TStruct fs) (PDict d) = Err ValueError.
Proof. intros Hin Hn. cbn. rewrite lookup_all_missing; [reflexivity|]. exists n. auto. Qed.

(* with all member keys present no key error is raised: the outcome is that of the member
   conversions on the looked-up values *)
Theorem struct_keys_present sc fs d :
  (forall n, In n (field_names fs) -> dict_get n d <> None) ->
  exists vals, lookup_all (field_names fs) (PDict d) = Ok vals /\
               from_py sc (TStruct fs) (PDict d) = from_py sc fs (PTuple vals).
Proof.
  intros H. destruct (lookup_all_present _ _ H) as (vals & Hv). exists vals. split; [exact Hv|].
  cbn. rewrite Hv. reflexivity.
Qed.

(* the property text says wrong keys raise; an extra key does not *)
Theorem struct_extra_key_refuted :
  exists sc fs d extra, dict_get extra d <> None /\ ~ In extra (field_names fs) /\
                        exists c, from_py sc (TStruct fs) (PDict d) = Ok c.
Proof.
  exists {| sc_type := SBytes; sc_enc := ENone |},
         (FCons [97%N] (TLeaf (LInt 32 true)) FNil),
         [(PStr [97%N], PInt 1); (PStr [122%N], PInt 2)], [122%N].
  split; [cbn; discriminate|]. split.
  - cbn. intros [H|[]]. discriminate.
  - eexists. vm_compute. reflexivity.
Qed.

(* std::map from a non-dict: AttributeError, not TypeError *)
Theorem map_nonmapping_refuted :
  exists sc t v, from_py sc t v = Err AttributeError.
Proof.
  exists {| sc_type := SBytes; sc_enc := ENone |},
         (TMap (TLeaf (LInt 32 true)) (TLeaf (LInt 32 true))), (PList []).
  vm_compute. reflexivity.
Qed.

Fixpoint is_fields (fs : ctype) : bool :=
  match fs with FNil => true | FCons _ _ r => is_fields r | _ => false end.

(* well-formed C value of a type (what C++ itself guarantees: ranges, distinct set elements and
   map keys, array extents); unions are excluded *)
Fixpoint wf (sc : scfg) (t : ctype) (c : cval) {struct t} : Prop :=
  match t with
  | TLeaf (LInt w sg) => exists z, c = CInt z /\ in_range w sg z
  | TLeaf LDouble => exists d, c = CDouble d
  | TLeaf LString => exists b, c = CBytes b
  | TLeaf LCharp => exists b, c = CBytes b /\ ~ In 0%N b
  | TVector e | TCppList e => exists l, c = CSeq l /\ Forall (wf sc e) l
  | TArray n e => exists l, c = CSeq l /\ length l = n /\ Forall (wf sc e) l
  | TSet e | TUSet e => rigid e = true /\ exists l, c = CSet l /\ NoDup l /\ Forall (wf sc e) l
  | TMap k e | TUMap k e =>
      rigid k = true /\ exists kv, c = CMap kv /\ NoDup (map fst kv) /\
        Forall (wf sc k) (map fst kv) /\ Forall (wf sc e) (map snd kv)
  | TPair a b => exists x y, c = CSeq [x; y] /\ wf sc a x /\ wf sc b y
  | TCTuple fs => is_fields fs = true /\ wf sc fs c
  | TStruct fs => is_fields fs = true /\ NoDup (field_names fs) /\ wf sc fs c
  | TUnion _ => False
  | FNil => c = CSeq []
  | FCons _ ft r => exists x xs, c = CSeq (x :: xs) /\ wf sc ft x /\ wf sc r (CSeq xs)
  end.

Lemma dict_get_app n a b :
  dict_get n (a ++ b) = match dict_get n a with Some x => Some x | None => dict_get n b end.
Proof.
  induction a as [|[k v] a IH]; cbn; [reflexivity|]. destruct (key_is n k); [reflexivity|exact IH].
Qed.

Lemma list_eqb_N_refl a : list_eqb N.eqb a a = true.
Proof. induction a as [|x a IH]; cbn; [reflexivity|]. rewrite N.eqb_refl. exact IH. Qed.

Lemma lookup_combine names : forall vals, NoDup names -> length vals = length names ->
  lookup_all names (PDict (combine (map PStr names) vals)) = Ok vals.
Proof.
  induction names as [|n r IH]; intros [|v vr] Hnd Hlen; try discriminate; [reflexivity|].
  inversion Hnd as [|? ? Hn Hr]; subst. cbn [map combine].
  rewrite lookup_all_cons. cbn [dict_get key_is]. rewrite list_eqb_N_refl.
  rewrite (lookup_all_ext r _ (combine (map PStr r) vr)), IH; auto.
  intros n' Hin. cbn [dict_get key_is]. destruct (list_eqb N.eqb n n') eqn:E; [|reflexivity].
  apply list_eqb_N_sound in E. subst n'. contradiction.
Qed.

Lemma nfields_names fs : nfields fs = length (field_names fs).
Proof. induction fs; cbn; auto. Qed.

Lemma fields_shape sc fs : forall c pv,
  is_fields fs = true -> to_py sc fs c = Ok pv ->
  exists vals, pv = PTuple vals /\ length vals = nfields fs.
Proof.
  induction fs; intros c pv Hf H; cbn [is_fields] in Hf; try discriminate.
  - cbn [to_py] in H. destruct c as [| | |l| | |]; try discriminate. destruct l; [|discriminate].
    inversion H. exists []. auto.
  - cbn [to_py] in H. destruct c as [| | |l| | |]; try discriminate. destruct l as [|x xs]; [discriminate|].
    destruct (to_py sc fs1 x) as [p|]; [|discriminate].
    destruct (to_py sc fs2 (CSeq xs)) as [pr|] eqn:Hr; [|discriminate].
    destruct (IHfs2 _ _ Hf Hr) as (vals & -> & Hl). cbn in H. inversion H.
    exists (p :: vals). cbn. auto.
Qed.

Definition inverts (sc : scfg) (t : ctype) : Prop :=
  forall c v, wf sc t c -> to_py sc t c = Ok v -> from_py sc t v = Ok c.

Lemma inverts_elems sc e l : inverts sc e -> Forall (wf sc e) l ->
  forall x v, In x l -> to_py sc e x = Ok v -> from_py sc e v = Ok x.
Proof. intros IH HF x v Hin. apply IH. exact (proj1 (Forall_forall _ _) HF x Hin). Qed.

(* the cases of a container, given the element types; each serves two constructors of ctype that
   from_py, to_py and wf treat alike *)
Lemma inverts_seq sc e : inverts sc e -> inverts sc (TVector e).
Proof.
  intros IH c v (l & -> & HF) Hto. cbn [to_py] in Hto.
  destruct (mapM (to_py sc e) l) as [vs|] eqn:Hm; cbn in Hto; inversion Hto; subst.
  cbn [from_py]. rewrite (seq_roundtrip (from_py sc e) (to_py sc e) l vs); [reflexivity| |exact Hm].
  exact (inverts_elems sc e l IH HF).
Qed.

Lemma inverts_set sc e : inverts sc e -> inverts sc (TSet e).
Proof.
  intros IH c v (Hr & l & -> & Hnd & HF) Hto. cbn [to_py] in Hto.
  destruct (pyset_loop (to_py sc e) l []) as [vs|] eqn:Hm; cbn in Hto; inversion Hto; subst.
  cbn [from_py]. rewrite Hr.
  rewrite (set_roundtrip (from_py sc e) (to_py sc e) ceqb ceqb_sound l vs Hnd); [reflexivity| |exact Hm].
  exact (inverts_elems sc e l IH HF).
Qed.

Lemma inverts_map sc k e : inverts sc k -> inverts sc e -> inverts sc (TMap k e).
Proof.
  intros IHk IHe c v (Hr & kv & -> & Hnd & HK & HV) Hto. cbn [to_py] in Hto.
  destruct (pydict_loop (to_py sc k) (to_py sc e) kv []) as [d|] eqn:Hm; cbn in Hto; inversion Hto; subst.
  cbn [from_py]. rewrite Hr.
  rewrite (map_roundtrip (from_py sc k) (to_py sc k) (from_py sc e) (to_py sc e) ceqb ceqb_sound kv d Hnd);
    [reflexivity| | |exact Hm].
  - exact (inverts_elems sc k _ IHk HK).
  - exact (inverts_elems sc e _ IHe HV).
Qed.

(* C -> Python -> C is the identity on every well-formed value of every (nested) type *)
Theorem to_from sc :
  (sc_type sc = SUnicode -> codec_law (sc_enc sc)) ->
  forall t c v, wf sc t c -> to_py sc t c = Ok v -> from_py sc t v = Ok c.
Proof.
  intros Hc. induction t; intros c v Hwf Hto.
  - (* leaf *) destruct l as [w sg| | |].
    + destruct Hwf as (z & -> & Hr). cbn in Hto. inversion Hto; subst.
      cbn [from_py leaf_from_py int_from_py]. apply in_rangeb_spec in Hr. rewrite Hr. reflexivity.
    + destruct Hwf as (d & ->). cbn in Hto. inversion Hto; subst. reflexivity.
    + destruct Hwf as (b & ->). cbn [to_py leaf_to_py] in Hto. cbn [from_py leaf_from_py].
      eapply string_to_from; eauto.
    + destruct Hwf as (b & -> & Hn). cbn [to_py leaf_to_py] in Hto. cbn [from_py leaf_from_py].
      eapply charp_to_from; eauto.
  - (* vector *) exact (inverts_seq sc t IHt c v Hwf Hto).
  - (* std::list *) exact (inverts_seq sc t IHt c v Hwf Hto).
  - (* set *) exact (inverts_set sc t IHt c v Hwf Hto).
  - (* unordered_set *) exact (inverts_set sc t IHt c v Hwf Hto).
  - (* map *) exact (inverts_map sc t1 t2 IHt1 IHt2 c v Hwf Hto).
  - (* unordered_map *) exact (inverts_map sc t1 t2 IHt1 IHt2 c v Hwf Hto).
  - (* pair *) destruct Hwf as (x & y & -> & Hx & Hy). cbn [to_py] in Hto.
    destruct (to_py sc t1 x) as [px|] eqn:Ha; cbn [bind] in Hto; [|discriminate].
    destruct (to_py sc t2 y) as [py|] eqn:Hb; cbn [bind] in Hto; [|discriminate].
    inversion Hto; subst. cbn [from_py].
    rewrite (pair_roundtrip (from_py sc t1) (from_py sc t2) x y px py (IHt1 _ _ Hx Ha) (IHt2 _ _ Hy Hb)).
    reflexivity.
  - (* C array *) destruct Hwf as (l & -> & Hn & HF). cbn [to_py] in Hto.
    destruct (mapM (to_py sc t) l) as [vs|] eqn:Hm; cbn in Hto; inversion Hto; subst.
    cbn [from_py]. rewrite (arr_roundtrip (from_py sc t) (to_py sc t) (length l) l vs eq_refl); [reflexivity| |exact Hm].
    exact (inverts_elems sc t l IHt HF).
  - (* struct *) destruct Hwf as (Hf & Hnd & Hw). cbn [to_py] in Hto.
    destruct (to_py sc t c) as [pv|] eqn:Hfs; [|discriminate].
    destruct (fields_shape sc t c pv Hf Hfs) as (vals & -> & Hl). cbn in Hto. inversion Hto; subst.
    cbn [from_py mapping_check]. rewrite nfields_names in Hl.
    rewrite (lookup_combine _ _ Hnd Hl). cbn [bind]. apply IHt; assumption.
  - (* union *) destruct Hwf.
  - (* ctuple *) destruct Hwf as (Hf & Hw). cbn [to_py] in Hto.
    destruct (fields_shape sc t c v Hf Hto) as (vals & -> & Hl).
    cbn [from_py seq_items]. rewrite Hl, Nat.eqb_refl. apply IHt; assumption.
  - (* FNil *) cbn in Hwf. subst c. cbn in Hto. inversion Hto. reflexivity.
  - (* FCons *) destruct Hwf as (x & xs & -> & Hx & Hr). cbn [to_py] in Hto.
    destruct (to_py sc t1 x) as [p|] eqn:Hp; [|discriminate].
    destruct (to_py sc t2 (CSeq xs)) as [pr|] eqn:Hpr; [|discriminate].
    destruct pr; try discriminate. cbn in Hto. inversion Hto; subst.
    cbn [from_py]. rewrite (IHt1 _ _ Hx Hp). rewrite (IHt2 _ _ Hr Hpr). reflexivity.
Qed.
