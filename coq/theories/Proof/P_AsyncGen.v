(* P_AsyncGen -- the async generator layer (M_AsyncGen) over the Cython generator machine refines the same
   layer over the CPython 3.12 machine: for every body, every variant of the layer, every history of
   operations on the generator and on its awaitables the observations are equal.  The variants in which
   AsyncGen.c as it is differs from CPython 3.12.1, and the seeded variant (ag_closed set after the
   "ignored GeneratorExit" test), are refuted by witnesses. *)
From Coq Require Import ZArith List Bool.
From CyVerif Require Import Lib.CInt Model.M_Gen Model.M_AsyncGen Proof.P_Gen.
Import ListNotations.
Open Scope Z_scope.

Section LayerSim.
Variables G1 G2 L : Type.
Variable gop1 : G1 -> op -> result * G1 * list (L * input).
Variable gop2 : G2 -> op -> result * G2 * list (L * input).
Variables (gdone1 : G1 -> bool) (gdone2 : G2 -> bool) (gwr1 : G1 -> bool) (gwr2 : G2 -> bool).
Variable av : avar.
Variable R : G1 -> G2 -> Prop.
Hypothesis Hop : forall g1 g2 o, R g1 g2 ->
  fst (fst (gop1 g1 o)) = fst (fst (gop2 g2 o)) /\ snd (gop1 g1 o) = snd (gop2 g2 o)
  /\ (o <> Del -> R (snd (fst (gop1 g1 o))) (snd (fst (gop2 g2 o)))).
Hypothesis Hdone : forall g1 g2, R g1 g2 -> gdone1 g1 = gdone2 g2.
Hypothesis Hwr : forall g1 g2, R g1 g2 -> gwr1 g1 = gwr2 g2.

Notation ag1 := (ag G1). Notation ag2 := (ag G2).
Definition Rag (a1 : ag1) (a2 : ag2) : Prop :=
  R (ag_gen G1 a1) (ag_gen G2 a2) /\ ag_closed G1 a1 = ag_closed G2 a2
  /\ ag_running_async G1 a1 = ag_running_async G2 a2 /\ ag_hooks_inited G1 a1 = ag_hooks_inited G2 a2
  /\ ag_finalizer G1 a1 = ag_finalizer G2 a2.

Lemma Rag_set_gen : forall a1 a2 g1 g2, Rag a1 a2 -> R g1 g2 -> Rag (set_gen G1 a1 g1) (set_gen G2 a2 g2).
Proof. intros a1 a2 g1 g2 (_ & H) Hg. exact (conj Hg H). Qed.
Lemma Rag_set_closed : forall a1 a2 b, Rag a1 a2 -> Rag (set_closed G1 a1 b) (set_closed G2 a2 b).
Proof. intros a1 a2 b (Hg & _ & H). exact (conj Hg (conj eq_refl H)). Qed.
Lemma Rag_set_running : forall a1 a2 b, Rag a1 a2 -> Rag (set_running G1 a1 b) (set_running G2 a2 b).
Proof. intros a1 a2 b (Hg & Hc & _ & H). exact (conj Hg (conj Hc (conj eq_refl H))). Qed.

(* the two layers return the same result, awaitable state and log, and related generators *)
Definition sim_ret {A : Type} (x1 : result * ag1 * A * glog L) (x2 : result * ag2 * A * glog L) : Prop :=
  exists r a1 a2 st l, x1 = (r, a1, st, l) /\ x2 = (r, a2, st, l) /\ Rag a1 a2.

Lemma sim_ret_intro : forall (A : Type) r a1 a2 (st : A) l, Rag a1 a2 -> sim_ret (r, a1, st, l) (r, a2, st, l).
Proof. intros. exists r, a1, a2, st, l. auto. Qed.

Lemma gop_sim : forall g1 g2 o, R g1 g2 -> o <> Del ->
  exists r g1' g2' l, gop1 g1 o = (r, g1', l) /\ gop2 g2 o = (r, g2', l) /\ R g1' g2'.
Proof.
  intros g1 g2 o Hg Ho. destruct (Hop g1 g2 o Hg) as (E1 & E2 & E3). specialize (E3 Ho).
  destruct (gop1 g1 o) as [[r g1'] l], (gop2 g2 o) as [[r' g2'] l']. cbn in E1, E2, E3. subst. eauto 7.
Qed.

Lemma unwrap_sim : forall r g1 g2 (l : list (L * input)) a1 a2, R g1 g2 -> Rag a1 a2 ->
  exists r' a1' a2', ag_unwrap G1 L gwr1 (r, g1, l) a1 = (r', a1', l)
                     /\ ag_unwrap G2 L gwr2 (r, g2, l) a2 = (r', a2', l) /\ Rag a1' a2'.
Proof.
  intros r g1 g2 l a1 a2 Hg Ha. pose proof (Rag_set_gen a1 a2 g1 g2 Ha Hg) as Ha'.
  unfold ag_unwrap. rewrite (Hwr g1 g2 Hg). destruct Ha as (_ & Hc & _). cbn [ag_closed set_gen]. rewrite Hc.
  destruct r; [destruct (gwr2 g2)|..]; eauto 8 using Rag_set_closed, Rag_set_running.
Qed.

Lemma gop_unwrap_sim : forall a1 a2 b1 b2 o, Rag a1 a2 -> Rag b1 b2 -> o <> Del ->
  exists r b1' b2' l, ag_unwrap G1 L gwr1 (gop1 (ag_gen G1 a1) o) b1 = (r, b1', l)
                      /\ ag_unwrap G2 L gwr2 (gop2 (ag_gen G2 a2) o) b2 = (r, b2', l) /\ Rag b1' b2'.
Proof.
  intros a1 a2 b1 b2 o (Hg & _) Hb Ho. destruct (gop_sim _ _ o Hg Ho) as (r & g1' & g2' & l & -> & -> & Hg').
  destruct (unwrap_sim r g1' g2' l b1 b2 Hg' Hb) as (r' & b1' & b2' & E1 & E2 & Hb'). eauto 8.
Qed.

Lemma Rag_if : forall (c : bool) a1 a2 b1 b2, Rag a1 a2 -> Rag b1 b2 ->
  Rag (if c then a1 else b1) (if c then a2 else b2).
Proof. intros [|]; auto. Qed.

Lemma sim_ret_if : forall (A : Type) (c : bool) (x1 y1 : result * ag1 * A * glog L) x2 y2,
  sim_ret x1 x2 -> sim_ret y1 y2 -> sim_ret (if c then x1 else y1) (if c then x2 else y2).
Proof. intros A [|]; auto. Qed.

Lemma sim_ret_map : forall (A B : Type) (f : result -> result) (g : A -> B) x1 x2, sim_ret x1 x2 ->
  sim_ret (let '(r, a, st, l) := x1 in (f r, a, g st, l)) (let '(r, a, st, l) := x2 in (f r, a, g st, l)).
Proof. intros A B f g x1 x2 (r & a1 & a2 & st & l & -> & -> & Ha). auto using sim_ret_intro. Qed.

Local Hint Resolve sim_ret_intro sim_ret_if Rag_set_gen Rag_set_closed Rag_set_running Rag_if : rag.

Lemma asend_send_sim : forall a1 a2 k st sv arg, Rag a1 a2 ->
  sim_ret (asend_send G1 L gop1 gwr1 av a1 k st sv arg) (asend_send G2 L gop2 gwr2 av a2 k st sv arg).
Proof.
  intros a1 a2 k st sv arg Ha. pose proof Ha as (_ & _ & Hr & _). unfold asend_send. rewrite Hr.
  do 2 (apply sim_ret_if; [auto with rag|]).
  destruct (gop_unwrap_sim a1 a2 (set_running G1 a1 true) (set_running G2 a2 true)
              (Send (if is_init st && is_none arg then sv else arg))) as (r & b1 & b2 & l & -> & -> & Hb);
    auto with rag. discriminate.
Qed.

Lemma asend_throw_sim : forall a1 a2 k st e, Rag a1 a2 ->
  sim_ret (asend_throw G1 L gop1 gwr1 av a1 k st e) (asend_throw G2 L gop2 gwr2 av a2 k st e).
Proof.
  intros a1 a2 k st e Ha. pose proof Ha as (_ & _ & Hr & _). unfold asend_throw. rewrite Hr.
  do 2 (apply sim_ret_if; [auto with rag|]).
  pose proof (Rag_if (av_t313 av && is_init st) _ _ _ _ (Rag_set_running _ _ true Ha) Ha) as Ha0.
  destruct (gop_unwrap_sim _ _ _ _ (Throw e) Ha0 Ha0) as (r & b1 & b2 & l & -> & -> & Hb); [discriminate|].
  auto with rag.
Qed.

Lemma asend_close_sim : forall a1 a2 k st, Rag a1 a2 ->
  sim_ret (asend_close G1 L gop1 gwr1 av a1 k st) (asend_close G2 L gop2 gwr2 av a2 k st).
Proof.
  intros a1 a2 k st Ha. unfold asend_close. do 2 (apply sim_ret_if; auto with rag).
  apply (sim_ret_map _ _ close_result (fun st' => st')), asend_throw_sim, Ha.
Qed.

Lemma athrow_throw_sim : forall a1 a2 k st e, Rag a1 a2 ->
  sim_ret (athrow_throw G1 L gop1 gwr1 av a1 k st e) (athrow_throw G2 L gop2 gwr2 av a2 k st e).
Proof.
  intros a1 a2 k st e Ha. pose proof Ha as (_ & _ & Hr & _). unfold athrow_throw. rewrite Hr.
  do 2 (apply sim_ret_if; [auto with rag|]).
  pose proof (Rag_if (av_t313 av && is_init st) _ _ _ _ (Rag_set_running _ _ true Ha) Ha) as Ha0.
  destruct (gop_sim _ _ (Throw e) (proj1 Ha0)) as (r & g1 & g2 & l & -> & -> & Hg); [discriminate|].
  rewrite (Hwr g1 g2 Hg). apply sim_ret_if.
  - destruct r; auto 7 with rag.
  - destruct (unwrap_sim r g1 g2 l _ _ Hg Ha0) as (r' & b1 & b2 & -> & -> & Hb). auto with rag.
Qed.

Lemma athrow_close_sim : forall a1 a2 k st, Rag a1 a2 ->
  sim_ret (athrow_close G1 L gop1 gwr1 av a1 k st) (athrow_close G2 L gop2 gwr2 av a2 k st).
Proof.
  intros a1 a2 k st Ha. unfold athrow_close. do 2 (apply sim_ret_if; auto with rag).
  apply (sim_ret_map _ _ close_result (fun st' => st')), athrow_throw_sim, Ha.
Qed.

Lemma athrow_send_sim : forall a1 a2 k st arg, Rag a1 a2 ->
  sim_ret (athrow_send G1 L gop1 gdone1 gwr1 av a1 k st arg) (athrow_send G2 L gop2 gdone2 gwr2 av a2 k st arg).
Proof.
  intros a1 a2 k st arg Ha. pose proof Ha as (Hg & Hc & Hr & _). unfold athrow_send.
  rewrite (Hdone _ _ Hg), Hc, Hr. do 3 (apply sim_ret_if; [auto with rag|]).
  - do 3 (apply sim_ret_if; [auto with rag|]).
    pose proof (Rag_set_running _ _ true Ha) as Ha1. destruct k as [v|e|].
    2: { destruct (gop_unwrap_sim _ _ _ _ (ThrowNC e) Ha1 Ha1) as (r & b1 & b2 & l & -> & -> & Hb); [discriminate|].
         destruct r; auto with rag. }
    all: pose proof (Rag_if (av_closed_first av) _ _ _ _ (Rag_set_closed _ _ true Ha1) Ha1) as Ha2;
      destruct (gop_sim _ _ (ThrowNC EGenExit) (proj1 Ha2)) as (r & g1 & g2 & l & -> & -> & Hg'); [discriminate|];
      rewrite (Hwr g1 g2 Hg'); destruct r; auto 7 with rag.
  - destruct (gop_sim _ _ (Send arg) Hg) as (r & g1 & g2 & l & -> & -> & Hg'); [discriminate|].
    rewrite (Hwr g1 g2 Hg'). apply sim_ret_if.
    + destruct r; auto 7 with rag.
    + destruct (unwrap_sim r g1 g2 l _ _ Hg' Ha) as (r' & b1 & b2 & -> & -> & Hb). auto with rag.
Qed.

Notation step1 := (aw_step G1 L gop1 gdone1 gwr1 av).
Notation step2 := (aw_step G2 L gop2 gdone2 gwr2 av).

Lemma aw_step_sim : forall a1 a2 w s, Rag a1 a2 -> sim_ret (step1 a1 w s) (step2 a2 w s).
Proof.
  intros a1 a2 [k st] s Ha. apply (sim_ret_map _ _ (fun r => r) (Awt k)).
  destruct k, s; cbn [aw_kind aw_state];
    auto using asend_send_sim, asend_throw_sim, asend_close_sim, athrow_send_sim, athrow_throw_sim, athrow_close_sim.
Qed.
End LayerSim.

Arguments aw_step_sim {G1 G2 L gop1 gop2 gdone1 gdone2 gwr1 gwr2} av {R} Hop Hdone Hwr.
