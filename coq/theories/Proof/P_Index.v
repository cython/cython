(* Proofs about Model/M_Index.v: integer indexing and two-bound slicing fast paths vs CPython. *)
From Coq Require Import ZArith List Bool Lia ZifyBool.
From CyVerif Require Import Lib.CInt Model.M_Index.
Open Scope Z_scope.

Lemma SSZ_MIN_eq : SSZ_MIN = -9223372036854775808. Proof. reflexivity. Qed.
Lemma SSZ_MAX_eq : SSZ_MAX = 9223372036854775807. Proof. reflexivity. Qed.
Lemma ssz_min_max : SSZ_MIN = - SSZ_MAX - 1. Proof. reflexivity. Qed.
Lemma ssz_unfold v :
  ssz v = (v + 9223372036854775808) mod 18446744073709551616 - 9223372036854775808.
Proof. reflexivity. Qed.
Lemma valid_unfold i l :
  is_valid_index i l = (i mod 18446744073709551616 <? l mod 18446744073709551616).
Proof. reflexivity. Qed.

Lemma in_ssz_nonneg v : 0 <= v <= SSZ_MAX -> in_ssz v.
Proof. unfold in_ssz. rewrite ssz_min_max. lia. Qed.

Lemma in_sszb_spec v : in_sszb v = true <-> in_ssz v.
Proof. unfold in_sszb, in_ssz. lia. Qed.

Lemma ssz_id v : in_ssz v -> ssz v = v.
Proof. apply wrap_id. lia. Qed.

Lemma ssz_below v :
  SSZ_MIN - 18446744073709551616 <= v < SSZ_MIN -> ssz v = v + 18446744073709551616.
Proof.
  rewrite SSZ_MIN_eq, ssz_unfold. intros H.
  rewrite <- (Z.mod_unique (v + 9223372036854775808) 18446744073709551616 (-1)
                (v + 27670116110564327424)); lia.
Qed.

(* i + n with i < 0 <= n never leaves the Py_ssize_t range: the wrap-around addition of the
   helpers cannot overflow, PY_SSIZE_T_MIN included *)
Lemma index_add_no_overflow n i :
  0 <= n <= SSZ_MAX -> in_ssz i -> i < 0 -> in_ssz (i + n) /\ ssz (i + n) = i + n.
Proof.
  intros Hn Hi Hneg. assert (H : in_ssz (i + n)) by (unfold in_ssz in *; lia).
  split; [exact H | apply ssz_id; exact H].
Qed.

(* the unsigned comparison is the two-sided bounds check: a negative i casts to at least 2^63 *)
Lemma valid_index_spec i n :
  in_ssz i -> 0 <= n <= SSZ_MAX -> is_valid_index i n = ((0 <=? i) && (i <? n)).
Proof.
  unfold in_ssz. rewrite valid_unfold, SSZ_MIN_eq, SSZ_MAX_eq. intros Hi Hn.
  rewrite (Z.mod_small n) by lia. destruct (Z.leb_spec 0 i).
  - rewrite Z.mod_small by lia. reflexivity.
  - rewrite <- (Z.mod_unique i 18446744073709551616 (-1) (i + 18446744073709551616)) by lia.
    apply Z.ltb_ge. lia.
Qed.

(* closes a case: the two sides agree, or the tests taken contradict each other *)
Ltac fin :=
  try reflexivity; try discriminate; try lia;
  try (f_equal; lia); try (exfalso; lia).

Lemma py_index_out_of_ssz n v :
  0 <= n <= SSZ_MAX -> ~ in_ssz v -> py_index n v = IndexError.
Proof.
  unfold py_index, in_ssz. rewrite ssz_min_max. intros Hn Hv.
  destruct ((- n <=? v) && (v <? n)) eqn:E; [exfalso; lia | reflexivity].
Qed.

(* the index is one the directives leave defined: with boundscheck off the program promises an
   in-range index (after wrap-around if that is on) *)
Definition defined (wa bc : bool) (n i : Z) : Prop :=
  bc = true \/ (if wa then - n <= i < n else 0 <= i < n).
(* ... and one on which the directives keep Python semantics: wraparound on, or non-negative *)
Definition pythonic (wa : bool) (i : Z) : Prop := wa = true \/ 0 <= i.

Section Helpers.
  Variables n i : Z.
  Hypothesis Hn : 0 <= n <= SSZ_MAX.
  Hypothesis Hi : in_ssz i.

  Lemma wrapped_eq : (if i <? 0 then ssz (i + n) else i) = (if i <? 0 then i + n else i).
  Proof.
    destruct (Z.ltb_spec i 0) as [H|H]; [apply (index_add_no_overflow n i Hn Hi H) | reflexivity].
  Qed.

  (* __Pyx_SetItemInt_Fast writes the same test the other way round *)
  Lemma wrapped_eq' : (if 0 <=? i then i else ssz (i + n)) = (if i <? 0 then i + n else i).
  Proof.
    rewrite <- wrapped_eq. destruct (Z.leb_spec 0 i), (Z.ltb_spec i 0); try reflexivity; lia.
  Qed.

  Lemma wrapped_in_ssz : in_ssz (if i <? 0 then i + n else i).
  Proof.
    destruct (Z.ltb_spec i 0) as [H|H]; [apply (index_add_no_overflow n i Hn Hi H) | exact Hi].
  Qed.

  (* once the flags are fixed: the wrap-around addition and the unsigned bounds check of a
     helper, rewritten into exact arithmetic *)
  Ltac exact_arith :=
    cbn [andb orb negb];
    rewrite ?wrapped_eq, ?wrapped_eq', ?valid_index_spec
      by first [exact Hn | exact Hi | exact wrapped_in_ssz].

  Lemma listtuple_fast_eq wa bc :
    defined wa bc n i -> pythonic wa i ->
    run n (getitem_listtuple_fast n i wa bc) = py_index n i.
  Proof.
    unfold defined, pythonic, getitem_listtuple_fast, run, py_index. intros D P.
    destruct wa, bc; exact_arith; case_ifs; fin.
  Qed.

  Lemma unicode_fast_eq wa bc :
    defined wa bc n i -> pythonic wa i ->
    run n (getitem_unicode_fast n i wa bc) = py_index n i.
  Proof.
    unfold defined, pythonic, getitem_unicode_fast, run, py_index. intros D P.
    destruct wa, bc; exact_arith; case_ifs; fin.
  Qed.

  Lemma bytes_fast_eq wa bc :
    defined wa bc n i -> pythonic wa i ->
    run n (getitem_bytes_fast n i wa bc) = py_index n i.
  Proof.
    unfold defined, pythonic, getitem_bytes_fast, run, py_index. intros D P.
    destruct wa, bc; exact_arith; case_ifs; fin.
  Qed.

  Lemma list_set_eq wa bc :
    defined wa bc n i -> pythonic wa i ->
    run n (let j := if negb wa then i else if 0 <=? i then i else ssz (i + n) in
           if negb bc || is_valid_index j n then Fast j else Generic i) = py_index n i.
  Proof.
    unfold defined, pythonic, run, py_index. intros D P.
    destruct wa, bc; exact_arith; case_ifs; fin.
  Qed.

  (* C slot: correct; with the repair also the dispatcher slot *)
  Lemma sq_path_eq fx disp wa :
    pythonic wa i -> (disp = true -> fx = true) ->
    run n (sq_path fx disp n i wa) = py_index n i.
  Proof.
    unfold pythonic, sq_path, run, sq_slot, py_index. intros P F.
    destruct wa, fx, disp; try (specialize (F eq_refl); discriminate); exact_arith; case_ifs; fin.
  Qed.

  (* memory safety: with boundscheck on, whatever wraparound is and whatever the index is, the
     direct item-array access stays inside [0, n) *)
  Lemma listtuple_fast_in_bounds wa j :
    getitem_listtuple_fast n i wa true = Fast j -> 0 <= j < n.
  Proof.
    unfold getitem_listtuple_fast. destruct wa; exact_arith; case_ifs; intros [= <-]; lia.
  Qed.

  Lemma unicode_fast_in_bounds wa j :
    getitem_unicode_fast n i wa true = Fast j -> 0 <= j < n.
  Proof.
    unfold getitem_unicode_fast. destruct wa; exact_arith; case_ifs; intros [= <-]; lia.
  Qed.

  Lemma bytes_fast_in_bounds wa j :
    getitem_bytes_fast n i wa true = Fast j -> 0 <= j < n.
  Proof.
    unfold getitem_bytes_fast. destruct wa; exact_arith; case_ifs; intros [= <-]; lia.
  Qed.

  Lemma list_set_in_bounds wa j :
    (let j := if negb wa then i else if 0 <=? i then i else ssz (i + n) in
     if negb true || is_valid_index j n then Fast j else Generic i) = Fast j -> 0 <= j < n.
  Proof.
    destruct wa; exact_arith; case_ifs; intros [= <-]; lia.
  Qed.
End Helpers.

(* the transcription of list_subscript & co. is the mathematical specification *)
Lemma cpython_subscript_eq n i :
  0 <= n <= SSZ_MAX -> cpython_subscript n i = py_index n i.
Proof.
  intros Hn. unfold cpython_subscript. destruct (in_sszb i) eqn:E; cbn [negb].
  - apply in_sszb_spec in E. rewrite (wrapped_eq n i Hn E). unfold py_index. case_ifs; fin.
  - symmetry. apply py_index_out_of_ssz; [exact Hn|]. rewrite <- in_sszb_spec, E. discriminate.
Qed.

(* on the values of its type, __Pyx_fits_Py_ssize_t is the range test *)
Lemma fits_ssz_spec tw ts v :
  1 <= tw -> in_range tw ts v -> fits_ssz tw ts v = in_sszb v.
Proof.
  intros Hw [Hlo Hhi]. unfold fits_ssz, in_sszb. rewrite SSZ_MIN_eq, SSZ_MAX_eq.
  unfold min_int, max_int in *. pose proof (pow2_pos (tw - 1) ltac:(lia)) as P.
  destruct (Z.lt_trichotomy tw 64) as [H | [-> | H]].
  - pose proof (Z.pow_le_mono_r 2 (tw - 1) 62 ltac:(lia) ltac:(lia)) as P1.
    pose proof (Z.pow_le_mono_r 2 tw 63 ltac:(lia) ltac:(lia)) as P2.
    change (2 ^ 62) with 4611686018427387904 in P1.
    change (2 ^ 63) with 9223372036854775808 in P2.
    destruct ts; lia.
  - change (2 ^ (64 - 1)) with 9223372036854775808 in *.
    change (2 ^ 64) with 18446744073709551616 in *.
    destruct ts; lia.
  - destruct ts; lia.
Qed.

(* v is a value of an index expression of type (tw, ts); cn: the expression is a non-negative
   literal.  Under wraparound=True the flag the compiler then passes keeps Python semantics *)
Definition idx_ok (tw : Z) (ts cn : bool) (v : Z) : Prop :=
  1 <= tw /\ in_range tw ts v /\ (cn = true -> 0 <= v).

Lemma pythonic_flag tw ts cn v : idx_ok tw ts cn v -> pythonic (wa_flag true ts cn) v.
Proof.
  intros (Hw & Hr & Hc). unfold pythonic, wa_flag.
  destruct ts, cn; cbn [andb negb]; auto; right; exact (proj1 Hr).
Qed.

Section Macro.
  Variables (fx : bool) (k : kind) (tw : Z) (ts : bool) (n v : Z).
  Hypothesis Hn : 0 <= n <= SSZ_MAX.
  Hypothesis Hw : 1 <= tw.
  Hypothesis Hv : in_range tw ts v.
  Hypothesis Hfx : k = KObjSeqPy -> fx = true.

  (* a value that fits is handed to the helpers unchanged; for one that does not, both the
     helper's IndexError and the generic protocol are what CPython does *)
  Lemma fits_ssz_cases :
    fits_ssz tw ts v = true /\ in_ssz v /\ ssz v = v \/
    fits_ssz tw ts v = false /\ IndexError = py_index n v.
  Proof.
    rewrite (fits_ssz_spec tw ts v Hw Hv). destruct (in_sszb v) eqn:E; [left | right].
    - apply in_sszb_spec in E. auto using ssz_id.
    - split; [reflexivity|]. symmetry. apply py_index_out_of_ssz; [exact Hn|].
      rewrite <- in_sszb_spec, E. discriminate.
  Qed.

  Lemma getitem_int_gen wa bc :
    defined wa bc n v -> pythonic wa v ->
    run n (getitem_int fx k tw ts n v wa bc) = py_index n v.
  Proof.
    intros D P. unfold getitem_int, getitem_generic_fast.
    destruct fits_ssz_cases as [(-> & Hs & ->) | (-> & E)]; [|destruct k; first [reflexivity | exact E]].
    destruct k; first [ reflexivity | apply listtuple_fast_eq | apply unicode_fast_eq
                      | apply bytes_fast_eq | apply sq_path_eq ]; auto; discriminate.
  Qed.

  Lemma setitem_int_gen wa bc :
    defined wa bc n v -> pythonic wa v ->
    run n (setitem_int fx k tw ts n v wa bc) = py_index n v.
  Proof.
    intros D P. unfold setitem_int.
    destruct fits_ssz_cases as [(-> & Hs & ->) | (-> & E)]; [|destruct k; first [reflexivity | exact E]].
    destruct k; first [ reflexivity | apply unicode_fast_eq | apply list_set_eq
                      | apply sq_path_eq ]; auto; discriminate.
  Qed.

  Lemma delitem_int_gen wa :
    pythonic wa v ->
    run n (delitem_int fx k tw ts n v wa) = py_index n v.
  Proof.
    intros P. unfold delitem_int.
    destruct fits_ssz_cases as [(-> & Hs & ->) | (-> & E)]; [|destruct k; first [reflexivity | exact E]].
    destruct k; first [ reflexivity | apply sq_path_eq ]; auto; discriminate.
  Qed.
End Macro.

Lemma fast_index_some a j : fast_index a = Some j -> a = Fast j.
Proof. destruct a; try discriminate. intros [= ->]. reflexivity. Qed.

Section MacroSafety.
  Variables (fx : bool) (k : kind) (tw : Z) (ts : bool) (n v : Z).
  Hypothesis Hn : 0 <= n <= SSZ_MAX.
  Hypothesis Hw : 1 <= tw.
  Hypothesis Hv : in_range tw ts v.

  Lemma getitem_fast_in_bounds wa j :
    fast_index (getitem_int fx k tw ts n v wa true) = Some j -> 0 <= j < n.
  Proof.
    intros E. apply fast_index_some in E. revert E. unfold getitem_int, getitem_generic_fast.
    destruct (fits_ssz_cases tw ts n v Hn Hw Hv) as [(-> & Hs & ->) | (-> & _)];
      [|destruct k; discriminate].
    destruct k; try discriminate;
      first [ apply listtuple_fast_in_bounds | apply unicode_fast_in_bounds
            | apply bytes_fast_in_bounds | unfold sq_path; case_ifs; discriminate ]; assumption.
  Qed.

  Lemma setitem_fast_in_bounds wa j :
    fast_index (setitem_int fx k tw ts n v wa true) = Some j -> 0 <= j < n.
  Proof.
    intros E. apply fast_index_some in E. revert E. unfold setitem_int.
    destruct (fits_ssz_cases tw ts n v Hn Hw Hv) as [(-> & Hs & ->) | (-> & _)];
      [|destruct k; discriminate].
    destruct k; try discriminate;
      first [ apply unicode_fast_in_bounds | apply list_set_in_bounds
            | unfold sq_path; case_ifs; discriminate ]; assumption.
  Qed.

  Lemma delitem_no_fast wa : fast_index (delitem_int fx k tw ts n v wa) = None.
  Proof. unfold delitem_int, sq_path. destruct k; case_ifs; reflexivity. Qed.
End MacroSafety.

(* default directives *)
Theorem getitem_eq fx k tw ts cn n v :
  0 <= n <= SSZ_MAX -> idx_ok tw ts cn v -> (k = KObjSeqPy -> fx = true) ->
  run n (getitem_int fx k tw ts n v (wa_flag true ts cn) true) = py_index n v.
Proof.
  intros Hn Hok Hfx. pose proof (pythonic_flag _ _ _ _ Hok) as P. destruct Hok as (Hw & Hr & _).
  apply getitem_int_gen; try assumption. left. reflexivity.
Qed.

Theorem setitem_eq fx k tw ts cn n v :
  0 <= n <= SSZ_MAX -> idx_ok tw ts cn v -> (k = KObjSeqPy -> fx = true) ->
  run n (setitem_int fx k tw ts n v (wa_flag true ts cn) true) = py_index n v.
Proof.
  intros Hn Hok Hfx. pose proof (pythonic_flag _ _ _ _ Hok) as P. destruct Hok as (Hw & Hr & _).
  apply setitem_int_gen; try assumption. left. reflexivity.
Qed.

Theorem delitem_eq fx k tw ts cn n v :
  0 <= n <= SSZ_MAX -> idx_ok tw ts cn v -> (k = KObjSeqPy -> fx = true) ->
  run n (delitem_int fx k tw ts n v (wa_flag true ts cn)) = py_index n v.
Proof.
  intros Hn Hok Hfx. pose proof (pythonic_flag _ _ _ _ Hok) as P. destruct Hok as (Hw & Hr & _).
  apply delitem_int_gen; assumption.
Qed.

(* the sequence-slot path through typeobject.c's dispatcher wraps twice *)
Theorem seq_subclass_double_wrap_refuted :
  exists n v, 0 <= n <= SSZ_MAX /\ idx_ok 64 true false v /\
    run n (getitem_int false KObjSeqPy 64 true n v (wa_flag true true false) true) = Elem 0 /\
    run n (setitem_int false KObjSeqPy 64 true n v (wa_flag true true false) true) = Elem 0 /\
    run n (delitem_int false KObjSeqPy 64 true n v (wa_flag true true false)) = Elem 0 /\
    py_index n v = IndexError.
Proof.
  exists 1, (-2). unfold idx_ok, in_range. vm_compute. intuition congruence.
Qed.

(* the items of the half-open window [s, e) *)
Definition window (s e : Z) : sresult := if s <? e then Sel s (e - s) else Sel 0 0.

Lemma window_empty s e : e <= s -> window s e = Sel 0 0.
Proof. intros H. unfold window. destruct (Z.ltb_spec s e); [lia | reflexivity]. Qed.

Lemma window_clip n s e : 0 <= n -> 0 <= s -> e <= n -> window (Z.min n s) (Z.max 0 e) = window s e.
Proof.
  intros Hn Hs He. destruct (Z.lt_ge_cases s e).
  - rewrite Z.min_r, Z.max_r by lia. reflexivity.
  - rewrite !window_empty by lia. reflexivity.
Qed.

Lemma py_adjust_bound_eq n v :
  0 <= n -> py_adjust_bound n v = Z.max 0 (Z.min n (if v <? 0 then v + n else v)).
Proof.
  intros Hn. unfold py_adjust_bound.
  destruct (Z.ltb_spec v 0); [destruct (Z.ltb_spec (v + n) 0) | destruct (Z.leb_spec n v)]; lia.
Qed.

Lemma py_adjust_bound_range n v : 0 <= n -> 0 <= py_adjust_bound n v <= n.
Proof. intros Hn. rewrite py_adjust_bound_eq by exact Hn. lia. Qed.

Lemma py_slice_as_window n bs be :
  py_slice n bs be =
  window (py_adjust_bound n (py_unpack_start bs)) (py_adjust_bound n (py_unpack_stop be)).
Proof.
  unfold py_slice, py_slice_adjust, norm_sel, window.
  generalize (py_adjust_bound n (py_unpack_start bs)) (py_adjust_bound n (py_unpack_stop be)).
  intros s e. destruct (Z.ltb_spec s e); [|reflexivity].
  destruct (Z.leb_spec (e - s) 0); [lia | reflexivity].
Qed.

Lemma py_slice_in_bounds n bs be f c :
  0 <= n -> py_slice n bs be = Sel f c -> 0 <= f /\ 0 <= c /\ f + c <= n.
Proof.
  intros Hn. rewrite py_slice_as_window.
  generalize (py_adjust_bound_range n (py_unpack_start bs) Hn)
             (py_adjust_bound_range n (py_unpack_stop be) Hn).
  generalize (py_adjust_bound n (py_unpack_start bs)) (py_adjust_bound n (py_unpack_stop be)).
  intros s e Hs He. unfold window. destruct (Z.ltb_spec s e); intros [= <- <-]; lia.
Qed.

Lemma py_slice_total n bs be : exists f c, py_slice n bs be = Sel f c.
Proof. rewrite py_slice_as_window. unfold window. destruct (_ <? _); eauto. Qed.

Lemma clamp_id v : in_ssz v -> clamp_ssz v = v.
Proof. unfold in_ssz, clamp_ssz. lia. Qed.

Section Slices.
  Variables n a b : Z.
  Hypothesis Hn : 0 <= n <= SSZ_MAX.
  Hypothesis Ha : in_ssz a.
  Hypothesis Hb : in_ssz b.

  (* __Pyx_crop_slice without the repair is correct unless stop' - start' leaves the Py_ssize_t range *)
  Definition crop_overflows : Prop := 0 <= a /\ b < 0 /\ b + n - a < SSZ_MIN.

  (* __Pyx_crop_slice against PySlice_AdjustIndices: the start is clipped only at 0 (with the repair
     also at n) and the stop only at n, where CPython clips both at both ends *)
  Lemma crop_slice_spec fc :
    exists s e, crop_slice fc n a b = (s, e, ssz (e - s)) /\ 0 <= s /\ e <= n /\
      py_adjust_bound n a = Z.min n s /\ py_adjust_bound n b = Z.max 0 e /\
      (fc = true \/ ~ crop_overflows -> in_ssz (e - s)).
  Proof.
    unfold crop_slice, crop_overflows. rewrite !py_adjust_bound_eq by lia.
    do 2 eexists. split; [reflexivity|]. cbv zeta.
    pose proof ssz_min_max as M. unfold in_ssz in *.
    destruct (Z.ltb_spec a 0) as [A|A];
      [rewrite (proj2 (index_add_no_overflow n a Hn Ha A)); destruct (Z.ltb_spec (a + n) 0)
      |destruct fc; cbn [andb]; [destruct (Z.ltb_spec n a)|]];
    (destruct (Z.ltb_spec b 0) as [B|B];
      [rewrite (proj2 (index_add_no_overflow n b Hn Hb B)) | destruct (Z.ltb_spec n b)]);
    cbv iota; lia.
  Qed.

  Lemma py_slice_crop s e :
    0 <= s -> e <= n -> py_adjust_bound n a = Z.min n s -> py_adjust_bound n b = Z.max 0 e ->
    py_slice n (BCInt a) (BCInt b) = window s e.
  Proof.
    intros Hs He Es Ee. rewrite py_slice_as_window. cbn [py_unpack_start py_unpack_stop].
    rewrite (clamp_id a Ha), (clamp_id b Hb), Es, Ee. apply window_clip; lia.
  Qed.

  Lemma listtuple_getslice_eq fc :
    fc = true \/ ~ crop_overflows ->
    listtuple_getslice fc n a b = py_slice n (BCInt a) (BCInt b).
  Proof.
    intros NO. destruct (crop_slice_spec fc) as (s & e & E & Hs & He & Es & Ee & Hlen).
    rewrite (py_slice_crop s e Hs He Es Ee). unfold listtuple_getslice.
    rewrite E, (ssz_id _ (Hlen NO)). unfold window. destruct (Z.ltb_spec s e).
    - destruct (Z.leb_spec (e - s) 0); [lia|].
      destruct (Z.leb_spec 0 s); [|lia]. destruct (Z.leb_spec (s + (e - s)) n); [reflexivity | lia].
    - destruct (Z.leb_spec (e - s) 0); [reflexivity | lia].
  Qed.

  (* when it does overflow the helper copies from outside the item array *)
  Lemma listtuple_getslice_current_overflow :
    crop_overflows -> exists f c, listtuple_getslice false n a b = SliceOOB f c.
  Proof.
    intros (A & B & O). unfold listtuple_getslice, crop_slice.
    destruct (Z.ltb_spec a 0); [lia|]. destruct (Z.ltb_spec b 0); [|lia]. cbn [andb].
    rewrite (proj2 (index_add_no_overflow n b Hn Hb B)).
    pose proof ssz_min_max as M. unfold in_ssz in *.
    rewrite ssz_below by (rewrite SSZ_MAX_eq in *; lia).
    destruct (Z.leb_spec (b + n - a + 18446744073709551616) 0); [rewrite SSZ_MAX_eq in *; lia|].
    destruct (Z.leb_spec 0 a); [|lia].
    destruct (Z.leb_spec (a + (b + n - a + 18446744073709551616)) n); [rewrite SSZ_MAX_eq in *; lia|].
    cbn [andb]. eauto.
  Qed.

  (* __Pyx_PyUnicode_Substring crops like __Pyx_crop_slice without the repair (the start is not
     clipped at n), but compares the bounds before it subtracts them *)
  Lemma unicode_substring_crop :
    unicode_substring n a b =
    let '(s, e, len) := crop_slice false n a b in
    if e <=? s then Sel 0 0
    else if (s =? 0) && (e =? n) then norm_sel 0 n
    else if (0 <=? s) && (s + len <=? n) then Sel s len else SliceOOB s len.
  Proof. reflexivity. Qed.

  Lemma unicode_substring_eq : unicode_substring n a b = py_slice n (BCInt a) (BCInt b).
  Proof.
    destruct (crop_slice_spec false) as (s & e & E & Hs & He & Es & Ee & _).
    rewrite (py_slice_crop s e Hs He Es Ee), unicode_substring_crop, E.
    destruct (Z.leb_spec e s) as [H|H]; [symmetry; apply window_empty; exact H|].
    assert (Hl : in_ssz (e - s)) by (apply in_ssz_nonneg; lia).
    rewrite (ssz_id _ Hl). unfold window, norm_sel. destruct (Z.ltb_spec s e); [|lia].
    destruct (Z.eqb_spec s 0) as [->|]; [destruct (Z.eqb_spec e n) as [->|]|]; cbn [andb].
    - destruct (Z.leb_spec n 0); [lia|]. rewrite Z.sub_0_r. reflexivity.
    - destruct (Z.leb_spec (0 + (e - 0)) n); [reflexivity | lia].
    - destruct (Z.leb_spec 0 s); [|lia]. destruct (Z.leb_spec (s + (e - s)) n); [reflexivity | lia].
  Qed.
End Slices.

Theorem crop_slice_refuted :
  exists n a b, 0 <= n <= SSZ_MAX /\ in_ssz a /\ in_ssz b /\
    listtuple_getslice false n a b = SliceOOB SSZ_MAX (n + 1) /\
    py_slice n (BCInt a) (BCInt b) = Sel 0 0.
Proof.
  exists 5, SSZ_MAX, SSZ_MIN. unfold in_ssz. vm_compute. intuition congruence.
Qed.

Definition bound_ok (b : bound) : Prop :=
  match b with BCInt v => in_ssz v | _ => True end.
Definition bound_fits (b : bound) : Prop :=
  match b with BPyInt z => in_ssz z | _ => True end.

Lemma clamp_in_ssz z : in_ssz (clamp_ssz z).
Proof. unfold in_ssz, clamp_ssz. rewrite SSZ_MIN_eq, SSZ_MAX_eq. lia. Qed.

Lemma unpack_start_in_ssz b : in_ssz (py_unpack_start b).
Proof. destruct b; cbn [py_unpack_start]; try apply clamp_in_ssz; apply in_ssz_nonneg; rewrite SSZ_MAX_eq; lia. Qed.

Lemma unpack_stop_in_ssz b : in_ssz (py_unpack_stop b).
Proof. destruct b; cbn [py_unpack_stop]; try apply clamp_in_ssz; apply in_ssz_nonneg; rewrite SSZ_MAX_eq; lia. Qed.

(* the coercion of analyse_types yields the bound PySlice_Unpack would; dflt is the value both
   substitute for an absent or None bound *)
Lemma coerce_bound_unpack fl dflt b :
  bound_ok b -> fl = true \/ bound_fits b ->
  coerce_bound fl dflt b
  = Some match b with BAbsent | BNone => dflt | BCInt z | BPyInt z => clamp_ssz z end.
Proof.
  intros Ok Fit. destruct b as [|v| |z]; cbn [coerce_bound bound_ok bound_fits] in *; try reflexivity.
  - rewrite (clamp_id v Ok). reflexivity.
  - destruct (in_sszb z) eqn:E.
    + apply in_sszb_spec in E. rewrite (clamp_id z E). reflexivity.
    + destruct Fit as [-> | Fz]; [reflexivity|]. apply in_sszb_spec in Fz. congruence.
Qed.

Lemma coerce_start fl b :
  bound_ok b -> fl = true \/ bound_fits b -> coerce_bound fl 0 b = Some (py_unpack_start b).
Proof. exact (coerce_bound_unpack fl 0 b). Qed.

Lemma coerce_stop fl b :
  bound_ok b -> fl = true \/ bound_fits b -> coerce_bound fl SSZ_MAX b = Some (py_unpack_stop b).
Proof. exact (coerce_bound_unpack fl SSZ_MAX b). Qed.

Lemma py_slice_cint n bs be s e :
  in_ssz s -> in_ssz e -> py_unpack_start bs = s -> py_unpack_stop be = e ->
  py_slice n (BCInt s) (BCInt e) = py_slice n bs be.
Proof.
  intros Hs He Es Ee. unfold py_slice. cbn [py_unpack_start py_unpack_stop].
  rewrite (clamp_id s Hs), (clamp_id e He), Es, Ee. reflexivity.
Qed.

Lemma py_slice_pos_cint n bs be s e :
  in_ssz s -> in_ssz e -> py_unpack_start bs = s -> py_unpack_stop be = e ->
  py_slice_pos n (BCInt s) (BCInt e) = py_slice_pos n bs be.
Proof.
  intros Hs He Es Ee. unfold py_slice_pos. cbn [py_unpack_start py_unpack_stop].
  rewrite (clamp_id s Hs), (clamp_id e He), Es, Ee. reflexivity.
Qed.

(* a builtin-typed base sees its bounds as the C integers PySlice_Unpack would make of them *)
Lemma py_slice_unpacked n bs be :
  py_slice n (BCInt (py_unpack_start bs)) (BCInt (py_unpack_stop be)) = py_slice n bs be.
Proof. apply py_slice_cint; auto using unpack_start_in_ssz, unpack_stop_in_ssz. Qed.

(* base[start:stop] as generated = CPython, for every static base type, every length, every
   combination of absent / C / None / int-object bounds; list and tuple need the repaired crop
   or the no-overflow side condition on the coerced bounds *)
Theorem slice_node_eq fc fl k n bs be :
  0 <= n <= SSZ_MAX -> bound_ok bs -> bound_ok be ->
  (fl = true \/ (bound_fits bs /\ bound_fits be)) ->
  (k = KList \/ k = KTuple ->
     fc = true \/ ~ crop_overflows n (py_unpack_start bs) (py_unpack_stop be)) ->
  slice_node fc fl k n bs be = py_slice n bs be.
Proof.
  intros Hn Os Oe Fit Fc. unfold slice_node.
  rewrite (coerce_start fl bs), (coerce_stop fl be) by tauto.
  pose proof (unpack_start_in_ssz bs) as Hs. pose proof (unpack_stop_in_ssz be) as He.
  destruct k; try reflexivity; try apply py_slice_unpacked.
  1, 2: rewrite listtuple_getslice_eq by auto; apply py_slice_unpacked.
  rewrite unicode_substring_eq by assumption. apply py_slice_unpacked.
Qed.

Theorem setslice_node_eq fl k n bs be :
  0 <= n <= SSZ_MAX -> bound_ok bs -> bound_ok be ->
  (fl = true \/ (bound_fits bs /\ bound_fits be)) ->
  setslice_node fl k n bs be = py_slice_pos n bs be.
Proof.
  intros Hn Os Oe Fit. unfold setslice_node.
  rewrite (coerce_start fl bs), (coerce_stop fl be) by tauto.
  destruct k; try reflexivity;
    apply py_slice_pos_cint; auto using unpack_start_in_ssz, unpack_stop_in_ssz.
Qed.

(* an int object outside the Py_ssize_t range as bound of a builtin-typed base: OverflowError
   where CPython clamps *)
Theorem typed_slice_bound_overflow_refuted :
  exists k n bs be, 0 <= n <= SSZ_MAX /\ bound_ok bs /\ bound_ok be /\
    slice_node true false k n bs be = OverflowError /\
    setslice_node false KList n bs be = OverflowError /\
    py_slice n bs be = Sel 0 n.
Proof.
  exists KStr, 5, (BPyInt (SSZ_MIN - 1)), (BPyInt (SSZ_MAX + 1)).
  unfold bound_ok. vm_compute. intuition congruence.
Qed.

Theorem slice_in_bounds fl k n bs be f c :
  0 <= n <= SSZ_MAX -> bound_ok bs -> bound_ok be ->
  (fl = true \/ (bound_fits bs /\ bound_fits be)) ->
  slice_node true fl k n bs be = Sel f c -> 0 <= f /\ 0 <= c /\ f + c <= n.
Proof.
  intros Hn Os Oe Fit E.
  rewrite slice_node_eq in E by auto.
  eapply py_slice_in_bounds; [lia | eassumption].
Qed.
