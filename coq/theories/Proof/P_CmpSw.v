(* Proofs for Model/M_Cmp.v, part 3 (SwitchTransform). *)
From Coq Require Import ZArith List Bool Lia.
From CyVerif Require Import Lib.CInt Model.M_Cmp.
Import ListNotations.
Open Scope Z_scope.

(* sorted(set(chars)) keeps the members *)
Lemma ins_sorted_mem : forall v x l,
  existsb (Z.eqb v) (ins_sorted x l) = (v =? x) || existsb (Z.eqb v) l.
Proof.
  intros v x l. induction l as [|y r IH]; [reflexivity|].
  cbn [ins_sorted]. destruct (x <? y); [reflexivity|].
  destruct (Z.eqb_spec x y) as [->|Hne].
  - cbn [existsb]. destruct (v =? y); reflexivity.
  - cbn [existsb]. rewrite IH. destruct (v =? y); destruct (v =? x); reflexivity.
Qed.

Lemma sort_dedup_mem : forall v l, existsb (Z.eqb v) (sort_dedup l) = existsb (Z.eqb v) l.
Proof.
  intros v l. unfold sort_dedup. induction l as [|x r IH]; [reflexivity|].
  cbn [fold_right existsb]. rewrite ins_sorted_mem, IH. reflexivity.
Qed.

Lemma memv_string_labels : forall v isb chars,
  memv v (string_labels isb chars) = existsb (Z.eqb v) chars.
Proof.
  intros v isb chars. unfold string_labels, memv. rewrite <- (sort_dedup_mem v chars).
  induction (sort_dedup chars) as [|c r IH]; [reflexivity|].
  cbn [map existsb l_val]. rewrite IH, (Z.eqb_sym c v). reflexivity.
Qed.

Lemma memv_app : forall v a b, memv v (a ++ b) = memv v a || memv v b.
Proof. intros. unfold memv. apply existsb_app. Qed.

Lemma zlist_eqb_eq : forall a b, zlist_eqb a b = true -> a = b.
Proof.
  induction a as [|x a IH]; intros [|y b] H; try discriminate; [reflexivity|].
  cbn in H. apply andb_true_iff in H. destruct H as [H1 H2].
  apply Z.eqb_eq in H1. subst. f_equal. apply IH. exact H2.
Qed.

Section SwitchProofs.
  Variable envv : list Z -> Z.
  Variable envo : Z -> Z.
  Variable envb : Z -> bool.

  Notation esop := (eval_sop envv envo).
  Notation econd := (eval_cond envv envo envb).

  (* the environment gives constant names their value *)
  Definition sop_wf (s : sop) : Prop :=
    match s with SConst n l => envv [n] = l_val l | _ => True end.

  Fixpoint cond_wf (c : cond) : Prop :=
    match c with
    | CCmpC _ a b _ => sop_wf a /\ sop_wf b
    | CInStr _ a _ _ => sop_wf a
    | COr a b => cond_wf a /\ cond_wf b
    | CAnd a b => cond_wf a /\ cond_wf b
    | CWrap c' => cond_wf c'
    | COther _ => True
    | CSw _ s _ => sop_wf s
    end.

  Lemma path_eval : forall s p, sop_wf s -> sop_path s = Some p -> esop s = ([], envv p).
  Proof.
    intros [p' py t|l|n l|id t] p Hwf Hp; cbn in Hp; try discriminate.
    - destruct (py && _); inversion Hp; subst. reflexivity.
    - inversion Hp; subst. cbn in Hwf. cbn. rewrite Hwf. reflexivity.
  Qed.

  Lemma common_eval : forall a b, sop_wf a -> sop_wf b -> is_common a b = true ->
    exists p, esop a = ([], envv p) /\ esop b = ([], envv p).
  Proof.
    intros a b Ha Hb H. unfold is_common in H.
    destruct (sop_path a) as [p|] eqn:Pa; [|discriminate].
    destruct (sop_path b) as [q|] eqn:Pb; [|discriminate].
    apply zlist_eqb_eq in H. subst q. exists p. split; apply path_eval; assumption.
  Qed.

  Lemma as_label_eval : forall s l, as_label s = Some l -> esop s = ([], l_val l).
  Proof. intros [p py t|l'|n l'|id t] l H; inversion H; subst; reflexivity. Qed.

  Definition sem (ni : bool) (s : sop) (ls : list label) : list event * bool :=
    (fst (esop s), xorb ni (memv (snd (esop s)) ls)).

  Lemma sem_sw ni s ls : econd (CSw ni s ls) = sem ni s ls.
  Proof. unfold sem. cbn [eval_cond]. destruct (esop s). reflexivity. Qed.

  (* two memberships of a common, pure subject join their label lists: `in c1 or in c2` is `in c1 ++ c2`,
     `not in c1 and not in c2` is `not in c1 ++ c2` *)
  Lemma sem_join ni a b t1 t2 c1 c2 :
    sop_wf t1 -> sop_wf t2 -> is_common t1 t2 = true ->
    econd a = sem ni t1 c1 -> econd b = sem ni t2 c2 ->
    econd (if ni then CAnd a b else COr a b) = sem ni t1 (c1 ++ c2).
  Proof.
    intros W1 W2 Ecm S1 S2. destruct (common_eval _ _ W1 W2 Ecm) as [p [P1 P2]].
    destruct ni; cbn [eval_cond]; rewrite S1, S2; unfold sem; rewrite P1, P2; cbn [fst snd];
      rewrite memv_app, ?xorb_true_l, ?xorb_false_l; destruct (memv (envv p) c1); reflexivity.
  Qed.

  (* x == label or label == x (!= where allowed) is membership in the one-label list *)
  Lemma cmp_label_sem : forall op ni s o l casc,
    (op = CopEq /\ ni = false) \/ (op = CopNe /\ ni = true) ->
    sop_wf s -> is_common s s = true -> as_label o = Some l ->
    econd (CCmpC op s o casc) = sem ni s [l] /\ econd (CCmpC op o s casc) = sem ni s [l].
  Proof.
    intros op ni s o l casc Hop Hw Hc Hl.
    destruct (common_eval s s Hw Hw Hc) as [p [Hp _]].
    unfold sem. cbn [eval_cond]. rewrite Hp, (as_label_eval o l Hl).
    cbn [fst snd app memv existsb l_val]. rewrite orb_false_r, (Z.eqb_sym (l_val l)).
    destruct Hop as [[-> ->]|[-> ->]]; rewrite ?xorb_false_l, ?xorb_true_l; split; reflexivity.
  Qed.

  Lemma extract_sound : forall c allow ni s ls,
    cond_wf c -> extract true c allow = Some (ni, s, ls) ->
    sop_wf s /\ econd c = sem ni s ls.
  Proof.
    induction c as [op a b casc|neg a isb chars|a IHa b IHb|a IHa b IHb|c IH|id|ni0 s0 ls0];
      intros allow ni s ls Hwf He; cbn [extract] in He; try discriminate.
    - (* comparison *)
      destruct Hwf as [Hwa Hwb].
      destruct casc; [discriminate|].
      destruct (is_obj (sop_ty a) || is_obj (sop_ty b)); [discriminate|].
      destruct (match op with CopEq => Some false | CopNe => if allow then Some true else None
                         | CopOther => None end) as [ni'|] eqn:Eop; [|discriminate].
      assert (Hop : (op = CopEq /\ ni' = false) \/ (op = CopNe /\ ni' = true)).
      { destruct op; [left|right|discriminate].
        - inversion Eop; subst; auto.
        - destruct allow; inversion Eop; subst; auto. }
      destruct (if is_common a a then as_label b else None) as [l|] eqn:E1.
      + injection He as Hn Hs Hl; subst ni s ls. destruct (is_common a a) eqn:Ca; [|discriminate].
        split; [exact Hwa|]. exact (proj1 (cmp_label_sem _ _ _ _ _ false Hop Hwa Ca E1)).
      + destruct (if is_common b b then as_label a else None) as [l|] eqn:E2; [|discriminate].
        injection He as Hn Hs Hl; subst ni s ls. destruct (is_common b b) eqn:Cb; [|discriminate].
        split; [exact Hwb|]. exact (proj2 (cmp_label_sem _ _ _ _ _ false Hop Hwb Cb E2)).
    - (* in string literal *)
      destruct (is_int (sop_ty a)); [|discriminate].
      destruct (neg && negb allow); [discriminate|]. injection He as Hn Hs Hl; subst ni s ls.
      split; [exact Hwf|]. unfold sem. cbn [eval_cond]. rewrite memv_string_labels.
      destruct (esop a). reflexivity.
    - (* or *)
      destruct Hwf as [Hwa Hwb].
      destruct (extract true a false) as [[[n1 t1] c1]|] eqn:Ea; [|discriminate].
      destruct (extract true b false) as [[[n2 t2] c2]|] eqn:Eb; [|discriminate].
      destruct (Bool.eqb n1 n2 && is_common t1 t2) eqn:Ec; [|discriminate].
      destruct (negb n1) eqn:En; [|discriminate]. injection He as Hn Hs Hl; subst ni s ls.
      apply andb_true_iff in Ec. destruct Ec as [Enn Ecm]. apply eqb_prop in Enn. subst n2.
      destruct n1; [discriminate|].
      destruct (IHa _ _ _ _ Hwa Ea) as [W1 S1]. destruct (IHb _ _ _ _ Hwb Eb) as [W2 S2].
      split; [exact W1|]. exact (sem_join false _ _ _ _ _ _ W1 W2 Ecm S1 S2).
    - (* and *)
      destruct Hwf as [Hwa Hwb]. destruct allow; [|discriminate].
      destruct (extract true a true) as [[[n1 t1] c1]|] eqn:Ea; [|discriminate].
      destruct (extract true b true) as [[[n2 t2] c2]|] eqn:Eb; [|discriminate].
      destruct (Bool.eqb n1 n2 && is_common t1 t2) eqn:Ec; [|discriminate].
      destruct n1; [|discriminate]. injection He as Hn Hs Hl; subst ni s ls.
      apply andb_true_iff in Ec. destruct Ec as [Enn Ecm]. apply eqb_prop in Enn. subst n2.
      destruct (IHa _ _ _ _ Hwa Ea) as [W1 S1]. destruct (IHb _ _ _ _ Hwb Eb) as [W2 S2].
      split; [exact W1|]. exact (sem_join true _ _ _ _ _ _ W1 W2 Ecm S1 S2).
    - (* wrapper *)
      cbn [eval_cond]. eapply IH; eassumption.
  Qed.

  (* with allow_not_in = False the extracted condition is never negated *)
  Lemma extract_noallow : forall fa c ni s ls,
    extract fa c false = Some (ni, s, ls) -> ni = false.
  Proof.
    intros fa. induction c as [op a b casc|neg a isb chars|a IHa b IHb|a IHa b IHb|c IH|id|ni0 s0 ls0];
      intros ni s ls He; cbn [extract] in He; try discriminate.
    - destruct casc; [discriminate|].
      destruct (is_obj (sop_ty a) || is_obj (sop_ty b)); [discriminate|].
      destruct op; try discriminate.
      destruct (if is_common a a then as_label b else None).
      + inversion He. reflexivity.
      + destruct (if is_common b b then as_label a else None); inversion He. reflexivity.
    - destruct (is_int (sop_ty a)); [|discriminate].
      destruct neg; cbn in He; [discriminate|]. inversion He. reflexivity.
    - destruct (extract fa a false) as [[[n1 t1] c1]|]; [|discriminate].
      destruct (extract fa b false) as [[[n2 t2] c2]|]; [|discriminate].
      destruct (Bool.eqb n1 n2 && is_common t1 t2); [|discriminate].
      destruct n1; cbn in He; [discriminate|]. inversion He. reflexivity.
    - eapply IH; eassumption.
  Qed.

  Lemma extract_common_some : forall fa common c allow ni s ls,
    extract_common fa common c allow = Some (ni, s, ls) ->
    extract fa c allow = Some (ni, s, ls) /\
    (forall c0, common = Some c0 -> is_common s c0 = true).
  Proof.
    intros fa common c allow ni s ls H. unfold extract_common in H.
    destruct (extract fa c allow) as [[[n v] l]|]; [|discriminate].
    destruct (match common with Some cv => negb (is_common v cv) | None => false end) eqn:E1; [discriminate|].
    destruct (negb (is_intlike (sop_ty v)) || _); [discriminate|]. inversion H; subst.
    split; [reflexivity|]. intros c0 ->. apply negb_false_iff in E1. exact E1.
  Qed.

  Lemma try_expr_sound : forall c c',
    cond_wf c -> try_expr true c = Some c' -> cond_wf c' /\ econd c' = econd c.
  Proof.
    intros c c' Hwf H. unfold try_expr in H.
    destruct (extract_common true None c true) as [[[ni v] ls]|] eqn:E; [|discriminate].
    destruct ((Z.of_nat (length ls) <? 2) || has_dup [] ls); [discriminate|]. inversion H; subst.
    apply extract_common_some in E. destruct E as [E _].
    destruct (extract_sound _ _ _ _ _ Hwf E) as [W S]. split; [exact W|].
    rewrite S. apply sem_sw.
  Qed.

  Lemma xform_sound : forall c, cond_wf c -> cond_wf (xform true c) /\ econd (xform true c) = econd c.
  Proof.
    induction c as [op a b casc|neg a isb chars|a IHa b IHb|a IHa b IHb|c IH|id|ni0 s0 ls0];
      intros Hwf; cbn [xform];
      (destruct (try_expr true _) as [c'|] eqn:Et; [exact (try_expr_sound _ _ Hwf Et)|]);
      try (split; [exact Hwf|reflexivity]).
    - destruct Hwf as [Ha Hb]. destruct (IHa Ha) as [Wa Sa]. destruct (IHb Hb) as [Wb Sb].
      split; [split; assumption|]. cbn [eval_cond]. rewrite Sa, Sb. reflexivity.
    - destruct Hwf as [Ha Hb]. destruct (IHa Ha) as [Wa Sa]. destruct (IHb Hb) as [Wb Sb].
      split; [split; assumption|]. cbn [eval_cond]. rewrite Sa, Sb. reflexivity.
    - destruct (IH Hwf) as [W S]. split; [exact W|]. cbn [eval_cond]. exact S.
  Qed.

  Definition sel (v : Z) (cases : list (list label * Z)) (els : option Z) : option Z :=
    match find_case v cases with Some b => Some b | None => els end.

  Definition clauses_wf (cls : list clause) : Prop := Forall (fun cl => cond_wf (c_cond cl)) cls.

  Lemma collect_sound : forall cls common cv' cases els,
    clauses_wf cls -> (forall c0, common = Some c0 -> sop_wf c0) -> cls <> [] ->
    collect true common cls = Some (cv', cases) ->
    exists cv, cv' = Some cv /\ sop_wf cv /\
      exec_clauses envv envo envb cls els = (fst (esop cv), sel (snd (esop cv)) cases els) /\
      (forall c0, common = Some c0 -> esop cv = esop c0 /\ fst (esop c0) = []).
  Proof.
    induction cls as [|cl rest IH]; intros common cv' cases els Hwf Hc0 Hne Hcol; [congruence|].
    inversion Hwf as [|? ? Hcl Hrest]; subst. cbn [collect] in Hcol.
    destruct (extract_common true common (c_cond cl) false) as [[[ni v] ls]|] eqn:E; [|discriminate].
    destruct (collect true (Some v) rest) as [[cv2 cases2]|] eqn:Ecol; [|discriminate].
    injection Hcol as Hcv Hcs; subst cv' cases.
    apply extract_common_some in E. destruct E as [E Ecm].
    pose proof (extract_noallow _ _ _ _ _ E) as Hni. subst ni.
    destruct (extract_sound _ _ _ _ _ Hcl E) as [Wv Sv].
    assert (Hcommon : forall c0, common = Some c0 -> esop v = esop c0 /\ fst (esop c0) = []).
    { intros c0 Hc. destruct (common_eval _ _ Wv (Hc0 c0 Hc) (Ecm c0 Hc)) as [p [P1 P2]].
      rewrite P1, P2. split; reflexivity. }
    destruct rest as [|cl2 rest'].
    - cbn in Ecol. injection Ecol as Hcv Hcs; subst cv2 cases2. exists v. split; [reflexivity|]. split; [exact Wv|].
      split; [|exact Hcommon].
      cbn [exec_clauses]. rewrite Sv. unfold sem, sel. cbn [find_case]. rewrite xorb_false_l.
      destruct (memv (snd (esop v)) ls); [reflexivity|]. rewrite app_nil_r. reflexivity.
    - destruct (IH (Some v) cv2 cases2 els Hrest) as [cv [-> [Wcv [Sx Hc]]]]; try assumption.
      { intros c0 Hc. inversion Hc; subst. exact Wv. }
      { discriminate. }
      destruct (Hc v eq_refl) as [Hev Hnil].
      exists cv. split; [reflexivity|]. split; [exact Wcv|]. split.
      + cbn [exec_clauses] in *. rewrite Sv. unfold sem. rewrite xorb_false_l.
        rewrite Sx. unfold sel. cbn [find_case]. rewrite Hev, Hnil.
        destruct (memv (snd (esop v)) ls); reflexivity.
      + intros c0 Hc'. destruct (Hcommon c0 Hc') as [H1 H2]. rewrite Hev. split; assumption.
  Qed.

  Lemma to_switch_sound : forall cls els s,
    clauses_wf cls -> to_switch true cls els = Some s ->
    exec_stmt envv envo envb s = exec_clauses envv envo envb cls els.
  Proof.
    intros cls els s Hwf H. unfold to_switch in H.
    destruct (collect true None cls) as [[[cv|] cases]|] eqn:Ec; try discriminate.
    destruct ((Z.of_nat (length (all_labels cases)) <? 2) || has_dup [] (all_labels cases)); [discriminate|].
    inversion H; subst.
    destruct cls as [|cl rest]; [cbn in Ec; discriminate|].
    assert (Hn : forall c0 : sop, @None sop = Some c0 -> sop_wf c0) by discriminate.
    assert (Hne : cl :: rest <> []) by discriminate.
    destruct (collect_sound _ None _ _ els Hwf Hn Hne Ec) as [cv2 [Hcv [W [S _]]]].
    inversion Hcv; subst. rewrite S. cbn [exec_stmt]. destruct (esop cv2). reflexivity.
  Qed.

  Lemma exec_clauses_xform : forall cls els,
    clauses_wf cls ->
    exec_clauses envv envo envb (map (fun cl => mkC (xform true (c_cond cl)) (c_body cl)) cls) els
    = exec_clauses envv envo envb cls els.
  Proof.
    induction cls as [|cl rest IH]; intros els Hwf; [reflexivity|].
    inversion Hwf; subst. cbn [map exec_clauses c_cond c_body].
    destruct (xform_sound _ H1) as [_ ->]. rewrite IH by assumption. reflexivity.
  Qed.
End SwitchProofs.

(* what has_duplicate_values takes for granted: different keys, different C values *)
Definition faithful (ls : list label) : Prop :=
  forall l1 l2, In l1 ls -> In l2 ls -> key_eqb (l_key l1) (l_key l2) = false -> l_val l1 <> l_val l2.

Lemma has_dup_cons : forall seen l rest,
  has_dup seen (l :: rest) = false ->
  existsb (key_eqb (l_key l)) seen = false /\ has_dup (l_key l :: seen) rest = false.
Proof.
  intros seen l rest H. cbn [has_dup] in H.
  destruct (l_key l); try discriminate;
    (destruct (existsb _ seen); [discriminate|split; [reflexivity|exact H]]).
Qed.

Lemma has_dup_seen : forall ls seen,
  has_dup seen ls = false ->
  forall l k, In l ls -> In k seen -> key_eqb (l_key l) k = false.
Proof.
  induction ls as [|l0 rest IH]; intros seen H l k Hl Hk; [contradiction|].
  apply has_dup_cons in H. destruct H as [H1 H2]. destruct Hl as [->|Hl].
  - destruct (key_eqb (l_key l) k) eqn:E; [|reflexivity].
    assert (existsb (key_eqb (l_key l)) seen = true) by (apply existsb_exists; exists k; auto). congruence.
  - apply (IH _ H2 l k Hl). right. exact Hk.
Qed.

Lemma has_dup_nodup : forall ls seen,
  has_dup seen ls = false -> faithful ls -> nodupz (map l_val ls) = true.
Proof.
  induction ls as [|l0 rest IH]; intros seen H Hf; [reflexivity|].
  apply has_dup_cons in H. destruct H as [_ H2].
  cbn [map nodupz]. apply andb_true_iff. split.
  - apply negb_true_iff. destruct (existsb (Z.eqb (l_val l0)) (map l_val rest)) eqn:E; [|reflexivity].
    apply existsb_exists in E. destruct E as [v [Hin Hv]]. apply Z.eqb_eq in Hv. subst v.
    apply in_map_iff in Hin. destruct Hin as [l' [Hv' Hin']].
    exfalso. apply (Hf l' l0); [right; exact Hin'|left; reflexivity| |exact Hv'].
    apply (has_dup_seen _ _ H2 l' (l_key l0) Hin'). left. reflexivity.
  - apply (IH _ H2). intros l1 l2 H1 H2'. apply Hf; right; assumption.
Qed.

Theorem lit_labels_faithful : forall ls, Forall (fun l => label_lit l = true) ls -> faithful ls.
Proof.
  intros ls Hall l1 l2 H1 H2 Hk Hv. rewrite Forall_forall in Hall.
  pose proof (Hall _ H1) as L1. pose proof (Hall _ H2) as L2. unfold label_lit in *.
  destruct (l_key l1); try discriminate. destruct (l_key l2); try discriminate.
  apply Z.eqb_eq in L1, L2. cbn in Hk. apply Z.eqb_neq in Hk. congruence.
Qed.

Theorem switch_labels_distinct : forall fa cls els subj cases els',
  to_switch fa cls els = Some (SSwitch subj cases els') ->
  faithful (all_labels cases) ->
  stmt_valid (SSwitch subj cases els') = true /\ (2 <= length (all_labels cases))%nat.
Proof.
  intros fa cls els subj cases els' H Hf. unfold to_switch in H.
  destruct (collect fa None cls) as [[[cv|] cs]|]; try discriminate.
  destruct (Z.of_nat (length (all_labels cs)) <? 2) eqn:E1; [discriminate|].
  destruct (has_dup [] (all_labels cs)) eqn:E2; [discriminate|]. inversion H; subst.
  split; [|apply Z.ltb_ge in E1; lia]. cbn [stmt_valid]. eapply has_dup_nodup; eassumption.
Qed.

Theorem switch_expr_labels_distinct : forall fa c ni s ls,
  try_expr fa c = Some (CSw ni s ls) -> faithful ls ->
  nodupz (map l_val ls) = true /\ (2 <= length ls)%nat.
Proof.
  intros fa c ni s ls H Hf. unfold try_expr in H.
  destruct (extract_common fa None c true) as [[[n v] l]|]; [|discriminate].
  destruct (Z.of_nat (length l) <? 2) eqn:E1; [discriminate|].
  destruct (has_dup [] l) eqn:E2; [discriminate|]. inversion H; subst.
  split; [|apply Z.ltb_ge in E1; lia]. eapply has_dup_nodup; eassumption.
Qed.

(* the transform declines as soon as two labels have the same key *)
Theorem declines_on_duplicates : forall fa cls els l1 l2 pre mid post cv cases,
  collect fa None cls = Some (cv, cases) ->
  all_labels cases = pre ++ l1 :: mid ++ l2 :: post ->
  key_eqb (l_key l1) (l_key l2) = true ->
  to_switch fa cls els = None.
Proof.
  intros fa cls els l1 l2 pre mid post cv cases Hc Hl Hk. unfold to_switch. rewrite Hc.
  destruct cv; [|reflexivity].
  destruct (has_dup [] (all_labels cases)) eqn:E; [rewrite orb_true_r; reflexivity|].
  exfalso. rewrite Hl in E. clear Hl. revert E. generalize (@nil key).
  induction pre as [|x r IH]; intros seen Hd; apply has_dup_cons in Hd; destruct Hd as [_ Hd].
  - (* l1 is in seen when l2 is reached *)
    pose proof (has_dup_seen _ _ Hd l2 (l_key l1) (in_elt _ _ _) (or_introl eq_refl)) as Hs.
    destruct (l_key l1), (l_key l2); cbn in *; try discriminate;
      rewrite Z.eqb_sym in Hk; congruence.
  - exact (IH _ Hd).
Qed.

(* the code as it is (fix_and = false) agrees with the repair on and-free conditions *)
Fixpoint and_free (c : cond) : Prop :=
  match c with
  | CAnd _ _ => False
  | COr a b => and_free a /\ and_free b
  | CWrap c' => and_free c'
  | _ => True
  end.

Lemma extract_and_free : forall c allow, and_free c -> extract false c allow = extract true c allow.
Proof.
  induction c as [op a b casc|neg a isb chars|a IHa b IHb|a IHa b IHb|c IH|id|ni0 s0 ls0];
    intros allow H; cbn [extract]; try reflexivity.
  - destruct H as [Ha Hb]. rewrite (IHa false Ha), (IHb false Hb). reflexivity.
  - contradiction.
  - apply IH. exact H.
Qed.

Lemma try_expr_and_free : forall c, and_free c -> try_expr false c = try_expr true c.
Proof. intros c H. unfold try_expr, extract_common. rewrite extract_and_free by exact H. reflexivity. Qed.

Lemma xform_and_free : forall c, and_free c -> xform false c = xform true c.
Proof.
  induction c as [op a b casc|neg a isb chars|a IHa b IHb|a IHa b IHb|c IH|id|ni0 s0 ls0];
    intros H; cbn [xform]; rewrite try_expr_and_free by exact H; try reflexivity.
  - destruct H as [Ha Hb]. rewrite (IHa Ha), (IHb Hb). reflexivity.
  - contradiction.
  - rewrite (IH H). reflexivity.
Qed.

Lemma collect_and_free : forall cls common,
  Forall (fun cl => and_free (c_cond cl)) cls -> collect false common cls = collect true common cls.
Proof.
  induction cls as [|cl rest IH]; intros common H; [reflexivity|]. inversion H; subst.
  cbn [collect]. unfold extract_common. rewrite extract_and_free by assumption.
  destruct (extract true (c_cond cl) false) as [[[ni v] ls]|]; [|reflexivity].
  destruct (match common with Some cv => negb (is_common v cv) | None => false end); [reflexivity|].
  destruct (negb (is_intlike (sop_ty v)) || _); [reflexivity|]. rewrite IH by assumption. reflexivity.
Qed.

Lemma visit_if_and_free : forall cls els,
  Forall (fun cl => and_free (c_cond cl)) cls -> visit_if false cls els = visit_if true cls els.
Proof.
  intros cls els H. unfold visit_if, to_switch. rewrite collect_and_free by exact H.
  replace (map (fun cl => mkC (xform false (c_cond cl)) (c_body cl)) cls)
    with (map (fun cl => mkC (xform true (c_cond cl)) (c_body cl)) cls); [reflexivity|].
  apply map_ext_in. intros cl Hin. rewrite Forall_forall in H.
  rewrite (xform_and_free _ (H cl Hin)). reflexivity.
Qed.

Theorem switch_eq : forall envv envo envb cls els,
  clauses_wf envv cls ->
  exec_stmt envv envo envb (visit_if true cls els) = exec_clauses envv envo envb cls els.
Proof.
  intros envv envo envb cls els Hwf. unfold visit_if. destruct (to_switch true cls els) as [s|] eqn:E.
  - eapply to_switch_sound; eassumption.
  - cbn [exec_stmt]. apply exec_clauses_xform. exact Hwf.
Qed.

Definition w_x : sop := SVar [1] false TyInt.
Definition w_l (z : Z) : sop := SLit (mkL (KInt z) z TyInt).

Theorem switch_and_old_refuted : exists envv envo envb c,
  cond_wf envv c /\ eval_cond envv envo envb (xform false c) <> eval_cond envv envo envb c.
Proof.
  exists (fun _ => 1), (fun _ => 0), (fun _ => false),
    (CAnd (CCmpC CopEq w_x (w_l 1) false) (CCmpC CopEq w_x (w_l 2) false)).
  split; [cbn; auto|]. vm_compute. intros H. inversion H.
Qed.

(* the duplicate test compares keys: a bytes character label (CharNode built from a bytes
   literal, key = the bytes object) and an integer label with the same C value pass it *)
Theorem switch_labels_unfaithful_refuted : exists cls els subj cases els',
  to_switch true cls els = Some (SSwitch subj cases els') /\
  stmt_valid (SSwitch subj cases els') = false.
Proof.
  exists [mkC (CInStr false w_x true [97; 98]) 1; mkC (CCmpC CopEq w_x (w_l 97) false) 2], None.
  eexists. eexists. eexists. split; [vm_compute; reflexivity|]. vm_compute. reflexivity.
Qed.
