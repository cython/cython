(* Proofs about the model of strip_string_literals (Model/M_Strip.v).
   Losslessness, every input and every frame ([run_ok]): the output so far substitutes back to the text consumed
   ([inv]), one case per token the running regex finds.  Completeness on texts without f-string prefixes ([sim]):
   the scanner, character by character, against the reference tokenizer [refc]; the output so far classifies the
   text consumed ([invc], of which [inv] is the first components).  The texts of finding F21 stand at the end. *)
From Coq Require Import NArith List Bool Lia Arith DecimalN DecimalPos.
From CyVerif Require Import Model.M_Strip.
Import ListNotations.
Open Scope list_scope.
Open Scope nat_scope.

Definition tok_text (t : token) : list ch :=
  match t with
  | TComment => [c_hash]
  | TBrace b => [b]
  | TBraces _ run => run
  | TEscape bs q => bs ++ [q]
  | TQuote pre _ run => pre ++ run
  end.

Definition tok_ok (r : rx) (t : token) : Prop :=
  match t with
  | TComment => r = RxCode
  | TBrace _ => r = RxCode
  | TBraces b run => r = RxFStr /\ run <> [] /\ Forall (fun x => x = b) run
  | TEscape bs _ => r <> RxCode /\ bs <> []
  | TQuote _ q run => run <> [] /\ Forall (fun x => x = q) run
  end.

Definition headne (c : ch) (r : list ch) : Prop := match r with x :: _ => x <> c | [] => True end.

Lemma span_eq_spec c l : forall run r, span_eq c l = (run, r) ->
  l = run ++ r /\ Forall (fun x => x = c) run /\ headne c r.
Proof.
  induction l as [|x t IH]; intros run r H; simpl in H.
  - inversion H; subst. repeat split; constructor.
  - destruct (N.eqb_spec x c) as [E|E].
    + destruct (span_eq c t) as [run' r'] eqn:S. inversion H; subst.
      destruct (IH _ _ eq_refl) as (A & B & C). repeat split.
      * simpl. f_equal. exact A.
      * constructor; [reflexivity | exact B].
      * exact C.
    + inversion H; subst. repeat split; [constructor | exact E].
Qed.

Lemma span_eq_head c t : exists run r, span_eq c (c :: t) = (c :: run, r).
Proof. simpl. rewrite N.eqb_refl. destruct (span_eq c t) as [run r]. eauto. Qed.

Lemma span_eq_run c t : exists run r, span_eq c (c :: t) = (run, r) /\ c :: t = run ++ r /\
  Forall (fun x => x = c) run /\ headne c r /\ 1 <= length run /\ length run + length r = S (length t).
Proof.
  destruct (span_eq_head c t) as (run & r & E). destruct (span_eq_spec _ _ _ _ E) as (A & B & C).
  exists (c :: run), r. repeat split; try assumption; [simpl; lia|].
  change (S (length t)) with (length (c :: t)). rewrite A. symmetry. apply app_length.
Qed.

Lemma span_nl_spec l : forall b r, span_nl l = (b, r) -> l = b ++ r.
Proof.
  induction l as [|x t IH]; intros b r H; simpl in H.
  - inversion H; reflexivity.
  - destruct (N.eqb x c_nl).
    + inversion H; reflexivity.
    + destruct (span_nl t) as [b' r'] eqn:S. inversion H; subst. simpl. f_equal. apply IH. reflexivity.
Qed.

Lemma match_quote_spec fixp l tok rest : match_quote fixp l = Some (tok, rest) ->
  l = tok_text tok ++ rest /\ (exists pre q run, tok = TQuote pre q run /\ run <> [] /\ Forall (fun x => x = q) run).
Proof.
  unfold match_quote. destruct l as [|c t]; [discriminate|].
  destruct (is_quote c) eqn:Q.
  - destruct (span_eq_head c t) as (run & r & E). rewrite E. intros H; inversion H; subst.
    destruct (span_eq_spec _ _ _ _ E) as (A & B & _). split; [exact A|].
    exists [], c, (c :: run). repeat split; [discriminate | exact B].
  - destruct (is_f fixp c); [|discriminate].
    destruct t as [|q t']; [discriminate|].
    destruct (is_quote q) eqn:Q2.
    + destruct (span_eq_head q t') as (run & r & E). rewrite E. intros H; inversion H; subst.
      destruct (span_eq_spec _ _ _ _ E) as (A & B & _). split.
      * simpl. f_equal. exact A.
      * exists [c], q, (q :: run). repeat split; [discriminate | exact B].
    + destruct (fixp && is_r q); [|discriminate].
      destruct t' as [|q2 t2]; [discriminate|].
      destruct (is_quote q2); [|discriminate].
      destruct (span_eq_head q2 t2) as (run & r & E). rewrite E. intros H; inversion H; subst.
      destruct (span_eq_spec _ _ _ _ E) as (A & B & _). split.
      * simpl. do 2 f_equal. exact A.
      * exists [c; q], q2, (q2 :: run). repeat split; [discriminate | exact B].
Qed.

Lemma match_escape_spec t tok rest : match_escape (c_bs :: t) = Some (tok, rest) ->
  c_bs :: t = tok_text tok ++ rest /\ exists bs q, tok = TEscape bs q /\ bs <> [].
Proof.
  unfold match_escape. destruct (span_eq_head c_bs t) as (run & r & E). rewrite E.
  destruct (span_eq_spec _ _ _ _ E) as (A & _ & _).
  destruct r as [|q r']; [discriminate|]. destruct (is_quote q); [|discriminate].
  intros H; inversion H; subst. split.
  - rewrite A. simpl. rewrite <- app_assoc. reflexivity.
  - exists (c_bs :: run), q. split; [reflexivity | discriminate].
Qed.

Lemma try_at_spec r fixp l tok rest : try_at r fixp l = Some (tok, rest) ->
  l = tok_text tok ++ rest /\ tok_ok r tok /\ tok_text tok <> [].
Proof.
  unfold try_at. destruct l as [|c t]; [discriminate|].
  assert (MQ : forall fx, match_quote fx (c :: t) = Some (tok, rest) ->
            c :: t = tok_text tok ++ rest /\ tok_ok r tok /\ tok_text tok <> []).
  { intros fx H. destruct (match_quote_spec _ _ _ _ H) as (A & pre & q & run & -> & Hne & Hall).
    split; [exact A|]. split; [split; assumption|]. simpl. destruct pre; destruct run; try discriminate; congruence. }
  assert (ME : r <> RxCode -> match_escape (c_bs :: t) = Some (tok, rest) ->
            c_bs :: t = tok_text tok ++ rest /\ tok_ok r tok /\ tok_text tok <> []).
  { intros Hr H. destruct (match_escape_spec _ _ _ H) as (A & bs & q & -> & Hne).
    split; [exact A|]. split; [split; assumption|]. simpl. destruct bs; [congruence | discriminate]. }
  destruct r.
  - destruct (N.eqb_spec c c_hash) as [->|_].
    + intros H; inversion H; subst. repeat split. discriminate.
    + destruct (is_brace c).
      * intros H; inversion H; subst. repeat split. discriminate.
      * apply MQ.
  - destruct (N.eqb_spec c c_bs) as [->|_]; [apply ME; discriminate | apply MQ].
  - destruct (is_brace c).
    + destruct (span_eq_head c t) as (run & r' & E). rewrite E.
      destruct (span_eq_spec _ _ _ _ E) as (A & B & _).
      intros H; inversion H; subst. repeat split; try assumption; discriminate.
    + destruct (N.eqb_spec c c_bs) as [->|_]; [apply ME; discriminate | apply MQ].
Qed.

Lemma find_spec r fixp l : forall sk tok rest, find r fixp l = Some (sk, tok, rest) ->
  l = sk ++ tok_text tok ++ rest /\ tok_ok r tok /\ tok_text tok <> [].
Proof.
  induction l as [|c t IH]; intros sk tok rest H; [discriminate|].
  cbn [find] in H. destruct (try_at r fixp (c :: t)) as [[tk rs]|] eqn:T.
  - inversion H; subst. exact (try_at_spec _ _ _ _ _ T).
  - destruct (find r fixp t) as [[[sk' tk] rs]|] eqn:F; [|discriminate].
    inversion H; subst. destruct (IH _ _ _ eq_refl) as (A & B & C).
    split; [simpl; f_equal; exact A | split; assumption].
Qed.

Lemma find_none_nil r fixp : find r fixp [] = None.
Proof. reflexivity. Qed.

Lemma classify_app L a : forall b, classify L (a ++ b) =
  match classify L a, classify L b with Some x, Some y => Some (x ++ y) | _, _ => None end.
Proof.
  induction a as [|i a IH]; intros b; simpl.
  - destruct (classify L b); reflexivity.
  - destruct i as [c|k].
    + rewrite IH. destruct (classify L a), (classify L b); reflexivity.
    + destruct k as [|p]; [reflexivity|]. rewrite IH.
      destruct (nth_error L (N.to_nat (N.pred (N.pos p)))); [|reflexivity].
      destruct (classify L a), (classify L b); simpl; try reflexivity. rewrite app_assoc. reflexivity.
Qed.

Lemma classify_ext L x items : forall r, classify L items = Some r -> classify (L ++ [x]) items = Some r.
Proof.
  induction items as [|i t IH]; intros r H; simpl in *; [exact H|].
  destruct i as [c|k].
  - destruct (classify L t) as [r'|]; [|discriminate]. rewrite (IH _ eq_refl). exact H.
  - destruct k as [|p]; [discriminate|].
    destruct (nth_error L (N.to_nat (N.pred (N.pos p)))) as [l|] eqn:E; [|discriminate].
    destruct (classify L t) as [r'|]; [|discriminate].
    rewrite nth_error_app1 by (apply nth_error_Some; congruence).
    rewrite E, (IH _ eq_refl). exact H.
Qed.

Lemma classify_chars L cs : classify L (map Ch cs) = Some (map kept cs).
Proof. induction cs as [|c t IH]; simpl; [reflexivity | rewrite IH; reflexivity]. Qed.

Definition invc (s : state) (pre : list (ch * bool)) : Prop :=
  classify (rev (s_lits s)) (rev (s_out s)) = Some pre /\ s_cnt s = N.of_nat (length (s_lits s)).

Lemma invc_emit cs s pre : invc s pre -> invc (emit cs s) (pre ++ map kept cs).
Proof.
  intros [H C]. split; [|exact C]. unfold emit; simpl.
  rewrite rev_append_rev, rev_app_distr, rev_involutive, classify_app, H, classify_chars. reflexivity.
Qed.

Lemma invc_label lit s pre : invc s pre -> invc (emit_label lit s) (pre ++ map body lit).
Proof.
  intros [H C]. split.
  - unfold emit_label; simpl. rewrite classify_app, (classify_ext _ lit _ _ H). simpl.
    rewrite C. destruct (N.succ (N.of_nat (length (s_lits s)))) eqn:E; [lia|]. rewrite <- E.
    replace (N.to_nat (N.pred (N.succ (N.of_nat (length (s_lits s)))))) with (length (rev (s_lits s)))
      by (rewrite rev_length; lia).
    rewrite nth_error_app2 by lia. rewrite Nat.sub_diag. simpl. rewrite app_nil_r. reflexivity.
  - unfold emit_label; simpl. rewrite C. lia.
Qed.

Lemma invc_label_ne lit s pre : invc s pre -> invc (emit_label_ne lit s) (pre ++ map body lit).
Proof.
  intros H. destruct lit as [|c t]; simpl.
  - rewrite app_nil_r. exact H.
  - apply (invc_label (c :: t)). exact H.
Qed.

Definition yields (r : result) (cl : list (ch * bool)) : Prop :=
  exists items lits, r = Done items lits /\ classify lits items = Some cl.

Lemma invc_finish s pre : invc s pre -> yields (finish s) pre.
Proof. intros [H _]. eexists _, _. split; [reflexivity | exact H]. Qed.

Lemma subst_classify L items : subst L items = option_map (map fst) (classify L items).
Proof.
  induction items as [|i t IH]; simpl; [reflexivity|]. destruct i as [c|k].
  - rewrite IH. destruct (classify L t); reflexivity.
  - destruct k as [|p]; [reflexivity|]. rewrite IH.
    destruct (nth_error L (N.to_nat (N.pred (N.pos p)))); [|reflexivity].
    destruct (classify L t); simpl; [|reflexivity].
    rewrite map_app, map_map. simpl. rewrite map_id. reflexivity.
Qed.

Lemma fst_kept cs : map fst (map kept cs) = cs.
Proof. rewrite map_map. apply map_id. Qed.
Lemma fst_body cs : map fst (map body cs) = cs.
Proof. rewrite map_map. apply map_id. Qed.

Lemma subst_app L a b : subst L (a ++ b) =
  match subst L a, subst L b with Some x, Some y => Some (x ++ y) | _, _ => None end.
Proof.
  rewrite !subst_classify, classify_app.
  destruct (classify L a), (classify L b); simpl; try reflexivity. rewrite map_app. reflexivity.
Qed.

Lemma subst_chars L cs : subst L (map Ch cs) = Some cs.
Proof. rewrite subst_classify, classify_chars. simpl. rewrite fst_kept. reflexivity. Qed.

Definition inv (s : state) (pre : list ch) : Prop := exists cl, invc s cl /\ map fst cl = pre.

Lemma inv_emit cs s pre : inv s pre -> inv (emit cs s) (pre ++ cs).
Proof.
  intros (cl & H & <-). exists (cl ++ map kept cs). split; [apply invc_emit; exact H|].
  rewrite map_app, fst_kept. reflexivity.
Qed.

Lemma inv_label lit s pre : inv s pre -> inv (emit_label lit s) (pre ++ lit).
Proof.
  intros (cl & H & <-). exists (cl ++ map body lit). split; [apply invc_label; exact H|].
  rewrite map_app, fst_body. reflexivity.
Qed.

Lemma inv_label_ne lit s pre : inv s pre -> inv (emit_label_ne lit s) (pre ++ lit).
Proof.
  intros (cl & H & <-). exists (cl ++ map body lit). split; [apply invc_label_ne; exact H|].
  rewrite map_app, fst_body. reflexivity.
Qed.

Definition lossless (r : result) (text : list ch) : Prop :=
  exists items lits, r = Done items lits /\ subst lits items = Some text.

Lemma inv_finish s pre : inv s pre -> lossless (finish s) pre.
Proof.
  intros (cl & H & <-). destruct (invc_finish _ _ H) as (items & lits & E & C).
  exists items, lits. split; [exact E|]. rewrite subst_classify, C. reflexivity.
Qed.

Lemma all_eq_snoc (c : ch) l : l <> [] -> Forall (fun x => x = c) l -> l = removelast l ++ [c].
Proof.
  intros NE ALL. induction ALL as [|x t -> _ IH]; [congruence|].
  destruct t as [|y t]; [reflexivity|]. cbn [removelast app]. f_equal. apply IH. discriminate.
Qed.

Definition pend (m : mode) : list ch :=
  match m with MCode _ => [] | MStr _ _ _ _ rp => rev rp end.

Definition pendc (m : mode) : list (ch * bool) := map body (pend m).

(* two texts put together from the same emitted, pending and remaining parts: both sides in right-nested form *)
Ltac lnorm := unfold pendc;
  repeat (rewrite ?rev_append_rev, ?rev_app_distr, ?rev_involutive, ?app_nil_r, ?map_app, <- ?app_assoc;
          cbn [app map rev pend]).

Lemma find_shorter r fixp l sk tok rest : find r fixp l = Some (sk, tok, rest) -> length rest < length l.
Proof.
  intros F. destruct (find_spec _ _ _ _ _ _ F) as (E & _ & NE).
  rewrite E, !app_length. destruct (tok_text tok); [congruence | simpl; lia].
Qed.

(* One iteration of a frame's loop.  [IH]: the statement for the remaining fuel. *)
Section RunStep.
  Variables (fuel : nat) (fixp fixe : bool).
  Hypothesis IH : forall m rest s pre, length rest < fuel -> inv s pre ->
    lossless (run fuel fixp fixe m rest s) (pre ++ pend m ++ rest).

  Lemma rest_lossless m rest s pre text : length rest < fuel -> inv s pre -> pre ++ pend m ++ rest = text ->
    lossless (run fuel fixp fixe m rest s) text.
  Proof. intros L I <-. apply IH; assumption. Qed.

  Lemma run_ok_code c rest s pre : length rest < S fuel -> inv s pre ->
    lossless (run (S fuel) fixp fixe (MCode c) rest s) (pre ++ rest).
  Proof.
    intros Hlen Hinv. cbn [run].
    destruct (find RxCode fixp rest) as [[[sk tok] rest']|] eqn:F.
    2:{ apply inv_finish, inv_emit, Hinv. }
    assert (L : length rest' < fuel) by (pose proof (find_shorter _ _ _ _ _ _ F); lia).
    destruct (find_spec _ _ _ _ _ _ F) as (-> & OK & _). clear Hlen F.
    destruct tok as [ | b | b brun | bs e | qpre qc qrun]; cbn [tok_ok tok_text] in *.
    - (* comment *)
      destruct (span_nl rest') as [body after] eqn:SN. rewrite (span_nl_spec _ _ _ SN), app_length in *.
      assert (I2 : inv (emit_label body (emit (sk ++ [c_hash]) s)) ((pre ++ sk ++ [c_hash]) ++ body))
        by (apply inv_label, inv_emit; exact Hinv).
      destruct after as [|a after'].
      + replace (pre ++ sk ++ [c_hash] ++ body ++ []) with ((pre ++ sk ++ [c_hash]) ++ body) by (lnorm; reflexivity).
        apply inv_finish, I2.
      + eapply (rest_lossless (MCode c)); [lia | exact I2 | lnorm; reflexivity].
    - (* brace: every continuation is a frame with nothing pending *)
      assert (FIN : forall m', pend m' = [] ->
                lossless (run fuel fixp fixe m' rest' (emit (sk ++ [b]) s)) (pre ++ sk ++ [b] ++ rest')).
      { intros m' Hm. eapply (rest_lossless m'); [exact L | apply inv_emit; exact Hinv | ].
        rewrite Hm. lnorm. reflexivity. }
      destruct c as [|q triple p|p]; [|destruct (N.eqb b c_rb)..]; apply FIN; reflexivity.
    - destruct OK as (O1 & _). discriminate.
    - destruct OK as (O1 & _). congruence.
    - (* quote run *)
      match goal with |- context [if ?b then _ else _] => destruct b end.
      + eapply (rest_lossless (MCode c)); [exact L | apply inv_emit; exact Hinv | lnorm; reflexivity].
      + cbv zeta. eapply rest_lossless; [exact L | apply inv_emit; exact Hinv | ].
        lnorm. rewrite (app_assoc (firstn _ qrun)), firstn_skipn. reflexivity.
  Qed.

  Lemma run_ok_str q triple isf p rpend rest s pre : length rest < S fuel -> inv s pre ->
    lossless (run (S fuel) fixp fixe (MStr q triple isf p rpend) rest s) (pre ++ rev rpend ++ rest).
  Proof.
    intros Hlen Hinv. cbn [run].
    set (r := if isf then RxFStr else RxStr) in *.
    destruct (find r false rest) as [[[sk tok] rest']|] eqn:F.
    2:{ rewrite <- rev_append_rev. apply inv_finish, inv_label, Hinv. }
    assert (L : length rest' < fuel) by (pose proof (find_shorter _ _ _ _ _ _ F); lia).
    destruct (find_spec _ _ _ _ _ _ F) as (-> & OK & _). clear F.
    (* the literal goes on with more pending text *)
    assert (MORE : forall x rest2, length rest2 < fuel -> x ++ rest2 = sk ++ tok_text tok ++ rest' ->
              lossless (run fuel fixp fixe (MStr q triple isf p (rev_append x rpend)) rest2 s)
                       (pre ++ rev rpend ++ sk ++ tok_text tok ++ rest')).
    { intros x rest2 L2 E. eapply (rest_lossless (MStr q triple isf p _)); [exact L2 | exact Hinv |].
      rewrite <- E. lnorm. reflexivity. }
    destruct tok as [ | b | b brun | bs e | qpre qc qrun]; cbn [tok_ok tok_text] in *.
    - subst r; destruct isf; discriminate.
    - subst r; destruct isf; discriminate.
    - (* braces *)
      destruct OK as (O1 & O2 & O3). destruct isf; [|subst r; discriminate]. cbn [negb].
      destruct (Nat.even (length brun) || negb (N.eqb b c_lb)) eqn:C.
      + apply MORE; [exact L | lnorm; reflexivity].
      + apply orb_false_elim in C. destruct C as [_ C]. apply negb_false_iff, N.eqb_eq in C. subst b.
        eapply (rest_lossless (MCode (CFromStr q triple p))); [exact L | apply inv_emit, inv_label_ne; exact Hinv |].
        rewrite (all_eq_snoc _ _ O2 O3) at 2. lnorm. reflexivity.
    - (* escape *)
      destruct OK as (_ & O2).
      destruct (Nat.even (length bs) && N.eqb e q).
      + apply MORE; [|lnorm; reflexivity].
        rewrite !app_length in Hlen. destruct bs; [congruence | simpl in *; lia].
      + apply MORE; [exact L | lnorm; reflexivity].
    - (* quote run *)
      destruct OK as (O1 & _).
      destruct (N.eqb qc q && Nat.leb (qlen triple) (length qrun)).
      + eapply (rest_lossless (MCode p)); [ | apply inv_emit, inv_label_ne; exact Hinv | ].
        * rewrite !app_length in Hlen. rewrite app_length, skipn_length. destruct qrun; [congruence|].
          simpl length in *. destruct triple; simpl qlen; lia.
        * lnorm. rewrite (app_assoc (firstn (qlen triple) qrun)), firstn_skipn. reflexivity.
      + apply MORE; [exact L | lnorm; reflexivity].
  Qed.
End RunStep.

(* fuel beyond the length of the remaining text suffices: every token found is non-empty *)
Lemma run_ok : forall fuel fixp fixe m rest s pre,
  length rest < fuel -> inv s pre -> lossless (run fuel fixp fixe m rest s) (pre ++ pend m ++ rest).
Proof.
  induction fuel as [|fuel IH]; intros fixp fixe m rest s pre Hlen Hinv; [lia|].
  destruct m; [apply run_ok_code | apply run_ok_str]; try assumption; intros; apply IH; assumption.
Qed.

(* termination (fuel S(length code) suffices, never Stuck) + losslessness on items *)
Theorem strip_total_lossless fixp fixe code :
  exists items lits, strip fixp fixe code = Done items lits /\ subst lits items = Some code.
Proof.
  apply (run_ok (S (length code)) fixp fixe (MCode CTop) code init_state []); [lia|].
  exists []. split; [split|]; reflexivity.
Qed.

Corollary strip_lossless fixp fixe code items lits :
  strip fixp fixe code = Done items lits -> subst lits items = Some code.
Proof.
  intros H. destruct (strip_total_lossless fixp fixe code) as (i & l & E & S). congruence.
Qed.

Lemma is_quote_cases c : is_quote c = true -> c = c_sq \/ c = c_dq.
Proof.
  unfold is_quote. destruct (N.eqb_spec c c_sq); [left; assumption|].
  destruct (N.eqb_spec c c_dq); [right; assumption | discriminate].
Qed.

Lemma run_skip_code fuel fixp fixe ctx c t s :
  try_at RxCode fixp (c :: t) = None ->
  run (S fuel) fixp fixe (MCode ctx) (c :: t) s = run (S fuel) fixp fixe (MCode ctx) t (emit [c] s).
Proof.
  intros T. cbn [run find]. rewrite T.
  destruct (find RxCode fixp t) as [[[sk tok] rest']|]; [|reflexivity].
  destruct tok; reflexivity.
Qed.

Lemma run_skip_str fuel fixp fixe q tr p rp c t s :
  is_quote c = false ->
  (N.eqb c c_bs = false \/ match_escape (c :: t) = None) ->
  run (S fuel) fixp fixe (MStr q tr false p rp) (c :: t) s = run (S fuel) fixp fixe (MStr q tr false p (c :: rp)) t s.
Proof.
  intros Q B. cbn [run find].
  assert (TA : try_at RxStr false (c :: t) = match_quote false (c :: t) \/ try_at RxStr false (c :: t) = None).
  { unfold try_at. destruct (N.eqb c c_bs) eqn:E; [|left; reflexivity].
    destruct B as [B|B]; [discriminate | right; exact B]. }
  assert (SKIP : try_at RxStr false (c :: t) = None ->
     run (S fuel) fixp fixe (MStr q tr false p rp) (c :: t) s = run (S fuel) fixp fixe (MStr q tr false p (c :: rp)) t s).
  { intros T. cbn [run find]. rewrite T.
    destruct (find RxStr false t) as [[[sk tok] rest']|]; [|reflexivity].
    destruct tok; try reflexivity;
      match goal with |- context [if ?b then _ else _] => destruct b; reflexivity end. }
  destruct TA as [TA|TA]; [|exact (SKIP TA)].
  destruct (match_quote false (c :: t)) as [[tok rest']|] eqn:MQ; [|exact (SKIP TA)].
  (* c = f followed by a quote run *)
  rewrite TA. unfold match_quote in MQ. rewrite Q in MQ.
  destruct (is_f false c); [|discriminate].
  destruct t as [|qc t']; [discriminate|].
  destruct (is_quote qc) eqn:Q2; [|discriminate].
  destruct (span_eq qc (qc :: t')) as [qrun r] eqn:SP. inversion MQ; subst tok rest'. clear MQ.
  assert (T2 : try_at RxStr false (qc :: t') = Some (TQuote [] qc qrun, r)).
  { unfold try_at. destruct (is_quote_cases _ Q2) as [-> | ->]; simpl N.eqb; cbv iota;
      unfold match_quote; simpl is_quote; cbv iota; rewrite SP; reflexivity. }
  cbn [find]. rewrite T2. cbn [app].
  destruct (N.eqb qc q && Nat.leb (qlen tr) (length qrun)); reflexivity.
Qed.

Lemma forall_repeat (c : ch) l : Forall (fun x => x = c) l -> l = repeat c (length l).
Proof. induction 1 as [|x l H _ IH]; simpl; [reflexivity | rewrite H, <- IH; reflexivity]. Qed.

Lemma omap_app {A} (a b : list A) (o : option (list A)) :
  option_map (app a) (option_map (app b) o) = option_map (app (a ++ b)) o.
Proof. destruct o; simpl; [rewrite app_assoc|]; reflexivity. Qed.

Lemma omap_cons {A} (a : A) (o : option (list A)) : option_map (cons a) o = option_map (app [a]) o.
Proof. destruct o; reflexivity. Qed.

Lemma omap_nil {A} (o : option (list A)) : option_map (app []) o = o.
Proof. destruct o; reflexivity. Qed.

Lemma ref_comment t : forall b after, span_nl t = (b, after) ->
  refc RComment t = option_map (app (map body b)) (refc (RCode 0) after).
Proof.
  induction t as [|x t IH]; intros b after H; simpl in H.
  - inversion H; subst. reflexivity.
  - destruct (N.eqb_spec x c_nl) as [->|NE].
    + inversion H; subst. cbn. destruct (refc (RCode 0) t); reflexivity.
    + destruct (span_nl t) as [b' a'] eqn:S. inversion H; subst.
      cbn [refc]. destruct (N.eqb_spec x c_nl) as [|_]; [contradiction|].
      rewrite (IH _ _ eq_refl). rewrite omap_cons, omap_app. reflexivity.
Qed.

Lemma ref_bs_run q tr bs : forall e l, Forall (fun x => x = c_bs) bs ->
  refc (RStr q tr e) (bs ++ l) =
  option_map (app (map body bs)) (refc (RStr q tr (xorb e (Nat.odd (length bs)))) l).
Proof.
  induction bs as [|x bs IH]; intros e l H.
  - simpl. rewrite xorb_false_r, omap_nil. reflexivity.
  - inversion H as [|? ? Hx Hr]; subst. cbn [app refc length].
    rewrite Nat.odd_succ, <- Nat.negb_odd.
    destruct e.
    + rewrite (IH false l Hr). rewrite omap_cons, omap_app.
      destruct (Nat.odd (length bs)); reflexivity.
    + rewrite N.eqb_refl. rewrite (IH true l Hr). rewrite omap_cons, omap_app.
      destruct (Nat.odd (length bs)); reflexivity.
Qed.

Lemma ref_run_other q tr c n l : N.eqb c q = false -> N.eqb c c_bs = false ->
  refc (RStr q tr false) (repeat c n ++ l) =
  option_map (app (map body (repeat c n))) (refc (RStr q tr false) l).
Proof.
  intros Hq Hb. induction n as [|n IH]; simpl.
  - rewrite omap_nil. reflexivity.
  - rewrite Hb, Hq, IH, omap_cons, omap_app. reflexivity.
Qed.

Definition starts2 (c : ch) (t : list ch) : bool :=
  match t with c2 :: c3 :: _ => N.eqb c2 c && N.eqb c3 c | _ => false end.

Lemma quote_not_special c : is_quote c = true -> N.eqb c c_hash = false /\ N.eqb c c_bs = false.
Proof. intros Q. destruct (is_quote_cases _ Q) as [-> | ->]; split; reflexivity. Qed.

Lemma refc_code_quote c t : is_quote c = true ->
  refc (RCode 0) (c :: t) =
  if starts2 c t then option_map (app [kept c; kept c; kept c]) (refc (RStr c true false) (skipn 2 t))
  else option_map (cons (kept c)) (refc (RStr c false false) t).
Proof.
  intros Q. destruct (quote_not_special _ Q) as [H1 _]. cbn [refc]. rewrite H1, Q. cbn [Nat.eqb negb].
  destruct t as [|c2 [|c3 t3]]; try reflexivity. cbn [starts2 skipn].
  destruct (N.eqb_spec c2 c) as [->|]; [|reflexivity].
  destruct (N.eqb_spec c3 c) as [->|]; [|reflexivity].
  cbn [andb]. destruct (refc (RStr c true false) t3); reflexivity.
Qed.

Lemma refc_str_close3 q t : is_quote q = true ->
  refc (RStr q true false) (q :: t) =
  if starts2 q t then option_map (app [kept q; kept q; kept q]) (refc (RCode 0) (skipn 2 t))
  else option_map (cons (body q)) (refc (RStr q true false) t).
Proof.
  intros Q. destruct (quote_not_special _ Q) as [_ H2]. cbn [refc]. rewrite H2, N.eqb_refl.
  destruct t as [|c2 [|c3 t3]]; try reflexivity. cbn [starts2 skipn].
  destruct (N.eqb_spec c2 q) as [->|]; [|reflexivity].
  destruct (N.eqb_spec c3 q) as [->|]; [|reflexivity].
  cbn [andb]. destruct (refc (RCode 0) t3); reflexivity.
Qed.

Lemma refc_str_close1 q t : is_quote q = true ->
  refc (RStr q false false) (q :: t) = option_map (cons (kept q)) (refc (RCode 0) t).
Proof.
  intros Q. destruct (quote_not_special _ Q) as [_ H2]. cbn [refc]. rewrite H2, N.eqb_refl. reflexivity.
Qed.

Lemma s2_headne c r : headne c r -> starts2 c r = false.
Proof.
  destruct r as [|x [|y r']]; simpl; try reflexivity. intros H.
  apply N.eqb_neq in H. rewrite H. reflexivity.
Qed.

Lemma s2_one c r : headne c r -> starts2 c (c :: r) = false.
Proof.
  destruct r as [|x r']; simpl; [reflexivity|]. intros H. apply N.eqb_neq in H. rewrite H, andb_false_r. reflexivity.
Qed.

Lemma s2_two c l : starts2 c (c :: c :: l) = true.
Proof. simpl. rewrite N.eqb_refl. reflexivity. Qed.

Lemma skipn_app_2 {A} (a b : list A) k : skipn (length a + k) (a ++ b) = skipn k b.
Proof. induction a as [|x a IH]; [reflexivity | exact IH]. Qed.

(* a maximal run of quotes in code, in the terms of parse_code (j = len(quote) % 6): with j = 0 or 2 the run
   consists of empty literals; otherwise its last j quotes open a literal, and those of them beyond the opening
   one / three quotes are the first body characters *)
Definition quote_run_ref (c : ch) (r qrun : list ch) (j : nat) : option (list (ch * bool)) :=
  if Nat.eqb j 0 || Nat.eqb j 2 then option_map (app (map kept qrun)) (refc (RCode 0) r)
  else let keep := length qrun - (j - (if Nat.eqb j 1 then 1 else 3)) in
       option_map (app (map kept (firstn keep qrun) ++ map body (skipn keep qrun)))
                  (refc (RStr c (negb (Nat.eqb j 1)) false) r).

Lemma ref_quote_run c r : is_quote c = true -> headne c r -> forall qrun, Forall (fun x => x = c) qrun ->
  refc (RCode 0) (qrun ++ r) = quote_run_ref c r qrun (length qrun mod 6).
Proof.
  intros Q H.
  (* six quotes are an empty triple-quoted literal *)
  assert (SIX : forall l, refc (RCode 0) (repeat c 6 ++ l) = option_map (app (map kept (repeat c 6))) (refc (RCode 0) l)).
  { intros l. cbn [repeat app]. rewrite (refc_code_quote _ _ Q), s2_two. cbn [skipn].
    rewrite (refc_str_close3 _ _ Q), s2_two, omap_app. reflexivity. }
  assert (KJ : forall k j, j < 6 ->
            refc (RCode 0) (repeat c (6 * k + j) ++ r) = quote_run_ref c r (repeat c (6 * k + j)) j).
  { induction k as [|k IHk]; intros j Hj.
    - rewrite Nat.mul_0_r, Nat.add_0_l. unfold quote_run_ref. rewrite repeat_length.
      destruct j as [|[|[|[|[|[|j]]]]]]; [..|lia]; cbn [Nat.eqb orb negb Nat.sub repeat firstn skipn map app].
      + symmetry. apply omap_nil.
      + rewrite (refc_code_quote _ _ Q), (s2_headne _ _ H), omap_cons. reflexivity.
      + rewrite (refc_code_quote _ _ Q), (s2_one _ _ H), (refc_str_close1 _ _ Q), !omap_cons, omap_app. reflexivity.
      + rewrite (refc_code_quote _ _ Q), s2_two. reflexivity.
      + rewrite (refc_code_quote _ _ Q), s2_two. cbn [skipn].
        rewrite (refc_str_close3 _ _ Q), (s2_headne _ _ H), omap_cons, omap_app. reflexivity.
      + rewrite (refc_code_quote _ _ Q), s2_two. cbn [skipn].
        rewrite (refc_str_close3 _ _ Q), (s2_one _ _ H), (refc_str_close3 _ _ Q), (s2_headne _ _ H),
          !omap_cons, !omap_app. reflexivity.
    - replace (6 * S k + j) with (6 + (6 * k + j)) by lia.
      rewrite repeat_app, <- app_assoc, SIX, (IHk j Hj). unfold quote_run_ref.
      rewrite app_length, !repeat_length.
      destruct (Nat.eqb j 0 || Nat.eqb j 2).
      + rewrite omap_app, map_app. reflexivity.
      + assert (E : 6 + (6 * k + j) - (j - (if Nat.eqb j 1 then 1 else 3))
                    = length (repeat c 6) + (6 * k + j - (j - (if Nat.eqb j 1 then 1 else 3))))
          by (rewrite repeat_length; destruct (Nat.eqb j 1); lia).
        rewrite E, firstn_app_2, skipn_app_2, omap_app, map_app, <- app_assoc. reflexivity. }
  intros qrun ALL. rewrite (forall_repeat _ _ ALL), repeat_length.
  pose proof (KJ (length qrun / 6) (length qrun mod 6) (Nat.mod_upper_bound _ 6 ltac:(lia))) as A.
  rewrite <- Nat.div_mod in A by lia. exact A.
Qed.

Lemma ref_quote_run_str q tr c r : is_quote q = true -> is_quote c = true -> headne c r ->
  forall qrun, Forall (fun x => x = c) qrun -> qrun <> [] ->
  refc (RStr q tr false) (qrun ++ r) =
  if N.eqb c q && Nat.leb (qlen tr) (length qrun)
  then option_map (app (map kept (firstn (qlen tr) qrun))) (refc (RCode 0) (skipn (qlen tr) qrun ++ r))
  else option_map (app (map body qrun)) (refc (RStr q tr false) r).
Proof.
  intros Q Qc H qrun ALL NE. destruct (N.eqb_spec c q) as [->|Ncq].
  - destruct ALL as [|x1 l1 -> ALL]; [congruence|].
    destruct tr; cbn [andb qlen].
    + destruct ALL as [|x2 l2 -> ALL]; [|destruct ALL as [|x3 l3 -> ALL]]; cbn [length Nat.leb app firstn skipn map].
      * rewrite (refc_str_close3 _ _ Q), (s2_headne _ _ H), omap_cons. reflexivity.
      * rewrite (refc_str_close3 _ _ Q), (s2_one _ _ H), (refc_str_close3 _ _ Q), (s2_headne _ _ H),
          !omap_cons, omap_app. reflexivity.
      * rewrite (refc_str_close3 _ _ Q), s2_two. reflexivity.
    + cbn [length Nat.leb app firstn skipn map]. rewrite (refc_str_close1 _ _ Q), omap_cons. reflexivity.
  - apply N.eqb_neq in Ncq. destruct (quote_not_special _ Qc) as [_ Hb].
    rewrite (forall_repeat _ _ ALL). apply (ref_run_other _ _ _ _ _ Ncq Hb).
Qed.

Definition esc_inv (e : bool) (l : list ch) : Prop :=
  e = true -> match snd (span_eq c_bs l) with x :: _ => is_quote x = false | [] => True end.

Inductive related (l : list ch) : mode -> rstate -> Prop :=
| RelCode pf : related l (MCode CTop) (RCode pf)
| RelStr q tr e rp : is_quote q = true -> esc_inv e l ->
    related l (MStr q tr false CTop rp) (RStr q tr e).

Lemma omap_some {A} (X : list A) o cl : option_map (app X) o = Some cl ->
  exists cl', o = Some cl' /\ cl = X ++ cl'.
Proof. destruct o as [y|]; simpl; intros H; inversion H; eauto. Qed.

Lemma brace_not_quote c : is_brace c = true -> is_quote c = false.
Proof.
  unfold is_brace. destruct (N.eqb_spec c c_lb) as [->|]; [reflexivity|].
  destruct (N.eqb_spec c c_rb) as [->|]; [reflexivity | discriminate].
Qed.

Lemma nprime n : (if Nat.ltb n 6 then n else Nat.modulo n 6) = Nat.modulo n 6.
Proof. destruct (Nat.ltb_spec n 6); [symmetry; apply Nat.mod_small; assumption | reflexivity]. Qed.

(* an f-string prefix in front of a quote: the reference tokenizer gives up *)
Lemma mq_pre_ref_none fixp pf c t tok r :
  is_quote c = false -> N.eqb c c_hash = false ->
  match_quote fixp (c :: t) = Some (tok, r) -> refc (RCode pf) (c :: t) = None.
Proof.
  intros Q Hh. unfold match_quote. rewrite Q.
  destruct (is_f fixp c) eqn:F; [|discriminate].
  assert (PF : next_pf pf c = 1).
  { unfold next_pf. unfold is_f in F. destruct (N.eqb c c_f); [reflexivity|].
    destruct fixp; [|discriminate]. simpl in F. rewrite F. reflexivity. }
  destruct t as [|q t']; [discriminate|].
  cbn [refc]. rewrite Hh, Q, PF.
  destruct (is_quote q) eqn:Q2.
  - intros _. destruct (quote_not_special _ Q2) as [H1 _]. rewrite H1. reflexivity.
  - destruct (fixp && is_r q) eqn:R; [|discriminate].
    destruct t' as [|q2 t2]; [discriminate|]. destruct (is_quote q2) eqn:Q3; [|discriminate]. intros _.
    apply andb_prop in R. destruct R as [_ R].
    assert (Hq : N.eqb q c_hash = false /\ next_pf 1 q = 2).
    { unfold is_r in R. unfold next_pf, is_r.
      destruct (N.eqb_spec q c_r) as [->|]; [split; reflexivity|].
      destruct (N.eqb_spec q c_R) as [->|]; [split; reflexivity | discriminate]. }
    destruct Hq as [H1 H2]. destruct (quote_not_special _ Q3) as [H3 _].
    rewrite H1, H2. cbn [refc]. rewrite H3, Q3. reflexivity.
Qed.

(* One step of the simulation, by scanner state and first character.  [IH]: the simulation for texts of length
   at most n. *)
Section SimStep.
  Variables (n : nat) (fixp fixe : bool).
  Hypothesis IH : forall fuel m rest s pre rs cl,
    length rest <= n -> length rest < fuel -> invc s pre -> related rest m rs -> refc rs rest = Some cl ->
    yields (run fuel fixp fixe m rest s) (pre ++ pendc m ++ cl).

  (* the reference passes from (rs, l) over characters classified X to (rs', l'); the scanner has reached
     (m', l', s') and accounts for X as emitted or pending text *)
  Lemma advance rs l cl X rs' l' fuel' m' s' pre' done :
    refc rs l = Some cl -> refc rs l = option_map (app X) (refc rs' l') ->
    length l' <= n -> length l' < fuel' -> invc s' pre' -> related l' m' rs' ->
    pre' ++ pendc m' = done ++ X ->
    yields (run fuel' fixp fixe m' l' s') (done ++ cl).
  Proof.
    intros Href RX Hn Hf I R E. rewrite RX in Href. destruct (omap_some _ _ _ Href) as (cl' & R1 & ->).
    rewrite app_assoc, <- E, <- app_assoc. apply (IH _ _ _ _ _ rs'); assumption.
  Qed.

  Lemma sim_comment fuel (t : list ch) s pre pf cl : length t <= n -> length t < fuel -> invc s pre ->
    refc (RCode pf) (c_hash :: t) = Some cl ->
    yields (run (S fuel) fixp fixe (MCode CTop) (c_hash :: t) s) (pre ++ cl).
  Proof.
    intros Hn Hf Hinv Href.
    assert (T : try_at RxCode fixp (c_hash :: t) = Some (TComment, t)) by reflexivity.
    cbn [run find]. rewrite T. cbn [app].
    destruct (span_nl t) as [b after] eqn:SN. pose proof (span_nl_spec _ _ _ SN) as E2.
    assert (RX : refc (RCode pf) (c_hash :: t) = option_map (app (kept c_hash :: map body b)) (refc (RCode 0) after)).
    { cbn [refc]. change (N.eqb c_hash c_hash) with true. cbv iota.
      rewrite (ref_comment _ _ _ SN), omap_cons, omap_app. reflexivity. }
    assert (I2 : invc (emit_label b (emit [c_hash] s)) (pre ++ kept c_hash :: map body b)).
    { change (pre ++ kept c_hash :: map body b) with (pre ++ map kept [c_hash] ++ map body b).
      rewrite app_assoc. apply invc_label, invc_emit. exact Hinv. }
    rewrite E2, app_length in Hn, Hf.
    destruct after as [|a after'].
    - rewrite RX in Href. inversion Href; subst cl. rewrite app_nil_r. apply invc_finish. exact I2.
    - eapply advance; [exact Href | exact RX | lia | lia | exact I2 | constructor | lnorm; reflexivity].
  Qed.

  Lemma sim_brace fuel (c : ch) (t : list ch) s pre pf cl : length t <= n -> length t < fuel -> invc s pre ->
    N.eqb c c_hash = false -> is_brace c = true ->
    refc (RCode pf) (c :: t) = Some cl ->
    yields (run (S fuel) fixp fixe (MCode CTop) (c :: t) s) (pre ++ cl).
  Proof.
    intros Hn Hf Hinv Hh B Href.
    assert (T : try_at RxCode fixp (c :: t) = Some (TBrace c, t)) by (unfold try_at; rewrite Hh, B; reflexivity).
    cbn [run find]. rewrite T. cbn [app].
    eapply advance with (rs' := RCode (next_pf pf c)) (X := [kept c]);
      [exact Href | | exact Hn | exact Hf | apply invc_emit; exact Hinv | constructor | lnorm; reflexivity].
    cbn [refc]. rewrite Hh, (brace_not_quote _ B). apply omap_cons.
  Qed.

  Lemma sim_quotes fuel (c : ch) (t : list ch) s pre cl : length t <= n -> length t < fuel -> invc s pre ->
    N.eqb c c_hash = false -> is_brace c = false -> is_quote c = true ->
    refc (RCode 0) (c :: t) = Some cl ->
    yields (run (S fuel) fixp fixe (MCode CTop) (c :: t) s) (pre ++ cl).
  Proof.
    intros Hn Hf Hinv Hh B Q Href.
    destruct (span_eq_run c t) as (qrun & r & SP & E & ALL & HNE & NQ & LR).
    assert (T : try_at RxCode fixp (c :: t) = Some (TQuote [] c qrun, r)).
    { unfold try_at. rewrite Hh, B. unfold match_quote. rewrite Q, SP. reflexivity. }
    cbn [run find]. rewrite T. cbn [app]. rewrite nprime.
    pose proof (ref_quote_run c r Q HNE qrun ALL) as RX. rewrite <- E in RX. unfold quote_run_ref in RX.
    destruct (Nat.eqb (length qrun mod 6) 0 || Nat.eqb (length qrun mod 6) 2).
    - eapply advance; [exact Href | exact RX | lia | lia | apply invc_emit; exact Hinv | constructor | lnorm; reflexivity].
    - cbn [nonempty andb]. cbv zeta in RX |- *.
      eapply advance;
        [exact Href | exact RX | lia | lia | apply invc_emit; exact Hinv | constructor; [exact Q | intros; discriminate] | lnorm; reflexivity].
  Qed.

  Lemma sim_code_other fuel (c : ch) (t : list ch) s pre pf cl : length t <= n -> length t < fuel -> invc s pre ->
    N.eqb c c_hash = false -> is_brace c = false -> is_quote c = false ->
    refc (RCode pf) (c :: t) = Some cl ->
    yields (run (S fuel) fixp fixe (MCode CTop) (c :: t) s) (pre ++ cl).
  Proof.
    intros Hn Hf Hinv Hh B Q Href.
    destruct (match_quote fixp (c :: t)) as [[tok r]|] eqn:MQ.
    { rewrite (mq_pre_ref_none _ _ _ _ _ _ Q Hh MQ) in Href. discriminate. }
    assert (T : try_at RxCode fixp (c :: t) = None) by (unfold try_at; rewrite Hh, B; exact MQ).
    rewrite (run_skip_code _ _ _ _ _ _ _ T).
    eapply advance with (rs' := RCode (next_pf pf c)) (X := [kept c]);
      [exact Href | | exact Hn | lia | apply invc_emit; exact Hinv | constructor | lnorm; reflexivity].
    cbn [refc]. rewrite Hh, Q. apply omap_cons.
  Qed.

  (* inside a plain literal opened by q; rp = the pending body text, reversed *)
  Variables (q : ch) (tr : bool) (rp : list ch).
  Hypothesis Q : is_quote q = true.

  (* a character that starts no token: it joins the pending text *)
  Lemma sim_str_skip fuel (c : ch) (t : list ch) s pre e e' cl : length t <= n -> length t < S fuel -> invc s pre ->
    esc_inv e' t -> is_quote c = false -> (N.eqb c c_bs = false \/ match_escape (c :: t) = None) ->
    refc (RStr q tr e) (c :: t) = option_map (cons (body c)) (refc (RStr q tr e') t) ->
    refc (RStr q tr e) (c :: t) = Some cl ->
    yields (run (S fuel) fixp fixe (MStr q tr false CTop rp) (c :: t) s) ((pre ++ map body (rev rp)) ++ cl).
  Proof.
    intros Hn Hf Hinv I' Qc Bc RX Href. rewrite (run_skip_str _ _ _ _ _ _ _ _ _ _ Qc Bc).
    rewrite omap_cons in RX.
    eapply advance; [exact Href | exact RX | exact Hn | exact Hf | exact Hinv | constructor; assumption | lnorm; reflexivity].
  Qed.

  Lemma sim_str_backslash fuel (t : list ch) s pre e cl : length t <= n -> length t < fuel -> invc s pre ->
    esc_inv e (c_bs :: t) -> refc (RStr q tr e) (c_bs :: t) = Some cl ->
    yields (run (S fuel) fixp fixe (MStr q tr false CTop rp) (c_bs :: t) s) ((pre ++ map body (rev rp)) ++ cl).
  Proof.
    intros Hn Hf Hinv I Href.
    destruct (span_eq_run c_bs t) as (bs & r & SP & E & ALL & _ & BL & LL).
    assert (ESC : (exists x r', r = x :: r' /\ is_quote x = true) \/ match_escape (c_bs :: t) = None).
    { unfold match_escape. rewrite SP. destruct r as [|x r']; [right; reflexivity|].
      destruct (is_quote x) eqn:QX; [left; eauto | right; reflexivity]. }
    destruct ESC as [(x & r' & -> & QX) | ME].
    - (* the run is followed by a quote: an escape token *)
      assert (e = false).
      { destruct e; [|reflexivity]. specialize (I eq_refl). rewrite SP in I. simpl in I. congruence. }
      subst e.
      assert (T : try_at RxStr false (c_bs :: t) = Some (TEscape bs x, r')).
      { unfold try_at. change (N.eqb c_bs c_bs) with true. cbv iota. unfold match_escape. rewrite SP, QX. reflexivity. }
      cbn [run find]. rewrite T. cbn [app].
      pose proof (ref_bs_run q tr bs false (x :: r') ALL) as RX. rewrite <- E, xorb_false_l in RX.
      simpl in LL.
      destruct (Nat.even (length bs) && N.eqb x q) eqn:C.
      + (* unescaped closing quote: scanned again as a quote run *)
        apply andb_prop in C. destruct C as [C1 _]. rewrite <- Nat.negb_even, C1 in RX. cbn [negb] in RX.
        eapply advance;
          [exact Href | exact RX | simpl; lia | simpl; lia | exact Hinv | constructor; [exact Q | intros; discriminate] | lnorm; reflexivity].
      + assert (RX2 : refc (RStr q tr (Nat.odd (length bs))) (x :: r') =
                      option_map (app [body x]) (refc (RStr q tr false) r')).
        { rewrite <- omap_cons. destruct (quote_not_special _ QX) as [_ Xbs].
          destruct (Nat.odd (length bs)) eqn:OD; cbn [refc]; [reflexivity|].
          rewrite <- Nat.negb_odd, OD in C. cbn [negb andb] in C. rewrite Xbs, C. reflexivity. }
        rewrite RX2, omap_app in RX.
        eapply advance;
          [exact Href | exact RX | lia | lia | exact Hinv | constructor; [exact Q | intros; discriminate] | lnorm; reflexivity].
    - (* not followed by a quote: no token starts here *)
      apply (sim_str_skip fuel c_bs t s pre e (negb e) cl); try assumption; [lia | | reflexivity | right; exact ME |].
      + intros _. destruct (span_eq c_bs t) as [bs' r2] eqn:SP2.
        assert (Z : span_eq c_bs (c_bs :: t) = (c_bs :: bs', r2)).
        { cbn [span_eq]. change (N.eqb c_bs c_bs) with true. cbv iota. rewrite SP2. reflexivity. }
        unfold match_escape in ME. rewrite Z in ME. cbn [snd].
        destruct r2 as [|x r']; [exact Logic.I|]. destruct (is_quote x); [discriminate | reflexivity].
      + cbn [refc]. destruct e; [reflexivity|]. change (N.eqb c_bs c_bs) with true. reflexivity.
  Qed.

  Lemma sim_str_quotes fuel (c : ch) (t : list ch) s pre e cl : length t <= n -> length t < fuel -> invc s pre ->
    esc_inv e (c :: t) -> N.eqb c c_bs = false -> is_quote c = true ->
    refc (RStr q tr e) (c :: t) = Some cl ->
    yields (run (S fuel) fixp fixe (MStr q tr false CTop rp) (c :: t) s) ((pre ++ map body (rev rp)) ++ cl).
  Proof.
    intros Hn Hf Hinv I Hb Qc Href.
    assert (e = false).
    { destruct e; [|reflexivity]. specialize (I eq_refl). simpl in I. rewrite Hb in I. simpl in I. congruence. }
    subst e.
    destruct (span_eq_run c t) as (qrun & r & SP & E & ALL & HNE & NQ & LR).
    assert (T : try_at RxStr false (c :: t) = Some (TQuote [] c qrun, r)).
    { unfold try_at. rewrite Hb. unfold match_quote. rewrite Qc, SP. reflexivity. }
    cbn [run find]. rewrite T. cbn [app].
    assert (NE : qrun <> []) by (intros ->; simpl in NQ; lia).
    pose proof (ref_quote_run_str q tr c r Q Qc HNE qrun ALL NE) as RX. rewrite <- E in RX.
    destruct (N.eqb c q && Nat.leb (qlen tr) (length qrun)) eqn:C.
    - apply andb_prop in C. destruct C as [_ C]. apply Nat.leb_le in C.
      assert (1 <= qlen tr) by (destruct tr; simpl; lia).
      eapply advance;
        [exact Href | exact RX |  rewrite app_length, skipn_length; lia | rewrite app_length, skipn_length; lia
        | apply invc_emit, invc_label_ne; exact Hinv | constructor | lnorm; reflexivity].
    - eapply advance;
        [exact Href | exact RX | lia | lia | exact Hinv | constructor; [exact Q | intros; discriminate] | lnorm; reflexivity].
  Qed.

  Lemma sim_str_other fuel (c : ch) (t : list ch) s pre e cl : length t <= n -> length t < fuel -> invc s pre ->
    N.eqb c c_bs = false -> is_quote c = false ->
    refc (RStr q tr e) (c :: t) = Some cl ->
    yields (run (S fuel) fixp fixe (MStr q tr false CTop rp) (c :: t) s) ((pre ++ map body (rev rp)) ++ cl).
  Proof.
    intros Hn Hf Hinv Hb Qc Href.
    apply (sim_str_skip fuel c t s pre e false cl); try assumption;
      [lia | intros; discriminate | left; exact Hb |].
    cbn [refc]. destruct e; [reflexivity|]. rewrite Hb.
    assert (NQ : N.eqb c q = false) by (apply N.eqb_neq; intros ->; congruence).
    rewrite NQ. reflexivity.
  Qed.
End SimStep.

Lemma sim_empty fuel fixp fixe m s pre rs cl : invc s pre -> related [] m rs -> refc rs [] = Some cl ->
  yields (run (S fuel) fixp fixe m [] s) (pre ++ pendc m ++ cl).
Proof.
  intros Hinv Hrel Href. assert (cl = []) by (destruct rs; inversion Href; reflexivity). subst cl.
  destruct Hrel as [pf | q tr e rp Q I]; cbn [run find]; apply invc_finish.
  - exact (invc_emit [] _ _ Hinv).
  - lnorm. rewrite <- (app_nil_r (rev rp)), <- rev_append_rev. apply invc_label. exact Hinv.
Qed.

Lemma sim : forall n fuel fixp fixe m rest s pre rs cl,
  length rest <= n -> length rest < fuel -> invc s pre -> related rest m rs ->
  refc rs rest = Some cl ->
  exists items lits, run fuel fixp fixe m rest s = Done items lits
                     /\ classify lits items = Some (pre ++ pendc m ++ cl).
Proof.
  induction n as [|n IH]; intros fuel fixp fixe m rest s pre rs cl Hn Hf Hinv Hrel Href;
    (destruct fuel as [|fuel]; [lia|]);
    (destruct rest as [|c t]; [eapply sim_empty; eassumption|]); [simpl in Hn; lia|].
  simpl in Hn, Hf. apply le_S_n in Hn. apply Nat.succ_lt_mono in Hf.
  pose proof (fun fuel => IH fuel fixp fixe) as IH'.
  destruct Hrel as [pf | q tr e rp Q I].
  - (* code *)
    destruct (N.eqb c c_hash) eqn:Hh.
    { apply N.eqb_eq in Hh. subst c. eapply sim_comment; eassumption. }
    destruct (is_brace c) eqn:B; [eapply sim_brace; eassumption|].
    destruct (is_quote c) eqn:Qc; [|eapply sim_code_other; eassumption].
    assert (pf = 0); [|subst pf; eapply sim_quotes; eassumption].
    destruct pf; [reflexivity|]. cbn [refc] in Href. rewrite Hh, Qc in Href. discriminate.
  - (* plain literal *)
    rewrite app_assoc.
    destruct (N.eqb c c_bs) eqn:Hb.
    { apply N.eqb_eq in Hb. subst c. eapply sim_str_backslash; eassumption. }
    destruct (is_quote c) eqn:Qc; [eapply sim_str_quotes | eapply sim_str_other]; eassumption.
Qed.

(* completeness on the fragment without f-string prefixes: the characters kept in the stripped
   text / moved into literals are exactly the code / body characters of the reference tokenizer *)
Theorem strip_complete_plain fixp fixe code cl :
  ref_classify code = Some cl ->
  exists items lits, strip fixp fixe code = Done items lits /\ classify lits items = Some cl.
Proof.
  intros H.
  apply (sim (length code) (S (length code)) fixp fixe (MCode CTop) code init_state [] (RCode 0) cl);
    [lia | lia | split; reflexivity | constructor | exact H].
Qed.

Corollary ref_classify_is_partition code cl : ref_classify code = Some cl -> map fst cl = code.
Proof.
  intros H. destruct (strip_complete_plain false false code cl H) as (items & lits & E & C).
  pose proof (strip_lossless _ _ _ _ _ E) as L. rewrite subst_classify, C in L. simpl in L. congruence.
Qed.

Lemma strip_prefix_app p : forall r, strip_prefix p (p ++ r) = Some r.
Proof. induction p as [|x p IH]; intros r; simpl; [reflexivity | rewrite N.eqb_refl; apply IH]. Qed.

Lemma strip_prefix_some p : forall l r, strip_prefix p l = Some r -> l = p ++ r.
Proof.
  induction p as [|x p IH]; intros l r H; simpl in H.
  - inversion H; reflexivity.
  - destruct l as [|y l']; [discriminate|]. destruct (N.eqb_spec x y) as [->|]; [|discriminate].
    simpl. f_equal. apply IH. exact H.
Qed.

Lemma uint_chars_digits u : Forall (fun c => is_digit c = true) (uint_chars u).
Proof. induction u; simpl; constructor; try reflexivity; assumption. Qed.

Lemma uint_chars_inj u : forall u', uint_chars u = uint_chars u' -> u = u'.
Proof.
  induction u; intros u' H; destruct u'; simpl in H; try discriminate; try reflexivity;
    inversion H; f_equal; auto.
Qed.

Lemma dec_nonnil k : dec k <> [].
Proof.
  unfold dec. destruct k as [|p]; [discriminate|]. simpl.
  pose proof (DecimalPos.Unsigned.to_uint_nonnil p) as H.
  destruct (Pos.to_uint p); [congruence | discriminate..].
Qed.

Lemma dec_inj k k' : dec k = dec k' -> k = k'.
Proof. unfold dec. intros H. apply DecimalN.Unsigned.to_uint_inj, uint_chars_inj, H. Qed.

Lemma label_inj p k k' : label p k = label p k' -> k = k'.
Proof.
  unfold label. intros H. apply app_inv_head in H. apply app_inv_tail in H. apply dec_inj, H.
Qed.

Lemma span_digits_app ds : forall x r, Forall (fun c => is_digit c = true) ds -> is_digit x = false ->
  span_digits (ds ++ x :: r) = (ds, x :: r).
Proof.
  induction ds as [|d ds IH]; intros x r H Hx; simpl.
  - rewrite Hx. reflexivity.
  - inversion H as [|? ? Hd Hr]; subst. rewrite Hd, (IH _ _ Hr Hx). reflexivity.
Qed.

Lemma match_label_at p k r : match_label p (label p k ++ r) = Some (label p k).
Proof.
  unfold match_label, label. rewrite <- !app_assoc, strip_prefix_app. simpl.
  rewrite (span_digits_app (dec k) c_us r (uint_chars_digits _) eq_refl).
  destruct (dec k) eqn:D; [exfalso; exact (dec_nonnil k D)|]. reflexivity.
Qed.

Lemma list_eqb_spec a : forall b, list_eqb a b = true <-> a = b.
Proof.
  induction a as [|x a IH]; intros [|y b]; simpl; split; intros H; try reflexivity; try discriminate.
  - apply andb_prop in H. destruct H as [H1 H2]. apply N.eqb_eq in H1. apply IH in H2. congruence.
  - inversion H; subst. rewrite N.eqb_refl. apply IH. reflexivity.
Qed.

Lemma lookup_dict p lits : forall k0 k, (k0 <= k)%N ->
  lookup (dict_from p k0 lits) (label p k) = nth_error lits (N.to_nat (k - k0)).
Proof.
  induction lits as [|l t IH]; intros k0 k H; simpl.
  - destruct (N.to_nat (k - k0)); reflexivity.
  - destruct (list_eqb (label p k0) (label p k)) eqn:E.
    + apply list_eqb_spec, label_inj in E. subst. rewrite N.sub_diag. reflexivity.
    + assert (k0 <> k) by (intros ->; rewrite (proj2 (list_eqb_spec _ _) eq_refl) in E; discriminate).
      rewrite IH by lia. replace (N.to_nat (k - k0)) with (S (N.to_nat (k - N.succ k0))) by lia. reflexivity.
Qed.

Lemma subst_text_skip p d a : forall r, subst_text p d (length a) (a ++ r) = subst_text p d 0 r.
Proof.
  induction a as [|x a IH]; intros r; simpl; [|apply IH].
  destruct r; reflexivity.
Qed.

Definition safe (p : list ch) (items : list item) : Prop :=
  forall A c t, items = A ++ Ch c :: t -> match_label p (render p (Ch c :: t)) = None.

Lemma subst_text_render p lits items : safe p items -> forall r,
  subst lits items = Some r -> subst_text p (dict p lits) 0 (render p items) = Some r.
Proof.
  induction items as [|i t IH]; intros S r H.
  - simpl in *. exact H.
  - assert (St : safe p t).
    { intros A c t' E. apply (S (i :: A) c t'). rewrite E. reflexivity. }
    destruct i as [c|k].
    + cbn [render subst] in *. destruct (subst lits t) as [r'|] eqn:E; [|discriminate].
      cbn [subst_text]. change (c :: render p t) with (render p (Ch c :: t)).
      rewrite (S [] c t eq_refl). rewrite (IH St _ eq_refl). exact H.
    + cbn [render subst] in *. destruct k as [|pk]; [discriminate|].
      destruct (nth_error lits (N.to_nat (N.pred (N.pos pk)))) as [l|] eqn:E1; [|discriminate].
      destruct (subst lits t) as [r'|] eqn:E2; [|discriminate].
      pose proof (match_label_at p (N.pos pk) (render p t)) as ML.
      destruct (label p (N.pos pk)) as [|x lab'] eqn:LB.
      { unfold label in LB. destruct p; destruct (dec (N.pos pk)); discriminate. }
      cbn [app subst_text] in *. rewrite ML.
      unfold dict. rewrite <- LB, lookup_dict by lia.
      replace (N.to_nat (N.pos pk - 1)) with (N.to_nat (N.pred (N.pos pk))) by lia. rewrite E1.
      rewrite LB. replace (length (x :: lab') - 1) with (length lab') by (simpl; lia).
      rewrite subst_text_skip. change (dict_from p 1 lits) with (dict p lits). rewrite (IH St _ eq_refl). exact H.
Qed.

Definition borderless (p : list ch) : Prop :=
  forall a b c, p = a ++ b -> p = b ++ c -> a = [] \/ b = [].
Definition occurs (p l : list ch) : Prop := exists a b, l = a ++ p ++ b.

Lemma lead_split items : exists cs t', items = map Ch cs ++ t' /\ (t' = [] \/ exists k t'', t' = Lab k :: t'').
Proof.
  induction items as [|i t (cs & t' & E & H)].
  - exists [], []. split; [reflexivity | left; reflexivity].
  - destruct i as [c|k].
    + exists (c :: cs), t'. split; [simpl; f_equal; exact E | exact H].
    + exists [], (Lab k :: t). split; [reflexivity | right; eauto].
Qed.

Lemma render_chars p cs t : render p (map Ch cs ++ t) = cs ++ render p t.
Proof. induction cs as [|c cs IH]; simpl; [reflexivity | f_equal; exact IH]. Qed.

Lemma safe_of_lossless p lits items input :
  borderless p -> ~ occurs p input -> subst lits items = Some input -> safe p items.
Proof.
  intros BL NO H A c t E.
  destruct (match_label p (render p (Ch c :: t))) as [key|] eqn:ML; [exfalso|reflexivity].
  unfold match_label in ML.
  destruct (strip_prefix p (render p (Ch c :: t))) as [l1|] eqn:SP; [|discriminate]. clear ML.
  apply strip_prefix_some in SP.
  destruct (lead_split t) as (cs & t' & Et & Ht').
  rewrite E, subst_app in H.
  destruct (subst lits A) as [sA|]; [|discriminate].
  rewrite Et in H, SP.
  change (Ch c :: map Ch cs ++ t') with (map Ch (c :: cs) ++ t') in H, SP.
  rewrite subst_app, subst_chars in H. rewrite render_chars in SP.
  destruct (subst lits t') as [sT|]; [|discriminate]. inversion H; subst input. clear H.
  destruct (app_eq_app _ _ _ _ SP) as (l & [[E1 E2] | [E1 E2]]).
  - apply NO. exists sA, (l ++ sT). change (c :: cs ++ sT) with ((c :: cs) ++ sT).
    rewrite E1, <- !app_assoc. reflexivity.
  - destruct l as [|x l'].
    + apply NO. exists sA, sT. rewrite app_nil_r in E1. change (c :: cs ++ sT) with ((c :: cs) ++ sT).
      rewrite <- E1. reflexivity.
    + destruct Ht' as [-> | (k & t'' & ->)]; [simpl in E2; discriminate|].
      cbn [render] in E2. unfold label in E2. rewrite <- app_assoc in E2.
      destruct (app_eq_app _ _ _ _ E2) as (l2 & [[F1 F2] | [F1 F2]]).
      * (* p = cs' ++ l = l ++ l2 with cs', l non-empty: a border *)
        destruct (BL (c :: cs) (x :: l') l2 E1 F1) as [B|B]; discriminate.
      * (* x :: l' = p ++ l2 : then p is longer than itself *)
        assert (length p = length (c :: cs) + length (x :: l')) by (rewrite E1 at 1; apply app_length).
        assert (length (x :: l') = length p + length l2) by (rewrite F1 at 1; apply app_length).
        simpl in *. lia.
Qed.

(* the rendered text: re.sub(prefix + digits + '_', lookup) on the joined stripped text gives the input
   back *)
Theorem strip_text_lossless fixp fixe prefix code items lits :
  borderless prefix -> ~ occurs prefix code ->
  strip fixp fixe code = Done items lits ->
  subst_text prefix (dict prefix lits) 0 (render prefix items) = Some code.
Proof.
  intros BL NO H. pose proof (strip_lossless _ _ _ _ _ H) as L.
  apply subst_text_render; [|exact L]. exact (safe_of_lossless _ _ _ _ BL NO L).
Qed.

Definition default_prefix : list ch := [95; 95; 80; 121; 120; 95; 76]%N.   (* __Pyx_L *)

Lemma default_prefix_borderless : borderless default_prefix.
Proof.
  unfold borderless, default_prefix. intros a b c H1 H2.
  destruct a as [|a0 a]; [left; reflexivity|]. right.
  destruct b as [|b0 b]; [reflexivity|]. exfalso.
  do 7 (destruct a as [|? a]; [simpl in H1; inversion H1; subst; simpl in H2; inversion H2 |]).
  simpl in H1; inversion H1.
Qed.

(* decidable form of "the prefix occurs in the text" *)
Fixpoint occursb (p l : list ch) : bool :=
  match strip_prefix p l with
  | Some _ => true
  | None => match l with [] => false | _ :: t => occursb p t end
  end.

Lemma occurs_occursb p l : occurs p l -> occursb p l = true.
Proof.
  intros (a & b & ->). induction a as [|x a IH].
  - simpl app. destruct (p ++ b) eqn:E; simpl; rewrite <- E, strip_prefix_app; reflexivity.
  - cbn [app occursb]. destruct (strip_prefix p (x :: a ++ p ++ b)); [reflexivity | exact IH].
Qed.

Theorem strip_default_prefix_lossless fixp fixe code items lits :
  occursb default_prefix code = false ->
  strip fixp fixe code = Done items lits ->
  subst_text default_prefix (dict default_prefix lits) 0 (render default_prefix items) = Some code.
Proof.
  intros NO H. apply (strip_text_lossless fixp fixe); [exact default_prefix_borderless | | exact H].
  intros O. rewrite (occurs_occursb _ _ O) in NO. discriminate.
Qed.

(* finding F21: witnesses *)
(* F"{d["k"]}" : the k (index 6) is the body of the nested literal "k" *)
Definition w_upper_f : list ch := [70; 34; 123; 100; 91; 34; 107; 34; 93; 125; 34]%N.
(* f"""{x:#x}<newline>abc""" : a (index 11) is literal text of the f-string *)
Definition w_spec_hash : list ch :=
  [102; 34; 34; 34; 123; 120; 58; 35; 120; 125; 10; 97; 98; 99; 34; 34; 34]%N.
(* a = f"{x:'^9}"<newline>b = 'lit'<newline> : l (index 20) is the body of 'lit' *)
Definition w_spec_quote : list ch :=
  [97; 32; 61; 32; 102; 34; 123; 120; 58; 39; 94; 57; 125; 34; 10; 98; 32; 61; 32; 39; 108; 105; 116; 39; 10]%N.
(* f''''''' {}' : an empty triple-quoted f-string followed by the plain literal ' {}' ; the brace
   (index 9) is literal body, but the scanner carries the f flag over to the second literal *)
Definition w_empty_triple : list ch := [102; 39; 39; 39; 39; 39; 39; 39; 32; 123; 125; 39]%N.

Definition kept_at (fixp fixe : bool) (code : list ch) (i : nat) (c : ch) : Prop :=
  exists items lits cl, strip fixp fixe code = Done items lits /\ classify lits items = Some cl
                        /\ nth_error code i = Some c /\ nth_error cl i = Some (c, false).
Definition removed_at (fixp fixe : bool) (code : list ch) (i : nat) (c : ch) : Prop :=
  exists items lits cl, strip fixp fixe code = Done items lits /\ classify lits items = Some cl
                        /\ nth_error code i = Some c /\ nth_error cl i = Some (c, true).

(* evaluating the scanner fixes items and lits; the other three conjuncts are then closed *)
Ltac witness := eexists _, _, _; (split; [vm_compute; reflexivity|]); repeat split; reflexivity.
