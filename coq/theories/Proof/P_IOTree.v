(* P_IOTree — the heap model of StringIOTree (M_IOTree part 1) refines the list-of-holes reference (part 2)
   on every well-formed history.  A ghost forest F has one node per heap object reachable from a handle
   (the fragments of every stream kept separately): [rep] says the heap is laid out as a tree says, [gflat]
   flattens a tree to marks and fragments, [erase (gflat t)] is the reference document.  Every operation gives
   the node of a handle other kids and fragments (tset); `locate` says once what such a change does. *)
From Coq Require Import List NArith Arith Bool Lia Permutation.
From CyVerif Require Import Lib.ListFacts Model.M_IOTree.
Import ListNotations.

Lemma length_set_nth {A} (x : A) : forall l n, length (set_nth n x l) = length l.
Proof. induction l; intros [|n]; simpl; auto. Qed.

Lemma nth_set_nth_eq {A} (x : A) : forall l n, n < length l -> nth_error (set_nth n x l) n = Some x.
Proof. induction l; intros [|n] H; simpl in *; try lia; auto. apply IHl. lia. Qed.

Lemma nth_set_nth_neq {A} (x : A) : forall l n m, n <> m -> nth_error (set_nth n x l) m = nth_error l m.
Proof. induction l; intros [|n] [|m] H; simpl; auto; try congruence. Qed.

Lemma set_nth_same {A} : forall (l : list A) n x, nth_error l n = Some x -> set_nth n x l = l.
Proof. induction l; intros [|n] x H; simpl in *; try congruence. f_equal. auto. Qed.

Lemma nth_app_len {A} (l : list A) x : nth_error (l ++ [x]) (length l) = Some x.
Proof. rewrite nth_error_app2 by lia. rewrite Nat.sub_diag. reflexivity. Qed.

Lemma app_shape2 {A} (p : list A) o b x c q : p ++ o :: ((b ++ x) ++ [c]) ++ q = (p ++ o :: b) ++ x ++ c :: q.
Proof. repeat (rewrite <- app_assoc; simpl). reflexivity. Qed.

Lemma flat_map_flat_map {A B C} (f : A -> list B) (g : B -> list C) l :
  flat_map g (flat_map f l) = flat_map (fun x => flat_map g (f x)) l.
Proof. induction l; simpl; auto. rewrite flat_map_app. congruence. Qed.

Lemma flat_map_split {A B} (f : A -> list B) l b : In b (flat_map f l) -> NoDup (flat_map f l) ->
  exists l1 x l2, l = l1 ++ x :: l2 /\ In b (f x) /\ NoDup (f x) /\ ~ In b (flat_map f l1) /\ ~ In b (flat_map f l2).
Proof.
  intros Hin Hnd. apply in_flat_map in Hin. destruct Hin as (x & Hx & Hb).
  apply in_split in Hx. destruct Hx as (l1 & l2 & ->). exists l1, x, l2.
  rewrite flat_map_app in Hnd. cbn [flat_map] in Hnd.
  apply NoDup_app_inv in Hnd. destruct Hnd as (_ & Hnd & H1).
  apply NoDup_app_inv in Hnd. destruct Hnd as (Hx & _ & H2).
  repeat split; auto. intro Hi. apply (H1 b Hi). apply in_or_app. auto.
Qed.

Lemma length_flat_map_in {A B} (f : A -> list B) l x : In x l -> length (f x) <= length (flat_map f l).
Proof. induction l; simpl; intros []; subst; rewrite app_length; [|specialize (IHl H)]; lia. Qed.

Definition frag := (text * list marker)%type.

Inductive tree := Node (addr : nat) (name : option nat) (kids : list tree) (frs : list frag).

Fixpoint tree_ind' (P : tree -> Prop)
  (H : forall a n ks fs, Forall P ks -> P (Node a n ks fs)) (t : tree) : P t :=
  match t with
  | Node a n ks fs =>
      H a n ks fs ((fix go (l : list tree) : Forall P l :=
                      match l with
                      | [] => Forall_nil P
                      | k :: r => Forall_cons k (tree_ind' P H k) (go r)
                      end) ks)
  end.

Definition taddr (t : tree) : nat := match t with Node a _ _ _ => a end.
Definition tname (t : tree) : option nat := match t with Node _ n _ _ => n end.

Fixpoint taddrs (t : tree) : list nat :=
  match t with Node a _ ks _ => a :: flat_map taddrs ks end.

Inductive gitem :=
| GOpen (a : nat) (n : option nat)
| GClose (a : nat) (n : option nat)
| GTxt (f : frag).

Fixpoint gflat (t : tree) : list gitem :=
  match t with
  | Node a n ks fs => GOpen a n :: flat_map gflat ks ++ map GTxt fs ++ [GClose a n]
  end.

Definition gbody (ks : list tree) (fs : list frag) : list gitem := flat_map gflat ks ++ map GTxt fs.

Lemma gflat_node a n ks fs : gflat (Node a n ks fs) = GOpen a n :: gbody ks fs ++ [GClose a n].
Proof. unfold gbody. simpl. rewrite <- app_assoc. reflexivity. Qed.

Definition gaddr1 (i : gitem) : list nat := match i with GOpen a _ => [a] | _ => [] end.
Definition gfrag1 (i : gitem) : list frag := match i with GTxt f => [f] | _ => [] end.
Definition gaddrs (l : list gitem) : list nat := flat_map gaddr1 l.
Definition gfrags (l : list gitem) : list frag := flat_map gfrag1 l.

Definition erase1 (i : gitem) : list item :=
  match i with
  | GOpen _ (Some b) => [SOpen b]
  | GClose _ (Some b) => [SClose b]
  | GTxt (s, ms) => [STxt s ms]
  | _ => []
  end.
Definition erase (l : list gitem) : list item := flat_map erase1 l.

Lemma erase_app l1 l2 : erase (l1 ++ l2) = erase l1 ++ erase l2.
Proof. apply flat_map_app. Qed.
Lemma gaddrs_app l1 l2 : gaddrs (l1 ++ l2) = gaddrs l1 ++ gaddrs l2.
Proof. apply flat_map_app. Qed.
Lemma gfrags_app l1 l2 : gfrags (l1 ++ l2) = gfrags l1 ++ gfrags l2.
Proof. apply flat_map_app. Qed.

Lemma gaddrs_txt fs : gaddrs (map GTxt fs) = [].
Proof. induction fs; simpl; auto. Qed.
Lemma gfrags_txt fs : gfrags (map GTxt fs) = fs.
Proof. induction fs; simpl; congruence. Qed.

Lemma gaddrs_gflat : forall t, gaddrs (gflat t) = taddrs t.
Proof.
  apply tree_ind'. intros a n ks fs IH. simpl. f_equal.
  rewrite !gaddrs_app, gaddrs_txt. simpl. rewrite app_nil_r.
  unfold gaddrs. rewrite flat_map_flat_map.
  induction IH as [|k r Hk _ IHr]; simpl; auto. unfold gaddrs in Hk. rewrite Hk, IHr. reflexivity.
Qed.

Lemma gaddrs_flatF F : gaddrs (flat_map gflat F) = flat_map taddrs F.
Proof. induction F; simpl; auto. rewrite gaddrs_app, gaddrs_gflat. congruence. Qed.

Lemma in_gaddrs a n l : In (GOpen a n) l -> In a (gaddrs l).
Proof. intro H. apply in_flat_map. exists (GOpen a n). simpl; auto. Qed.
Lemma gaddrs_in a l : In a (gaddrs l) -> exists n, In (GOpen a n) l.
Proof.
  intro H. apply in_flat_map in H. destruct H as ([a' n| |] & Hi & Ha); simpl in Ha; try tauto.
  destruct Ha as [->|[]]. eauto.
Qed.

(* every node contributes one opening and one closing mark: exchanging the two kinds permutes the list *)
Definition gflip (i : gitem) : gitem :=
  match i with GOpen a n => GClose a n | GClose a n => GOpen a n | GTxt f => GTxt f end.

Lemma balanced_forest F : Forall (fun t => Permutation (map gflip (gflat t)) (gflat t)) F ->
  Permutation (map gflip (flat_map gflat F)) (flat_map gflat F).
Proof. induction 1; cbn [flat_map map]; auto. rewrite map_app. apply Permutation_app; auto. Qed.

Lemma balanced : forall t, Permutation (map gflip (gflat t)) (gflat t).
Proof.
  apply tree_ind'. intros a n ks fs IH. rewrite gflat_node. cbn [map gflip]. rewrite map_app. cbn [map gflip].
  assert (HB : Permutation (map gflip (gbody ks fs)) (gbody ks fs)).
  { unfold gbody. rewrite map_app, map_map. apply Permutation_app; [apply balanced_forest, IH|reflexivity]. }
  rewrite <- !Permutation_cons_append, HB. apply perm_swap.
Qed.

Lemma open_has_close t a n : In (GOpen a n) (gflat t) -> In (GClose a n) (gflat t).
Proof. intro H. apply (in_map gflip) in H. eapply Permutation_in; [apply balanced|exact H]. Qed.

Inductive rep (h : heap) : tree -> Prop :=
| rep_node a n ks fs o :
    nth_error h a = Some o ->
    o_children o = map taddr ks ->
    o_stream o = concat (map fst fs) ->
    o_markers o = concat (map snd fs) ->
    Forall (rep h) ks ->
    rep h (Node a n ks fs).

Lemma rep_valid h t : rep h t -> forall x, In x (taddrs t) -> x < length h.
Proof.
  induction t as [a n ks fs IH] using tree_ind'. intros Hr x Hx. inversion Hr; subst. simpl in Hx. destruct Hx as [<-|Hx].
  - eapply nth_error_Some_lt; eauto.
  - apply in_flat_map in Hx. destruct Hx as (k & Hk & Hin).
    rewrite Forall_forall in IH. apply (IH k Hk); auto.
    match goal with H : Forall (rep h) ks |- _ => rewrite Forall_forall in H; auto end.
Qed.

Lemma rep_frame h h' t : rep h t ->
  (forall x, In x (taddrs t) -> nth_error h' x = nth_error h x) -> rep h' t.
Proof.
  induction t as [a n ks fs IH] using tree_ind'. intros Hr Hf. inversion Hr as [? ? ? ? o Hn Hc Hs Hm Hk]; subst.
  econstructor; eauto.
  - rewrite Hf; simpl; auto.
  - rewrite Forall_forall in *. intros k Hin. apply IH; auto.
    intros x Hx. apply Hf. simpl. right. apply in_flat_map. eauto.
Qed.

Lemma rep_app h l t : rep h t -> rep (h ++ l) t.
Proof.
  intros Hr. eapply rep_frame; eauto. intros x Hx. apply nth_error_app1. eapply rep_valid; eauto.
Qed.

(* h' is h with the object at a replaced (and possibly new objects behind) *)
Definition frame (a : nat) (h h' : heap) : Prop :=
  forall x, x <> a -> x < length h -> nth_error h' x = nth_error h x.

Lemma frame_set a o h : frame a h (set_nth a o h).
Proof. intros x Hx _. apply nth_set_nth_neq. auto. Qed.

Lemma frame_set_app a o h l : frame a h (set_nth a o h ++ l).
Proof.
  intros x Hx Hlt. rewrite nth_error_app1 by (rewrite length_set_nth; exact Hlt). apply frame_set; auto.
Qed.

Lemma rep_other h h' a t : frame a h h' -> rep h t -> ~ In a (taddrs t) -> rep h' t.
Proof.
  intros Hf Hr Hn. eapply rep_frame; [exact Hr|]. intros x Hx. apply Hf; [intro; subst x; auto|].
  eapply rep_valid; eauto.
Qed.

Lemma kids_other h h' a ks : frame a h h' -> Forall (rep h) ks -> ~ In a (flat_map taddrs ks) -> Forall (rep h') ks.
Proof.
  intros Hf Hr Hn. rewrite Forall_forall in *. intros k Hk. eapply rep_other; eauto.
  intro Hi. apply Hn. apply in_flat_map. eauto.
Qed.

(* nodes without a name (the objects commit() makes) are leaves *)
Inductive tleaf : tree -> Prop :=
| tleaf_node a n ks fs : (n = None -> ks = []) -> Forall tleaf ks -> tleaf (Node a n ks fs).

Fixpoint tset (a : nat) (ks' : list tree) (fs' : list frag) (t : tree) : tree :=
  match t with
  | Node a' n ks fs => if Nat.eqb a' a then Node a' n ks' fs' else Node a' n (map (tset a ks' fs') ks) fs
  end.

Lemma taddr_tset a ks' fs' t : taddr (tset a ks' fs' t) = taddr t.
Proof. destruct t as [a' n ks fs]. simpl. destruct (Nat.eqb a' a); reflexivity. Qed.

Lemma tname_tset a ks' fs' t : tname (tset a ks' fs' t) = tname t.
Proof. destruct t as [a' n ks fs]. simpl. destruct (Nat.eqb a' a); reflexivity. Qed.

Lemma tset_notin a ks' fs' t : ~ In a (taddrs t) -> tset a ks' fs' t = t.
Proof.
  induction t as [a' n ks fs IH] using tree_ind'. intros Hn. simpl in *. destruct (Nat.eqb_spec a' a) as [->|Hne]; [tauto|].
  f_equal. rewrite Forall_forall in IH.
  rewrite <- (map_id ks) at 2. apply map_ext_in. intros k Hk. apply IH; auto.
  intro Hi. apply Hn. right. apply in_flat_map. eauto.
Qed.

Lemma map_tset_notin a ks' fs' F : ~ In a (flat_map taddrs F) -> map (tset a ks' fs') F = F.
Proof.
  intro Hn. rewrite <- (map_id F) at 2. apply map_ext_in. intros k Hk. apply tset_notin.
  intro Hi. apply Hn. apply in_flat_map. eauto.
Qed.

(* what the node at address a in t is, and what t becomes when that node gets other kids and fragments *)
Definition ctx_at (a : nat) (t : tree) (pre post : list gitem) (n : option nat) (ks : list tree) (fs : list frag) : Prop :=
  gflat t = pre ++ gflat (Node a n ks fs) ++ post /\
  (forall h, rep h t -> rep h (Node a n ks fs)) /\
  (tleaf t -> Forall tleaf ks) /\
  (forall ks' fs', gflat (tset a ks' fs' t) = pre ++ gflat (Node a n ks' fs') ++ post) /\
  (forall ks' fs' h h', frame a h h' -> rep h t -> rep h' (Node a n ks' fs') -> rep h' (tset a ks' fs' t)) /\
  (forall ks' fs', tleaf t -> tleaf (Node a n ks' fs') -> tleaf (tset a ks' fs' t)).

Lemma tree_ctx a t : In a (taddrs t) -> NoDup (taddrs t) -> exists pre post n ks fs, ctx_at a t pre post n ks fs.
Proof.
  induction t as [a' n' ks' fs' IH] using tree_ind'. intros Hin Hnd. destruct (Nat.eq_dec a' a) as [->|Hne].
  - exists [], [], n', ks', fs'. unfold ctx_at. cbn [tset]. rewrite Nat.eqb_refl.
    split; [|split; [|split; [|split; [|split]]]]; auto.
    + rewrite app_nil_r. reflexivity.
    + intro Hl. inversion Hl; auto.
    + intros. rewrite app_nil_r. reflexivity.
  - destruct Hin as [Hin|Hin]; [congruence|]. inversion Hnd as [|? ? _ Hnd']; subst.
    destruct (flat_map_split taddrs ks' a Hin Hnd') as (K1 & k & K2 & -> & Hk & Hndk & Ho1 & Ho2).
    apply Forall_elt in IH. destruct (IH Hk Hndk) as (pre & post & n & ks & fs & E1 & E2 & E3 & E4 & E5 & E6).
    assert (EK : forall ks1 fs1, tset a ks1 fs1 (Node a' n' (K1 ++ k :: K2) fs') = Node a' n' (K1 ++ tset a ks1 fs1 k :: K2) fs').
    { intros. cbn [tset]. destruct (Nat.eqb_spec a' a) as [|_]; [congruence|].
      rewrite map_app. cbn [map]. rewrite !map_tset_notin; auto. }
    assert (EG : forall k1 ks1 fs1, gflat k1 = pre ++ gflat (Node a n ks1 fs1) ++ post ->
      gflat (Node a' n' (K1 ++ k1 :: K2) fs') =
      (GOpen a' n' :: flat_map gflat K1 ++ pre) ++ gflat (Node a n ks1 fs1) ++ post ++ flat_map gflat K2 ++ map GTxt fs' ++ [GClose a' n']).
    { intros k1 ks1 fs1 E. set (N := Node a n ks1 fs1) in *. cbn [gflat app]. rewrite flat_map_app. cbn [flat_map].
      rewrite E, <- !app_assoc. reflexivity. }
    exists (GOpen a' n' :: flat_map gflat K1 ++ pre), (post ++ flat_map gflat K2 ++ map GTxt fs' ++ [GClose a' n']), n, ks, fs.
    split; [|split; [|split; [|split; [|split]]]].
    + apply EG, E1.
    + intros h Hr. apply E2. inversion Hr as [? ? ? ? ? _ _ _ _ Hks]. apply Forall_elt in Hks. exact Hks.
    + intros Hl. apply E3. inversion Hl as [? ? ? ? _ Hks]. apply Forall_elt in Hks. exact Hks.
    + intros. rewrite EK. apply EG, E4.
    + intros ks1 fs1 h h' Hf Hr HN. rewrite EK. inversion Hr as [? ? ? ? o Hn Hc Hs Hm Hks]; subst.
      apply rep_node with (o := o); auto.
      * rewrite Hf; auto. eapply nth_error_Some_lt; eauto.
      * rewrite Hc, !map_app. cbn [map]. rewrite taddr_tset. reflexivity.
      * apply Forall_app in Hks. destruct Hks as (H1 & H2). inversion H2 as [|? ? Hk1 H3]; subst.
        apply Forall_app. split; [|constructor; [eauto|]]; eapply kids_other; eauto.
    + intros ks1 fs1 Hl HN. rewrite EK. inversion Hl as [? ? ? ? Hnil Hks]; subst. constructor.
      * intro En. apply Hnil in En. destruct K1; discriminate.
      * apply Forall_app in Hks. destruct Hks as (H1 & H2). inversion H2; subst.
        apply Forall_app. split; [|constructor]; auto.
Qed.

Fixpoint tfrags (t : tree) : list frag :=
  match t with Node _ _ ks fs => flat_map tfrags ks ++ fs end.

Fixpoint tchunks (t : tree) : list text :=
  match t with
  | Node _ _ ks fs => flat_map tchunks ks ++ (if is_nil (concat (map fst fs)) then [] else [concat (map fst fs)])
  end.

Lemma gfrags_gflat : forall t, gfrags (gflat t) = tfrags t.
Proof.
  apply tree_ind'. intros a n ks fs IH. simpl.
  rewrite !gfrags_app, gfrags_txt. simpl. rewrite app_nil_r. f_equal.
  unfold gfrags. rewrite flat_map_flat_map.
  induction IH as [|k r Hk _ IHr]; simpl; auto. unfold gfrags in Hk. rewrite Hk, IHr. reflexivity.
Qed.

Lemma texts_of_app l1 l2 : texts_of (l1 ++ l2) = texts_of l1 ++ texts_of l2.
Proof. unfold texts_of. rewrite map_app, concat_app. reflexivity. Qed.
Lemma marks_of_app l1 l2 : marks_of (l1 ++ l2) = marks_of l1 ++ marks_of l2.
Proof. unfold marks_of. rewrite map_app, concat_app. reflexivity. Qed.

Lemma is_nil_app {A} (l1 l2 : list A) : is_nil (l1 ++ l2) = is_nil l1 && is_nil l2.
Proof. destruct l1; simpl; auto. Qed.

Lemma ocat_map {B} (f : nat -> option (list B)) (g : tree -> list B) ks :
  (forall k, In k ks -> f (taddr k) = Some (g k)) -> ocat f (map taddr ks) = Some (flat_map g ks).
Proof.
  induction ks; simpl; intro H; auto. rewrite H by auto. rewrite IHks by auto. reflexivity.
Qed.

Lemma oall_map (f : nat -> option bool) (g : tree -> bool) ks :
  (forall k, In k ks -> f (taddr k) = Some (g k)) -> oall f (map taddr ks) = Some (forallb g ks).
Proof.
  induction ks; simpl; intro H; auto. rewrite H by auto. rewrite IHks by auto. reflexivity.
Qed.

Definition tree_obs (h : heap) (fuel : nat) (t : tree) : Prop :=
  collect fuel h (taddr t) = Some (tchunks t) /\
  h_allmarkers fuel h (taddr t) = Some (marks_of (tfrags t)) /\
  h_empty fuel h (taddr t) = Some (is_nil (texts_of (tfrags t))).

Lemma obs_rep h t : rep h t -> forall fuel, length (taddrs t) <= fuel -> tree_obs h fuel t.
Proof.
  induction t as [a n ks fs IH] using tree_ind'. intros Hr fuel Hf.
  inversion Hr as [? ? ? ? o Hn Hc Hs Hm Hk]; subst. destruct fuel as [|f]; [simpl in Hf; lia|].
  assert (IHk : forall k, In k ks -> tree_obs h f k).
  { intros k Hin. rewrite Forall_forall in IH, Hk. apply IH; auto.
    pose proof (length_flat_map_in taddrs ks k Hin). simpl in Hf. lia. }
  unfold tree_obs in *.
  cbn [collect h_allmarkers h_empty taddr tchunks tfrags]. rewrite Hn, Hc.
  rewrite (ocat_map (collect f h) tchunks) by (intros; apply IHk; auto).
  rewrite (ocat_map (h_allmarkers f h) (fun k => marks_of (tfrags k))) by (intros; apply IHk; auto).
  rewrite (oall_map (h_empty f h) (fun k => is_nil (texts_of (tfrags k)))) by (intros; apply IHk; auto).
  rewrite marks_of_app, texts_of_app, is_nil_app, Hm.
  replace (texts_of fs) with (o_stream o) by (rewrite Hs; reflexivity).
  split; [rewrite Hs; reflexivity|]. split.
  - do 2 f_equal. clear. induction ks; simpl; auto. rewrite marks_of_app. congruence.
  - destruct (is_nil (o_stream o)); [|rewrite andb_false_r; reflexivity].
    rewrite andb_true_r. f_equal. clear. induction ks; simpl; auto. rewrite texts_of_app, is_nil_app. congruence.
Qed.

Lemma concat_tchunks : forall t, concat (tchunks t) = texts_of (tfrags t).
Proof.
  apply tree_ind'. intros a n ks fs IH. cbn [tchunks tfrags]. rewrite concat_app, texts_of_app. f_equal.
  - induction IH as [|k r Hk _ IHr]; simpl; auto. rewrite concat_app, texts_of_app. congruence.
  - unfold texts_of. destruct (concat (map fst fs)); simpl; auto. rewrite app_nil_r. reflexivity.
Qed.

Lemma tchunks_nonempty : forall t, Forall (fun c => c <> []) (tchunks t).
Proof.
  apply tree_ind'. intros a n ks fs IH. cbn [tchunks]. apply Forall_app. split.
  - apply Forall_flat_map. exact IH.
  - destruct (concat (map fst fs)) eqn:E; simpl; constructor; auto. congruence.
Qed.

Lemma size_le_heap h t : rep h t -> NoDup (taddrs t) -> length (taddrs t) <= length h.
Proof.
  intros Hr Hnd. rewrite <- (seq_length (length h) 0). apply NoDup_incl_length; auto.
  intros x Hx. apply in_seq. pose proof (rep_valid h t Hr x Hx). lia.
Qed.

Definition no_open (b : nat) : list item -> Prop := Forall (fun i => is_open b i = false).
Definition no_close (b : nat) : list item -> Prop := Forall (fun i => is_close b i = false).

Lemma ins_skip b X l1 l2 : no_close b l1 ->
  ins_before_close b X (l1 ++ SClose b :: l2) = l1 ++ X ++ SClose b :: l2.
Proof. induction 1 as [|i l1 Hi _ IH]; simpl; [rewrite Nat.eqb_refl|rewrite Hi, IH]; reflexivity. Qed.

Lemma ins_absent b X l : no_close b l -> ins_before_close b X l = l.
Proof. induction 1 as [|i l Hi _ IH]; simpl; [|rewrite Hi, IH]; reflexivity. Qed.

Lemma ins_nil b l : ins_before_close b [] l = l.
Proof. induction l as [|i l IH]; simpl; auto. destruct (is_close b i); simpl; congruence. Qed.

Lemma after_open_skip b l1 l2 : no_open b l1 -> after_open b (l1 ++ SOpen b :: l2) = Some l2.
Proof. induction 1 as [|i l1 Hi _ IH]; simpl; [rewrite Nat.eqb_refl|rewrite Hi, IH]; reflexivity. Qed.

Lemma until_close_skip b l1 l2 : no_close b l1 -> until_close b (l1 ++ SClose b :: l2) = Some l1.
Proof. induction 1 as [|i l1 Hi _ IH]; simpl; [rewrite Nat.eqb_refl|rewrite Hi, IH]; reflexivity. Qed.

Lemma region_found b pre body post : no_open b pre -> no_close b body ->
  region b (pre ++ SOpen b :: body ++ SClose b :: post) = Some body.
Proof. intros H1 H2. unfold region. rewrite after_open_skip by auto. apply until_close_skip; auto. Qed.

Lemma drop_until_skip b body l2 : no_close b body -> drop_until_close b (body ++ SClose b :: l2) = SClose b :: l2.
Proof. induction 1 as [|i l1 Hi _ IH]; simpl; [rewrite Nat.eqb_refl|rewrite Hi, IH]; reflexivity. Qed.

Lemma clear_skip b l1 body l2 : no_open b l1 -> no_close b body ->
  clear_hole b (l1 ++ SOpen b :: body ++ SClose b :: l2) = l1 ++ SOpen b :: SClose b :: l2.
Proof.
  intros H1 H2.
  induction H1 as [|i l1 Hi _ IH]; simpl; [rewrite Nat.eqb_refl, drop_until_skip by auto|rewrite Hi, IH]; reflexivity.
Qed.

Lemma clear_absent b l : no_open b l -> clear_hole b l = l.
Proof. induction 1 as [|i l Hi _ IH]; simpl; [|rewrite Hi, IH]; reflexivity. Qed.

Lemma frags_erase l : frags (erase l) = gfrags l.
Proof.
  unfold erase, gfrags. induction l as [|i l IH]; simpl; auto.
  destruct i as [a [n|]|a [n|]|[s ms]]; simpl; auto. rewrite IH. reflexivity.
Qed.

Lemma has_open_in b l : In (SOpen b) l -> has_open l = true.
Proof. intro H. apply existsb_exists. exists (SOpen b). auto. Qed.

Lemma in_erase_open a b l : In (GOpen a (Some b)) l -> In (SOpen b) (erase l).
Proof. intro H. apply in_flat_map. exists (GOpen a (Some b)). simpl. auto. Qed.

Definition doc_of (t : tree) : doc := erase (gflat t).

Lemma concat_docs F : concat (map doc_of F) = erase (flat_map gflat F).
Proof. induction F; cbn [map concat flat_map]; auto. rewrite erase_app, IHF. reflexivity. Qed.

Lemma erase_hole pre a b ks fs post :
  erase (pre ++ gflat (Node a (Some b) ks fs) ++ post) = erase pre ++ SOpen b :: erase (gbody ks fs) ++ SClose b :: erase post.
Proof.
  rewrite gflat_node, !erase_app. cbn [erase flat_map erase1 app]. rewrite erase_app, <- app_assoc. reflexivity.
Qed.

Definition gname (i : gitem) : option nat := match i with GOpen _ n | GClose _ n => n | GTxt _ => None end.
Definition unmarked (b : nat) : list gitem -> Prop := Forall (fun i => gname i <> Some b).

Lemma unmarked_erase b l : unmarked b l -> no_open b (erase l) /\ no_close b (erase l).
Proof.
  induction 1 as [|i l Hi _ [IH1 IH2]]; [split; constructor|].
  destruct i as [a [n|]|a [n|]|[s ms]]; cbn [erase flat_map erase1 app]; auto; split; constructor; auto.
  all: cbn in *; apply Nat.eqb_neq; congruence.
Qed.

Lemma unmarked_no_open b l : unmarked b l -> no_open b (erase l).
Proof. apply unmarked_erase. Qed.
Lemma unmarked_no_close b l : unmarked b l -> no_close b (erase l).
Proof. apply unmarked_erase. Qed.

(* the order-insensitive part of the invariant *)
Record SInv (hs : list nat) (G : list gitem) : Prop := {
  si_nd : NoDup (gaddrs G);
  si_l1 : forall b a, nth_error hs b = Some a -> In (GOpen a (Some b)) G;
  si_l2 : forall a b, In (GOpen a (Some b)) G -> nth_error hs b = Some a;
  si_ne : forall f, In (GTxt f) G -> fst f <> [] }.
Arguments si_nd {hs G}.
Arguments si_l1 {hs G}.
Arguments si_l2 {hs G}.
Arguments si_ne {hs G}.

Lemma sinv_perm hs G G' : Permutation G G' -> SInv hs G -> SInv hs G'.
Proof.
  intros P [H1 H2 H3 H4]. split.
  - eapply Permutation_NoDup; [|exact H1]. apply Permutation_flat_map. exact P.
  - intros b a Hb. eapply Permutation_in; eauto.
  - intros a b Hi. apply H3. eapply Permutation_in; [apply Permutation_sym; exact P|]. exact Hi.
  - intros f Hi. apply H4. eapply Permutation_in; [apply Permutation_sym; exact P|]. exact Hi.
Qed.

Lemma sinv_txt hs G f : SInv hs G -> fst f <> [] -> SInv hs (GTxt f :: G).
Proof.
  intros [H1 H2 H3 H4] Hf. split; simpl; auto.
  - intros a b [Hi|Hi]; [discriminate|auto].
  - intros f' [Hi|Hi]; [inversion Hi; subst; auto|auto].
Qed.

Lemma sinv_anon hs G c : SInv hs G -> ~ In c (gaddrs G) -> SInv hs (GOpen c None :: GClose c None :: G).
Proof.
  intros [H1 H2 H3 H4] Hc. split; simpl; auto.
  - constructor; auto.
  - intros a b [Hi|[Hi|Hi]]; try discriminate; auto.
  - intros f' [Hi|[Hi|Hi]]; try discriminate; auto.
Qed.

Lemma sinv_named hs G c : SInv hs G -> ~ In c (gaddrs G) ->
  SInv (hs ++ [c]) (GOpen c (Some (length hs)) :: GClose c (Some (length hs)) :: G).
Proof.
  intros [H1 H2 H3 H4] Hc. split; simpl; auto.
  - constructor; auto.
  - intros b a Hb. destruct (Nat.lt_ge_cases b (length hs)) as [Hlt|Hge].
    + rewrite nth_error_app1 in Hb by auto. auto.
    + assert (b < length (hs ++ [c])) by (apply nth_error_Some; congruence).
      rewrite app_length in H. simpl in H. assert (b = length hs) by lia. subst b.
      rewrite nth_app_len in Hb. inversion Hb; subst. auto.
  - intros a b [Hi|[Hi|Hi]]; try discriminate.
    + inversion Hi; subst. apply nth_app_len.
    + specialize (H3 a b Hi). rewrite nth_error_app1; auto. eapply nth_error_Some_lt; eauto.
  - intros f' [Hi|[Hi|Hi]]; try discriminate; auto.
Qed.

Lemma sinv_remove hs B G : SInv hs (B ++ G) -> (forall a b, ~ In (GOpen a (Some b)) B) -> SInv hs G.
Proof.
  intros [H1 H2 H3 H4] HB. split.
  - rewrite gaddrs_app in H1. apply NoDup_app_inv in H1. tauto.
  - intros b a Hb. specialize (H2 b a Hb). apply in_app_or in H2. destruct H2 as [H2|H2]; auto.
    exfalso. eapply HB; eauto.
  - intros a b Hi. apply H3. apply in_or_app. auto.
  - intros f Hi. apply H4. apply in_or_app. auto.
Qed.

Lemma nodup_open_unique G a n1 n2 : NoDup (gaddrs G) -> In (GOpen a n1) G -> In (GOpen a n2) G -> n1 = n2.
Proof.
  induction G as [|i G IH]; simpl; [tauto|]. intros Hnd H1 H2.
  apply NoDup_app_inv in Hnd. destruct Hnd as (_ & Hnd & Hdis).
  destruct H1 as [H1|H1], H2 as [H2|H2]; auto.
  - congruence.
  - subst i. exfalso. apply (Hdis a); simpl; auto. eapply in_gaddrs; eauto.
  - subst i. exfalso. apply (Hdis a); simpl; auto. eapply in_gaddrs; eauto.
Qed.

Lemma perm_hole {A} (pre body post : list A) o c :
  Permutation (pre ++ (o :: body ++ [c]) ++ post) (o :: c :: pre ++ body ++ post).
Proof.
  cbn [app]. rewrite <- Permutation_middle. apply perm_skip.
  rewrite <- app_assoc. cbn [app]. rewrite !app_assoc. symmetry. apply Permutation_middle.
Qed.

Lemma sinv_hole hs a b R : SInv hs (GOpen a (Some b) :: GClose a (Some b) :: R) -> forall a', ~ In (GOpen a' (Some b)) R.
Proof.
  intros S a' Hi.
  assert (a' = a).
  { pose proof (si_l2 S a b (or_introl eq_refl)). pose proof (si_l2 S a' b (or_intror (or_intror Hi))). congruence. }
  subst a'. pose proof (si_nd S) as Hn. inversion Hn as [|? ? Hni _]. apply Hni. eapply in_gaddrs; eauto.
Qed.

Lemma hole_unique hs F b a pre ks fs post : SInv hs (flat_map gflat F) ->
  flat_map gflat F = pre ++ gflat (Node a (Some b) ks fs) ++ post ->
  unmarked b (pre ++ gbody ks fs ++ post).
Proof.
  intros S E. set (R := pre ++ gbody ks fs ++ post).
  (* SInv does not depend on the order, nor on which mark of a node is the opening one *)
  assert (P : Permutation (flat_map gflat F) (GOpen a (Some b) :: GClose a (Some b) :: R)).
  { rewrite E, gflat_node. apply perm_hole. }
  assert (P' : Permutation (flat_map gflat F) (GOpen a (Some b) :: GClose a (Some b) :: map gflip R)).
  { rewrite <- (balanced_forest F) at 1 by (apply Forall_forall; intros; apply balanced). rewrite P. apply perm_swap. }
  apply Forall_forall. intros [a' n|a' n|f] Hi Hn; cbn in Hn; try discriminate; subst n.
  - exact (sinv_hole _ _ _ _ (sinv_perm _ _ _ P S) a' Hi).
  - apply (in_map gflip) in Hi. exact (sinv_hole _ _ _ _ (sinv_perm _ _ _ P' S) a' Hi).
Qed.

(* What the operations need about the node of handle b (address a, kids ks, fragments fs) in the forest F.
   ho_doc is the case analysis over the documents in the form it is used: a function on documents that
   leaves those without b alone and is right on the one that holds the hole maps each to the updated one. *)
Record hole (F : list tree) (b a : nat) (ks : list tree) (fs : list frag) : Prop := {
  ho_flat : exists pre post, unmarked b pre /\
      flat_map gflat F = pre ++ gflat (Node a (Some b) ks fs) ++ post /\
      forall ks' fs', flat_map gflat (map (tset a ks' fs') F) = pre ++ gflat (Node a (Some b) ks' fs') ++ post;
  ho_body : unmarked b (gbody ks fs);
  ho_nd : NoDup (taddrs (Node a (Some b) ks fs));
  ho_rep : forall h, Forall (rep h) F -> rep h (Node a (Some b) ks fs);
  ho_leaf : Forall tleaf F -> Forall tleaf ks;
  ho_doc : forall (f : doc -> doc) ks' fs',
      (forall l, unmarked b l -> f (erase l) = erase l) ->
      (forall pre post, unmarked b pre ->
         f (erase (pre ++ gflat (Node a (Some b) ks fs) ++ post)) = erase (pre ++ gflat (Node a (Some b) ks' fs') ++ post)) ->
      forall x, In x F -> f (doc_of x) = doc_of (tset a ks' fs' x);
  ho_rep' : forall h h' ks' fs', frame a h h' -> Forall (rep h) F -> rep h' (Node a (Some b) ks' fs') ->
      Forall (rep h') (map (tset a ks' fs') F);
  ho_leaf' : forall ks' fs', Forall tleaf F -> Forall tleaf ks' -> Forall tleaf (map (tset a ks' fs') F) }.
Arguments ho_flat {F b a ks fs}.
Arguments ho_body {F b a ks fs}.
Arguments ho_nd {F b a ks fs}.
Arguments ho_rep {F b a ks fs}.
Arguments ho_leaf {F b a ks fs}.
Arguments ho_doc {F b a ks fs}.
Arguments ho_rep' {F b a ks fs}.
Arguments ho_leaf' {F b a ks fs}.

Lemma locate hs F b a : SInv hs (flat_map gflat F) -> nth_error hs b = Some a -> exists ks fs, hole F b a ks fs.
Proof.
  intros S Hb. pose proof (si_l1 S b a Hb) as Hopen.
  assert (Hnd : NoDup (flat_map taddrs F)) by (rewrite <- gaddrs_flatF; apply S).
  assert (Hin : In a (flat_map taddrs F)) by (rewrite <- gaddrs_flatF; eapply in_gaddrs; eauto).
  destruct (flat_map_split taddrs F a Hin Hnd) as (F1 & t & F2 & -> & Ht & Hndt & Ho1 & Ho2).
  destruct (tree_ctx a t Ht Hndt) as (pre & post & n & ks & fs & E1 & E2 & E3 & E4 & E5 & E6).
  assert (EG : forall t' ks' fs', gflat t' = pre ++ gflat (Node a n ks' fs') ++ post ->
    flat_map gflat (F1 ++ t' :: F2) = (flat_map gflat F1 ++ pre) ++ gflat (Node a n ks' fs') ++ post ++ flat_map gflat F2).
  { intros t' ks' fs' E. rewrite flat_map_app. cbn [flat_map]. rewrite E, <- !app_assoc. reflexivity. }
  assert (EM : forall ks' fs', map (tset a ks' fs') (F1 ++ t :: F2) = F1 ++ tset a ks' fs' t :: F2).
  { intros. rewrite map_app. cbn [map]. rewrite !map_tset_notin; auto. }
  assert (n = Some b).
  { eapply nodup_open_unique; [apply (si_nd S)| |exact Hopen].
    rewrite (EG _ _ _ E1). apply in_or_app. right. left. reflexivity. }
  subst n. pose proof (hole_unique _ _ _ _ _ _ _ _ S (EG _ _ _ E1)) as U.
  unfold unmarked in U. rewrite !Forall_app in U. destruct U as ((U1 & Upre) & Ubody & _ & U2).
  exists ks, fs. split; auto.
  - exists (flat_map gflat F1 ++ pre), (post ++ flat_map gflat F2). split; [apply Forall_app; auto|].
    split; [apply EG, E1|]. intros. rewrite EM. apply EG, E4.
  - pose proof (si_nd S) as H. rewrite (EG _ _ _ E1), !gaddrs_app, gaddrs_gflat in H.
    apply NoDup_app_inv in H. destruct H as (_ & H & _). apply NoDup_app_inv in H. tauto.
  - intros h Hr. apply Forall_elt in Hr. auto.
  - intros Hl. apply Forall_elt in Hl. auto.
  - intros f ks' fs' Hf1 Hf2 x Hx. apply in_elt_inv in Hx. destruct Hx as [<-|Hx].
    + unfold doc_of. rewrite E1, E4. apply Hf2, Upre.
    + rewrite tset_notin; [apply Hf1|]; apply in_app_or in Hx.
      * rewrite Forall_flat_map, Forall_forall in U1, U2. destruct Hx; [apply U1|apply U2]; auto.
      * intro Hi. destruct Hx; [apply Ho1|apply Ho2]; apply in_flat_map; eauto.
  - intros h h' ks' fs' Hf Hr HN. rewrite EM. apply Forall_app in Hr. destruct Hr as (H1 & H2).
    inversion H2; subst. apply Forall_app. split; [|constructor; [eauto|]]; eapply kids_other; eauto.
  - intros ks' fs' Hl Hk. rewrite EM. apply Forall_app in Hl. destruct Hl as (H1 & H2).
    inversion H2; subst. apply Forall_app. split; [|constructor]; auto.
    apply E6; auto. constructor; [discriminate|auto].
Qed.

Lemma perm_node_ctx {pre post a n ks fs} ks' fs' X : Permutation (gbody ks' fs') (X ++ gbody ks fs) ->
  Permutation (pre ++ gflat (Node a n ks' fs') ++ post) (X ++ pre ++ gflat (Node a n ks fs) ++ post).
Proof.
  intro P. rewrite !gflat_node, P, <- app_assoc, (Permutation_middle X), <- app_assoc.
  apply Permutation_app_swap_app.
Qed.

Lemma perm_tset {F b a ks fs} ks' fs' X : hole F b a ks fs -> Permutation (gbody ks' fs') (X ++ gbody ks fs) ->
  Permutation (flat_map gflat (map (tset a ks' fs') F)) (X ++ flat_map gflat F).
Proof.
  intros H P. destruct (ho_flat H) as (pre & post & _ & E1 & E2). rewrite E1, E2.
  apply perm_node_ctx, P.
Qed.

Lemma hole_sub {F b a ks fs} : hole F b a ks fs -> incl (gbody ks fs) (flat_map gflat F).
Proof.
  intros H i Hi. destruct (ho_flat H) as (pre & post & _ & E1 & _). rewrite E1, gflat_node.
  apply in_or_app. right. right. apply in_or_app. left. apply in_or_app. auto.
Qed.

Lemma hole_kids {F b a ks fs} h h' : hole F b a ks fs -> frame a h h' -> Forall (rep h) F -> Forall (rep h') ks.
Proof.
  intros H Hf Hr. pose proof (ho_rep H h Hr) as HN. inversion HN; subst.
  pose proof (ho_nd H) as Hnd. inversion Hnd; subst. eapply kids_other; eauto.
Qed.

Lemma doc_ins {F b a ks fs} ks' fs' Y : hole F b a ks fs -> erase (gbody ks' fs') = erase (gbody ks fs) ++ Y ->
  forall x, In x F -> ins_before_close b Y (doc_of x) = doc_of (tset a ks' fs' x).
Proof.
  intros H E. apply (ho_doc H).
  - intros l U. apply ins_absent, unmarked_no_close, U.
  - intros pre post U. rewrite !erase_hole, E, app_comm_cons, app_assoc, ins_skip.
    + rewrite <- !app_assoc. reflexivity.
    + apply Forall_app. split; [apply unmarked_no_close, U|].
      constructor; [reflexivity|apply unmarked_no_close, (ho_body H)].
Qed.

Lemma doc_clear {F b a ks fs} : hole F b a ks fs ->
  forall x, In x F -> clear_hole b (doc_of x) = doc_of (tset a [] [] x).
Proof.
  intros H. apply (ho_doc H).
  - intros l U. apply clear_absent, unmarked_no_open, U.
  - intros pre post U. rewrite !erase_hole. apply clear_skip; [apply unmarked_no_open, U|].
    apply unmarked_no_close, (ho_body H).
Qed.

Lemma sregion_hole sp F b a ks fs : hole F b a ks fs -> sp_docs sp = map doc_of F ->
  sregion sp b = Some (erase (gbody ks fs)).
Proof.
  intros H Hd. destruct (ho_flat H) as (pre & post & U & E1 & _).
  unfold sregion. rewrite Hd, concat_docs, E1, erase_hole.
  apply region_found; [apply unmarked_no_open, U|apply unmarked_no_close, (ho_body H)].
Qed.

Definition named_root (t : tree) : Prop := exists b, tname t = Some b.

Record Inv (st : state) (sp : spec) (F : list tree) : Prop := {
  inv_rep : Forall (rep (st_heap st)) F;
  inv_s : SInv (st_handles st) (flat_map gflat F);
  inv_roots : Forall named_root F;
  inv_leaf : Forall tleaf F;
  inv_docs : sp_docs sp = map doc_of F;
  inv_n : length (st_handles st) = sp_n sp }.
Arguments inv_rep {st sp F}.
Arguments inv_s {st sp F}.
Arguments inv_roots {st sp F}.
Arguments inv_leaf {st sp F}.
Arguments inv_docs {st sp F}.
Arguments inv_n {st sp F}.

Lemma inv_init : Inv init_state init_spec [].
Proof.
  split; simpl; auto. split; simpl; try tauto.
  - constructor.
  - intros b a H. destruct b; discriminate.
Qed.

Lemma handle_lookup (hs : list nat) b n : length hs = n -> (b <? n) = true -> exists a, nth_error hs b = Some a.
Proof.
  intros <- Hb. apply nth_error_lt_Some, Nat.ltb_lt, Hb.
Qed.

Lemma inv_hole {st sp F b a} : Inv st sp F -> nth_error (st_handles st) b = Some a ->
  exists ks fs, hole F b a ks fs /\ rep (st_heap st) (Node a (Some b) ks fs).
Proof.
  intros HI Ha. destruct (locate _ F b a (inv_s HI) Ha) as (ks & fs & H). exists ks, fs. split; [exact H|].
  apply (ho_rep H), HI.
Qed.

Lemma fresh_addr h F c : Forall (rep h) F -> length h <= c -> ~ In c (gaddrs (flat_map gflat F)).
Proof.
  intros Hr Hc Hi. rewrite gaddrs_flatF in Hi. apply in_flat_map in Hi. destruct Hi as (t & Ht & Hi).
  rewrite Forall_forall in Hr. pose proof (rep_valid h t (Hr t Ht) c Hi). lia.
Qed.

Lemma roots_tset a ks' fs' F : Forall named_root F -> Forall named_root (map (tset a ks' fs') F).
Proof.
  intro H. apply Forall_map. eapply Forall_impl; [|exact H]. intros t (b & Hb). exists b.
  rewrite tname_tset. exact Hb.
Qed.

Lemma concat_nil_ne (fs : list frag) : (forall f, In f fs -> fst f <> []) -> concat (map fst fs) = [] -> fs = [].
Proof.
  destruct fs as [|f fs]; auto. intros H E. simpl in E. exfalso. apply (H f); simpl; auto.
  destruct (fst f); auto. discriminate.
Qed.

Definition ffrags (F : list tree) : list frag := gfrags (flat_map gflat F).
Definition is_reset (o : op) : bool := match o with OReset _ => true | _ => false end.
Definition effect (o : op) (F F' : list tree) : Prop :=
  if is_reset o then incl (ffrags F') (ffrags F) else Permutation (ffrags F') (written [o] ++ ffrags F).

(* updating the node of handle b, in the heap by overwriting its object (and allocating behind), in the
   reference by inserting Y before the closing mark of b; X is what the flattening gains *)
Lemma inv_tset h h' hs sp F b a ks fs ks' fs' X Y : Inv (mkState h hs) sp F -> hole F b a ks fs ->
  frame a h h' -> rep h' (Node a (Some b) ks' fs') -> Forall tleaf ks' ->
  Permutation (gbody ks' fs') (X ++ gbody ks fs) -> SInv hs (X ++ flat_map gflat F) ->
  erase (gbody ks' fs') = erase (gbody ks fs) ++ Y ->
  Inv (mkState h' hs) (mkSpec (map (ins_before_close b Y) (sp_docs sp)) (sp_n sp)) (map (tset a ks' fs') F) /\
  Permutation (ffrags (map (tset a ks' fs') F)) (gfrags X ++ ffrags F).
Proof.
  intros [Hr S Hroots Hleaf Hd Hn] H Hf HN Hl P SX E. cbn [st_heap st_handles] in *.
  pose proof (perm_tset ks' fs' X H P) as PG. split; [split; cbn [st_heap st_handles sp_docs sp_n]; auto|].
  - eapply ho_rep'; eauto.
  - eapply sinv_perm; [symmetry; exact PG|exact SX].
  - apply roots_tset, Hroots.
  - apply (ho_leaf' H); auto.
  - rewrite Hd, !map_map. apply map_ext_in. intros x Hx. apply (doc_ins ks' fs' Y H E x Hx).
  - unfold ffrags. rewrite <- gfrags_app. apply Permutation_flat_map, PG.
Qed.

Lemma step_new st sp F : Inv st sp F ->
  exists st' F', step st ONew = Some st' /\ Inv st' (spec_step sp ONew) F' /\ effect ONew F F'.
Proof.
  intros [Hr S Hroots Hleaf Hd Hn]. destruct st as [h hs]. cbn [st_heap st_handles] in *.
  exists (mkState (h ++ [empty_obj]) (hs ++ [length h])), (F ++ [Node (length h) (Some (length hs)) [] []]).
  split; [reflexivity|]. split; [split|]; cbn [st_heap st_handles].
  - apply Forall_app. split.
    + eapply Forall_impl; [|exact Hr]. intros t Ht. apply rep_app. exact Ht.
    + constructor; [|constructor]. eapply rep_node with (o := empty_obj); try reflexivity.
      * apply nth_app_len.
      * constructor.
  - rewrite flat_map_app. cbn [flat_map gflat map app].
    eapply sinv_perm; [|apply (sinv_named hs _ (length h) S); eapply fresh_addr; eauto].
    apply (Permutation_app_comm [GOpen (length h) (Some (length hs)); GClose (length h) (Some (length hs))]).
  - apply Forall_app. split; auto. constructor; [|constructor]. exists (length hs). reflexivity.
  - apply Forall_app. split; auto. constructor; [|constructor]. constructor; auto.
  - cbn [spec_step sp_docs]. rewrite Hd, map_app, <- Hn. reflexivity.
  - cbn [spec_step sp_n]. rewrite app_length. simpl. lia.
  - unfold effect, ffrags. cbn [is_reset written app]. rewrite flat_map_app, gfrags_app. simpl. rewrite app_nil_r. reflexivity.
Qed.

Lemma step_write st sp F b s ms : Inv st sp F -> wf_op sp (OWrite b s ms) = true ->
  exists st' F', step st (OWrite b s ms) = Some st' /\ Inv st' (spec_step sp (OWrite b s ms)) F' /\
                 effect (OWrite b s ms) F F'.
Proof.
  intros HI Hwf. cbn [wf_op] in Hwf. apply andb_true_iff in Hwf. destruct Hwf as (Hb & Hsm).
  destruct (handle_lookup _ _ _ (inv_n HI) Hb) as (a & Ha).
  destruct (inv_hole HI Ha) as (ks & fs & H & HN).
  destruct st as [h hs]. cbn [st_heap st_handles] in *.
  inversion HN as [? ? ? ? o Hn Hc Hst Hm Hk]; subst.
  cbn [step st_heap st_handles]. rewrite Ha. unfold h_write. rewrite Hn. cbn [option_map].
  destruct s as [|c s].
  - (* nothing is written *)
    destruct ms as [|m ms]; [|discriminate]. exists (mkState h hs), F.
    rewrite !app_nil_r, set_nth_same by (destruct o; exact Hn). split; [reflexivity|]. split; [exact HI|apply Permutation_refl].
  - eexists _, _. split; [reflexivity|].
    apply (inv_tset h _ hs sp F b a ks fs ks (fs ++ [(c :: s, ms)]) [GTxt (c :: s, ms)] [STxt (c :: s) ms] HI H).
    + apply frame_set.
    + eapply rep_node.
      * apply nth_set_nth_eq. eapply nth_error_Some_lt; eauto.
      * exact Hc.
      * cbn [o_stream]. rewrite map_app, concat_app, Hst. simpl. rewrite app_nil_r. reflexivity.
      * cbn [o_markers]. rewrite map_app, concat_app, Hm. simpl. rewrite app_nil_r. reflexivity.
      * apply (hole_kids h _ H); [apply frame_set|apply HI].
    + apply (ho_leaf H), HI.
    + unfold gbody. rewrite map_app, app_assoc. apply Permutation_app_comm.
    + apply sinv_txt; [apply HI|discriminate].
    + unfold gbody. rewrite map_app, app_assoc, erase_app. reflexivity.
Qed.

Lemma map_ins_nil b ds : map (ins_before_close b []) ds = ds.
Proof. rewrite <- (map_id ds) at 2. apply map_ext. intro. apply ins_nil. Qed.

(* afterwards the stream of the buffer is empty: what insertion_point and insert rely on *)
Lemma commit_inv h hs sp F b a : Inv (mkState h hs) sp F -> nth_error hs b = Some a ->
  exists h1 F1 o1, h_commit h a = Some h1 /\ Inv (mkState h1 hs) sp F1 /\ Permutation (ffrags F1) (ffrags F) /\
                   nth_error h1 a = Some o1 /\ o_stream o1 = [].
Proof.
  intros HI Ha. destruct (inv_hole HI Ha) as (ks & fs & H & HN). cbn [st_heap] in HN.
  inversion HN as [? ? ? ? o Hn Hc Hst Hm Hk]; subst. unfold h_commit. rewrite Hn.
  destruct (is_nil (o_stream o)) eqn:Enil.
  - exists h, F, o. split; [|split; [|split; [|split]]]; auto. destruct (o_stream o); [reflexivity|discriminate].
  - (* the stream moves into a new last child *)
    set (c := length h). set (o' := mkObj (o_children o ++ [c]) [] []).
    assert (Hlt : a < length h) by (eapply nth_error_Some_lt; eauto).
    assert (Hn' : nth_error (set_nth a o' h ++ [mkObj [] (o_stream o) (o_markers o)]) a = Some o').
    { rewrite nth_error_app1 by (rewrite length_set_nth; exact Hlt). apply nth_set_nth_eq, Hlt. }
    destruct (inv_tset h (set_nth a o' h ++ [mkObj [] (o_stream o) (o_markers o)]) hs sp F b a ks fs
                (ks ++ [Node c None [] fs]) [] [GOpen c None; GClose c None] [] HI H) as (HI' & P).
    + apply frame_set_app.
    + apply rep_node with (o := o'); [exact Hn'|cbn [o' o_children]; rewrite map_app, Hc; reflexivity|reflexivity|reflexivity|].
      apply Forall_app. split; [apply (hole_kids h _ H); [apply frame_set_app|apply HI]|].
      constructor; [|constructor]. eapply rep_node with (o := mkObj [] (o_stream o) (o_markers o)); auto.
      unfold c. rewrite <- (length_set_nth o' h a). apply nth_app_len.
    + apply Forall_app. split; [apply (ho_leaf H), HI|]. constructor; [|constructor]. constructor; auto.
    + unfold gbody. rewrite flat_map_app. cbn [flat_map gflat map app]. rewrite !app_nil_r, <- Permutation_middle.
      apply perm_skip. rewrite app_assoc. symmetry. apply Permutation_cons_append.
    + apply sinv_anon; [apply HI|]. eapply fresh_addr; [apply HI|]. apply le_n.
    + unfold gbody, erase. rewrite !flat_map_app. simpl. rewrite !flat_map_app. simpl. rewrite !app_nil_r. reflexivity.
    + eexists _, _, o'. split; [reflexivity|]. rewrite map_ins_nil in HI'. destruct sp.
      split; [exact HI'|]. split; [exact P|]. split; [exact Hn'|reflexivity].
Qed.

Lemma step_commit st sp F b : Inv st sp F -> wf_op sp (OCommit b) = true ->
  exists st' F', step st (OCommit b) = Some st' /\ Inv st' (spec_step sp (OCommit b)) F' /\ effect (OCommit b) F F'.
Proof.
  intros HI Hb. destruct st as [h hs]. destruct (handle_lookup _ _ _ (inv_n HI) Hb) as (a & Ha). cbn [st_handles] in Ha.
  destruct (commit_inv h hs sp F b a HI Ha) as (h1 & F1 & _ & Hc & HI1 & P1 & _).
  exists (mkState h1 hs), F1. cbn [step st_heap st_handles]. rewrite Ha, Hc. auto.
Qed.

Lemma take_doc_map t (f : tree -> doc) : forall F d rest, take_doc t (map f F) = Some (d, rest) ->
  exists Fa T Fb, F = Fa ++ T :: Fb /\ d = f T /\ rest = map f (Fa ++ Fb) /\ is_root t (f T) = true.
Proof.
  induction F as [|x F IH]; simpl; intros d rest H; [discriminate|].
  destruct (is_root t (f x)) eqn:E.
  - inversion H; subst. exists [], x, F. auto.
  - destruct (take_doc t (map f F)) as [[y r']|] eqn:E2; [|discriminate]. inversion H; subst.
    destruct (IH _ _ eq_refl) as (Fa & T & Fb & -> & -> & -> & Hroot).
    exists (x :: Fa), T, Fb. auto.
Qed.

Lemma close_in_doc {hs F b a} : SInv hs (flat_map gflat F) -> nth_error hs b = Some a ->
  forall T, In T F -> In a (taddrs T) -> has_close b (doc_of T) = true.
Proof.
  intros S Ha T HT Hi. rewrite <- gaddrs_gflat in Hi. apply gaddrs_in in Hi. destruct Hi as (n & Hi).
  assert (n = Some b).
  { eapply nodup_open_unique; [apply (si_nd S)| |apply (si_l1 S b a Ha)]. apply in_flat_map. eauto. }
  subst n. apply open_has_close in Hi. apply existsb_exists. exists (SClose b). split; [|apply Nat.eqb_refl].
  apply in_flat_map. exists (GClose a (Some b)). split; [exact Hi|left; reflexivity].
Qed.

Lemma addkid_inv h hs sp F b a o t d rest : Inv (mkState h hs) sp F ->
  nth_error hs b = Some a -> nth_error h a = Some o -> o_stream o = [] ->
  take_doc t (sp_docs sp) = Some (d, rest) -> has_close b d = false ->
  exists c F', nth_error hs t = Some c /\
    Inv (mkState (set_nth a (mkObj (o_children o ++ [c]) (o_stream o) (o_markers o)) h) hs)
        (mkSpec (map (ins_before_close b d) rest) (sp_n sp)) F' /\
    Permutation (ffrags F') (ffrags F).
Proof.
  intros HI Ha Ho Hnil Etd Hcl. pose proof HI as [Hr S Hroots Hleaf Hd Hn]. cbn [st_heap st_handles] in *.
  rewrite Hd in Etd. apply take_doc_map in Etd. destruct Etd as (Fa & T & Fb & -> & -> & -> & HrootT).
  assert (HT : In T (Fa ++ T :: Fb)) by apply in_elt.
  assert (Hsub : incl (Fa ++ Fb) (Fa ++ T :: Fb)).
  { intros x Hx. apply in_app_or in Hx. apply in_or_app. destruct Hx; auto. right. right. auto. }
  destruct T as [c nT ksT fsT].
  assert (nT = Some t).
  { destruct (Forall_elt _ _ _ Hroots) as (bT & HbT). cbn in HbT, HrootT. subst nT.
    apply Nat.eqb_eq in HrootT. congruence. }
  subst nT. set (T := Node c (Some t) ksT fsT) in *.
  assert (HnotT : ~ In a (taddrs T)).
  { intro Hi. rewrite (close_in_doc S Ha T HT Hi) in Hcl. discriminate. }
  destruct (inv_hole HI Ha) as (ks & fs & H & HN). cbn [st_heap] in HN.
  inversion HN as [? ? ? ? o' Hn' Hc Hst Hm Hk]; subst. assert (o' = o) by congruence. subst o'.
  assert (fs = []).
  { apply concat_nil_ne; [|etransitivity; [symmetry; exact Hst|exact Hnil]]. intros f Hf. apply (si_ne S), (hole_sub H).
    apply in_or_app. right. apply in_map, Hf. }
  subst fs. set (h' := set_nth a (mkObj (o_children o ++ [c]) (o_stream o) (o_markers o)) h).
  assert (HN' : rep h' (Node a (Some b) (ks ++ [T]) [])).
  { eapply rep_node; [apply nth_set_nth_eq; eapply nth_error_Some_lt; eauto| |exact Hst|exact Hm|].
    - cbn [o_children]. rewrite map_app, Hc. reflexivity.
    - apply Forall_app. split; [apply (hole_kids h _ H); [apply frame_set|exact Hr]|].
      constructor; [|constructor]. eapply rep_other; [apply frame_set|apply (Forall_elt _ _ _ Hr)|exact HnotT]. }
  (* the update of the whole forest leaves T alone; then T is taken out *)
  set (up := tset a (ks ++ [T]) []).
  assert (PG : Permutation (flat_map gflat (map up (Fa ++ Fb))) (flat_map gflat (Fa ++ T :: Fb))).
  { apply (Permutation_app_inv_l (gflat T)). rewrite <- (perm_tset (ks ++ [T]) [] (gflat T) H).
    - fold up. rewrite !map_app, !flat_map_app. cbn [map flat_map].
      replace (up T) with T by (symmetry; apply tset_notin, HnotT). apply Permutation_app_swap_app.
    - unfold gbody. rewrite flat_map_app. cbn [flat_map map]. rewrite !app_nil_r. apply Permutation_app_comm. }
  exists c, (map up (Fa ++ Fb)). split; [|split; [split; cbn [st_heap st_handles sp_docs sp_n]; auto|]].
  - apply (si_l2 S). apply in_flat_map. exists T. split; [exact HT|left; reflexivity].
  - eapply incl_Forall; [apply incl_map, Hsub|]. apply (ho_rep' H h); auto. apply frame_set.
  - eapply sinv_perm; [symmetry; exact PG|exact S].
  - apply roots_tset. eapply incl_Forall; eauto.
  - eapply incl_Forall; [apply incl_map, Hsub|]. apply (ho_leaf' H); auto.
    apply Forall_app. split; [apply (ho_leaf H), Hleaf|]. constructor; [|constructor]. apply (Forall_elt _ _ _ Hleaf).
  - rewrite !map_map. apply map_ext_in. intros x Hx. apply (doc_ins (ks ++ [T]) [] (doc_of T) H); [|apply Hsub, Hx].
    unfold gbody. rewrite flat_map_app. cbn [flat_map map]. rewrite !app_nil_r. apply erase_app.
  - apply Permutation_flat_map, PG.
Qed.

(* insert: commit, then append the inserted root *)
Lemma step_insert st sp F b t : Inv st sp F -> wf_op sp (OInsert b t) = true ->
  exists st' F', step st (OInsert b t) = Some st' /\ Inv st' (spec_step sp (OInsert b t)) F' /\ effect (OInsert b t) F F'.
Proof.
  intros HI Hwf. cbn [wf_op] in Hwf. apply andb_true_iff in Hwf. destruct Hwf as (Hb & Htd).
  destruct (take_doc t (sp_docs sp)) as [[d rest]|] eqn:Etd; [|discriminate]. apply negb_true_iff in Htd.
  destruct st as [h hs]. destruct (handle_lookup _ _ _ (inv_n HI) Hb) as (a & Ha). cbn [st_handles] in Ha.
  destruct (commit_inv h hs sp F b a HI Ha) as (h1 & F1 & o1 & Hc & HI1 & P1 & Hn1 & Hnil).
  destruct (addkid_inv h1 hs sp F1 b a o1 t d rest HI1 Ha Hn1 Hnil Etd Htd) as (c & F' & Hat & HI' & P').
  eexists _, F'. split; [|split].
  - cbn [step st_heap st_handles]. rewrite Ha, Hat. unfold h_insert. rewrite Hc. unfold h_add_child. rewrite Hn1.
    reflexivity.
  - cbn [spec_step]. rewrite Etd. exact HI'.
  - exact (Permutation_trans P' P1).
Qed.

Lemma take_doc_last t ds d : Forall (fun x => is_root t x = false) ds -> is_root t d = true ->
  take_doc t (ds ++ [d]) = Some (d, ds).
Proof. induction 1 as [|x ds Hx _ IH]; intro Hd; simpl; [rewrite Hd|rewrite Hx, IH]; auto. Qed.

Lemma no_root_yet st sp F : Inv st sp F -> Forall (fun x => is_root (sp_n sp) x = false) (sp_docs sp).
Proof.
  intros [_ S Hroots _ Hd Hn]. rewrite Hd. apply Forall_map. apply Forall_forall. intros T HT.
  rewrite Forall_forall in Hroots. destruct (Hroots T HT) as (c & Hc). destruct T as [aT nT ksT fsT].
  cbn in Hc. subst nT. cbn. apply Nat.eqb_neq. intros ->.
  assert (Hlt : sp_n sp < length (st_handles st)); [|lia].
  apply (nth_error_Some_lt _ _ aT), (si_l2 S). apply in_flat_map. exists (Node aT (Some (sp_n sp)) ksT fsT).
  split; [exact HT|left; reflexivity].
Qed.

(* insertion_point: commit, a new buffer, append it *)
Lemma step_point st sp F b : Inv st sp F -> wf_op sp (OPoint b) = true ->
  exists st' F', step st (OPoint b) = Some st' /\ Inv st' (spec_step sp (OPoint b)) F' /\ effect (OPoint b) F F'.
Proof.
  intros HI Hb. cbn [wf_op] in Hb. destruct st as [h hs].
  destruct (handle_lookup _ _ _ (inv_n HI) Hb) as (a & Ha). cbn [st_handles] in Ha.
  destruct (commit_inv h hs sp F b a HI Ha) as (h1 & F1 & o1 & Hc & HI1 & P1 & Hn1 & Hnil).
  destruct (step_new _ _ _ HI1) as (st2 & F2 & Hs2 & HI2 & P2). inversion Hs2; subst st2. clear Hs2.
  cbn [spec_step sp_docs sp_n st_heap st_handles] in HI2.
  pose proof (inv_n HI) as Hlen. cbn [st_handles] in Hlen. set (n := sp_n sp) in *.
  pose proof (nth_error_Some_lt _ _ _ Ha) as Hlt. pose proof (nth_error_Some_lt _ _ _ Hn1) as Hlt1.
  destruct (addkid_inv (h1 ++ [empty_obj]) (hs ++ [length h1]) _ F2 b a o1 n [SOpen n; SClose n] (sp_docs sp) HI2)
    as (c & F' & Hat & HI' & P').
  - rewrite nth_error_app1; auto.
  - rewrite nth_error_app1; auto.
  - exact Hnil.
  - apply take_doc_last; [exact (no_root_yet _ _ _ HI)|apply Nat.eqb_refl].
  - cbn. rewrite orb_false_r. apply Nat.eqb_neq. lia.
  - rewrite <- Hlen, nth_app_len in Hat. inversion Hat; subst c. eexists _, F'. split; [|split].
    + cbn [step st_heap st_handles]. rewrite Ha. unfold h_insertion_point. rewrite Hc. unfold h_add_child.
      rewrite nth_error_app1, Hn1; auto.
    + exact HI'.
    + exact (Permutation_trans P' (Permutation_trans P2 P1)).
Qed.

(* below the top level, split_top moves a closed piece of document into the accumulator unchanged *)
Definition absorbed (x : list item) : Prop :=
  forall d acc l, split_top (S d) acc (x ++ l) = split_top (S d) (acc ++ x) l.

Lemma absorbed_nil : absorbed [].
Proof. intros d acc l. rewrite app_nil_r. reflexivity. Qed.

Lemma absorbed_app x y : absorbed x -> absorbed y -> absorbed (x ++ y).
Proof. intros Hx Hy d acc l. rewrite <- app_assoc, Hx, Hy, app_assoc. reflexivity. Qed.

Lemma absorbed_txt fs : absorbed (erase (map GTxt fs)).
Proof.
  induction fs as [|[s ms] fs IH]; [apply absorbed_nil|]. apply (absorbed_app [STxt s ms]); [|exact IH].
  intros d acc l. reflexivity.
Qed.

Lemma absorbed_hole c x : absorbed x -> absorbed (SOpen c :: x ++ [SClose c]).
Proof.
  intros Hx d acc l. cbn [app split_top]. rewrite <- app_assoc, Hx. cbn [app split_top].
  rewrite <- !app_assoc. reflexivity.
Qed.

Lemma absorbed_body ks fs : Forall (fun t => absorbed (doc_of t)) ks -> absorbed (erase (gbody ks fs)).
Proof.
  intro H. unfold gbody. rewrite erase_app. apply absorbed_app; [|apply absorbed_txt].
  induction H; cbn [flat_map]; [apply absorbed_nil|]. rewrite erase_app. apply absorbed_app; auto.
Qed.

Lemma absorbed_tree : forall t, absorbed (doc_of t).
Proof.
  apply tree_ind'. intros a n ks fs IH. apply (absorbed_body ks fs) in IH. unfold doc_of. rewrite gflat_node.
  destruct n as [c|]; cbn [erase flat_map erase1 app]; rewrite erase_app; cbn [erase flat_map erase1 app].
  - apply absorbed_hole, IH.
  - rewrite app_nil_r. exact IH.
Qed.

Lemma split_top_no_open acc l : has_open l = false -> split_top 0 acc l = [].
Proof.
  unfold has_open. induction l as [|i l IH]; simpl; auto. destruct i; simpl; intro H; auto. discriminate.
Qed.

Lemma split_txt0 : forall fs acc l, split_top 0 acc (erase (map GTxt fs) ++ l) = split_top 0 acc l.
Proof.
  induction fs as [|[s ms] fs IH]; intros acc l; cbn [map erase flat_map erase1 app]; auto.
  cbn [split_top]. fold (erase (map GTxt fs)). apply IH.
Qed.

Definition is_named (t : tree) : bool := match tname t with Some _ => true | None => false end.

Lemma split_top_kids fs : forall ks, Forall tleaf ks ->
  split_top 0 [] (erase (gbody ks fs)) = map doc_of (filter is_named ks).
Proof.
  induction ks as [|k ks IH]; intro Hl.
  - unfold gbody. cbn [flat_map app filter map]. rewrite <- (app_nil_r (erase (map GTxt fs))). apply split_txt0.
  - inversion Hl as [|? ? Hk Hl']; subst. specialize (IH Hl').
    unfold gbody. cbn [flat_map]. rewrite <- app_assoc. fold (gbody ks fs). rewrite erase_app.
    destruct k as [a [c|] ks' fs']; cbn [filter is_named tname map]; unfold doc_of; rewrite gflat_node.
    + cbn [erase flat_map erase1 app]. rewrite erase_app. cbn [erase flat_map erase1 app split_top].
      rewrite <- app_assoc, (absorbed_body ks' fs') by (apply Forall_forall; intros; apply absorbed_tree).
      cbn [app split_top]. rewrite IH. reflexivity.
    + inversion Hk as [? ? ? ? Hnil _]; subst. rewrite (Hnil eq_refl).
      unfold gbody at 1. cbn [erase flat_map erase1 app]. rewrite erase_app. cbn [erase flat_map erase1 app].
      rewrite app_nil_r, split_txt0. exact IH.
Qed.

Lemma filter_perm ks : Permutation (flat_map gflat ks)
  (flat_map gflat (filter is_named ks) ++ flat_map gflat (filter (fun k => negb (is_named k)) ks)).
Proof.
  induction ks as [|k ks IH]; cbn [filter flat_map]; auto.
  destruct (is_named k); cbn [negb flat_map]; rewrite IH, <- ?app_assoc; [reflexivity|apply Permutation_app_swap_app].
Qed.

Lemma anon_no_named_open ks a b : Forall tleaf ks ->
  ~ In (GOpen a (Some b)) (flat_map gflat (filter (fun k => negb (is_named k)) ks)).
Proof.
  intros Hl Hi. apply in_flat_map in Hi. destruct Hi as (k & Hk & Hi). apply filter_In in Hk.
  destruct Hk as (Hk & Hn). rewrite Forall_forall in Hl. specialize (Hl k Hk).
  destruct k as [c [x|] ks' fs']; [discriminate|]. inversion Hl as [? ? ? ? Hnil _]; subst.
  rewrite (Hnil eq_refl) in Hi. simpl in Hi. destruct Hi as [Hi|Hi]; [discriminate|].
  apply in_app_or in Hi. destruct Hi as [Hi|[Hi|[]]]; [|discriminate].
  apply in_map_iff in Hi. destruct Hi as (? & ? & ?). discriminate.
Qed.

(* reset: the holes directly inside become documents of their own *)
Lemma step_reset st sp F b : Inv st sp F -> wf_op sp (OReset b) = true ->
  exists st' F', step st (OReset b) = Some st' /\ Inv st' (spec_step sp (OReset b)) F' /\ effect (OReset b) F F'.
Proof.
  intros HI Hb. cbn [wf_op] in Hb. destruct st as [h hs].
  destruct (handle_lookup _ _ _ (inv_n HI) Hb) as (a & Ha). cbn [st_handles] in Ha.
  destruct (inv_hole HI Ha) as (ks & fs & H & HN). cbn [st_heap] in HN.
  inversion HN as [? ? ? ? o Hn Hc Hst Hm Hk]; subst.
  pose proof HI as [Hr S Hroots Hleaf Hd Hlen]. cbn [st_heap st_handles] in *.
  pose proof (sregion_hole sp F b a ks fs H Hd) as Hreg. pose proof (ho_leaf H Hleaf) as Hlk.
  set (NK := filter is_named ks). set (F0 := map (tset a [] []) F).
  set (B := flat_map gflat (filter (fun k => negb (is_named k)) ks) ++ map GTxt fs).
  assert (Hsub : incl NK ks) by (intros k Hin; apply filter_In in Hin; tauto).
  assert (PG : Permutation (flat_map gflat F) (B ++ flat_map gflat (F0 ++ NK))).
  { destruct (ho_flat H) as (pre & post & _ & E1 & E2). unfold F0. rewrite flat_map_app, E1, E2.
    rewrite (@perm_node_ctx pre post a (Some b) [] [] ks fs (gbody ks fs)) by (cbn; rewrite app_nil_r; reflexivity).
    unfold gbody at 1, B. rewrite (filter_perm ks). fold NK. rewrite <- !app_assoc.
    rewrite (Permutation_app_comm (flat_map gflat NK)), <- !app_assoc. reflexivity. }
  exists (mkState (set_nth a empty_obj h) hs), (F0 ++ NK). split; [|split; [split; cbn [st_heap st_handles]|]].
  - cbn [step st_heap st_handles]. rewrite Ha. unfold h_reset. rewrite Hn. reflexivity.
  - apply Forall_app. split.
    + apply (ho_rep' H h); auto; [apply frame_set|].
      eapply rep_node with (o := empty_obj); try reflexivity; [|constructor].
      apply nth_set_nth_eq. eapply nth_error_Some_lt; eauto.
    + eapply incl_Forall; [exact Hsub|]. apply (hole_kids h _ H); [apply frame_set|exact Hr].
  - apply (sinv_remove hs B); [exact (sinv_perm _ _ _ PG S)|].
    intros a' b' Hi. apply in_app_or in Hi. destruct Hi as [Hi|Hi]; [eapply anon_no_named_open; eauto|].
    apply in_map_iff in Hi. destruct Hi as (? & ? & ?). discriminate.
  - apply Forall_app. split; [apply roots_tset; auto|].
    apply Forall_forall. intros k Hin. apply filter_In in Hin. destruct Hin as (_ & Hin).
    unfold is_named in Hin. unfold named_root. destruct (tname k) as [x|]; [eauto|discriminate].
  - apply Forall_app. split; [apply (ho_leaf' H); auto|eapply incl_Forall; eauto].
  - cbn [spec_step]. rewrite Hreg. cbn [sp_docs]. rewrite (split_top_kids fs ks Hlk), map_app. fold NK. f_equal.
    unfold F0. rewrite Hd, !map_map. apply map_ext_in, (doc_clear H).
  - cbn [spec_step]. rewrite Hreg. exact Hlen.
  - intros f Hf. apply (Permutation_in f (Permutation_sym (Permutation_flat_map gfrag1 PG))).
    fold (gfrags (B ++ flat_map gflat (F0 ++ NK))). rewrite gfrags_app. apply in_or_app. right. exact Hf.
Qed.

Lemma step_inv st sp F o : Inv st sp F -> wf_op sp o = true ->
  exists st' F', step st o = Some st' /\ Inv st' (spec_step sp o) F' /\ effect o F F'.
Proof.
  intros HI Hwf. destruct o; [apply step_new|apply step_point|apply step_write|apply step_insert|apply step_commit|apply step_reset]; auto.
Qed.

Lemma effect_incl o F F' : effect o F F' -> incl (ffrags F') (written [o] ++ ffrags F).
Proof.
  unfold effect. destruct (is_reset o); intro H; [apply incl_appr, H|]. intros f Hf. eapply Permutation_in; eauto.
Qed.

Lemma written_cons o r : written (o :: r) = written [o] ++ written r.
Proof. destruct o; simpl; auto. destruct (is_nil s); reflexivity. Qed.

Lemma run_inv : forall ops st sp F, Inv st sp F -> wf_hist sp ops = true ->
  exists st' F', fold_left ostep ops (Some st) = Some st' /\ Inv st' (fold_left spec_step ops sp) F' /\
    incl (ffrags F') (ffrags F ++ written ops) /\
    (has_reset ops = false -> Permutation (ffrags F') (ffrags F ++ written ops)).
Proof.
  induction ops as [|o r IH]; intros st sp F HI Hwf.
  - exists st, F. simpl. rewrite app_nil_r. split; [reflexivity|]. split; [exact HI|]. split; [apply incl_refl|intros _; reflexivity].
  - cbn [wf_hist] in Hwf. apply andb_true_iff in Hwf. destruct Hwf as (Hwo & Hwr).
    destruct (step_inv st sp F o HI Hwo) as (st1 & F1 & Hs & HI1 & E1).
    destruct (IH st1 (spec_step sp o) F1 HI1 Hwr) as (st2 & F2 & Hf & HI2 & Hincl2 & HP2).
    exists st2, F2. cbn [fold_left ostep]. rewrite Hs, written_cons. split; [exact Hf|]. split; [exact HI2|]. split.
    + eapply incl_tran; [exact Hincl2|]. apply incl_app; [|apply incl_appr, incl_appr, incl_refl].
      eapply incl_tran; [exact (effect_incl _ _ _ E1)|].
      apply incl_app; [apply incl_appr, incl_appl|apply incl_appl]; apply incl_refl.
    + intro Hres. cbn [has_reset existsb] in Hres. apply orb_false_iff in Hres. destruct Hres as (Hro & Hrr).
      unfold effect, is_reset in E1. rewrite Hro in E1. rewrite (HP2 Hrr), E1, (app_assoc (ffrags F)).
      apply Permutation_app_tail, Permutation_app_comm.
Qed.

Definition obs_ok (st : state) (b : nat) (fs : list frag) : Prop :=
  getvalue st b = Some (texts_of fs) /\
  allmarkers st b = Some (marks_of fs) /\
  is_empty st b = Some (is_nil (texts_of fs)) /\
  exists cs, copyto st b = Some cs /\ concat cs = texts_of fs /\ Forall (fun c => c <> []) cs.

Lemma obs_node st b N : nth_error (st_handles st) b = Some (taddr N) -> rep (st_heap st) N ->
  NoDup (taddrs N) -> obs_ok st b (tfrags N).
Proof.
  intros Hb Hr Hnd. destruct (obs_rep _ N Hr (fuel_of st)) as (Hc & Hm & He).
  { unfold fuel_of. pose proof (size_le_heap _ _ Hr Hnd). lia. }
  unfold obs_ok, getvalue, allmarkers, is_empty, copyto. rewrite Hb, Hc. cbn [option_map]. rewrite concat_tchunks.
  repeat split; auto. exists (tchunks N). repeat split; [apply concat_tchunks|apply tchunks_nonempty].
Qed.

Lemma gfrags_node a n ks fs : gfrags (gflat (Node a n ks fs)) = gfrags (gbody ks fs).
Proof. rewrite gflat_node. cbn [gfrags flat_map gfrag1 app]. fold (gfrags (gbody ks fs ++ [GClose a n])).
  rewrite gfrags_app. simpl. apply app_nil_r. Qed.

Lemma obs_inv st sp F b : Inv st sp F -> b < sp_n sp ->
  exists body, sregion sp b = Some body /\ obs_ok st b (frags body) /\ incl (frags body) (ffrags F).
Proof.
  intros HI Hb. destruct (handle_lookup _ b _ (inv_n HI) (proj2 (Nat.ltb_lt _ _) Hb)) as (a & Ha).
  destruct (inv_hole HI Ha) as (ks & fs & H & HN).
  exists (erase (gbody ks fs)). split; [eapply sregion_hole; [exact H|apply HI]|].
  rewrite frags_erase, <- (gfrags_node a (Some b)), gfrags_gflat. split.
  - apply obs_node; auto. exact (ho_nd H).
  - rewrite <- gfrags_gflat, gfrags_node. intros f Hf. apply in_flat_map in Hf. destruct Hf as (i & Hi & Hf).
    apply in_flat_map. exists i. split; [apply (hole_sub H), Hi|exact Hf].
Qed.

Definition cw_op (o : op) : bool :=
  match o with OWrite _ s ms => Nat.eqb (length ms) (count_nl s) | _ => true end.

Definition line_frag (f : frag) : Prop := length (snd f) = count_nl (fst f).

Theorem refines_holes : forall ops, wf_hist init_spec ops = true ->
  exists st, run ops = Some st /\
    forall b, b < sp_n (spec_run ops) ->
      exists body, sregion (spec_run ops) b = Some body /\ obs_ok st b (frags body) /\
                   incl (frags body) (written ops).
Proof.
  intros ops Hwf. destruct (run_inv ops init_state init_spec [] inv_init Hwf) as (st & F & Hrun & HI & Hincl & _).
  exists st. split; [exact Hrun|]. intros b Hb.
  destruct (obs_inv st _ F b HI Hb) as (body & H1 & H2 & H3). exists body.
  split; [exact H1|]. split; [exact H2|]. intros f Hf. apply H3 in Hf. apply Hincl in Hf. exact Hf.
Qed.

Theorem exactly_once : forall ops, wf_hist init_spec ops = true -> has_reset ops = false ->
  Permutation (frags (concat (sp_docs (spec_run ops)))) (written ops).
Proof.
  intros ops Hwf Hres. destruct (run_inv ops init_state init_spec [] inv_init Hwf) as (st & F & _ & HI & _ & HP).
  unfold spec_run. rewrite (inv_docs HI), concat_docs, frags_erase. apply (HP Hres).
Qed.

Lemma count_nl_app s1 s2 : count_nl (s1 ++ s2) = count_nl s1 + count_nl s2.
Proof. induction s1; simpl; auto. rewrite IHs1. lia. Qed.

Lemma line_frags_len fs : Forall line_frag fs -> length (marks_of fs) = count_nl (texts_of fs).
Proof.
  unfold marks_of, texts_of. induction 1 as [|f fs Hf _ IH]; simpl; auto.
  rewrite app_length, count_nl_app, IH. unfold line_frag in Hf. lia.
Qed.

Lemma written_line ops : forallb cw_op ops = true -> Forall line_frag (written ops).
Proof.
  induction ops as [|o r IH]; simpl; intro H; [constructor|]. apply andb_true_iff in H. destruct H as (Ho & Hr).
  destruct o; auto. destruct (is_nil s); auto. constructor; auto. simpl in Ho. apply Nat.eqb_eq in Ho. exact Ho.
Qed.

(* marker k of a buffer belongs to line k of its text: text and markers are the concatenations over
   the same fragment list, and every fragment carries one marker per newline *)
Theorem markers_aligned : forall ops, wf_hist init_spec ops = true -> forallb cw_op ops = true ->
  exists st, run ops = Some st /\
    forall b, b < sp_n (spec_run ops) ->
      exists fs v m, getvalue st b = Some v /\ allmarkers st b = Some m /\
                     v = texts_of fs /\ m = marks_of fs /\ Forall line_frag fs /\ length m = count_nl v.
Proof.
  intros ops Hwf Hcw. destruct (refines_holes ops Hwf) as (st & Hrun & Hobs). exists st. split; auto.
  intros b Hb. destruct (Hobs b Hb) as (body & _ & (Hv & Hm & _) & Hincl).
  assert (HF : Forall line_frag (frags body)) by (eapply incl_Forall; [exact Hincl|apply written_line, Hcw]).
  exists (frags body), (texts_of (frags body)), (marks_of (frags body)). repeat split; auto.
  apply line_frags_len; auto.
Qed.

(* the assembled output: when all buffers have been inserted into one root r, getvalue r is the
   concatenation of all written fragments, each exactly once *)
Theorem final_output : forall ops d r, wf_hist init_spec ops = true -> has_reset ops = false ->
  sp_docs (spec_run ops) = [d] -> is_root r d = true ->
  exists st fs, run ops = Some st /\ getvalue st r = Some (texts_of fs) /\ allmarkers st r = Some (marks_of fs) /\
                fs = frags d /\ Permutation fs (written ops).
Proof.
  intros ops d r Hwf Hres Hdoc Hroot.
  destruct (run_inv ops init_state init_spec [] inv_init Hwf) as (st & F & Hrun & HI & _ & HP).
  specialize (HP Hres). destruct HI as [Hr S Hroots _ Hd _]. unfold spec_run in Hdoc. rewrite Hdoc in Hd.
  destruct F as [|T [|T2 F]]; try discriminate. cbn [map] in Hd. inversion Hd as [Hd']. clear Hd. subst d.
  inversion Hroots as [|? ? (bT & HbT) _]; subst. destruct T as [aT nT ksT fsT]. simpl in HbT. subst nT.
  apply Nat.eqb_eq in Hroot. subst bT. set (T := Node aT (Some r) ksT fsT) in *.
  unfold ffrags in HP. cbn [flat_map] in *. rewrite app_nil_r in *. rewrite gfrags_gflat in HP.
  assert (Ha : nth_error (st_handles st) r = Some aT) by (apply (si_l2 S); left; reflexivity).
  assert (Hnd : NoDup (taddrs T)) by (rewrite <- gaddrs_gflat; apply S).
  inversion Hr as [|? ? HrT _]; subst.
  destruct (obs_node st r T Ha HrT Hnd) as (Hv & Hm & _).
  exists st, (tfrags T). unfold doc_of. rewrite frags_erase, gfrags_gflat. auto 6.
Qed.
(* boundary of the marker assumption: markers appended without text (possible on the raw class,
   never done by CCodeWriter) are not committed by insertion_point and end up after the markers of
   the insertion point, although they were appended before it was made *)
Definition boundary_ops : list op := [ONew; OWrite 0 [] [7%N]; OPoint 0; OWrite 1 [120%N; 10%N] [9%N]].

Lemma markers_without_text_boundary :
  wf_hist init_spec boundary_ops = false /\
  option_map (fun st => allmarkers st 0) (run boundary_ops) = Some (Some [9%N; 7%N]).
Proof. vm_compute. split; reflexivity. Qed.

(* non-vacuity witness used by Prop/C49.v *)
Definition sample_ops : list op :=
  [ONew; OWrite 0 [97%N; 10%N] [1%N]; OPoint 0; OWrite 0 [99%N; 10%N] [3%N]; ONew;
   OWrite 2 [100%N] []; OInsert 1 2; OWrite 1 [98%N; 10%N] [2%N]; OCommit 0].
