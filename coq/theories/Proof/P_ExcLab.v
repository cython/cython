(* C22 -- the label-level code (M_ExcLab.gen / exec_lab) reaches, from every clause position and
   for every kind of exit, the continuation that the structural scheme M_Exc.exec_sch selects;
   hence (P_Exc) the one CPython selects.  Induction on the statement, for every label state:
   the labels a statement allocates are fresh (>= label_counter), the labels it was entered with
   are restored when it is left, and a sub-part generated against the labels L leaves only by
   falling through or by a jump to one of L. *)
From Coq Require Import List Bool Arith Lia.
From CyVerif Require Import Model.M_Exc Model.M_ExcLab Proof.P_Exc.
Import ListNotations.

Definition wf (g : cgs) : Prop :=
  g_err g < g_next g /\ g_ret g < g_next g /\ g_brk g < g_next g /\ g_cont g < g_next g.

Fixpoint lab_size (s : cstmt) : nat :=
  match s with
  | CSeq a b => lab_size a + lab_size b
  | CTry body hs orelse => 8 + lab_size body + lab_size orelse + lab_size_h hs
  | CFinally _ body fin => 9 + lab_size body + 5 * lab_size fin
  | CLoop _ body | CWithScope _ body => 2 + lab_size body
  | _ => 0
  end
with lab_size_h (hs : chandlers) : nat :=
  match hs with
  | CHNil => 0
  | CHCons _ _ body tl => 2 + lab_size body + lab_size_h tl
  end.

Lemma gen_snd :
  (forall s g, snd (gen false s g) = bump (lab_size s) g) /\
  (forall hs g, snd (gen_h false hs g) = bump (lab_size_h hs) g).
Proof.
  apply cstmt_chandlers_ind; intros; cbn [gen gen_h lab_size lab_size_h];
    rewrite ?let_pair; cbn [snd]; rewrite ?H, ?H0, ?H1.
  (* both sides are the labels of g with some counter; cbv evaluates the setters innermost first
     (unfolding them from outside copies the argument five times at every level) *)
  all: destruct g as [ge gr gb gc gn];
    cbv [bump restore set_err set_ret g_err g_ret g_brk g_cont g_next]; f_equal; lia.
Qed.

Definition raises (o : oc) : Prop := (exists e, o = ORaise e) \/ o = OCrash.

Lemma reraise_sch_raises fx c : raises (fst (reraise_sch fx c)).
Proof.
  unfold reraise_sch. destruct (cur c) as [[e|]|]; simpl.
  - left; eauto.
  - right; auto.
  - unfold reraise_dynamic. destruct (handled c); simpl; [left; eauto|].
    left. apply (lift_raise_internal_oc c_runtime c).
Qed.

Section Lab.
Variables fx sx : bool.

(* the jump an outcome becomes in code generated against the labels of g *)
Definition tr (g : cgs) (o : oc) : lx :=
  match o with
  | ONorm => XFall
  | ORaise e => XJump (g_err g) (Some e)
  | ORet => XJump (g_ret g) None
  | OBrk => XJump (g_brk g) None
  | OCont => XJump (g_cont g) None
  | OCrash => XCrash
  end.

Lemma err_to_tr g o : raises o -> err_to (g_err g) o = tr g o.
Proof. intros [[e ->] | ->]; reflexivity. Qed.

Definition PS (s : cstmt) : Prop := forall g c, wf g ->
  exec_lab fx sx (fst (gen false s g)) c =
  (tr g (fst (exec_sch fx sx s c)), snd (exec_sch fx sx s c)).

Definition tl_at (n : nat) (g : cgs) : trylabels :=
  mktl n (2 + n) (3 + n) (4 + n) (5 + n) (6 + n) (g_err g) (g_ret g) (g_brk g) (g_cont g).

(* the except clauses of a statement whose labels start at n (generated at counter m), followed by
   its interceptors *)
Definition PH (hs : chandlers) : Prop := forall n gold m e saved c, 8 + n <= m ->
  let hl := fst (gen_h false hs (mkcg (2 + n) (3 + n) (5 + n) (6 + n) m)) in
  try_exits (tl_at n gold) saved
    (fst (handle_lab fx sx hl e (tl_at n gold) saved c))
    (snd (handle_lab fx sx hl e (tl_at n gold) saved c)) =
  (tr gold (fst (handle_sch fx sx hs e saved c)), snd (handle_sch fx sx hs e saved c)).

(* comparisons among the labels one statement allocates (offsets from its label_counter) need no
   hypothesis; only those against the labels it was entered with do *)
Lemma eqb_off a b n : (a + n =? b + n) = (a =? b).
Proof. destruct (Nat.eqb_spec a b); [apply Nat.eqb_eq|apply Nat.eqb_neq]; lia. Qed.
Lemma eqb_off_l a n : (S a + n =? n) = false.
Proof. apply Nat.eqb_neq. lia. Qed.
Lemma eqb_off_r a n : (n =? S a + n) = false.
Proof. apply Nat.eqb_neq. lia. Qed.

(* decides every label comparison of the goal: syntactically where both sides are offsets from the same
   counter, else by lia from the wf hypothesis in the context (an outer label is below the counter) *)
Ltac eqb_simpl :=
  repeat match goal with
  | |- context [Nat.eqb ?a ?b] =>
      first [ rewrite (Nat.eqb_refl a) | rewrite eqb_off; cbn [Nat.eqb] | rewrite eqb_off_l | rewrite eqb_off_r
            | rewrite (proj2 (Nat.eqb_neq a b)) by lia | rewrite (proj2 (Nat.eqb_eq a b)) by lia ]
  end.

Ltac labs :=
  cbn [g_err g_ret g_brk g_cont g_next set_err set_ret set_brk set_cont restore bump fst snd] in *.
Ltac wf_done := unfold wf in *; labs; lia.

(* Used once the sub-part's outcome o is a constructor, so that it left by the jump [tr g' o] to a known
   label.  The enclosing try / finally code (try_exits, fin_relabel) dispatches on that label by comparing
   it with the labels of its record; tx projects the fields and decides the comparisons, which leaves
   the branch taken. *)
Ltac tx :=
  repeat (progress (unfold fin_relabel;
    cbn [tr try_exits fin_relabel fin_copy t_our_err t_exc_err t_exc_ret t_try_ret t_try_brk t_try_cont
         t_old_err t_old_ret t_old_brk t_old_cont
         f_new_cont f_new_brk f_new_ret f_new_err f_ex_cont f_ex_brk f_ex_ret f_ex_err
         f_old_cont f_old_brk f_old_ret f_old_err andb]; labs; eqb_simpl)).

(* bodies of handlers that skip GetException leave by falling through or by return only *)
Lemma trivial_oc : forall s, trivial s = true -> forall c,
  fst (exec_sch fx sx s c) = ONorm \/ fst (exec_sch fx sx s c) = ORet.
Proof.
  induction s; simpl; try discriminate; intros T st; auto.
  apply andb_prop in T. destruct T as [T1 T2].
  specialize (IHs1 T1 st). destruct (exec_sch fx sx s1 st) as [o st1]. simpl in *.
  destruct IHs1 as [-> | ->]; auto.
Qed.

Lemma lab_main : (forall s, PS s) /\ (forall hs, PH hs).
Proof.
  apply cstmt_chandlers_ind; unfold PS, PH.
  - (* CSkip *) reflexivity.
  - (* CLog *) reflexivity.
  - (* CProbe *) reflexivity.
  - (* CRaise *) intros w cz g c W. cbn [gen fst exec_lab exec_sch].
    destruct (lift_do_raise_oc w cz c) as [e He].
    destruct (lift (do_raise w cz) c) as [o q1]. simpl in *. subst o. reflexivity.
  - (* CReraise *) intros g c W. cbn [gen fst exec_lab exec_sch].
    pose proof (reraise_sch_raises fx c) as R.
    destruct (reraise_sch fx c) as [o q1]. simpl in *. rewrite err_to_tr; auto.
  - (* CSeq *) intros a IHa b IHb g c W. cbn [gen exec_sch].
    rewrite !let_pair, (proj1 gen_snd). cbn [fst exec_lab]. rewrite IHa by exact W.
    destruct (exec_sch fx sx a c) as [o q1]. cbn [fst snd].
    destruct o; cbn [tr]; try reflexivity.
    rewrite IHb by wf_done. destruct (exec_sch fx sx b q1) as [o2 q2]. cbn [fst snd].
    destruct o2; reflexivity.
  - (* CTry *) intros body IHb hs IHh orelse IHo g c W. cbn [gen exec_sch].
    rewrite !let_pair, !(proj1 gen_snd). set (n := g_next g) in *. cbn [fst exec_lab].
    rewrite IHb by wf_done.
    destruct (exec_sch fx sx body c) as [o q1]. cbn [fst snd].
    remember (if sx then top c else handled c) as saved eqn:Esv. clear Esv.
    destruct o; cbn [tr g_err g_ret g_brk g_cont].
    + (* the body completed: else clause *)
      rewrite IHo by wf_done. destruct (exec_sch fx sx orelse q1) as [o2 q2]. cbn [fst snd].
      destruct o2; tx; reflexivity.
    + (* exception in the body: the except clauses *)
      tx. rewrite let_pair. apply IHh. labs. lia.
    + tx; reflexivity.
    + tx; reflexivity.
    + tx; reflexivity.
    + reflexivity.
  - (* CFinally *) intros herr body IHb fin IHf g c W. cbn [gen exec_sch].
    rewrite !let_pair, !(proj1 gen_snd). destruct W as (W1 & W2 & W3 & W4). set (n := g_next g) in *. cbn [fst exec_lab].
    rewrite IHb by (destruct herr; wf_done).
    destruct (exec_sch fx sx body c) as [o q1]. cbn [fst snd].
    destruct o; cbn [tr g_err g_ret g_brk g_cont].
    + (* normal exit *)
      rewrite IHf by wf_done. destruct (exec_sch fx sx fin q1) as [o2 q2]. cbn [fst snd].
      destruct o2; reflexivity.
    + (* exception exit *)
      destruct herr; tx.
      * rewrite IHf by wf_done.
        destruct (exec_sch fx sx fin (set_cur (Some (Some e)) (set_top (Some e) q1))) as [o2 q2].
        cbn [fst snd]. destruct o2; tx; try reflexivity.
        destruct (cur q2) as [[e'|]|]; reflexivity.
      * reflexivity.
    + (* return *)
      destruct herr; tx; rewrite IHf by wf_done;
        destruct (exec_sch fx sx fin q1) as [o2 q2]; destruct o2; reflexivity.
    + (* break *)
      destruct herr; tx; rewrite IHf by wf_done;
        destruct (exec_sch fx sx fin q1) as [o2 q2]; destruct o2; reflexivity.
    + (* continue *)
      destruct herr; tx; rewrite IHf by wf_done;
        destruct (exec_sch fx sx fin q1) as [o2 q2]; destruct o2; reflexivity.
    + reflexivity.
  - (* CLoop *) intros k body IHb g c W. cbn [gen exec_sch].
    rewrite !let_pair. destruct W as (W1 & W2 & W3 & W4). set (n := g_next g) in *.
    cbn [fst exec_lab].
    revert c. induction k as [|k IHk]; intros c; [reflexivity|].
    rewrite IHb by wf_done.
    destruct (exec_sch fx sx body c) as [o q1]. cbn [fst snd].
    destruct o; tx; try reflexivity; apply IHk.
  - (* CReturn *) reflexivity.
  - (* CBreak *) reflexivity.
  - (* CContinue *) reflexivity.
  - (* CDel *) reflexivity.
  - (* CWithScope *) intros k body IHb g c W. cbn [gen exec_sch].
    rewrite !let_pair. cbn [fst exec_lab]. rewrite IHb by wf_done.
    destruct (exec_sch fx sx body _) as [o q1]. cbn [fst snd].
    destruct o; reflexivity.
  - (* CExitExc *) intros k x g c W. cbn [gen fst exec_lab exec_sch].
    destruct x as [| |m]; try reflexivity.
    match goal with |- context [reraise_sch fx ?st] =>
      pose proof (reraise_sch_raises fx st) as R; destruct (reraise_sch fx st) as [o q1] end.
    simpl in *. rewrite err_to_tr; auto.
  - (* CExitNone *) intros k x g c W. cbn [gen fst exec_lab exec_sch].
    destruct (wx c); [|reflexivity].
    destruct x as [| |m]; reflexivity.
  - (* CHNil *) intros n gold m e saved c G.
    cbn [gen_h fst snd handle_lab handle_sch]. unfold tl_at. tx. reflexivity.
  - (* CHCons *) intros pat name body IHb tl IHt n gold m e saved c G.
    cbn [gen_h handle_sch]. rewrite !let_pair, (proj1 gen_snd). cbn [fst handle_lab].
    destruct (pat_matches pat (cls_of c e)).
    + destruct ((match name with Some _ => true | None => false end) || negb (trivial body)) eqn:T.
      * rewrite IHb by wf_done.
        destruct (exec_sch fx sx body _) as [o q1]. cbn [fst snd].
        unfold tl_at. destruct o; tx; reflexivity.
      * rewrite IHb by wf_done.
        apply orb_false_elim in T. destruct T as [_ T]. apply negb_false_iff in T.
        pose proof (trivial_oc body T c) as TO.
        destruct (exec_sch fx sx body c) as [o q1]. cbn [fst snd] in *.
        unfold tl_at. destruct TO as [-> | ->]; tx; reflexivity.
    + apply IHt. labs. lia.
Qed.

End Lab.

Theorem gen_selects_scheme_continuation : forall fx sx s g c, wf g ->
  exec_lab fx sx (fst (gen false s g)) c =
  (tr g (fst (exec_sch fx sx s c)), snd (exec_sch fx sx s c)).
Proof. intros fx sx s g c W. apply (proj1 (lab_main fx sx) s g c W). Qed.

Theorem gen_restores_labels : forall s g,
  let g' := snd (gen false s g) in
  g_err g' = g_err g /\ g_ret g' = g_ret g /\ g_brk g' = g_brk g /\ g_cont g' = g_cont g /\
  g_next g <= g_next g'.
Proof. intros s g. rewrite (proj1 gen_snd). cbn. repeat split. lia. Qed.

Lemma untr_tr o : untr g_fun (tr g_fun o) = o.
Proof. destruct o; reflexivity. Qed.

Lemma wf_fun : wf g_fun.
Proof. unfold wf, g_fun; simpl; lia. Qed.

(* whole functions, with-blocks included *)
Theorem run_lab_eq_run_sch : forall fx sx s h t b,
  run_lab false fx sx s h t b = run_sch fx sx s h t b.
Proof.
  intros fx sx s h t b. unfold run_lab, run_sch.
  rewrite (gen_selects_scheme_continuation fx sx (desugar s) g_fun _ wf_fun).
  rewrite untr_tr. destruct (exec_sch fx sx (desugar s) (init_state h t b)); reflexivity.
Qed.

Theorem lab_matches_reference : forall sx s h t b,
  same_obs (run_ref s h t b) (run_lab false true sx s h t b).
Proof. intros. rewrite run_lab_eq_run_sch. apply repaired_matches_reference. Qed.

Theorem lab_current_matches_reference_unless_crash : forall sx s h t b,
  fst (run_lab false false sx s h t b) <> OCrash ->
  same_obs (run_ref s h t b) (run_lab false false sx s h t b).
Proof.
  intros sx s h t b NC. rewrite run_lab_eq_run_sch in *.
  apply current_matches_reference_unless_crash; auto.
Qed.

(* an exit taken in the else clause never reaches the except clauses of its own statement: whatever
   hs is, it arrives at the label that stood for its kind before the statement *)
Theorem else_exits_bypass_own_handlers : forall fx sx body hs orelse g c c1 o c2,
  wf g ->
  exec_sch fx sx body c = (ONorm, c1) -> exec_sch fx sx orelse c1 = (o, c2) ->
  o <> ONorm -> o <> OCrash ->
  exec_lab fx sx (fst (gen false (CTry body hs orelse) g)) c =
  (tr g o, set_top (if sx then top c else handled c) c2).
Proof.
  intros fx sx body hs orelse g c c1 o c2 W Eb Eo N1 N2.
  rewrite gen_selects_scheme_continuation by exact W.
  cbn [exec_sch]. rewrite Eb, Eo. destruct o; try congruence; reflexivity.
Qed.

(* sensitivity: with the error label switched only after the else clause was generated, an
   exception raised in an else clause is caught by the statement's own matching handler *)
Definition else_raises_matching : stmt :=
  STry (SLog 1) (HCons (Some 3) None (SLog 2) HNil) (SRaise (RNew 3) NoCause).

Theorem late_switch_refuted :
  exists s h t b,
    fst (run_lab true true true s h t b) = ONorm /\ fst (run_ref s h t b) = ORaise 0 /\
    fst (run_lab false true true s h t b) = ORaise 0.
Proof. exists else_raises_matching, [], None, None. vm_compute. auto. Qed.
