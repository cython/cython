(* C27: the dispatch generated for a cpdef method (pre-filter, override check, dict-version cache) runs what
   Python's attribute lookup selects.  A simulation: Rel ties the world of the generated code (dicts with
   version tags, the cache) to the plain class and instance dicts of the Python semantics; Inv is Base (version
   tags positive, below the counter, unique) and, with the cache compiled in, CacheOK.  step_sim is one
   operation; the theorems follow by induction over the history. *)
From Coq Require Import ZArith List Bool Lia ZifyBool Arith.
From CyVerif Require Import Model.M_Override.
Import ListNotations.
Open Scope Z_scope.

Lemma upd_length {A} (l : list A) i x : length (upd l i x) = length l.
Proof. revert i; induction l as [|y l IH]; intros [|i]; cbn; auto. Qed.

Lemma nth_upd_same {A} (l : list A) i x d : (i < length l)%nat -> nth i (upd l i x) d = x.
Proof. revert i; induction l as [|y l IH]; intros [|i] H; cbn in *; try lia; auto. apply IH; lia. Qed.

Lemma nth_upd_other {A} (l : list A) i j x d : i <> j -> nth j (upd l i x) d = nth j l d.
Proof.
  revert i j; induction l as [|y l IH]; intros [|i] [|j] H; cbn; auto; try congruence.
Qed.

Lemma nth_error_upd_same {A} (l : list A) i x : (i < length l)%nat -> nth_error (upd l i x) i = Some x.
Proof. revert i; induction l as [|y l IH]; intros [|i] H; cbn in *; try lia; auto. apply IH; lia. Qed.

Lemma nth_error_upd_other {A} (l : list A) i j x : i <> j -> nth_error (upd l i x) j = nth_error l j.
Proof.
  revert i j; induction l as [|y l IH]; intros [|i] [|j] H; cbn; auto; try congruence.
Qed.

Lemma map_upd {A B} (f : A -> B) (l : list A) i x : map f (upd l i x) = upd (map f l) i (f x).
Proof. revert i; induction l as [|y l IH]; intros [|i]; cbn; auto. now rewrite IH. Qed.

Lemma upd_nth_id {A} (l : list A) i d : upd l i (nth i l d) = l.
Proof. revert i; induction l as [|y l IH]; intros [|i]; cbn; auto. now rewrite IH. Qed.

Lemma upd_same_id {A} (l : list A) i x : nth_error l i = Some x -> upd l i x = l.
Proof. intros H. rewrite <- (nth_error_nth l i x H) at 1. apply upd_nth_id. Qed.

Lemma nth_error_lt {A} (l : list A) i x : nth_error l i = Some x -> (i < length l)%nat.
Proof. intros H. apply nth_error_Some. congruence. Qed.

Lemma nth_error_upd {A} (l : list A) i x j y :
  nth_error (upd l i x) j = Some y -> nth_error l j = Some y \/ (j = i /\ y = x).
Proof.
  intros H. destruct (Nat.eq_dec i j) as [<-|N].
  - right. pose proof (nth_error_lt _ _ _ H) as L. rewrite upd_length in L.
    rewrite nth_error_upd_same in H by exact L. split; congruence.
  - left. rewrite nth_error_upd_other in H by exact N. exact H.
Qed.

Lemma nth_error_app_last {A} (l : list A) x i y :
  nth_error (l ++ [x]) i = Some y -> nth_error l i = Some y \/ (i = length l /\ y = x).
Proof.
  intros H. destruct (Nat.lt_ge_cases i (length l)) as [Hl|Hl].
  - left. rewrite nth_error_app1 in H by assumption. assumption.
  - right. rewrite nth_error_app2 in H by assumption.
    destruct (i - length l)%nat as [|n] eqn:E; cbn in H.
    + split; [lia|congruence].
    + destruct n; discriminate.
Qed.

Lemma mro_find_ext cd cd' m : (forall c, In c m -> cd c = cd' c) -> mro_find cd m = mro_find cd' m.
Proof.
  induction m as [|c m IH]; intros H; cbn; [reflexivity|].
  rewrite (H c) by (left; reflexivity). destruct (cd' c); [reflexivity|]. apply IH. intros; apply H; right; assumption.
Qed.

Lemma existsb_eqb_In k m : existsb (Nat.eqb k) m = true <-> In k m.
Proof.
  rewrite existsb_exists. split.
  - intros (x & Hi & He). apply Nat.eqb_eq in He. subst. assumption.
  - intros H. exists k. split; [assumption|apply Nat.eqb_refl].
Qed.

Lemma init_cls_nth h : forall j v i, (i < length h)%nat ->
  nth i (init_cls h j v) (mkcs None 0) = mkcs (init_entry (j + i) (nth i h dcls)) (v + Z.of_nat i).
Proof.
  induction h as [|d h IH]; intros j v i Hi; cbn in *; [lia|].
  destruct i as [|i].
  - rewrite Nat.add_0_r, Z.add_0_r. reflexivity.
  - rewrite IH by lia. f_equal; [f_equal; lia|lia].
Qed.

Lemma init_cls_length h : forall j v, length (init_cls h j v) = length h.
Proof. induction h as [|d h IH]; intros; cbn; auto. Qed.

Lemma wf_from_nth h0 : forall l i j, wf_from h0 i l = true -> (j < length l)%nat ->
  wf_cls h0 (i + j) (nth j l dcls) = true.
Proof.
  induction l as [|d l IH]; intros i j H Hj; cbn in *; [lia|].
  apply andb_true_iff in H as [H1 H2]. destruct j as [|j].
  - now rewrite Nat.add_0_r.
  - replace (i + S j)%nat with (S i + j)%nat by lia. apply IH; [assumption|lia].
Qed.

Section Hier.
Variable h : hier.
Hypothesis Hwf : wf_hier h = true.
Variable fx : bool.

Lemma wf_c c : (c < length h)%nat -> wf_cls h c (getc h c) = true.
Proof. intros H. apply (wf_from_nth h h 0 c Hwf H). Qed.

Lemma wf_mro_head c : (c < length h)%nat -> exists r, cmro (getc h c) = c :: r /\ ~ In c r.
Proof.
  intros H. pose proof (wf_c c H) as W. unfold wf_cls in W.
  apply andb_true_iff in W as [W _]. apply andb_true_iff in W as [W _].
  destruct (cmro (getc h c)) as [|c0 r]; [discriminate|].
  apply andb_true_iff in W as [W1 W2]. apply Nat.eqb_eq in W1. subst c0.
  exists r. split; [reflexivity|]. intros Hin. apply existsb_eqb_In in Hin. rewrite Hin in W2. discriminate.
Qed.

Lemma wf_mro_valid c b : (c < length h)%nat -> In b (cmro (getc h c)) -> (b < length h)%nat.
Proof.
  intros H Hin. pose proof (wf_c c H) as W. unfold wf_cls in W.
  apply andb_true_iff in W as [W _]. apply andb_true_iff in W as [_ W].
  rewrite forallb_forall in W. specialize (W b Hin). unfold validc in W. apply Nat.ltb_lt in W. assumption.
Qed.

Lemma wf_ext_mro c b : (c < length h)%nat -> is_py (getc h c) = false -> In b (cmro (getc h c)) ->
  is_py (getc h b) = false.
Proof.
  intros H Hk Hin. pose proof (wf_c c H) as W. unfold wf_cls in W.
  apply andb_true_iff in W as [_ W]. rewrite Hk in W. rewrite forallb_forall in W.
  specialize (W b Hin). unfold is_ext in W. now apply negb_true_iff in W.
Qed.

Lemma wf_cpdef_ext c : (c < length h)%nat -> cdecl (getc h c) = MCpdef -> is_py (getc h c) = false.
Proof.
  intros H Hd. pose proof (wf_c c H) as W. unfold wf_cls in W.
  apply andb_true_iff in W as [_ W]. destruct (is_py (getc h c)); [|reflexivity]. rewrite Hd in W. discriminate.
Qed.

Lemma in_mro_self c : (c < length h)%nat -> in_mro h c c = true.
Proof.
  intros H. destruct (wf_mro_head c H) as (r & E & _). unfold in_mro. rewrite E. cbn. now rewrite Nat.eqb_refl.
Qed.

Lemma first_cpdef_in m k : first_cpdef h m = Some k -> In k m /\ cdecl (getc h k) = MCpdef.
Proof.
  induction m as [|c m IH]; cbn; [discriminate|].
  destruct (cdecl (getc h c)) eqn:E; intros H.
  - inversion H; subst. split; [left; reflexivity|assumption].
  - destruct (IH H). split; [right|]; assumption.
  - destruct (IH H). split; [right|]; assumption.
Qed.

(* in a list of extension types without plain def overrides, whose dicts hold their initial entry,
   the MRO search finds the wrapper of the most derived cpdef definition *)
Lemma mro_find_ext_chain cd m :
  no_ext_def h = true ->
  (forall c, In c m -> (c < length h)%nat /\ is_py (getc h c) = false /\ cd c = init_entry c (getc h c)) ->
  mro_find cd m = option_map Wrap (first_cpdef h m).
Proof.
  intros Hnd. induction m as [|c m IH]; intros H; cbn; [reflexivity|].
  destruct (H c (or_introl eq_refl)) as (Hc & Hk & He). rewrite He. unfold init_entry.
  destruct (cdecl (getc h c)) eqn:Ed; cbn.
  - reflexivity.
  - exfalso. unfold no_ext_def in Hnd. rewrite forallb_forall in Hnd.
    specialize (Hnd (getc h c)). unfold getc in *. rewrite Hk, Ed in Hnd.
    assert (In (nth c h dcls) h) by (apply nth_In; assumption). specialize (Hnd H0). discriminate.
  - apply IH. intros c' Hin. apply H. right. assumption.
Qed.

Record Base (w : world) : Prop := {
  b_len : length (w_cls w) = length h;
  b_ext : forall c, (c < length h)%nat -> is_py (getc h c) = false -> cd_w w c = init_entry c (getc h c);
  b_ocls : forall oi o, nth_error (w_objs w) oi = Some o -> (os_cls o < length h)%nat;
  b_nodict : forall oi o, nth_error (w_objs w) oi = Some o -> has_dict h (os_cls o) = false -> os_dict o = None;
  b_next : 0 < w_next w;
  b_cver : forall c, (c < length h)%nat -> 0 < tp_ver w c < w_next w;
  b_over : forall oi o e v, nth_error (w_objs w) oi = Some o -> os_dict o = Some (e, v) -> 0 < v < w_next w;
  b_cuniq : forall c c', (c < length h)%nat -> (c' < length h)%nat -> tp_ver w c = tp_ver w c' -> c = c';
  b_ouniq : forall oi oj o o' e e' v, nth_error (w_objs w) oi = Some o -> nth_error (w_objs w) oj = Some o' ->
       os_dict o = Some (e, v) -> os_dict o' = Some (e', v) -> oi = oj
}.

(* the invariant of the dict-version cache of C body k: a type whose dict carries the cached
   type tag resolves m (at type level) to k's own wrapper; the instance dict carrying the cached
   instance tag has no entry for m *)
Definition CacheOK (w : world) : Prop := forall k,
  fst (cache_find (w_cache w) k) < w_next w /\ snd (cache_find (w_cache w) k) < w_next w /\
  (forall c, (c < length h)%nat -> tp_ver w c = fst (cache_find (w_cache w) k) ->
     type_lookup h (cd_w w) c = Some (Wrap k) /\ in_mro h k c = true /\
     (fx = true -> static_bases h c = true)) /\
  (forall oi o e, nth_error (w_objs w) oi = Some o ->
     os_dict o = Some (e, snd (cache_find (w_cache w) k)) -> e = None).

Definition Inv (cv : bool) (w : world) : Prop := Base w /\ (cv = true -> CacheOK w).

Lemma base_w0 : Base (w0 h).
Proof.
  unfold w0. constructor; cbn [w_cls w_objs w_cache w_next].
  - apply init_cls_length.
  - intros c Hc _. unfold cd_w, cs_get. cbn [w_cls]. rewrite init_cls_nth by assumption. reflexivity.
  - intros [|oi] o H; discriminate.
  - intros [|oi] o H; discriminate.
  - lia.
  - intros c Hc. unfold tp_ver, cs_get. cbn [w_cls]. rewrite init_cls_nth by assumption. cbn [cs_ver]. lia.
  - intros [|oi] o e v H; discriminate.
  - intros c c' Hc Hc'. unfold tp_ver, cs_get. cbn [w_cls]. rewrite !init_cls_nth by assumption. cbn [cs_ver]. lia.
  - intros [|oi] oj o o' e e' v H; discriminate.
Qed.

Lemma cache_w0 : CacheOK (w0 h).
Proof.
  intros k. pose proof base_w0 as B. cbn. unfold VINIT. split; [lia|]. split; [lia|]. split.
  - intros c Hc E. pose proof (b_cver _ B c Hc). lia.
  - intros [|oi] o e H; discriminate.
Qed.

Lemma cs_get_upd_same w c x : (c < length (w_cls w))%nat -> nth c (upd (w_cls w) c x) (mkcs None 0) = x.
Proof. apply nth_upd_same. Qed.

Lemma cs_get_set_class w c e c' : (c < length (w_cls w))%nat ->
  cs_get (set_class w c e) c' = if Nat.eqb c c' then mkcs e (w_next w) else cs_get w c'.
Proof.
  intros H. unfold cs_get, set_class. cbn [w_cls]. destruct (Nat.eqb_spec c c') as [<-|N].
  - apply nth_upd_same, H.
  - apply nth_upd_other, N.
Qed.

Lemma base_set_class w c e : Base w -> (c < length h)%nat -> is_py (getc h c) = true ->
  Base (set_class w c e).
Proof.
  intros B Hc Hp. rewrite <- (b_len _ B) in Hc. pose proof (b_next _ B) as Hn.
  constructor; unfold cd_w, tp_ver.
  - cbn. rewrite upd_length. apply (b_len _ B).
  - intros c' Hc' Hk. rewrite cs_get_set_class by assumption.
    destruct (Nat.eqb_spec c c') as [<-|N]; [congruence|]. apply (b_ext _ B); assumption.
  - apply (b_ocls _ B).
  - apply (b_nodict _ B).
  - cbn. lia.
  - intros c' Hc'. rewrite cs_get_set_class by assumption. pose proof (b_cver _ B c' Hc') as Q. unfold tp_ver in Q.
    destruct (Nat.eqb c c'); cbn; lia.
  - intros oi o e0 v H1 H2. pose proof (b_over _ B _ _ _ _ H1 H2). cbn. lia.
  - intros c1 c2 H1 H2. rewrite !cs_get_set_class by assumption.
    pose proof (b_cver _ B c1 H1) as Q1. pose proof (b_cver _ B c2 H2) as Q2. unfold tp_ver in Q1, Q2.
    destruct (Nat.eqb_spec c c1), (Nat.eqb_spec c c2); cbn; try lia. apply (b_cuniq _ B); assumption.
  - apply (b_ouniq _ B).
Qed.

Lemma leaf_not_in_mro c c' : is_leaf h c = true -> (c' < length h)%nat -> c' <> c -> ~ In c (cmro (getc h c')).
Proof.
  intros L Hc' N Hin. unfold is_leaf in L. rewrite forallb_forall in L.
  assert (Hi : In (getc h c') h) by (apply nth_In; assumption).
  specialize (L _ Hi). destruct (wf_mro_head c' Hc') as (r & E & _). rewrite E in L, Hin.
  destruct Hin as [->|Hin]; [congruence|]. apply existsb_eqb_In in Hin. rewrite Hin in L. discriminate.
Qed.

Lemma cache_set_class w c e : Base w -> CacheOK w -> (c < length h)%nat -> is_py (getc h c) = true ->
  is_leaf h c = true \/ fx = true ->
  CacheOK (set_class w c e).
Proof.
  intros B C Hc Hpy L k. destruct (C k) as (C1 & C2 & C3 & C4).
  assert (Hl : (c < length (w_cls w))%nat) by (rewrite (b_len _ B); exact Hc).
  split; [cbn; lia|]. split; [cbn; lia|]. split; [|exact C4].
  intros c' Hc' E. unfold tp_ver in E. rewrite cs_get_set_class in E by assumption.
  destruct (Nat.eqb_spec c c') as [<-|N]; [cbn in E; clear - E C1; lia|].
  destruct (C3 c' Hc' E) as (T1 & T2 & T3). split; [|split; assumption].
  rewrite <- T1. unfold type_lookup. apply mro_find_ext. intros x Hx.
  unfold cd_w. rewrite cs_get_set_class by assumption.
  destruct (Nat.eqb_spec c x) as [<-|Nx]; [exfalso|reflexivity].
  destruct L as [L|L]; [exact (leaf_not_in_mro c c' L Hc' (not_eq_sym N) Hx)|].
  specialize (T3 L). unfold static_bases in T3. rewrite forallb_forall in T3.
  destruct (wf_mro_head c' Hc') as (r & Em & _). rewrite Em in Hx, T3. cbn [tl] in T3.
  destruct Hx as [->|Hx]; [congruence|]. specialize (T3 c Hx). unfold is_ext in T3. rewrite Hpy in T3. discriminate.
Qed.

(* one slot of the object list is filled (overwritten or appended) with an object of class c that
   has no dict, or a dict carrying the next fresh tag *)
Lemma base_put w objs oi c d nx : Base w ->
  (forall oj o, nth_error objs oj = Some o -> nth_error (w_objs w) oj = Some o \/ (oj = oi /\ o = mkos c d)) ->
  (c < length h)%nat ->
  (d = None /\ nx = w_next w) \/ (exists e, d = Some (e, w_next w) /\ nx = w_next w + 1 /\ has_dict h c = true) ->
  Base (mkw (w_cls w) objs (w_cache w) nx).
Proof.
  intros B Hput Hc Hd. pose proof (b_next _ B) as Hn.
  assert (Hnx : w_next w <= nx) by (destruct Hd as [[_ ->]|(e & _ & -> & _)]; lia).
  assert (Hv : forall e v, d = Some (e, v) -> v = w_next w /\ v < nx).
  { intros e v E. destruct Hd as [[-> _]|(e' & -> & -> & _)]; [discriminate|]. injection E as _ <-. lia. }
  constructor; cbn [w_cls w_objs w_cache w_next].
  - apply (b_len _ B).
  - apply (b_ext _ B).
  - intros oj o H. destruct (Hput _ _ H) as [H'|[_ ->]]; [apply (b_ocls _ B _ _ H')|exact Hc].
  - intros oj o H Hh. destruct (Hput _ _ H) as [H'|[_ ->]]; [apply (b_nodict _ B _ _ H' Hh)|].
    cbn in *. destruct Hd as [[-> _]|(e & _ & _ & Hd)]; congruence.
  - lia.
  - intros c' Hc'. pose proof (b_cver _ B c' Hc'). unfold tp_ver, cs_get in *. cbn [w_cls]. lia.
  - intros oj o e v H E. destruct (Hput _ _ H) as [H'|[_ ->]].
    + pose proof (b_over _ B _ _ _ _ H' E). lia.
    + destruct (Hv _ _ E). lia.
  - apply (b_cuniq _ B).
  - intros o1 o2 a b e1 e2 v H1 H2 V1 V2.
    destruct (Hput _ _ H1) as [H1'|[-> ->]], (Hput _ _ H2) as [H2'|[-> ->]].
    + apply (b_ouniq _ B _ _ _ _ _ _ _ H1' H2' V1 V2).
    + pose proof (b_over _ B _ _ _ _ H1' V1). destruct (Hv _ _ V2). lia.
    + pose proof (b_over _ B _ _ _ _ H2' V2). destruct (Hv _ _ V1). lia.
    + reflexivity.
Qed.

Lemma cache_put w objs oi c d nx : CacheOK w ->
  (forall oj o, nth_error objs oj = Some o -> nth_error (w_objs w) oj = Some o \/ (oj = oi /\ o = mkos c d)) ->
  (forall e v, d = Some (e, v) -> v = w_next w) -> w_next w <= nx ->
  CacheOK (mkw (w_cls w) objs (w_cache w) nx).
Proof.
  intros C Hput Hv Hnx k. destruct (C k) as (C1 & C2 & C3 & C4).
  cbn [w_cls w_objs w_cache w_next]. split; [lia|]. split; [lia|]. split; [exact C3|].
  intros oj o e H E. destruct (Hput _ _ H) as [H'|[_ ->]]; [apply (C4 _ _ _ H' E)|].
  apply Hv in E. lia.
Qed.

Lemma base_set_obj w oi o e : Base w -> nth_error (w_objs w) oi = Some o -> has_dict h (os_cls o) = true ->
  Base (set_obj w oi (mkos (os_cls o) (Some (e, w_next w)))).
Proof.
  intros B Ho Hd. apply (base_put w _ oi (os_cls o) _ _ B (nth_error_upd _ _ _) (b_ocls _ B _ _ Ho)). eauto.
Qed.

Lemma cache_set_obj w oi o e : CacheOK w -> CacheOK (set_obj w oi (mkos (os_cls o) (Some (e, w_next w)))).
Proof.
  intros C. apply (cache_put w _ oi (os_cls o) _ _ C (nth_error_upd _ _ _)); [congruence|lia].
Qed.

Lemma lookup_ext cd cd' c i : (forall x, cd x = cd' x) -> lookup h cd c i = lookup h cd' c i.
Proof.
  intros E. unfold lookup, type_lookup. rewrite (mro_find_ext cd cd') by (intros; apply E). reflexivity.
Qed.

Lemma lookup_twrap_inv cd c i k : lookup h cd c i = TWrap k ->
  i = None /\ type_lookup h cd c = Some (Wrap k) /\ in_mro h k c = true.
Proof.
  unfold lookup. destruct i as [n|]; [discriminate|]. destruct (type_lookup h cd c) as [[n|k']|]; cbn; try discriminate.
  destruct (in_mro h k' c) eqn:E; [|discriminate]. intros H. inversion H; subst. auto.
Qed.

(* prefilter says "cannot be overridden" -> Python lookup resolves to the wrapper of the C body in
   the vtable slot *)
Lemma prefilter_sound_w w oi o k : Base w -> no_ext_def h = true ->
  nth_error (w_objs w) oi = Some o -> prefilter h (os_cls o) = false -> vslot h (os_cls o) = Some k ->
  lookup h (cd_w w) (os_cls o) (inst_m o) = TWrap k.
Proof.
  intros B Hnd Ho Hp Hv. unfold prefilter in Hp. apply orb_false_iff in Hp as [Hd Hk].
  pose proof (b_ocls _ B _ _ Ho) as Hc.
  unfold inst_m. rewrite (b_nodict _ B _ _ Ho Hd). unfold lookup, type_lookup.
  rewrite (mro_find_ext_chain (cd_w w) (cmro (getc h (os_cls o))) Hnd).
  - unfold vslot in Hv. rewrite Hv. cbn. destruct (first_cpdef_in _ _ Hv) as [Hin _].
    unfold in_mro. apply existsb_eqb_In in Hin. now rewrite Hin.
  - intros c Hin. pose proof (wf_mro_valid _ _ Hc Hin) as Hv'. pose proof (wf_ext_mro _ _ Hc Hk Hin) as He.
    split; [assumption|]. split; [assumption|]. apply (b_ext _ B); assumption.
Qed.

(* the C body of a cpdef method changes nothing but the dict-version cache *)
Definition with_cache (w : world) (l : list (nat * (Z * Z))) : world := mkw (w_cls w) (w_objs w) l (w_next w).

Lemma base_with_cache w l : Base w -> Base (with_cache w l).
Proof. intros B. destruct B. constructor; assumption. Qed.

(* __Pyx_get_object_dict_version *)
Lemma read_obj_ver_eq w oi : read_obj_ver h w oi = (w, snd (read_obj_ver h w oi)).
Proof.
  unfold read_obj_ver. destruct (nth_error (w_objs w) oi) as [o|]; [destruct (os_dict o) as [[e v]|]|]; reflexivity.
Qed.

Lemma read_obj_ver_snd w oi o : nth_error (w_objs w) oi = Some o ->
  (snd (read_obj_ver h w oi) = 0 /\ os_dict o = None) \/ os_dict o = Some (inst_m o, snd (read_obj_ver h w oi)).
Proof.
  intros Ho. unfold read_obj_ver, inst_m. rewrite Ho. destruct (os_dict o) as [[e v]|]; cbn; auto.
Qed.

Lemma slow_path_cache cached w k oi o : exists l, fst (slow_path cached fx h w k oi o) = with_cache w l.
Proof.
  unfold slow_path. rewrite read_obj_ver_eq. destruct w.
  destruct (lookup _ _ _ _) as [k'| | |]; [destruct (Nat.eqb k' k), cached|..]; eexists; reflexivity.
Qed.

Lemma cbody_cache cached w k skip oi o : exists l, fst (cbody cached fx h w k skip oi o) = with_cache w l.
Proof.
  unfold cbody. rewrite read_obj_ver_eq.
  destruct skip, (cdecl_dict (getc h k) || prefilter h (os_cls o)), cached,
    (fst (cache_find (w_cache w) k) =? tp_ver w (os_cls o)),
    (snd (cache_find (w_cache w) k) =? snd (read_obj_ver h w oi));
    try apply slow_path_cache; destruct w; eexists; reflexivity.
Qed.

Lemma slow_path_ok cached cv w k oi o : Inv cv w -> (cached = true -> cv = true) ->
  nth_error (w_objs w) oi = Some o ->
  snd (slow_path cached fx h w k oi o) = res_of_target (lookup h (cd_w w) (os_cls o) (inst_m o)) /\
  (cv = true -> CacheOK (fst (slow_path cached fx h w k oi o))).
Proof.
  intros [B C] Hcv Ho. unfold slow_path. rewrite read_obj_ver_eq.
  destruct (lookup h (cd_w w) (os_cls o) (inst_m o)) as [k'| | |] eqn:El; cbn [fst snd res_of_target]; auto.
  destruct (Nat.eqb_spec k' k) as [->|N]; cbn [fst snd]; [|auto].
  destruct cached; cbn [fst snd]; [|auto].
  split; [reflexivity|]. intros Ecv. specialize (C Ecv). rewrite Z.eqb_refl. cbn [andb].
  pose proof (read_obj_ver_snd w oi o Ho) as Hver. set (ov := snd (read_obj_ver h w oi)) in *.
  destruct (lookup_twrap_inv _ _ _ _ El) as (Hi & Ht & Hm).
  pose proof (b_ocls _ B _ _ Ho) as Hc.
  intros k0. unfold set_cache. cbn [w_cls w_objs w_cache w_next cache_find].
  destruct (Nat.eqb_spec k k0) as [<-|Nk]; [|apply C].
  destruct (negb fx || static_bases h (os_cls o)) eqn:Efx; cbn [fst snd].
  2:{ (* not cached: the entry is reset to the initial value, which no live tag equals *)
      unfold VINIT. pose proof (b_next _ B) as Hn. split; [clear - Hn; lia|]. split; [clear - Hn; lia|]. split.
      - intros c Hc' E. pose proof (b_cver _ B c Hc') as Q. unfold tp_ver, cs_get in E, Q. cbn [w_cls] in E. clear - E Q. lia.
      - intros oj o' e Hj Hd. pose proof (b_over _ B _ _ _ _ Hj Hd) as Q. clear - Q. lia. }
  split; [apply (b_cver _ B), Hc|]. split.
  { destruct Hver as [[-> _]|Hd]; [apply (b_next _ B)|apply (b_over _ B _ _ _ _ Ho Hd)]. }
  split.
  - intros c Hc' E. assert (c = os_cls o) by (apply (b_cuniq _ B); assumption). subst c.
    split; [exact Ht|]. split; [exact Hm|]. intros Efx'. rewrite Efx' in Efx. exact Efx.
  - intros oj o' e Hj Hd. destruct Hver as [[E0 _]|Hd2].
    + pose proof (b_over _ B _ _ _ _ Hj Hd) as Q. clear - Q E0. lia.
    + assert (oj = oi) by (apply (b_ouniq _ B _ _ _ _ _ _ _ Hj Ho Hd Hd2)). subst oj.
      rewrite Ho in Hj. inversion Hj; subst o'. rewrite Hd2 in Hd. inversion Hd. congruence.
Qed.

Lemma cbody_ok cached cv w k oi o : Inv cv w -> (cached = true -> cv = true) -> no_ext_def h = true ->
  nth_error (w_objs w) oi = Some o -> vslot h (os_cls o) = Some k ->
  snd (cbody cached fx h w k false oi o) = res_of_target (lookup h (cd_w w) (os_cls o) (inst_m o)) /\
  (cv = true -> CacheOK (fst (cbody cached fx h w k false oi o))).
Proof.
  intros I Hcv Hnd Ho Hv. pose proof I as [B C]. unfold cbody. rewrite read_obj_ver_eq.
  destruct (cdecl_dict (getc h k) || prefilter h (os_cls o)) eqn:Echk.
  2:{ apply orb_false_iff in Echk as [_ Hp]. cbn [fst snd].
      rewrite (prefilter_sound_w w oi o k B Hnd Ho Hp Hv). auto. }
  destruct cached eqn:Ecached; [|apply slow_path_ok; auto].
  destruct (Z.eqb_spec (fst (cache_find (w_cache w) k)) (tp_ver w (os_cls o))) as [Et|Nt];
    [|apply slow_path_ok; auto].
  destruct (Z.eqb_spec (snd (cache_find (w_cache w) k)) (snd (read_obj_ver h w oi))) as [Eo|No];
    [|apply slow_path_ok; auto].
  (* cache hit: C body without lookup *)
  cbn [fst snd]. split; [|exact C]. specialize (C (Hcv eq_refl)). destruct (C k) as (_ & _ & C3 & C4).
  destruct (C3 (os_cls o) (b_ocls _ B _ _ Ho) (eq_sym Et)) as (Ht & Hm & _).
  assert (Hi : inst_m o = None).
  { destruct (read_obj_ver_snd w oi o Ho) as [[_ Hd]|Hd]; [unfold inst_m; now rewrite Hd|].
    apply (C4 oi o (inst_m o) Ho). rewrite Eo. exact Hd. }
  rewrite Hi. unfold lookup. rewrite Ht. cbn. rewrite Hm. reflexivity.
Qed.

Lemma validc_lt c : validc h c = true -> (c < length h)%nat.
Proof. apply Nat.ltb_lt. Qed.

Lemma has_dict_of_dict w oi o : Base w -> nth_error (w_objs w) oi = Some o -> os_dict o <> None ->
  has_dict h (os_cls o) = true.
Proof.
  intros B Ho N. destruct (has_dict h (os_cls o)) eqn:E; [reflexivity|]. elim N. apply (b_nodict _ B _ _ Ho E).
Qed.

Lemma step_base cached w o : Base w -> Base (fst (step_cy cached fx h w o)).
Proof.
  intros B. destruct o as [c v|c|c|oi n|oi|oi|oi|c oi]; cbn [step_cy fst].
  - destruct (validc h c && is_py (getc h c)) eqn:E; [|assumption].
    apply andb_true_iff in E as [Ev Ep]. apply base_set_class; auto using validc_lt.
  - destruct (validc h c && is_py (getc h c)) eqn:E; [|assumption].
    apply andb_true_iff in E as [Ev Ep]. destruct (cd_w w c); [apply base_set_class|]; auto using validc_lt.
  - destruct (validc h c) eqn:Ev; [|assumption]. apply validc_lt in Ev.
    destruct (cdictk (getc h c)) eqn:Ek; apply (base_put w _ _ c _ _ B (nth_error_app_last _ _) Ev); auto.
    right. unfold has_dict. rewrite Ek. eauto.
  - destruct (nth_error (w_objs w) oi) as [o|] eqn:Eo; [|assumption].
    destruct (has_dict h (os_cls o)) eqn:Ehd; [|assumption]. apply base_set_obj; assumption.
  - destruct (nth_error (w_objs w) oi) as [o|] eqn:Eo; [|assumption].
    destruct (os_dict o) as [[[n|] v]|] eqn:Ed; try assumption.
    + apply base_set_obj; try assumption. apply (has_dict_of_dict w oi o B Eo). congruence.
    + destruct (cdictk (getc h (os_cls o))) eqn:Ek; try assumption.
      apply base_set_obj; try assumption. unfold has_dict; now rewrite Ek.
  - destruct (nth_error (w_objs w) oi) as [o|] eqn:Eo; cbn [fst]; [|assumption].
    destruct (lookup h (cd_w w) (os_cls o) (inst_m o)); cbn [cbody fst]; assumption.
  - destruct (nth_error (w_objs w) oi) as [o|] eqn:Eo; cbn [fst]; [|assumption].
    unfold dispatch_cy. destruct (vslot h (os_cls o)) as [k|]; cbn [fst]; [|assumption].
    destruct (cbody_cache cached w k false oi o) as [l E].
    destruct (cbody cached fx h w k false oi o) as [w1 r]. cbn [fst] in *. subst w1. apply base_with_cache, B.
  - destruct (nth_error (w_objs w) oi) as [o|] eqn:Eo; cbn [fst]; [|assumption].
    destruct (validc h c); cbn [fst]; [|assumption].
    destruct (type_lookup h (cd_w w) c) as [[n|k]|]; cbn [fst]; try assumption.
    destruct (in_mro h k (os_cls o)); cbn [cbody fst]; assumption.
Qed.

Lemma exec_base cached : forall ops w, Base w -> Base (exec_cy cached fx h w ops).
Proof. induction ops as [|o ops IH]; intros w B; [assumption|]. cbn [exec_cy]. apply IH, step_base, B. Qed.

Definition view (w : world) : list (nat * option Z) := map (fun o => (os_cls o, inst_m o)) (w_objs w).

Lemma view_set_obj w oi c e v : view (set_obj w oi (mkos c (Some (e, v)))) = upd (view w) oi (c, e).
Proof. unfold view, set_obj. cbn [w_objs]. rewrite map_upd. reflexivity. Qed.

Lemma view_nth w oi : nth_error (view w) oi =
  match nth_error (w_objs w) oi with Some o => Some (os_cls o, inst_m o) | None => None end.
Proof. unfold view. rewrite nth_error_map. destruct (nth_error (w_objs w) oi); reflexivity. Qed.

Definition Rel (w : world) (s : pstate) : Prop := p_cls s = map cs_m (w_cls w) /\ p_objs s = view w.

Lemma cd_rel w s : Rel w s -> forall c, cd_p s c = cd_w w c.
Proof.
  intros [E _] c. unfold cd_p, cd_w, cs_get. rewrite E.
  change (@None value) with (cs_m (mkcs None 0)). apply map_nth.
Qed.

Lemma dispatch_py_rel w s c i : Rel w s -> dispatch_py h s c i = res_of_target (lookup h (cd_w w) c i).
Proof. intros R. unfold dispatch_py. f_equal. apply lookup_ext, (cd_rel w s R). Qed.

Lemma rel_nth w s oi : Rel w s -> nth_error (p_objs s) oi =
  match nth_error (w_objs w) oi with Some o => Some (os_cls o, inst_m o) | None => None end.
Proof. intros [_ Ro]. rewrite Ro. apply view_nth. Qed.

Lemma rel_set_class w s c e : Rel w s -> Rel (set_class w c e) (mkp (upd (p_cls s) c e) (p_objs s)).
Proof. intros [Rc Ro]. split; [|exact Ro]. cbn. rewrite Rc, map_upd. reflexivity. Qed.

Lemma rel_set_obj w s oi c e v : Rel w s ->
  Rel (set_obj w oi (mkos c (Some (e, v)))) (mkp (p_cls s) (upd (p_objs s) oi (c, e))).
Proof. intros [Rc Ro]. split; [exact Rc|]. cbn [p_objs]. rewrite view_set_obj, Ro. reflexivity. Qed.

Lemma rel_new w s c d nx : Rel w s -> inst_m (mkos c d) = None ->
  Rel (mkw (w_cls w) (w_objs w ++ [mkos c d]) (w_cache w) nx) (mkp (p_cls s) (p_objs s ++ [(c, None)])).
Proof. intros [Rc Ro] Hd. split; [exact Rc|]. unfold view. cbn. rewrite map_app, Ro. cbn. rewrite Hd. reflexivity. Qed.

(* a deletion that finds no entry: the Python side stores back what it read *)
Lemma rel_del_class_none w s c : Rel w s -> cd_w w c = None -> Rel w (mkp (upd (p_cls s) c None) (p_objs s)).
Proof.
  intros R E. rewrite <- (cd_rel w s R) in E. split; [|apply R].
  cbn. rewrite <- E. unfold cd_p. rewrite upd_nth_id. apply R.
Qed.

Lemma rel_del_inst_none w s oi o : Rel w s -> nth_error (w_objs w) oi = Some o -> inst_m o = None ->
  Rel w (mkp (p_cls s) (upd (p_objs s) oi (os_cls o, None))).
Proof.
  intros R Ho Hi. split; [apply R|]. cbn. rewrite upd_same_id; [apply R|].
  rewrite (rel_nth w s oi R), Ho, Hi. reflexivity.
Qed.

Lemma cbody_sim cached cv w s k oi o : Inv cv w -> Rel w s -> (cached = true -> cv = true) ->
  no_ext_def h = true -> nth_error (w_objs w) oi = Some o -> vslot h (os_cls o) = Some k ->
  snd (cbody cached fx h w k false oi o) = dispatch_py h s (os_cls o) (inst_m o) /\
  Inv cv (fst (cbody cached fx h w k false oi o)) /\ Rel (fst (cbody cached fx h w k false oi o)) s.
Proof.
  intros I R Hcv Hnd Ho Hv. destruct (cbody_ok cached cv w k oi o I Hcv Hnd Ho Hv) as [R1 R2].
  destruct (cbody_cache cached w k false oi o) as [l E]. rewrite E in *. destruct I as [B _].
  split; [|split; [split; [apply base_with_cache, B|exact R2]|exact R]].
  rewrite R1. symmetry. apply dispatch_py_rel, R.
Qed.

Lemma step_sim cached cv w s o : Inv cv w -> Rel w s -> (cached = true -> cv = true) ->
  (cv = true -> leaf_op h o = true \/ fx = true) -> no_ext_def h = true ->
  snd (step_cy cached fx h w o) = snd (step_py h s o) /\
  Inv cv (fst (step_cy cached fx h w o)) /\ Rel (fst (step_cy cached fx h w o)) (fst (step_py h s o)).
Proof.
  intros I R Hcv Hleaf Hnd. pose proof I as [B C].
  enough (G : snd (step_cy cached fx h w o) = snd (step_py h s o) /\
              (cv = true -> CacheOK (fst (step_cy cached fx h w o))) /\
              Rel (fst (step_cy cached fx h w o)) (fst (step_py h s o))).
  { destruct G as (G1 & G2 & G3). split; [exact G1|]. split; [split; [apply step_base, B|exact G2]|exact G3]. }
  destruct o as [c v|c|c|oi n|oi|oi|oi|c oi]; cbn [step_cy step_py fst snd].
  - (* SetClass *)
    split; [reflexivity|]. destruct (validc h c && is_py (getc h c)) eqn:E; [|auto].
    apply andb_true_iff in E as [Ev Ep]. apply validc_lt in Ev.
    split; [intros Ecv; apply cache_set_class; auto|apply rel_set_class, R].
  - (* DelClass *)
    split; [reflexivity|]. destruct (validc h c && is_py (getc h c)) eqn:E; [|auto].
    apply andb_true_iff in E as [Ev Ep]. apply validc_lt in Ev.
    destruct (cd_w w c) as [v0|] eqn:Ecd.
    + split; [intros Ecv; apply cache_set_class; auto|apply rel_set_class, R].
    + split; [exact C|apply rel_del_class_none; assumption].
  - (* New *)
    split; [reflexivity|]. destruct (validc h c) eqn:Ev; [|auto].
    destruct (cdictk (getc h c)); (split; [|apply rel_new; [exact R|reflexivity]]);
      intros Ecv; (apply (cache_put w _ _ c _ _ (C Ecv) (nth_error_app_last _ _)); [congruence|clear; lia]).
  - (* SetInst *)
    split; [reflexivity|]. rewrite (rel_nth w s oi R). destruct (nth_error (w_objs w) oi) as [o|] eqn:Eo; [|auto].
    destruct (has_dict h (os_cls o)); [|auto].
    split; [intros Ecv; apply cache_set_obj; auto|apply rel_set_obj, R].
  - (* DelInst *)
    split; [reflexivity|]. rewrite (rel_nth w s oi R). destruct (nth_error (w_objs w) oi) as [o|] eqn:Eo; [|auto].
    pose proof (rel_del_inst_none w s oi o R Eo) as Hno. unfold inst_m in Hno.
    destruct (os_dict o) as [[[n|] v]|].
    + split; [intros Ecv; apply cache_set_obj; auto|apply rel_set_obj, R].
    + split; [exact C|apply Hno; reflexivity].
    + destruct (cdictk (getc h (os_cls o))); try (split; [exact C|apply Hno; reflexivity]).
      split; [intros Ecv; apply cache_set_obj; auto|apply rel_set_obj, R].
  - (* CallPy *)
    rewrite (rel_nth w s oi R). destruct (nth_error (w_objs w) oi) as [o|] eqn:Eo; cbn [fst snd]; [|auto].
    rewrite (dispatch_py_rel w s _ _ R).
    destruct (lookup h (cd_w w) (os_cls o) (inst_m o)); cbn [cbody fst snd res_of_target]; auto.
  - (* CallC *)
    rewrite (rel_nth w s oi R). destruct (nth_error (w_objs w) oi) as [o|] eqn:Eo; cbn [fst snd]; [|auto].
    unfold dispatch_cy. destruct (vslot h (os_cls o)) as [k|] eqn:Ev; [|auto].
    destruct (cbody_sim cached cv w s k oi o I R Hcv Hnd Eo Ev) as (R1 & [_ R2] & R3).
    destruct (cbody cached fx h w k false oi o) as [w1 r]. cbn [fst snd] in *. rewrite R1. auto.
  - (* CallVia *)
    rewrite (rel_nth w s oi R). destruct (nth_error (w_objs w) oi) as [o|] eqn:Eo; cbn [fst snd]; [|auto].
    destruct (validc h c); cbn [fst snd]; [|auto].
    unfold call_via, type_lookup. rewrite (mro_find_ext (cd_p s) (cd_w w)) by (intros; apply (cd_rel w s R)).
    destruct (mro_find (cd_w w) (cmro (getc h c))) as [[n|k]|]; cbn [fst snd]; auto.
    destruct (in_mro h k (os_cls o)); cbn [cbody fst snd]; auto.
Qed.

Lemma leaf_ops_cons (cv : bool) o ops : (cv = true -> forallb (leaf_op h) (o :: ops) = true \/ fx = true) ->
  (cv = true -> leaf_op h o = true \/ fx = true) /\ (cv = true -> forallb (leaf_op h) ops = true \/ fx = true).
Proof.
  intros Hl. split; intros E; (destruct (Hl E) as [Hl'|Hl']; [left|right; assumption]);
    cbn in Hl'; apply andb_true_iff in Hl'; apply Hl'.
Qed.

Theorem run_sim cached cv : forall ops w s, Inv cv w -> Rel w s -> (cached = true -> cv = true) ->
  (cv = true -> forallb (leaf_op h) ops = true \/ fx = true) -> no_ext_def h = true ->
  run_cy cached fx h w ops = run_py h s ops.
Proof.
  induction ops as [|o ops IH]; intros w s I R Hcv Hl Hnd; [reflexivity|].
  destruct (leaf_ops_cons cv o ops Hl) as [Hl1 Hl2].
  destruct (step_sim cached cv w s o I R Hcv Hl1 Hnd) as (S1 & S2 & S3).
  cbn [run_cy run_py]. rewrite S1. rewrite (IH _ _ S2 S3 Hcv Hl2 Hnd). reflexivity.
Qed.

Lemma exec_inv cached cv : forall ops w s, Inv cv w -> Rel w s -> (cached = true -> cv = true) ->
  (cv = true -> forallb (leaf_op h) ops = true \/ fx = true) -> no_ext_def h = true ->
  Inv cv (exec_cy cached fx h w ops).
Proof.
  induction ops as [|o ops IH]; intros w s I R Hcv Hl Hnd; [assumption|].
  destruct (leaf_ops_cons cv o ops Hl) as [Hl1 Hl2].
  destruct (step_sim cached cv w s o I R Hcv Hl1 Hnd) as (S1 & S2 & S3).
  cbn [exec_cy]. apply (IH _ _ S2 S3 Hcv Hl2 Hnd).
Qed.

Lemma inv_w0 cv : Inv cv (w0 h).
Proof. split; [apply base_w0|intros _; apply cache_w0]. Qed.

Lemma rel_w0 : Rel (w0 h) (p0 h).
Proof. split; reflexivity. Qed.

End Hier.

Theorem prefilter_sound h cached fx ops oi o k : wf_hier h = true -> no_ext_def h = true ->
  nth_error (w_objs (exec_cy cached fx h (w0 h) ops)) oi = Some o ->
  prefilter h (os_cls o) = false -> vslot h (os_cls o) = Some k ->
  lookup h (cd_w (exec_cy cached fx h (w0 h) ops)) (os_cls o) (inst_m o) = TWrap k.
Proof.
  intros Hwf Hnd Ho Hp Hv.
  assert (B : Base h (exec_cy cached fx h (w0 h) ops)) by (apply exec_base; [assumption|apply base_w0; assumption]).
  apply (prefilter_sound_w h Hwf _ oi o k B Hnd Ho Hp Hv).
Qed.
