(* Proofs for Model/M_VTable.v (C27).  Part 1, the vtable built along an inheritance chain: by the invariant
   `good` the head slot holds the function of the most-derived declaration and every older slot an adapter to
   it, so a C-level call through any static type reaches that declaration (vt_call_correct); it does not when
   the adapter passes skip_dispatch = 1 (vt_call_askip_refuted).  Part 2 (Section Compose): the call lands in
   the C entry point whose override check P_Override.cbody_sim covers, so histories with C-level calls are
   simulated as well (vrun_sim). *)
From Coq Require Import ZArith List Bool Lia.
From CyVerif Require Import Model.M_Override Model.M_VTable Proof.P_Override.
Import ListNotations.
Local Open Scope nat_scope.

(* ---------- part 1: the vtable of a chain ---------- *)
Definition ent_for (askip : bool) (k : nat) (ov : bool) (s : slot) : Prop :=
  exists oa, s_ent s = EAdapt k (if s_ov s then SkFwd else if ov then SkConst askip else SkNone) oa.

(* after the most-derived declaration (k, ov, f): head slot = k's own function, every older slot an
   adapter to it; older slots are never more overridable than the implementation *)
Definition good (askip : bool) (vt : vtable) (st : dstate) : Prop :=
  match st with
  | None => vt = []
  | Some (k, ov, f) =>
      exists hd r, vt = hd :: r /\ s_ent hd = EImpl k /\ s_ov hd = ov /\ s_fin hd = f /\
                   Forall (fun s => ent_for askip k ov s /\ (s_ov s = true -> ov = true)) r
  end.

Lemma adapt_all askip i ov n l :
  (forall s, In s l -> s_ov s = true -> ov = true) ->
  Forall (fun s => ent_for askip i ov s /\ (s_ov s = true -> ov = true)) (map (mk_adapt askip i ov n) l).
Proof.
  intros H. apply Forall_forall. intros x Hx. apply in_map_iff in Hx as (s & <- & Hs).
  split; [eexists; cbn; reflexivity|]. cbn. apply (H s Hs).
Qed.

Lemma declare_good askip i ov n f vt st :
  good askip vt st ->
  match st with Some (_, ov0, f0) => negb f0 && implb ov0 ov | None => true end = true ->
  good askip (declare askip i (VDecl ov n f) vt) (Some (i, ov, f)).
Proof.
  intros G Hok. destruct st as [[[k0 ov0] f0]|]; cbn [good] in G.
  - destruct G as (hd & r & -> & He & Hov & Hf & Hr).
    apply andb_true_iff in Hok as [_ Himp].
    assert (Hmono : forall s, In s (hd :: r) -> s_ov s = true -> ov = true).
    { intros s [<-|Hs] E.
      - rewrite Hov in E. rewrite E in Himp. exact Himp.
      - rewrite Forall_forall in Hr. destruct (Hr s Hs) as [_ Hm]. rewrite (Hm E) in Himp. exact Himp. }
    cbn [declare]. destruct (Bool.eqb (s_ov hd) ov && Nat.eqb (s_nopt hd) n).
    + cbn [good]. eexists _, _. split; [reflexivity|]. cbn. repeat (split; [reflexivity|]).
      apply adapt_all. intros s Hs. apply Hmono. now right.
    + cbn [good]. eexists _, _. split; [reflexivity|]. cbn [s_ent s_ov s_fin]. repeat (split; [reflexivity|]).
      apply adapt_all. exact Hmono.
  - subst vt. cbn. eexists _, _. split; [reflexivity|]. cbn. repeat (split; [reflexivity|]). constructor.
Qed.

Lemma build_good askip : forall ch vt st, good askip vt st -> wf_chain ch st = true ->
  good askip (build askip ch vt) (last_decl ch st).
Proof.
  induction ch as [|[i d] ch IH]; intros vt st G W; [exact G|].
  destruct d as [|ov n f].
  - cbn in *. apply IH; assumption.
  - cbn [wf_chain] in W. apply andb_true_iff in W as [W1 W2].
    cbn [build last_decl fold_left]. change (upd_st st (i, VDecl ov n f)) with (Some (i, ov, f)).
    apply IH; [|exact W2]. apply (declare_good askip i ov n f vt st G W1).
Qed.

Lemma run_good vt k ov f s : good false vt (Some (k, ov, f)) -> In s vt ->
  run_entry s = if ov then VEntry k false else VBody k.
Proof.
  intros (hd & r & -> & He & Hov & _ & Hr) [<-|Hs].
  - unfold run_entry. rewrite He, Hov. reflexivity.
  - rewrite Forall_forall in Hr. destruct (Hr s Hs) as [[oa Ha] Hm].
    unfold run_entry. rewrite Ha. destruct (s_ov s) eqn:E.
    + rewrite (Hm eq_refl). reflexivity.
    + destruct ov; reflexivity.
Qed.

Lemma build_app askip : forall a b vt, build askip (a ++ b) vt = build askip b (build askip a vt).
Proof. induction a as [|[i d] a IH]; intros; cbn; [reflexivity|apply IH]. Qed.

Lemma split_at_app t : forall ch pre post, split_at t ch = Some (pre, post) -> ch = pre ++ post.
Proof.
  induction ch as [|[i d] ch IH]; intros pre post H; cbn in H; [discriminate|].
  destruct (Nat.eqb i t).
  - injection H as <- <-. reflexivity.
  - destruct (split_at t ch) as [[a b]|]; [|discriminate]. injection H as <- <-. cbn. f_equal. apply IH. reflexivity.
Qed.

Lemma last_decl_app a b st : last_decl (a ++ b) st = last_decl b (last_decl a st).
Proof. apply fold_left_app. Qed.

Lemma wf_chain_app : forall a b st, wf_chain (a ++ b) st = wf_chain a st && wf_chain b (last_decl a st).
Proof.
  induction a as [|[i d] a IH]; intros b st; [reflexivity|].
  destruct d as [|ov n f]; cbn [app wf_chain last_decl fold_left].
  - apply IH.
  - change (upd_st st (i, VDecl ov n f)) with (Some (i, ov, f)). rewrite IH. apply andb_assoc.
Qed.

Lemma declare_len askip i d vt : length vt <= length (declare askip i d vt).
Proof.
  destruct d as [|ov n f]; cbn; [lia|]. destruct vt as [|s r]; cbn; [lia|].
  destruct (Bool.eqb (s_ov s) ov && Nat.eqb (s_nopt s) n); cbn; rewrite map_length; lia.
Qed.

Lemma build_len askip : forall ch vt, length vt <= length (build askip ch vt).
Proof.
  induction ch as [|[i d] ch IH]; intros vt; cbn; [lia|].
  pose proof (declare_len askip i d vt). pose proof (IH (declare askip i d vt)). lia.
Qed.

Lemma wf_final_no_decl : forall ch k ov, wf_chain ch (Some (k, ov, true)) = true ->
  last_decl ch (Some (k, ov, true)) = Some (k, ov, true).
Proof.
  induction ch as [|[i d] ch IH]; intros k ov W; [reflexivity|].
  destruct d as [|ov' n f]; cbn in W; [|discriminate]. apply IH, W.
Qed.

Lemma last_decl_some : forall ch x, exists y, last_decl ch (Some x) = Some y.
Proof.
  induction ch as [|[i d] ch IH]; intros x; [eexists; reflexivity|].
  cbn [last_decl fold_left]. destruct d; cbn; apply IH.
Qed.

(* every C-level call through a static type reaches the most-derived declaration: the cdef body,
   or the cpdef entry point with skip_dispatch = 0 (so that its override check runs) *)
Theorem vt_call_correct ch t : wf_chain ch None = true -> vt_call false ch t = vt_ref ch t.
Proof.
  intros W. unfold vt_call, vt_ref. destruct (split_at t ch) as [[pre post]|] eqn:Es; [|reflexivity].
  apply split_at_app in Es. subst ch. rewrite wf_chain_app in W. apply andb_true_iff in W as [Wa Wb].
  pose proof (build_good false pre [] None eq_refl Wa) as Gp.
  rewrite last_decl_app.
  destruct (last_decl pre None) as [[[k ov] f]|] eqn:Ep.
  2:{ cbn in Gp. rewrite Gp. reflexivity. }
  pose proof Gp as (hd & r & Evt & He & Hov & Hf & Hr). rewrite Evt. rewrite <- Evt.
  rewrite Hf. destruct f.
  - rewrite (wf_final_no_decl post k ov Wb).
    rewrite (run_good _ k ov true hd Gp) by (rewrite Evt; now left). destruct ov; reflexivity.
  - pose proof (build_good false post _ _ Gp Wb) as Gd.
    destruct (last_decl_some post (k, ov, false)) as [[[k' ov'] f'] Ey]. rewrite Ey in *.
    pose proof (build_len false post (build false pre [])) as Hl.
    assert (Hpos : 0 < length (build false pre [])) by (rewrite Evt; cbn; lia).
    destruct (nth_error (build false post (build false pre []))
                (length (build false post (build false pre [])) - length (build false pre []))) as [s|] eqn:En.
    + apply nth_error_In in En. rewrite (run_good _ k' ov' f' s Gd En). destruct ov'; reflexivity.
    + apply nth_error_None in En. lia.
Qed.

(* the adapter passing skip_dispatch = 1 (the override check of the implementation is skipped) *)
Theorem vt_call_askip_refuted : exists ch t, wf_chain ch None = true /\ vt_call true ch t <> vt_ref ch t.
Proof.
  exists [(0, VDecl false 0 false); (1, VDecl true 0 false)], 0.
  split; [reflexivity|]. vm_compute. discriminate.
Qed.

Lemma vt_ref_inv ch t r : vt_ref ch t = Some r ->
  (exists k f, r = VEntry k false /\ last_decl ch None = Some (k, true, f)) \/
  (exists k f, r = VBody k /\ last_decl ch None = Some (k, false, f)).
Proof.
  unfold vt_ref. destruct (split_at t ch) as [[pre post]|]; [|discriminate].
  destruct (last_decl pre None); [|discriminate].
  destruct (last_decl ch None) as [[[k [|]] f]|]; intros H; inversion H; [left|right]; eauto.
Qed.

(* ---------- part 2: composition with the override check ---------- *)
Section Compose.
Variable h : hier.
Hypothesis Hwf : wf_hier h = true.
Variable vd : list vdecl.
Hypothesis Hvt : wf_vt h vd = true.

Lemma getc_overflow i : length h <= i -> getc h i = dcls.
Proof. intros. unfold getc. apply nth_overflow. assumption. Qed.

(* wf_vt taken apart: every class index satisfies the three per-class checks *)
Lemma wf_vt_at i : (i < length h)%nat ->
  agree_at h vd i = true /\ shape_at h i = true /\
  (is_ext (getc h i) = true -> wf_chain (chain_of h vd i) None = true).
Proof.
  intros L. assert (Hi : In i (seq 0 (length h))) by (apply in_seq; lia).
  unfold wf_vt in Hvt. rewrite !andb_true_iff, !forallb_forall in Hvt. destruct Hvt as [[[_ Ha] Hs] Hc].
  split; [apply Ha, Hi|]. split; [apply Hs, Hi|]. intros E. specialize (Hc i Hi). rewrite E in Hc. exact Hc.
Qed.

Lemma agree_all i : agree_at h vd i = true.
Proof.
  destruct (lt_dec i (length h)) as [L|L]; [apply (wf_vt_at i L)|].
  unfold wf_vt in Hvt. rewrite !andb_true_iff in Hvt. destruct Hvt as [[[Hl _] _] _].
  apply Nat.leb_le in Hl. unfold agree_at. rewrite (nth_overflow vd VNone) by lia.
  rewrite getc_overflow by lia. reflexivity.
Qed.

Lemma cpdef_is_ext i : cdecl (getc h i) = MCpdef -> is_py (getc h i) = false.
Proof.
  destruct (lt_dec i (length h)) as [L|L]; [apply (wf_cpdef_ext h Hwf i L)|].
  rewrite getc_overflow by lia. discriminate.
Qed.

Lemma first_cpdef_filter : forall m,
  first_cpdef h m = first_cpdef h (filter (fun i => is_ext (getc h i)) m).
Proof.
  induction m as [|a m IH]; [reflexivity|]. cbn [filter first_cpdef].
  unfold is_ext at 1. destruct (is_py (getc h a)) eqn:Ep; cbn [negb].
  - destruct (cdecl (getc h a)) eqn:Ed; try exact IH. apply cpdef_is_ext in Ed. congruence.
  - cbn [first_cpdef]. rewrite IH. reflexivity.
Qed.

Lemma ld_first_cpdef k f : forall m,
  last_decl (map (fun i => (i, nth i vd VNone)) (rev m)) None = Some (k, true, f) -> first_cpdef h m = Some k.
Proof.
  induction m as [|a m IH]; intros H; [discriminate|].
  cbn [rev] in H. rewrite map_app, last_decl_app in H. cbn [map last_decl fold_left] in H.
  unfold upd_st in H. cbn [fst snd] in H.
  pose proof (agree_all a) as Ag. unfold agree_at in Ag. cbn [first_cpdef].
  destruct (nth a vd VNone) as [|ov n fi].
  - destruct (cdecl (getc h a)); try discriminate; apply IH; exact H.
  - inversion H. subst. destruct (cdecl (getc h k)); try discriminate. reflexivity.
Qed.

Lemma list_eqb_eq : forall a b, list_eqb a b = true -> a = b.
Proof.
  induction a as [|x a IH]; intros [|y b] H; cbn in H; try discriminate; [reflexivity|].
  apply andb_true_iff in H as [H1 H2]. apply Nat.eqb_eq in H1. subst. f_equal. apply IH, H2.
Qed.

Lemma vslot_of_chain c e k f : (c < length h)%nat -> ext_base h c = Some e ->
  last_decl (chain_of h vd e) None = Some (k, true, f) -> vslot h c = Some k.
Proof.
  intros Hc He Hl. unfold vslot. rewrite first_cpdef_filter.
  destruct (wf_vt_at c Hc) as (_ & Hs & _).
  unfold shape_at in Hs. rewrite He in Hs. apply list_eqb_eq in Hs. rewrite Hs.
  apply (ld_first_cpdef k f). exact Hl.
Qed.

Lemma chain_wf c e : (c < length h)%nat -> ext_base h c = Some e -> wf_chain (chain_of h vd e) None = true.
Proof.
  intros Hc He. unfold ext_base in He. apply find_some in He as [Hin Hext].
  pose proof (wf_mro_valid h Hwf c e Hc Hin) as Hlt.
  apply (wf_vt_at e Hlt), Hext.
Qed.

Lemma vstep_sim fx cached cv w s o : Inv h fx cv w -> Rel w s -> (cached = true -> cv = true) ->
  (cv = true -> match o with VBase b => leaf_op h b = true | _ => True end \/ fx = true) -> no_ext_def h = true ->
  snd (vstep_cy false cached fx h vd w o) = snd (vstep_py h vd s o) /\
  Inv h fx cv (fst (vstep_cy false cached fx h vd w o)) /\
  Rel (fst (vstep_cy false cached fx h vd w o)) (fst (vstep_py h vd s o)).
Proof.
  intros I R Hcv Hleaf Hnd. destruct o as [b|t oi].
  - cbn [vstep_cy vstep_py]. apply (step_sim h Hwf fx cached cv w s b); assumption.
  - cbn [vstep_cy vstep_py fst snd]. rewrite (rel_nth w s oi R).
    destruct (nth_error (w_objs w) oi) as [o|] eqn:Eo; cbn [fst snd]; [|auto].
    pose proof (b_ocls h w (proj1 I) oi o Eo) as Hc.
    destruct (ext_base h (os_cls o)) as [e|] eqn:Ee; cbn [fst snd]; [|auto].
    rewrite (vt_call_correct _ t (chain_wf _ _ Hc Ee)).
    destruct (vt_ref (chain_of h vd e) t) as [r|] eqn:Er; cbn [fst snd]; [|auto].
    destruct (vt_ref_inv _ _ _ Er) as [(k & f & -> & Hl)|(k & f & -> & Hl)].
    + pose proof (vslot_of_chain _ _ _ _ Hc Ee Hl) as Hv.
      pose proof (cbody_sim h Hwf fx cached cv w s k oi o I R Hcv Hnd Eo Hv) as Hs.
      cbn [interp_cy]. destruct (cbody cached fx h w k false oi o) as [w1 x].
      destruct Hs as (R1 & R2 & R3). cbn [fst snd] in *. rewrite R1. auto.
    + cbn [interp_cy fst snd]. auto.
Qed.

Lemma vrun_sim fx cached cv : forall ops w s, Inv h fx cv w -> Rel w s -> (cached = true -> cv = true) ->
  (cv = true -> fx = true) -> no_ext_def h = true ->
  vrun_cy false cached fx h vd w ops = vrun_py h vd s ops.
Proof.
  induction ops as [|o ops IH]; intros w s I R Hcv Hfx Hnd; [reflexivity|].
  destruct (vstep_sim fx cached cv w s o I R Hcv (fun E => or_intror (Hfx E)) Hnd) as (S1 & S2 & S3).
  cbn [vrun_cy vrun_py]. rewrite S1. rewrite (IH _ _ S2 S3 Hcv Hfx Hnd). reflexivity.
Qed.
End Compose.

(* end to end witness for the adapter with skip_dispatch = 1:
   A: cdef m; B(A): cpdef m; class P(B) overriding m; p = P(); C call through A *)
Theorem vdispatch_askip_refuted : exists h vd ops, wf_hier h = true /\ wf_vt h vd = true /\ no_ext_def h = true /\
  vrun_cy true false false h vd (w0 h) ops <> vrun_py h vd (p0 h) ops /\
  vrun_cy false false false h vd (w0 h) ops = vrun_py h vd (p0 h) ops.
Proof.
  exists [mkcls Ext [0] MNone false NoDict; mkcls Ext [1; 0] MCpdef false NoDict; mkcls Py [2; 1; 0] (MDef 7%Z) false Managed],
         [VDecl false 0 false; VDecl true 0 false; VNone],
         [VBase (New 2); VCallT 1 0; VCallT 0 0].
  split; [vm_compute; reflexivity|]. split; [vm_compute; reflexivity|]. split; [vm_compute; reflexivity|].
  split; [vm_compute; discriminate|vm_compute; reflexivity].
Qed.
