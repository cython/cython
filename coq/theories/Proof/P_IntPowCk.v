(* The variant of the integer power helper that tracks overflow (M_IntPow.int_pow_ck: a signed product out of
   range is PUB, undefined behaviour in C).  Whenever b^e fits the signed type, no product inside the helper
   overflows (int_pow_ck_no_overflow, cited by Prop/C07.v and, among the theorems about undefined behaviour,
   by Prop/C36.v).  The idea: for b <> 0 every product formed on the way (t * factor, and b * b while exponent
   bits remain) is a factor of the final t * b^e with a cofactor that is not zero, so it is no larger. *)
From Coq Require Import ZArith List Bool Lia ZifyBool.
From CyVerif Require Import Lib.CInt Model.M_IntPow Proof.P_IntPow.
Open Scope Z_scope.

Lemma max_int_pos w : 2 <= w -> 0 < max_int w true.
Proof. intros Hw. pose proof (proj2 (in_range_1 w true Hw)). lia. Qed.

Lemma mulc_signed_ok w x y : Z.abs (x * y) <= max_int w true -> mulc w true x y = Some (x * y).
Proof.
  intros H. unfold mulc. replace (in_rangeb w true (x * y)) with true; [reflexivity|].
  symmetry. apply in_rangeb_spec. unfold in_range, min_int, max_int in *. lia.
Qed.

Lemma odd_mod2 e : Z.odd e = (e mod 2 =? 1).
Proof. rewrite Zodd_mod. destruct (mod2_cases e) as [E|E]; rewrite E; reflexivity. Qed.

Lemma abs_factor_le x y : y <> 0 -> Z.abs x <= Z.abs (x * y).
Proof. intros Hy. rewrite Z.abs_mul. nia. Qed.

(* invariant: t fits; for a base that is not zero so does the result t * b ^ e, and every product
   formed on the way is a factor of it *)
Lemma pow_loop_ck_signed fuel : forall w t b e,
  2 <= w -> 0 <= e < 2 ^ Z.of_nat fuel ->
  Z.abs t <= max_int w true -> (b <> 0 -> t <> 0 /\ Z.abs (t * b ^ e) <= max_int w true) ->
  pow_loop_ck true fuel w true t b e = PVal (t * b ^ e).
Proof.
  induction fuel as [|f IH]; intros w t b e Hw He Ht Hb.
  - assert (e = 0) by (cbn in He; lia). subst e. cbn. rewrite Z.mul_1_r. reflexivity.
  - cbn [pow_loop_ck]. destruct (Z.eqb_spec e 0) as [->|Hne]; [now rewrite Z.pow_0_r, Z.mul_1_r|].
    rewrite Z.shiftr_div_pow2 by lia. change (2 ^ 1) with 2.
    rewrite odd_mod2. set (fac := if e mod 2 =? 1 then b else 1).
    assert (Hsplit : t * b ^ e = t * fac * (b * b) ^ (e / 2)) by (rewrite (pow_split b e) by lia; fold fac; ring).
    pose proof (half_fuel e f He) as He2.
    assert (H : Z.abs (t * fac) <= max_int w true /\ (e / 2 <> 0 -> Z.abs (b * b) <= max_int w true) /\
                (b * b <> 0 -> t * fac <> 0 /\ Z.abs (t * fac * (b * b) ^ (e / 2)) <= max_int w true)).
    { destruct (Z.eq_dec b 0) as [->|Hb0].
      - pose proof (max_int_pos w Hw). repeat split; try lia. unfold fac. destruct (_ =? 1); lia.
      - destruct (Hb Hb0) as [Ht0 Hbound]. rewrite Hsplit in Hbound.
        assert (Hbb : b * b <> 0) by (apply Z.neq_mul_0; auto).
        assert (Htf : t * fac <> 0).
        { apply Z.neq_mul_0. split; [exact Ht0|]. unfold fac. destruct (_ =? 1); [exact Hb0|discriminate]. }
        split; [|split].
        + eapply Z.le_trans; [|exact Hbound]. apply abs_factor_le, Z.pow_nonzero; [exact Hbb|lia].
        + intros Hn.
          assert (E : t * fac * (b * b) ^ (e / 2) = b * b * ((b * b) ^ (e / 2 - 1) * (t * fac))).
          { replace (e / 2) with (Z.succ (e / 2 - 1)) at 1 by lia. rewrite Z.pow_succ_r by lia. ring. }
          rewrite E in Hbound. eapply Z.le_trans; [|exact Hbound]. apply abs_factor_le, Z.neq_mul_0.
          split; [apply Z.pow_nonzero; [exact Hbb|lia]|exact Htf].
        + intros _. split; [exact Htf|exact Hbound]. }
    destruct H as (Ht' & Hbb & Hb').
    rewrite (mulc_signed_ok w t fac Ht').
    destruct (Z.eqb_spec (e / 2) 0) as [E0|E0]; cbn [andb].
    + (* last bit: no squaring *)
      rewrite Hsplit, E0. destruct f; cbn [pow_loop_ck Z.eqb]; f_equal; ring.
    + rewrite (mulc_signed_ok w b b (Hbb E0)), Hsplit. apply IH; assumption.
Qed.

Theorem int_pow_ck_no_overflow w b e :
  2 <= w -> in_range w true b -> in_range w true e -> 0 <= e -> Z.abs (b ^ e) <= max_int w true ->
  int_pow_ck true w true b e = PVal (b ^ e).
Proof.
  intros Hw Hb He He0 Hfit. unfold int_pow_ck. pose proof (max_int_pos w Hw) as Hm.
  destruct (Z.eqb_spec e 3) as [->|N3].
  { replace (b ^ 3) with (b * b * b) in * by ring.
    assert (Z.abs (b * b) <= max_int w true).
    { destruct (Z.eq_dec b 0) as [->|Hb0]; [cbn; lia|]. eapply Z.le_trans; [|exact Hfit]. apply abs_factor_le, Hb0. }
    rewrite (mulc_signed_ok w b b H), (mulc_signed_ok w (b * b) b Hfit). reflexivity. }
  destruct (Z.eqb_spec e 2) as [->|N2].
  { replace (b ^ 2) with (b * b) in * by ring. rewrite (mulc_signed_ok w b b Hfit). reflexivity. }
  destruct (Z.eqb_spec e 1) as [->|N1]; [now rewrite Z.pow_1_r|].
  destruct (Z.eqb_spec e 0) as [->|N0]; [now rewrite Z.pow_0_r|].
  replace (true && (e <? 0)) with false by lia.
  rewrite <- (Z.mul_1_l (b ^ e)) in *. apply pow_loop_ck_signed; try assumption.
  - split; [lia|]. eapply in_range_lt_pow; eassumption.
  - change (Z.abs 1) with 1. lia.
  - intros _. split; [lia|exact Hfit].
Qed.

(* finding: before the repair the helper squared the base once more than needed: 200 ** 4 fits
   C int (1.6e9) but the next b *= b overflowed *)
Theorem int_pow_ck_old_needless_square_refuted :
  exists w b e, in_range w true b /\ in_range w true e /\ 0 <= e /\ Z.abs (b ^ e) <= max_int w true /\
                int_pow_ck false w true b e = PUB.
Proof. exists 32, 200, 4. unfold in_range. vm_compute. intuition congruence. Qed.
