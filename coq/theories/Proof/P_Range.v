(* Proofs for C14: the C for-from loop emitted for range()/reversed(range()) = Python's loop; the
   enumerate counter. *)
From Coq Require Import ZArith List Bool Lia ZifyBool.
From CyVerif Require Import Lib.CInt Model.M_Prange Model.M_Range.
Import ListNotations.
Open Scope Z_scope.

Section Generic.
  Context {S : Type}.
  Variable body : Z -> S -> ctl * S.
  Variables (test : Z -> bool) (pre next : Z -> option Z).

  (* l = the values the body will see if it never breaks, starting with loop variable u *)
  Fixpoint follows (l : list Z) (u : Z) : Prop :=
    match l with
    | [] => test u = false
    | v :: r => test u = true /\ pre u = Some v /\ exists u', next v = Some u' /\ follows r u'
    end.

  Lemma c_loop_follows l : forall u st fuel, follows l u -> (length l < fuel)%nat ->
    c_loop body test pre next fuel u st = done_of (py_for body l st).
  Proof.
    induction l as [|v r IH]; intros u st fuel Hf Hfuel; destruct fuel as [|f]; cbn [length] in Hfuel; try lia.
    - cbn in *. rewrite Hf. reflexivity.
    - destruct Hf as (Ht & Hp & u' & Hn & Hr). cbn [c_loop py_for]. rewrite Ht, Hp.
      destruct (body v st) as [[|] st']; [|reflexivity].
      rewrite Hn. apply IH; [exact Hr | lia].
  Qed.

  (* sequences given by index functions: U i = loop variable at the i-th test, V i = i-th value *)
  Lemma follows_indexed (U V : nat -> Z) n : forall k,
    (forall i, (k <= i < k + n)%nat ->
       test (U i) = true /\ pre (U i) = Some (V i) /\ next (V i) = Some (U (Datatypes.S i))) ->
    test (U (k + n)%nat) = false ->
    follows (map V (seq k n)) (U k).
  Proof.
    induction n as [|n IH]; intros k H Hend.
    - cbn. replace (k + 0)%nat with k in Hend by lia. exact Hend.
    - cbn [seq map follows]. destruct (H k ltac:(lia)) as (H1 & H2 & H3).
      repeat split; try assumption. exists (U (Datatypes.S k)). split; [exact H3|].
      apply IH.
      + intros i Hi. apply H. lia.
      + replace (Datatypes.S k + n)%nat with (k + Datatypes.S n)%nat by lia. exact Hend.
  Qed.
End Generic.

(* C arithmetic that stays inside the type is exact *)
Lemma in_range_promoted w sg v : 1 <= w -> in_range w sg v -> in_range (prom_w w) (prom_s w sg) v.
Proof.
  intros Hw. unfold in_range, prom_w, prom_s, min_int, max_int.
  destruct (Z.ltb_spec w 32) as [Hlt|Hge].
  - replace (Z.max w 32) with 32 by lia. intros H.
    pose proof (Z.pow_le_mono_r 2 (w - 1) 31 ltac:(lia) ltac:(lia)) as P1.
    pose proof (Z.pow_le_mono_r 2 w 31 ltac:(lia) ltac:(lia)) as P2.
    pose proof (pow2_pos (w - 1) ltac:(lia)) as P3.
    change (32 - 1) with 31. destruct sg; lia.
  - replace (Z.max w 32) with w by lia. tauto.
Qed.

Lemma carith_id w sg v : 1 <= w -> in_range (prom_w w) (prom_s w sg) v -> carith w sg v = Some v.
Proof.
  intros Hw H. unfold carith. destruct (prom_s w sg) eqn:E.
  - apply in_rangeb_spec in H. rewrite H. reflexivity.
  - f_equal. apply wrap_id; [unfold prom_w; lia | exact H].
Qed.

Lemma cop_id w sg v : 1 <= w -> in_range w sg v -> cop w sg v = Some v.
Proof.
  intros Hw H. unfold cop. rewrite carith_id by (try apply in_range_promoted; assumption).
  cbn. f_equal. apply wrap_id; assumption.
Qed.

(* a signed operation that does not overflow is exact ... *)
Lemma carith_signed_exact w sg v r : prom_s w sg = true -> carith w sg v = Some r -> r = v.
Proof.
  intros E. unfold carith. rewrite E. destruct (in_rangeb (prom_w w) true v); congruence.
Qed.

(* ... so a chain of them that succeeds has computed the exact value *)
Lemma bind_carith_signed w sg v {B} (f : Z -> option B) r :
  prom_s w sg = true -> bind (carith w sg v) f = Some r -> f v = Some r.
Proof.
  intros E. unfold carith. rewrite E. destruct (in_rangeb (prom_w w) true v); [trivial | discriminate].
Qed.

Lemma in_range_between w sg lo hi v : in_range w sg lo -> in_range w sg hi -> lo <= v <= hi -> in_range w sg v.
Proof. unfold in_range. lia. Qed.

(* ForFromStatNode as an arithmetic progression *)
Section ForFrom.
  Context {S : Type}.
  Variable body : Z -> S -> ctl * S.
  Variables (w : Z) (sg : bool) (r1 r2 : rel) (b1 b2 A N : Z) (fuel : nat) (st : S).
  Hypothesis Hw : 1 <= w.
  Hypothesis HN : 0 <= N.
  Hypothesis Hfuel : (Z.to_nat N < fuel)%nat.

  (* V 0, ..., V (N - 1) is the progression b1+off, b1+off+d, ... *)
  Variables (V : Z -> Z) (d : Z).
  Hypothesis HV : forall i, V i = b1 + rel_offset r1 + d * i.

  (* for (t = b1+off; t r2 b2; t (+|-)= A): the target runs through V when the first value and the
     one that fails the test (hence all between them) are representable *)
  Lemma for_from_plain :
    negb sg && rel_is_gt r2 = false -> d = (if rel_incr r1 then A else - A) ->
    in_range w sg (V 0) -> in_range w sg (V N) ->
    (forall i, 0 <= i < N -> rel_test r2 (V i) b2 = true) -> rel_test r2 (V N) b2 = false ->
    for_from body w sg r1 r2 b1 b2 A fuel st
    = done_of (py_for body (map (fun i => V (Z.of_nat i)) (seq 0 (Z.to_nat N))) st).
  Proof.
    intros Hp Hd H0 HN' Ht He. unfold for_from. rewrite Hp.
    assert (Hr : forall i, 0 <= i <= N -> in_range w sg (V i)).
    { intros i Hi. assert (0 <= d * i <= d * N \/ d * N <= d * i <= 0)
        by (clear - Hi; destruct (Z.le_ge_cases 0 d); [left | right]; nia).
      revert H0 HN'. rewrite !HV. unfold in_range. lia. }
    replace (b1 + rel_offset r1) with (V 0) by (rewrite HV; lia). rewrite cop_id by assumption.
    apply c_loop_follows; [|rewrite map_length, seq_length; exact Hfuel].
    apply (follows_indexed _ _ _ (fun i => V (Z.of_nat i)) (fun i => V (Z.of_nat i)) _ 0%nat);
      [|cbn [Nat.add]; rewrite Z2Nat.id by exact HN; exact He].
    intros i Hi. repeat split; [apply Ht; lia|].
    replace (if rel_incr r1 then V (Z.of_nat i) + A else V (Z.of_nat i) - A)
      with (V (Z.of_nat (Datatypes.S i))) by (rewrite !HV; destruct (rel_incr r1); lia).
    apply cop_id; [exact Hw | apply Hr; lia].
  Qed.

  (* unsigned and descending: for (t = b1+off + A; t r2 b2 + A; ) { t -= A; ... *)
  Lemma for_from_unsigned_desc :
    negb sg && rel_is_gt r2 = true -> d = - A ->
    in_range w sg (V 0 + A) -> in_range (prom_w w) (prom_s w sg) (b2 + A) ->
    (forall i, 0 <= i < N -> in_range w sg (V i)) ->
    (forall i, 0 <= i < N -> rel_test r2 (V i + A) (b2 + A) = true) ->
    rel_test r2 (V N + A) (b2 + A) = false ->
    for_from body w sg r1 r2 b1 b2 A fuel st
    = done_of (py_for body (map (fun i => V (Z.of_nat i)) (seq 0 (Z.to_nat N))) st).
  Proof.
    intros Hp Hd H0 Hlim Hr Ht He. unfold for_from. rewrite Hp.
    replace (b1 + rel_offset r1) with (V 0) by (rewrite HV; lia). rewrite cop_id, carith_id by assumption.
    apply c_loop_follows; [|rewrite map_length, seq_length; exact Hfuel].
    apply (follows_indexed _ _ _ (fun i => V (Z.of_nat i) + A) (fun i => V (Z.of_nat i)) _ 0%nat);
      [|cbn [Nat.add]; rewrite Z2Nat.id by exact HN; exact He].
    intros i Hi. repeat split; [apply Ht; lia | | f_equal; rewrite !HV; lia].
    rewrite Z.add_simpl_r. apply cop_id; [exact Hw | apply Hr; lia].
  Qed.
End ForFrom.

(* (D - 1) / A + 1 steps of size A are needed to cover a distance D > 0 *)
Lemma steps_bounds D A : 0 < A -> A * ((D - 1) / A) < D <= A * ((D - 1) / A) + A.
Proof.
  intros HA. pose proof (Z.div_mod (D - 1) A ltac:(lia)). pose proof (Z.mod_pos_bound (D - 1) A HA). lia.
Qed.

Lemma len_spec_pos a b s : 0 < s ->
  let n := py_range_len a b s in
  0 <= n /\ (forall i, 0 <= i < n -> a + s * i < b) /\ b <= a + s * n.
Proof.
  intros Hs. unfold py_range_len. destruct (Z.ltb_spec 0 s); [|lia].
  pose proof (steps_bounds (b - a) s Hs) as Q. set (q := (b - a - 1) / s) in *.
  destruct (Z.ltb_spec a b); cbv zeta; [|repeat split; lia].
  assert (0 <= q) by nia. repeat split; try lia. intros i Hi. nia.
Qed.

Lemma len_spec_neg a b s : s < 0 ->
  let n := py_range_len a b s in
  0 <= n /\ (forall i, 0 <= i < n -> b < a + s * i) /\ a + s * n <= b.
Proof.
  intros Hs. unfold py_range_len. destruct (Z.ltb_spec 0 s); [lia|].
  pose proof (steps_bounds (a - b) (- s) ltac:(lia)) as Q. set (q := (a - b - 1) / - s) in *.
  destruct (Z.ltb_spec b a); cbv zeta; [|repeat split; lia].
  assert (0 <= q) by nia. repeat split; try lia. intros i Hi. nia.
Qed.

Lemma py_range_len_nonneg a b s : s <> 0 -> 0 <= py_range_len a b s.
Proof.
  intros. destruct (Z.lt_trichotomy s 0) as [H1|[H1|H1]]; try lia.
  - apply (len_spec_neg a b s H1). - apply (len_spec_pos a b s H1).
Qed.

Lemma py_range_length a b s : length (py_range a b s) = Z.to_nat (py_range_len a b s).
Proof. unfold py_range. rewrite map_length, seq_length. reflexivity. Qed.

Lemma rev_map_seq {A} (f : nat -> A) n :
  rev (map f (seq 0 n)) = map (fun i => f (n - 1 - i)%nat) (seq 0 n).
Proof.
  induction n as [|n IH]; [reflexivity|].
  rewrite seq_S at 1. rewrite map_app, rev_app_distr. cbn [map rev app plus]. rewrite IH.
  cbn [seq map]. f_equal.
  - f_equal. lia.
  - rewrite <- seq_shift, map_map. apply map_ext. intros i. f_equal. lia.
Qed.

(* reversed(range) as an indexed sequence *)
Lemma py_reversed_range_indexed a b s :
  py_reversed_range a b s =
  map (fun i => a + s * (py_range_len a b s - 1) - s * Z.of_nat i) (seq 0 (Z.to_nat (py_range_len a b s))).
Proof.
  unfold py_reversed_range, py_range. rewrite rev_map_seq. apply map_ext_in.
  intros i Hi. apply in_seq in Hi. set (N := py_range_len a b s) in *.
  replace (Z.of_nat (Z.to_nat N - 1 - i)) with (N - 1 - Z.of_nat i) by lia. ring.
Qed.

(* ... starting from its first value, however that was obtained *)
Lemma py_reversed_range_from a b s F :
  (0 < py_range_len a b s -> F = a + s * (py_range_len a b s - 1)) ->
  py_reversed_range a b s
  = map (fun i => F - s * Z.of_nat i) (seq 0 (Z.to_nat (py_range_len a b s))).
Proof.
  intros HF. rewrite py_reversed_range_indexed. apply map_ext_in.
  intros i Hi. apply in_seq in Hi. rewrite HF by lia. reflexivity.
Qed.

Section Fwd.
  Context {S : Type}.
  Variable body : Z -> S -> ctl * S.

  Theorem range_loop_eq w sg a b s fuel st :
    1 <= w -> s <> 0 -> in_range w sg a -> in_range w sg b ->
    fwd_safe w sg a b s = true ->
    (length (py_range a b s) < fuel)%nat ->
    range_loop body w sg a b s fuel st = done_of (py_for body (py_range a b s) st).
  Proof.
    intros Hw Hs Ha Hb Hsafe Hfuel. rewrite py_range_length in Hfuel.
    pose proof (py_range_len_nonneg a b s Hs) as Hn.
    unfold range_loop, fwd_safe, unsigned_desc, py_range in *. set (n := py_range_len a b s) in *.
    destruct (Z.ltb_spec s 0) as [Hneg|Hpos]; cbn [find_relations snd] in *.
    - destruct (len_spec_neg a b s Hneg) as (_ & Hin & Hout). fold n in Hin, Hout.
      replace (Z.abs s) with (- s) in * by lia.
      destruct sg; cbn [negb andb rel_is_gt] in *.
      + (* signed: for (t = a; t > b; t -= A) *)
        apply in_rangeb_spec in Hsafe.
        apply for_from_plain with (V := fun i => a + s * i) (d := s); try assumption;
          cbn [rel_offset rel_incr rel_test].
        * (* V *) intros; lia.
        * (* signed *) reflexivity.
        * (* d *) lia.
        * (* first value *) rewrite Z.mul_0_r, Z.add_0_r; exact Ha.
        * (* test below n *) intros i Hi. specialize (Hin i Hi). lia.
        * (* test at n *) lia.
      + (* unsigned: for (t = a + A; t > b + A; ) { t -= A; *)
        rewrite andb_true_iff, !in_rangeb_spec in Hsafe. destruct Hsafe as [S1 S2].
        apply for_from_unsigned_desc with (V := fun i => a + s * i) (d := s); try assumption;
          cbn [rel_offset rel_test].
        * (* V *) intros; lia.
        * (* unsigned, descending *) reflexivity.
        * (* d *) lia.
        * (* first value + A *) rewrite Z.mul_0_r, Z.add_0_r; exact S1.
        * (* values below n *) intros i Hi. specialize (Hin i Hi).
          apply (in_range_between _ _ b a); try assumption. nia.
        * (* test below n *) intros i Hi. specialize (Hin i Hi). lia.
        * (* test at n *) lia.
    - (* ascending: for (t = a; t < b; t += A) *)
      destruct (len_spec_pos a b s ltac:(lia)) as (_ & Hin & Hout). fold n in Hin, Hout.
      replace (Z.abs s) with s in * by lia. rewrite andb_false_r in Hsafe.
      apply in_rangeb_spec in Hsafe.
      apply for_from_plain with (V := fun i => a + s * i) (d := s); try assumption;
        cbn [rel_offset rel_incr rel_test rel_is_gt].
      + (* V *) intros; lia.
      + (* ascending *) apply andb_false_r.
      + (* d *) reflexivity.
      + (* first value *) rewrite Z.mul_0_r, Z.add_0_r; exact Ha.
      + (* test below n *) intros i Hi. specialize (Hin i Hi). lia.
      + (* test at n *) lia.
  Qed.
End Fwd.

(* the constant start bound without the |s| = 1 shortcut *)
Lemma rev_bound1_const_formula a b s : s <> 0 ->
  rev_bound1_const a b s =
  if s <? 0 then a - Z.abs s * ((a - b - 1) / Z.abs s) - 1 else a + Z.abs s * ((b - a - 1) / Z.abs s) + 1.
Proof.
  intros Hs. unfold rev_bound1_const. destruct (Z.eqb_spec (Z.abs s) 1) as [E|E]; [|reflexivity].
  rewrite E, !Z.div_1_r. destruct (s <? 0); lia.
Qed.

(* first value of the reversed loop: the last element of the range, or a value that fails the test *)
Lemma rev_first_pos a b s : 0 < s ->
  let n := py_range_len a b s in
  let F := rev_bound1_const a b s - 1 in
  (0 < n -> F = a + s * (n - 1)) /\ (n = 0 -> b - s <= F < a).
Proof.
  intros Hs. cbn zeta. rewrite rev_bound1_const_formula by lia. unfold py_range_len.
  destruct (Z.ltb_spec s 0); [lia|]. destruct (Z.ltb_spec 0 s); [|lia]. replace (Z.abs s) with s by lia.
  pose proof (steps_bounds (b - a) s Hs) as Q. set (q := (b - a - 1) / s) in *.
  destruct (Z.ltb_spec a b); split; intros; lia.
Qed.

Lemma rev_first_neg a b s : s < 0 ->
  let n := py_range_len a b s in
  let F := rev_bound1_const a b s + 1 in
  (0 < n -> F = a + s * (n - 1)) /\ (n = 0 -> a < F <= b - s).
Proof.
  intros Hs. cbn zeta. rewrite rev_bound1_const_formula by lia. unfold py_range_len.
  destruct (Z.ltb_spec s 0); [|lia]. destruct (Z.ltb_spec 0 s); [lia|]. replace (Z.abs s) with (- s) by lia.
  pose proof (steps_bounds (a - b) (- s) ltac:(lia)) as Q. set (q := (a - b - 1) / - s) in *.
  destruct (Z.ltb_spec b a); split; intros; lia.
Qed.

Section Rev.
  Context {S : Type}.
  Variable body : Z -> S -> ctl * S.

  Theorem reversed_loop_const_eq w sg a b s fuel st :
    1 <= w -> s <> 0 -> in_range w sg a ->
    rev_safe w sg (rev_bound1_const a b s) a s = true ->
    (length (py_range a b s) < fuel)%nat ->
    reversed_loop_const body w sg a b s fuel st = done_of (py_for body (py_reversed_range a b s) st).
  Proof.
    intros Hw Hs Ha Hsafe Hfuel. rewrite py_range_length in Hfuel.
    pose proof (py_range_len_nonneg a b s Hs) as Hn.
    unfold reversed_loop_const, reversed_loop_from, rev_safe, unsigned_desc in *.
    set (n := py_range_len a b s) in *. set (b1 := rev_bound1_const a b s) in *.
    apply andb_true_iff in Hsafe. destruct Hsafe as [_ Hsafe].
    destruct (Z.ltb_spec s 0) as [Hneg|Hpos]; cbn [find_relations fst snd rel_offset] in *.
    - (* reversed(range(a, b, -A)): for (t = b1 + 1; t <= a; t += A) *)
      destruct (rev_first_neg a b s Hneg) as [F1 F0]. fold n b1 in F1, F0.
      rewrite (py_reversed_range_from a b s (b1 + 1) F1). fold n.
      replace (Z.abs s) with (- s) in * by lia.
      rewrite andb_false_r, andb_true_iff, !in_rangeb_spec in Hsafe. destruct Hsafe as [S1 S2].
      (* the value that fails the test: the first one if the range is empty, else a - s *)
      assert (He : in_range w sg (b1 + 1 - s * n) /\ a < b1 + 1 - s * n).
      { destruct (Z.eq_dec n 0) as [E|E].
        - rewrite E, Z.mul_0_r, Z.sub_0_r. split; [exact S1 | apply F0, E].
        - specialize (F1 ltac:(lia)). replace (b1 + 1 - s * n) with (a - s) by lia. split; [exact S2 | lia]. }
      apply for_from_plain with (V := fun i => b1 + 1 - s * i) (d := - s); try assumption;
        cbn [rel_offset rel_incr rel_test rel_is_gt].
      + (* V *) intros; lia.
      + (* ascending *) apply andb_false_r.
      + (* d *) reflexivity.
      + (* first value *) rewrite Z.mul_0_r, Z.sub_0_r; exact S1.
      + (* value at n *) apply He.
      + (* test below n *) intros i Hi. specialize (F1 ltac:(lia)). nia.
      + (* test at n *) lia.
    - (* reversed(range(a, b, A)) *)
      destruct (rev_first_pos a b s ltac:(lia)) as [F1 F0]. fold n b1 in F1, F0.
      rewrite (py_reversed_range_from a b s (b1 + -1) F1). fold n.
      replace (Z.abs s) with s in * by lia.
      assert (He : b1 + -1 - s * n < a /\ (b1 + -1 - s * n = b1 + -1 \/ b1 + -1 - s * n = a - s)).
      { destruct (Z.eq_dec n 0) as [E|E].
        - rewrite E, Z.mul_0_r, Z.sub_0_r. split; [apply F0, E | left; reflexivity].
        - specialize (F1 ltac:(lia)). lia. }
      destruct sg; cbn [negb andb rel_is_gt] in *;
        rewrite andb_true_iff, !in_rangeb_spec in Hsafe; destruct Hsafe as [S1 S2].
      + (* signed: for (t = b1 - 1; t >= a; t -= A) *)
        apply for_from_plain with (V := fun i => b1 + -1 - s * i) (d := - s); try assumption;
          cbn [rel_offset rel_incr rel_test].
        * (* V *) intros; lia.
        * (* signed *) reflexivity.
        * (* d *) reflexivity.
        * (* first value *) rewrite Z.mul_0_r, Z.sub_0_r; exact S1.
        * (* value at n *) destruct He as [_ [-> | ->]]; assumption.
        * (* test below n *) intros i Hi. specialize (F1 ltac:(lia)). nia.
        * (* test at n *) lia.
      + (* unsigned: for (t = b1 - 1 + A; t >= a + A; ) { t -= A; *)
        apply for_from_unsigned_desc with (V := fun i => b1 + -1 - s * i) (d := - s); try assumption;
          cbn [rel_offset rel_test].
        * (* V *) intros; lia.
        * (* unsigned, descending *) reflexivity.
        * (* d *) reflexivity.
        * (* first value + A *) rewrite Z.mul_0_r, Z.sub_0_r; exact S1.
        * (* values below n *) intros i Hi. specialize (F1 ltac:(lia)).
          apply (in_range_between _ _ a (b1 + -1 + s)); try assumption. nia.
        * (* test below n *) intros i Hi. specialize (F1 ltac:(lia)). nia.
        * (* test at n *) lia.
  Qed.

  (* runtime bounds: when the C evaluation of the start bound is exact, the loop is the constant-bound loop *)
  Theorem reversed_loop_rt_eq floor w sg cw csg a b s fuel st :
    1 <= w -> s <> 0 -> in_range w sg a ->
    rev_bound1_rt floor cw csg a b s = Some (rev_bound1_const a b s) ->
    rev_safe w sg (rev_bound1_const a b s) a s = true ->
    (length (py_range a b s) < fuel)%nat ->
    reversed_loop_rt body floor w sg cw csg a b s fuel st = done_of (py_for body (py_reversed_range a b s) st).
  Proof.
    intros Hw Hs Ha Hb1 Hsafe Hfuel. unfold reversed_loop_rt. rewrite Hb1.
    apply (reversed_loop_const_eq w sg a b s fuel st); assumption.
  Qed.
End Rev.

(* with Python's // (floor = true) and a signed computation type the start bound is exact whenever
   the C expression is free of undefined behaviour *)
Theorem rev_bound1_rt_signed_exact cw csg a b s r :
  s <> 0 -> prom_s cw csg = true ->
  rev_bound1_rt true cw csg a b s = Some r -> r = rev_bound1_const a b s.
Proof.
  intros Hs Hp. unfold rev_bound1_rt, rev_bound1_const. cbn [orb].
  destruct (Z.abs s =? 1); [congruence|].
  destruct (s <? 0); intros H; do 4 apply (bind_carith_signed _ _ _ _ _ Hp) in H;
    exact (carith_signed_exact _ _ _ _ Hp H).
Qed.

Lemma py_enumerate_cons v r start :
  py_enumerate (v :: r) start = (start, v) :: py_enumerate r (start + 1).
Proof.
  unfold py_enumerate. cbn [length seq map combine]. f_equal; [f_equal; lia|].
  f_equal. rewrite <- seq_shift, map_map. apply map_ext. intros i. lia.
Qed.

Theorem enumerate_eq {S} (body : Z * Z -> S -> ctl * S) w sg typed vals : forall start st,
  1 <= w ->
  (typed = true -> in_range w sg start /\ in_range w sg (start + Z.of_nat (length vals))) ->
  (let '((_, st'), e) := py_for (enum_body w sg typed body) vals (start, st) in (st', e))
  = py_for_pairs body (py_enumerate vals start) st.
Proof.
  induction vals as [|v r IH]; intros start st Hw Hfit; [reflexivity|].
  rewrite py_enumerate_cons. cbn [py_for py_for_pairs enum_body].
  destruct (body (start, v) st) as [[|] st']; [|reflexivity].
  assert (Hc : (if typed then wrap w sg (start + 1) else start + 1) = start + 1).
  { destruct typed; [|reflexivity]. destruct (Hfit eq_refl) as [H1 H2].
    apply wrap_id; [assumption|]. cbn [length] in H2. unfold in_range in *. lia. }
  rewrite Hc. apply IH; [assumption|].
  intros Ht. destruct (Hfit Ht) as [H1 H2]. cbn [length] in H2. split.
  - unfold in_range in *. lia.
  - replace (start + 1 + Z.of_nat (length r)) with (start + Z.of_nat (Datatypes.S (length r))) by lia. exact H2.
Qed.

Lemma last_cons {A} (l : list A) : forall x d, last (x :: l) d = last l x.
Proof.
  induction l as [|y l IH]; intros x d; [reflexivity|].
  change (last (x :: y :: l) d) with (last (y :: l) d). rewrite !IH. reflexivity.
Qed.

Lemma py_for_log_nobreak brk vals : forall l t,
  Z.of_nat (length l + length vals) < brk ->
  py_for (log_body brk) vals (l, t) = ((l ++ vals, last (map Some vals) t), true).
Proof.
  induction vals as [|v r IH]; intros l t H.
  - cbn. rewrite app_nil_r. reflexivity.
  - cbn [py_for log_body fst]. rewrite app_length in *. cbn [length] in *.
    destruct (Z.leb_spec brk (Z.of_nat (length l + 1))); [lia|].
    rewrite IH by (rewrite app_length; cbn [length]; lia).
    rewrite <- app_assoc. cbn [app map]. rewrite last_cons. reflexivity.
Qed.

(* the else clause runs iff the body never breaks *)
Lemma py_for_else_iff {S} (body : Z -> S -> ctl * S) vals : forall st,
  snd (py_for body vals st) = false <->
  exists pre v post st1, vals = pre ++ v :: post /\ py_for body pre st = (st1, true) /\ fst (body v st1) = Break.
Proof.
  induction vals as [|v r IH]; intros st.
  - cbn. split; [discriminate|]. intros (pre & v & post & st1 & E & _). destruct pre; discriminate.
  - cbn [py_for]. destruct (body v st) as [[|] st'] eqn:Eb.
    + rewrite IH. split.
      * intros (pre & v' & post & st1 & E & Hp & Hb). exists (v :: pre), v', post, st1.
        subst r. cbn [app py_for]. rewrite Eb. auto.
      * intros (pre & v' & post & st1 & E & Hp & Hb). destruct pre as [|p pre].
        -- cbn in E, Hp. injection E as -> ->. injection Hp as <-. rewrite Eb in Hb. discriminate.
        -- cbn in E. injection E as -> ->. cbn [py_for] in Hp. rewrite Eb in Hp.
           exists pre, v', post, st1. auto.
    + cbn [snd]. split; [intros _|reflexivity].
      exists [], v, r, st. cbn. rewrite Eb. auto.
Qed.

(* cdef int i; for i in range(2147483646, 2147483647, 2): the increment overflows int -> undefined behaviour *)
Theorem no_wrap_in_increment_refuted_signed :
  exists a b s, in_range 32 true a /\ in_range 32 true b /\ s <> 0 /\
    range_loop (log_body 10) 32 true a b s 20 l0 = UB.
Proof.
  exists 2147483646, 2147483647, 2. repeat split; try (vm_compute; intuition congruence).
Qed.

(* cdef unsigned int i; for i in range(4294967294, 4294967295, 2): wraps to 0 and keeps iterating *)
Theorem no_wrap_in_increment_refuted_unsigned :
  exists a b s, in_range 32 false a /\ in_range 32 false b /\ s <> 0 /\
    range_loop (log_body 3) 32 false a b s 20 l0 = Done ([4294967294; 0; 2], Some 2) false /\
    py_for (log_body 3) (py_range a b s) l0 = (([4294967294], Some 4294967294), true).
Proof.
  exists 4294967294, 4294967295, 2. repeat split; try (vm_compute; intuition congruence).
Qed.

(* cdef unsigned int i; for i in range(4294967295, 4294967290, -3): start + |step| wraps, zero iterations *)
Theorem unsigned_descending_refuted :
  exists a b s, in_range 32 false a /\ in_range 32 false b /\ s <> 0 /\
    range_loop (log_body 10) 32 false a b s 20 l0 = Done l0 true /\
    py_for (log_body 10) (py_range a b s) l0 = (([4294967295; 4294967292], Some 4294967292), true).
Proof.
  exists 4294967295, 4294967290, (-3). repeat split; try (vm_compute; intuition congruence).
Qed.

(* reversed(range(-2147483648, 2147483647, 2)) with int bounds: `b - a` overflows in the bound computation *)
Theorem no_overflow_in_bound_calc_refuted :
  exists a b s, in_range 32 true a /\ in_range 32 true b /\ s <> 0 /\
    rev_bound1_rt true 32 true a b s = None.
Proof.
  exists (-2147483648), 2147483647, 2. repeat split; try (vm_compute; intuition congruence).
Qed.

(* with C division in the start bound (floor = false: cdivision=True before /repo's repair of finding
   reversed_range_bound_uses_cdivision) reversed(range(0, 0, 3)) runs once where Python's range is empty *)
Theorem reversed_bound_cdivision_refuted :
  exists a b s, in_range 32 true a /\ in_range 32 true b /\ s <> 0 /\
    reversed_loop_rt (log_body 10) false 32 true 32 true a b s 20 l0 = Done ([0], Some 0) true /\
    py_reversed_range a b s = [].
Proof.
  exists 0, 0, 3. repeat split; try (vm_compute; intuition congruence).
Qed.

(* object targets: the loop variable is a C long and all three arguments are small literals *)
Lemma small_in_range64 v : - 2 ^ 31 <= v < 2 ^ 31 -> in_range 64 true v.
Proof. unfold in_range, min_int, max_int. change (2 ^ (64 - 1)) with 9223372036854775808. lia. Qed.

Lemma fwd_safe_small a b s :
  s <> 0 -> - 2 ^ 30 <= a < 2 ^ 30 -> - 2 ^ 30 <= b < 2 ^ 30 -> - 2 ^ 30 <= s < 2 ^ 30 ->
  fwd_safe 64 true a b s = true.
Proof.
  intros Hs Ha Hb Hs'. unfold fwd_safe, unsigned_desc. cbn [negb andb].
  apply in_rangeb_spec. apply small_in_range64.
  set (n := py_range_len a b s).
  destruct (Z.lt_trichotomy s 0) as [H|[H|H]]; [|lia|].
  - destruct (len_spec_neg a b s H) as (Hn & Hin & Hout). fold n in Hn, Hin, Hout.
    destruct (Z.eq_dec n 0) as [E|E]; [rewrite E; lia|].
    specialize (Hin (n - 1) ltac:(lia)). lia.
  - destruct (len_spec_pos a b s H) as (Hn & Hin & Hout). fold n in Hn, Hin, Hout.
    destruct (Z.eq_dec n 0) as [E|E]; [rewrite E; lia|].
    specialize (Hin (n - 1) ltac:(lia)). lia.
Qed.

Lemma rev_safe_small a b s :
  s <> 0 -> - 2 ^ 30 <= a < 2 ^ 30 -> - 2 ^ 30 <= b < 2 ^ 30 -> - 2 ^ 30 <= s < 2 ^ 30 ->
  rev_safe 64 true (rev_bound1_const a b s) a s = true.
Proof.
  intros Hs Ha Hb Hs'. unfold rev_safe, unsigned_desc. cbn [negb andb].
  set (n := py_range_len a b s). set (b1 := rev_bound1_const a b s).
  assert (- 2 ^ 31 + 1 <= b1 < 2 ^ 31 - 1) as Hb1.
  { destruct (Z.lt_trichotomy s 0) as [H|[H|H]]; [|lia|].
    - destruct (rev_first_neg a b s H) as [F1 F0]. fold n b1 in F1, F0.
      destruct (len_spec_neg a b s H) as (Hn & Hin & _). fold n in Hn, Hin.
      destruct (Z.eq_dec n 0) as [E|E]; [specialize (F0 E); lia|].
      specialize (F1 ltac:(lia)). specialize (Hin (n - 1) ltac:(lia)).
      assert (a + s * (n - 1) <= a) by nia. lia.
    - destruct (rev_first_pos a b s H) as [F1 F0]. fold n b1 in F1, F0.
      destruct (len_spec_pos a b s H) as (Hn & Hin & _). fold n in Hn, Hin.
      destruct (Z.eq_dec n 0) as [E|E]; [specialize (F0 E); lia|].
      specialize (F1 ltac:(lia)). specialize (Hin (n - 1) ltac:(lia)).
      assert (a <= a + s * (n - 1)) by nia. lia. }
  rewrite !andb_true_iff. repeat split; apply in_rangeb_spec; apply small_in_range64.
  - lia.
  - destruct (s <? 0); cbn [find_relations fst rel_offset]; lia.
  - lia.
Qed.

Theorem object_target_range_eq {S} (body : Z -> S -> ctl * S) a b s fuel st :
  s <> 0 -> - 2 ^ 30 <= a < 2 ^ 30 -> - 2 ^ 30 <= b < 2 ^ 30 -> - 2 ^ 30 <= s < 2 ^ 30 ->
  (length (py_range a b s) < fuel)%nat ->
  range_loop body 64 true a b s fuel st = done_of (py_for body (py_range a b s) st).
Proof.
  intros Hs Ha Hb Hs' Hf.
  apply (range_loop_eq body); try assumption; try lia; try (apply small_in_range64; lia).
  apply fwd_safe_small; assumption.
Qed.

Theorem object_target_reversed_eq {S} (body : Z -> S -> ctl * S) a b s fuel st :
  s <> 0 -> - 2 ^ 30 <= a < 2 ^ 30 -> - 2 ^ 30 <= b < 2 ^ 30 -> - 2 ^ 30 <= s < 2 ^ 30 ->
  (length (py_range a b s) < fuel)%nat ->
  reversed_loop_const body 64 true a b s fuel st = done_of (py_for body (py_reversed_range a b s) st).
Proof.
  intros Hs Ha Hb Hs' Hf.
  apply (reversed_loop_const_eq body); try assumption; try lia; try (apply small_in_range64; lia).
  apply rev_safe_small; assumption.
Qed.

Theorem iterations_final_value_else w sg a b s fuel brk :
  1 <= w -> s <> 0 -> in_range w sg a -> in_range w sg b -> fwd_safe w sg a b s = true ->
  (length (py_range a b s) < fuel)%nat -> Z.of_nat (length (py_range a b s)) < brk ->
  range_loop (log_body brk) w sg a b s fuel l0
  = Done (py_range a b s, last (map Some (py_range a b s)) None) true.
Proof.
  intros. rewrite (range_loop_eq (log_body brk)) by assumption.
  unfold l0. rewrite py_for_log_nobreak by (cbn [length plus]; assumption). reflexivity.
Qed.
