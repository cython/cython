(* Proofs about Model/M_Overflow.v.  Every portable helper of Overflow.c is shown equal to the
   contract of the compiler builtin, builtin_res w s exact = (wrapped exact result, exact result
   does not fit), one lemma per operator and signedness (base_helper_exact, helper_exact); the
   statements about the generated node, the typedef dispatch (P_OverflowTd.v) and the folded check
   are read off that.  '<<' has a check of its own (the lshift lemmas), with spurious flags. *)
From Coq Require Import ZArith List Bool Lia ZifyBool.
From CyVerif Require Import Lib.CInt Model.M_CMath Proof.P_CMath Model.M_Overflow.
Open Scope Z_scope.

(* + - * on the unsigned copies of the operands, read back in any signedness *)
Lemma wrap_add_wrap w s a b : 1 <= w ->
  wrap w s (wrap w false a + wrap w false b) = wrap w s (a + b).
Proof. intros Hw. apply wrap_eq_of_mod; [exact Hw|]. symmetry. apply Zplus_mod. Qed.

Lemma wrap_sub_wrap w s a b : 1 <= w ->
  wrap w s (wrap w false a - wrap w false b) = wrap w s (a - b).
Proof. intros Hw. apply wrap_eq_of_mod; [exact Hw|]. symmetry. apply Zminus_mod. Qed.

Lemma wrap_mul_wrap w s a b : 1 <= w ->
  wrap w s (wrap w false a * wrap w false b) = wrap w s (a * b).
Proof. intros Hw. apply wrap_eq_of_mod; [exact Hw|]. symmetry. apply Zmult_mod. Qed.

Lemma wrapu_cases w x : 1 <= w -> - 2 ^ w <= x < 2 * 2 ^ w ->
  wrap w false x = if x <? 0 then x + 2 ^ w else if x <? 2 ^ w then x else x - 2 ^ w.
Proof.
  intros Hw Hx. destruct (Z.ltb_spec x 0); [|destruct (Z.ltb_spec x (2 ^ w))].
  - rewrite (wrap_unique w false x 1); [lia | exact Hw | apply in_range_unsigned; lia].
  - apply wrap_id; [exact Hw | apply in_range_unsigned; lia].
  - rewrite (wrap_unique w false x (-1)); [lia | exact Hw | apply in_range_unsigned; lia].
Qed.

Lemma wraps_cases w x : 1 <= w -> - 3 * 2 ^ (w - 1) <= x < 3 * 2 ^ (w - 1) ->
  wrap w true x = if x <? - 2 ^ (w - 1) then x + 2 ^ w else if x <? 2 ^ (w - 1) then x else x - 2 ^ w.
Proof.
  intros Hw Hx. pose proof (pow2_split w Hw) as E.
  destruct (Z.ltb_spec x (- 2 ^ (w - 1))); [|destruct (Z.ltb_spec x (2 ^ (w - 1)))].
  - rewrite (wrap_unique w true x 1); [lia | exact Hw | apply in_range_signed; lia].
  - apply wrap_id; [exact Hw | apply in_range_signed; lia].
  - rewrite (wrap_unique w true x (-1)); [lia | exact Hw | apply in_range_signed; lia].
Qed.

Lemma in_rangeb_wrap_iff w s x : 1 <= w -> (x =? wrap w s x) = in_rangeb w s x.
Proof.
  intros Hw. apply Bool.eq_true_iff_eq. rewrite Z.eqb_eq, in_rangeb_spec. split.
  - intros ->. now apply wrap_in_range.
  - intros H. symmetry. now apply wrap_id.
Qed.

(* the Common.proto macros are the limits of the type *)

Lemma pow2_quarter w : 2 <= w -> 2 ^ (w - 1) = 2 * 2 ^ (w - 2) /\ 0 < 2 ^ (w - 2).
Proof.
  intros Hw. split; [|apply pow2_pos; lia].
  rewrite (pow2_split (w - 1)) by lia. do 2 f_equal. lia.
Qed.

Lemma half_max_val w : 2 <= w -> pyx_half_max w true = 2 ^ (w - 2).
Proof.
  intros Hw. unfold pyx_half_max. rewrite Z.shiftl_1_l.
  apply wrap_id; [lia|]. apply in_range_signed. pose proof (pow2_quarter w Hw). lia.
Qed.

Lemma pyx_min_eq w s : 2 <= w -> pyx_min w s = min_int w s.
Proof.
  intros Hw. unfold pyx_min. destruct s; [|reflexivity].
  rewrite half_max_val by lia. pose proof (pow2_quarter w Hw).
  rewrite (wrap_id w true (0 - 2 ^ (w - 2))) by (try apply in_range_signed; lia).
  unfold min_int. rewrite wrap_id by (try apply in_range_signed; lia). lia.
Qed.

Lemma pyx_max_eq w s : 2 <= w -> pyx_max w s = max_int w s.
Proof.
  intros Hw. unfold pyx_max. rewrite pyx_min_eq by lia.
  pose proof (pow2_pos (w - 1) ltac:(lia)). pose proof (pow2_split w ltac:(lia)) as E.
  unfold Z.lnot. destruct s; unfold min_int, max_int.
  - replace (Z.pred (- - 2 ^ (w - 1))) with (2 ^ (w - 1) - 1) by lia.
    apply wrap_id; [lia | apply in_range_signed; lia].
  - rewrite (wrap_unique w false _ 1); [lia | lia | apply in_range_unsigned; lia].
Qed.

Lemma pyx_min_no_overflow_ok w s : 2 <= w -> pyx_min_no_overflow w s = true.
Proof.
  intros Hw. unfold pyx_min_no_overflow. destruct s; [|reflexivity].
  rewrite !andb_true_iff, !in_rangeb_spec, Z.shiftl_1_l, half_max_val, !in_range_signed by lia.
  pose proof (pow2_quarter w Hw). lia.
Qed.

Lemma uadd_eq_builtin w a b : 1 <= w -> in_range w false a -> in_range w false b ->
  uadd_portable w a b = builtin_res w false (a + b).
Proof.
  intros Hw Ha Hb. unfold uadd_portable, builtin_res, in_rangeb, in_range, min_int, max_int in *.
  pose proof (pow2_pos w ltac:(lia)) as P.
  rewrite wrapu_cases by lia.
  destruct (Z.ltb_spec (a + b) 0); [lia|].
  destruct (Z.ltb_spec (a + b) (2 ^ w)); f_equal; lia.
Qed.

Lemma usub_eq_builtin w a b : 1 <= w -> in_range w false a -> in_range w false b ->
  usub_portable w a b = builtin_res w false (a - b).
Proof.
  intros Hw Ha Hb. unfold usub_portable, builtin_res, in_rangeb, in_range, min_int, max_int in *.
  pose proof (pow2_pos w ltac:(lia)) as P.
  rewrite wrapu_cases by lia.
  destruct (Z.ltb_spec (a - b) 0).
  - f_equal; lia.
  - destruct (Z.ltb_spec (a - b) (2 ^ w)); f_equal; lia.
Qed.

Lemma div_ltb_mul x b y : 0 < b -> (x / b <? y) = (x <? y * b).
Proof.
  intros Hb. apply Bool.eq_true_iff_eq. rewrite !Z.ltb_lt. split; intros H.
  - destruct (Z.lt_ge_cases x (y * b)) as [|G]; [assumption|].
    exfalso. pose proof (Z.div_le_lower_bound x b y Hb ltac:(lia)). lia.
  - apply Z.div_lt_upper_bound; lia.
Qed.

Lemma quot_tests m c a : 0 <= m -> 0 < c ->
  (Z.quot m c <? a) = (m <? a * c) /\ (a <? - Z.quot m c) = (a * c <? - m).
Proof.
  intros Hm Hc. rewrite Z.quot_div_nonneg by lia. split; [now apply div_ltb_mul|].
  replace (a <? - (m / c)) with (m / c <? - a) by lia. rewrite div_ltb_mul by lia. lia.
Qed.

Lemma umul_const_flag_exact w a b : 1 <= w -> in_range w false a -> in_range w false b ->
  (if b =? 0 then false else Z.quot (max_int w false) b <? a) = negb (in_rangeb w false (a * b)).
Proof.
  intros Hw Ha%in_range_unsigned Hb%in_range_unsigned. unfold in_rangeb, min_int, max_int.
  destruct (Z.eqb_spec b 0) as [->|Hn].
  - rewrite Z.mul_0_r. lia.
  - rewrite (proj1 (quot_tests (2 ^ w - 1) b a ltac:(lia) ltac:(lia))).
    assert (0 <= a * b) by nia. lia.
Qed.

Lemma umul_const_eq_builtin w swap a b : 2 <= w -> in_range w false a -> in_range w false b ->
  umul_const_portable w swap a b = builtin_res w false (a * b).
Proof.
  intros Hw Ha Hb. unfold umul_const_portable, builtin_res. rewrite pyx_max_eq by lia.
  destruct swap; rewrite umul_const_flag_exact by (assumption || lia); [|reflexivity].
  now rewrite (Z.mul_comm b a).
Qed.

Lemma widen_eq_builtin w s bw exact : 1 <= w -> 1 <= bw -> in_range bw s exact ->
  widen_res w s bw exact = builtin_res w s exact.
Proof.
  intros Hw Hbw Hx. unfold widen_res, builtin_res.
  rewrite (wrap_id bw s exact Hbw Hx). now rewrite in_rangeb_wrap_iff.
Qed.

Lemma pow2_double w : 0 <= w -> 2 ^ (2 * w) = 2 ^ w * 2 ^ w.
Proof. intros. replace (2 * w) with (w + w) by lia. apply Z.pow_add_r; lia. Qed.

Lemma mul_fits_double w s bw a b : 2 <= w -> 2 * w <= bw ->
  in_range w s a -> in_range w s b -> in_range bw s (a * b).
Proof.
  intros Hw Hbw Ha Hb.
  pose proof (pow2_pos (w - 1) ltac:(lia)) as P. pose proof (pow2_split w ltac:(lia)) as E.
  pose proof (pow2_double w ltac:(lia)) as D. pose proof (pow2_mono (2 * w) bw ltac:(lia)) as Mo.
  pose proof (pow2_split bw ltac:(lia)) as Eb.
  destruct s.
  - apply in_range_signed in Ha, Hb. apply in_range_signed.
    assert (- (2 ^ (w - 1) * 2 ^ (w - 1)) <= a * b <= 2 ^ (w - 1) * 2 ^ (w - 1)) by (clear - Ha Hb; nia).
    rewrite E in D. lia.
  - apply in_range_unsigned in Ha, Hb. apply in_range_unsigned.
    assert (0 <= a * b <= (2 ^ w - 1) * (2 ^ w - 1)) by (clear - Ha Hb; nia).
    rewrite E in D. lia.
Qed.

(* the platform condition of the widening paths: a wider type is at least twice as wide *)
Definition wide_ok (w lw llw : Z) : Prop :=
  (w < lw -> 2 * w <= lw) /\ (lw <= w -> w < llw -> 2 * w <= llw).

Lemma mul_fits_wider w s lw llw a b : 2 <= w -> wide_ok w lw llw ->
  in_range w s a -> in_range w s b ->
  (w < lw -> in_range lw s (a * b)) /\ (lw <= w -> w < llw -> in_range llw s (a * b)).
Proof. intros Hw [W1 W2] Ha Hb. split; intros; apply (mul_fits_double w); auto. Qed.

Lemma widen_chain w s lw llw exact fb : 1 <= w ->
  (w < lw -> in_range lw s exact) -> (lw <= w -> w < llw -> in_range llw s exact) ->
  fb = builtin_res w s exact ->
  (if w <? lw then widen_res w s lw exact else if w <? llw then widen_res w s llw exact else fb)
  = builtin_res w s exact.
Proof.
  intros Hw H1 H2 H3.
  destruct (Z.ltb_spec w lw); [apply widen_eq_builtin; auto; lia|].
  destruct (Z.ltb_spec w llw); [apply widen_eq_builtin; auto; lia | exact H3].
Qed.

Lemma widen_chain_ub_free w lw llw exact fb :
  (w < lw -> in_range lw true exact) -> (lw <= w -> w < llw -> in_range llw true exact) ->
  fb = true ->
  (if w <? lw then widen_ub_free w true lw exact
   else if w <? llw then widen_ub_free w true llw exact else fb) = true.
Proof.
  intros H1 H2 H3. unfold widen_ub_free.
  destruct (Z.ltb_spec w lw); [apply in_rangeb_spec; auto|].
  destruct (Z.ltb_spec w llw); [apply in_rangeb_spec; auto | exact H3].
Qed.

Lemma umul_eq_builtin w lw llw cb ca swap a b : 2 <= w -> wide_ok w lw llw ->
  in_range w false a -> in_range w false b ->
  umul_portable w lw llw cb ca swap a b = builtin_res w false (a * b).
Proof.
  intros Hw Wd Ha Hb. unfold umul_portable.
  destruct cb; [now apply umul_const_eq_builtin|].
  destruct ca; [rewrite (Z.mul_comm a b); now apply umul_const_eq_builtin|].
  destruct (mul_fits_wider w false lw llw a b) as [F1 F2]; try assumption.
  apply widen_chain; try assumption; [lia | now apply umul_const_eq_builtin].
Qed.

Lemma div_top w x : 1 <= w -> 0 <= x < 2 ^ w -> x / 2 ^ (w - 1) = b2z (2 ^ (w - 1) <=? x).
Proof.
  intros Hw Hx. pose proof (pow2_pos (w - 1) ltac:(lia)) as P. pose proof (pow2_split w Hw) as E.
  destruct (Z.leb_spec (2 ^ (w - 1)) x); unfold b2z.
  - symmetry. apply (Z.div_unique x (2 ^ (w - 1)) 1 (x - 2 ^ (w - 1))); lia.
  - apply Z.div_small. lia.
Qed.

Lemma testbit_top w x : 1 <= w -> 0 <= x < 2 ^ w -> Z.testbit x (w - 1) = (2 ^ (w - 1) <=? x).
Proof.
  intros Hw Hx. pose proof (Z.testbit_spec' x (w - 1) ltac:(lia)) as T. rewrite div_top in T by lia.
  destruct (2 ^ (w - 1) <=? x), (Z.testbit x (w - 1)); cbn in T; congruence.
Qed.

Lemma shiftr_top w x : 1 <= w -> 0 <= x < 2 ^ w -> Z.shiftr x (w - 1) = b2z (Z.testbit x (w - 1)).
Proof. intros Hw Hx. now rewrite Z.shiftr_div_pow2, div_top, testbit_top by lia. Qed.

Lemma lt_pow2_log2 w x : 1 <= w -> 0 <= x -> (x < 2 ^ w <-> Z.log2 x < w).
Proof.
  intros Hw Hx. destruct (Z.eq_dec x 0) as [->|Hn].
  - cbn. pose proof (pow2_pos w ltac:(lia)). lia.
  - apply Z.log2_lt_pow2. lia.
Qed.

Lemma lxor_bound w a b : 1 <= w -> 0 <= a < 2 ^ w -> 0 <= b < 2 ^ w -> 0 <= Z.lxor a b < 2 ^ w.
Proof.
  intros Hw Ha Hb. assert (N : 0 <= Z.lxor a b) by (apply Z.lxor_nonneg; lia).
  split; [exact N|]. apply lt_pow2_log2; [lia | exact N |].
  pose proof (Z.log2_lxor a b ltac:(lia) ltac:(lia)).
  pose proof (proj1 (lt_pow2_log2 w a Hw ltac:(lia)) ltac:(lia)).
  pose proof (proj1 (lt_pow2_log2 w b Hw ltac:(lia)) ltac:(lia)). lia.
Qed.

Lemma land_bound w a b : 1 <= w -> 0 <= a < 2 ^ w -> 0 <= b < 2 ^ w -> 0 <= Z.land a b < 2 ^ w.
Proof.
  intros Hw Ha Hb. assert (N : 0 <= Z.land a b) by (apply Z.land_nonneg; lia).
  split; [exact N|]. apply lt_pow2_log2; [lia | exact N |].
  pose proof (Z.log2_land a b ltac:(lia) ltac:(lia)).
  pose proof (proj1 (lt_pow2_log2 w a Hw ltac:(lia)) ltac:(lia)). lia.
Qed.

(* ((x ^ r) & (y ^ r)) >> (w-1)  on w-bit patterns: 1 iff sign r differs from both signs *)
Lemma signtrick w x y r : 1 <= w -> 0 <= x < 2 ^ w -> 0 <= y < 2 ^ w -> 0 <= r < 2 ^ w ->
  Z.shiftr (Z.land (Z.lxor x r) (Z.lxor y r)) (w - 1)
  = b2z (xorb (2 ^ (w - 1) <=? x) (2 ^ (w - 1) <=? r) && xorb (2 ^ (w - 1) <=? y) (2 ^ (w - 1) <=? r)).
Proof.
  intros Hw Hx Hy Hr.
  rewrite shiftr_top; [| lia | apply land_bound; [lia | apply lxor_bound; lia | apply lxor_bound; lia]].
  rewrite Z.land_spec, !Z.lxor_spec. now rewrite !testbit_top by lia.
Qed.

Lemma wrapu_bounds w v : 1 <= w -> 0 <= wrap w false v < 2 ^ w.
Proof. intros Hw. now apply in_range_unsigned, wrap_in_range. Qed.

Lemma wrapu_of_signed w a : 1 <= w -> in_range w true a ->
  wrap w false a = if a <? 0 then a + 2 ^ w else a.
Proof.
  intros Hw Ha%in_range_signed. pose proof (pow2_pos (w - 1) ltac:(lia)) as P. pose proof (pow2_split w Hw) as E.
  rewrite wrapu_cases by lia.
  destruct (Z.ltb_spec a 0); [reflexivity|]. destruct (Z.ltb_spec a (2 ^ w)); lia.
Qed.

Lemma signbit_of_copy w a : 1 <= w -> in_range w true a ->
  (2 ^ (w - 1) <=? wrap w false a) = (a <? 0).
Proof.
  intros Hw Ha. rewrite wrapu_of_signed by assumption. apply in_range_signed in Ha.
  pose proof (pow2_split w Hw). destruct (Z.ltb_spec a 0); lia.
Qed.

(* a signed sum overflows iff both operands have the sign that the wrapped sum does not have *)
Lemma add_overflow_signs w a b : 1 <= w -> in_range w true a -> in_range w true b ->
  xorb (a <? 0) (wrap w true (a + b) <? 0) && xorb (b <? 0) (wrap w true (a + b) <? 0)
  = negb (in_rangeb w true (a + b)).
Proof.
  intros Hw Ha%in_range_signed Hb%in_range_signed. pose proof (pow2_split w Hw).
  rewrite wraps_cases by lia. unfold in_rangeb, min_int, max_int.
  destruct (Z.ltb_spec (a + b) (- 2 ^ (w - 1))), (Z.ltb_spec (a + b) (2 ^ (w - 1))); lia.
Qed.

Lemma sub_overflow_signs w a b : 1 <= w -> in_range w true a -> in_range w true b ->
  xorb (b <? 0) (a <? 0) && xorb (wrap w true (a - b) <? 0) (a <? 0)
  = negb (in_rangeb w true (a - b)).
Proof.
  intros Hw Ha%in_range_signed Hb%in_range_signed. pose proof (pow2_split w Hw).
  rewrite wraps_cases by lia. unfold in_rangeb, min_int, max_int.
  destruct (Z.ltb_spec (a - b) (- 2 ^ (w - 1))), (Z.ltb_spec (a - b) (2 ^ (w - 1))); lia.
Qed.

Lemma sadd_flagword_exact w a b : 1 <= w -> in_range w true a -> in_range w true b ->
  sadd_flagword w a b = b2z (negb (in_rangeb w true (a + b))).
Proof.
  intros Hw Ha Hb. unfold sadd_flagword. rewrite signtrick by (try apply wrapu_bounds; lia).
  rewrite wrap_add_wrap, <- (wrap_wrap w false true (a + b)) by lia.
  rewrite !signbit_of_copy by auto using wrap_in_range. now rewrite add_overflow_signs.
Qed.

Lemma ssub_flagword_exact w a b : 1 <= w -> in_range w true a -> in_range w true b ->
  ssub_flagword w a b = b2z (negb (in_rangeb w true (a - b))).
Proof.
  intros Hw Ha Hb. unfold ssub_flagword.
  (* (a ^ b) & (a ^ r): the shape of signtrick with the roles (b, r, a) *)
  rewrite (Z.lxor_comm (wrap w false a) (wrap w false b)).
  rewrite (Z.lxor_comm (wrap w false a) (wrap w false (wrap w false a - wrap w false b))).
  rewrite signtrick by (try apply wrapu_bounds; lia).
  rewrite wrap_sub_wrap, <- (wrap_wrap w false true (a - b)) by lia.
  rewrite !signbit_of_copy by auto using wrap_in_range. now rewrite sub_overflow_signs.
Qed.

Lemma add_fits_wider w bw a b : 1 <= w -> w < bw -> in_range w true a -> in_range w true b ->
  in_range bw true (a + b).
Proof.
  intros Hw Hbw Ha%in_range_signed Hb%in_range_signed. apply in_range_signed.
  pose proof (pow2_split w Hw). pose proof (pow2_mono w (bw - 1) ltac:(lia)). lia.
Qed.

Lemma sadd_eq_builtin w lw llw a b : 1 <= w -> in_range w true a -> in_range w true b ->
  sadd_portable w lw llw a b = builtin_res w true (a + b).
Proof.
  intros Hw Ha Hb. unfold sadd_portable.
  apply widen_chain; [exact Hw | intros; now apply (add_fits_wider w) ..|].
  unfold builtin_res. now rewrite wrap_wrap, wrap_add_wrap, sadd_flagword_exact, b2z_nonzero.
Qed.

Lemma sadd_ub_free_ok w lw llw a b : 1 <= w -> in_range w true a -> in_range w true b ->
  sadd_ub_free w lw llw a b = true.
Proof.
  intros Hw Ha Hb. unfold sadd_ub_free.
  apply widen_chain_ub_free; [intros; now apply (add_fits_wider w) ..|].
  rewrite sadd_flagword_exact by assumption.
  pose proof (b2z_range (negb (in_rangeb w true (a + b)))). lia.
Qed.

Lemma ssub_eq_builtin w a b : 1 <= w -> in_range w true a -> in_range w true b ->
  ssub_portable w a b = builtin_res w true (a - b).
Proof.
  intros Hw Ha Hb. unfold ssub_portable, builtin_res.
  now rewrite wrap_wrap, wrap_sub_wrap, ssub_flagword_exact, b2z_nonzero.
Qed.

Lemma ssub_ub_free_ok w a b : 1 <= w -> in_range w true a -> in_range w true b ->
  ssub_ub_free w a b = true.
Proof.
  intros Hw Ha Hb. unfold ssub_ub_free. rewrite ssub_flagword_exact by assumption.
  pose proof (b2z_range (negb (in_rangeb w true (a - b)))). lia.
Qed.

Lemma smul_const_flag_exact w a b : 2 <= w -> in_range w true a -> in_range w true b ->
  smul_const_flag w a b = negb (in_rangeb w true (a * b)).
Proof.
  intros Hw Ha Hb. unfold smul_const_flag. rewrite pyx_max_eq, pyx_min_eq by lia.
  pose proof (pow2_pos (w - 1) ltac:(lia)) as P.
  unfold in_rangeb, in_range, min_int, max_int in *. set (H := 2 ^ (w - 1)) in *.
  destruct (Z.ltb_spec 1 b) as [B1|B1].
  - (* b > 1 : MAX / b and MIN / b = - (H / b) *)
    rewrite (Z.quot_opp_l H b) by lia.
    rewrite (proj1 (quot_tests (H - 1) b a ltac:(lia) ltac:(lia))).
    rewrite (proj2 (quot_tests H b a ltac:(lia) ltac:(lia))). lia.
  - destruct (Z.eqb_spec b (-1)) as [->|Bm1]; [lia|].
    destruct (Z.ltb_spec b (-1)) as [B2|B2].
    + (* b < -1, c = -b > 1 : MIN / b = H / c and MAX / b = - ((H - 1) / c) *)
      set (c := - b). assert (Hc : 1 < c) by (unfold c; lia). replace b with (- c) by (unfold c; lia).
      rewrite (Z.quot_opp_opp H c), (Z.quot_opp_r (H - 1) c) by lia.
      rewrite (proj1 (quot_tests H c a ltac:(lia) ltac:(lia))).
      rewrite (proj2 (quot_tests (H - 1) c a ltac:(lia) ltac:(lia))). lia.
    + (* b = 0 or 1 *)
      assert (b = 0 \/ b = 1) as [-> | ->] by lia; lia.
Qed.

Lemma smul_const_eq_builtin w swap a b : 2 <= w -> in_range w true a -> in_range w true b ->
  smul_const_portable w swap a b = builtin_res w true (a * b).
Proof.
  intros Hw Ha Hb. unfold smul_const_portable, builtin_res.
  rewrite wrap_wrap, wrap_mul_wrap by lia.
  destruct swap.
  - rewrite smul_const_flag_exact by assumption. now rewrite (Z.mul_comm b a).
  - now rewrite smul_const_flag_exact by assumption.
Qed.

Lemma smul_eq_builtin w lw llw cb ca swap a b : 2 <= w -> wide_ok w lw llw ->
  in_range w true a -> in_range w true b ->
  smul_portable w lw llw cb ca swap a b = builtin_res w true (a * b).
Proof.
  intros Hw Wd Ha Hb. unfold smul_portable.
  destruct cb; [now apply smul_const_eq_builtin|].
  destruct ca; [rewrite (Z.mul_comm a b); now apply smul_const_eq_builtin|].
  destruct (mul_fits_wider w true lw llw a b) as [F1 F2]; try assumption.
  apply widen_chain; try assumption; [lia | now apply smul_const_eq_builtin].
Qed.

Lemma smul_const_ub_free_ok w a b : 2 <= w -> smul_const_ub_free w a b = true.
Proof.
  intros Hw. unfold smul_const_ub_free, cdiv_defined. rewrite pyx_min_no_overflow_ok by lia.
  rewrite pyx_max_eq, pyx_min_eq by lia.
  destruct (Z.ltb_spec 1 b); [lia|]. destruct (Z.eqb_spec b (-1)); [lia|].
  destruct (Z.ltb_spec b (-1)); lia.
Qed.

Lemma smul_ub_free_ok w lw llw cb ca swap a b : 2 <= w -> wide_ok w lw llw ->
  in_range w true a -> in_range w true b ->
  smul_ub_free w lw llw cb ca swap a b = true.
Proof.
  intros Hw Wd Ha Hb. unfold smul_ub_free.
  destruct cb; [now apply smul_const_ub_free_ok|].
  destruct ca; [now apply smul_const_ub_free_ok|].
  destruct (mul_fits_wider w true lw llw a b) as [F1 F2]; try assumption.
  apply widen_chain_ub_free; try assumption. now apply smul_const_ub_free_ok.
Qed.

(* without the double-width condition the widening multiplication misses overflows (unsigned)
   resp. overflows in the wider signed type *)
Lemma umul_widen_needs_double_width :
  exists w lw llw a b, 8 <= w /\ w < lw /\ in_range w false a /\ in_range w false b /\
    umul_portable w lw llw false false false a b = (0, false) /\ a * b <> 0.
Proof. exists 8, 12, 12, 64, 64. unfold in_range. vm_compute. intuition congruence. Qed.

Lemma smul_widen_needs_double_width :
  exists w lw llw a b, 8 <= w /\ w < lw /\ in_range w true a /\ in_range w true b /\
    smul_ub_free w lw llw false false false a b = false.
Proof. exists 8, 12, 12, 64, 64. unfold in_range. vm_compute. intuition congruence. Qed.

Theorem base_helper_exact builtin op w s lw llw cb ca swap a b :
  2 <= w -> wide_ok w lw llw -> in_range w s a -> in_range w s b ->
  base_helper builtin op w s lw llw cb ca swap a b = builtin_res w s (exact_op op a b).
Proof.
  intros Hw Wd Ha Hb. unfold base_helper. destruct builtin; [reflexivity|].
  destruct op, s; cbn [exact_op].
  - now apply sadd_eq_builtin; try lia.
  - now apply uadd_eq_builtin; try lia.
  - now apply ssub_eq_builtin; try lia.
  - now apply usub_eq_builtin; try lia.
  - now apply smul_eq_builtin.
  - now apply umul_eq_builtin.
Qed.

Lemma width_fits w s : 8 <= w -> wrap w s w = w.
Proof.
  intros Hw. apply wrap_id; [lia|].
  pose proof (Z.pow_gt_lin_r 2 (w - 2) ltac:(lia) ltac:(lia)) as G.
  pose proof (pow2_quarter w ltac:(lia)). pose proof (pow2_split w ltac:(lia)).
  unfold in_range, min_int, max_int. destruct s; lia.
Qed.

Lemma shiftr_ltb_mul m b a : 0 <= b -> 0 <= m -> (Z.shiftr m b <? a) = (m <? a * 2 ^ b).
Proof. intros Hb Hm. rewrite Z.shiftr_div_pow2 by lia. apply div_ltb_mul. now apply pow2_pos. Qed.

Lemma lshift_check_nonneg w s a b : 8 <= w -> 0 <= b ->
  lshift_check w s a b = (s && (a <? 0)) || (w <=? b) || (max_int w s <? a * 2 ^ b).
Proof.
  intros Hw B. unfold lshift_check. rewrite width_fits, pyx_max_eq by lia.
  rewrite shiftr_ltb_mul by (try apply min_max_sign; lia).
  replace (b <? 0) with false by lia. now rewrite orb_false_r.
Qed.

Lemma lshift_check_neg w s a b : in_range w s b -> b < 0 -> lshift_check w s a b = true.
Proof.
  intros Hb B. destruct s; [|apply in_range_unsigned in Hb; lia].
  unfold lshift_check. replace (b <? 0) with true by lia. cbn [andb]. now rewrite orb_true_r.
Qed.

Lemma pow2_ge_width_exceeds w s a b : 1 <= w -> 0 < a -> w <= b -> max_int w s < a * 2 ^ b.
Proof.
  intros Hw Ha Hb. pose proof (pow2_mono w b ltac:(lia)) as Mo.
  pose proof (pow2_pos (w - 1) ltac:(lia)). pose proof (pow2_split w Hw).
  unfold max_int. destruct s; nia.
Qed.

Lemma lshift_sound w s a b v : 8 <= w -> in_range w s a -> in_range w s b ->
  lshift_helper w s a b = (v, false) -> 0 <= b /\ v = a * 2 ^ b /\ in_range w s v.
Proof.
  intros Hw Ha Hb. unfold lshift_helper.
  destruct (lshift_check w s a b) eqn:C; [discriminate|]. intros [= <-].
  destruct (Z.lt_ge_cases b 0) as [B|B]; [rewrite lshift_check_neg in C by assumption; discriminate|].
  rewrite lshift_check_nonneg in C by lia.
  assert (A : 0 <= a) by (destruct s; [lia | now apply in_range_unsigned in Ha]).
  assert (R : in_range w s (a * 2 ^ b)).
  { pose proof (min_max_sign w s ltac:(lia)). pose proof (pow2_pos b ltac:(lia)). split; [nia | lia]. }
  rewrite Z.shiftl_mul_pow2, (wrap_id w s _ ltac:(lia) R) by lia. auto with zarith.
Qed.

(* the second and third disjunct are the documented imprecision of the helper;
   b < 0 always flags (lshift_check_neg) *)
Lemma lshift_flag_iff w s a b : 8 <= w -> in_range w s a -> in_range w s b -> 0 <= b ->
  (snd (lshift_helper w s a b) = true <->
   ~ in_range w s (a * 2 ^ b) \/ (s = true /\ a < 0) \/ (a = 0 /\ w <= b)).
Proof.
  intros Hw Ha Hb B.
  replace (snd (lshift_helper w s a b)) with (lshift_check w s a b)
    by (unfold lshift_helper; now destruct (lshift_check w s a b)).
  rewrite lshift_check_nonneg, !orb_true_iff, andb_true_iff, Z.leb_le, !Z.ltb_lt by lia.
  pose proof (min_max_sign w s ltac:(lia)) as M. pose proof (pow2_pos b B) as Pb.
  assert (A : s = false -> 0 <= a) by (intros ->; now apply in_range_unsigned in Ha).
  assert (Sg : (a < 0 -> a * 2 ^ b < 0) /\ (0 <= a -> 0 <= a * 2 ^ b)) by (clear - Pb; nia).
  assert (Big : 0 < a -> w <= b -> max_int w s < a * 2 ^ b)
    by (intros; apply pow2_ge_width_exceeds; lia).
  unfold in_range. clear Ha Hb. destruct s; [|specialize (A eq_refl)]; lia.
Qed.

Lemma lshift_ub_free_ok w s a b : 8 <= w -> in_range w s a -> in_range w s b ->
  lshift_ub_free w s a b = true.
Proof.
  intros Hw Ha Hb. unfold lshift_ub_free. rewrite pyx_min_no_overflow_ok by lia. cbn [andb].
  rewrite width_fits, pyx_max_eq by lia.
  destruct (Z.lt_ge_cases b 0) as [B|B].
  - destruct s; [|apply in_range_unsigned in Hb; lia].
    replace (b <? 0) with true by lia. cbn [andb]. now rewrite orb_true_r.
  - rewrite shiftr_ltb_mul by (try apply min_max_sign; lia).
    replace (b <? 0) with false by lia. rewrite orb_false_r.
    destruct (s && (a <? 0)) eqn:N; [reflexivity|]. cbn [orb].
    destruct (Z.leb_spec w b); [reflexivity|].
    destruct (Z.ltb_spec (max_int w s) (a * 2 ^ b)) as [L|L]; [lia|].
    destruct s; [|lia]. cbn [andb] in N.
    pose proof (min_max_sign w true ltac:(lia)). pose proof (pow2_pos b B).
    assert (in_rangeb w true (a * 2 ^ b) = true) by (apply in_rangeb_spec; split; [nia | lia]).
    lia.
Qed.

Lemma helper_exact builtin op w s lw llw cb ca swap a b :
  op <> OLshift -> 2 <= w -> wide_ok w lw llw -> in_range w s a -> in_range w s b ->
  helper builtin op w s lw llw cb ca swap a b = builtin_res w s (exact_cop op a b).
Proof. intros Hop Hw Wd Ha Hb. destruct op; try congruence; now apply base_helper_exact. Qed.

Lemma raise_builtin_res w s exact : 1 <= w ->
  raise_if (builtin_res w s exact) = if in_rangeb w s exact then Val exact else Ovf.
Proof.
  intros Hw. unfold raise_if, builtin_res. cbn [fst snd].
  destruct (in_rangeb w s exact) eqn:R; [|reflexivity].
  cbn [negb]. now rewrite wrap_id by (try apply in_rangeb_spec; assumption).
Qed.

Theorem binop_node_exact builtin op w s lw llw cb ca swap a b :
  op <> OLshift -> 2 <= w -> wide_ok w lw llw -> in_range w s a -> in_range w s b ->
  binop_node builtin op w s lw llw cb ca swap a b
  = if in_rangeb w s (exact_cop op a b) then Val (exact_cop op a b) else Ovf.
Proof.
  intros Hop Hw Wd Ha Hb. unfold binop_node. rewrite helper_exact by assumption.
  apply raise_builtin_res. lia.
Qed.

Lemma cop_eq_dec (x y : cop) : {x = y} + {x <> y}.
Proof. decide equality. Qed.

Theorem binop_node_sound builtin op w s lw llw cb ca swap a b v :
  8 <= w -> wide_ok w lw llw -> in_range w s a -> in_range w s b ->
  binop_node builtin op w s lw llw cb ca swap a b = Val v ->
  v = exact_cop op a b /\ in_range w s v /\ exact_defined op b = true.
Proof.
  intros Hw Wd Ha Hb E. destruct (cop_eq_dec op OLshift) as [->|Hop].
  - unfold binop_node, helper, raise_if in E. destruct (lshift_helper w s a b) as [v' f] eqn:L.
    cbn [fst snd] in E. destruct f; [discriminate|]. injection E as ->.
    destruct (lshift_sound w s a b v Hw Ha Hb L) as (B & Ev & R). cbn [exact_cop exact_defined]. split; [exact Ev | split; [exact R | lia]].
  - rewrite binop_node_exact in E by (try assumption; lia).
    destruct (in_rangeb w s (exact_cop op a b)) eqn:R; [|discriminate]. injection E as <-.
    split; [reflexivity | split; [now apply in_rangeb_spec | destruct op; try reflexivity; congruence]].
Qed.

Theorem binop_node_complete builtin op w s lw llw cb ca swap a b :
  8 <= w -> wide_ok w lw llw -> in_range w s a -> in_range w s b ->
  ~ in_range w s (exact_cop op a b) \/ exact_defined op b = false ->
  binop_node builtin op w s lw llw cb ca swap a b = Ovf.
Proof.
  intros Hw Wd Ha Hb N.
  destruct (binop_node builtin op w s lw llw cb ca swap a b) as [v| |] eqn:E; [|reflexivity|].
  - (* a returned value would be exact, defined and in range *)
    destruct (binop_node_sound _ _ _ _ _ _ _ _ _ _ _ _ Hw Wd Ha Hb E) as (-> & R & D).
    destruct N as [N|N]; [contradiction | congruence].
  - unfold binop_node, raise_if in E. destruct (snd _); discriminate.
Qed.

Theorem portable_eq_builtin op w s lw llw cb ca swap a b :
  2 <= w -> wide_ok w lw llw -> in_range w s a -> in_range w s b ->
  helper false op w s lw llw cb ca swap a b = helper true op w s lw llw cb ca swap a b.
Proof.
  intros Hw Wd Ha Hb. destruct (cop_eq_dec op OLshift) as [->|Hop]; [reflexivity|].
  now rewrite !helper_exact by assumption.
Qed.

(* spurious errors: exactly the documented imprecision of '<<' *)
Theorem spurious_exactly builtin op w s lw llw cb ca swap a b :
  8 <= w -> wide_ok w lw llw -> in_range w s a -> in_range w s b ->
  (spurious builtin op w s lw llw cb ca swap a b = true <->
   op = OLshift /\ 0 <= b /\ in_range w s (a * 2 ^ b) /\ ((s = true /\ a < 0) \/ (a = 0 /\ w <= b))).
Proof.
  intros Hw Wd Ha Hb. unfold spurious. rewrite !andb_true_iff, in_rangeb_spec.
  destruct (cop_eq_dec op OLshift) as [->|Hop].
  - unfold helper. cbn [exact_cop exact_defined]. rewrite Z.leb_le. split.
    + intros [[F R] B]. rewrite lshift_flag_iff in F by assumption.
      destruct F as [N|G]; [contradiction | auto].
    + intros (_ & B & R & G). rewrite lshift_flag_iff by assumption. auto.
  - rewrite helper_exact by (assumption || lia). unfold builtin_res. cbn [snd]. split; [|intros [-> _]; congruence].
    intros [[F R] _]. apply in_rangeb_spec in R. rewrite R in F. discriminate.
Qed.

Lemma neg_node_unchecked_refuted :
  (exists w a, 8 <= w /\ in_range w true a /\ neg_node false w true a = Undef)
  /\ (exists w a v, 8 <= w /\ in_range w false a /\ neg_node false w false a = Val v /\ v <> - a
                    /\ ~ in_range w false (- a)).
Proof.
  split.
  - exists 32, (-2147483648). unfold in_range. vm_compute. intuition congruence.
  - exists 32, 1, 4294967295. unfold in_range. vm_compute. intuition congruence.
Qed.

Lemma neg_node_fits checked w s a : 1 <= w -> in_range w s (- a) -> neg_node checked w s a = Val (- a).
Proof.
  intros Hw R. unfold neg_node. rewrite (proj2 (in_rangeb_spec _ _ _) R), andb_false_r.
  assert (N : s && (a =? min_int w s) = false).
  { destruct s; [|reflexivity]. apply in_range_signed in R. unfold min_int.
    pose proof (pow2_pos (w - 1) ltac:(lia)). lia. }
  rewrite N. now rewrite wrap_id.
Qed.

Lemma neg_node_checked_exact w s a : 1 <= w -> in_range w s a ->
  neg_node true w s a = if in_rangeb w s (- a) then Val (- a) else Ovf.
Proof.
  intros Hw _. destruct (in_rangeb w s (- a)) eqn:R.
  - now apply neg_node_fits, in_rangeb_spec.
  - unfold neg_node. now rewrite R.
Qed.

Lemma abs_node_exact w a : 2 <= w -> in_range w true a ->
  abs_node w a = if in_rangeb w true (Z.abs a) then Val (Z.abs a) else Ovf.
Proof.
  intros Hw Ha%in_range_signed. unfold abs_node. rewrite pyx_min_eq by lia.
  pose proof (pow2_pos (w - 1) ltac:(lia)).
  destruct (Z.eqb_spec a (min_int w true)) as [->|N].
  - replace (in_rangeb w true (Z.abs (min_int w true))) with false; [reflexivity|].
    symmetry. apply in_rangeb_false. rewrite in_range_signed. unfold min_int. lia.
  - assert (R : in_range w true (Z.abs a)) by (apply in_range_signed; unfold min_int in N; lia).
    rewrite (proj2 (in_rangeb_spec _ _ _) R). now rewrite wrap_id by (try lia; exact R).
Qed.

(* the sizeof(T) < sizeof(int) arm applies the unchecked macro: overflow of the narrow type is
   not reported.  (NumBinopNode never has a result type narrower than int.) *)
Lemma dispatch_narrow_unchecked_refuted :
  exists builtin op iw lw llw w s a b v,
    8 <= w /\ w < iw /\ in_range w s a /\ in_range w s b /\
    binop_dispatch builtin op iw lw llw w s false false false a b = R v false /\ v <> exact_op op a b.
Proof. exists false, Add, 32, 64, 64, 16, true, 32767, 1, (-32768). unfold in_range. vm_compute. intuition congruence. Qed.

(* __Pyx_div_<int>_checking_overflow (not referenced by the compiler) divides the operands as unsigned numbers *)
Lemma sdiv_helper_refuted :
  exists w a b v, 8 <= w /\ in_range w true a /\ in_range w true b /\
    sdiv_helper w a b = (v, false) /\ v <> a / b /\ v <> Z.quot a b.
Proof. exists 32, (-6), 2, 2147483645. unfold in_range. vm_compute. intuition congruence. Qed.

Lemma sdiv_helper_nonneg_partial w a b : 1 <= w -> in_range w true a -> in_range w true b ->
  0 <= a -> 0 < b -> sdiv_helper w a b = (a / b, false).
Proof.
  intros Hw Ha Hb A B. unfold sdiv_helper.
  destruct (Z.eqb_spec b 0); [lia|].
  rewrite !wrapu_of_signed by assumption.
  destruct (Z.ltb_spec a 0); [lia|]. destruct (Z.ltb_spec b 0); [lia|].
  rewrite Z.quot_div_nonneg by lia.
  assert (R : in_range w true (a / b)).
  { apply (in_range_toward_zero w true a); [assumption..|]. left.
    split; [apply Z.div_pos; lia | apply Z.div_le_upper_bound; nia]. }
  rewrite wrap_id by (try lia; exact R). f_equal. lia.
Qed.

Lemma udiv_helper_exact w a b : in_range w false a -> in_range w false b ->
  udiv_helper w a b = if b =? 0 then (0, true) else (a / b, false).
Proof.
  intros Ha Hb. unfold udiv_helper. destruct (Z.eqb_spec b 0); [reflexivity|].
  apply in_range_unsigned in Ha, Hb. now rewrite Z.quot_div_nonneg by lia.
Qed.

(* ConsolidateOverflowCheck *)
Section Fold.
  Variable builtin : bool.
  Variables w lw llw : Z.
  Variable s : bool.
  Variable env : nat -> Z.
  Notation run' := (run builtin w lw llw s env).
  Notation ref' := (ref_eval builtin w lw llw s env).
  Notation hlp' := (hlp builtin w lw llw s).

  (* fold off: every node tests its own bit; nothing is ever pending *)
  Lemma run_annotate e :
    run' (annotate e) = match ref' e with Some v => Some (v, false) | None => None end.
  Proof.
    induction e as [i | c | op e1 IH1 e2 IH2]; cbn [annotate run ref_eval]; try reflexivity.
    rewrite IH1, IH2. destruct (ref' e1) as [v1|]; [|reflexivity].
    destruct (ref' e2) as [v2|]; [|reflexivity].
    cbn [orb]. destruct (snd (hlp' op v1 v2)); reflexivity.
  Qed.

  (* fold on: a node below the top (inside = true) tests nothing and hands up the pending bit,
     which is set iff some sub-operation (evaluated on exact operand values, in evaluation order)
     was flagged; the top node (inside = false) tests the bits of its whole tree *)
  Lemma run_consolidate e : forall inside,
    match run' (consolidate inside (annotate e)) with
    | Some (v, p) =>
        match ref' e with Some v' => p = false /\ v = v' | None => inside = true /\ p = true end
    | None => inside = false /\ ref' e = None
    end.
  Proof.
    induction e as [i | c | op e1 IH1 e2 IH2]; intros inside;
      cbn [annotate consolidate run ref_eval]; auto.
    specialize (IH1 true). specialize (IH2 true).
    destruct (run' (consolidate true (annotate e1))) as [[v1 p1]|]; [|destruct IH1; discriminate].
    destruct (run' (consolidate true (annotate e2))) as [[v2 p2]|]; [|destruct IH2; discriminate].
    destruct (ref' e1) as [v1'|]; [destruct IH1 as [-> ->] | destruct IH1 as [_ ->]];
      (destruct (ref' e2) as [v2'|]; [destruct IH2 as [-> ->] | destruct IH2 as [_ ->]]);
      cbn [orb]; try destruct (snd (hlp' op v1' v2')); destruct inside; cbn; auto.
  Qed.

  Theorem fold_preserves e :
    run_top builtin w lw llw s env (consolidate false (annotate e)) = Some (ref' e)
    /\ run_top builtin w lw llw s env (annotate e) = Some (ref' e).
  Proof.
    unfold run_top. split.
    - pose proof (run_consolidate e false) as R.
      destruct (run' (consolidate false (annotate e))) as [[v p]|].
      + destruct (ref' e); [destruct R as [-> ->]; reflexivity | destruct R; discriminate].
      + destruct R as [_ ->]. reflexivity.
    - rewrite run_annotate. destruct (ref' e); reflexivity.
  Qed.
End Fold.

(* exact evaluation of a tree: None iff some sub-operation's exact result does not fit the type
   (or a shift count is negative), operands taken exact *)
Fixpoint exact_eval (w : Z) (s : bool) (env : nat -> Z) (e : expr) : option Z :=
  match e with
  | EVar i => Some (env i)
  | EConst c => Some c
  | EBin op e1 e2 =>
      match exact_eval w s env e1, exact_eval w s env e2 with
      | Some v1, Some v2 =>
          if in_rangeb w s (exact_cop op v1 v2) && exact_defined op v2
          then Some (exact_cop op v1 v2) else None
      | _, _ => None
      end
  end.

Fixpoint leaves_ok (w : Z) (s : bool) (env : nat -> Z) (e : expr) : Prop :=
  match e with
  | EVar i => in_range w s (env i)
  | EConst c => in_range w s c
  | EBin _ e1 e2 => leaves_ok w s env e1 /\ leaves_ok w s env e2
  end.

Section FoldExact.
  Variable builtin : bool.
  Variables w lw llw : Z.
  Variable s : bool.
  Variable env : nat -> Z.
  Hypothesis Hw : 8 <= w.
  Hypothesis Wd : wide_ok w lw llw.
  Notation ref' := (ref_eval builtin w lw llw s env).

  Lemma hlp_node op a b :
    binop_node builtin op w s lw llw false false false a b
    = if snd (hlp builtin w lw llw s op a b) then Ovf else Val (fst (hlp builtin w lw llw s op a b)).
  Proof. reflexivity. Qed.

  Lemma ref_eval_sound e : leaves_ok w s env e -> forall v, ref' e = Some v ->
    exact_eval w s env e = Some v /\ in_range w s v.
  Proof.
    induction e as [i | c | op e1 IH1 e2 IH2]; cbn [leaves_ok ref_eval exact_eval].
    - intros L v E. injection E as <-. auto.
    - intros L v E. injection E as <-. auto.
    - intros [L1 L2] v E.
      destruct (ref' e1) as [v1|]; [|discriminate]. destruct (ref' e2) as [v2|]; [|discriminate].
      destruct (IH1 L1 v1 eq_refl) as [X1 R1]. destruct (IH2 L2 v2 eq_refl) as [X2 R2].
      rewrite X1, X2.
      destruct (snd (hlp builtin w lw llw s op v1 v2)) eqn:F; [discriminate|]. injection E as <-.
      pose proof (hlp_node op v1 v2) as N. rewrite F in N.
      destruct (binop_node_sound _ _ _ _ _ _ _ _ _ _ _ _ Hw Wd R1 R2 N) as (Ev & Rv & D).
      rewrite <- Ev. rewrite D. rewrite (proj2 (in_rangeb_spec _ _ _) Rv). auto.
  Qed.

  Theorem folded_tree_sound_complete e : leaves_ok w s env e ->
    exists r, run_top builtin w lw llw s env (consolidate false (annotate e)) = Some r /\
      (forall v, r = Some v -> exact_eval w s env e = Some v) /\
      (exact_eval w s env e = None -> r = None).
  Proof.
    intros L. exists (ref' e). split; [apply fold_preserves|]. split.
    - intros v E. now apply ref_eval_sound.
    - intros X. destruct (ref' e) as [v|] eqn:E; [|reflexivity].
      destruct (ref_eval_sound e L v E). congruence.
  Qed.
End FoldExact.

(* a negative operand of an operation whose result type is unsigned is converted (wrapped) to that
   type before the checked helper sees it: the helper is exact on what it gets, the statement is not *)
Lemma negative_operand_conversion_refuted :
  exists w a c v, 8 <= w /\ in_range w false a /\ in_range w true c /\ c < 0 /\
    binop_node true OAdd w false 64 64 false false false a (wrap w false c) = Val v /\ v <> a + c.
Proof. exists 64, 0, (-1), 18446744073709551615. unfold in_range. vm_compute. intuition congruence. Qed.

Lemma helpers_ub_free w lw llw cb ca swap s a b : 8 <= w -> wide_ok w lw llw ->
  in_range w s a -> in_range w s b ->
  (s = true -> sadd_ub_free w lw llw a b = true /\ ssub_ub_free w a b = true
               /\ smul_ub_free w lw llw cb ca swap a b = true)
  /\ lshift_ub_free w s a b = true.
Proof.
  intros Hw Wd Ha Hb. split.
  - intros ->. split; [apply sadd_ub_free_ok; auto; lia|]. split.
    + apply ssub_ub_free_ok; auto; lia.
    + apply smul_ub_free_ok; auto; lia.
  - now apply lshift_ub_free_ok.
Qed.
