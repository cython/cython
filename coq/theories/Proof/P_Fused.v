(* C34 - proofs about the fused dispatch model (Model/M_Fused.v). *)
From Coq Require Import ZArith List Bool Lia Permutation.
From CyVerif Require Import Model.M_Fused.
Import ListNotations.
Open Scope Z_scope.

Lemma builtin_eqb_eq a b : builtin_eqb a b = true <-> a = b.
Proof. destruct a, b; simpl; intuition congruence. Qed.
Lemma num_eqb_eq a b : num_eqb a b = true <-> a = b.
Proof. destruct a, b; simpl; rewrite ?andb_true_iff, ?Z.eqb_eq; intuition congruence. Qed.
Lemma cmode_eqb_eq a b : cmode_eqb a b = true <-> a = b.
Proof. destruct a, b; simpl; intuition congruence. Qed.
Lemma ctype_eqb_eq a b : ctype_eqb a b = true <-> a = b.
Proof.
  destruct a, b; simpl;
    rewrite ?andb_true_iff, ?num_eqb_eq, ?builtin_eqb_eq, ?Nat.eqb_eq, ?cmode_eqb_eq; intuition congruence.
Qed.
Lemma ctype_eqb_refl a : ctype_eqb a a = true.
Proof. apply ctype_eqb_eq; reflexivity. Qed.
Lemma pyname_eqb_eq a b : pyname_eqb a b = true <-> a = b.
Proof. destruct a, b; simpl; rewrite ?builtin_eqb_eq, ?Nat.eqb_eq; intuition congruence. Qed.

(* the list.sort model (pysort) *)
Section SortFacts.
  Context {A : Type} (lt : A -> A -> bool).

  Lemma binsert_perm a x : Permutation (binsert lt a x) (x :: a).
  Proof.
    unfold binsert. set (l := bsearch lt _ x a 0 (length a)).
    rewrite <- (firstn_skipn l a) at 3. symmetry. apply Permutation_middle.
  Qed.

  Lemma fold_binsert_perm rest : forall run, Permutation (fold_left (binsert lt) rest run) (run ++ rest).
  Proof.
    induction rest as [|x rest IH]; intros run; simpl.
    - rewrite app_nil_r. apply Permutation_refl.
    - rewrite IH. rewrite (binsert_perm run x). simpl. apply Permutation_middle.
  Qed.

  Lemma take_desc_app prev rest : fst (take_desc lt prev rest) ++ snd (take_desc lt prev rest) = rest.
  Proof.
    revert prev. induction rest as [|y tl IH]; intros prev; simpl; [reflexivity|].
    destruct (lt y prev); [|reflexivity].
    specialize (IH y). destruct (take_desc lt y tl) as [r t]. simpl in *. now rewrite IH.
  Qed.
  Lemma take_asc_app prev rest : fst (take_asc lt prev rest) ++ snd (take_asc lt prev rest) = rest.
  Proof.
    revert prev. induction rest as [|y tl IH]; intros prev; simpl; [reflexivity|].
    destruct (lt y prev); [reflexivity|].
    specialize (IH y). destruct (take_asc lt y tl) as [r t]. simpl in *. now rewrite IH.
  Qed.

  Lemma count_run_perm l : Permutation (fst (count_run lt l) ++ snd (count_run lt l)) l.
  Proof.
    destruct l as [|x [|y rest]]; try (simpl; rewrite ?app_nil_r; apply Permutation_refl).
    cbn [count_run]. destruct (lt y x).
    - pose proof (take_desc_app y rest) as E. destruct (take_desc lt y rest) as [r t].
      cbn [fst snd] in *. subst rest.
      change (x :: y :: r ++ t) with ((x :: y :: r) ++ t).
      apply Permutation_app_tail. symmetry. apply (Permutation_rev (x :: y :: r)).
    - pose proof (take_asc_app y rest) as E. destruct (take_asc lt y rest) as [r t].
      cbn [fst snd] in *. subst rest. apply Permutation_refl.
  Qed.

  Theorem pysort_perm l : Permutation (pysort lt l) l.
  Proof.
    unfold pysort. pose proof (count_run_perm l) as P.
    destruct (count_run lt l) as [run rest]. simpl in P.
    rewrite fold_binsert_perm. exact P.
  Qed.

  Lemma pysort_in l x : In x (pysort lt l) <-> In x l.
  Proof.
    split; apply Permutation_in; [apply pysort_perm | symmetry; apply pysort_perm].
  Qed.

  (* the binary search never runs out of fuel: any fuel above r - l gives the same answer *)
  Lemma bsearch_fuel x a : forall f1 f2 l r, (r - l < f1)%nat -> (r - l < f2)%nat ->
    bsearch lt f1 x a l r = bsearch lt f2 x a l r.
  Proof.
    induction f1 as [|f1 IH]; intros f2 l r H1 H2; [lia|].
    destruct f2 as [|f2]; [lia|]. simpl.
    destruct (Nat.ltb_spec l r) as [Hlr|Hlr]; [|reflexivity].
    assert (D : (Nat.div2 (r - l) < r - l)%nat) by (apply Nat.lt_div2; lia).
    destruct (lt x (nth (l + Nat.div2 (r - l)) a x)); apply IH; lia.
  Qed.

  (* when no element of the list is smaller than another the whole list is one ascending run *)
  Lemma take_asc_all l prev rest :
    (forall y z, In y l -> In z l -> lt y z = false) -> In prev l -> incl rest l ->
    take_asc lt prev rest = (rest, []).
  Proof.
    intros H. revert prev. induction rest as [|y tl IH]; intros prev Hp Hr; simpl; [reflexivity|].
    apply incl_cons_inv in Hr as [Hy Hr]. rewrite (H y prev Hy Hp), (IH y Hy Hr). reflexivity.
  Qed.
  Lemma pysort_unordered_in l : (forall y z, In y l -> In z l -> lt y z = false) -> pysort lt l = l.
  Proof.
    intros H. unfold pysort. destruct l as [|x [|y rest]]; try reflexivity. cbn [count_run].
    rewrite (H y x) by (simpl; auto).
    rewrite (take_asc_all _ y rest H); [reflexivity|simpl; auto|]. intros w Hw. right; right; exact Hw.
  Qed.
  Theorem pysort_unordered l : (forall y, In y l -> forall z, lt y z = false) -> pysort lt l = l.
  Proof. intros H. apply pysort_unordered_in. intros y z Hy _. apply H, Hy. Qed.
End SortFacts.

(* _split_fused_types *)
Definition is_mem (t : ctype) : bool := match t with TMem _ _ _ => true | _ => false end.
Definition is_obj (t : ctype) : bool := match t with TObject => true | _ => false end.

Lemma py_name_obj t : py_type_name t = Some PObject <-> t = TObject.
Proof. destruct t as [[]| | | |]; simpl; split; intros H; try discriminate; reflexivity. Qed.
Lemma py_name_none t : py_type_name t = None <-> is_mem t = true.
Proof. destruct t as [[]| | | |]; simpl; split; intros H; try discriminate; reflexivity. Qed.

Lemma split_buffers l : forall seen acc,
  buffers (split_go seen l acc) = buffers acc ++ filter is_mem l.
Proof.
  induction l as [|t tl IH]; intros seen acc; simpl; [now rewrite app_nil_r|].
  destruct (py_type_name t) as [p|] eqn:E.
  - assert (M : is_mem t = false).
    { destruct (is_mem t) eqn:M; [|reflexivity]. apply py_name_none in M. congruence. }
    rewrite M. destruct (existsb (pyname_eqb p) seen); [apply IH|].
    destruct p; rewrite IH; reflexivity.
  - apply py_name_none in E. rewrite E. rewrite IH. simpl. now rewrite <- app_assoc.
Qed.

Lemma split_has_obj l : forall seen acc,
  (existsb (pyname_eqb PObject) seen = true -> has_obj acc = true) ->
  has_obj (split_go seen l acc) = has_obj acc || existsb is_obj l.
Proof.
  induction l as [|t tl IH]; intros seen acc Hinv; simpl; [now rewrite orb_false_r|].
  destruct (py_type_name t) as [p|] eqn:E.
  - destruct (existsb (pyname_eqb p) seen) eqn:S.
    + rewrite IH by exact Hinv.
      destruct (is_obj t) eqn:O; [|reflexivity].
      destruct t; try discriminate. simpl in E. injection E as <-.
      rewrite (Hinv S). reflexivity.
    + destruct p; try (rewrite IH; [ | simpl; exact Hinv]; simpl;
        destruct t as [[]| | | |]; simpl in *; try discriminate; reflexivity).
      rewrite IH by (intros _; reflexivity). simpl.
      apply py_name_obj in E. subst t. simpl. now rewrite orb_true_r.
  - rewrite IH by exact Hinv. simpl. apply py_name_none in E. destruct t; try discriminate. reflexivity.
Qed.

(* the instance tests: dropping later members with an already seen py_type_name does not
   change the first hit *)
Lemma inst_of_name a t t' p : py_type_name t = Some p -> py_type_name t' = Some p -> inst_of a t = inst_of a t'.
Proof. unfold inst_of. intros -> ->. reflexivity. Qed.

Lemma find_app {A} (f : A -> bool) l1 l2 :
  find f (l1 ++ l2) = match find f l1 with Some x => Some x | None => find f l2 end.
Proof. induction l1 as [|x l1 IH]; simpl; [reflexivity|]. destruct (f x); [reflexivity|exact IH]. Qed.

Lemma split_find a l : forall seen acc,
  (forall p, existsb (pyname_eqb p) seen = true -> p <> PObject ->
             exists t, In t (normal acc) /\ py_type_name t = Some p) ->
  find (inst_of a) (normal (split_go seen l acc)) =
  match find (inst_of a) (normal acc) with
  | Some t => Some t
  | None => find (fun t => inst_of a t && negb (is_obj t)) l
  end.
Proof.
  induction l as [|t tl IH]; intros seen acc Hinv; simpl.
  - destruct (find (inst_of a) (normal acc)); reflexivity.
  - destruct (py_type_name t) as [p|] eqn:E.
    + destruct (existsb (pyname_eqb p) seen) eqn:S.
      * rewrite IH by exact Hinv.
        destruct (find (inst_of a) (normal acc)) eqn:F; [reflexivity|].
        destruct (is_obj t) eqn:O; [now rewrite andb_false_r|]. rewrite andb_true_r.
        assert (Hp : p <> PObject).
        { intros ->. apply py_name_obj in E. subst t. discriminate. }
        destruct (Hinv p S Hp) as [t' [Hin Hn]].
        rewrite (inst_of_name a t t' p E Hn).
        rewrite (find_none _ _ F t' Hin). reflexivity.
      * destruct (is_obj t) eqn:O.
        -- destruct t; try discriminate. simpl in E. injection E as <-.
           rewrite IH; [now rewrite andb_false_r|].
           intros p Hp Hne. simpl in Hp. apply orb_true_iff in Hp. destruct Hp as [Hp|Hp].
           ++ apply pyname_eqb_eq in Hp. congruence.
           ++ apply (Hinv p Hp Hne).
        -- rewrite andb_true_r.
           assert (Hgo : split_go (p :: seen) tl
                     {| normal := normal acc ++ [t]; buffers := buffers acc; has_obj := has_obj acc |} =
                   match p with
                   | PObject => split_go (p :: seen) tl {| normal := normal acc; buffers := buffers acc; has_obj := true |}
                   | _ => split_go (p :: seen) tl {| normal := normal acc ++ [t]; buffers := buffers acc; has_obj := has_obj acc |}
                   end).
           { destruct p; try reflexivity. apply py_name_obj in E. subst t. discriminate. }
           rewrite <- Hgo. rewrite IH.
           ++ simpl. rewrite find_app. simpl.
              destruct (find (inst_of a) (normal acc)); [reflexivity|].
              destruct (inst_of a t); reflexivity.
           ++ intros q Hq Hne. simpl in Hq. apply orb_true_iff in Hq. destruct Hq as [Hq|Hq].
              ** apply pyname_eqb_eq in Hq. subst q. exists t. simpl. split; [apply in_or_app; right; now left|exact E].
              ** destruct (Hinv q Hq Hne) as [t' [Hin Hn]]. exists t'. simpl. split; [apply in_or_app; now left|exact Hn].
    + rewrite IH by exact Hinv. cbn [normal].
      destruct (find (inst_of a) (normal acc)); [reflexivity|].
      assert (Hi : inst_of a t = false) by (unfold inst_of; now rewrite E).
      rewrite Hi. reflexivity.
Qed.

Lemma buffer_checks_nil fx a : buffer_checks fx [] a = None.
Proof. destruct a; try reflexivity. simpl. destruct (has_dtype b); reflexivity. Qed.

(* C34 main structural fact: the generated type mapper, in terms of the sorted member list *)
Definition map_spec (fastfix : bool) (s : list ctype) (a : atag) : option ctype :=
  match find (fun t => inst_of a t && negb (is_obj t)) s with
  | Some t => Some t
  | None => match buffer_checks fastfix (filter is_mem s) a with
            | Some t => Some t
            | None => if existsb is_obj s then Some TObject else None
            end
  end.

Theorem map_fused_spec fx idlt ms a :
  map_fused fx idlt ms a = map_spec fx (pysort (ty_lt idlt) ms) a.
Proof.
  unfold map_fused, map_spec, split_fused. set (s := pysort (ty_lt idlt) ms).
  rewrite split_find by (intros p Hp; discriminate).
  rewrite split_buffers, split_has_obj by (intros Hp; discriminate). simpl.
  destruct (find _ s); [reflexivity|].
  destruct (filter is_mem s) eqn:F; [now rewrite buffer_checks_nil|reflexivity].
Qed.

Definition contig_safe (ms : list ctype) (a : atag) : Prop :=
  forall b t, a = ABuf b -> In t ms -> fast_ok t b = true -> coerce_ok t b = true.

Lemma contig_safe_incl l l' a : (forall u, In u l' -> In u l) -> contig_safe l a -> contig_safe l' a.
Proof. intros Hi Hs b t Ha Hin. apply Hs; [exact Ha|apply Hi, Hin]. Qed.

Lemma inst_conv a t : inst_of a t = true -> conv t a = COk.
Proof.
  unfold inst_of. destruct t as [[r g| |r|r]| |b|k|n d m]; simpl; destruct a; simpl; intros H;
    try discriminate; try reflexivity; rewrite H; reflexivity.
Qed.

Lemma coerce_conv t b : coerce_ok t b = true -> conv t (ABuf b) = COk.
Proof. destruct t; simpl; try discriminate. intros H. unfold coerce_ok in H. simpl. rewrite H. reflexivity. Qed.

Lemma buffer_checks_exact fx bufs a t :
  buffer_checks fx bufs a = Some t -> (forall u, In u bufs -> is_mem u = true) ->
  (fx = true \/ contig_safe bufs a) -> In t bufs /\ exact a t = true.
Proof.
  intros H Hm Hs. destruct a; simpl in H; try discriminate.
  - destruct bufs as [|u tl]; simpl in H; [discriminate|]. injection H as <-.
    split; [now left|]. specialize (Hm u (or_introl eq_refl)). destruct u; try discriminate. reflexivity.
  - assert (Hex : forall u, In u bufs -> coerce_ok u b = true -> exact (ABuf b) u = true).
    { intros u Hu Hc. specialize (Hm u Hu). destruct u; try discriminate. exact Hc. }
    destruct (if has_dtype b then find (fun t0 => if fx then coerce_ok t0 b else fast_ok t0 b) bufs else None)
      as [u|] eqn:F.
    + injection H as <-. destruct (has_dtype b); [|discriminate].
      apply find_some in F. destruct F as [Hin Hp]. split; [exact Hin|]. apply Hex; [exact Hin|].
      destruct fx; [exact Hp|]. destruct Hs as [Hs|Hs]; [discriminate|]. apply (Hs b u eq_refl Hin Hp).
    + apply find_some in H. destruct H as [Hin Hp]. split; [exact Hin|]. now apply Hex.
Qed.
Lemma exact_mem_conv a t : is_mem t = true -> exact a t = true -> conv t a = COk.
Proof.
  destruct t; try discriminate. intros _ H.
  destruct a; try destruct mro; try discriminate H; simpl in *; [reflexivity|]. rewrite H. reflexivity.
Qed.

(* the buffer tests of the mapper run over the memoryview members of the sorted list *)
Lemma mapper_buffer_exact fx idlt ms a t :
  buffer_checks fx (filter is_mem (pysort (ty_lt idlt) ms)) a = Some t -> (fx = true \/ contig_safe ms a) ->
  In t ms /\ is_mem t = true /\ exact a t = true.
Proof.
  intros B Hs.
  assert (Hsub : forall u, In u (filter is_mem (pysort (ty_lt idlt) ms)) -> In u ms /\ is_mem u = true).
  { intros u Hu. apply filter_In in Hu. destruct Hu as [Hu Mu]. split; [apply (pysort_in (ty_lt idlt) ms u), Hu|exact Mu]. }
  apply buffer_checks_exact in B.
  - destruct B as [Tin Ex]. destruct (Hsub t Tin) as [Hin Mt]. auto.
  - intros u Hu. apply Hsub, Hu.
  - destruct Hs as [Hs|Hs]; [now left|right]. apply (contig_safe_incl ms); [|exact Hs]. intros u Hu. apply Hsub, Hu.
Qed.

Theorem map_fused_sound fx idlt ms a t :
  map_fused fx idlt ms a = Some t -> (fx = true \/ contig_safe ms a) ->
  In t ms /\ conv t a = COk.
Proof.
  rewrite map_fused_spec. unfold map_spec. set (s := pysort (ty_lt idlt) ms). intros H Hs.
  assert (Hin : forall u, In u s -> In u ms) by (intros u; apply pysort_in).
  destruct (find (fun t0 => inst_of a t0 && negb (is_obj t0)) s) as [u|] eqn:F.
  - injection H as <-. apply find_some in F. destruct F as [Hu Hp].
    apply andb_true_iff in Hp. destruct Hp as [Hp _].
    split; [apply Hin, Hu|apply inst_conv, Hp].
  - destruct (buffer_checks fx (filter is_mem s) a) as [u|] eqn:B.
    + injection H as <-. destruct (mapper_buffer_exact fx idlt ms a u B Hs) as (Hu & Mu & Ex).
      split; [exact Hu|apply exact_mem_conv; assumption].
    + destruct (existsb is_obj s) eqn:O; [|discriminate]. injection H as <-.
      apply existsb_exists in O. destruct O as [u [Hu Ou]]. destruct u; try discriminate.
      split; [apply Hin, Hu|reflexivity].
Qed.

Lemma dests_spec fx idlt args fts : forall ds,
  fold_right (fun ft acc =>
                match acc, nth_error args (fpos ft) with
                | Some l, Some a => Some (map_fused fx idlt (members ft) a :: l)
                | _, _ => None end) (Some []) fts = Some ds ->
  Forall2 (fun ft dj => exists a, nth_error args (fpos ft) = Some a /\
                                  dj = map_fused fx idlt (members ft) a) fts ds.
Proof.
  induction fts as [|ft tl IH]; intros ds H; simpl in H.
  - injection H as <-. constructor.
  - destruct (fold_right _ (Some []) tl) as [l|] eqn:E; [|discriminate].
    destruct (nth_error args (fpos ft)) as [a|] eqn:N; [|discriminate].
    injection H as <-. constructor; [exists a; split; [exact N|reflexivity]|]. now apply IH.
Qed.

Lemma all_sigs_in mss : forall s, In s (all_sigs mss) <-> Forall2 (fun t ms => In t ms) s mss.
Proof.
  induction mss as [|ms tl IH]; intros s; simpl.
  - split; [intros [<-|[]]; constructor|intros H; inversion H; now left].
  - rewrite in_flat_map. split.
    + intros [m [Hm Hs]]. apply in_map_iff in Hs. destruct Hs as [s' [<- Hs']].
      constructor; [exact Hm|now apply IH].
    + intros H. inversion H as [|t ms' s' mss' Ht Hs']; subst.
      exists t. split; [exact Ht|]. apply in_map. now apply IH.
Qed.

Lemma sig_match_sound : forall fts ds s (P : ftype -> option ctype -> Prop),
  Forall2 P fts ds -> Forall2 (fun t ms => In t ms) s (map members fts) -> sig_match s ds = true ->
  Forall2 (fun ft t => In t (members ft) /\ (P ft (Some t) \/ P ft None)) fts s.
Proof.
  induction fts as [|ft tl IH]; intros ds s P HP Hs Hm.
  - inversion Hs; subst. constructor.
  - inversion HP as [|ft' dj tl' ds' Hp Hps]; subst.
    simpl in Hs. inversion Hs as [|t ms s' mss Ht Hs']; subst.
    simpl in Hm. destruct dj as [u|].
    + apply andb_true_iff in Hm. destruct Hm as [He Hm]. apply ctype_eqb_eq in He. subst u.
      constructor; [split; [exact Ht|now left]|]. apply (IH ds' s' P Hps Hs' Hm).
    + constructor; [split; [exact Ht|now right]|]. apply (IH ds' s' P Hps Hs' Hm).
Qed.

(* what a returned signature guarantees for one fused type: the member belongs to it, and if the
   examined argument was mapped to a member, it is that one and its C type takes the argument *)
Definition member_ok fx idlt (args : list atag) (ft : ftype) (t : ctype) : Prop :=
  In t (members ft) /\
  exists a, nth_error args (fpos ft) = Some a /\
    (map_fused fx idlt (members ft) a = Some t /\ conv t a = COk \/
     map_fused fx idlt (members ft) a = None).

(* C34: whatever the dispatcher returns is a signature of the function, member by member *)
Theorem dispatch_sound fx idlt d args sig :
  dispatch_cy fx idlt d args = Spec sig ->
  (fx = true \/ forall ft a, In ft (ftypes d) -> nth_error args (fpos ft) = Some a -> contig_safe (members ft) a) ->
  Forall2 (member_ok fx idlt args) (ftypes d) sig.
Proof.
  unfold dispatch_cy, dests. intros H Hs.
  destruct (negb _); [discriminate|].
  destruct (fold_right _ (Some []) (ftypes d)) as [ds|] eqn:E; [|discriminate].
  apply dests_spec in E.
  assert (Hsafe : forall ft a, In ft (ftypes d) -> nth_error args (fpos ft) = Some a ->
                   fx = true \/ contig_safe (members ft) a).
  { intros ft a Hin Hn. destruct Hs as [Hs|Hs]; [now left|right; now apply Hs]. }
  (* the general case: exactly one signature of the function matches the destination types *)
  assert (Hfilter : match filter (fun s => sig_match s ds) (all_sigs (map members (ftypes d))) with
                    | [] => NoMatch | [s] => Spec s | _ => Ambiguous end = Spec sig ->
                    Forall2 (member_ok fx idlt args) (ftypes d) sig).
  { destruct (filter _ _) as [|s [|]] eqn:F; try discriminate. intros [= <-].
    assert (Hi : In s (filter (fun s => sig_match s ds) (all_sigs (map members (ftypes d))))) by (rewrite F; now left).
    apply filter_In in Hi. destruct Hi as [Hin Hm]. apply all_sigs_in in Hin.
    pose proof (sig_match_sound (ftypes d) ds s _ E Hin Hm) as F2.
    clear - F2 Hsafe. revert F2 Hsafe. generalize (ftypes d) as fts.
    induction 1 as [|ft t fts s [Hin Hor] _ IH]; intros Hsafe; constructor.
    - split; [exact Hin|]. destruct Hor as [[a [Hn Hd]]|[a [Hn Hd]]]; exists a; (split; [exact Hn|]).
      + left. split; [now symmetry|]. symmetry in Hd.
        apply (map_fused_sound fx idlt (members ft) a t Hd). apply (Hsafe ft a); [now left|exact Hn].
      + right. now symmetry.
    - apply IH. intros ft' a' Hin'. apply Hsafe. now right. }
  destruct ds as [|one [|two rest]]; [exact (Hfilter H)| |exact (Hfilter H)].
  (* a single fused type: the table is read at the one destination type *)
  destruct one as [t|]; [|discriminate]. injection H as <-.
  inversion E as [|ft dj fts ds' [a [Hn Hd]] Hrest Ef]; subst. inversion Hrest; subst.
  constructor; [|constructor]. symmetry in Hd.
  destruct (map_fused_sound fx idlt (members ft) a t Hd) as [Hin Hc].
  { apply (Hsafe ft a); [rewrite <- Ef; now left|exact Hn]. }
  split; [exact Hin|]. exists a. split; [exact Hn|]. left. now split.
Qed.

(* parameters that share a fused type are specialised with the same member: the C type of
   parameter i is looked up in the single signature through its fused type index *)
Definition param_type (sig : list ctype) (d : decl) (i : nat) : option ctype :=
  match nth_error (params d) i with Some j => nth_error sig j | None => None end.

(* documented choice as a relation (any member of maximal rank may be taken) *)
Definition doc_ok (ms : list ctype) (a : atag) (r : option ctype) : Prop :=
  match r with
  | Some t =>
      In t ms /\
      ((exact a t = true /\
        forall u, In u ms -> exact a u = true -> py_type_name u = py_type_name t -> trank u <= trank t)
       \/ ((forall u, In u ms -> exact a u = false) /\ subinst a t = true /\
           forall u, In u ms -> subinst a u = true -> py_type_name u = py_type_name t -> trank u <= trank t)
       \/ ((forall u, In u ms -> exact a u = false /\ subinst a u = false) /\ t = TObject))
  | None => forall u, In u ms -> exact a u = false /\ subinst a u = false /\ u <> TObject
  end.

(* doc_choice, the function form, answers with biggest of the matching members, which is one of them *)
Lemma biggest_in l t : biggest l = Some t -> In t l.
Proof.
  revert t. induction l as [|x l IH]; simpl; [discriminate|]. intros t.
  destruct (biggest l) as [u|]; [|intros [= <-]; now left].
  destruct (is_numeric x && is_numeric u && (trank x <? trank u)); intros [= <-]; [right; now apply IH|now left].
Qed.

(* order conditions on the compiler's preference list (both decidable) *)
Definition group_sorted (s : list ctype) : Prop :=
  forall l1 t l2 u, s = l1 ++ t :: l2 -> In u l2 -> py_type_name u = py_type_name t -> trank u <= trank t.
Definition exact_first (s : list ctype) (a : atag) : Prop :=
  forall l1 t l2 u, s = l1 ++ t :: l2 -> subinst a t = true -> In u l2 -> exact a u = false.

Lemma find_split {A} (f : A -> bool) l t : find f l = Some t ->
  exists l1 l2, l = l1 ++ t :: l2 /\ f t = true /\ forall u, In u l1 -> f u = false.
Proof.
  induction l as [|x l IH]; simpl; [discriminate|]. destruct (f x) eqn:E.
  - intros [= <-]. exists [], l. split; [reflexivity|]. split; [exact E|intros u []].
  - intros H. destruct (IH H) as [l1 [l2 [-> [Ht Hl]]]]. exists (x :: l1), l2.
    split; [reflexivity|]. split; [exact Ht|]. intros u [<-|Hu]; [exact E|now apply Hl].
Qed.

Lemma scalar_hit_split a t : is_mem t = false ->
  inst_of a t && negb (is_obj t) = exact a t || subinst a t.
Proof.
  intros M. unfold inst_of.
  destruct t as [[r g| |r|r]| |b|k|n d m]; try discriminate; simpl;
    destruct a as [| | | | | | | |b'|mro| |bf]; simpl;
    rewrite ?andb_true_r, ?andb_false_r, ?orb_false_r; try reflexivity;
    try (destruct mro as [|k0 bases]; simpl; try reflexivity).
  - destruct b, b'; reflexivity.
  - now rewrite Nat.eqb_sym.
Qed.
Lemma sub_not_mem a t u : subinst a t = true -> is_mem u = true -> exact a u = false.
Proof.
  intros H M. destruct u; try discriminate M.
  destruct a; try reflexivity; try (destruct mro; reflexivity);
    destruct t as [[]| | | |]; simpl in H; discriminate H.
Qed.
Lemma sub_mem_false a u : is_mem u = true -> subinst a u = false.
Proof. intros M. destruct u; try discriminate M. destruct a; try reflexivity. destruct mro; reflexivity. Qed.
Lemma name_mem t u : py_type_name u = py_type_name t -> is_mem t = is_mem u.
Proof. destruct t as [[]| | | |], u as [[]| | | |]; simpl; intros H; try discriminate; reflexivity. Qed.

Lemma buffer_checks_none fx bufs a :
  buffer_checks fx bufs a = None -> forall u, In u bufs -> is_mem u = true -> exact a u = false.
Proof.
  intros H u Hu Hm. destruct u as [| | | |n d m]; try discriminate Hm.
  destruct a as [| | | | | | | |b'|mro| |bf]; try reflexivity; try (destruct mro; reflexivity); simpl in H.
  - destruct bufs; [destruct Hu|discriminate].
  - destruct (if has_dtype bf then _ else None); [discriminate|].
    apply (find_none _ _ H _ Hu).
Qed.

(* C34 (partial): for every member list, argument tag and id order, if the compiler's
   preference list keeps every py_type_name group in rank order and puts exact matches
   before base-class matches, and the numpy fast path cannot pick a member that the full
   check rejects (or the fast path is repaired), the mapper's answer obeys the documented
   rules *)
Theorem map_fused_documented fx idlt ms a :
  let s := pysort (ty_lt idlt) ms in
  group_sorted s -> exact_first s a -> (fx = true \/ contig_safe ms a) ->
  doc_ok ms a (map_fused fx idlt ms a).
Proof.
  intros s Hg He Hs. rewrite map_fused_spec. fold s. unfold map_spec.
  assert (Hin : forall u, In u s <-> In u ms) by (intros u; apply pysort_in).
  destruct (find (fun t0 => inst_of a t0 && negb (is_obj t0)) s) as [t|] eqn:F.
  - apply find_split in F. destruct F as [l1 [l2 [Es [Ht Hl1]]]].
    assert (Mt : is_mem t = false).
    { destruct t; try reflexivity. unfold inst_of in Ht. simpl in Ht. discriminate. }
    assert (Tin : In t s) by (rewrite Es; apply in_or_app; right; now left).
    simpl. split; [now apply Hin|].
    assert (Hpos : forall u, In u ms -> In u l1 \/ u = t \/ In u l2).
    { intros u Hu. apply Hin in Hu. rewrite Es in Hu. apply in_app_or in Hu. destruct Hu as [Hu|[<-|Hu]]; auto. }
    (* among the members that match at all, none of the same python type outranks t *)
    assert (Hrank : forall u, In u ms -> exact a u = true \/ subinst a u = true ->
                     py_type_name u = py_type_name t -> trank u <= trank t).
    { intros u Hu Hx Hn. destruct (Hpos u Hu) as [Hu'|[->|Hu']]; [|lia|now apply (Hg l1 t l2 u Es Hu' Hn)].
      specialize (Hl1 u Hu'). rewrite scalar_hit_split in Hl1 by (rewrite <- (name_mem t u Hn); exact Mt).
      apply orb_false_iff in Hl1. destruct Hl1, Hx; congruence. }
    rewrite (scalar_hit_split a t Mt) in Ht. apply orb_true_iff in Ht.
    destruct (exact a t) eqn:Ex.
    + left. split; [reflexivity|]. intros u Hu Hx Hn. apply Hrank; auto.
    + destruct Ht as [Ht|Ht]; [discriminate|]. right; left. split; [|split; [exact Ht|]].
      * intros u Hu.
        destruct (Hpos u Hu) as [Hu'|[->|Hu']]; [|exact Ex|now apply (He l1 t l2 u Es Ht Hu')].
        destruct (is_mem u) eqn:Mu; [now apply (sub_not_mem a t u Ht Mu)|].
        specialize (Hl1 u Hu'). rewrite (scalar_hit_split a u Mu) in Hl1. now apply orb_false_iff in Hl1.
      * intros u Hu Hx Hn. apply Hrank; auto.
  - assert (Hsc : forall u, In u ms -> is_mem u = false -> exact a u = false /\ subinst a u = false).
    { intros u Hu Mu. apply Hin in Hu. pose proof (find_none _ _ F u Hu) as N. simpl in N.
      rewrite (scalar_hit_split a u Mu) in N. now apply orb_false_iff in N. }
    destruct (buffer_checks fx (filter is_mem s) a) as [t|] eqn:B.
    + destruct (mapper_buffer_exact fx idlt ms a t B Hs) as (Tin & Mt & Ex). simpl.
      split; [exact Tin|]. left. split; [exact Ex|].
      intros u Hu _ Hn. pose proof (name_mem t u Hn) as Q. rewrite Mt in Q.
      destruct t; try discriminate Mt. destruct u; try discriminate Q. simpl. lia.
    + assert (Hall : forall u, In u ms -> exact a u = false /\ subinst a u = false).
      { intros u Hu. destruct (is_mem u) eqn:Mu; [|now apply Hsc]. split; [|now apply sub_mem_false].
        apply (buffer_checks_none fx _ a B u); [|exact Mu]. apply filter_In. split; [now apply Hin|exact Mu]. }
      destruct (existsb is_obj s) eqn:O; simpl.
      * apply existsb_exists in O. destruct O as [u [Hu Ou]]. destruct u; try discriminate.
        split; [now apply Hin|]. right; right. split; [exact Hall|reflexivity].
      * intros u Hu. destruct (Hall u Hu) as [H1 H2]. split; [exact H1|split; [exact H2|]].
        intros ->. apply Hin in Hu. assert (existsb is_obj s = true) by (apply existsb_exists; exists TObject; now split).
        congruence.
Qed.

Lemma index_key_eq {K} (keq : K -> K -> bool) (name : ctype -> K) :
  (forall x y, keq x y = true <-> x = y) ->
  forall s idx, (Nat.eqb (length s) (length idx) &&
                 forallb (fun p => keq (name (fst p)) (snd p)) (combine s idx)) = true <-> map name s = idx.
Proof.
  intros Hk. induction s as [|t s IH]; intros [|k idx]; simpl; split; intros H; try discriminate; try reflexivity.
  - apply andb_true_iff in H. destruct H as [H1 H2]. apply andb_true_iff in H2. destruct H2 as [H2 H3].
    apply Hk in H2. subst k. f_equal. apply IH. now rewrite H1, H3.
  - injection H as <- <-. specialize (proj2 (IH (map name s)) eq_refl) as H.
    apply andb_true_iff in H. destruct H as [H1 H2]. rewrite H1, H2.
    replace (keq (name t) (name t)) with true by (symmetry; now apply Hk). reflexivity.
Qed.
(* func[idx] returns a signature of the function whose key is exactly the index, and raises
   KeyError exactly when no signature has that key *)
Theorem getitem_exact {K} (keq : K -> K -> bool) (name : ctype -> K) sigs idx :
  (forall x y, keq x y = true <-> x = y) ->
  match getitem keq name sigs idx with
  | IFound s => In s sigs /\ map name s = idx
  | IKeyError => forall s, In s sigs -> map name s <> idx
  end.
Proof.
  intros Hk. unfold getitem.
  destruct (find _ sigs) as [s|] eqn:F.
  - apply find_some in F. destruct F as [Hin Hp]. split; [exact Hin|]. now apply (index_key_eq keq name Hk).
  - intros s Hin Hm. pose proof (find_none _ _ F s Hin) as N. simpl in N.
    apply (index_key_eq keq name Hk) in Hm. congruence.
Qed.

(* the tree as it is: witnesses against the documented rules *)
Definition idlt0 (k : tclass) : bool := false.
Definition t_short := TNum (NInt 2 1).   Definition t_int := TNum (NInt 4 1).
Definition t_long := TNum (NInt 6 1).    Definition t_ulong := TNum (NInt 6 0).
Definition t_double := TNum (NFloat 12). Definition t_dcomplex := TNum (NComplex 12).
Definition t_bint := TNum NBint.

(* {short, double complex, long}: an int argument gets short, not the biggest int type *)
Lemma refuted_numeric_order :
  map_fused false idlt0 [t_short; t_dcomplex; t_long] AInt = Some t_short /\
  doc_choice [t_short; t_dcomplex; t_long] AInt = Some t_long /\
  ~ doc_ok [t_short; t_dcomplex; t_long] AInt (Some t_short).
Proof.
  split; [reflexivity|split; [reflexivity|]]. intros [_ [[_ H]|[[H _]|[_ H]]]].
  - specialize (H t_long (or_intror (or_intror (or_introl eq_refl))) eq_refl eq_refl). vm_compute in H. now apply H.
  - specialize (H t_short (or_introl eq_refl)). discriminate.
  - discriminate.
Qed.
(* {long[::1], long[:]} and a non-contiguous int64 ndarray: C34_fastpath_contiguity_refuted *)
Definition d_mem := {| ftypes := [{| members := [TMem (NInt 6 1) 1 MCContig; TMem (NInt 6 1) 1 MStrided]; fpos := 0 |}];
                       params := [0%nat] |}.
Definition a_strided := ABuf {| b_src := SNd; b_kind := DKInt; b_size := 8; b_ndim := 1; b_cc := false; b_fc := false |}.
(* a single-member fused type next to a two-member one: C34_single_member_wildcard_refuted *)
Definition d_single := {| ftypes := [{| members := [t_double]; fpos := 0 |}; {| members := [t_int; t_double]; fpos := 1 |}];
                          params := [0%nat; 1%nat] |}.

(* decidable forms of the order conditions *)
Definition opt_name_eqb (x y : option pyname) : bool :=
  match x, y with Some p, Some q => pyname_eqb p q | None, None => true | _, _ => false end.
Lemma opt_name_eqb_eq x y : opt_name_eqb x y = true <-> x = y.
Proof.
  destruct x as [p|], y as [q|]; simpl; split; intros H; try discriminate; try reflexivity.
  - apply pyname_eqb_eq in H. now subst. - injection H as ->. now apply pyname_eqb_eq.
Qed.
Fixpoint group_sortedb (s : list ctype) : bool :=
  match s with
  | [] => true
  | t :: tl => forallb (fun u => negb (opt_name_eqb (py_type_name u) (py_type_name t)) || (trank u <=? trank t)) tl
               && group_sortedb tl
  end.
Fixpoint exact_firstb (s : list ctype) (a : atag) : bool :=
  match s with
  | [] => true
  | t :: tl => (negb (subinst a t) || forallb (fun u => negb (exact a u)) tl) && exact_firstb tl a
  end.
Lemma group_sortedb_ok s : group_sortedb s = true -> group_sorted s.
Proof.
  unfold group_sorted. induction s as [|x s IH]; intros H l1 t l2 u E Hu Hn.
  - destruct l1; discriminate.
  - simpl in H. apply andb_true_iff in H. destruct H as [H1 H2].
    destruct l1 as [|y l1]; simpl in E; injection E as -> ->.
    + rewrite forallb_forall in H1. specialize (H1 u Hu). apply orb_true_iff in H1. destruct H1 as [H1|H1].
      * apply negb_true_iff in H1. assert (opt_name_eqb (py_type_name u) (py_type_name t) = true) by now apply opt_name_eqb_eq.
        congruence.
      * now apply Z.leb_le.
    + now apply (IH H2 l1 t l2 u eq_refl).
Qed.
Lemma exact_firstb_ok s a : exact_firstb s a = true -> exact_first s a.
Proof.
  unfold exact_first. induction s as [|x s IH]; intros H l1 t l2 u E Hs Hu.
  - destruct l1; discriminate.
  - simpl in H. apply andb_true_iff in H. destruct H as [H1 H2].
    destruct l1 as [|y l1]; simpl in E; injection E as -> ->.
    + rewrite Hs in H1. simpl in H1. rewrite forallb_forall in H1. specialize (H1 u Hu). now apply negb_true_iff.
    + now apply (IH H2 l1 t l2 u eq_refl).
Qed.
Definition contig_safeb (ms : list ctype) (a : atag) : bool :=
  match a with ABuf b => forallb (fun t => negb (fast_ok t b) || coerce_ok t b) ms | _ => true end.
Lemma contig_safeb_ok ms a : contig_safeb ms a = true -> contig_safe ms a.
Proof.
  unfold contig_safe. intros H b t -> Hin Hf. simpl in H. rewrite forallb_forall in H.
  specialize (H t Hin). rewrite Hf in H. exact H.
Qed.

(* lists on which __lt__ never answers True (extension types, builtins, object, memoryviews
   only) keep their declared order: there the conditions speak about the declaration itself *)
Lemma ty_lt_unordered idlt ms :
  (forall t, In t ms -> match t with TNum _ => False | _ => True end) ->
  (forall t, In t ms -> is_mem t = true -> forall u, In u ms -> is_mem u = true) ->
  pysort (ty_lt idlt) ms = ms.
Proof.
  intros Hn Hm. apply pysort_unordered_in. intros a b Ha Hb.
  pose proof (Hn a Ha) as Na. destruct a; try reflexivity; [destruct Na|].
  pose proof (Hm _ Ha eq_refl b Hb) as Mb. destruct b; try discriminate. reflexivity.
Qed.
