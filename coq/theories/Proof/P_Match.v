(* Proofs for C31: the decision structure built by MatchCaseNodes (match_cy) equals PEP 634
   (match_ref) outside the refuted classes. *)
From Coq Require Import ZArith List Bool NArith Lia Sorted.
From CyVerif Require Import Lib.ListFacts Model.M_Match.
Import ListNotations.
Open Scope Z_scope.

Scheme pat_mind := Induction for pat Sort Prop
with pats_mind := Induction for pats Sort Prop
with kpats_mind := Induction for kpats Sort Prop.
Combined Scheme pat_mutind from pat_mind, pats_mind, kpats_mind.

Lemma both_ok_nil_l : forall r, both (Ok []) r = r.
Proof. intros [b| |e]; reflexivity. Qed.

Lemma both_ok_nil_r : forall r, both r (Ok []) = r.
Proof. intros [b| |e]; simpl; try reflexivity. now rewrite app_nil_r. Qed.

Definition noerr {A} (r : res A) : Prop := forall e, r <> Err e.
Lemma noerr_ok : forall A (a : A), noerr (Ok a).
Proof. intros A a e H. discriminate. Qed.
Lemma noerr_nomatch : forall A, noerr (@NoMatch A).
Proof. intros A e H. discriminate. Qed.
Lemma noerr_if : forall A (c : bool) (r1 r2 : res A), noerr r1 -> noerr r2 -> noerr (if c then r1 else r2).
Proof. intros A [|] r1 r2 H1 H2; assumption. Qed.
Lemma noerr_both : forall r1 r2, noerr r1 -> noerr r2 -> noerr (both r1 r2).
Proof.
  intros [a| |e] [b| |e'] H1 H2 x; simpl; try discriminate;
    try (exfalso; exact (H2 e' eq_refl)); exfalso; exact (H1 e eq_refl).
Qed.
#[local] Hint Resolve noerr_ok noerr_nomatch noerr_both noerr_if : ne.

Lemma ckey_eqb_eq : forall a b, ckey_eqb a b = true <-> a = b.
Proof.
  intros [x|x| |x] [y|y| |y]; simpl; rewrite ?Z.eqb_eq, ?N.eqb_eq; split; congruence.
Qed.

Lemma memc_In : forall c l, memc c l = true <-> In c l.
Proof.
  intros c l. unfold memc. rewrite existsb_exists. split.
  - intros [x [Hx He]]. apply ckey_eqb_eq in He. now subst.
  - intro H. exists c. split; [exact H | now apply ckey_eqb_eq].
Qed.

Lemma memc_false : forall c l, memc c l = false <-> ~ In c l.
Proof. intros c l. rewrite <- memc_In. symmetry. apply not_true_iff_false. Qed.

Lemma nodupc_NoDup : forall l, nodupc l = true <-> NoDup l.
Proof.
  induction l as [|a r IH]; simpl.
  - split; [constructor | reflexivity].
  - rewrite andb_true_iff, negb_true_iff, memc_false, IH. split.
    + intros [H1 H2]. now constructor.
    + intro H. inversion H. now split.
Qed.

Lemma ref_lookups_nodup : forall present dup ks seen,
  NoDup (map key_canon ks) -> (forall k, In k ks -> ~ In (key_canon k) seen) ->
  ref_lookups present seen ks dup = if forallb present ks then Ok tt else NoMatch.
Proof.
  intros present dup. induction ks as [|k r IH]; intros seen Hnd Hs; simpl.
  - reflexivity.
  - assert (Hk : memc (key_canon k) seen = false) by (apply memc_false, Hs; now left).
    rewrite Hk. destruct (present k); simpl; [|reflexivity].
    inversion Hnd as [|? ? Hnin Hnd']; subst. apply IH; [exact Hnd'|].
    intros k' Hin [Heq|Hin']; [|exact (Hs k' (or_intror Hin) Hin')].
    apply Hnin. rewrite Heq. now apply in_map.
Qed.

Lemma NoDup_map_filter : forall (f : key -> bool) ks,
  NoDup (map key_canon ks) -> NoDup (map key_canon (filter f ks)).
Proof.
  intros f. induction ks as [|k r IH]; simpl; intro H; [constructor|].
  inversion H as [|? ? Hnin Hnd]; subst. destruct (f k); simpl; [|now apply IH].
  constructor; [|now apply IH]. intro Hin. apply Hnin.
  apply in_map_iff in Hin. destruct Hin as [x [Hx Hin]]. apply filter_In in Hin.
  apply in_map_iff. exists x. tauto.
Qed.

Lemma canon_inj : forall ks k1 k2,
  NoDup (map key_canon ks) -> In k1 ks -> In k2 ks -> key_canon k1 = key_canon k2 -> k1 = k2.
Proof.
  induction ks as [|k r IH]; simpl; intros k1 k2 Hnd I1 I2 E; [tauto|].
  inversion Hnd as [|? ? Hnin Hnd']; subst.
  destruct I1 as [->|I1], I2 as [->|I2]; [reflexivity| | |now apply IH]; exfalso; apply Hnin.
  - rewrite E. now apply in_map.
  - rewrite <- E. now apply in_map.
Qed.

Lemma cy_map_dup_nodup : forall ks, NoDup (map key_canon ks) -> cy_map_dup ks = false.
Proof.
  intros ks H. unfold cy_map_dup. apply orb_false_iff. split.
  - apply negb_false_iff, nodupc_NoDup, NoDup_map_filter, H.
  - (* a literal key and a value key with the same canonical form would be one key *)
    apply not_true_iff_false. intro He. apply existsb_exists in He. destruct He as [c [Hc Hm]].
    apply memc_In in Hm. apply in_map_iff in Hc. destruct Hc as [k1 [E1 H1]].
    apply in_map_iff in Hm. destruct Hm as [k2 [E2 H2]].
    apply filter_In in H1. apply filter_In in H2. destruct H1 as [I1 L1], H2 as [I2 L2].
    rewrite (canon_inj ks k1 k2 H I1 I2) in L1 by congruence. rewrite L1 in L2. discriminate.
Qed.

Lemma cy_cls_dup_nodup : forall pn kw,
  NoDup (map key_canon (map KAttr pn ++ kw)) -> cy_cls_dup pn kw = false.
Proof.
  intros pn kw H. unfold cy_cls_dup. rewrite map_app, map_map in H. apply NoDup_app_inv in H.
  destruct H as (Hp & _ & Hd). apply orb_false_iff. split.
  - apply negb_false_iff, nodupc_NoDup, Hp.
  - apply not_true_iff_false. intro He. apply existsb_exists in He. destruct He as [k [Hk Hmem]].
    apply memc_In in Hmem. exact (Hd _ Hmem (in_map key_canon _ _ Hk)).
Qed.

Lemma forallb_sorted : forall (f : key -> bool) ks, forallb f (sorted_keys ks) = forallb f ks.
Proof.
  intros f ks. unfold sorted_keys. rewrite forallb_app. induction ks as [|k r IH]; simpl; [reflexivity|].
  rewrite <- IH. destruct (is_litkey k); simpl; destruct (f k); simpl; try reflexivity.
  - now rewrite andb_false_r.
Qed.

Lemma cy_rest_filter : forall ks kvs,
  cy_rest ks kvs = filter (fun kv => negb (memc (canon (fst kv)) (map key_canon ks))) kvs.
Proof.
  unfold cy_rest. induction ks as [|k r IH]; intro kvs; simpl.
  - induction kvs as [|a l IHl]; simpl; [reflexivity|]. now rewrite <- IHl.
  - rewrite IH. unfold del_key. induction kvs as [|a l IHl]; simpl; [reflexivity|].
    destruct (ckey_eqb (canon (fst a)) (key_canon k)); simpl.
    + exact IHl.
    + destruct (memc (canon (fst a)) (map key_canon r)); simpl; [exact IHl | now rewrite IHl].
Qed.

Lemma index_z_nat : forall l k, index_z l (Z.of_nat k) = nth_error l k.
Proof.
  intros l k. unfold index_z. destruct (Z.ltb_spec (Z.of_nat k) 0); [lia|]. now rewrite Nat2Z.id.
Qed.

Lemma slice_z_ok : forall (l : list value) n m, (n + m <= length l)%nat ->
  slice_z l (Z.of_nat n)
    (if Z.of_nat m =? 0 then Z.of_nat (length l) else Z.of_nat (length l) + - Z.of_nat m)
  = Some (firstn (length l - n - m) (skipn n l)).
Proof.
  intros l n m H.
  assert (E : (if Z.of_nat m =? 0 then Z.of_nat (length l) else Z.of_nat (length l) + - Z.of_nat m)
              = Z.of_nat (length l - m)) by (destruct (Z.eqb_spec (Z.of_nat m) 0); lia).
  rewrite E. unfold slice_z.
  destruct (Z.ltb_spec (Z.of_nat n) 0); [lia|].
  destruct (Z.ltb_spec (Z.of_nat (length l - m)) (Z.of_nat n)); [lia|].
  destruct (Z.ltb_spec (Z.of_nat (length l)) (Z.of_nat (length l - m))); [lia|].
  simpl. rewrite Nat2Z.id. do 2 f_equal. lia.
Qed.

Lemma firstn_skipn_all : forall (l : list value) k m, (k + m = length l)%nat ->
  firstn m (skipn k l) = skipn k l.
Proof. intros l k m H. apply firstn_all2. rewrite skipn_length. lia. Qed.

Lemma orb_and_split : forall a b c, a || (b && c) = true -> a || b = true /\ a || c = true.
Proof. intros [|] [|] [|]; simpl; intro H; split; auto. Qed.

Definition agree (strict : bool) (r r' : res binds) : Prop :=
  r = r' /\ (strict = true -> noerr r').

Lemma agree_refl : forall s r, noerr r -> agree s r r.
Proof. intros s r H. split; [reflexivity | intros _; exact H]. Qed.

Lemma agree_mono : forall s s' r r', (s = true -> s' = true) -> agree s' r r' -> agree s r r'.
Proof. intros s s' r r' H [E N]. split; [exact E | intro St; exact (N (H St))]. Qed.

Lemma agree_both : forall s a a' b b', agree s a a' -> agree s b b' -> agree s (both a b) (both a' b').
Proof. intros s a a' b b' [-> Na] [-> Nb]. split; [reflexivity | intro St; apply noerr_both; auto]. Qed.

Lemma agree_alts : forall s a a' b b', agree s a a' -> agree s b b' ->
  agree s (match a with Ok x => Ok x | NoMatch => b | Err e => Err e end)
          (match a' with Ok x => Ok x | NoMatch => b' | Err e => Err e end).
Proof.
  intros s a a' b b' [-> Na] [-> Nb]. split; [reflexivity|]. intro St.
  destruct a' as [x| |e]; [apply noerr_ok | exact (Nb St) | exact (Na St)].
Qed.

(* testing b before a is not observable when one of them is trivial or neither can raise *)
Lemma agree_swap : forall s a a' b b', agree s a a' -> agree s b b' ->
  a' = Ok [] \/ b' = Ok [] \/ s = true ->
  agree s (bind b (fun y => bind a (fun x => Ok (x ++ y)))) (both a' b').
Proof.
  intros s a a' b b' [-> Na] [-> Nb] H. split; [|intro St; apply noerr_both; auto].
  destruct H as [->|[->|St]]; [destruct b'; reflexivity|reflexivity|].
  destruct a' as [x| |e], b' as [y| |e']; try reflexivity; exfalso;
    first [exact (Nb St e' eq_refl) | exact (Na St e eq_refl)].
Qed.
#[local] Hint Resolve agree_refl agree_both : ne.

Section MAIN.
Variable fx : bool.
Variable ct : ctab.

Lemma as_value_ok : forall q v b, fx || as_harmless q = true ->
  pm_ref ct q v = Ok b -> as_value fx q v = v.
Proof.
  intros q v. unfold as_value. destruct fx; [reflexivity|]. simpl.
  induction q as [l|l|x| |pre st post|items rest|c pos kw|alts|q IH x]; intros b H R; try reflexivity.
  - destruct l as [z|bb| |s]; simpl in H; try discriminate;
      simpl in R; destruct v; simpl in R; try discriminate; try reflexivity.
    + destruct bb, b0; simpl in R; try discriminate; reflexivity.
    + unfold eq_lit in R. simpl in R. destruct (N.eqb_spec s0 s); [now subst | discriminate].
  - destruct l as [z|bb| |s]; simpl in H; try discriminate;
      simpl in R; destruct v; simpl in R; try discriminate; try reflexivity.
    unfold eq_lit in R. simpl in R. destruct (N.eqb_spec s0 s); [now subst | discriminate].
  - change (as_src (PAs q x)) with (as_src q). change (as_harmless (PAs q x)) with (as_harmless q) in H.
    change (pm_ref ct (PAs q x) v) with (both (pm_ref ct q v) (Ok [(x, v)])) in R.
    destruct (pm_ref ct q v) as [b'| |e] eqn:R'; try discriminate. exact (IH b' H eq_refl).
Qed.

Definition cy_msubs (ks : kpats) (v : value) : res binds :=
  bind (cy_kp fx ct true ks v) (fun bl => bind (cy_kp fx ct false ks v) (fun bv => cy_kp_binds fx ct ks bl bv)).

Definition pat_ok (p : pat) := forall s v, safe ct s p = true -> fx || as_ok p = true ->
  agree s (cy fx ct p v) (pm_ref ct p v).

Definition pats_ok (ps : pats) := forall s, safe_list ct s ps = true -> fx || as_ok_list ps = true ->
  (forall vs, agree s (cy_list fx ct ps vs) (ref_list ct ps vs))
  /\ (forall v, agree s (cy_alts fx ct ps v) (ref_alts ct ps v)).

(* the two passes over a mapping's sub-patterns amount to one pass in source order *)
Definition kpats_ok (ks : kpats) := forall s v, safe_kp ct s ks = true -> fx || as_ok_kp ks = true ->
  agree s (cy_kall fx ct ks v) (ref_kp ct ks v)
  /\ (s = true \/ has_valkey (kkeys ks) = false -> cy_msubs ks v = cy_kall fx ct ks v).

Definition present (v : value) (k : key) : bool := match klookup v k with Some _ => true | None => false end.

(* unfolding equations (simpl/cbn expose the raw mutual fixpoints) *)

Lemma ref_eq_seq : forall pre st post v, pm_ref ct (PSeq pre st post) v =
  match seq_items v with
  | None => NoMatch
  | Some l =>
      let n := plen pre in let m := plen post in let L := length l in
      match st with
      | StarNone =>
          if Nat.eqb L (n + m)
          then both (ref_list ct pre (firstn n l)) (ref_list ct post (skipn (L - m) l))
          else NoMatch
      | _ =>
          if Nat.leb (n + m) L
          then both (ref_list ct pre (firstn n l))
                 (both (Ok (star_binds st (firstn (L - n - m) (skipn n l))))
                       (ref_list ct post (skipn (L - m) l)))
          else NoMatch
      end
  end.
Proof. reflexivity. Qed.

Lemma cy_eq_seq : forall pre st post v, cy fx ct (PSeq pre st post) v =
  match seq_items v with
  | None => NoMatch
  | Some l =>
      let n := Z.of_nat (plen pre) in let m := Z.of_nat (plen post) in
      let L := Z.of_nat (length l) in
      match st with
      | StarNone =>
          if L =? n + m
          then both (cy_items fx ct pre l 0) (cy_items fx ct post l n)
          else NoMatch
      | _ =>
          if n + m <=? L
          then both (cy_items fx ct pre l 0)
                 (both (match st with
                        | StarCap x =>
                            match slice_z l n (if m =? 0 then L else L + (- m)) with
                            | Some mid => Ok [(x, VList mid)]
                            | None => Err EInternal
                            end
                        | _ => Ok []
                        end)
                       (cy_items fx ct post l (L + (- m))))
          else NoMatch
      end
  end.
Proof. reflexivity. Qed.

Lemma ref_eq_map : forall items rest v, pm_ref ct (PMap items rest) v =
  match map_items v with
  | None => NoMatch
  | Some kvs =>
      if Nat.ltb (length kvs) (klen items) then NoMatch
      else bind (ref_lookups (present v) [] (kkeys items) EValueError)
             (fun _ => both (ref_kp ct items v) (Ok (rest_binds rest (ref_rest items kvs))))
  end.
Proof. reflexivity. Qed.

Lemma cy_eq_map : forall items rest v, cy fx ct (PMap items rest) v =
  if cy_map_dup (kkeys items) then Err EValueError
  else match map_items v with
  | None => NoMatch
  | Some kvs =>
      if Nat.ltb (length kvs) (klen items) then NoMatch
      else if negb (forallb (present v) (sorted_keys (kkeys items))) then NoMatch
      else both (cy_msubs items v) (Ok (rest_binds rest (cy_rest (kkeys items) kvs)))
  end.
Proof. reflexivity. Qed.

Definition cls_vals (c : cls) (np : nat) (v : value) (pnames : list N) : option (list value) :=
  if match_self c then Some (match np with O => [] | S _ => [v] end) else attr_vals v pnames.
Definition cls_pnames (c : cls) (np : nat) : list N :=
  if match_self c then [] else firstn np (match_args ct c).

Lemma ref_eq_class : forall c pos kw v, pm_ref ct (PClass c pos kw) v =
  if negb (isinst v c) then NoMatch
  else if Nat.ltb (allowed ct c) (plen pos) then Err ETypeError
  else
    bind (ref_lookups (present v) [] (map KAttr (cls_pnames c (plen pos)) ++ kkeys kw) ETypeError)
      (fun _ =>
         match cls_vals c (plen pos) v (cls_pnames c (plen pos)) with
         | None => Err EInternal
         | Some vals => both (ref_list ct pos vals) (ref_kp ct kw v)
         end).
Proof. reflexivity. Qed.

Lemma cy_eq_class : forall c pos kw v, cy fx ct (PClass c pos kw) v =
  if negb (isinst v c) then NoMatch
  else
    let np := plen pos in
    let pnames := cls_pnames c np in
    bind (match np with
          | O => Ok tt
          | _ =>
              if Nat.ltb (allowed ct c) np then Err ETypeError
              else if match_self c then Ok tt
              else if cy_cls_dup pnames (kkeys kw) then Err ETypeError
              else if forallb (fun a => match getattr v a with Some _ => true | None => false end) pnames
                   then Ok tt else NoMatch
          end)
      (fun _ =>
         if negb (forallb (present v) (kkeys kw)) then NoMatch
         else
           match cls_vals c np v pnames with
           | None => Err EInternal
           | Some vals =>
               bind (cy_kall fx ct kw v) (fun bk =>
               bind (cy_list fx ct pos vals) (fun bp => Ok (bp ++ bk)))
           end).
Proof. reflexivity. Qed.

Lemma ref_eq_as : forall q x v, pm_ref ct (PAs q x) v = both (pm_ref ct q v) (Ok [(x, v)]).
Proof. reflexivity. Qed.
Lemma cy_eq_as : forall q x v, cy fx ct (PAs q x) v = both (cy fx ct q v) (Ok [(x, as_value fx q v)]).
Proof. reflexivity. Qed.

Lemma ref_list_cons : forall p r vs, ref_list ct (PCons p r) vs =
  match vs with x :: xs => both (pm_ref ct p x) (ref_list ct r xs) | [] => NoMatch end.
Proof. intros p r [|x xs]; reflexivity. Qed.
Lemma cy_list_cons : forall p r vs, cy_list fx ct (PCons p r) vs =
  match vs with x :: xs => both (cy fx ct p x) (cy_list fx ct r xs) | [] => NoMatch end.
Proof. intros p r [|x xs]; reflexivity. Qed.
Lemma ref_list_nil : forall vs, ref_list ct PNil vs = match vs with [] => Ok [] | _ => NoMatch end.
Proof. intros [|x xs]; reflexivity. Qed.
Lemma cy_list_nil : forall vs, cy_list fx ct PNil vs = match vs with [] => Ok [] | _ => NoMatch end.
Proof. intros [|x xs]; reflexivity. Qed.
Lemma cy_items_cons : forall p r l i, cy_items fx ct (PCons p r) l i =
  if is_wild p then cy_items fx ct r l (i + 1)
  else match index_z l i with
       | Some x => both (cy fx ct p x) (cy_items fx ct r l (i + 1))
       | None => Err EInternal
       end.
Proof. reflexivity. Qed.
Lemma ref_alts_cons : forall p r v, ref_alts ct (PCons p r) v =
  match pm_ref ct p v with Ok b => Ok b | NoMatch => ref_alts ct r v | Err e => Err e end.
Proof. reflexivity. Qed.
Lemma cy_alts_cons : forall p r v, cy_alts fx ct (PCons p r) v =
  match cy fx ct p v with Ok b => Ok b | NoMatch => cy_alts fx ct r v | Err e => Err e end.
Proof. reflexivity. Qed.
Lemma ref_kp_cons : forall k p r v, ref_kp ct (KCons k p r) v =
  match klookup v k with Some x => both (pm_ref ct p x) (ref_kp ct r v) | None => NoMatch end.
Proof. reflexivity. Qed.
Lemma cy_kall_cons : forall k p r v, cy_kall fx ct (KCons k p r) v =
  match klookup v k with Some x => both (cy fx ct p x) (cy_kall fx ct r v) | None => NoMatch end.
Proof. reflexivity. Qed.
Lemma cy_kp_cons : forall lits k p r v, cy_kp fx ct lits (KCons k p r) v =
  if Bool.eqb (is_litkey k) lits then
    match klookup v k with
    | Some x => bind (cy fx ct p x) (fun b => bind (cy_kp fx ct lits r v) (fun bs => Ok (b :: bs)))
    | None => NoMatch
    end
  else cy_kp fx ct lits r v.
Proof. reflexivity. Qed.
Lemma cy_kp_binds_cons : forall k p r bl bv, cy_kp_binds fx ct (KCons k p r) bl bv =
  if is_litkey k then
    match bl with b :: bl' => bind (cy_kp_binds fx ct r bl' bv) (fun bs => Ok (b ++ bs)) | [] => Err EInternal end
  else
    match bv with b :: bv' => bind (cy_kp_binds fx ct r bl bv') (fun bs => Ok (b ++ bs)) | [] => Err EInternal end.
Proof. reflexivity. Qed.

Lemma cy_items_list : forall ps l k, (k + plen ps <= length l)%nat ->
  cy_items fx ct ps l (Z.of_nat k) = cy_list fx ct ps (firstn (plen ps) (skipn k l)).
Proof.
  induction ps as [|p r IH]; intros l k Hk; [reflexivity|].
  change (plen (PCons p r)) with (S (plen r)) in *.
  destruct (nth_error_lt_Some l k) as [x Hx]; [lia|].
  rewrite (skipn_nth_error_cons _ _ _ Hx).
  change (firstn (S (plen r)) (x :: skipn (S k) l)) with (x :: firstn (plen r) (skipn (S k) l)).
  rewrite cy_items_cons, cy_list_cons.
  replace (Z.of_nat k + 1) with (Z.of_nat (S k)) by lia. rewrite (IH l (S k)) by lia.
  destruct (is_wild p) eqn:W.
  - (* a wildcard is not read: it would match and bind nothing *)
    destruct p; try discriminate. symmetry. apply both_ok_nil_l.
  - now rewrite index_z_nat, Hx.
Qed.

(* the star binding: the slice is in range whenever the length test has passed *)
Lemma star_mid : forall st (l : list value) n m, (n + m <= length l)%nat ->
  match st with
  | StarCap x =>
      match slice_z l (Z.of_nat n) (if Z.of_nat m =? 0 then Z.of_nat (length l)
                                    else Z.of_nat (length l) + - Z.of_nat m) with
      | Some mid => Ok [(x, VList mid)]
      | None => Err EInternal
      end
  | _ => Ok []
  end = Ok (star_binds st (firstn (length l - n - m) (skipn n l))).
Proof. intros [| |x] l n m H; [reflexivity|reflexivity|]. rewrite slice_z_ok by exact H. reflexivity. Qed.

Lemma pat_ok_seq : forall pre, pats_ok pre -> forall st post, pats_ok post -> pat_ok (PSeq pre st post).
Proof.
  intros pre IHpre st post IHpost s v Hs Ha.
  change (safe_list ct s pre && safe_list ct s post = true) in Hs.
  apply andb_true_iff in Hs as [Hs1 Hs2].
  change (fx || (as_ok_list pre && as_ok_list post) = true) in Ha.
  apply orb_and_split in Ha as [Ha1 Ha2].
  destruct (IHpre s Hs1 Ha1) as [Lpre _]. destruct (IHpost s Hs2 Ha2) as [Lpost _].
  rewrite cy_eq_seq, ref_eq_seq. cbv zeta. destruct (seq_items v) as [l|]; [|auto with ne].
  set (n := plen pre). set (m := plen post).
  (* the pre items are read at 0.., the post items at len-m.. in both shapes *)
  assert (Apre : (n + m <= length l)%nat -> agree s (cy_items fx ct pre l 0) (ref_list ct pre (firstn n l)))
    by (intros H; change 0 with (Z.of_nat 0); rewrite cy_items_list by lia; apply Lpre).
  assert (Apost : (n + m <= length l)%nat ->
            agree s (cy_items fx ct post l (Z.of_nat (length l - m))) (ref_list ct post (skipn (length l - m) l))).
  { intros H. rewrite cy_items_list, firstn_skipn_all by lia. apply Lpost. }
  pose proof (star_mid st l n m) as Emid.
  destruct st as [| |x].
  1:{ replace (Z.of_nat (length l) =? Z.of_nat n + Z.of_nat m) with (Nat.eqb (length l) (n + m))
        by (destruct (Nat.eqb_spec (length l) (n + m)); lia).
      destruct (Nat.eqb_spec (length l) (n + m)) as [E|E]; [|auto with ne].
      replace (Z.of_nat n) with (Z.of_nat (length l - m)) by lia.
      apply agree_both; [apply Apre|apply Apost]; lia. }
  all: replace (Z.of_nat n + Z.of_nat m <=? Z.of_nat (length l)) with (Nat.leb (n + m) (length l))
         by (destruct (Nat.leb_spec (n + m) (length l)); lia).
  all: destruct (Nat.leb_spec (n + m) (length l)) as [E|E]; [|auto with ne].
  all: apply (agree_both _ _ _ _ _ (Apre E)), agree_both; [split; [exact (Emid E)|auto with ne]|].
  all: replace (Z.of_nat (length l) + - Z.of_nat m) with (Z.of_nat (length l - m)) by lia.
  all: exact (Apost E).
Qed.

Lemma pat_ok_or : forall alts, pats_ok alts -> pat_ok (POr alts).
Proof. intros alts IH s v Hs Ha. exact (proj2 (IH s Hs Ha) v). Qed.

Lemma pat_ok_as : forall q, pat_ok q -> forall x, pat_ok (PAs q x).
Proof.
  intros q IH x s v Hs Ha.
  change (fx || (as_harmless q && as_ok q) = true) in Ha. apply orb_and_split in Ha as [Hh Ha'].
  destruct (IH s v Hs Ha') as [E N]. rewrite cy_eq_as, ref_eq_as, E. split.
  - destruct (pm_ref ct q v) as [b| |e] eqn:R; simpl; try reflexivity.
    now rewrite (as_value_ok q v b Hh R).
  - intro St. apply noerr_both; auto with ne.
Qed.

Lemma pats_ok_nil : pats_ok PNil.
Proof. intros s _ _. split; [intros [|x xs]|intros v]; apply agree_refl; simpl; auto with ne. Qed.

Lemma pats_ok_cons : forall p, pat_ok p -> forall r, pats_ok r -> pats_ok (PCons p r).
Proof.
  intros p IHp r IHr s Hs Ha.
  change (safe ct s p && safe_list ct s r = true) in Hs. apply andb_true_iff in Hs as [Hs1 Hs2].
  change (fx || (as_ok p && as_ok_list r) = true) in Ha. apply orb_and_split in Ha as [Ha1 Ha2].
  destruct (IHr s Hs2 Ha2) as [L1 L2]. split.
  - intros vs. rewrite cy_list_cons, ref_list_cons. destruct vs as [|x xs]; [auto with ne|].
    apply agree_both; [exact (IHp s x Hs1 Ha1)|apply L1].
  - intros v. rewrite cy_alts_cons, ref_alts_cons. apply agree_alts; [exact (IHp s v Hs1 Ha1)|apply L2].
Qed.

(* a sub-pattern under a literal key is tested in source position; one under a value key waits
   for the second pass, which is not observable when neither it nor the rest can raise *)
Lemma msubs_cons : forall k p r v,
  is_litkey k = true \/ (forall x, noerr (cy fx ct p x)) /\ noerr (cy_msubs r v) ->
  cy_msubs (KCons k p r) v =
  match klookup v k with Some x => both (cy fx ct p x) (cy_msubs r v) | None => NoMatch end.
Proof.
  intros k p r v H. unfold cy_msubs in *. rewrite !cy_kp_cons.
  destruct (is_litkey k) eqn:Hl; simpl Bool.eqb; cbv iota.
  - destruct (klookup v k) as [x|]; [|reflexivity].
    destruct (cy fx ct p x) as [b| |e]; simpl; try reflexivity.
    destruct (cy_kp fx ct true r v) as [bl| |e]; simpl; try reflexivity.
    destruct (cy_kp fx ct false r v) as [bv| |e]; simpl; try reflexivity.
    rewrite Hl. reflexivity.
  - destruct H as [H|[Np Nr]]; [discriminate|].
    destruct (cy_kp fx ct true r v) as [bl| |e]; [| |destruct (Nr e eq_refl)]; simpl;
      (destruct (klookup v k) as [x|]; [|reflexivity]);
      (destruct (cy fx ct p x) as [b| |e] eqn:R; [| |destruct (Np x e R)]); simpl; try reflexivity.
    destruct (cy_kp fx ct false r v) as [bv| |e]; simpl; try reflexivity.
    rewrite Hl. reflexivity.
Qed.

Lemma kpats_ok_nil : kpats_ok KNil.
Proof. intros s v _ _. split; [apply agree_refl; simpl; auto with ne | reflexivity]. Qed.

Lemma kpats_ok_cons : forall k p, pat_ok p -> forall r, kpats_ok r -> kpats_ok (KCons k p r).
Proof.
  intros k p IHp r IHr s v Hs Ha.
  change (safe ct s p && safe_kp ct s r = true) in Hs. apply andb_true_iff in Hs as [Hs1 Hs2].
  change (fx || (as_ok p && as_ok_kp r) = true) in Ha. apply orb_and_split in Ha as [Ha1 Ha2].
  destruct (IHr s v Hs2 Ha2) as [K1 K2]. split.
  - rewrite cy_kall_cons, ref_kp_cons. destruct (klookup v k) as [x|]; [|auto with ne].
    apply agree_both; [exact (IHp s x Hs1 Ha1)|exact K1].
  - intros [St|Hv].
    + rewrite msubs_cons, cy_kall_cons, (K2 (or_introl St)); [reflexivity|right]. split.
      * intro x. destruct (IHp s x Hs1 Ha1) as [-> N]. exact (N St).
      * rewrite (K2 (or_introl St)). destruct K1 as [-> N]. exact (N St).
    + change (negb (is_litkey k) || has_valkey (kkeys r) = false) in Hv.
      apply orb_false_iff in Hv as [Hl Hv]. apply negb_false_iff in Hl.
      rewrite msubs_cons, cy_kall_cons, (K2 (or_intror Hv)); [reflexivity|now left].
Qed.

Lemma pat_ok_map : forall items, kpats_ok items -> forall rest, pat_ok (PMap items rest).
Proof.
  intros items IH rest s v Hs Ha.
  change (nodupc (map key_canon (kkeys items)) && safe_kp ct (s || has_valkey (kkeys items)) items = true) in Hs.
  apply andb_true_iff in Hs as [Hnd Hsk]. apply nodupc_NoDup in Hnd.
  change (fx || as_ok_kp items = true) in Ha.
  destruct (IH _ v Hsk Ha) as [K1 K2].
  rewrite cy_eq_map, ref_eq_map, (cy_map_dup_nodup _ Hnd), forallb_sorted,
    (ref_lookups_nodup _ _ _ [] Hnd) by (intros ? ? []).
  destruct (map_items v) as [kvs|]; [|auto with ne].
  destruct (Nat.ltb (length kvs) (klen items)); [auto with ne|].
  destruct (forallb (present v) (kkeys items)); simpl; [|auto with ne].
  rewrite cy_rest_filter, K2 by (destruct (has_valkey (kkeys items)); [left; apply orb_true_r|now right]).
  apply agree_both; [|auto with ne]. apply (agree_mono s _ _ _ (fun St => orb_true_intro _ _ (or_introl St)) K1).
Qed.

Lemma attr_vals_present : forall v pn,
  forallb (fun a => match getattr v a with Some _ => true | None => false end) pn = true ->
  exists vals, attr_vals v pn = Some vals.
Proof.
  intros v. induction pn as [|a r IH]; simpl; intro H; [now exists []|].
  apply andb_true_iff in H as [H1 H2]. destruct (IH H2) as [vals E]. rewrite E.
  destruct (getattr v a) as [x|]; [|discriminate]. now exists (x :: vals).
Qed.

Lemma forallb_present_attr : forall v pn,
  forallb (present v) (map KAttr pn)
  = forallb (fun a => match getattr v a with Some _ => true | None => false end) pn.
Proof. intros v. induction pn as [|a r IH]; simpl; [reflexivity|]. now rewrite IH. Qed.

Lemma cls_vals_0 : forall c v, cls_vals c 0 v (cls_pnames c 0) = Some [].
Proof. intros c v. unfold cls_vals, cls_pnames. destruct (match_self c); reflexivity. Qed.

(* the attributes that were found present are the ones read: no out-of-range outcome *)
Lemma cls_vals_present : forall c np v, forallb (present v) (map KAttr (cls_pnames c np)) = true ->
  exists vals, cls_vals c np v (cls_pnames c np) = Some vals.
Proof.
  intros c np v. unfold cls_vals, cls_pnames. destruct (match_self c); [eauto|].
  rewrite forallb_present_attr. apply attr_vals_present.
Qed.

(* __Pyx_MatchCase_ClassPositional on distinct names: the arity test, then every attribute present *)
Lemma cls_positional : forall c np kws v,
  NoDup (map key_canon (map KAttr (cls_pnames c np) ++ kws)) ->
  match np with
  | O => Ok tt
  | _ =>
      if Nat.ltb (allowed ct c) np then Err ETypeError
      else if match_self c then Ok tt
      else if cy_cls_dup (cls_pnames c np) kws then Err ETypeError
      else if forallb (fun a => match getattr v a with Some _ => true | None => false end) (cls_pnames c np)
           then Ok tt else NoMatch
  end = if Nat.ltb (allowed ct c) np then Err ETypeError
        else if forallb (present v) (map KAttr (cls_pnames c np)) then Ok tt else NoMatch.
Proof.
  intros c np kws v Hnd. rewrite (cy_cls_dup_nodup _ _ Hnd), forallb_present_attr. unfold cls_pnames.
  destruct np; [destruct (match_self c); reflexivity|].
  destruct (Nat.ltb (allowed ct c) (S np)); [reflexivity|]. destruct (match_self c); reflexivity.
Qed.

Lemma pat_ok_class : forall c pos, pats_ok pos -> forall kw, kpats_ok kw -> pat_ok (PClass c pos kw).
Proof.
  intros c pos IHpos kw IHkw s v Hs Ha.
  pose (s' := s || (negb (Nat.eqb (plen pos) 0) && negb (Nat.eqb (klen kw) 0))).
  change (nodupc (map key_canon (map KAttr (cls_pnames c (plen pos)) ++ kkeys kw))
          && (negb s || Nat.leb (plen pos) (allowed ct c))
          && (safe_list ct s' pos && safe_kp ct s' kw) = true) in Hs.
  rewrite !andb_true_iff in Hs. destruct Hs as [[Hnd Hal] [Hsp Hsk]]. apply nodupc_NoDup in Hnd.
  change (fx || (as_ok_list pos && as_ok_kp kw) = true) in Ha. apply orb_and_split in Ha as [Ha1 Ha2].
  destruct (IHpos s' Hsp Ha1) as [L1 _]. destruct (IHkw s' v Hsk Ha2) as [K1 _].
  rewrite cy_eq_class, ref_eq_class. cbv zeta.
  rewrite (cls_positional _ _ _ v Hnd), (ref_lookups_nodup _ _ _ [] Hnd), forallb_app by (intros ? ? []).
  destruct (negb (isinst v c)); [auto with ne|].
  destruct (Nat.ltb_spec (allowed ct c) (plen pos)) as [Hlt|_].
  { (* more positional sub-patterns than allowed: TypeError on both sides, excluded when strict *)
    split; [reflexivity|]. intro St. rewrite St in Hal. apply Nat.leb_le in Hal. lia. }
  destruct (forallb (present v) (map KAttr _)) eqn:F1; simpl; [|auto with ne].
  destruct (forallb (present v) (kkeys kw)); simpl; [|auto with ne].
  destruct (cls_vals_present _ _ _ F1) as [vals E]. rewrite E.
  apply (agree_mono s s'); [intros ->; reflexivity|]. apply agree_swap; [apply L1|exact K1|].
  unfold s'. destruct pos as [|p0 pos0]; [left|right; destruct kw; [left; reflexivity|right; apply orb_true_r]].
  rewrite cls_vals_0 in E. now injection E as <-.
Qed.

Theorem cy_eq_ref :
  (forall p, pat_ok p) /\ (forall ps, pats_ok ps) /\ (forall ks, kpats_ok ks).
Proof.
  apply pat_mutind.
  1-4: unfold pat_ok; intros; apply agree_refl; simpl; auto with ne.
  - intros pre H st post H'. now apply pat_ok_seq.
  - intros items H rest. now apply pat_ok_map.
  - intros c pos H kw H'. now apply pat_ok_class.
  - exact pat_ok_or.
  - exact pat_ok_as.
  - exact pats_ok_nil.
  - exact pats_ok_cons.
  - exact kpats_ok_nil.
  - exact kpats_ok_cons.
Qed.
End MAIN.

(* simple cases are compiled to if-chains (cy_simple) *)
Section TOP.
Variable fx : bool.
Variable ct : ctab.

Lemma simple_nt : forall p v, simple_notarget p = true ->
  cy fx ct p v = if simple_cmp p v then Ok [] else NoMatch.
Proof. intros p v H. destruct p; try discriminate; reflexivity. Qed.

Lemma simple_alts : forall ps v, all_simple_notarget ps = true ->
  cy_alts fx ct ps v = if simple_or ps v then Ok [] else NoMatch.
Proof.
  induction ps as [|p r IH]; intros v H; [reflexivity|].
  change (simple_notarget p && all_simple_notarget r = true) in H. apply andb_true_iff in H as [H1 H2].
  rewrite cy_alts_cons, (simple_nt p v H1). change (simple_or (PCons p r) v) with (simple_cmp p v || simple_or r v).
  destruct (simple_cmp p v); simpl; [reflexivity | now apply IH].
Qed.

Lemma cy_simple_eq : forall p, is_simple p = true -> forall v, cy_simple fx p v = cy fx ct p v.
Proof.
  induction p as [l|l|x| |pre st post|items rest|c pos kw|alts|q IH x]; intros H v; try discriminate; try reflexivity.
  - change (cy fx ct (POr alts) v) with (cy_alts fx ct alts v). rewrite simple_alts by exact H. reflexivity.
  - rewrite cy_eq_as. change (cy_simple fx (PAs q x) v) with (both (cy_simple fx q v) (Ok [(x, as_value fx q v)])).
    now rewrite IH.
Qed.

Lemma run_cases_ext : forall m1 m2 cases v,
  (forall i p g, In (p, g) cases -> m1 i p g v = m2 i p g v) ->
  forall i env gs, run_cases m1 cases v i env gs = run_cases m2 cases v i env gs.
Proof.
  intros m1 m2 cases v. induction cases as [|[p g] r IH]; intros H i env gs; [reflexivity|].
  simpl. rewrite (H i p g) by now left.
  assert (H' : forall i p g, In (p, g) r -> m1 i p g v = m2 i p g v) by (intros; apply H; now right).
  destruct (m2 i p g v); try reflexivity; [|now apply IH].
  destruct (eval_guard g (rev a ++ env)) as [[|]| |]; try reflexivity. now apply IH.
Qed.

Theorem match_eq_gen : forall cases v,
  safe_cases ct cases = true -> fx = true \/ as_ok_cases cases = true ->
  match_cy fx ct cases v = match_ref ct cases v.
Proof.
  intros cases v Hs Ha. unfold match_cy, match_ref. apply run_cases_ext. intros i p g Hin.
  unfold safe_cases in Hs. rewrite forallb_forall in Hs. specialize (Hs _ Hin). simpl in Hs.
  assert (Ha' : fx || as_ok p = true).
  { destruct Ha as [->|Ha]; [reflexivity|]. unfold as_ok_cases in Ha. rewrite forallb_forall in Ha.
    specialize (Ha _ Hin). simpl in Ha. rewrite Ha. apply orb_true_r. }
  destruct (is_simple p && negb (has_guard g)) eqn:E;
    [apply andb_true_iff in E; rewrite (cy_simple_eq p (proj1 E))|];
    exact (proj1 (proj1 (cy_eq_ref fx ct) p false v Hs Ha')).
Qed.

(* on the theorem's domain the boundscheck=False indexing never leaves the sequence: an explicit
   out-of-bounds outcome of the compiled decision structure would be one of pm_ref, which has
   none in its sequence cases *)
End TOP.

Definition from_on (good : nat -> Prop) (i : nat) (l : list nat) : Prop :=
  StronglySorted lt l /\ Forall (fun j => (i <= j)%nat /\ good j) l.

Lemma from_on_nil : forall (good : nat -> Prop) i, from_on good i [].
Proof. split; constructor. Qed.

Lemma from_on_later : forall (good : nat -> Prop) i l, from_on good (S i) l -> from_on good i l.
Proof.
  intros good i l [S F]. split; [exact S|]. eapply Forall_impl; [|exact F].
  intros j [H G]. split; [lia|exact G].
Qed.

Lemma from_on_cons : forall (good : nat -> Prop) i l, good i -> from_on good (S i) l -> from_on good i (i :: l).
Proof.
  intros good i l G H. destruct (from_on_later _ _ _ H) as [S F]. split.
  - constructor; [exact S|]. eapply Forall_impl; [|exact (proj2 H)]. intros j [Hj _]. exact Hj.
  - constructor; [split; [lia|exact G]|exact F].
Qed.

Definition gtrace (r : sres) : list nat :=
  match r with SDone o => o_guards o | SRaise _ g => g end.

(* good: what is to be shown of a recorded index; the k-th of the cases has index i + k *)
Lemma run_cases_guards : forall m (good : nat -> Prop) v cases i env gs,
  (forall k p g b, nth_error cases k = Some (p, g) -> m (i + k)%nat p g v = Ok b ->
                   has_guard g = true -> good (i + k)%nat) ->
  exists new, gtrace (run_cases m cases v i env gs) = rev gs ++ new /\ from_on good i new.
Proof.
  intros m good v. induction cases as [|[p g] r IH]; intros i env gs Hg.
  { exists []. simpl. rewrite app_nil_r. split; [reflexivity|apply from_on_nil]. }
  assert (Hr : forall env gs, exists new,
            gtrace (run_cases m r v (S i) env gs) = rev gs ++ new /\ from_on good (S i) new).
  { intros env' gs'. apply IH. intros k. rewrite Nat.add_succ_comm. apply (Hg (S k)). }
  specialize (Hg 0%nat p g). rewrite Nat.add_0_r in Hg.
  simpl. destruct (m i p g v) as [b| |e].
  - destruct (has_guard g).
    + (* the guard is evaluated: i is recorded *)
      pose proof (Hg b eq_refl eq_refl eq_refl) as G.
      destruct (eval_guard g (rev b ++ env)) as [[|]| |e]; simpl.
      2:{ destruct (Hr (rev b ++ env) (i :: gs)) as [new [E F]]. exists (i :: new).
          rewrite E. simpl. rewrite <- app_assoc. split; [reflexivity|now apply from_on_cons]. }
      all: exists [i]; split; [reflexivity|apply from_on_cons, from_on_nil; exact G].
    + destruct (eval_guard g (rev b ++ env)) as [[|]| |e]; simpl.
      2:{ destruct (Hr (rev b ++ env) gs) as [new [E F]]. exists new.
          split; [exact E|now apply from_on_later]. }
      all: exists []; rewrite app_nil_r; split; [reflexivity|apply from_on_nil].
  - destruct (Hr env gs) as [new [E F]]. exists new. split; [exact E|now apply from_on_later].
  - exists []. rewrite app_nil_r. split; [reflexivity|apply from_on_nil].
Qed.

Theorem guard_order_ref : forall ct cases v,
  let tr := gtrace (match_ref ct cases v) in
  StronglySorted lt tr /\
  Forall (fun j => exists p g b, nth_error cases j = Some (p, g) /\ pm_ref ct p v = Ok b /\ has_guard g = true) tr.
Proof.
  intros ct cases v. unfold match_ref.
  destruct (run_cases_guards (fun _ p _ w => pm_ref ct p w)
              (fun j => exists p g b, nth_error cases j = Some (p, g) /\ pm_ref ct p v = Ok b /\ has_guard g = true)
              v cases O [] []) as [new [E [S F]]].
  { intros k p g b N M G. exists p, g, b. auto. }
  cbv zeta. rewrite E. split; [exact S|].
  eapply Forall_impl; [|exact F]. intros j [_ G]. exact G.
Qed.

(* the refuted classes: witnesses evaluated in Prop/C31.v *)
Definition w_dupmap : list (pat * guard) :=
  [(PMap (KCons (KVal (LInt 1)) (PLit (LInt 1)) (KCons (KVal (LInt 1)) (PLit (LInt 2)) KNil)) None, GNone);
   (PWild, GNone)].

Definition w_ct : ctab := [(0%N, [0%N; 1%N]); (1%N, [0%N])].
Definition w_dupcls : list (pat * guard) :=
  [(PClass (CUser 0) (PCons (PLit (LInt 1)) (PCons (PLit (LInt 2)) PNil)) (KCons (KAttr 1) (PLit (LInt 3)) KNil), GNone);
   (PWild, GNone)].

Definition w_order : list (pat * guard) :=
  [(PClass (CUser 0)
      (PCons (PClass (CUser 1) (PCons (PLit (LInt 1)) (PCons (PLit (LInt 2)) PNil)) KNil) PNil)
      (KCons (KAttr 2) (PLit (LInt 5)) KNil), GNone);
   (PWild, GNone)].
Definition w_order_v : value := VInst 0 [(0%N, VInst 1 [(0%N, VInt 1)]); (2%N, VInt 4)].

Definition w_as : list (pat * guard) := [(PAs (PLit (LInt 1)) 0, GVarEq 0 (LInt 1)); (PWild, GNone)].
