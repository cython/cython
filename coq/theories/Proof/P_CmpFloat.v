(* Proofs for Model/M_CmpFloat.v: the float-int / int-float comparison helpers of
   PyObjectCompare return the exact comparison of the two VALUES (the double as a rational, the
   int as an integer of any size), for every operator, every double, every well-formed CPython
   int, with CYTHON_USE_PYLONG_INTERNALS on and off; no inexact int->double conversion is ever
   made.  Hence the two preprocessor variants agree. *)
From Coq Require Import ZArith List Bool Lia ZifyBool.
From CyVerif Require Import Lib.CInt Lib.PyLong Model.M_CmpInt Proof.P_CmpInt Model.M_CmpFloat.
Import ListNotations.
Open Scope Z_scope.

(* configurations covered: those of the int-int proof, digits convert to double exactly
   (PyLong_SHIFT <= 53), and a long that overflows is at least 2^53 in magnitude (long has 54
   bits or more: LP64).  With a 32-bit long (64-bit Windows) the non-internals variant is WRONG:
   see floatint_long32_refuted below. *)
Definition fcfg_ok (c : fcfg) : Prop :=
  cfg_ok (f_i c) /\ i_sh (f_i c) <= 53 /\ 54 <= f_long c.

Definition dbl_ok (d : dbl) : Prop := dbl_okb d = true.

(* on a finite double the oracles compare the cross-multiplied integers *)
Lemma fop_fin op n k z : fop op (DFin n k) z = zop op n (z * 2 ^ k).
Proof.
  unfold fop, fz_cmp, cop_of.
  destruct op; destruct (Z.compare_spec n (z * 2 ^ k)); cbn [zop]; lia.
Qed.

Lemma zfop_fin op n k z : zfop op z (DFin n k) = zop op (z * 2 ^ k) n.
Proof.
  unfold zfop, zf_cmp, cop_of.
  destruct op; destruct (Z.compare_spec (z * 2 ^ k) n); cbn [zop]; lia.
Qed.

(* comparing with the exactly converted integer is comparing with the integer *)
Lemma dop_int op f z : dop op f (DFin z 0) = fop op f z.
Proof.
  destruct f as [|neg|n k]; [reflexivity|reflexivity|].
  unfold dop, fop, dcmp, fz_cmp. rewrite Z.pow_0_r, Z.mul_1_r. reflexivity.
Qed.

Lemma dop_int_l op f z : dop op (DFin z 0) f = zfop op z f.
Proof.
  destruct f as [|neg|n k]; [reflexivity|reflexivity|].
  unfold dop, zfop, dcmp, zf_cmp. rewrite Z.pow_0_r, Z.mul_1_r. reflexivity.
Qed.

(* CPython just compares inf/nan to 0.0: right for every integer *)
Lemma nonfinite_any op f z : is_finite f = false -> dop op f dzero = fop op f z.
Proof. destruct f; [reflexivity|reflexivity|discriminate]. Qed.

Lemma nonfinite_any_l op f z : is_finite f = false -> dop op dzero f = zfop op z f.
Proof. destruct f; [reflexivity|reflexivity|discriminate]. Qed.

Lemma i2d_exact z : Z.abs z <= 2 ^ 53 -> i2d z = Some (DFin z 0).
Proof. intros H. unfold i2d. destruct (Z.leb_spec (Z.abs z) (2 ^ 53)); [reflexivity|lia]. Qed.

(* the int on the left: the opposite order *)
Lemma zf_fz z f : zf_cmp z f = option_map CompOpp (fz_cmp f z).
Proof.
  destruct f as [|[|]|n k]; try reflexivity. cbn [zf_cmp fz_cmp option_map].
  rewrite <- Z.compare_antisym. reflexivity.
Qed.

Lemma den_pos n k : dbl_ok (DFin n k) -> 0 < 2 ^ k.
Proof. unfold dbl_ok, dbl_okb. intros H. apply Z.pow_pos_nonneg; lia. Qed.

(* every shortcut of the helpers is one of these four: the double lies on one side of an
   integer bound m (a test the C code makes on doubles: dop_int) and the int z on the other *)
Lemma fz_below f m z : dbl_ok f -> fop OpLt f m = true -> m <= z -> fz_cmp f z = Some Lt.
Proof.
  destruct f as [|[|]|n k]; try discriminate; [reflexivity|]. intros Hk.
  rewrite fop_fin. cbn [zop fz_cmp]. intros H Hz. f_equal. apply Z.compare_lt_iff.
  pose proof (den_pos n k Hk). nia.
Qed.

Lemma fz_above f m z : dbl_ok f -> fop OpGt f m = true -> z <= m -> fz_cmp f z = Some Gt.
Proof.
  destruct f as [|[|]|n k]; try discriminate; [reflexivity|]. intros Hk.
  rewrite fop_fin. cbn [zop fz_cmp]. intros H Hz. f_equal. apply Z.compare_gt_iff.
  pose proof (den_pos n k Hk). nia.
Qed.

Lemma fz_ge_above f m z : dbl_ok f -> fop OpGe f m = true -> z < m -> fz_cmp f z = Some Gt.
Proof.
  destruct f as [|[|]|n k]; try discriminate; [reflexivity|]. intros Hk.
  rewrite fop_fin. cbn [zop fz_cmp]. intros H Hz. f_equal. apply Z.compare_gt_iff.
  pose proof (den_pos n k Hk). nia.
Qed.

Lemma fz_notge_below f m z : dbl_ok f -> is_finite f = true -> fop OpGe f m = false -> m <= z ->
  fz_cmp f z = Some Lt.
Proof.
  destruct f as [|[|]|n k]; try discriminate. intros Hk _.
  rewrite fop_fin. cbn [zop fz_cmp]. intros H Hz. f_equal. apply Z.compare_lt_iff.
  pose proof (den_pos n k Hk). nia.
Qed.

(* compact ints: the compact value is the value, below 2^sh in magnitude *)
Lemma compact_true c x : 0 <= i_sh c -> wf (i_sh c) x -> compact c x = true ->
  compact_val c x = value (i_sh c) x /\ - 2 ^ i_sh c < value (i_sh c) x < 2 ^ i_sh c.
Proof.
  intros Hsh (Ok & La & Z0). pose proof (pow2_pos _ Hsh) as Pp.
  unfold compact, compact_val, tag, ssize, signbits, ndigits, value, digit.
  destruct (pl_digits x) as [|d [|d2 r]] eqn:E.
  - rewrite Z0 by reflexivity. cbn [length nth mag]. destruct (i_tag312 c); intros _; case_ifs; lia.
  - unfold digits_ok in Ok. apply Forall_inv in Ok. unfold digit_ok in Ok.
    cbn [length nth mag]. destruct (i_tag312 c), (pl_neg x); intros _; case_ifs; lia.
  - cbn [length]. destruct (i_tag312 c), (pl_neg x); intros H; exfalso; lia.
Qed.

(* non-compact ints: at least 2^sh in magnitude, and __Pyx_PyLong_Sign is the sign *)
Lemma compact_false c x : 0 <= i_sh c -> wf (i_sh c) x -> compact c x = false ->
  (sign_of c x = 1 /\ 2 ^ i_sh c <= value (i_sh c) x) \/
  (sign_of c x = -1 /\ value (i_sh c) x <= - 2 ^ i_sh c).
Proof.
  intros Hsh (Ok & La & Z0). pose proof (pow2_pos _ Hsh) as Pp.
  assert (Hm : (2 <= length (pl_digits x))%nat -> 2 ^ i_sh c <= mag (i_sh c) (pl_digits x)).
  { intros H2. assert (Hn : pl_digits x <> []) by (destruct (pl_digits x); [cbn in H2; lia|congruence]).
    pose proof (mag_ge (i_sh c) _ Hsh Ok Hn La) as G.
    assert (2 ^ (i_sh c * 1) <= 2 ^ (i_sh c * (Z.of_nat (length (pl_digits x)) - 1))).
    { apply Z.pow_le_mono_r; nia. }
    rewrite Z.mul_1_r in H. lia. }
  unfold compact, sign_of, tag, ssize, signbits, ndigits, value in *.
  destruct (pl_digits x) as [|d [|d2 r]] eqn:E.
  - cbn [length]. destruct (i_tag312 c), (pl_neg x); intros H; exfalso; lia.
  - cbn [length]. destruct (i_tag312 c), (pl_neg x); intros H; exfalso; lia.
  - specialize (Hm ltac:(cbn [length]; lia)). cbn [length] in *.
    destruct (i_tag312 c), (pl_neg x); intros _; case_ifs; lia.
Qed.

(* PyLong_AsLongAndOverflow followed by the 2^53 clamp *)
Lemma loo_spec lw v : 54 <= lw ->
  match long_or_overflow lw v with
  | inr i => i = v /\ - 2 ^ 53 < v < 2 ^ 53
  | inl o => (o = 1 /\ 2 ^ 53 <= v) \/ (o = -1 /\ v <= - 2 ^ 53)
  end.
Proof.
  intros Hlw. unfold long_or_overflow.
  pose proof (llong_ovf_spec lw v ltac:(lia)) as L.
  assert (Hp : 2 ^ 53 <= 2 ^ (lw - 1)) by (apply Z.pow_le_mono_r; lia).
  destruct (as_llong_ovf lw v) as [iop ovf]. cbv zeta in L. cbn [fst snd] in L.
  unfold in_range, min_int, max_int in L.
  set (B := 2 ^ 53) in *. set (M := 2 ^ (lw - 1)) in *.
  destruct (Z.eqb_spec ovf 0) as [E0|N0].
  - assert (iop = v) by lia. subst iop.
    destruct (Z.leb_spec B v); [left; lia|].
    destruct (Z.leb_spec v (- B)); [right; lia|]. lia.
  - destruct L as [L|[L|L]]; [lia|right; lia|left; lia].
Qed.

(* the template sets *)
Lemma cop_gt op : cop_of op (Some Gt) = in_negegt op.  Proof. destruct op; reflexivity. Qed.
Lemma cop_lt op : cop_of op (Some Lt) = in_nelelt op.  Proof. destruct op; reflexivity. Qed.
Lemma not_eqlelt op : negb (in_eqlelt op) = in_negegt op.  Proof. destruct op; reflexivity. Qed.
Lemma not_eqgegt op : negb (in_eqgegt op) = in_nelelt op.  Proof. destruct op; reflexivity. Qed.

Theorem floatint_correct c rich op f b :
  fcfg_ok c -> (forall o g z, rich o g z = fop o g z) ->
  dbl_ok f -> wf (i_sh (f_i c)) b ->
  cmp_floatint c rich op f b = Some (fop op f (value (i_sh (f_i c)) b)).
Proof.
  intros (Hc & H53 & Hlw) Hrich Hf Wb. pose proof Hc as (Hsh & _).
  assert (Hsh0 : 0 <= i_sh (f_i c)) by lia.
  pose proof (pow2_pos _ Hsh0) as Pp.
  assert (Hs53 : 2 ^ i_sh (f_i c) <= 2 ^ 53) by (apply Z.pow_le_mono_r; lia).
  unfold cmp_floatint. set (ic := f_i c) in *. set (v := value (i_sh ic) b) in *.
  rewrite Hrich. change (fop op f v) with (cop_of op (fz_cmp f v)).
  unfold dzero, two_sh, neg_two_sh, two53, neg_two53. rewrite !dop_int.
  destruct (i_internals ic).
  - destruct (compact ic b) eqn:C.
    + destruct (compact_true ic b Hsh0 Wb C) as [-> Hv].
      rewrite i2d_exact by lia. cbn [via]. rewrite dop_int. reflexivity.
    + destruct (is_finite f) eqn:Fin; cbn [negb]; [|f_equal; rewrite <- dop_int; apply nonfinite_any, Fin].
      destruct (compact_false ic b Hsh0 Wb C) as [[-> Hv]|[-> Hv]]; fold v in Hv.
      * change (1 <? 0) with false. change (0 <? 1) with true.
        destruct (fop OpGe f 0) eqn:G.
        -- destruct (fop OpLt f (2 ^ i_sh ic)) eqn:L; [|reflexivity].
           rewrite (fz_below f _ v Hf L Hv), cop_lt. reflexivity.
        -- rewrite (fz_notge_below f 0 v Hf Fin G), cop_lt by lia. reflexivity.
      * change (-1 <? 0) with true. change (0 <? -1) with false.
        destruct (fop OpGe f 0) eqn:G.
        -- rewrite (fz_ge_above f 0 v Hf G), cop_gt by lia. reflexivity.
        -- destruct (fop OpGt f (- 2 ^ i_sh ic)) eqn:L; [|reflexivity].
           rewrite (fz_above f _ v Hf L Hv), cop_gt, not_eqlelt. reflexivity.
  - destruct (is_finite f) eqn:Fin; cbn [negb]; [|f_equal; rewrite <- dop_int; apply nonfinite_any, Fin].
    pose proof (loo_spec (f_long c) v Hlw) as L.
    destruct (long_or_overflow (f_long c) v) as [o|i].
    + destruct L as [[-> Hv]|[-> Hv]].
      * change (0 <? 1) with true. cbv iota.
        destruct (fop OpLt f (2 ^ 53)) eqn:G; [|reflexivity].
        rewrite (fz_below f _ v Hf G Hv), cop_lt. reflexivity.
      * change (0 <? -1) with false. cbv iota.
        destruct (fop OpGt f (- 2 ^ 53)) eqn:G; [|reflexivity].
        rewrite (fz_above f _ v Hf G Hv), cop_gt. reflexivity.
    + destruct L as [-> Hv]. rewrite i2d_exact by lia. cbn [via]. rewrite dop_int. reflexivity.
Qed.

Theorem intfloat_correct c rich op a f :
  fcfg_ok c -> (forall o z g, rich o z g = zfop o z g) ->
  dbl_ok f -> wf (i_sh (f_i c)) a ->
  cmp_intfloat c rich op a f = Some (zfop op (value (i_sh (f_i c)) a) f).
Proof.
  intros (Hc & H53 & Hlw) Hrich Hf Wa. pose proof Hc as (Hsh & _).
  assert (Hsh0 : 0 <= i_sh (f_i c)) by lia.
  pose proof (pow2_pos _ Hsh0) as Pp.
  assert (Hs53 : 2 ^ i_sh (f_i c) <= 2 ^ 53) by (apply Z.pow_le_mono_r; lia).
  unfold cmp_intfloat. set (ic := f_i c) in *. set (v := value (i_sh ic) a) in *.
  rewrite Hrich. change (zfop op v f) with (cop_of op (zf_cmp v f)). rewrite zf_fz.
  unfold dzero, two_sh, neg_two_sh, two53, neg_two53. rewrite !dop_int.
  destruct (i_internals ic).
  - destruct (compact ic a) eqn:C.
    + destruct (compact_true ic a Hsh0 Wa C) as [-> Hv].
      rewrite i2d_exact by lia. cbn [via]. rewrite dop_int_l, <- zf_fz. reflexivity.
    + destruct (is_finite f) eqn:Fin; cbn [negb];
        [|rewrite <- zf_fz; f_equal; apply nonfinite_any_l, Fin].
      destruct (compact_false ic a Hsh0 Wa C) as [[-> Hv]|[-> Hv]]; fold v in Hv.
      * change (1 <? 0) with false. change (0 <? 1) with true.
        destruct (fop OpGe f 0) eqn:G.
        -- destruct (fop OpLt f (2 ^ i_sh ic)) eqn:L; [|reflexivity].
           rewrite (fz_below f _ v Hf L Hv). cbn [option_map CompOpp]. rewrite cop_gt. reflexivity.
        -- rewrite (fz_notge_below f 0 v Hf Fin G) by lia. cbn [option_map CompOpp].
           rewrite cop_gt. reflexivity.
      * change (-1 <? 0) with true. change (0 <? -1) with false.
        destruct (fop OpGe f 0) eqn:G.
        -- rewrite (fz_ge_above f 0 v Hf G) by lia. cbn [option_map CompOpp]. rewrite cop_lt. reflexivity.
        -- destruct (fop OpGt f (- 2 ^ i_sh ic)) eqn:L; [|reflexivity].
           rewrite (fz_above f _ v Hf L Hv). cbn [option_map CompOpp].
           rewrite cop_lt, not_eqgegt. reflexivity.
  - destruct (is_finite f) eqn:Fin; cbn [negb]; [|rewrite <- zf_fz; f_equal; apply nonfinite_any_l, Fin].
    pose proof (loo_spec (f_long c) v Hlw) as L.
    destruct (long_or_overflow (f_long c) v) as [o|i].
    + destruct L as [[-> Hv]|[-> Hv]].
      * change (1 <? 0) with false. cbv iota.
        destruct (fop OpLt f (- 2 ^ 53)) eqn:G; [|reflexivity].
        rewrite (fz_below f _ v Hf G) by lia. cbn [option_map CompOpp]. rewrite cop_gt. reflexivity.
      * change (-1 <? 0) with true. cbv iota.
        destruct (fop OpGt f (2 ^ 53)) eqn:G; [|reflexivity].
        rewrite (fz_above f _ v Hf G) by lia. cbn [option_map CompOpp]. rewrite cop_lt. reflexivity.
    + destruct L as [-> Hv]. rewrite i2d_exact by lia. cbn [via]. rewrite dop_int_l, <- zf_fz. reflexivity.
Qed.

(* the two preprocessor variants (and the two struct layouts) agree: each equals the oracle *)
Theorem floatint_variants_agree c1 c2 rich op f b :
  fcfg_ok c1 -> fcfg_ok c2 -> i_sh (f_i c1) = i_sh (f_i c2) ->
  (forall o g z, rich o g z = fop o g z) -> dbl_ok f -> wf (i_sh (f_i c1)) b ->
  cmp_floatint c1 rich op f b = cmp_floatint c2 rich op f b.
Proof.
  intros H1 H2 E Hr Hf Wb. rewrite (floatint_correct c1), (floatint_correct c2); try assumption.
  - rewrite E. reflexivity.
  - rewrite <- E. exact Wb.
Qed.

Theorem intfloat_variants_agree c1 c2 rich op a f :
  fcfg_ok c1 -> fcfg_ok c2 -> i_sh (f_i c1) = i_sh (f_i c2) ->
  (forall o z g, rich o z g = zfop o z g) -> dbl_ok f -> wf (i_sh (f_i c1)) a ->
  cmp_intfloat c1 rich op a f = cmp_intfloat c2 rich op a f.
Proof.
  intros H1 H2 E Hr Hf Wa. rewrite (intfloat_correct c1), (intfloat_correct c2); try assumption.
  - rewrite E. reflexivity.
  - rewrite <- E. exact Wa.
Qed.

(* the int-int helper too (corollary of P_CmpInt.intint_correct) *)
Theorem intint_variants_agree c1 c2 rich op a b :
  cfg_ok c1 -> cfg_ok c2 -> i_sh c1 = i_sh c2 ->
  (forall o x y, rich o x y = zop o x y) -> wf (i_sh c1) a -> wf (i_sh c1) b ->
  cmp_intint c1 rich op a b = cmp_intint c2 rich op a b.
Proof.
  intros H1 H2 E Hr Wa Wb. rewrite (intint_correct c1), (intint_correct c2); try assumption.
  - rewrite E. reflexivity.
  - rewrite <- E. exact Wa.
  - rewrite <- E. exact Wb.
Qed.

(* the dispatcher on exact float / int operands *)
Definition num_ok (sh : Z) (a : num) : Prop :=
  match a with NFloat f => dbl_ok f | NInt x => wf sh x end.

(* the exact order of two numbers, as the six operators see it *)
Definition num_op (sh : Z) (op : cop) (a b : num) : bool :=
  match a, b with
  | NFloat f, NFloat g => dop op f g
  | NFloat f, NInt y => fop op f (value sh y)
  | NInt x, NFloat g => zfop op (value sh x) g
  | NInt x, NInt y => zop op (value sh x) (value sh y)
  end.

Theorem num_correct c rfz rzf rzz op (same : bool) a b :
  fcfg_ok c -> (forall o g z, rfz o g z = fop o g z) -> (forall o z g, rzf o z g = zfop o z g) ->
  (forall o x y, rzz o x y = zop o x y) ->
  num_ok (i_sh (f_i c)) a -> num_ok (i_sh (f_i c)) b ->
  (same = true -> a = b) -> (same = true -> exists x, a = NInt x) ->
  cmp_num c rfz rzf rzz op same a b = Some (num_op (i_sh (f_i c)) op a b).
Proof.
  intros Hc H1 H2 H3 Oa Ob Hs Hi. destruct a as [f|x], b as [g|y]; cbn [cmp_num num_op num_ok] in *.
  - reflexivity.
  - apply floatint_correct; assumption.
  - apply intfloat_correct; assumption.
  - apply exact_correct; try assumption; [apply Hc|].
    intros E. specialize (Hs E). injection Hs as ->. reflexivity.
Qed.

Lemma fcfg_ok_lp64_312 : fcfg_ok f_lp64_312.
Proof. split; [exact cfg_ok_lp64_312|cbn; lia]. Qed.
Lemma fcfg_ok_lp64_311 : fcfg_ok f_lp64_311.
Proof. split; [exact cfg_ok_lp64_311|cbn; lia]. Qed.
Lemma fcfg_ok_lp64_noint : fcfg_ok f_lp64_noint.
Proof. split; [exact cfg_ok_lp64_noint|cbn; lia]. Qed.

(* a 32-bit long (64-bit Windows) breaks the variant without internals: 2^40 overflows long but is
   far below 2^53, so `float_op1 < 2^53` does not imply float < int.   2.0**45 < 2**40 -> True *)
Lemma floatint_long32_refuted :
  exists op f z, dbl_ok f /\
    cmp_floatint f_llp64_noint fop op f (of_Z 30 z) <> Some (fop op f z).
Proof. exists OpLt, (DFin (2 ^ 45) 0), (2 ^ 40). split; [reflexivity|]. vm_compute. discriminate. Qed.
