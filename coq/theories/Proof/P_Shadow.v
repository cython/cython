(* Proofs about Model/M_Shadow.v: Shadow.cdiv / cmod, written with Python's // and %, are C's
   truncating quotient and remainder (through P_CMath.floor_from_trunc). *)
From Coq Require Import ZArith Bool Lia ZifyBool.
From CyVerif Require Import Lib.CInt Model.M_Shadow Proof.P_CMath.
Open Scope Z_scope.

Lemma cdiv_nonneg a b : 0 <= a -> b <> 0 ->
  (if b <? 0 then (a + b + 1) / b else a / b) = Z.quot a b.
Proof.
  intros Ha Hb. destruct (Z.ltb_spec b 0) as [Hneg|Hpos].
  - (* b < 0 *)
    assert (Hq : Z.quot a b = - (a / (- b))).
    { replace b with (- (- b)) at 1 by lia. rewrite Z.quot_opp_r by lia.
      rewrite Z.quot_div_nonneg by lia. reflexivity. }
    rewrite Hq. symmetry.
    pose proof (Z.div_mod a (- b) ltac:(lia)) as E.
    pose proof (Z.mod_pos_bound a (- b) ltac:(lia)) as B.
    apply Z.div_unique with (r := a mod (- b) + b + 1); [right; lia | lia].
  - rewrite Z.quot_div_nonneg by lia. reflexivity.
Qed.

Theorem cdiv_is_trunc a b : b <> 0 -> sh_cdiv a b = Z.quot a b.
Proof.
  intros Hb. unfold sh_cdiv. destruct (Z.ltb_spec a 0) as [Ha|Ha].
  - rewrite cdiv_nonneg by lia. apply Z.quot_opp_opp; exact Hb.
  - apply cdiv_nonneg; assumption.
Qed.

Theorem cmod_is_rem a b : b <> 0 -> sh_cmod a b = Z.rem a b.
Proof.
  intros Hb. unfold sh_cmod. rewrite (proj2 (floor_from_trunc a b Hb)).
  pose proof (rem_between a b Hb) as Hs. pose proof (Z.rem_bound_abs a b Hb) as Hr.
  set (r := Z.rem a b) in *. unfold adj, b2z.
  destruct (Z.eqb_spec r 0) as [->|R0]; cbn [negb andb].
  - now rewrite andb_false_r.
  - (* r has the sign of a: the signs of r and b differ iff a * b < 0 *)
    replace (xorb (r <? 0) (b <? 0)) with (a * b <? 0) by nia.
    destruct (a * b <? 0); cbn [andb]; [|now rewrite Z.add_0_r].
    replace (r + 1 * b =? 0) with false by lia. cbn [negb]. lia.
Qed.
