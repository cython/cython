(* Proofs about Model/M_Freelist.v: with the memset, a step of the allocator does not depend on what
   the freelist holds (step_memset), so every program observes what fresh zeroed allocation
   observes; without it the variants are told apart by a witness program. *)
From Coq Require Import ZArith List Bool Lia ZifyBool.
From CyVerif Require Import Model.M_Freelist.
Import ListNotations.
Open Scope Z_scope.

Lemma sget_sset_eq : forall s j v, sget (sset s j v) j = v.
Proof.
  intros s j. revert s. induction j as [|j IH]; intros [|x r] v; try reflexivity.
  - exact (IH [] v).
  - exact (IH r v).
Qed.

Lemma sget_nil : forall i, sget [] i = None.
Proof. intros [|i]; reflexivity. Qed.

Lemma sget_sset_neq : forall s j i v, i <> j -> sget (sset s j v) i = sget s i.
Proof.
  intros s j. revert s. induction j as [|j IH]; intros [|x r] i v Hne; destruct i as [|i]; try congruence; try reflexivity.
  - destruct i; reflexivity.
  - change (sget (sset [] j v) i = None). rewrite (IH [] i v) by congruence. apply sget_nil.
  - change (sget (sset r j v) i = sget r i). apply IH. congruence.
Qed.

(* ---- with the memset, a new object does not depend on the freelist *)
Lemma alloc_memset_fst : forall c t fl, c_memset c = true -> fst (alloc c t fl) = new_blk (c_nc c) (c_no c).
Proof.
  intros c t fl Hm. unfold alloc, alloc_raw. rewrite Hm.
  destruct (eligible c t); [destruct fl as [|b fl']|]; reflexivity.
Qed.

Lemma step_memset : forall c fl s o, c_memset c = true ->
  let '(_, s1, ob) := step c fl s o in step_ref (c_nc c) (c_no c) s o = (s1, ob).
Proof.
  intros c fl s o Hm. destruct o as [i t|i f v|i f v|i|i]; cbn [step step_ref].
  - pose proof (alloc_memset_fst c t fl Hm) as Ha. destruct (alloc c t fl) as [b fl1]. cbn in Ha. subst b. reflexivity.
  - destruct (sget s i) as [[t b]|]; reflexivity.
  - destruct (sget s i) as [[t b]|]; reflexivity.
  - reflexivity.
  - reflexivity.
Qed.

(* the observations of every program are those of the specification (fresh zero / None objects),
   whatever the freelist holds, whether freelists are enabled, with or without type specs, for every
   freelist size *)
Theorem memset_trace_eq_ref : forall c fl s p, c_memset c = true ->
  trace c fl s p = trace_ref (c_nc c) (c_no c) s p.
Proof.
  intros c fl s p Hm. unfold trace. revert fl s.
  induction p as [|o r IH]; intros fl s; [reflexivity|].
  cbn [run trace_ref].
  pose proof (step_memset c fl s o Hm) as Hs.
  destruct (step c fl s o) as [[fl1 s1] ob]. rewrite Hs.
  specialize (IH fl1 s1). destruct (run c fl1 s1 r) as [tr flz]. cbn [fst] in *.
  destruct ob; rewrite IH; reflexivity.
Qed.

(* two build configurations (freelists on / off, type specs on / off, any freelist
   contents and capacities) of the same class give the same observations *)
Theorem memset_config_independent : forall c1 c2 fl1 fl2 s p,
  c_memset c1 = true -> c_memset c2 = true -> c_nc c1 = c_nc c2 -> c_no c1 = c_no c2 ->
  trace c1 fl1 s p = trace c2 fl2 s p.
Proof.
  intros c1 c2 fl1 fl2 s p H1 H2 Hc Ho.
  rewrite (memset_trace_eq_ref c1 fl1 s p H1), (memset_trace_eq_ref c2 fl2 s p H2), Hc, Ho. reflexivity.
Qed.

(* in particular the first observation of a new object is zero / None *)
Corollary memset_new_object_default : forall c fl s i t,
  c_memset c = true -> trace c fl s [ONew i t; OGet i] = [Some (new_blk (c_nc c) (c_no c))].
Proof.
  intros c fl s i t Hm. rewrite (memset_trace_eq_ref c fl s _ Hm). cbn [trace_ref step_ref].
  rewrite sget_sset_eq. reflexivity.
Qed.

(* ---- without the memset the configurations are distinguishable *)
Theorem nomemset_config_dependent_refuted :
  exists p, trace (mk_cfg true false false 4 1 0) [] [] p <> trace (mk_cfg false false false 4 1 0) [] [] p.
Proof. exists witness_prog. vm_compute. discriminate. Qed.

(* ... and the new object is not the default one *)
Theorem nomemset_new_object_stale_refuted :
  exists fl, trace (mk_cfg true false false 4 1 0) fl [] [ONew 0 TExact; OGet 0]
             <> [Some (new_blk 1 0)].
Proof. exists [{| b_c := [5]; b_o := [] |}]. vm_compute. discriminate. Qed.

(* ---- the object attributes are default in BOTH variants (the initialisation function sets them):
   only C-typed attributes can show the difference *)
Definition same_o (x y : option (tclass * blk)) : Prop :=
  match x, y with
  | None, None => True
  | Some (t1, b1), Some (t2, b2) => t1 = t2 /\ b_o b1 = b_o b2
  | _, _ => False
  end.

Definition store_rel (s1 s2 : store) : Prop := forall i, same_o (sget s1 i) (sget s2 i).

Lemma store_rel_set : forall s1 s2 j v1 v2, store_rel s1 s2 -> same_o v1 v2 ->
  store_rel (sset s1 j v1) (sset s2 j v2).
Proof.
  intros s1 s2 j v1 v2 Hr Hv i. destruct (Nat.eq_dec i j) as [->|Hne].
  - rewrite !sget_sset_eq. exact Hv.
  - rewrite !sget_sset_neq by exact Hne. apply Hr.
Qed.

Lemma alloc_o : forall c t fl, b_o (fst (alloc c t fl)) = repeat 1 (c_no c).
Proof.
  intros c t fl. unfold alloc. destruct (alloc_raw c t fl) as [b fl']. reflexivity.
Qed.

Lemma step_obj : forall c fl s1 s2 o, store_rel s1 s2 ->
  let '(_, s1', ob1) := step c fl s1 o in
  let '(s2', ob2) := step_ref (c_nc c) (c_no c) s2 o in
  store_rel s1' s2' /\ option_map (option_map b_o) ob1 = option_map (option_map b_o) ob2.
Proof.
  intros c fl s1 s2 o Hr. destruct o as [i t|i f v|i f v|i|i]; cbn [step step_ref].
  - pose proof (alloc_o c t fl) as Ha. destruct (alloc c t fl) as [b fl1]. cbn [fst] in Ha. split; [|reflexivity].
    apply store_rel_set; [exact Hr|]. cbn. split; [reflexivity|]. exact Ha.
  - pose proof (Hr i) as Hi. destruct (sget s1 i) as [[t1 b1]|], (sget s2 i) as [[t2 b2]|]; cbn in Hi; try contradiction.
    + split; [|reflexivity]. apply store_rel_set; [exact Hr|]. cbn. exact Hi.
    + split; [exact Hr|reflexivity].
  - pose proof (Hr i) as Hi. destruct (sget s1 i) as [[t1 b1]|], (sget s2 i) as [[t2 b2]|]; cbn in Hi; try contradiction.
    + split; [|reflexivity]. apply store_rel_set; [exact Hr|]. cbn. destruct Hi as [-> ->]. split; reflexivity.
    + split; [exact Hr|reflexivity].
  - split; [|reflexivity]. apply store_rel_set; [exact Hr|]. exact I.
  - split; [exact Hr|]. pose proof (Hr i) as Hi.
    destruct (sget s1 i) as [[t1 b1]|], (sget s2 i) as [[t2 b2]|]; cbn in Hi; try contradiction; cbn.
    + destruct Hi as [_ ->]. reflexivity.
    + reflexivity.
Qed.

Theorem any_variant_object_attributes_default : forall c fl s p,
  obj_part (trace c fl s p) = obj_part (trace_ref (c_nc c) (c_no c) s p).
Proof.
  intros c fl s p. unfold trace.
  assert (G : forall fl s1 s2, store_rel s1 s2 ->
              obj_part (fst (run c fl s1 p)) = obj_part (trace_ref (c_nc c) (c_no c) s2 p)).
  { induction p as [|o r IH]; intros fl0 s1 s2 Hr; [reflexivity|].
    cbn [run trace_ref].
    pose proof (step_obj c fl0 s1 s2 o Hr) as Hs.
    destruct (step c fl0 s1 o) as [[fl1 s1'] ob1].
    destruct (step_ref (c_nc c) (c_no c) s2 o) as [s2' ob2].
    destruct Hs as [Hr' Hob].
    specialize (IH fl1 s1' s2' Hr'). destruct (run c fl1 s1' r) as [tr flz]. cbn [fst] in *.
    destruct ob1 as [x1|], ob2 as [x2|]; cbn in Hob; try discriminate.
    - unfold obj_part in *. cbn [map]. rewrite IH. injection Hob as Hob. rewrite Hob. reflexivity.
    - exact IH. }
  apply G. intro i. destruct (sget s i) as [[t b]|]; cbn; auto.
Qed.

(* ---- the freelist index stays inside the array: freecount <= N (when it starts there) *)
Lemma dealloc_len : forall c t b fl, (length fl <= c_cap c)%nat -> (length (dealloc c t b fl) <= c_cap c)%nat.
Proof.
  intros c t b fl H. unfold dealloc.
  destruct (eligible c t); cbn [andb]; [|exact H].
  destruct (Nat.ltb_spec (length fl) (c_cap c)); cbn [length]; lia.
Qed.

Lemma alloc_len : forall c t fl, (length (snd (alloc c t fl)) <= length fl)%nat.
Proof.
  intros c t fl. unfold alloc, alloc_raw.
  destruct (eligible c t); [destruct fl as [|b fl']|]; cbn; lia.
Qed.

Theorem freecount_bounded : forall c fl s p, (length fl <= c_cap c)%nat ->
  (length (final_freelist c fl s p) <= c_cap c)%nat.
Proof.
  intros c fl s p. unfold final_freelist. revert fl s.
  induction p as [|o r IH]; intros fl s H; [exact H|].
  cbn [run].
  assert (Hs : (length (fst (fst (step c fl s o))) <= c_cap c)%nat).
  { destruct o as [i t|i f v|i f v|i|i]; cbn [step].
    - pose proof (alloc_len c t fl) as Ha. destruct (alloc c t fl) as [b fl1]. cbn [fst snd] in *.
      unfold release. destruct (sget s i) as [[t0 b0]|]; [apply dealloc_len|]; lia.
    - destruct (sget s i) as [[t b]|]; exact H.
    - destruct (sget s i) as [[t b]|]; exact H.
    - cbn [fst]. unfold release. destruct (sget s i) as [[t0 b0]|]; [apply dealloc_len|]; exact H.
    - exact H. }
  destruct (step c fl s o) as [[fl1 s1] ob]. cbn [fst] in Hs.
  specialize (IH fl1 s1 Hs). destruct (run c fl1 s1 r) as [tr flz]. exact IH.
Qed.
