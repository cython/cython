(* P_EvalOrderStmt - C20, statements: (cascaded / unpacking) assignments, augmented assignments and del.
   The code of gen_stmt has the event trace, the leaf sequence and the final variables of ref_stmt. *)
From Coq Require Import List Bool Arith Lia.
From CyVerif Require Import Model.M_CCallMap Model.M_EvalOrder Proof.P_EvalOrder.
Import ListNotations.

Section StmtProofs.
Variable S : sem.
Variable F : flags.

(* machine state vs reference result, relative to the state the statement started in *)
Definition sim (st0 st : state) (sr : sres) : Prop :=
  mvars st = svars sr /\ trace st = trace st0 ++ sev sr /\ leaflog st = leaflog st0 ++ slf sr.

(* code that ran through from the state the statement started in *)
Lemma exec_sim c st st' evs lfs : exec S 0 c st st' evs lfs ->
  run S c st Normal = (st', Normal) /\ sim st st' {| svars := mvars st; sev := evs; slf := lfs |}.
Proof. intros [B (C1 & C2 & C3 & _)]. split; [exact B | split; auto]. Qed.

Theorem del_correct o es st : forallb (eok F) es = true ->
  let '(code, _) := gen_stmt F (SDel o es) 0 in
  exists st', run S code st Normal = (st', Normal) /\ sim st st' (ref_stmt S (mvars st) (SDel o es)).
Proof.
  intros H. simpl. destruct (gens_ok S F es (eoks_ok S F es H) 0) as (code & rs & n1 & -> & _ & _ & _ & _ & R).
  destruct (R st _ eq_refl) as (st1 & X1 & D1).
  destruct (exec_op S n1 st1 n1 o rs (le_n _)) as (v & ev & E & X2). rewrite D1 in E. rewrite E.
  eexists. exact (exec_sim _ _ _ _ _ (exec_snoc S (Nat.le_0_l _) X1 X2)).
Qed.

Definition starget_ok (t : starget) : bool :=
  match t with TName _ => true | TStore _ es => forallb (eok F) es end.
Definition target_ok (t : target) : bool :=
  match t with TS t1 => starget_ok t1 | TTup l => forallb starget_ok l end.

Lemma store1_ok t v n st0 st sr :
  sim st0 st sr -> opok v n -> starget_ok t = true ->
  exists c n', gen_store1 F t v n = (c, n') /\
  n <= n' /\ exists st', run S c st Normal = (st', Normal) /\
    sim st0 st' (ref_store1 S sr t (getop st v)) /\
    (forall u, u < n -> temps st' u = temps st u) /\
    getop st' v = getop st v /\
    (forall x, (forall y, t = TName y -> x <> y) -> mvars st' x = mvars st x).
Proof.
  intros (V & T & L) Ov Ok. destruct t as [x|o es]; simpl.
  - do 2 eexists. split; [reflexivity|]. split; [lia|]. eexists. split; [reflexivity|]. simpl.
    split; [|split; [auto|split]].
    + unfold sim. simpl. rewrite V. auto.
    + destruct v; simpl; auto. unfold upd. destruct (Nat.eqb_spec x0 x); subst; auto.
    + intros y Hy. unfold upd. destruct (Nat.eqb_spec y x); auto. subst. exfalso. apply (Hy x); auto.
  - destruct (gens_ok S F es (eoks_ok S F es Ok) n) as (code & rs & n1 & -> & A & _ & _ & _ & R).
    do 2 eexists. split; [reflexivity|]. split; [lia|].
    destruct (R st _ eq_refl) as (st1 & X1 & D1).
    destruct (exec_op S n1 st1 n1 o (rs ++ [v]) (le_n _)) as (w & ev & E & X2).
    rewrite map_app, D1 in E. cbn [map] in E. rewrite (exec_getop S v X1 Ov) in E.
    pose proof (exec_snoc S A X1 X2) as Y. pose proof (exec_getop S v Y Ov) as Gv.
    destruct Y as [B (C1 & C2 & C3 & C4)].
    eexists. split; [exact B|]. rewrite <- V, E.
    split; [|split; [|split; [exact Gv|]]].
    + unfold sim. cbn [svars sev slf]. rewrite C1, C2, C3, T, L, <- !app_assoc. auto.
    + intros u Hu. apply C4; [exact Hu | discriminate].
    + intros x _. rewrite C1. reflexivity.
Qed.

Lemma set_temps_spec : forall k f t0 vs,
  (forall u, u < t0 -> set_temps f t0 vs k u = f u) /\
  (forall i, i < k -> set_temps f t0 vs k (t0 + i) = nth i vs VNone).
Proof.
  induction k as [|k IH]; intros f t0 vs; simpl; [split; [auto | intros; lia]|].
  destruct (IH (upd f t0 (hd VNone vs)) (Datatypes.S t0) (tl vs)) as [A B]. split.
  - intros u Hu. rewrite A by lia. unfold upd. destruct (Nat.eqb_spec u t0); [lia | auto].
  - intros [|i] Hi.
    + rewrite Nat.add_0_r, A by lia. unfold upd. rewrite Nat.eqb_refl. destruct vs; reflexivity.
    + replace (t0 + Datatypes.S i) with (Datatypes.S t0 + i) by lia. rewrite B by lia.
      destruct vs; simpl; [destruct i; reflexivity | reflexivity].
Qed.

Lemma store_items_ok : forall ts t0 n vs st0 st sr,
  sim st0 st sr -> t0 + length ts <= n ->
  (forall i, i < length ts -> temps st (t0 + i) = nth i vs VNone) ->
  forallb starget_ok ts = true ->
  exists c n', gen_store_items F ts t0 n = (c, n') /\
  n <= n' /\ exists st', run S c st Normal = (st', Normal) /\
    sim st0 st' (ref_store_items S sr ts vs) /\
    (forall u, u < n -> temps st' u = temps st u) /\
    (forall x, (forall y, In (TName y) ts -> x <> y) -> mvars st' x = mvars st x).
Proof.
  induction ts as [|t ts IH]; intros t0 n vs st0 st sr Hs Hn Hv Ok; simpl.
  - do 2 eexists. split; [reflexivity|]. split; [lia|]. exists st. auto.
  - simpl in Ok. apply andb_true_iff in Ok. destruct Ok as [Ok1 Ok2]. simpl in Hn.
    destruct (store1_ok t (OTemp t0) n st0 st sr Hs ltac:(simpl; lia) Ok1)
      as (c1 & n1 & -> & A1 & st1 & B1 & C1 & D1 & _ & E1).
    assert (Hv1 : forall i, i < length ts -> temps st1 (Datatypes.S t0 + i) = nth i (tl vs) VNone).
    { intros i Hi. rewrite D1 by lia. replace (Datatypes.S t0 + i) with (t0 + Datatypes.S i) by lia.
      rewrite Hv by (simpl; lia). destruct vs; simpl; [destruct i; reflexivity | reflexivity]. }
    assert (H0 : getop st (OTemp t0) = hd VNone vs).
    { simpl. pose proof (Hv 0 ltac:(simpl; lia)) as X. rewrite Nat.add_0_r in X. rewrite X. destruct vs; reflexivity. }
    rewrite H0 in C1.
    destruct (IH (Datatypes.S t0) n1 (tl vs) st0 st1 _ C1 ltac:(lia) Hv1 Ok2)
      as (c2 & n2 & -> & A2 & st2 & B2 & C2 & D2 & E2).
    do 2 eexists. split; [reflexivity|]. split; [lia|].
    exists st2. rewrite run_app, B1. split; [exact B2|]. split; [exact C2|]. split.
    + intros u Hu. rewrite D2 by lia. apply D1. auto.
    + intros x Hx. rewrite E2 by (intros y Hy; apply Hx; right; auto).
      apply E1. intros y ->. apply Hx. left; auto.
Qed.

(* the value operand is not a variable that the tuple target assigns *)
Definition tsafe (v : operand) (t : target) : bool :=
  match v, t with
  | OVar x, TTup l => forallb (fun s => match s with TName y => negb (Nat.eqb x y) | _ => true end) l
  | _, _ => true
  end.

Lemma store_ok t v n st0 st sr :
  sim st0 st sr -> opok v n -> target_ok t = true -> tsafe v t = true ->
  exists c n', gen_store F t v n = (c, n') /\
  n <= n' /\ exists st', run S c st Normal = (st', Normal) /\
    sim st0 st' (ref_store S sr t (getop st v)) /\
    (forall u, u < n -> temps st' u = temps st u) /\ getop st' v = getop st v.
Proof.
  intros Hs Ov Ok Sf. destruct t as [t1|ts]; simpl.
  - destruct (store1_ok t1 v n st0 st sr Hs Ov Ok) as (c & n' & -> & A & st' & B & C & D & E & _).
    do 2 eexists. split; [reflexivity|]. split; [auto|]. exists st'. auto.
  - simpl in Ok. destruct Hs as (V & T & L).
    destruct (unpacksem S (length ts) (getop st v)) as [vs ev] eqn:U.
    set (st1 := {| temps := set_temps (temps st) n vs (length ts); mvars := mvars st;
                   trace := trace st ++ ev; leaflog := leaflog st |}).
    destruct (set_temps_spec (length ts) (temps st) n vs) as [P1 P2].
    assert (Hs1 : sim st0 st1 {| svars := svars sr; sev := sev sr ++ ev; slf := slf sr |}).
    { unfold sim. simpl. rewrite V, T, L, app_assoc. auto. }
    destruct (store_items_ok ts n (n + length ts) vs st0 st1 _ Hs1 ltac:(lia) P2 Ok)
      as (c & n1 & -> & A & st2 & B & C & D & E).
    do 2 eexists. split; [reflexivity|]. split; [lia|].
    exists st2. simpl run. rewrite U. fold st1. split; [exact B|]. split; [exact C|]. split.
    + intros u Hu. rewrite D by lia. simpl. apply P1. auto.
    + destruct v as [t|x|]; simpl in *; auto.
      * rewrite D by lia. apply P1. auto.
      * rewrite E; auto. intros y Hy Exy. subst y. rewrite forallb_forall in Sf.
        specialize (Sf _ Hy). simpl in Sf. rewrite Nat.eqb_refl in Sf. discriminate.
Qed.

Lemma stores_ok : forall ts v n st0 st sr,
  sim st0 st sr -> opok v n -> forallb target_ok ts = true -> forallb (tsafe v) ts = true ->
  exists c n', gen_stores F ts v n = (c, n') /\
  n <= n' /\ exists st', run S c st Normal = (st', Normal) /\ sim st0 st' (ref_stores S sr ts (getop st v)).
Proof.
  induction ts as [|t ts IH]; intros v n st0 st sr Hs Ov Ok Sf; simpl.
  - do 2 eexists. split; [reflexivity|]. split; [lia|]. exists st. auto.
  - simpl in Ok, Sf. apply andb_true_iff in Ok. destruct Ok as [Ok1 Ok2].
    apply andb_true_iff in Sf. destruct Sf as [Sf1 Sf2].
    destruct (store_ok t v n st0 st sr Hs Ov Ok1 Sf1) as (c1 & n1 & -> & A1 & st1 & B1 & C1 & D1 & E1).
    destruct (IH v n1 st0 st1 _ C1 ltac:(eapply opok_weak; eauto) Ok2 Sf2) as (c2 & n2 & -> & A2 & st2 & B2 & C2).
    do 2 eexists. split; [reflexivity|]. split; [lia|].
    exists st2. rewrite run_app, B1. split; [exact B2|]. rewrite E1 in C2. exact C2.
Qed.

(* targets left to right, every target once *)
Theorem assign_correct ts rhs st :
  eok F rhs = true -> forallb target_ok ts = true ->
  (let '(_, v, _) := gen F CVal rhs 0 in forallb (tsafe v) ts = true) ->
  fx_cascade F = true \/ flattens ts rhs = None ->
  let '(code, _) := gen_stmt F (SAssign ts rhs) 0 in
  exists st', run S code st Normal = (st', Normal) /\ sim st st' (ref_stmt S (mvars st) (SAssign ts rhs)).
Proof.
  intros Ok Okt Sf Hf. simpl gen_stmt.
  assert (E : (if fx_cascade F then None else flattens ts rhs) = None).
  { destruct Hf as [->| ->]; [reflexivity | destruct (fx_cascade F); reflexivity]. }
  rewrite E. destruct (gen_val S F rhs 0 (gen_correct S F rhs Ok)) as (c1 & v & n1 & Eg & _ & _ & Ov & _ & R).
  rewrite Eg in Sf |- *. destruct (R st _ eq_refl) as (st1 & X1 & D1). destruct (exec_sim _ _ _ _ _ X1) as [B1 Hs].
  destruct (stores_ok ts v n1 st st1 _ Hs Ov Okt Sf) as (c2 & n2 & -> & A2 & st2 & B2 & C).
  exists st2. rewrite run_app, B1. split; [exact B2|]. simpl ref_stmt. rewrite <- D1. exact C.
Qed.

Definition rsimple (r : rexpr) (n : nat) : Prop :=
  match r with RVar _ => True | RTemp t => t < n | _ => False end.
Definition rop (r : rexpr) : operand :=
  match r with RVar x => OVar x | RTemp t => OTemp t | _ => ONoneC end.

Lemma gen_rexpr_simple r n k : rsimple r n -> gen_rexpr r k = ([], rop r, k).
Proof. destruct r; simpl; intros H; try contradiction; reflexivity. Qed.

Lemma rop_ok r n : rsimple r n -> opok (rop r) n.
Proof. destruct r; simpl; auto. Qed.

Lemma let_temp_ok e n : eok F e = true ->
  exists c r n1, let_temp F e n = (c, r, n1) /\ n <= n1 /\ rsimple r n1 /\
  forall st vars, mvars st = vars -> exists st', let rr := eval S vars MVal e in
    exec S n c st st' (rev rr) (rlf rr) /\ getop st' (rop r) = rv rr.
Proof.
  intros Ok. unfold let_temp.
  destruct (gen_val S F e n (gen_correct S F e Ok)) as (c & ro & n1 & -> & A & _ & Ov & _ & R).
  destruct ro as [t|x|]; [do 3 eexists; split; [reflexivity|]; split; [exact A|]; split; [exact Ov | exact R]| |].
  all: do 3 eexists; split; [reflexivity|]; split; [lia|]; split; [simpl; lia|];
    intros st vars V; destruct (R st vars V) as (st1 & X & D); eexists;
    (split; [exact (exec_snoc0 S A X (exec_move S n1 st1 n1 _ (le_n _))) | cbn [rop getop]; rewrite set_temp_same; exact D]).
Qed.

Lemma sefr_false_eq e n :
  sefr F false e n = match e with EName x => ([], RVar x, n) | _ => let_temp F e n end.
Proof.
  destruct e; try reflexivity. destruct o; try reflexivity;
    destruct es as [|? [|? [|? ?]]]; reflexivity.
Qed.

Lemma sefr_false_ok e n : eok F e = true ->
  exists c r n1, sefr F false e n = (c, r, n1) /\ n <= n1 /\ rsimple r n1 /\
  forall st vars, mvars st = vars -> exists st', let rr := eval S vars MVal e in
    exec S n c st st' (rev rr) (rlf rr) /\ getop st' (rop r) = rv rr.
Proof.
  intros Ok. rewrite sefr_false_eq.
  destruct e; try (apply let_temp_ok; exact Ok).
  do 3 eexists. split; [reflexivity|]. split; [lia|]. split; [exact I|]. intros st vars <-. exists st.
  split; [apply exec_nil | reflexivity].
Qed.

Definition aug_ok (lhs rhs : expr) : bool :=
  match lhs with
  | EName _ => eok F rhs
  | EOp OGetItem [b; i] => eok F b && eok F i && eok F rhs
  | EOp (OGetAttr _) [o] => fx_inplace F && eok F o && eok F rhs
  | _ => false
  end.

(* read - modify - write on a reference whose operands ops (object; object and index) have been evaluated by c0:
   the operands are read again for the store, unchanged by the right-hand side *)
Lemma rmw_ok rd wr iop rhs c0 ops n st st0 evs0 lfs0 :
  eok F rhs = true -> exec S 0 c0 st st0 evs0 lfs0 -> Forall (fun o => opok o n) ops ->
  exists cr r w, gen F CVal rhs (Datatypes.S n) = (cr, r, w) /\
  exists cur ev1 new ev2 u ev3 st',
    let vs := map (getop st0) ops in
    let rr := eval S (mvars st) MVal rhs in
    opsem S rd vs = (cur, ev1) /\ opsem S iop [cur; rv rr] = (new, ev2) /\ opsem S wr (vs ++ [new]) = (u, ev3) /\
    exec S 0 (c0 ++ [IOp n rd ops] ++ cr ++ [IOp w iop [OTemp n; r]; IOp (Datatypes.S w) wr (ops ++ [OTemp w])])
         st st' (evs0 ++ ev1 ++ rev rr ++ ev2 ++ ev3) (lfs0 ++ rlf rr).
Proof.
  intros Ok X0 Hops.
  destruct (gen_val S F rhs (Datatypes.S n) (gen_correct S F rhs Ok)) as (cr & r & w & -> & A & _ & Or & _ & R).
  do 3 eexists. split; [reflexivity|].
  destruct (exec_op S n st0 n rd ops (le_n _)) as (cur & ev1 & E1 & X1).
  destruct (R (set_temp st0 n cur ev1) (mvars st)) as (st2 & X2 & D2); [exact (exec_vars S X0)|].
  destruct (exec_op S w st2 w iop [OTemp n; r] (le_n _)) as (new & ev2 & E2 & X3).
  cbn [map] in E2. rewrite (exec_getop S (OTemp n) X2), D2 in E2 by (simpl; lia).
  cbn [getop] in E2. rewrite set_temp_same in E2.
  destruct (exec_op S (Datatypes.S w) (set_temp st2 w new ev2) (Datatypes.S w) wr (ops ++ [OTemp w]) (le_n _))
    as (u & ev3 & E3 & X4).
  rewrite map_app in E3. cbn [map getop] in E3. rewrite set_temp_same in E3.
  rewrite (exec_getops S ops X3), (exec_getops S ops X2), (exec_getops S ops X1) in E3;
    try (eapply Forall_impl; [|exact Hops]; intros o Ho; eapply opok_weak; [exact Ho | lia]).
  exists cur, ev1, new, ev2, u, ev3. eexists. cbv zeta. do 3 (split; [assumption|]).
  refine (exec_app S (Nat.le_0_l _) X0 (exec_app S _ X1 (exec_snoc S _ X2 (exec_snoc S _ X3 X4)))); lia.
Qed.

Theorem aug_correct lhs iop rhs st :
  aug_ok lhs rhs = true ->
  let '(code, _) := gen_stmt F (SAug lhs iop rhs) 0 in
  exists st', run S code st Normal = (st', Normal) /\ sim st st' (ref_stmt S (mvars st) (SAug lhs iop rhs)).
Proof.
  intros Ok. destruct lhs as [| x | | o es | | | | | | | |]; try discriminate.
  - (* x op= rhs *)
    simpl in Ok. simpl gen_stmt.
    destruct (gen_val S F rhs 0 (gen_correct S F rhs Ok)) as (c1 & v & n1 & -> & _ & _ & _ & _ & R).
    destruct (R st _ eq_refl) as (st1 & X1 & D1).
    destruct (exec_op S n1 st1 n1 iop [OVar x; v] (le_n _)) as (w & ev & E & X2).
    cbn [map getop] in E. rewrite D1, (exec_vars S X1) in E.
    destruct (exec_sim _ _ _ _ _ (exec_snoc S (Nat.le_0_l _) X1 X2)) as [B (V & T & L)].
    change [IOp n1 iop [OVar x; v]; IStore x (OTemp n1)] with ([IOp n1 iop [OVar x; v]] ++ [IStore x (OTemp n1)]).
    rewrite app_assoc, run_app, B. eexists. split; [reflexivity|].
    unfold sim. cbn [mvars trace leaflog getop ref_stmt]. rewrite E, set_temp_same, V, T, L. auto.
  - destruct o; try discriminate.
    + (* b[i] op= rhs *)
      destruct es as [|b [|i [|? ?]]]; try discriminate. simpl in Ok.
      apply andb_true_iff in Ok. destruct Ok as [Ok Okr]. apply andb_true_iff in Ok. destruct Ok as [Okb Oki].
      unfold gen_stmt. cbn [sefr].
      destruct (sefr_false_ok b 0 Okb) as (cb & rb & n1 & -> & Ab & Sb & Rb).
      destruct (let_temp_ok i n1 Oki) as (ci & ri & n2 & -> & Ai & Si & Ri).
      pose proof (rop_ok _ _ Sb) as Ob. pose proof (rop_ok _ _ Si) as Oi.
      assert (Sb2 : rsimple rb n2) by (destruct rb; simpl in *; auto; lia).
      destruct (Rb st _ eq_refl) as (st1 & X1 & D1).
      destruct (Ri st1 _ (exec_vars S X1)) as (st2 & X2 & D2).
      destruct (rmw_ok OGetItem OSetItem iop rhs (cb ++ ci) [rop rb; rop ri] n2 st st2 _ _ Okr
                  (exec_app S (Nat.le_0_l _) X1 X2))
        as (cr & r & w & Eg & cur & ev1 & new & ev2 & u & ev3 & st' & E1 & E2 & E3 & X).
      { repeat constructor; [eapply opok_weak; eauto | exact Oi]. }
      cbn [gen_rexpr]. rewrite !(gen_rexpr_simple rb n2), !(gen_rexpr_simple ri n2), Eg by assumption.
      rewrite !(gen_rexpr_simple rb n2), !(gen_rexpr_simple ri n2) by assumption. cbn [app].
      cbn [map app] in E1, E3. rewrite (exec_getop S (rop rb) X2 Ob), D1, D2 in E1, E3.
      simpl ref_stmt. rewrite E1, E2, E3. exists st'. apply exec_sim in X. rewrite <- !app_assoc in *. exact X.
    + (* o.a op= rhs *)
      destruct es as [|ob [|? ?]]; try discriminate. simpl in Ok.
      apply andb_true_iff in Ok. destruct Ok as [Ok Okr]. apply andb_true_iff in Ok. destruct Ok as [Fi Oko].
      unfold gen_stmt. cbn [sefr]. rewrite Fi. cbn [negb].
      destruct (sefr_false_ok ob 0 Oko) as (cb & rb & n1 & -> & Ab & Sb & Rb).
      destruct (Rb st _ eq_refl) as (st1 & X1 & D1).
      destruct (rmw_ok (OGetAttr a) (OSetAttr a) iop rhs cb [rop rb] n1 st st1 _ _ Okr X1)
        as (cr & r & w & Eg & cur & ev1 & new & ev2 & u & ev3 & st' & E1 & E2 & E3 & X).
      { repeat constructor. apply rop_ok. exact Sb. }
      cbn [gen_rexpr]. rewrite !(gen_rexpr_simple rb n1), Eg by assumption.
      rewrite ?(gen_rexpr_simple rb n1) by assumption. cbn [app].
      cbn [map app] in E1, E3. rewrite D1 in E1, E3.
      simpl ref_stmt. rewrite E1, E2, E3. exists st'. exact (exec_sim _ _ _ _ _ X).
Qed.

Definition stmt_ok (s : stmt) : bool :=
  match s with
  | SAssign ts rhs =>
      eok F rhs && forallb target_ok ts &&
      (let '(_, v, _) := gen F CVal rhs 0 in forallb (tsafe v) ts) &&
      (fx_cascade F || match flattens ts rhs with None => true | Some _ => false end)
  | SAug lhs _ rhs => aug_ok lhs rhs
  | SDel _ es => forallb (eok F) es
  end.

Theorem stmt_correct s st : stmt_ok s = true ->
  let '(code, _) := gen_stmt F s 0 in
  exists st', run S code st Normal = (st', Normal) /\ sim st st' (ref_stmt S (mvars st) s).
Proof.
  destruct s as [ts rhs|lhs iop rhs|o es]; intros Ok;
    [|exact (aug_correct _ _ _ st Ok) | exact (del_correct o es st Ok)].
  apply andb_prop in Ok. destruct Ok as [[[Oke Okt]%andb_prop Sf]%andb_prop Hf%orb_prop].
  apply assign_correct; auto.
  - destruct (gen F CVal rhs 0) as [[c v] n]. exact Sf.
  - destruct Hf as [Hf|Hf]; [left; exact Hf | right]. destruct (flattens ts rhs); [discriminate | reflexivity].
Qed.

End StmtProofs.
