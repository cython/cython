(* Proofs about Model/M_TraceGen.v: every completed segment of every run of every function is
   "start, kids and lines, one end"; hence the word of any execution tree is the event sequence
   of an M_Trace call tree and P_Trace applies. *)
From Coq Require Import List Bool Arith Lia.
From CyVerif Require Import Model.M_Trace Proof.P_Trace Model.M_TraceGen.
Import ListNotations.

(* token discipline as an automaton *)
Inductive st := Open | Closed | Done.

Definition step (s : st) (t : tok) : option st :=
  match s, t with
  | Closed, TStart _ => Some Open
  | Open, TKid => Some Open
  | Open, TLine => Some Open
  | Open, TYield => Some Closed
  | Open, TRet => Some Done
  | Open, TUnwind => Some Done
  | _, _ => None
  end.

Fixpoint steps (s : st) (l : list tok) : option st :=
  match l with
  | [] => Some s
  | t :: r => match step s t with Some s' => steps s' r | None => None end
  end.

Lemma steps_app : forall a b s s1,
  steps s a = Some s1 -> steps s (a ++ b) = steps s1 b.
Proof.
  induction a as [|t a IH]; intros b s s1 H; simpl in *.
  - injection H as <-. reflexivity.
  - destruct (step s t) as [s'|]; [|discriminate]. eapply IH; eassumption.
Qed.

Lemma steps_kids : forall c, steps Open (call_part c) = Some Open.
Proof. intros c. unfold call_part. induction (c_kids c); simpl; auto. Qed.

Definition st_of (o : outcome) : st :=
  match o with OReturn false => Done | OAbandon => Closed | _ => Open end.

(* what one execution of a statement / block / loop guarantees, started in state Open *)
Definition inv (fx : bool) (d : nat) (r : list tok * outcome * list choice) : Prop :=
  steps Open (fst (fst r)) = Some (st_of (snd (fst r))) /\
  (snd (fst r) = OReturn false -> d = 0) /\
  (snd (fst r) = OReturn true -> fx = true).

Lemma inv_intro : forall fx d t out o,
  steps Open t = Some (st_of out) -> (out = OReturn false -> d = 0) ->
  (out = OReturn true -> fx = true) -> inv fx d (t, out, o).
Proof. intros. unfold inv; simpl. auto. Qed.

Lemma steps_line : forall t s, steps Open t = Some s -> steps Open (TLine :: t) = Some s.
Proof. intros; simpl; assumption. Qed.

Lemma or_andb : forall (P : Prop) a b, P \/ a && b = true -> (P \/ a = true) /\ (P \/ b = true).
Proof. intros P a b [H|H]; [tauto|]. apply andb_true_iff in H. tauto. Qed.

(* exec_s / exec_b / exec_l as one function of a command, and its graph: one constructor per way a
   result comes about, the results of the parts as premises.  What holds of every run is shown by
   induction on the graph (runs_inv, runs_term, runs_no_yield). *)
Inductive cmd := CS (s : stmt) | CB (b : block) | CL (body els : block).

Definition leaf (s : stmt) : bool :=
  match s with SExpr | SRaise | SReturn | SYield => true | _ => false end.

Section Runs.
Variables fx gen : bool.

Definition exec (n d : nat) (c : cmd) (o : list choice) : list tok * outcome * list choice :=
  match c with
  | CS s => exec_s fx gen n d s o
  | CB b => exec_b fx gen n d b o
  | CL body els => exec_l fx gen n d body els o
  end.

Inductive runs : nat -> cmd -> list choice -> list tok -> outcome -> list choice -> Prop :=
| R_fuel d c o : runs d c o [] OStuck o
  (* a statement without sub-blocks does not look at the fuel *)
| R_leaf d s o : leaf s = true ->
    let x := exec_s fx gen 1 d s o in runs d (CS s) o (fst (fst x)) (snd (fst x)) (snd x)
| R_if_stuck d a b : runs d (CS (SIf a b)) [] [TLine] OStuck []
| R_if_raise d a b c o k : c_exc c = Some k ->
    runs d (CS (SIf a b)) (c :: o) (TLine :: call_part c) (ORaise k) o
| R_if d a b c o t out r : c_exc c = None -> runs d (CB (if c_go c then a else b)) o t out r ->
    runs d (CS (SIf a b)) (c :: o) (TLine :: call_part c ++ t) out r
| R_loop d body els o t out r : runs d (CL body els) o t out r ->
    runs d (CS (SLoop body els)) o (TLine :: t) out r
| R_try d body h o t1 o1 r1 : runs d (CB body) o t1 o1 r1 -> o1 <> ORaise true ->
    runs d (CS (STry body h)) o (TLine :: t1) o1 r1
| R_try_h d body h o t1 r1 t2 o2 r2 : runs d (CB body) o t1 (ORaise true) r1 -> runs d (CB h) r1 t2 o2 r2 ->
    runs d (CS (STry body h)) o (TLine :: t1 ++ t2) o2 r2
| R_fin_stop d body fin o t1 o1 r1 : runs (S d) (CB body) o t1 o1 r1 -> is_stop o1 = true ->
    runs d (CS (SFin body fin)) o (TLine :: t1) o1 r1
| R_fin d body fin o t1 o1 r1 t2 o2 r2 : runs (S d) (CB body) o t1 o1 r1 -> is_stop o1 = false ->
    runs d (CB fin) r1 t2 o2 r2 ->
    runs d (CS (SFin body fin)) o (TLine :: t1 ++ t2) (match o2 with ONormal => o1 | _ => o2 end) r2
| R_nil d o : runs d (CB BNil) o [] ONormal o
| R_cons_stop d s b o t1 o1 r1 : runs d (CS s) o t1 o1 r1 -> o1 <> ONormal ->
    runs d (CB (BCons s b)) o t1 o1 r1
| R_cons d s b o t1 r1 t2 o2 r2 : runs d (CS s) o t1 ONormal r1 -> runs d (CB b) r1 t2 o2 r2 ->
    runs d (CB (BCons s b)) o (t1 ++ t2) o2 r2
| R_it_raise d body els c o k : c_exc c = Some k -> runs d (CL body els) (c :: o) (call_part c) (ORaise k) o
| R_it_else d body els c o t out r : c_exc c = None -> c_go c = false -> runs d (CB els) o t out r ->
    runs d (CL body els) (c :: o) (call_part c ++ t) out r
| R_it_stop d body els c o t1 o1 r1 : c_exc c = None -> c_go c = true ->
    runs d (CB body) o t1 o1 r1 -> o1 <> ONormal ->
    runs d (CL body els) (c :: o) (call_part c ++ t1) o1 r1
| R_it_next d body els c o t1 r1 t2 o2 r2 : c_exc c = None -> c_go c = true ->
    runs d (CB body) o t1 ONormal r1 -> runs d (CL body els) r1 t2 o2 r2 ->
    runs d (CL body els) (c :: o) (call_part c ++ t1 ++ t2) o2 r2.

Definition is_run d c o (x : list tok * outcome * list choice) : Prop :=
  runs d c o (fst (fst x)) (snd (fst x)) (snd x).

Lemma exec_runs : forall n d c o, is_run d c o (exec n d c o).
Proof.
  induction n as [|n IH]; intros d c o; [destruct c; apply R_fuel|].
  (* a recursive call: its result is some run *)
  assert (sub : forall d c o (Q : list tok * outcome * list choice -> Prop),
            (forall t out r, runs d c o t out r -> Q (t, out, r)) -> Q (exec n d c o)).
  { intros d' c' o' Q K. specialize (IH d' c' o'). destruct (exec n d' c' o') as [[t out] r]. apply K, IH. }
  pose proof (fun d s => sub d (CS s)) as sub_s. pose proof (fun d b => sub d (CB b)) as sub_b.
  pose proof (fun d body els => sub d (CL body els)) as sub_l. cbn [exec] in sub_s, sub_b, sub_l.
  destruct c as [s|b|body els]; cbn [exec].
  - destruct s; try (apply R_leaf; reflexivity); cbn [exec_s].
    + (* SIf *)
      destruct o as [|c o]; [apply R_if_stuck|].
      destruct (c_exc c) eqn:X; [apply R_if_raise, X|].
      apply (sub_b d (if c_go c then a else b) o). intros t out r R. apply R_if; assumption.
    + apply (sub_l d body els o). intros t out r R. apply R_loop, R.
    + (* STry *)
      apply (sub_b d body o). intros t1 o1 r1 R1.
      destruct o1 as [|p|[|]| |]; try (apply R_try; [exact R1 | discriminate]).
      apply (sub_b d h r1). intros t2 o2 r2 R2. exact (R_try_h _ _ _ _ _ _ _ _ _ R1 R2).
    + (* SFin *)
      apply (sub_b (S d) body o). intros t1 o1 r1 R1.
      destruct (is_stop o1) eqn:St; [apply R_fin_stop; assumption|].
      apply (sub_b d fin r1). intros t2 o2 r2 R2. exact (R_fin _ _ _ _ _ _ _ _ _ _ R1 St R2).
  - cbn [exec_b]. destruct b as [|s b]; [apply R_nil|].
    apply (sub_s d s o). intros t1 o1 r1 R1.
    destruct o1; try (apply R_cons_stop; [exact R1 | discriminate]).
    apply (sub_b d b r1). intros t2 o2 r2 R2. exact (R_cons _ _ _ _ _ _ _ _ _ R1 R2).
  - cbn [exec_l]. destruct o as [|c o]; [apply R_fuel|].
    destruct (c_exc c) eqn:X; [apply R_it_raise, X|].
    destruct (c_go c) eqn:G.
    + apply (sub_b d body o). intros t1 o1 r1 R1.
      destruct o1; try (apply R_it_stop; auto; discriminate).
      apply (sub_l d body els r1). intros t2 o2 r2 R2. exact (R_it_next _ _ _ _ _ _ _ _ _ _ X G R1 R2).
    + apply (sub_b d els o). intros t out r R. apply R_it_else; assumption.
Qed.

(* tokens that leave the automaton in Open may be put in front *)
Lemma inv_app : forall d p t out r,
  steps Open p = Some Open -> inv fx d (t, out, r) -> inv fx d (p ++ t, out, r).
Proof. intros d p t out r P (H1 & H2 & H3). apply inv_intro; auto. rewrite (steps_app _ _ _ _ P). exact H1. Qed.

Definition clean_c (d : nat) (c : cmd) : bool :=
  match c with CS s => clean_s d s | CB b => clean_b d b | CL body els => clean_b d body && clean_b d els end.

Lemma runs_inv : forall d c o t out r,
  runs d c o t out r -> fx = true \/ clean_c d c = true -> inv fx d (t, out, r).
Proof.
  induction 1; cbn [clean_c clean_s clean_b]; intros Hc.
  - (* fuel *) apply inv_intro; simpl; auto; discriminate.
  - (* leaf *) subst x. destruct s; try discriminate; cbn [exec_s].
    + (* SExpr *)
      destruct o as [|c o]; apply inv_intro; simpl; auto; try discriminate.
      all: rewrite ?(steps_kids c); destruct (c_exc c); reflexivity || discriminate.
    + apply inv_intro; simpl; auto; discriminate.
    + (* SReturn *)
      destruct (Nat.eqb d 0) eqn:Ed; [|destruct fx eqn:Fx].
      * apply inv_intro; simpl; auto; try discriminate. intros _. apply Nat.eqb_eq, Ed.
      * apply inv_intro; simpl; auto; discriminate.
      * destruct Hc as [Hc|Hc]; [discriminate|]. simpl in Hc. congruence.
    + (* SYield *)
      destruct gen; [|apply inv_intro; simpl; auto; discriminate].
      destruct o as [|c o]; [|destruct (c_go c); [destruct (c_exc c)|]];
        apply inv_intro; simpl; auto; discriminate.
  - apply inv_intro; simpl; auto; discriminate.
  - apply inv_intro; try discriminate. simpl. rewrite (steps_kids c). reflexivity.
  - (* SIf *) apply (inv_app _ (TLine :: call_part c)); [simpl; apply steps_kids|].
    apply IHruns. destruct (or_andb _ _ _ Hc), (c_go c); assumption.
  - apply (inv_app _ [TLine]); [reflexivity|]. apply IHruns. destruct (or_andb _ _ _ Hc); tauto.
  - (* STry *) apply (inv_app _ [TLine]); [reflexivity|]. apply IHruns, (or_andb _ _ _ Hc).
  - destruct (or_andb _ _ _ Hc) as [Hb Hh].
    apply (inv_app _ (TLine :: t1)); [exact (proj1 (IHruns1 Hb)) | apply IHruns2, Hh].
  - (* SFin *) destruct (IHruns (proj1 (or_andb _ _ _ Hc))) as (A1 & _ & A3).
    apply inv_intro; auto. intros E; subst o1; discriminate.
  - destruct (or_andb _ _ _ Hc) as [Hb Hf].
    destruct (IHruns1 Hb) as (A1 & A2 & A3), (IHruns2 Hf) as (B1 & B2 & B3); simpl in *.
    assert (S1 : st_of o1 = Open).
    { destruct o1 as [|[|]| | |]; try reflexivity; try discriminate.
      specialize (A2 eq_refl). discriminate. }
    rewrite S1 in A1.
    apply inv_intro.
    + simpl. rewrite (steps_app _ _ _ _ A1). rewrite B1.
      destruct o2; try reflexivity. rewrite S1. reflexivity.
    + destruct o2; auto; try discriminate. intros E; subst o1. specialize (A2 eq_refl). discriminate.
    + destruct o2; auto; try discriminate.
  - (* blocks *) apply inv_intro; simpl; auto; discriminate.
  - apply IHruns, (or_andb _ _ _ Hc).
  - destruct (or_andb _ _ _ Hc) as [Hs Hb].
    apply (inv_app _ t1); [exact (proj1 (IHruns1 Hs)) | apply IHruns2, Hb].
  - (* loops *) apply inv_intro; try discriminate. rewrite (steps_kids c). reflexivity.
  - apply (inv_app _ (call_part c)); [apply steps_kids | apply IHruns, (or_andb _ _ _ Hc)].
  - apply (inv_app _ (call_part c)); [apply steps_kids | apply IHruns, (or_andb _ _ _ Hc)].
  - apply (inv_app _ (call_part c)); [apply steps_kids|].
    apply (inv_app _ t1); [exact (proj1 (IHruns1 (proj1 (or_andb _ _ _ Hc)))) | apply IHruns2, Hc].
Qed.

(* the terminator flag is sound: such a body never completes normally *)
Definition term_c (c : cmd) : bool :=
  match c with CS s => is_term_s s | CB b => is_term b | CL _ els => is_term els end.

Lemma runs_term : forall d c o t out r, runs d c o t out r -> term_c c = true -> out <> ONormal.
Proof.
  induction 1; cbn [term_c is_term_s is_term]; intros T; try discriminate.
  - (* leaf *) subst x. destruct s; try discriminate. cbn [exec_s].
    destruct (Nat.eqb d 0); [|destruct fx]; discriminate.
  - apply IHruns. destruct (andb_prop _ _ T), (c_go c); assumption.
  - apply IHruns, T.
  - apply IHruns, (andb_prop _ _ T).
  - apply IHruns2, (andb_prop _ _ T).
  - intros ->. discriminate.
  - destruct o2; try discriminate.
    destruct (orb_prop _ _ T) as [Tb|Tf]; [apply IHruns1, Tb | destruct (IHruns2 Tf eq_refl)].
  - assumption.
  - destruct (orb_prop _ _ T) as [Ts|Tb]; [destruct (IHruns1 Ts eq_refl) | apply IHruns2, Tb].
  - apply IHruns, T.
  - assumption.
  - apply IHruns2, T.
Qed.
End Runs.

Lemma term_sound : forall fx gen n d b o,
  is_term b = true -> snd (fst (exec_b fx gen n d b o)) <> ONormal.
Proof.
  intros fx gen n d b o T. exact (runs_term fx gen _ _ _ _ _ _ (exec_runs fx gen n d (CB b) o) T).
Qed.

Lemma step_done : forall t, step Done t = None.
Proof. destruct t; reflexivity. Qed.

Lemma steps_done : forall l s, steps Done l = Some s -> l = [].
Proof. destruct l as [|t l]; intros s H; [reflexivity|]. cbn [steps] in H. rewrite step_done in H. discriminate. Qed.

Lemma cut_first : forall l s s',
  s <> Done -> steps s l = Some s' ->
  (count_yield l = 0 /\ take_seg l = l) \/
  (exists n, count_yield l = S n /\ count_yield (drop_seg l) = n /\
             steps s (take_seg l) = Some Closed /\ take_seg l <> [] /\
             steps Closed (drop_seg l) = Some s').
Proof.
  induction l as [|t l IH]; intros s s' Hs H.
  - left; split; reflexivity.
  - simpl in H. destruct (step s t) as [s1|] eqn:E; [|discriminate].
    destruct t; (destruct s; try discriminate; injection E as <-).
    1-3: (* TStart, TKid, TLine: the first segment goes on *)
      destruct (IH Open s' ltac:(discriminate) H) as [[C T]|(n & C & D & S1 & NE & S2)];
      [left; simpl; rewrite C, T; split; reflexivity
      |right; exists n; simpl; rewrite S1; repeat split; auto; discriminate].
    1,3: (* TRet, TUnwind *) apply steps_done in H; subst l; left; split; reflexivity.
    (* TYield *) right. exists (count_yield l). simpl. repeat split; auto. discriminate.
Qed.

Lemma drop_segs_nil : forall k, drop_segs k [] = [].
Proof. induction k; simpl; auto. Qed.

(* the k-th segment of a well-formed run is itself a well-formed run *)
Lemma seg_at_steps : forall k l s',
  steps Closed l = Some s' ->
  (k < count_yield l -> steps Closed (seg_at k l) = Some Closed /\ seg_at k l <> []) /\
  (k = count_yield l -> steps Closed (seg_at k l) = Some s').
Proof.
  induction k as [|k IH]; intros l s' H.
  - unfold seg_at; simpl.
    destruct (cut_first l Closed s' ltac:(discriminate) H) as [[C T]|(n & C & D & S1 & NE & S2)].
    + split; [lia|]. intros _. rewrite T. exact H.
    + split; [intros _; split; assumption|lia].
  - unfold seg_at; simpl. fold (seg_at k (drop_seg l)).
    destruct (cut_first l Closed s' ltac:(discriminate) H) as [[C T]|(n & C & D & S1 & NE & S2)].
    + split; [lia|lia].
    + destruct (IH (drop_seg l) s' S2) as [A B]. split; intros Hk.
      * apply A. lia.
      * apply B. lia.
Qed.

Fixpoint single (l : list tok) : bool :=
  match l with
  | [] => true
  | TYield :: r => match r with [] => true | _ => false end
  | _ :: r => single r
  end.

Lemma single_take : forall l, single (take_seg l) = true.
Proof. induction l as [|t l IH]; simpl; auto. destruct t; simpl; auto. Qed.

Lemma single_seg_at : forall k l, single (seg_at k l) = true.
Proof. intros. apply single_take. Qed.

(* a single well-formed segment that reached its end reads as a node *)
Lemma mids_ok : forall r kids s1,
  steps Open r = Some s1 -> s1 <> Open -> single r = true ->
  Forall (fun n => clean n = true) kids ->
  exists b e, mids r kids = Some (b, e) /\ cleans b = true /\ e <> EPending.
Proof.
  induction r as [|t r IH]; intros kids s1 H Hs Hsg Hk.
  - simpl in H. injection H as <-. contradiction.
  - simpl in H. destruct t; simpl in H; try discriminate.
    + (* TKid *)
      destruct kids as [|n ks]; simpl.
      * apply (IH [] s1); auto.
      * inversion Hk as [|n' ks' Hn Hks]; subst.
        destruct (IH ks s1 H Hs Hsg Hks) as (b & e & M & C & E). rewrite M.
        exists (ICall n b), e. split; [reflexivity|]. split; [|exact E].
        simpl. rewrite C, Hn. reflexivity.
    + destruct (IH kids s1 H Hs Hsg Hk) as (b & e & M & C & E). simpl. rewrite M.
      exists (ILine 0 b), e. auto.
    + apply steps_done in H. subst r. simpl. exists INil, EReturn. repeat split; auto; discriminate.
    + simpl in Hsg. destruct r; [|discriminate]. simpl. exists INil, EYield. repeat split; auto; discriminate.
    + apply steps_done in H. subst r. simpl. exists INil, ERaise. repeat split; auto; discriminate.
Qed.

Lemma func_ok_inv : forall g fx fn, func_ok g fx fn = true ->
  (f_tflag fn = true -> is_term (f_body fn) = true) /\
  (fx = true \/ clean_b 0 (f_body fn) = true) /\
  cv_wrap2 g && wrapped (f_kind fn) = false.
Proof.
  intros g fx fn H. unfold func_ok in H. rewrite !andb_true_iff, orb_true_iff in H.
  destruct H as [[T C] W]. repeat split; [intros E; rewrite E in T; exact T | exact C |].
  destruct (cv_wrap2 g), (wrapped (f_kind fn)); auto.
Qed.

Lemma body_steps : forall g fx gen fn n o t out r,
  (forall k, cv_fall g k = true) -> func_ok g fx fn = true ->
  exec_b fx gen n 0 (f_body fn) o = (t, out, r) ->
  exists s', steps Open (t ++ finish g fx (f_kind fn) (f_tflag fn) out) = Some s' /\
             (final out = true -> s' = Done).
Proof.
  intros g fx gen fn n o t out r Hg Hok E. destruct (func_ok_inv _ _ _ Hok) as (Tf & Cl & Wr).
  pose proof (exec_runs fx gen n 0 (CB (f_body fn)) o) as R. unfold is_run in R. cbn [exec] in R. rewrite E in R.
  destruct (runs_inv _ _ _ _ _ _ _ _ R Cl) as (H1 & H2 & H3); simpl in *.
  pose proof (runs_term _ _ _ _ _ _ _ _ R) as Ht. cbn [term_c] in Ht.
  rewrite (steps_app _ _ _ _ H1).
  destruct out as [|[|]|c| |]; simpl.
  - unfold falloff. rewrite Hg. destruct (f_tflag fn).
    + exfalso. apply Ht; auto.
    + simpl. eexists; split; [reflexivity|auto].
  - rewrite (H3 eq_refl). simpl. eexists; split; [reflexivity|auto].
  - rewrite andb_false_r. simpl. eexists; split; [reflexivity|auto].
  - rewrite Wr. eexists; split; [reflexivity|auto].
  - eexists; split; [reflexivity|]. discriminate.
  - eexists; split; [reflexivity|]. discriminate.
Qed.

Lemma run_steps : forall g fx fn n o toks out,
  (forall k, cv_fall g k = true) -> func_ok g fx fn = true -> run g fx fn n o = (toks, out) ->
  exists s', steps Closed toks = Some s' /\ (final out = true -> s' = Done).
Proof.
  intros g fx fn n o toks out Hg Hok E. unfold run in E.
  destruct (f_kind fn) as [c w|i c] eqn:K.
  - destruct (exec_b fx false n 0 (f_body fn) o) as [[t out'] r] eqn:Eb.
    injection E as <- <-. simpl. rewrite <- K.
    eapply body_steps; eassumption.
  - destruct o as [|c0 o'].
    { injection E as <- <-. simpl. eexists; split; [reflexivity|]. discriminate. }
    destruct (c_exc c0).
    { injection E as <- <-. simpl. eexists; split; [reflexivity|auto]. }
    destruct (exec_b fx (gen_allowed (KGen i c)) n 0 (f_body fn) o') as [[t out'] r] eqn:Eb.
    injection E as <- <-. simpl. rewrite <- K.
    eapply body_steps; eassumption.
Qed.

Lemma seg_complete_shape : forall g fx fn n o toks out k kids,
  (forall k, cv_fall g k = true) -> func_ok g fx fn = true -> run g fx fn n o = (toks, out) ->
  complete_seg k toks out = true -> Forall (fun n => clean n = true) kids ->
  exists s r b e, seg_at k toks = TStart s :: r /\ mids r kids = Some (b, e) /\
                  cleans b = true /\ e <> EPending.
Proof.
  intros g fx fn n o toks out k kids Hg Hok E Hc Hk.
  destruct (run_steps g fx fn n o toks out Hg Hok E) as (s' & S & F).
  destruct (seg_at_steps k toks s' S) as [A B].
  assert (Hseg : exists s1, steps Closed (seg_at k toks) = Some s1 /\ s1 <> Open /\ seg_at k toks <> []).
  { unfold complete_seg in Hc. apply orb_true_iff in Hc. destruct Hc as [Hc|Hc].
    - apply Nat.ltb_lt in Hc. destruct (A Hc) as [A1 A2]. exists Closed. repeat split; auto. discriminate.
    - apply andb_true_iff in Hc. destruct Hc as [Hc Hf]. apply Nat.eqb_eq in Hc.
      specialize (B Hc). rewrite (F Hf) in B. exists Done. repeat split; auto; try discriminate.
      intros N. rewrite N in B. discriminate. }
  destruct Hseg as (s1 & S1 & N1 & NE).
  pose proof (single_seg_at k toks) as Sg.
  destruct (seg_at k toks) as [|t0 r]; [contradiction|].
  simpl in S1. destruct t0; try discriminate. simpl in S1.
  destruct (mids_ok r kids s1 S1 N1 Sg Hk) as (b & e & M & C & Ee).
  exists s, r, b, e. auto.
Qed.

Lemma expand_mids : forall t fx lt f r ns b e,
  mids r ns = Some (b, e) -> e <> EPending ->
  expand t lt f r (map (ev_cy t fx lt) ns) = evs_cy t fx lt f b ++ end_cy t fx e f.
Proof.
  induction r as [|k r IH]; intros ns b e M Ee; [discriminate|].
  destruct k; simpl in M; try discriminate.
  3-5: (* TRet, TYield, TUnwind: the end token is the last one *)
    destruct r; [|discriminate]; injection M as <- <-; simpl; rewrite app_nil_r; reflexivity.
  - destruct ns as [|n ks].
    + simpl. apply (IH [] b e M Ee).
    + destruct (mids r ks) as [[b' e']|] eqn:M'; [|discriminate]. injection M as <- <-.
      simpl. rewrite (IH ks b' e' M' Ee). rewrite app_assoc. reflexivity.
  - destruct (mids r ns) as [[b' e']|] eqn:M'; [|discriminate]. injection M as <- <-.
    simpl. rewrite (IH ns b' e' M' Ee). rewrite app_assoc. reflexivity.
Qed.

Scheme xt_ind2 := Induction for xt Sort Prop
  with xts_ind2 := Induction for xts Sort Prop.
Combined Scheme xt_mut from xt_ind2, xts_ind2.

Lemma prog_ok_nth : forall g fx prog f fn,
  prog_ok g fx prog = true -> nth_error prog f = Some fn -> func_ok g fx fn = true.
Proof.
  intros g fx prog f fn H N. unfold prog_ok in H. rewrite forallb_forall in H.
  apply H. eapply nth_error_In; eassumption.
Qed.

Theorem program_node : forall g fx prog,
  (forall k, cv_fall g k = true) -> prog_ok g fx prog = true ->
  (forall x, complete g fx prog x = true ->
     exists n, to_node g fx prog x = Some n /\ clean n = true /\
               forall t lt, word g fx t lt prog x = ev_cy t fx lt n) /\
  (forall xs, completes g fx prog xs = true ->
     exists ns, to_nodes g fx prog xs = Some ns /\ Forall (fun n => clean n = true) ns /\
                forall t lt, words g fx t lt prog xs = map (ev_cy t fx lt) ns).
Proof.
  intros g fx prog Hg Hp. apply xt_mut.
  - intros f o fuel k kids IH Hc. cbn [complete] in Hc.
    apply andb_true_iff in Hc. destruct Hc as [Hc Hk].
    destruct (IH Hk) as (ns & TN & CN & WN).
    destruct (nth_error prog f) as [fn|] eqn:Nf; [|discriminate].
    destruct (run g fx fn fuel o) as [toks out] eqn:R.
    destruct (seg_complete_shape g fx fn fuel o toks out k ns Hg (prog_ok_nth _ _ _ _ _ Hp Nf) R Hc CN)
      as (s & r & b & e & Sg & M & Cb & Ee).
    assert (So : seg_of g fx prog f o fuel k = TStart s :: r).
    { unfold seg_of. rewrite Nf, R. exact Sg. }
    exists (Node f s b e). split; [|split].
    + cbn [to_node]. rewrite TN, So. unfold seg_node. rewrite M. reflexivity.
    + simpl. rewrite Cb. destruct e; try reflexivity. contradiction.
    + intros t lt. cbn [word]. rewrite So, (WN t lt). cbn [expand tok_events].
      rewrite (expand_mids t fx lt f r ns b e M Ee). reflexivity.
  - intros _. exists []. repeat split; auto.
  - intros x IHx r IHr Hc. cbn [completes] in Hc. apply andb_true_iff in Hc.
    destruct Hc as [Hx Hr].
    destruct (IHx Hx) as (n & TN & CN & WN). destruct (IHr Hr) as (ns & TNs & CNs & WNs).
    exists (n :: ns). split; [|split].
    + cbn [to_nodes]. rewrite TN, TNs. reflexivity.
    + constructor; assumption.
    + intros t lt. cbn [words]. rewrite (WN t lt), (WNs t lt). reflexivity.
Qed.

(* the balance theorem: the word of every complete execution tree of every program is a Dyck
   word with matching function ids, line events inside their activation, ending with an empty
   stack; its nesting is the tree; one start and one end per segment *)
Theorem program_events_balanced : forall g fx prog x t lt,
  (forall k, cv_fall g k = true) -> prog_ok g fx prog = true -> complete g fx prog x = true ->
  exists n, to_node g fx prog x = Some n /\
            word g fx t lt prog x = ev_cy t fx lt n /\
            parse (word g fx t lt prog x) [] [] = Some [shape_of n] /\
            count_class CStart (word g fx t lt prog x) = size n /\
            count_class CEnd (word g fx t lt prog x) = size n.
Proof.
  intros g fx prog x t lt Hg Hp Hc.
  destruct (program_node g fx prog Hg Hp) as [P _].
  destruct (P x Hc) as (n & TN & CN & WN).
  exists n. split; [exact TN|]. split; [apply WN|]. rewrite (WN t lt).
  split; [|apply one_start_one_end_per_activation; intros _; exact CN].
  apply events_well_nested. intros _. exact CN.
Qed.

(* the fall-off guard is necessary for every kind *)
Definition w_prog (k : fkind) : list func := [Func k (BCons SExpr BNil) false].
Definition w_tree : xt := XT 0 [Ch 0 true None; Ch 0 true None] 5 0 XNil.

Theorem falloff_guard_necessary : forall g k,
  cv_fall g k = false -> cv_wrap2 g = false ->
  prog_ok g false (w_prog k) = true /\ complete g false (w_prog k) w_tree = true /\
  word g false Legacy false (w_prog k) w_tree = [(KCall, 0)] /\
  well_nested (word g false Legacy false (w_prog k) w_tree) = false.
Proof.
  intros g k H Hw.
  assert (W : word g false Legacy false (w_prog k) w_tree = [(KCall, 0)]).
  { destruct k as [c w|i c]; cbn; unfold falloff; rewrite H; reflexivity. }
  split; [cbn; rewrite Hw; reflexivity|]. split; [|split; [exact W|rewrite W; reflexivity]].
  destruct k as [c w|i c]; cbn; unfold falloff; rewrite H; reflexivity.
Qed.

(* the seeded guard on list(genexpr): f0 calls the inlined generator expression f1, whose body
   (for: append) runs off its end *)
Definition s_prog : list func :=
  [Func (KFunc false false) (BCons SExpr (BCons SReturn BNil)) true;
   Func (KGen true true) (BCons (SLoop (BCons SExpr BNil) BNil) BNil) false].
Definition s_tree : xt :=
  XT 0 [Ch 1 true None] 9 0
     (XCons (XT 1 [Ch 0 true None; Ch 0 true None; Ch 0 true None; Ch 0 false None] 9 0 XNil) XNil).

Theorem seeded_guard_refuted :
  prog_ok g_not_inlined false s_prog = true /\
  complete g_not_inlined false s_prog s_tree = true /\
  word g_not_inlined false Legacy false s_prog s_tree = [(KCall, 0); (KCall, 1); (KRet, 0)] /\
  parse (word g_not_inlined false Legacy false s_prog s_tree) [] [] = None /\
  word as_is false Legacy false s_prog s_tree = [(KCall, 0); (KCall, 1); (KRet, 1); (KRet, 0)] /\
  parse (word as_is false Legacy false s_prog s_tree) [] [] = Some [Sh 0 [Sh 1 []]].
Proof. repeat split; reflexivity. Qed.

(* an inlined generator expression is ONE activation *)
Lemma count_yield_app : forall a b, count_yield (a ++ b) = count_yield a + count_yield b.
Proof. induction a as [|t a IH]; intros b; simpl; auto. destruct t; simpl; rewrite IH; reflexivity. Qed.

Lemma count_yield_kids : forall c, count_yield (call_part c) = 0.
Proof. intros c. unfold call_part. induction (c_kids c); simpl; auto. Qed.

Lemma runs_no_yield : forall fx d c o t out r, runs fx false d c o t out r -> count_yield t = 0.
Proof.
  induction 1; cbn [count_yield]; rewrite ?count_yield_app, ?count_yield_kids; try lia.
  subst x. destruct s; try discriminate; cbn [exec_s].
  - destruct o as [|c o]; [reflexivity | apply count_yield_kids].
  - reflexivity.
  - destruct (Nat.eqb d 0); [|destruct fx]; reflexivity.
  - reflexivity.
Qed.

Lemma no_yield : forall fx n d b o, count_yield (fst (fst (exec_b fx false n d b o))) = 0.
Proof.
  intros fx n d b o. exact (runs_no_yield fx _ _ _ _ _ _ (exec_runs fx false n d (CB b) o)).
Qed.

Lemma count_yield_finish : forall g fx k tf out, count_yield (finish g fx k tf out) = 0.
Proof.
  intros g fx k tf out. destruct out as [|p|c| |]; simpl; try reflexivity.
  - unfold falloff. destruct (cv_fall g k && negb tf); reflexivity.
  - destruct (fx && p); reflexivity.
  - destruct (cv_wrap2 g && wrapped k); reflexivity.
Qed.

Theorem inlined_single_segment : forall g fx fn n o c,
  f_kind fn = KGen true c -> count_yield (fst (run g fx fn n o)) = 0.
Proof.
  intros g fx fn n o c K. unfold run. rewrite K.
  destruct o as [|c0 o']; [reflexivity|]. destruct (c_exc c0); [reflexivity|].
  pose proof (no_yield fx n 0 (f_body fn) o') as Hi. simpl gen_allowed.
  destruct (exec_b fx false n 0 (f_body fn) o') as [[t out] r]. simpl in *.
  rewrite count_yield_app, Hi, count_yield_finish. reflexivity.
Qed.

Theorem function_single_segment : forall g fx fn n o c w,
  f_kind fn = KFunc c w -> count_yield (fst (run g fx fn n o)) = 0.
Proof.
  intros g fx fn n o c w K. unfold run. rewrite K.
  pose proof (no_yield fx n 0 (f_body fn) o) as Hi.
  destruct (exec_b fx false n 0 (f_body fn) o) as [[t out] r]. simpl in *.
  rewrite count_yield_app, Hi, count_yield_finish. reflexivity.
Qed.

(* the layout tokens the static tie reads off the generated C *)
Theorem epilogue_fall_iff : forall g k tf,
  In EFall (epilogue g k tf) <-> (cv_fall g k = true /\ tf = false).
Proof.
  intros g k tf. unfold epilogue, falloff.
  destruct k; destruct (cv_fall g _) eqn:G; destruct tf; simpl; split; intros H;
    try (destruct H as [H1 H2]; discriminate);
    repeat (destruct H as [H|H]; try discriminate); auto; try contradiction.
Qed.

Theorem default_branch_node : forall f,
  seg_node f default_branch [] = Some (Node f SGenStart INil EReturn).
Proof. reflexivity. Qed.

(* finding: a raising cpdef function entered through its Python wrapper *)
Definition c_prog : list func := [Func (KFunc true true) (BCons SRaise BNil) true].
Definition c_tree : xt := XT 0 [] 5 0 XNil.

Theorem cpdef_wrapper_double_unwind_refuted :
  complete as_is false c_prog c_tree = true /\
  word as_is false Legacy false c_prog c_tree = [(KCall, 0); (KRet, 0); (KRet, 0)] /\
  parse (word as_is false Legacy false c_prog c_tree) [] [] = None /\
  prog_ok as_is false c_prog = false /\
  prog_ok wrap_fixed false c_prog = true /\
  word wrap_fixed false Legacy false c_prog c_tree = [(KCall, 0); (KRet, 0)] /\
  parse (word wrap_fixed false Legacy false c_prog c_tree) [] [] = Some [Sh 0 []].
Proof. repeat split; reflexivity. Qed.
