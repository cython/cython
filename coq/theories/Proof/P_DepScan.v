(* Proofs about Model/M_DepScan.v (C46: extraction of the dependency graph from sources). *)
From Coq Require Import List Arith Bool Lia.
From CyVerif Require Import Model.M_DepScan.
Import ListNotations.

(* a name component: not empty, contains no dot *)
Definition nodot (w : str) : Prop := ~ In DOT w.
Definition ident (w : str) : Prop := w <> [] /\ nodot w.
Definition idents (l : list str) : Prop := Forall ident l.

Lemma split_nodot : forall w, nodot w -> split_dots w = [w].
Proof.
  induction w as [|c r IH]; intros H; [reflexivity|].
  cbn [split_dots]. destruct (Nat.eqb_spec c DOT) as [->|Hc].
  - exfalso. apply H. left. reflexivity.
  - rewrite IH; [reflexivity|]. intros Hin. apply H. right. exact Hin.
Qed.

Lemma split_app_dot : forall w s, nodot w -> split_dots (w ++ DOT :: s) = w :: split_dots s.
Proof.
  induction w as [|c r IH]; intros s H.
  - reflexivity.
  - cbn [app split_dots]. destruct (Nat.eqb_spec c DOT) as [->|Hc].
    + exfalso. apply H. left. reflexivity.
    + rewrite IH; [reflexivity|]. intros Hin. apply H. right. exact Hin.
Qed.

Lemma split_join : forall l, l <> [] -> Forall nodot l -> split_dots (join_dots l) = l.
Proof.
  induction l as [|x r IH]; intros Hne Hf; [congruence|].
  inversion Hf as [|? ? Hx Hr]; subst.
  destruct r as [|y r'].
  - cbn [join_dots]. apply split_nodot. exact Hx.
  - change (join_dots (x :: y :: r')) with (x ++ DOT :: join_dots (y :: r')).
    rewrite split_app_dot by exact Hx. rewrite IH; [reflexivity|discriminate|exact Hr].
Qed.

Lemma split_repeat : forall n s, split_dots (repeat DOT n ++ s) = repeat [] n ++ split_dots s.
Proof.
  induction n as [|n IH]; intros s; [reflexivity|].
  cbn [repeat app split_dots]. rewrite Nat.eqb_refl. rewrite IH. reflexivity.
Qed.

Lemma idents_nodot : forall l, idents l -> Forall nodot l.
Proof. intros l H. eapply Forall_impl; [|exact H]. intros a [_ Ha]. exact Ha. Qed.

Lemma join_snoc : forall p w, p <> [] -> join_dots (p ++ [w]) = join_dots p ++ DOT :: w.
Proof.
  induction p as [|x r IH]; intros w Hne; [congruence|].
  destruct r as [|y r'].
  - reflexivity.
  - change (join_dots ((x :: y :: r') ++ [w])) with (x ++ DOT :: join_dots ((y :: r') ++ [w])).
    rewrite IH by discriminate.
    change (join_dots (x :: y :: r')) with (x ++ DOT :: join_dots (y :: r')).
    rewrite <- app_assoc. reflexivity.
Qed.

Lemma ends_with_dot_snoc : forall s c, ends_with_dot (s ++ [c]) = Nat.eqb c DOT.
Proof.
  induction s as [|a r IH]; intros c; [reflexivity|].
  cbn [app ends_with_dot]. destruct (r ++ [c]) eqn:E.
  - destruct r; discriminate.
  - rewrite <- E. apply IH.
Qed.

Lemma ends_with_dot_repeat : forall n, ends_with_dot (repeat DOT (S n)) = true.
Proof.
  intros n. replace (S n) with (n + 1) by lia. rewrite repeat_app. cbn [repeat].
  rewrite ends_with_dot_snoc. reflexivity.
Qed.

(* the last component of a non-empty path of identifiers ends the rendered string with a non-dot *)
Lemma render_ends_nodot : forall level path, path <> [] -> idents path ->
  ends_with_dot (render level path) = false.
Proof.
  intros level path Hne Hid.
  destruct (exists_last Hne) as (p' & w & ->).
  apply Forall_app in Hid. destruct Hid as [_ Hw]. inversion Hw as [|? ? [Hwne Hwnd] _]; subst.
  destruct (exists_last Hwne) as (w' & c & ->).
  assert (Hc : c <> DOT). { intros ->. apply Hwnd. apply in_or_app. right. left. reflexivity. }
  unfold render.
  assert (E : exists Y, repeat DOT level ++ join_dots (p' ++ [w' ++ [c]]) = Y ++ [c]).
  { destruct p' as [|x r].
    - exists (repeat DOT level ++ w'). cbn [app join_dots]. rewrite app_assoc. reflexivity.
    - rewrite join_snoc by discriminate.
      exists (repeat DOT level ++ join_dots (x :: r) ++ DOT :: w').
      rewrite <- !app_assoc. reflexivity. }
  destruct E as [Y E].
  transitivity (ends_with_dot (Y ++ [c])); [f_equal; exact E|].
  rewrite ends_with_dot_snoc. apply Nat.eqb_neq. exact Hc.
Qed.

Lemma starts_with_dot_render_S : forall k path, starts_with_dot (render (S k) path) = true.
Proof. reflexivity. Qed.

Lemma starts_with_dot_join : forall path, path <> [] -> idents path ->
  starts_with_dot (join_dots path) = false.
Proof.
  intros [|x r] Hne Hid; [congruence|].
  inversion Hid as [|? ? [Hxne Hxnd] _]; subst.
  destruct x as [|c x']; [congruence|].
  assert (Hc : c <> DOT). { intros ->. apply Hxnd. left. reflexivity. }
  destruct r; cbn [join_dots app starts_with_dot]; apply Nat.eqb_neq; exact Hc.
Qed.

(* "from <level dots><path> cimport w" records <from> + sep + w, which is the rendering of
   (level, path ++ [w]) *)
Lemma candidate_is_render : forall level path w,
  1 <= level + length path -> idents path ->
  render level path ++ sep_of SepEndsWithDot (render level path) ++ w = render level (path ++ [w]).
Proof.
  intros level path w Hpos Hid. unfold sep_of.
  destruct path as [|x r].
  - destruct level as [|k]; [cbn in Hpos; lia|].
    unfold render at 2. cbn [join_dots]. rewrite app_nil_r. rewrite ends_with_dot_repeat.
    unfold render. cbn [join_dots app]. rewrite app_nil_r. reflexivity.
  - rewrite render_ends_nodot by (try discriminate; exact Hid).
    unfold render. rewrite join_snoc by discriminate. rewrite <- app_assoc. reflexivity.
Qed.

Definition no_leading_empty (rest : list str) : Prop :=
  match rest with [] :: _ => False | _ => True end.

Lemma strip_levels_repeat : forall k p rest, no_leading_empty rest ->
  strip_levels p (repeat [] k ++ rest) = if k <=? length p then Some (skipn k p, rest) else None.
Proof.
  induction k as [|k IH]; intros p rest Hr.
  - cbn [repeat app]. destruct rest as [|h t]; [reflexivity|].
    destruct h; [contradiction|]. reflexivity.
  - cbn [repeat app strip_levels]. destruct p as [|a p']; [reflexivity|].
    rewrite IH by exact Hr. reflexivity.
Qed.

Lemma idents_no_leading_empty : forall path, idents path -> no_leading_empty path.
Proof.
  intros [|x r] H; [exact I|]. inversion H as [|? ? [Hne _] _]; subst. destruct x; [congruence|exact I].
Qed.

Lemma base_of_skipn : forall k (pkg : list str),
  rev (skipn k (rev pkg)) = firstn (length pkg - k) pkg.
Proof. intros. rewrite skipn_rev. apply rev_involutive. Qed.

Lemma drop_trailing_empty_ident : forall l w, w <> [] -> drop_trailing_empty (l ++ [w]) = l ++ [w].
Proof.
  intros l w Hw. unfold drop_trailing_empty. rewrite rev_app_distr. cbn [rev app].
  destruct w; [congruence|reflexivity].
Qed.

Lemma drop_trailing_empty_path : forall k path, path <> [] -> idents path ->
  drop_trailing_empty (repeat [] k ++ path) = repeat [] k ++ path.
Proof.
  intros k path Hne Hid. destruct (exists_last Hne) as (p' & w & ->).
  apply Forall_app in Hid. destruct Hid as [_ Hw]. inversion Hw as [|? ? [Hwne _] _]; subst.
  rewrite app_assoc. apply drop_trailing_empty_ident. exact Hwne.
Qed.

Lemma drop_trailing_empty_dots : forall k, drop_trailing_empty (repeat ([] : str) k ++ [[]]) = repeat [] k.
Proof.
  intros k. unfold drop_trailing_empty. rewrite rev_app_distr. cbn [rev app]. apply rev_involutive.
Qed.

(* find_pxd on a relative name: the leading dots become empty components that strip package levels *)
Lemma find_pxd_cands_relative : forall fixed k path pkg,
  find_pxd_cands fixed (render (S k) path) pkg =
  let mp := repeat [] k ++ split_dots (join_dots path) in
  match strip_levels (rev pkg) (if fixed then drop_trailing_empty mp else mp) with
  | None => None
  | Some (p, m) => Some [join_dots (rev p ++ m)]
  end.
Proof.
  intros fixed k path pkg. unfold find_pxd_cands. rewrite starts_with_dot_render_S.
  unfold render. rewrite split_repeat. reflexivity.
Qed.

(* a relative cimport with a module part: exactly one candidate, the name the import rule gives *)
Theorem resolve_relative : forall fixed level path pkg,
  1 <= level -> level <= length pkg -> path <> [] -> idents path ->
  exists q, import_rule level path pkg = Some q /\
            find_pxd_cands fixed (render level path) pkg = Some [join_dots q].
Proof.
  intros fixed level path pkg Hl Hle Hne Hid.
  destruct level as [|k]; [lia|].
  exists (firstn (length pkg - k) pkg ++ path). split.
  - cbn [import_rule]. destruct (Nat.ltb_spec k (length pkg)); [reflexivity|lia].
  - rewrite find_pxd_cands_relative. cbv zeta.
    rewrite split_join by (try exact Hne; apply idents_nodot; exact Hid).
    assert (E : (if fixed then drop_trailing_empty (repeat [] k ++ path) else repeat [] k ++ path)
                = repeat [] k ++ path).
    { destruct fixed; [apply drop_trailing_empty_path; assumption|reflexivity]. }
    rewrite E. rewrite strip_levels_repeat by (apply idents_no_leading_empty; exact Hid).
    rewrite rev_length. destruct (Nat.leb_spec k (length pkg)); [|lia].
    rewrite base_of_skipn. reflexivity.
Qed.

(* an absolute cimport: the package of the importing file first, then the name itself *)
Theorem resolve_absolute : forall fixed path pkg,
  path <> [] -> idents path ->
  find_pxd_cands fixed (render 0 path) pkg = Some [join_dots (pkg ++ path); join_dots path].
Proof.
  intros fixed path pkg Hne Hid. unfold find_pxd_cands, render. cbn [repeat app].
  rewrite starts_with_dot_join by assumption. cbn [andb].
  rewrite split_join by (try exact Hne; apply idents_nodot; exact Hid).
  change path with (repeat [] 0 ++ path) at 1.
  rewrite strip_levels_repeat by (apply idents_no_leading_empty; exact Hid).
  cbn [Nat.leb skipn]. rewrite rev_involutive. reflexivity.
Qed.

(* dots only ("from .. cimport x" records ".."): the package itself, in the repaired variant *)
Theorem resolve_dots_only_fixed : forall level pkg,
  1 <= level -> level <= length pkg ->
  exists q, import_rule level [] pkg = Some q /\
            find_pxd_cands true (render level []) pkg = Some [join_dots q].
Proof.
  intros level pkg Hl Hle. destruct level as [|k]; [lia|].
  exists (firstn (length pkg - k) pkg ++ []). split.
  - cbn [import_rule]. destruct (Nat.ltb_spec k (length pkg)); [reflexivity|lia].
  - rewrite find_pxd_cands_relative. cbn [join_dots split_dots].
    rewrite drop_trailing_empty_dots.
    rewrite <- (app_nil_r (repeat [] k)).
    rewrite strip_levels_repeat by exact I.
    rewrite rev_length. destruct (Nat.leb_spec k (length pkg)); [|lia].
    rewrite base_of_skipn. reflexivity.
Qed.

(* the code as it is treats the '' after the last dot as one more level *)
Theorem resolve_dots_only_as_is : forall level pkg,
  1 <= level ->
  find_pxd_cands false (render level []) pkg
  = if level <=? length pkg then Some [join_dots (firstn (length pkg - level) pkg)] else None.
Proof.
  intros level pkg Hl. destruct level as [|k]; [lia|].
  rewrite find_pxd_cands_relative. cbn [join_dots split_dots].
  change (repeat [] k ++ [[]]) with (repeat ([] : str) k ++ repeat [] 1).
  rewrite <- repeat_app. rewrite <- (app_nil_r (repeat [] (k + 1))).
  rewrite strip_levels_repeat by exact I.
  rewrite rev_length. replace (k + 1) with (S k) by lia.
  destruct (S k <=? length pkg); [|reflexivity].
  rewrite base_of_skipn. rewrite app_nil_r. reflexivity.
Qed.

Lemma ident_single : forall n, n <> 0 -> ident [n].
Proof. intros n Hn. split; [discriminate|]. intros [H|[]]. unfold DOT in H. congruence. Qed.

Lemma idents_w_pkg : idents w_pkg.
Proof. constructor; [apply ident_single; discriminate|]. constructor; [apply ident_single; discriminate|constructor]. Qed.

Theorem dots_only_refuted :
  exists level pkg q, 1 <= level /\ level <= length pkg /\ idents pkg /\
    import_rule level [] pkg = Some q /\
    find_pxd_cands false (render level []) pkg <> Some [join_dots q].
Proof.
  exists 1, w_pkg, w_pkg.
  split; [cbn; lia|]. split; [cbn; lia|]. split; [exact idents_w_pkg|]. split; [reflexivity|].
  vm_compute. discriminate.
Qed.

(* every name listed after "from ... cimport" has its "package.name" candidate recorded *)
Lemma from_cimport_candidate : forall level path names w,
  1 <= level + length path -> idents path -> In w names ->
  In (render level (path ++ [w])) (sc_cimports (scan SepEndsWithDot [SFrom (render level path) names])).
Proof.
  intros level path names w Hpos Hid Hin.
  right. apply in_map_iff. exists w. split; [apply candidate_is_render; assumption|exact Hin].
Qed.

Lemma idents_snoc : forall path w, idents path -> ident w -> idents (path ++ [w]).
Proof. intros path w Hid Hw. apply Forall_app. split; [exact Hid|]. constructor; [exact Hw|constructor]. Qed.

(* ... and that candidate resolves to the name the import rule gives -- for every level and every
   module path, the empty one included *)
Theorem from_cimport_submodule_tracked : forall fixed level path names pkg w,
  1 <= level -> level <= length pkg -> idents path -> ident w -> In w names ->
  exists c q,
    In c (sc_cimports (scan SepEndsWithDot [SFrom (render level path) names])) /\
    import_rule level (path ++ [w]) pkg = Some q /\
    find_pxd_cands fixed c pkg = Some [join_dots q].
Proof.
  intros fixed level path names pkg w Hl Hle Hid Hw Hin.
  destruct (resolve_relative fixed level (path ++ [w]) pkg Hl Hle) as (q & Hq & Hc).
  { destruct path; discriminate. }
  { apply idents_snoc; assumption. }
  exists (render level (path ++ [w])), q. split; [|split; assumption].
  apply from_cimport_candidate; [lia|exact Hid|exact Hin].
Qed.

Theorem from_cimport_submodule_tracked_abs : forall fixed path names pkg w,
  path <> [] -> idents path -> ident w -> In w names ->
  exists c,
    In c (sc_cimports (scan SepEndsWithDot [SFrom (render 0 path) names])) /\
    find_pxd_cands fixed c pkg = Some [join_dots (pkg ++ path ++ [w]); join_dots (path ++ [w])].
Proof.
  intros fixed path names pkg w Hne Hid Hw Hin.
  exists (render 0 (path ++ [w])). split.
  - apply from_cimport_candidate; [destruct path; [congruence|cbn; lia]|exact Hid|exact Hin].
  - rewrite resolve_absolute; [reflexivity|destruct path; discriminate|apply idents_snoc; assumption].
Qed.

(* the module named after "from" itself is the first recorded candidate *)
Theorem from_cimport_module_tracked : forall level path names,
  In (render level path) (sc_cimports (scan SepEndsWithDot [SFrom (render level path) names])).
Proof. intros. cbn. left. reflexivity. Qed.

(* the variant separator rule (sep = '' only when <from> is exactly "."): "from .. cimport s" in
   package p.q records "...s"; no recorded candidate resolves to p.s *)
Theorem sep_only_one_dot_refuted :
  exists level path names pkg w q,
    1 <= level /\ level <= length pkg /\ idents path /\ ident w /\ In w names /\ idents pkg /\
    import_rule level (path ++ [w]) pkg = Some q /\
    forall fixed c, In c (sc_cimports (scan SepOnlyOneDot [SFrom (render level path) names])) ->
                    find_pxd_cands fixed c pkg <> Some [join_dots q].
Proof.
  exists 2, [], [w_name], w_pkg, w_name, [[1]; [3]].
  split; [lia|]. split; [cbn; lia|]. split; [constructor|].
  split; [apply ident_single; discriminate|]. split; [left; reflexivity|].
  split; [exact idents_w_pkg|]. split; [reflexivity|].
  intros fixed c Hc. vm_compute in Hc.
  destruct Hc as [<-|[<-|[]]]; destruct fixed; vm_compute; discriminate.
Qed.

Theorem find_pxd_relative_matches_compiler : forall fixed ll3 fs level path pkg,
  1 <= level -> level <= length pkg -> path <> [] -> idents path ->
  find_pxd fixed fs (render level path) pkg = compiler_resolve ll3 fs level path pkg.
Proof.
  intros fixed ll3 fs level path pkg Hl Hle Hne Hid.
  destruct (resolve_relative fixed level path pkg Hl Hle Hne Hid) as (q & Hq & Hc).
  unfold find_pxd. rewrite Hc. unfold compiler_resolve. destruct level; [lia|]. rewrite Hq. reflexivity.
Qed.

Theorem find_pxd_dots_only_matches_compiler_fixed : forall ll3 fs level pkg,
  1 <= level -> level <= length pkg ->
  find_pxd true fs (render level []) pkg = compiler_resolve ll3 fs level [] pkg.
Proof.
  intros ll3 fs level pkg Hl Hle.
  destruct (resolve_dots_only_fixed level pkg Hl Hle) as (q & Hq & Hc).
  unfold find_pxd. rewrite Hc. unfold compiler_resolve. destruct level; [lia|]. rewrite Hq. reflexivity.
Qed.

(* absolute names: same file as the compiler under language_level 2 always; under language_level 3
   unless a module of that name also exists inside the importing file's own package *)
Theorem find_pxd_absolute_matches_compiler_partial : forall fixed ll3 fs path pkg,
  path <> [] -> idents path ->
  ll3 = false \/ pkg = [] \/ fs (join_dots (pkg ++ path)) = false ->
  find_pxd fixed fs (render 0 path) pkg = compiler_resolve ll3 fs 0 path pkg.
Proof.
  intros fixed ll3 fs path pkg Hne Hid H.
  unfold find_pxd. rewrite resolve_absolute by assumption. unfold compiler_resolve.
  destruct ll3; [|reflexivity].
  destruct H as [H|[->|H]]; [discriminate| |].
  - cbn [app find]. destruct (fs (join_dots path)); reflexivity.
  - cbn [find]. rewrite H. reflexivity.
Qed.

(* full statement for language_level 3 is false: finding absolute_cimport_shadowed_by_package_sibling *)
Theorem find_pxd_absolute_ll3_refuted :
  exists fs path pkg, path <> [] /\ idents path /\ idents pkg /\
    forall fixed, find_pxd fixed fs (render 0 path) pkg <> compiler_resolve true fs 0 path pkg.
Proof.
  exists (fun _ => true), [w_name], w_pkg.
  split; [discriminate|]. split; [constructor; [apply ident_single; discriminate|constructor]|].
  split; [exact idents_w_pkg|].
  intros fixed. destruct fixed; vm_compute; discriminate.
Qed.

(* package(filename): the package path is the maximal run of package directories directly above the file *)
Theorem package_of_spec : forall dirs,
  exists n, n <= length dirs /\
    package_of dirs = rev (map fst (firstn n dirs)) /\
    Forall (fun d => snd d = true) (firstn n dirs) /\
    (forall d, nth_error dirs n = Some d -> snd d = false).
Proof.
  unfold package_of. induction dirs as [|[name b] up IH].
  - exists 0. split; [cbn; lia|]. split; [reflexivity|]. split; [constructor|].
    intros d H. discriminate.
  - destruct b.
    + destruct IH as (n & Hn & He & Hf & Hl). exists (S n).
      split; [cbn; lia|]. split; [|split].
      * cbn [package_rev firstn map fst rev]. f_equal. exact He.
      * cbn [firstn]. constructor; [reflexivity|exact Hf].
      * exact Hl.
    + exists 0. split; [cbn; lia|]. split; [reflexivity|]. split; [constructor|].
      intros d H. cbn in H. inversion H. reflexivity.
Qed.
