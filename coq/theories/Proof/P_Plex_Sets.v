(* C50: finite sets of state numbers as bit sets; NFA reachability; the epsilon closure and
   highest_priority_action of DFA.py. *)
From Coq Require Import ZArith NArith List Bool Lia ZifyBool ZifyNat.
From CyVerif Require Import Model.M_Plex Proof.P_Plex_TMap.
Import ListNotations.
Open Scope Z_scope.

Lemma s_mem_empty i : s_mem i s_empty = false.
Proof. apply N.bits_0. Qed.

Lemma s_mem_add i j s : s_mem i (s_add j s) = Nat.eqb j i || s_mem i s.
Proof.
  unfold s_mem, s_add. rewrite N.setbit_eqb.
  destruct (N.eqb_spec (N.of_nat j) (N.of_nat i)), (Nat.eqb_spec j i); try lia; reflexivity.
Qed.

Lemma s_mem_union i a b : s_mem i (s_union a b) = s_mem i a || s_mem i b.
Proof. apply N.lor_spec. Qed.

Lemma s_ext a b : (forall i, s_mem i a = s_mem i b) -> a = b.
Proof.
  intros H. apply N.bits_inj. intros n. specialize (H (N.to_nat n)). unfold s_mem in H.
  rewrite N2Nat.id in H. exact H.
Qed.

Lemma s_is_empty_spec s : s_is_empty s = true <-> forall i, s_mem i s = false.
Proof.
  unfold s_is_empty. rewrite N.eqb_eq. split.
  - intros -> i. apply s_mem_empty.
  - intros H. apply s_ext. intros i. rewrite H, s_mem_empty. reflexivity.
Qed.

Lemma s_elems_spec s i : In i (s_elems s) <-> s_mem i s = true.
Proof.
  unfold s_elems. rewrite filter_In, in_seq. split; [tauto|]. intros H. split; [|exact H].
  split; [lia|]. cbn. unfold s_mem in H.
  destruct (N.eq_dec s 0) as [->|Hne]; [rewrite N.bits_0 in H; discriminate|].
  assert (N.of_nat i <= N.log2 s)%N.
  { destruct (N.le_gt_cases (N.of_nat i) (N.log2 s)) as [Hle|Hgt]; [exact Hle|].
    rewrite (N.bits_above_log2 s (N.of_nat i) Hgt) in H. discriminate. }
  rewrite N.size_log2 by exact Hne. lia.
Qed.

Definition ntrans (m : nfa) (s : nat) (e : event) : sset :=
  let st := n_get m s in
  match e with
  | EvChar c => tm_get (n_tm st) c
  | EvBol => n_bol st | EvEol => n_eol st | EvEof => n_eof st
  | EvNone => s_empty
  end.

(* t is reachable from s reading the event word w (epsilon moves anywhere) *)
Inductive nreach (m : nfa) : nat -> list event -> nat -> Prop :=
| nr_refl s : nreach m s [] s
| nr_eps s u w t : s_mem u (n_eps (n_get m s)) = true -> nreach m u w t -> nreach m s w t
| nr_ev s e u w t : s_mem u (ntrans m s e) = true -> nreach m u w t -> nreach m s (e :: w) t.

Definition ereach (m : nfa) (s t : nat) : Prop := nreach m s [] t.

Lemma nreach_app m s w1 u : nreach m s w1 u -> forall w2 t, nreach m u w2 t -> nreach m s (w1 ++ w2) t.
Proof.
  induction 1 as [s|s u' w t' He H IH|s e u' w t' He H IH]; intros w2 t2 H2; cbn [app].
  - exact H2.
  - eapply nr_eps; eauto.
  - eapply nr_ev; eauto.
Qed.

Lemma ereach_trans m a b c : ereach m a b -> ereach m b c -> ereach m a c.
Proof. intros H1 H2. exact (nreach_app m a [] b H1 [] c H2). Qed.

Definition closed (m : nfa) (S : sset) : Prop :=
  forall x y, s_mem x S = true -> s_mem y (n_eps (n_get m x)) = true -> s_mem y S = true.

Lemma closed_ereach m S : closed m S -> forall x y, ereach m x y -> s_mem x S = true -> s_mem y S = true.
Proof.
  intros Hc x y H. unfold ereach in H. remember [] as w eqn:Ew.
  induction H as [s|s u w t He H IH|s e u w t He H IH]; intros Hx; [exact Hx| |discriminate].
  apply IH; [exact Ew|]. eapply Hc; eauto.
Qed.

(* loops over `option`: fold_left (fun o x => do b <- o; g b x) *)
Lemma fold_none {A B} (f : option B -> A -> option B) :
  (forall x, f None x = None) -> forall l, fold_left f l None = None.
Proof. intros H. induction l as [|x t IH]; cbn; [reflexivity|]. rewrite H. exact IH. Qed.

Lemma fold_opt_rel {A B} (g : B -> A -> option B) (Q : B -> list A -> B -> Prop) :
  (forall a, Q a [] a) ->
  (forall a y a1 l r, g a y = Some a1 -> Q a1 l r -> Q a (y :: l) r) ->
  forall l a r, fold_left (fun o x => do b <- o; g b x) l (Some a) = Some r -> Q a l r.
Proof.
  intros Hnil Hcons. induction l as [|y l IH]; intros a r H; cbn [fold_left] in H.
  - injection H as <-. apply Hnil.
  - destruct (g a y) as [a1|] eqn:E; [|rewrite fold_none in H by reflexivity; discriminate].
    eapply Hcons; eauto.
Qed.

Lemma fold_opt_total {A B} (g : B -> A -> option B) (I : B -> Prop) (P : A -> Prop) :
  (forall a y, I a -> P y -> exists a1, g a y = Some a1 /\ I a1) ->
  forall l a, I a -> (forall y, In y l -> P y) ->
  exists r, fold_left (fun o x => do b <- o; g b x) l (Some a) = Some r.
Proof.
  intros Hstep. induction l as [|y l IH]; intros a Ia Hl; cbn [fold_left]; [eauto|].
  destruct (Hstep a y Ia (Hl y (or_introl eq_refl))) as (a1 & -> & Ia1).
  apply IH; [exact Ia1|]. intros z Hz. apply Hl. right. exact Hz.
Qed.

(* add_to_epsilon_closure / epsilon_closure / set_epsilon_closure *)
Section Eclose.
Variable m : nfa.

(* what a search from the states srcs, started with acc marked, leaves marked *)
Definition ec_post (acc : sset) (srcs : list nat) (r : sset) : Prop :=
  (forall x, s_mem x acc = true -> s_mem x r = true)
  /\ (forall y, In y srcs -> s_mem y r = true)
  /\ (forall x, s_mem x r = true -> s_mem x acc = false ->
        forall y, s_mem y (n_eps (n_get m x)) = true -> s_mem y r = true)
  /\ (forall x, s_mem x r = true -> s_mem x acc = true \/ exists y, In y srcs /\ ereach m y x).

Lemma ec_post_nil a : ec_post a [] a.
Proof. split; [auto|]. split; [intros y []|]. split; [intros x Hx Hx'; congruence|auto]. Qed.

Lemma ec_post_cons a y a1 l r : ec_post a [y] a1 -> ec_post a1 l r -> ec_post a (y :: l) r.
Proof.
  intros (A1 & A2 & A3 & A4) (B1 & B2 & B3 & B4). repeat split.
  - auto.
  - intros z [->|Hz]; [apply B1, A2; left; reflexivity|apply B2; exact Hz].
  - intros x Hx Hxa z Hz. destruct (s_mem x a1) eqn:Ex1; [apply B1; exact (A3 x Ex1 Hxa z Hz)|exact (B3 x Hx Ex1 z Hz)].
  - intros x Hx. destruct (B4 x Hx) as [Hx1|(z & Hz & Hr)].
    + destruct (A4 x Hx1) as [Ha|(z & [->|[]] & Hr)]; [left; exact Ha|].
      right. exists z. split; [left; reflexivity|exact Hr].
    + right. exists z. split; [right; exact Hz|exact Hr].
Qed.

Lemma ec_post_seen acc s : s_mem s acc = true -> ec_post acc [s] acc.
Proof.
  intros Es. split; [auto|]. split; [intros y [->|[]]; exact Es|]. split; [intros x Hx Hx'; congruence|auto].
Qed.

(* s is marked first, then the search goes on from its epsilon successors *)
Lemma ec_post_visit acc s r : s_mem s acc = false ->
  ec_post (s_add s acc) (s_elems (n_eps (n_get m s))) r -> ec_post acc [s] r.
Proof.
  intros Es (B1 & B2 & B3 & B4).
  assert (Hs_r : s_mem s r = true) by (apply B1; rewrite s_mem_add, Nat.eqb_refl; reflexivity).
  repeat split.
  - intros x Hx. apply B1. rewrite s_mem_add, Hx. apply orb_true_r.
  - intros y [->|[]]. exact Hs_r.
  - intros x Hx Hxa y Hy. destruct (Nat.eq_dec s x) as [->|Hne].
    + apply B2. apply s_elems_spec. exact Hy.
    + apply (B3 x Hx); [|exact Hy]. rewrite s_mem_add, Hxa, (proj2 (Nat.eqb_neq s x) Hne). reflexivity.
  - intros x Hx. destruct (B4 x Hx) as [Ha|(y & Hy & Hr)].
    + rewrite s_mem_add in Ha. destruct (Nat.eqb_spec s x) as [->|Hne].
      * right. exists x. split; [left; reflexivity|constructor].
      * left. exact Ha.
    + right. exists s. split; [left; reflexivity|].
      apply s_elems_spec in Hy. eapply nr_eps; eauto.
Qed.

Lemma eclose_add_spec : forall f acc s r, eclose_add f m acc s = Some r -> ec_post acc [s] r.
Proof.
  induction f as [|f IH]; intros acc s r H; [discriminate|].
  cbn [eclose_add] in H. destruct (s_mem s acc) eqn:Es.
  - injection H as <-. apply ec_post_seen. exact Es.
  - apply ec_post_visit; [exact Es|]. revert H.
    apply (fold_opt_rel (eclose_add f m) ec_post); [exact ec_post_nil|].
    intros a y a1 l r' E. apply ec_post_cons, IH. exact E.
Qed.

Lemma eclose_spec s C : eclose m s = Some C ->
  closed m C /\ forall t, s_mem t C = true <-> ereach m s t.
Proof.
  intros H. destruct (eclose_add_spec _ _ _ _ H) as (A1 & A2 & A3 & A4).
  assert (Hc : closed m C) by (intros x y Hx Hy; eapply A3; eauto; apply s_mem_empty).
  split; [exact Hc|]. intros t. split.
  - intros Ht. destruct (A4 t Ht) as [Ha|(y & [->|[]] & Hr)]; [rewrite s_mem_empty in Ha; discriminate|exact Hr].
  - intros Hr. exact (closed_ereach m C Hc s t Hr (A2 s (or_introl eq_refl))).
Qed.

Lemma eclose_set_spec ss C : eclose_set m ss = Some C ->
  closed m C /\ forall t, s_mem t C = true <-> exists s, s_mem s ss = true /\ ereach m s t.
Proof.
  intros H.
  apply (fold_opt_rel (fun a s => do c <- eclose m s; Some (s_union a c))
           (fun a l r => (closed m a -> closed m r) /\
              forall t, s_mem t r = true <-> s_mem t a = true \/ exists s, In s l /\ ereach m s t)) in H.
  - destruct H as (Hcl & Hm). split.
    + apply Hcl. intros x y Hx. rewrite s_mem_empty in Hx. discriminate.
    + intros t. rewrite Hm, s_mem_empty. setoid_rewrite s_elems_spec.
      split; [intros [H0|H0]; [discriminate|exact H0]|auto].
  - intros a. split; [auto|]. intros t. split; [auto|]. intros [H0|(s & [] & _)]; exact H0.
  - intros a y a1 l r E (Hcl & Hm). destruct (eclose m y) as [c|] eqn:Ec; [|discriminate]. injection E as <-.
    destruct (eclose_spec y c Ec) as (Hcc & Hcm). split.
    + intros Ha. apply Hcl. intros x z Hx Hz. rewrite s_mem_union in Hx |- *.
      apply orb_true_iff in Hx. apply orb_true_iff. destruct Hx as [Hx|Hx]; [left; eapply Ha; eauto|right; eapply Hcc; eauto].
    + intros t. rewrite Hm, s_mem_union, orb_true_iff, Hcm. split.
      * intros [[H0|H0]|(s & Hs & Hr)]; [left; exact H0|right; exists y; split; [left; reflexivity|exact H0]|].
        right. exists s. split; [right; exact Hs|exact Hr].
      * intros [H0|(s & [->|Hs] & Hr)]; [left; left; exact H0|left; right; exact Hr|].
        right. exists s. split; assumption.
Qed.

(* StateMap.highest_priority_action *)
Lemma best_action_spec ss :
  (best_action m ss = None /\ forall s, s_mem s ss = true -> n_prio (n_get m s) <= LOWEST_PRIORITY)
  \/ exists s, s_mem s ss = true /\ LOWEST_PRIORITY < n_prio (n_get m s)
               /\ (forall s', s_mem s' ss = true -> n_prio (n_get m s') <= n_prio (n_get m s))
               /\ best_action m ss = n_act (n_get m s).
Proof.
  unfold best_action.
  set (step := fun (b : option Z * Z) (s : nat) =>
                 let st := n_get m s in if n_prio st >? snd b then (n_act st, n_prio st) else b).
  (* after the states l: the pair is the initial one or that of a state of l above the initial
     priority, and no state of l has a higher priority *)
  assert (Hg : forall l, let r := fold_left step l (None, LOWEST_PRIORITY) in
            (forall s, In s l -> n_prio (n_get m s) <= snd r)
            /\ (r = (None, LOWEST_PRIORITY)
                \/ exists s, In s l /\ r = (n_act (n_get m s), n_prio (n_get m s)) /\ LOWEST_PRIORITY < snd r)).
  { induction l as [|y l IH] using rev_ind; cbn zeta; [split; [intros s []|left; reflexivity]|].
    rewrite fold_left_app. cbn [fold_left]. cbn zeta in IH. destruct IH as (H1 & H2).
    remember (fold_left step l (None, LOWEST_PRIORITY)) as r eqn:Er. clear Er.
    assert (H0 : LOWEST_PRIORITY <= snd r) by (destruct H2 as [->|(s & _ & _ & H)]; cbn [snd]; lia).
    unfold step. cbv beta zeta. destruct (Z.gtb_spec (n_prio (n_get m y)) (snd r)) as [Hgt|Hle].
    - split.
      + intros s Hs. apply in_app_or in Hs. cbn [snd]. destruct Hs as [Hs|[<-|[]]]; [specialize (H1 s Hs)|]; lia.
      + right. exists y. split; [apply in_or_app; right; left; reflexivity|]. split; [reflexivity|cbn [snd]; lia].
    - split.
      + intros s Hs. apply in_app_or in Hs. destruct Hs as [Hs|[<-|[]]]; [apply H1; exact Hs|lia].
      + destruct H2 as [H2|(s & Hs & E & Hl)]; [left; exact H2|right].
        exists s. split; [apply in_or_app; left; exact Hs|auto]. }
  destruct (Hg (s_elems ss)) as (H1 & H2). cbn zeta in *.
  destruct H2 as [H2|(s & Hs & Er & Hlt)].
  - left. rewrite H2 in *. split; [reflexivity|]. intros s Hs. apply (H1 s). apply s_elems_spec. exact Hs.
  - right. exists s. split; [apply s_elems_spec; exact Hs|]. rewrite Er in *. cbn [fst snd] in *.
    split; [exact Hlt|]. split; [|reflexivity]. intros s' Hs'. apply H1. apply s_elems_spec. exact Hs'.
Qed.

End Eclose.

Lemma best_action_no_member m S : (forall t, s_mem t S = false) -> best_action m S = None.
Proof.
  intros H. destruct (best_action_spec m S) as [[E _]|(s & Hs & _)]; [exact E|].
  rewrite H in Hs. discriminate.
Qed.
