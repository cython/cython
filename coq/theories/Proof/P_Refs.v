(* P_Refs - proofs for C35: the temp/ownership discipline of M_Refs keeps the refnanny ledger balanced
   on every path, for every tree and every fault oracle. *)
From Coq Require Import List Bool Arith Lia.
From CyVerif Require Import Model.M_Refs.
Import ListNotations.

Definition keys (m : fmap) : list nat := map fst m.

Lemma get_rem_same : forall k m, get k (rem k m) = None.
Proof.
  induction m as [|[k' v] m IH]; simpl; auto.
  destruct (Nat.eqb k k') eqn:E; simpl; auto. rewrite E. auto.
Qed.

Lemma get_rem_other : forall k k' m, k <> k' -> get k (rem k' m) = get k m.
Proof.
  induction m as [|[k2 v] m IH]; simpl; intros; auto.
  destruct (Nat.eqb k' k2) eqn:E.
  - apply Nat.eqb_eq in E. subst. destruct (Nat.eqb k k2) eqn:E2; auto.
    apply Nat.eqb_eq in E2. congruence.
  - simpl. destruct (Nat.eqb k k2); auto.
Qed.

Lemma rem_none : forall k m, get k m = None -> rem k m = m.
Proof.
  induction m as [|[k2 v] m IH]; simpl; intros; auto.
  destruct (Nat.eqb k k2) eqn:E; try discriminate. f_equal. auto.
Qed.

Lemma get_none_keys : forall k m, get k m = None <-> ~ In k (keys m).
Proof.
  induction m as [|[k2 v] m IH]; simpl; split; intros; auto.
  - destruct (Nat.eqb k k2) eqn:E; try discriminate. apply Nat.eqb_neq in E.
    intros [H1|H1]; [congruence|]. apply IH in H; auto.
  - destruct (Nat.eqb k k2) eqn:E.
    + apply Nat.eqb_eq in E. subst. exfalso; auto.
    + apply IH. intro; apply H; auto.
Qed.

Lemma keys_rem : forall k k' m, In k (keys (rem k' m)) -> In k (keys m) /\ k <> k'.
Proof.
  induction m as [|[k2 v] m IH]; simpl; intros; [tauto|].
  destruct (Nat.eqb k' k2) eqn:E.
  - apply IH in H. tauto.
  - simpl in H. destruct H as [H|H].
    + subst. apply Nat.eqb_neq in E. split; auto.
    + apply IH in H. tauto.
Qed.

Lemma nodup_rem : forall k m, NoDup (keys m) -> NoDup (keys (rem k m)).
Proof.
  induction m as [|[k2 v] m IH]; simpl; intros; auto.
  inversion H; subst. destruct (Nat.eqb k k2); auto.
  simpl. constructor; auto. intro Hin. apply keys_rem in Hin. tauto.
Qed.

Lemma nodup_put : forall k v m, NoDup (keys m) -> NoDup (keys (put k v m)).
Proof.
  intros. unfold put. simpl. constructor.
  - apply get_none_keys. apply get_rem_same.
  - apply nodup_rem; auto.
Qed.

Lemma nodup_put_u : forall k m, NoDup (keys m) -> NoDup (k :: keys (rem k m)).
Proof. intros k m H. apply (nodup_put k 0 m H). Qed.

Lemma cnt_rem : forall o k v m, NoDup (keys m) -> get k m = Some v ->
  cnt o (rem k m) + (if Nat.eqb v o then 1 else 0) = cnt o m.
Proof.
  induction m as [|[k2 v2] m IH]; simpl; intros Hnd Hg; [discriminate|].
  inversion Hnd; subst.
  destruct (Nat.eqb k k2) eqn:E.
  - injection Hg as ->. apply Nat.eqb_eq in E. subst.
    rewrite rem_none; [lia|]. apply get_none_keys; auto.
  - simpl. specialize (IH H2 Hg). lia.
Qed.

Lemma cnt_pos : forall o k m, get k m = Some o -> 1 <= cnt o m.
Proof.
  induction m as [|[k2 v2] m IH]; simpl; intros; [discriminate|].
  destruct (Nat.eqb k k2).
  - injection H as ->. rewrite Nat.eqb_refl. lia.
  - apply IH in H. lia.
Qed.

Lemma get_put_same : forall k v m, get k (put k v m) = Some v.
Proof. intros. unfold put. simpl. rewrite Nat.eqb_refl. auto. Qed.

Lemma get_put_other : forall k k' v m, k <> k' -> get k (put k' v m) = get k m.
Proof.
  intros. unfold put. simpl. destruct (Nat.eqb k k') eqn:E.
  - apply Nat.eqb_eq in E. congruence.
  - apply get_rem_other; auto.
Qed.

Lemma get_kbound : forall k m v, get k m = Some v -> k < kbound m.
Proof.
  induction m as [|[k2 v2] m IH]; intros v H; [discriminate|]. cbn [get kbound] in *.
  destruct (Nat.eqb k k2) eqn:E.
  - apply Nat.eqb_eq in E. lia.
  - apply IH in H. lia.
Qed.

Lemma all_none_nil : forall m, (forall k, get k m = None) -> m = [].
Proof.
  destruct m as [|[k v] m]; auto. intros H. specialize (H k). simpl in H.
  rewrite Nat.eqb_refl in H. discriminate.
Qed.

(* the invariant: ledger = live temps + owned locals + result *)
Definition cres (o : obj) (r : option obj) : nat :=
  match r with Some p => if Nat.eqb p o then 1 else 0 | None => 0 end.

Record Inv (s : state) : Prop := {
  inv_nd_t : NoDup (keys (temps s));
  inv_nd_l : NoDup (keys (locs s));
  inv_bal : forall o, bal (tr s) o = cnt o (temps s) + cnt o (locs s) + cres o (res s);
  inv_ok : nanny_errs (tr s) = 0 }.

Definition bound (s : state) (t : nat) : Prop := get t (temps s) <> None.
Definition BT (L : nat -> Prop) (s : state) : Prop := forall u, bound s u <-> L u.
Definition B (L : nat -> Prop) (s : state) : Prop := res s = None /\ BT L s.

Lemma BT_ext : forall L L' s, (forall u, L u <-> L' u) -> BT L s -> BT L' s.
Proof. unfold BT; intros. rewrite H0. auto. Qed.
Lemma B_ext : forall L L' s, (forall u, L u <-> L' u) -> B L s -> B L' s.
Proof. unfold B; intros. destruct H0; split; auto. eapply BT_ext; eauto. Qed.

(* a state that differs only in counters / flag *)
Definition same (s s' : state) : Prop :=
  temps s' = temps s /\ locs s' = locs s /\ res s' = res s /\ tr s' = tr s.

Lemma Inv_same : forall s s', same s s' -> Inv s -> Inv s'.
Proof.
  intros s s' (H1 & H2 & H3 & H4) [a b c d]. constructor.
  - rewrite H1; auto.
  - rewrite H2; auto.
  - intros o. rewrite H1, H2, H3, H4. auto.
  - rewrite H4; auto.
Qed.
Lemma BT_same : forall L s s', same s s' -> BT L s -> BT L s'.
Proof. intros L s s' (H1 & _) H u. unfold bound. rewrite H1. apply H. Qed.

Lemma same_tick : forall s, same s (tick s). Proof. repeat split. Qed.
Lemma same_atick : forall s, same s (atick s). Proof. repeat split. Qed.
Lemma same_fresh : forall s, same s (fresh s). Proof. repeat split. Qed.
Lemma same_flag : forall b s, same s (set_flag b s). Proof. repeat split. Qed.
Lemma same_trans : forall a b c, same a b -> same b c -> same a c.
Proof. unfold same; intros; intuition congruence. Qed.
Lemma same_res : forall s s', same s s' -> res s' = res s.
Proof. unfold same; tauto. Qed.

Lemma Inv_tick : forall s, Inv s -> Inv (tick s).
Proof. intros. eapply Inv_same; eauto. apply same_tick. Qed.
Lemma BT_tick : forall L s, BT L s -> BT L (tick s).
Proof. intros. eapply BT_same; eauto. apply same_tick. Qed.
Lemma Inv_flag : forall b s, Inv s -> Inv (set_flag b s).
Proof. intros. eapply Inv_same; eauto. apply same_flag. Qed.
Lemma BT_flag : forall L b s, BT L s -> BT L (set_flag b s).
Proof. intros. eapply BT_same; eauto. apply same_flag. Qed.
Lemma Inv_fresh : forall s, Inv s -> Inv (fresh s).
Proof. intros. eapply Inv_same; eauto. apply same_fresh. Qed.
Lemma BT_fresh : forall L s, BT L s -> BT L (fresh s).
Proof. intros. eapply BT_same; eauto. apply same_fresh. Qed.
Lemma Inv_atick : forall s, Inv s -> Inv (atick s).
Proof. intros. eapply Inv_same; eauto. apply same_atick. Qed.
Lemma BT_atick : forall L s, BT L s -> BT L (atick s).
Proof. intros. eapply BT_same; eauto. apply same_atick. Qed.

(* releasing a reference that some slot accounts for *)
Lemma give_some : forall s o, 1 <= bal (tr s) o -> give o s = Some (set_tr (Give o :: tr s) s).
Proof.
  intros. unfold give. destruct (Nat.eqb (bal (tr s) o) 0) eqn:E; auto.
  apply Nat.eqb_eq in E. lia.
Qed.

Lemma bound_pos : forall s t o, Inv s -> get t (temps s) = Some o -> 1 <= bal (tr s) o.
Proof. intros s t o I H. rewrite (inv_bal s I). apply cnt_pos in H. lia. Qed.
Lemma loc_pos : forall s x o, Inv s -> get x (locs s) = Some o -> 1 <= bal (tr s) o.
Proof. intros s x o I H. rewrite (inv_bal s I). apply cnt_pos in H. lia. Qed.

Lemma errs_give : forall l o, 1 <= bal l o -> nanny_errs l = 0 -> nanny_errs (Give o :: l) = 0.
Proof.
  intros l o H H0. simpl. destruct (Nat.eqb (bal l o) 0) eqn:E; auto. apply Nat.eqb_eq in E. lia.
Qed.

Lemma temp_clear_ok : forall s k o, Inv s -> get k (temps s) = Some o ->
  give o s = Some (set_tr (Give o :: tr s) s) /\ Inv (set_temps (rem k (temps s)) (set_tr (Give o :: tr s) s)).
Proof.
  intros s k o I G. pose proof (bound_pos _ _ _ I G) as Hp. split; [apply give_some; auto|].
  destruct I as [a b c d]. constructor; simpl; auto.
  - apply nodup_rem; auto.
  - intros o'. rewrite c. pose proof (cnt_rem o' k o _ a G). lia.
  - apply errs_give; auto.
Qed.

Lemma loc_clear_ok : forall s k o, Inv s -> get k (locs s) = Some o ->
  give o s = Some (set_tr (Give o :: tr s) s) /\ Inv (set_locs (rem k (locs s)) (set_tr (Give o :: tr s) s)).
Proof.
  intros s k o I G. pose proof (loc_pos _ _ _ I G) as Hp. split; [apply give_some; auto|].
  destruct I as [a b c d]. constructor; simpl; auto.
  - apply nodup_rem; auto.
  - intros o'. rewrite c. pose proof (cnt_rem o' k o _ b G). lia.
  - apply errs_give; auto.
Qed.

(* DECREF + clear of a bound temp *)
Lemma decref_clear_ok : forall s t L, Inv s -> BT L s -> L t ->
  exists s', decref_clear t s = Norm s' /\ Inv s' /\ BT (fun u => L u /\ u <> t) s' /\ res s' = res s.
Proof.
  intros s t L I HB Ht. apply HB in Ht. unfold bound in Ht.
  destruct (get t (temps s)) as [o|] eqn:G; [|congruence]. clear Ht.
  destruct (temp_clear_ok s t o I G) as (E & I').
  unfold decref_clear. rewrite G, E. eexists; split; [reflexivity|]. split; [exact I'|]. split; [|reflexivity].
  intros u. unfold bound; simpl. destruct (Nat.eq_dec u t).
  - subst. rewrite get_rem_same. split; [congruence|tauto].
  - rewrite get_rem_other; auto. rewrite <- (HB u). unfold bound. tauto.
Qed.

Lemma decref_all_ok : forall ts s L, Inv s -> BT L s -> NoDup ts -> (forall t, In t ts -> L t) ->
  exists s', decref_all ts s = Norm s' /\ Inv s' /\ BT (fun u => L u /\ ~ In u ts) s' /\ res s' = res s.
Proof.
  induction ts as [|t ts IH]; simpl; intros s L I HB Hnd Hin.
  - exists s. split; [auto|]. split; [auto|]. split; [|auto]. eapply BT_ext; [|eauto]. intros u; tauto.
  - inversion Hnd; subst.
    destruct (decref_clear_ok s t L I HB (Hin t (or_introl eq_refl))) as (s1 & E1 & I1 & B1 & R1).
    rewrite E1. simpl.
    destruct (IH s1 _ I1 B1 H2) as (s2 & E2 & I2 & B2 & R2).
    + intros u Hu. split; auto. intro; subst; auto.
    + exists s2. rewrite E2. split; [auto|]. split; [auto|]. split; [|congruence].
      eapply BT_ext; [|eauto]. intros u; simpl. intuition.
Qed.

(* a new owned reference in an unbound temp *)
Lemma new_ref_ok : forall s d o L, Inv s -> BT L s -> ~ L d ->
  exists s', new_ref d o s = Norm s' /\ Inv s' /\ BT (fun u => L u \/ u = d) s' /\ res s' = res s /\ flag s' = flag s.
Proof.
  intros s d o L I HB Hd. unfold new_ref.
  destruct (get d (temps s)) eqn:G.
  - exfalso. apply Hd, HB. unfold bound. congruence.
  - eexists; split; [reflexivity|]. destruct I as [a b c e]. split; [|split; [|split]]; simpl; auto.
    + constructor; simpl; auto.
      * apply nodup_put_u; auto.
      * intros o'. rewrite c. rewrite (rem_none _ _ G). lia.
    + intros u. unfold bound; simpl. destruct (Nat.eqb u d) eqn:E.
      * apply Nat.eqb_eq in E. split; [auto|congruence].
      * apply Nat.eqb_neq in E. rewrite get_rem_other; auto. rewrite <- (HB u). unfold bound. tauto.
Qed.

(* operand reads never get stuck when the temps they name are bound *)
Lemma rd_ok : forall s r L, Inv s -> BT L s -> (forall t, r = RTmp t -> L t) ->
  (exists o, rd s r = RdOk o) \/ rd s r = RdUnbound.
Proof.
  intros s r L I HB Hr. destruct r as [i|x|t]; simpl.
  - left; eauto.
  - destruct (get x (locs s)) eqn:G; auto. pose proof (loc_pos _ _ _ I G).
    destruct (Nat.eqb (bal (tr s) o) 0) eqn:E; [apply Nat.eqb_eq in E; lia|]. left; eauto.
  - specialize (Hr t eq_refl). apply HB in Hr. unfold bound in Hr.
    destruct (get t (temps s)) eqn:G; [|congruence]. pose proof (bound_pos _ _ _ I G).
    destruct (Nat.eqb (bal (tr s) o) 0) eqn:E; [apply Nat.eqb_eq in E; lia|]. left; eauto.
Qed.

Lemma rds_ok : forall rs s L, Inv s -> BT L s -> (forall t, In (RTmp t) rs -> L t) ->
  (exists os, rds s rs = RsOk os) \/ rds s rs = RsUnbound.
Proof.
  induction rs as [|r rs IH]; simpl; intros; [left; eauto|].
  destruct (rd_ok s r L H H0) as [[o E]|E]; [intros; subst; auto| |]; rewrite E;
    (destruct (IH s L H H0) as [[os E2]|E2]; [intros; auto| |]; rewrite E2; eauto).
Qed.

(* post-condition shape for instructions that do not touch the result slot *)
Definition post (r : result) (L' : nat -> Prop) (s : state) : Prop :=
  match r with
  | Norm s' => Inv s' /\ BT L' s' /\ res s' = res s
  | Err s' => Inv s' /\ res s' = res s
  | _ => False
  end.

Lemma step_IOp : forall O d srcs pre s L, Inv s -> BT L s ->
  (forall t, In (RTmp t) srcs -> L t) -> NoDup pre -> (forall t, In t pre -> L t) -> ~ L d ->
  post (step O (IOp d srcs pre) s) (fun u => (L u /\ ~ In u pre) \/ u = d) s.
Proof.
  intros O d srcs pre s L I HB Hs Hnd Hp Hd. simpl.
  destruct (rds_ok srcs s L I HB Hs) as [[os E]|E]; rewrite E; [|simpl; auto].
  destruct (decref_all_ok pre (tick s) L (Inv_tick s I) (BT_tick L s HB) Hnd Hp) as (s2 & E2 & I2 & B2 & R2).
  rewrite E2. simpl in R2. simpl. destruct (fail O (calls s)); simpl; [split; auto|].
  match goal with |- context [new_ref d ?o ?st] =>
    destruct (new_ref_ok st d o (fun u => L u /\ ~ In u pre) (Inv_fresh s2 I2) (BT_fresh _ s2 B2)) as (s3 & E3 & I3 & B3 & R3 & _) end.
  { tauto. }
  rewrite E3. simpl. split; [auto|]. split; [auto|]. rewrite R3. simpl. auto.
Qed.

Lemma step_IVoid : forall O srcs s L, Inv s -> BT L s -> (forall t, In (RTmp t) srcs -> L t) ->
  post (step O (IVoid srcs) s) L s.
Proof.
  intros O srcs s L I HB Hs. simpl.
  destruct (rds_ok srcs s L I HB Hs) as [[os E]|E]; rewrite E; [|simpl; auto].
  pose proof (Inv_tick s I). pose proof (BT_tick L s HB).
  destruct (fail O (calls s)); simpl; auto.
Qed.

Lemma step_ITruth : forall O r s L, Inv s -> BT L s -> (forall t, r = RTmp t -> L t) ->
  post (step O (ITruth r) s) L s.
Proof.
  intros O r s L I HB Hs. unfold step.
  destruct (rds_ok [r] s L I HB) as [[os E]|E]; [simpl; intros t [Ht|[]]; auto| |]; rewrite E; [|simpl; auto].
  pose proof (Inv_tick s I). pose proof (BT_tick L s HB).
  destruct (fail O (calls s)); simpl; auto.
  split; [apply Inv_flag; auto|]. split; [apply BT_flag; auto|auto].
Qed.

Lemma step_IAlloc : forall O d s L, Inv s -> BT L s -> ~ L d ->
  post (step O (IAlloc d) s) (fun u => L u \/ u = d) s.
Proof.
  intros O d s L I HB Hd. simpl.
  pose proof (Inv_atick s I) as Ia. pose proof (BT_atick L s HB) as Ba.
  destruct (afail O (allocs s)); simpl; auto.
  destruct (new_ref_ok (fresh (atick s)) d (nxt s) L (Inv_fresh _ Ia) (BT_fresh _ _ Ba) Hd)
    as (s3 & E3 & I3 & B3 & R3 & _).
  simpl in E3. rewrite E3. simpl. auto.
Qed.

Lemma step_IIncref : forall O d r s L, Inv s -> BT L s -> (forall t, r = RTmp t -> L t) -> ~ L d ->
  post (step O (IIncref d r) s) (fun u => L u \/ u = d) s.
Proof.
  intros O d r s L I HB Hr Hd. simpl.
  destruct (rd_ok s r L I HB Hr) as [[o E]|E]; rewrite E; [|simpl; auto].
  destruct (new_ref_ok s d o L) as (s3 & E3 & I3 & B3 & R3 & _); auto.
  rewrite E3. simpl. auto.
Qed.

Lemma step_IGiveB : forall O r s L, Inv s -> BT L s -> (forall t, r = RTmp t -> L t) ->
  post (step O (IGiveB r) s) L s.
Proof.
  intros O r s L I HB Hr. simpl.
  destruct (rd_ok s r L I HB Hr) as [[o E]|E]; rewrite E; [|simpl; auto].
  unfold give, got. simpl. rewrite Nat.eqb_refl. simpl. destruct I as [a b c e].
  split; [|split; [|auto]].
  - constructor; simpl; auto.
    + intros o'. rewrite <- c. destruct (Nat.eqb o o'); lia.
    + rewrite Nat.eqb_refl. simpl. auto.
  - intros u. apply (HB u).
Qed.

Lemma step_IDecref : forall O t s L, Inv s -> BT L s -> L t ->
  post (step O (IDecref t) s) (fun u => L u /\ u <> t) s.
Proof.
  intros O t s L I HB Ht.
  destruct (decref_clear_ok s t L I HB Ht) as (s1 & E1 & I1 & B1 & R1).
  simpl. rewrite E1. simpl. auto.
Qed.

(* GIVEREF + SET_ITEM + clear: the ledger sees the same as for a DECREF *)
Lemma step_ISteal : forall O t s L, Inv s -> BT L s -> L t ->
  post (step O (ISteal t) s) (fun u => L u /\ u <> t) s.
Proof. exact step_IDecref. Qed.

(* taking ownership of an operand: the reference now lives in "hand" (one unit above the slots) *)
Definition InvPlus (o : obj) (s : state) : Prop :=
  NoDup (keys (temps s)) /\ NoDup (keys (locs s)) /\ nanny_errs (tr s) = 0 /\
  forall o', bal (tr s) o' = cnt o' (temps s) + cnt o' (locs s) + cres o' (res s) + (if Nat.eqb o o' then 1 else 0).

(* the balance equations count through cnt and cres, which test objects with Nat.eqb: decide every test, then lia *)
Ltac b2n := repeat match goal with |- context [Nat.eqb ?a ?b] => destruct (Nat.eqb a b) end.

Lemma take_ok : forall r s L k (Q : result -> Prop), Inv s -> BT L s -> (forall t, In t (tmp_of r) -> L t) ->
  (forall o s1, InvPlus o s1 -> BT (fun u => L u /\ ~ In u (tmp_of r)) s1 -> res s1 = res s -> locs s1 = locs s ->
      Q (k o s1)) ->
  Q (Err s) -> Q (take r s k).
Proof.
  intros r s L k Q I HB Hr Hk He.
  assert (Hinc : forall o, tmp_of r = [] -> Q (k o (got o s))).   (* not a temp: INCREF *)
  { intros o Hn. destruct I as [a b c e]. apply Hk; simpl; auto.
    - repeat split; simpl; auto. intros o'. rewrite c. lia.
    - intros u. rewrite <- (HB u), Hn. unfold bound; simpl. tauto. }
  destruct r as [i|x|t]; cbn [take].
  - destruct (rd_ok s (RArg i) L I HB) as [[o E]|E]; [intros; discriminate| |]; rewrite E; [apply Hinc; reflexivity|exact He].
  - destruct (rd_ok s (RLoc x) L I HB) as [[o E]|E]; [intros; discriminate| |]; rewrite E; [apply Hinc; reflexivity|exact He].
  - destruct I as [a b c e]. specialize (Hr t (or_introl eq_refl)). apply HB in Hr. unfold bound in Hr.
    destruct (get t (temps s)) eqn:G; [|congruence].
    apply Hk; simpl; auto.
    + repeat split; simpl; auto. apply nodup_rem; auto.
      intros o'. rewrite c. pose proof (cnt_rem o' t o _ a G). rewrite (Nat.eqb_sym o o') in *. b2n; lia.
    + intros u. unfold bound; simpl. destruct (Nat.eq_dec u t).
      * subst. rewrite get_rem_same. split; [congruence|]. intros [_ H]. destruct H; auto.
      * rewrite get_rem_other; auto. rewrite <- (HB u). unfold bound. split; [split; [tauto|intros [|[]]; congruence]|tauto].
Qed.

Lemma step_ISetLoc : forall O x r s L, Inv s -> BT L s -> (forall t, In t (tmp_of r) -> L t) ->
  post (step O (ISetLoc x r) s) (fun u => L u /\ ~ In u (tmp_of r)) s.
Proof.
  intros O x r s L I HB Hr. simpl. apply take_ok with (L := L); auto; [|simpl; auto].
  intros o s1 (a & b & e & c) HB1 R1 _. unfold release_old.
  destruct (get x (locs s1)) as [p|] eqn:G.
  - assert (Hp : 1 <= bal (tr s1) p) by (rewrite c; apply cnt_pos in G; lia).
    unfold give. simpl. destruct (Nat.eqb (bal (tr s1) p) 0) eqn:E; [apply Nat.eqb_eq in E; lia|].
    simpl. split; [|split; [|auto]].
    + constructor; simpl; auto.
      * apply nodup_put_u; auto.
      * intros o'. rewrite c. pose proof (cnt_rem o' x p _ b G). rewrite (Nat.eqb_sym o o'). b2n; lia.
      * rewrite E. simpl. auto.
    + intros u. apply (HB1 u).
  - simpl. split; [|split; [|auto]].
    + constructor; simpl; auto.
      * apply nodup_put_u; auto.
      * intros o'. rewrite c. rewrite (rem_none _ _ G). rewrite (Nat.eqb_sym o o'). b2n; lia.
    + intros u. apply (HB1 u).
Qed.

(* the return value: afterwards the result slot is occupied *)
Lemma step_ISetRes : forall O r s L, Inv s -> B L s -> (forall t, In t (tmp_of r) -> L t) ->
  match step O (ISetRes r) s with
  | Norm s' => Inv s' /\ BT (fun u => L u /\ ~ In u (tmp_of r)) s'
  | Err s' => Inv s' /\ res s' = None
  | _ => False
  end.
Proof.
  intros O r s L I [Rn HB] Hr. simpl. apply take_ok with (L := L); auto; try (simpl; auto; fail).
  intros o s1 (a & b & e & c) HB1 R1 _. rewrite R1, Rn. simpl.
  split.
  - constructor; simpl; auto.
    intros o'. rewrite c, R1, Rn. simpl. rewrite (Nat.eqb_sym o o'). b2n; lia.
  - intros u. apply (HB1 u).
Qed.

Lemma step_INext : forall O d it s L, Inv s -> BT L s -> L it -> ~ L d ->
  match step O (INext d it) s with
  | Norm s' => Inv s' /\ res s' = res s /\
               if flag s' then BT (fun u => L u \/ u = d) s' else BT L s'
  | Err s' => Inv s' /\ res s' = res s
  | _ => False
  end.
Proof.
  intros O d it s L I HB Hit Hd. unfold step.
  destruct (rd_ok s (RTmp it) L I HB) as [[o E]|E]; [intros t [= <-]; auto| |]; rewrite E; [|simpl; auto].
  pose proof (Inv_tick s I) as It. pose proof (BT_tick L s HB) as Bt.
  destruct (fail O (calls s)); [simpl; auto|].
  destruct (more O (calls s)).
  - assert (I2 : Inv (set_flag true (fresh (tick s)))) by (apply Inv_flag, Inv_fresh; auto).
    assert (B2 : BT L (set_flag true (fresh (tick s)))) by (apply BT_flag, BT_fresh; auto).
    destruct (new_ref_ok (set_flag true (fresh (tick s))) d (nxt s) L I2 B2 Hd) as (s3 & E3 & I3 & B3 & R3 & F3).
    simpl in E3. rewrite E3. rewrite F3. simpl. auto.
  - simpl. split; [apply Inv_flag; auto|]. split; [auto|]. apply BT_flag; auto.
Qed.

Definition triple (O : orc) (L : nat -> Prop) (c : list instr) (L' : nat -> Prop) : Prop :=
  forall s, Inv s -> B L s ->
    match run O c s with
    | Norm s' => Inv s' /\ B L' s'
    | Err s' => Inv s' /\ res s' = None
    | _ => False
    end.

Lemma triple_nil : forall O L, triple O L [] L.
Proof. intros O L s I HB. simpl. auto. Qed.

Lemma triple_ext : forall O L c L1 L2, (forall u, L1 u <-> L2 u) -> triple O L c L1 -> triple O L c L2.
Proof.
  intros O L c L1 L2 H T s I HB. specialize (T s I HB). destruct (run O c s); auto.
  destruct T; split; auto. eapply B_ext; eauto.
Qed.

Lemma run_app : forall O c1 c2 s, run O (c1 ++ c2) s = bind (run O c1 s) (run O c2).
Proof.
  induction c1; simpl; intros; auto. destruct (step O a s); simpl; auto.
Qed.

Lemma triple_app : forall O L c1 L1 c2 L2, triple O L c1 L1 -> triple O L1 c2 L2 -> triple O L (c1 ++ c2) L2.
Proof.
  intros O L c1 L1 c2 L2 T1 T2 s I HB. rewrite run_app. specialize (T1 s I HB).
  destruct (run O c1 s); simpl; auto. destruct T1. apply T2; auto.
Qed.

Lemma triple_one : forall O L i L',
  (forall s, Inv s -> BT L s -> post (step O i s) L' s) -> triple O L [i] L'.
Proof.
  intros O L i L' H s I [Rn HB]. specialize (H s I HB). simpl. unfold post in H.
  destruct (step O i s); simpl; auto.
  - destruct H as (a & b & c). split; auto. split; auto. congruence.
  - destruct H. split; auto. congruence.
Qed.

Lemma triple_cons : forall O L i L1 c L2, triple O L [i] L1 -> triple O L1 c L2 -> triple O L (i :: c) L2.
Proof. intros O L i L1 c L2 H1 H2. exact (triple_app O L [i] L1 c L2 H1 H2). Qed.

Lemma run_decrefs_eq : forall O ts s, run O (map IDecref ts) s = decref_all ts s.
Proof.
  induction ts as [|t ts IH]; simpl; intros; auto.
  destruct (decref_clear t s); simpl; auto.
Qed.

Lemma triple_decrefs : forall O ts (L : nat -> Prop), NoDup ts -> (forall t, In t ts -> L t) ->
  triple O L (map IDecref ts) (fun u => L u /\ ~ In u ts).
Proof.
  intros O ts L Hnd Hin s I [Rn HB]. rewrite run_decrefs_eq.
  destruct (decref_all_ok ts s L I HB Hnd Hin) as (s' & E & I' & B' & R'). rewrite E.
  split; [exact I'|]. split; [congruence|exact B'].
Qed.

Lemma in_tmps_of : forall rs t, In t (tmps_of rs) <-> In (RTmp t) rs.
Proof.
  induction rs as [|r rs IH]; simpl; intros; [tauto|].
  rewrite in_app_iff, IH. destruct r as [i|x|t0]; simpl.
  - intuition discriminate.
  - intuition discriminate.
  - split.
    + intros [[H|[]]|H]; [subst; auto|auto].
    + intros [H|H]; [injection H as ->; auto|auto].
Qed.

Lemma triple_gives : forall O rs (L : nat -> Prop), NoDup (tmps_of rs) -> (forall t, In t (tmps_of rs) -> L t) ->
  triple O L (map give_of rs) (fun u => L u /\ ~ In u (tmps_of rs)).
Proof.
  induction rs as [|r rs IH]; simpl; intros L Hnd Hin.
  - eapply triple_ext; [|apply triple_nil]. simpl; tauto.
  - destruct r as [i|x|t]; simpl in *.
    + eapply triple_cons with (L1 := L); [|apply IH; auto].
      apply triple_one. intros. apply step_IGiveB; auto. discriminate.
    + eapply triple_cons with (L1 := L); [|apply IH; auto].
      apply triple_one. intros. apply step_IGiveB; auto. discriminate.
    + inversion Hnd; subst. eapply triple_ext; [|eapply triple_cons with (L1 := fun u => L u /\ u <> t)].
      2:{ apply triple_one. intros. apply step_ISteal; auto. }
      2:{ apply IH; auto. intros u Hu. split; auto. intro; subst; auto. }
      simpl. intros u. intuition.
Qed.

Definition wfA (A : astate) : Prop := NoDup (afree A) /\ forall t, In t (afree A) -> t < anext A.
Definition inuse (A : astate) (t : nat) : Prop := t < anext A /\ ~ In t (afree A).

Lemma nodup_app : forall l1 l2 : list nat, NoDup l1 -> NoDup l2 -> (forall u, In u l1 -> ~ In u l2) -> NoDup (l1 ++ l2).
Proof.
  induction l1 as [|a l1 IH]; simpl; intros l2 N1 N2 D; [exact N2|].
  inversion N1; subst. constructor.
  - rewrite in_app_iff. intros [H|H]; [auto|]. exact (D a (or_introl eq_refl) H).
  - apply IH; auto.
Qed.

Definition grown (A : astate) (ts : list nat) (A' : astate) : Prop :=
  wfA A' /\ NoDup ts /\ (forall u, In u ts -> ~ inuse A u) /\ forall u, inuse A' u <-> inuse A u \/ In u ts.

Lemma grown_refl : forall A, wfA A -> grown A [] A.
Proof. intros A W. split; [exact W|]. split; [constructor|]. split; [intros u []|]. intros u; simpl; tauto. Qed.

Lemma grown_same : forall A A', grown A [] A' -> forall u, inuse A' u <-> inuse A u.
Proof. intros A A' (_ & _ & _ & U) u. rewrite U. simpl. tauto. Qed.

Lemma grown_alloc : forall A t A', alloc A = (t, A') -> wfA A -> grown A [t] A'.
Proof.
  intros [n f] t A' H [Hnd Hlt]. unfold alloc in H. simpl in *. destruct f as [|t0 f].
  - injection H as <- <-. unfold grown, wfA, inuse; simpl.
    split; [split; [constructor|intros u []]|]. split; [repeat constructor; auto|].
    split; [intros u [<-|[]] [H _]; lia|].
    intros u; split.
    + intros [H1 H2]. destruct (Nat.eq_dec n u); [auto|left; split; [lia|auto]].
    + intros [[H1 H2]|[<-|[]]]; (split; [lia|auto]).
  - injection H as <- <-. inversion Hnd as [|? ? Hn1 Hn2]; subst. unfold grown, wfA, inuse; simpl.
    split; [split; [auto|intros u Hu; apply Hlt; right; auto]|]. split; [repeat constructor; auto|].
    split; [intros u [<-|[]] [_ H]; apply H; auto|].
    intros u; split.
    + intros [H1 H2]. destruct (Nat.eq_dec t0 u); [auto|]. left; split; auto.
      intros [H|H]; [congruence|auto].
    + intros [[H1 H2]|[<-|[]]].
      * split; auto.
      * split; [apply Hlt; left; auto|auto].
Qed.

Lemma grown_app : forall A ts1 A1 ts2 A2, grown A ts1 A1 -> grown A1 ts2 A2 -> grown A (ts1 ++ ts2) A2.
Proof.
  intros A ts1 A1 ts2 A2 (W1 & N1 & F1 & U1) (W2 & N2 & F2 & U2). split; [exact W2|]. split; [|split].
  - apply nodup_app; auto. intros u H1 H2. apply (F2 u H2), U1. auto.
  - intros u Hu. apply in_app_iff in Hu. destruct Hu as [Hu|Hu]; [auto|]. intro Hx. apply (F2 u Hu), U1. auto.
  - intros u. rewrite U2, U1, in_app_iff. tauto.
Qed.

Lemma release_ok : forall A t, wfA A -> inuse A t ->
  wfA (release t A) /\ (forall u, inuse (release t A) u <-> inuse A u /\ u <> t).
Proof.
  intros [n f] t [Hnd Hlt] [H1 H2]. unfold wfA, inuse, release in *; simpl in *.
  split; [split|].
  - constructor; auto.
  - intros u [<-|H]; auto.
  - intros u; split.
    + intros [Ha Hb]. split; [split; auto|intro; subst; auto].
    + intros [[Ha Hb] Hc]. split; auto. intros [H|H]; [congruence|auto].
Qed.

Lemma grown_release : forall A l1 t l2 A', grown A (l1 ++ t :: l2) A' -> grown A (l1 ++ l2) (release t A').
Proof.
  intros A l1 t l2 A' (W & N & F & U). destruct (NoDup_remove _ _ _ N) as [N' Ht].
  destruct (release_ok A' t W) as [W' U']. { apply U. right. apply in_elt. }
  split; [exact W'|]. split; [exact N'|]. split.
  - intros u Hu. apply F. rewrite in_app_iff in *. simpl. tauto.
  - intros u. rewrite U', U. split.
    + intros [[H|H] Hn]; [auto|]. right. apply in_elt_inv in H. destruct H; [congruence|auto].
    + intros [H|H]; (split; [|intros ->]).
      * auto.
      * apply (F t); [apply in_elt|auto].
      * right. rewrite in_app_iff in *. simpl. tauto.
      * auto.
Qed.

Lemma grown_release_all : forall ts A l1 l2 A', grown A (l1 ++ ts ++ l2) A' -> grown A (l1 ++ l2) (release_all ts A').
Proof.
  induction ts as [|t ts IH]; intros A l1 l2 A' H; [exact H|].
  apply (IH A l1 l2 (release t A')), grown_release, H.
Qed.

Lemma grown_release_tail : forall A l ts A', grown A (l ++ ts) A' -> grown A l (release_all ts A').
Proof.
  intros A l ts A' H. rewrite <- (app_nil_r ts) in H. rewrite <- (app_nil_r l). exact (grown_release_all ts A l [] A' H).
Qed.

Lemma inuse_list_ok : forall A u, In u (inuse_list A) <-> inuse A u.
Proof.
  intros A u. unfold inuse_list, inuse. rewrite filter_In, in_seq, negb_true_iff.
  split.
  - intros [H1 H2]. split; [lia|]. intro Hin. assert (existsb (Nat.eqb u) (afree A) = true).
    { apply existsb_exists. exists u. split; auto. apply Nat.eqb_refl. } congruence.
  - intros [H1 H2]. split; [lia|]. destruct (existsb (Nat.eqb u) (afree A)) eqn:E; auto.
    apply existsb_exists in E. destruct E as (x & Hx & E). apply Nat.eqb_eq in E. subst. tauto.
Qed.

Lemma inuse_list_nodup : forall A, NoDup (inuse_list A).
Proof. intros. unfold inuse_list. apply NoDup_filter. apply seq_NoDup. Qed.

Lemma nodup_tmp_of : forall r, NoDup (tmp_of r).
Proof. destruct r; simpl; repeat constructor; auto. Qed.
Lemma in_tmp_of : forall r u, In u (tmp_of r) <-> r = RTmp u.
Proof. destruct r; simpl; intuition; try discriminate; subst; auto. injection H as ->; auto. Qed.

Definition expr_ok (e : expr) : Prop :=
  forall A c r A', gen_expr e A = (c, r, A') -> wfA A ->
    wfA A' /\ (forall u, inuse A' u <-> inuse A u \/ r = RTmp u) /\ (forall u, r = RTmp u -> ~ inuse A u) /\
    forall O (L : nat -> Prop), (forall u, L u -> inuse A u) -> triple O L c (fun u => L u \/ r = RTmp u).

(* code emitted between the allocator states A and A' that binds exactly the new temps ts, whatever older
   temps L are bound besides *)
Definition adds (A : astate) (c : list instr) (ts : list nat) (A' : astate) : Prop :=
  grown A ts A' /\
  forall O (L : nat -> Prop), (forall u, L u -> inuse A u) -> triple O L c (fun u => L u \/ In u ts).

Lemma adds_nil : forall A, wfA A -> adds A [] [] A.
Proof.
  intros A W. split; [exact (grown_refl A W)|]. intros O L _. eapply triple_ext; [|apply triple_nil]. simpl; tauto.
Qed.

Lemma adds_app : forall A c1 ts1 A1 c2 ts2 A2, adds A c1 ts1 A1 -> adds A1 c2 ts2 A2 -> adds A (c1 ++ c2) (ts1 ++ ts2) A2.
Proof.
  intros A c1 ts1 A1 c2 ts2 A2 [F1 T1] [F2 T2]. split; [exact (grown_app _ _ _ _ _ F1 F2)|].
  intros O L HL. destruct F1 as (_ & _ & _ & U1).
  eapply triple_ext; [|eapply triple_app; [apply T1, HL|apply T2]].
  - intros u. simpl. rewrite in_app_iff. tauto.
  - intros u [H|H]; apply U1; auto.
Qed.

Lemma expr_adds : forall e, expr_ok e -> forall A c r A', gen_expr e A = (c, r, A') -> wfA A -> adds A c (tmp_of r) A'.
Proof.
  intros e He A c r A' G W. destruct (He A c r A' G W) as (W' & U & N & T). split.
  - split; [exact W'|]. split; [apply nodup_tmp_of|]. split.
    + intros u Hu. apply N, in_tmp_of, Hu.
    + intros u. rewrite U, in_tmp_of. tauto.
  - intros O L HL. eapply triple_ext; [|apply T, HL]. intros u. simpl. rewrite in_tmp_of. tauto.
Qed.

Lemma adds_expr : forall e,
  (forall A c r A', gen_expr e A = (c, r, A') -> wfA A -> adds A c (tmp_of r) A') -> expr_ok e.
Proof.
  intros e H A c r A' G W. destruct (H A c r A' G W) as [(W' & _ & F & U) T].
  split; [exact W'|]. split; [|split].
  - intros u. rewrite U, in_tmp_of. tauto.
  - intros u Hu. apply F, in_tmp_of, Hu.
  - intros O L HL. eapply triple_ext; [|apply T, HL]. intros u. simpl. rewrite in_tmp_of. tauto.
Qed.

Definition exprs_ok (es : exprs) : Prop :=
  forall A c rs A', gen_list es A = (c, rs, A') -> wfA A -> adds A c (tmps_of rs) A'.

Scheme expr_mut := Induction for expr Sort Prop
  with exprs_mut := Induction for exprs Sort Prop.
Combined Scheme expr_exprs_ind from expr_mut, exprs_mut.

(* an expression node: the temps pre are reserved in front of the operand code c, which binds ts; the temps post
   are allocated behind it; the code k consumes ts and binds d, one of the reserved temps, which alone stays in use *)
Lemma adds_node : forall A pre A0 c ts A1 post A2 d k A',
  grown A pre A0 -> adds A0 c ts A1 -> grown A1 post A2 -> In d (pre ++ post) -> grown A [d] A' ->
  (forall O (L : nat -> Prop), NoDup ts -> (forall u, In u ts -> ~ L u) -> ~ L d -> ~ In d ts ->
     triple O (fun u => L u \/ In u ts) k (fun u => L u \/ u = d)) ->
  adds A (c ++ k) [d] A'.
Proof.
  intros A pre A0 c ts A1 post A2 d k A' (_ & _ & Fp & Up) [(_ & N & Ft & Ut) T] (_ & _ & Fq & _) Hd F' Tail.
  split; [exact F'|]. intros O L HL. apply in_app_iff in Hd.
  assert (HL0 : forall u, L u -> inuse A0 u) by (intros u Hu; apply Up; auto).
  eapply triple_ext; [|eapply triple_app; [exact (T O L HL0)|apply Tail; [exact N| | |]]].
  - intros u. simpl. intuition.
  - intros u Hu Hl. exact (Ft u Hu (HL0 u Hl)).
  - intro Hl. destruct Hd as [Hd|Hd]; [exact (Fp d Hd (HL d Hl))|]. apply (Fq d Hd), Ut. auto.
  - intro Hx. destruct Hd as [Hd|Hd]; [apply (Ft d Hx), Up; auto|apply (Fq d Hd), Ut; auto].
Qed.

(* EOp and ESeq: an operand list, a result temp d, and code [tail] that consumes the operand temps and binds d *)
Lemma expr_ok_collect : forall es (tail : nat -> list rand -> list instr), exprs_ok es ->
  (forall O (L : nat -> Prop) d rs, NoDup (tmps_of rs) -> (forall u, In u (tmps_of rs) -> ~ L u) -> ~ L d ->
     ~ In d (tmps_of rs) ->
     triple O (fun u => L u \/ In u (tmps_of rs)) (tail d rs) (fun u => L u \/ u = d)) ->
  forall A c r A',
    (let '(c, rs, A1) := gen_list es A in
     let '(d, A2) := alloc A1 in (c ++ tail d rs, RTmp d, release_all (tmps_of rs) A2)) = (c, r, A') -> wfA A ->
    adds A c (tmp_of r) A'.
Proof.
  intros es tail IH Tail A c r A' H W.
  destruct (gen_list es A) as [[c0 rs] A1] eqn:G. destruct (alloc A1) as [d A2] eqn:Al.
  injection H as <- <- <-. pose proof (IH _ _ _ _ G W) as AD.
  pose proof (grown_alloc _ _ _ Al (proj1 (proj1 AD))) as Fd.
  apply (adds_node A [] A c0 (tmps_of rs) A1 [d] A2 d _ _ (grown_refl A W) AD Fd); [left; reflexivity| |exact (fun O L => Tail O L d rs)].
  exact (grown_release_all _ A [] [d] A2 (grown_app _ _ _ _ _ (proj1 AD) Fd)).
Qed.

Lemma tail_op : forall O (L : nat -> Prop) d rs, NoDup (tmps_of rs) -> (forall u, In u (tmps_of rs) -> ~ L u) ->
  ~ L d -> ~ In d (tmps_of rs) ->
  triple O (fun u => L u \/ In u (tmps_of rs)) ([IOp d rs []] ++ map IDecref (tmps_of rs)) (fun u => L u \/ u = d).
Proof.
  intros O L d rs Nd Dj Hd HdT.
  eapply triple_ext; [|eapply triple_cons with (L1 := fun u => ((L u \/ In u (tmps_of rs)) /\ ~ In u []) \/ u = d)].
  2:{ apply triple_one. intros s I HB.
      apply (step_IOp O d rs [] s (fun u => L u \/ In u (tmps_of rs))); auto.
      - intros t Ht. right. apply in_tmps_of; auto.
      - constructor.
      - intros t [].
      - intros [H|H]; auto. }
  2:{ apply triple_decrefs; auto. }
  simpl. intros u. split.
  - intros [[[[H|H] _]|H] H']; [auto|tauto|auto].
  - intros [H|H]; [|subst; auto]. split; [left; split; auto|]. intro Hu. apply (Dj u Hu H).
Qed.

Lemma tail_seq : forall O (L : nat -> Prop) d rs, NoDup (tmps_of rs) -> (forall u, In u (tmps_of rs) -> ~ L u) ->
  ~ L d -> ~ In d (tmps_of rs) ->
  triple O (fun u => L u \/ In u (tmps_of rs)) ([IAlloc d] ++ map give_of rs) (fun u => L u \/ u = d).
Proof.
  intros O L d rs Nd Dj Hd HdT.
  eapply triple_ext; [|eapply triple_cons with (L1 := fun u => (L u \/ In u (tmps_of rs)) \/ u = d)].
  2:{ apply triple_one. intros s I HB. apply step_IAlloc; auto. intros [H|H]; auto. }
  2:{ apply triple_gives; auto. }
  simpl. intros u. split.
  - intros [[[H|H]|H] H']; [auto|tauto|auto].
  - intros [H|H]; [|subst; auto]. split; [left; auto|]. intro Hu. apply (Dj u Hu H).
Qed.

Lemma tail_call : forall O (L : nat -> Prop) d ft rs, NoDup (ft :: tmps_of rs) ->
  (forall u, In u (ft :: tmps_of rs) -> ~ L u) -> ~ L d -> ~ In d (ft :: tmps_of rs) ->
  triple O (fun u => L u \/ In u (ft :: tmps_of rs)) [IOp d (RTmp ft :: rs) (tmps_of rs ++ [ft])] (fun u => L u \/ u = d).
Proof.
  intros O L d ft rs Nd Dj Hd HdT. apply NoDup_cons_iff in Nd.
  eapply triple_ext; [|apply triple_one; intros s I HB; apply (step_IOp O d (RTmp ft :: rs) (tmps_of rs ++ [ft]) s _ I HB)].
  - intros u. simpl. rewrite in_app_iff. simpl. split.
    + intros [[[H|H] Hn]|H]; [auto|tauto|auto].
    + intros [H|H]; [left|auto]. split; [auto|]. intro Hx. apply (Dj u); [simpl; tauto|auto].
  - intros t [[= <-]|Ht]; right; [left; reflexivity|right; apply in_tmps_of, Ht].
  - apply nodup_app; [tauto|repeat constructor; auto|]. intros u Hu [<-|[]]. tauto.
  - intros t Ht. right. apply in_app_iff in Ht. simpl in *. tauto.
  - simpl in *. tauto.
Qed.

Lemma adds_incref : forall A t A' r, alloc A = (t, A') -> wfA A -> (forall u, r <> RTmp u) -> adds A [IIncref t r] [t] A'.
Proof.
  intros A t A' r Al W Hr. pose proof (grown_alloc _ _ _ Al W) as F. split; [exact F|].
  intros O L HL. destruct F as (_ & _ & Fr & _).
  eapply triple_ext; [|apply triple_one; intros s I HB; apply (step_IIncref O t r s L); auto].
  - intros u. simpl. intuition.
  - intros u Hu. destruct (Hr u Hu).
  - intro Hl. exact (Fr t (or_introl eq_refl) (HL t Hl)).
Qed.

(* the function of a call in an owned temp ft: the result temp of f, or a new temp holding an INCREF-ed copy *)
Lemma fun_temp_ok : forall f, expr_ok f -> forall A cf rf A3 cf2 ft A4, gen_expr f A = (cf, rf, A3) -> wfA A ->
  match rf with RTmp t => ([], t, A3) | _ => let '(t, A') := alloc A3 in ([IIncref t rf], t, A') end = (cf2, ft, A4) ->
  adds A (cf ++ cf2) [ft] A4.
Proof.
  intros f IHf A cf rf A3 cf2 ft A4 Gf W EF. pose proof (expr_adds f IHf _ _ _ _ Gf W) as AF.
  destruct rf as [i|x|t]; cbn [tmp_of] in AF.
  - destruct (alloc A3) as [t A'] eqn:Al. injection EF as <- <- <-.
    apply (adds_app _ _ _ _ _ _ _ AF), (adds_incref _ _ _ _ Al (proj1 (proj1 AF))). discriminate.
  - destruct (alloc A3) as [t A'] eqn:Al. injection EF as <- <- <-.
    apply (adds_app _ _ _ _ _ _ _ AF), (adds_incref _ _ _ _ Al (proj1 (proj1 AF))). discriminate.
  - injection EF as <- <- <-. rewrite app_nil_r. exact AF.
Qed.

Lemma expr_ok_call : forall f, expr_ok f -> forall es, exprs_ok es -> expr_ok (ECall f es).
Proof.
  intros f IHf es IHes. apply adds_expr. intros A c r A' Hgen W. cbn [gen_expr] in Hgen.
  destruct (alloc A) as [d A1] eqn:Al1. destruct (alloc A1) as [sf A2] eqn:Al2.
  destruct (gen_expr f A2) as [[cf rf] A3] eqn:Gf.
  destruct (match rf with RTmp t => ([], t, A3) | _ => let '(t, A') := alloc A3 in ([IIncref t rf], t, A') end)
    as [[cf2 ft] A4] eqn:EF.
  destruct (gen_list es A4) as [[ca rs] A5] eqn:Ga. injection Hgen as <- <- <-.
  (* d and the self_arg temp sf are in use but unbound while the function and the arguments run *)
  pose proof (grown_alloc _ _ _ Al1 W) as F1.
  pose proof (grown_app _ _ _ _ _ F1 (grown_alloc _ _ _ Al2 (proj1 F1))) as F2.
  pose proof (fun_temp_ok f IHf _ _ _ _ _ _ _ Gf (proj1 F2) EF) as AF.
  pose proof (adds_app _ _ _ _ _ _ _ AF (IHes _ _ _ _ Ga (proj1 (proj1 AF)))) as AD.
  rewrite !app_assoc.
  apply (adds_node A [d; sf] A2 _ _ A5 [] A5 d _ _ F2 AD (grown_refl _ (proj1 (proj1 AD))));
    [left; reflexivity| |intros; apply tail_call; assumption].
  (* of d, sf, ft and the argument temps only d stays in use *)
  apply (grown_release A [d] ft []), (grown_release_tail A [d; ft]), (grown_release A [d] sf).
  exact (grown_app _ _ _ _ _ F2 (proj1 AD)).
Qed.

Lemma exprs_ok_cons : forall e, expr_ok e -> forall es, exprs_ok es -> exprs_ok (ECons e es).
Proof.
  intros e IHe es IHes A c rs A' H W. cbn [gen_list] in H.
  destruct (gen_expr e A) as [[c1 r] A1] eqn:G1. destruct (gen_list es A1) as [[c2 rs2] A2] eqn:G2.
  injection H as <- <- <-. pose proof (expr_adds e IHe _ _ _ _ G1 W) as A1'.
  exact (adds_app _ _ _ _ _ _ _ A1' (IHes _ _ _ _ G2 (proj1 (proj1 A1')))).
Qed.

Lemma gen_ok : (forall e, expr_ok e) /\ (forall es, exprs_ok es).
Proof.
  apply expr_exprs_ind.
  - intros i. apply adds_expr. intros A c r A' [= <- <- <-]. apply adds_nil.
  - intros x. apply adds_expr. intros A c r A' [= <- <- <-]. apply adds_nil.
  - intros es IH. apply adds_expr.
    exact (expr_ok_collect es (fun d rs => [IOp d rs []] ++ map IDecref (tmps_of rs)) IH tail_op).
  - intros es IH. apply adds_expr.
    exact (expr_ok_collect es (fun d rs => [IAlloc d] ++ map give_of rs) IH tail_seq).
  - exact expr_ok_call.
  - intros A c rs A' [= <- <- <-]. apply adds_nil.
  - exact exprs_ok_cons.
Qed.

Lemma cseq_exec : forall O fuel c k s,
  exec O fuel (cseq c k) s = match run O c s with Norm s' => exec O fuel k s' | r => r end.
Proof.
  induction c as [|i c IH]; simpl; intros; auto. destruct (step O i s); simpl; auto.
Qed.

(* what a statement may end in, from a state with exactly the temps L bound and no result yet *)
Definition sok (inl : bool) (L : nat -> Prop) (r : result) : Prop :=
  match r with
  | Norm s' => Inv s' /\ B L s'
  | Brk s' | Cnt s' => inl = true /\ Inv s' /\ B L s'
  | Err s' => Inv s' /\ res s' = None
  | Ret s' => Inv s' /\ BT (fun _ => False) s'
  | Stuck _ => False
  | Fuel => True
  end.

Lemma sok_ext : forall inl (L L' : nat -> Prop) r, (forall u, L u <-> L' u) -> sok inl L r -> sok inl L' r.
Proof.
  intros inl L L' r H S. destruct r; simpl in *; auto.
  - destruct S; split; auto. eapply B_ext; eauto.
  - destruct S as (a & b & c0). split; [auto|]. split; [auto|]. eapply B_ext; eauto.
  - destruct S as (a & b & c0). split; [auto|]. split; [auto|]. eapply B_ext; eauto.
Qed.

Definition sspec (O : orc) (fuel : nat) (inl : bool) (c : code) (L : nat -> Prop) : Prop :=
  forall s, Inv s -> B L s -> sok inl L (exec O fuel c s).

Lemma sspec_ext : forall O fuel inl c (L L' : nat -> Prop), (forall u, L u <-> L' u) ->
  sspec O fuel inl c L -> sspec O fuel inl c L'.
Proof.
  intros O fuel inl c L L' H S s I HB. apply (sok_ext inl L L' _ H). apply S; auto.
  eapply B_ext; [|eauto]. intros; symmetry; auto.
Qed.

(* a straight-line prefix followed by a continuation *)
Lemma sspec_cseq : forall O fuel inl c k (L L1 : nat -> Prop),
  triple O L c L1 -> (forall s, Inv s -> B L1 s -> sok inl L (exec O fuel k s)) ->
  sspec O fuel inl (cseq c k) L.
Proof.
  intros O fuel inl c k L L1 T K s I HB. rewrite cseq_exec. specialize (T s I HB).
  destruct (run O c s); auto; try contradiction. destruct T. apply K; auto.
Qed.

(* operands that the code k following them consumes; their temps are then released, in the order rel *)
Lemma adds_used : forall A c ts A1 rel, adds A c ts A1 -> NoDup rel -> (forall u, In u rel <-> In u ts) ->
  grown A [] (release_all rel A1) /\
  forall O k, triple O (fun u => inuse A u \/ In u ts) k (fun u => (inuse A u \/ In u ts) /\ ~ In u rel) ->
              triple O (inuse A) (c ++ k) (inuse A).
Proof.
  intros A c ts A1 rel [(W1 & _ & Fr & U) T] Nr Hr. split.
  - apply (grown_release_tail A [] rel). split; [exact W1|]. split; [exact Nr|]. split.
    + intros u Hu. apply Fr, Hr, Hu.
    + intros u. rewrite Hr. apply U.
  - intros O k Tk. eapply triple_ext; [|eapply triple_app; [apply T; auto|exact Tk]].
    intros u. simpl. rewrite Hr. split; [tauto|]. intros H. split; [auto|]. intro Hu. exact (Fr u Hu H).
Qed.

Definition stmt_ok (st : stmt) : Prop :=
  forall A c A' inl, gen_stmt st A = (c, A') -> wfA A -> jumps_ok inl st = true ->
    grown A [] A' /\ forall O fuel, sspec O fuel inl c (inuse A).

Lemma stmt_skip : stmt_ok SSkip.
Proof.
  intros A c A' inl H W _. injection H as <- <-. split; [exact (grown_refl A W)|].
  intros O fuel s I HB. simpl. auto.
Qed.

Lemma stmt_jump : stmt_ok SBreak /\ stmt_ok SContinue.
Proof.
  split; intros A c A' inl H W J; injection H as <- <-; simpl in J; (split; [exact (grown_refl A W)|]);
    intros O fuel s I HB; simpl; auto.
Qed.

Lemma stmt_seq : forall s1 s2, stmt_ok s1 -> stmt_ok s2 -> stmt_ok (SSeq s1 s2).
Proof.
  intros s1 s2 IH1 IH2 A c A' inl H W J. simpl in H, J. apply andb_true_iff in J. destruct J as [J1 J2].
  destruct (gen_stmt s1 A) as [c1 A1] eqn:G1. destruct (gen_stmt s2 A1) as [c2 A2] eqn:G2.
  injection H as <- <-.
  destruct (IH1 _ _ _ _ G1 W J1) as (F1 & S1). destruct (IH2 _ _ _ _ G2 (proj1 F1) J2) as (F2 & S2).
  split; [exact (grown_app _ _ _ _ _ F1 F2)|].
  intros O fuel s I HB. simpl. specialize (S1 O fuel s I HB).
  destruct (exec O fuel c1 s); simpl; auto. destruct S1.
  apply (sspec_ext O fuel inl c2 (inuse A1) (inuse A) (grown_same _ _ F1) (S2 O fuel)); auto.
Qed.

Lemma expr_used : forall e A c r A1, gen_expr e A = (c, r, A1) -> wfA A ->
  grown A [] (release_all (tmp_of r) A1) /\
  forall O k, triple O (fun u => inuse A u \/ In u (tmp_of r)) k
                       (fun u => (inuse A u \/ In u (tmp_of r)) /\ ~ In u (tmp_of r)) ->
              triple O (inuse A) (c ++ k) (inuse A).
Proof.
  intros e A c r A1 G W.
  exact (adds_used _ _ _ _ _ (expr_adds e (proj1 gen_ok e) _ _ _ _ G W) (nodup_tmp_of r) (fun u => iff_refl _)).
Qed.

Lemma stmt_assign : forall x e, stmt_ok (SAssign x e).
Proof.
  intros x e A c A' inl H W _. simpl in H. destruct (gen_expr e A) as [[c0 r] A1] eqn:G.
  injection H as <- <-. destruct (expr_used _ _ _ _ _ G W) as (F & T).
  split; [exact F|]. intros O fuel.
  eapply sspec_cseq.
  - apply T, triple_one. intros s I HB. apply step_ISetLoc; auto.
  - intros s I HB. simpl. auto.
Qed.

Lemma stmt_expr : forall e, stmt_ok (SExpr e).
Proof.
  intros e A c A' inl H W _. simpl in H. destruct (gen_expr e A) as [[c0 r] A1] eqn:G.
  injection H as <- <-. destruct (expr_used _ _ _ _ _ G W) as (F & T).
  split; [exact F|]. intros O fuel.
  eapply sspec_cseq.
  - apply T, triple_decrefs; [apply nodup_tmp_of|auto].
  - intros s I HB. simpl. auto.
Qed.

Lemma stmt_return : forall e, stmt_ok (SReturn e).
Proof.
  intros e A c A' inl H W _. simpl in H. destruct (gen_expr e A) as [[c0 r] A1] eqn:G.
  injection H as <- <-. destruct (expr_used _ _ _ _ _ G W) as (F & _).
  destruct (expr_adds e (proj1 gen_ok e) _ _ _ _ G W) as [(_ & _ & Fr & _) T1].
  split; [exact F|]. intros O fuel s I HB.
  rewrite cseq_exec, run_app. specialize (T1 O (inuse A) (fun u H => H) s I HB).
  destruct (run O c0 s) as [s1|s1|s1|s1|s1|w|]; cbn [bind run app]; try contradiction; auto.
  destruct T1 as [I1 B1].
  assert (HS := step_ISetRes O r s1 (fun u => inuse A u \/ In u (tmp_of r)) I1 B1 (fun t H => or_intror H)).
  destruct (step O (ISetRes r) s1) as [s2|s2|s2|s2|s2|w|]; cbn [bind run app]; try contradiction; auto.
  destruct HS as [I2 B2].
  rewrite run_decrefs_eq.
  destruct (decref_all_ok (inuse_list (release_all (tmp_of r) A1)) s2 _ I2 B2 (inuse_list_nodup _))
    as (s3 & E3 & I3 & B3 & _).
  { intros t Ht. apply inuse_list_ok, (grown_same _ _ F) in Ht. split; auto. intro Hr. exact (Fr t Hr Ht). }
  rewrite E3. cbn [exec]. split; auto. eapply BT_ext; [|eauto]. simpl. intros u. split; [|tauto].
  intros [[Hu Hr] Hn]. apply Hn, inuse_list_ok, (grown_same _ _ F). tauto.
Qed.

Lemma stmt_if : forall e s1 s2, stmt_ok s1 -> stmt_ok s2 -> stmt_ok (SIf e s1 s2).
Proof.
  intros e s1 s2 IH1 IH2 A c A' inl H W J. simpl in H, J. apply andb_true_iff in J. destruct J as [J1 J2].
  destruct (gen_expr e A) as [[c0 r] A1] eqn:G.
  destruct (gen_stmt s1 (release_all (tmp_of r) A1)) as [c1 A3] eqn:G1.
  destruct (gen_stmt s2 A3) as [c2 A4] eqn:G2. injection H as <- <-.
  destruct (expr_used _ _ _ _ _ G W) as (F2 & T).
  destruct (IH1 _ _ _ _ G1 (proj1 F2) J1) as (F3 & S1). pose proof (grown_app _ _ _ _ _ F2 F3) as F23.
  destruct (IH2 _ _ _ _ G2 (proj1 F3) J2) as (F4 & S2).
  split; [exact (grown_app _ _ _ _ _ F23 F4)|]. intros O fuel.
  eapply sspec_cseq.
  - apply T. eapply triple_cons; [|apply triple_decrefs; [apply nodup_tmp_of|auto]].
    apply triple_one. intros s I HB. apply step_ITruth; auto. intros t Ht. right. apply in_tmp_of, Ht.
  - intros s I HB. cbn [exec]. destruct (flag s).
    + apply (sspec_ext O fuel inl c1 _ (inuse A) (grown_same _ _ F2) (S1 O fuel)); auto.
    + apply (sspec_ext O fuel inl c2 _ (inuse A) (grown_same _ _ F23) (S2 O fuel)); auto.
Qed.

Lemma stmt_store : forall v es vl, stmt_ok (SStore v es vl).
Proof.
  intros v es vl A c A' inl H W _. simpl in H.
  destruct (gen_expr v A) as [[c1 r] A1] eqn:G1. destruct (gen_list es A1) as [[c2 rs] A2] eqn:G2.
  injection H as <- <-.
  pose proof (expr_adds v (proj1 gen_ok v) _ _ _ _ G1 W) as AD1.
  pose proof (adds_app _ _ _ _ _ _ _ AD1 (proj2 gen_ok es _ _ _ _ G2 (proj1 (proj1 AD1)))) as AD. clear AD1.
  set (order := if vl then tmps_of rs ++ tmp_of r else tmp_of r ++ tmps_of rs).
  assert (Hin : forall u, In u order <-> In u (tmp_of r ++ tmps_of rs)).
  { intros u. unfold order. destruct vl; rewrite !in_app_iff; tauto. }
  assert (Hnd : NoDup order).
  { destruct AD as [(_ & N & _) _]. unfold order. destruct vl; [|exact N].
    destruct r; simpl in *; rewrite ?app_nil_r; auto.
    apply NoDup_cons_iff in N. apply nodup_app; [tauto|repeat constructor; auto|]. intros u Hu [<-|[]]. tauto. }
  destruct (adds_used _ _ _ _ order AD Hnd Hin) as (F & T).
  split; [exact F|]. intros O fuel.
  eapply sspec_cseq with (L1 := inuse A); [|intros s I HB; cbn [exec sok]; auto].
  rewrite app_assoc. apply T. eapply triple_cons; [|apply triple_decrefs; [exact Hnd|intros t Ht; right; apply Hin, Ht]].
  apply triple_one. intros s I HB. apply step_IVoid; auto.
  intros t Ht. right. rewrite in_app_iff. apply in_app_iff in Ht.
  destruct Ht as [Ht|[->|[]]]; [right; apply in_tmps_of, Ht|left; left; reflexivity].
Qed.

Lemma loop_ok : forall O it d x body (L : nat -> Prop) inl n,
  L it -> ~ L d ->
  (forall s, Inv s -> B L s -> sok true L (body s)) ->
  forall s, Inv s -> B L s -> sok inl (fun u => L u /\ u <> it) (loop_on O it d x body n s).
Proof.
  intros O it d x body L inl n Hit Hd Hb.
  (* leaving the loop: DECREF of the iterator *)
  assert (Hout : forall s, Inv s -> B L s -> sok inl (fun u => L u /\ u <> it) (step O (IDecref it) s)).
  { intros s I [Rn HB]. pose proof (step_IDecref O it s L I HB Hit) as HD. unfold post in HD.
    destruct (step O (IDecref it) s); try contradiction; simpl.
    - destruct HD as (a & b & c). split; auto. split; auto. congruence.
    - destruct HD; split; auto; congruence. }
  induction n as [|n IH]; intros s I [Rn HB]; cbn [loop_on]; [exact Logic.I|].
  pose proof (step_INext O d it s L I HB Hit Hd) as HN.
  destruct (step O (INext d it) s) as [s1|s1|s1|s1|s1|w|]; try contradiction.
  2:{ destruct HN; split; auto; congruence. }
  destruct HN as (I1 & R1 & HB1). destruct (flag s1); [|apply Hout; [auto|split; [congruence|auto]]].
  assert (HS : post (step O (ISetLoc x (RTmp d)) s1) (fun u => (L u \/ u = d) /\ ~ In u [d]) s1)
    by (apply step_ISetLoc; auto; intros t [<-|[]]; auto).
  unfold post in HS.
  destruct (step O (ISetLoc x (RTmp d)) s1) as [s2|s2|s2|s2|s2|w|]; try contradiction.
  2:{ destruct HS; split; auto; congruence. }
  destruct HS as (I2 & HB2 & R2).
  assert (B2 : B L s2).
  { split; [congruence|]. eapply BT_ext; [|eauto]. simpl. intros u. split.
    - intros [[Hu| ->] Hn]; tauto.
    - intros Hu. split; auto. intros [<-|[]]. auto. }
  specialize (Hb s2 I2 B2). destruct (body s2) as [s3|s3|s3|s3|s3|w|]; simpl in Hb; try contradiction; auto.
  - destruct Hb. apply IH; auto.
  - destruct Hb as (_ & I3 & B3). apply Hout; auto.
  - destruct Hb as (_ & I3 & B3). apply IH; auto.
Qed.

(* the header of a for loop is the code of the one-operand operation iter(e) *)
Lemma gen_iter : forall e A, gen_expr (EOp (ECons e ENil)) A =
  let '(ce, r, A1) := gen_expr e A in
  let '(it, A2) := alloc A1 in
  (ce ++ [IOp it [r] []] ++ map IDecref (tmp_of r), RTmp it, release_all (tmp_of r) A2).
Proof.
  intros e A. cbn [gen_expr gen_list]. destruct (gen_expr e A) as [[ce r] A1].
  cbn [tmps_of flat_map]. rewrite !app_nil_r. reflexivity.
Qed.

Lemma stmt_for : forall x e body, stmt_ok body -> stmt_ok (SFor x e body).
Proof.
  intros x e body IHb A c A' inl H W J. simpl in H, J. pose proof (gen_iter e A) as GI.
  destruct (gen_expr e A) as [[ce r] A1]. destruct (alloc A1) as [it A2].
  destruct (alloc (release_all (tmp_of r) A2)) as [d A4] eqn:Al2.
  destruct (gen_stmt body (release d A4)) as [cb A6] eqn:Gb. injection H as <- <-.
  destruct (expr_adds _ (proj1 gen_ok _) _ _ _ _ GI W) as [F3 T]. cbn [tmp_of] in F3, T.
  (* the NextNode temp d is allocated and released at once *)
  pose proof (grown_alloc _ _ _ Al2 (proj1 F3)) as Fd.
  pose proof (grown_app _ _ _ _ _ F3 (grown_release _ [] d [] _ Fd)) as F5.
  destruct (IHb _ _ _ _ Gb (proj1 F5) J) as (F6 & Sb).
  split; [exact (grown_release A [] it [] _ (grown_app _ _ _ _ _ F5 F6))|].
  intros O fuel. eapply sspec_cseq; [exact (T O (inuse A) (fun u H => H))|].
  intros s I HB. cbn [exec]. destruct F5 as (_ & _ & Fr5 & U5). destruct Fd as (_ & _ & Frd & _).
  assert (Hd : ~ (inuse A d \/ In d [it])).
  { intro Hx. apply (Frd d (or_introl eq_refl)). destruct F3 as (_ & _ & _ & U3). apply U3, Hx. }
  eapply sok_ext; [|apply (loop_ok O it d x (exec O fuel cb) (fun u => inuse A u \/ In u [it]) inl fuel
                              (or_intror (or_introl eq_refl)) Hd (sspec_ext O fuel true cb _ _ U5 (Sb O fuel)) s I HB)].
  simpl. intros u. split; [intros [[Hx|[<-|[]]] Hn]; tauto|]. intros Hx. split; auto. intros ->.
  exact (Fr5 it (or_introl eq_refl) Hx).
Qed.

Theorem gen_stmt_ok : forall st, stmt_ok st.
Proof.
  induction st.
  - apply stmt_skip. - apply stmt_seq; auto. - apply stmt_assign. - apply stmt_expr. - apply stmt_return.
  - apply stmt_store. - apply stmt_if; auto. - apply stmt_for; auto.
  - apply stmt_jump. - apply stmt_jump.
Qed.

(* XDECREF of the slots ks of one of the two maps (temps, locals) *)
Section Sweep.
  Variables (get_m : state -> fmap) (set_m : fmap -> state -> state).
  Hypothesis get_set : forall m s, get_m (set_m m s) = m.
  Hypothesis get_tr : forall t s, get_m (set_tr t s) = get_m s.
  Hypothesis clear_ok : forall s k o, Inv s -> get k (get_m s) = Some o ->
    give o s = Some (set_tr (Give o :: tr s) s) /\ Inv (set_m (rem k (get_m s)) (set_tr (Give o :: tr s) s)).

  Lemma sweep_ok : forall ks s, Inv s ->
    exists s', sweep get_m set_m ks s = Norm s' /\ Inv s' /\
      (forall u, In u ks -> get u (get_m s') = None) /\
      (forall u, get u (get_m s) = None -> get u (get_m s') = None).
  Proof.
    induction ks as [|k ks IH]; intros s I; cbn [sweep].
    - exists s. split; [auto|]. split; [auto|]. split; [intros u []|auto].
    - destruct (get k (get_m s)) as [o|] eqn:G.
      + destruct (clear_ok s k o I G) as (E1 & I1). rewrite E1, get_tr.
        destruct (IH _ I1) as (s2 & E2 & I2 & H1 & H2). exists s2. rewrite get_set in H2.
        split; [exact E2|]. split; [exact I2|]. split.
        * intros u [<-|Hu]; auto. apply H2. apply get_rem_same.
        * intros u Hu. apply H2. destruct (Nat.eq_dec u k); [subst; apply get_rem_same|].
          rewrite get_rem_other; auto.
      + destruct (IH _ I) as (s2 & E2 & I2 & H1 & H2). exists s2.
        split; [exact E2|]. split; [exact I2|]. split; [|exact H2]. intros u [<-|Hu]; auto.
  Qed.

  Lemma sweep_frame : forall X (f : state -> X), (forall m s, f (set_m m s) = f s) ->
    (forall t s, f (set_tr t s) = f s) ->
    forall ks s s', sweep get_m set_m ks s = Norm s' -> f s' = f s.
  Proof.
    intros X f Hm Ht. induction ks as [|k ks IH]; intros s s' E; cbn [sweep] in E.
    - injection E as <-. reflexivity.
    - destruct (get k (get_m s)); [|apply IH; exact E]. unfold give in E.
      destruct (Nat.eqb (bal (tr s) o) 0); [discriminate|]. rewrite (IH _ _ E), Hm, Ht. reflexivity.
  Qed.
End Sweep.

Lemma swept_nil : forall m m', (forall u, In u (seq 0 (kbound m)) -> get u m' = None) ->
  (forall u, get u m = None -> get u m' = None) -> m' = [].
Proof.
  intros m m' H1 H2. apply all_none_nil. intros k.
  destruct (get k m) eqn:G; [|auto]. apply H1. apply in_seq. apply get_kbound in G. lia.
Qed.

Definition clean (s : state) : Prop :=
  temps s = [] /\ locs s = [] /\ res s = None /\ (forall o, bal (tr s) o = 0) /\ nanny_errs (tr s) = 0.

Definition final_ok (f : final) : Prop :=
  match f with Done _ s => clean s | FStuck _ => False | FFuel => True end.

Lemma epilogue_ok : forall b s, Inv s -> temps s = [] -> final_ok (epilogue b s).
Proof.
  intros b s I Ht. unfold epilogue.
  destruct (sweep_ok locs set_locs (fun _ _ => eq_refl) (fun _ _ => eq_refl) loc_clear_ok (seq 0 (kbound (locs s))) s I)
    as (s1 & E1 & I1 & H1 & H2).
  pose proof (sweep_frame locs set_locs _ temps (fun _ _ => eq_refl) (fun _ _ => eq_refl) _ _ _ E1) as T1.
  rewrite E1. assert (Ll : locs s1 = []) by (eapply swept_nil; eauto).
  assert (Tt : temps s1 = []) by congruence.
  destruct I1 as [a b0 c d]. destruct (res s1) as [o|] eqn:Rr.
  - assert (Hp : 1 <= bal (tr s1) o). { rewrite c. simpl. rewrite Nat.eqb_refl. lia. }
    rewrite (give_some _ _ Hp). unfold final_ok, clean. simpl. split; [auto|]. split; [auto|]. split; [auto|]. split.
    + intros o'. rewrite c, Tt, Ll. simpl. lia.
    + destruct (Nat.eqb (bal (tr s1) o) 0) eqn:E; [apply Nat.eqb_eq in E; lia|]. auto.
  - unfold final_ok, clean. split; [auto|]. split; [auto|]. split; [auto|]. split; [|auto].
    intros o'. rewrite c, Tt, Ll. simpl. auto.
Qed.

Lemma BT_empty_nil : forall (L : nat -> Prop) s, (forall u, ~ L u) -> BT L s -> temps s = [].
Proof.
  intros L s HL HB. apply all_none_nil. intros k. destruct (get k (temps s)) eqn:G; auto.
  exfalso. apply (HL k). apply HB. unfold bound. congruence.
Qed.

Lemma Inv_init : forall n, Inv (init n).
Proof. intros n. constructor; simpl; auto; constructor. Qed.

(* the error label of run_fun, reached with the result slot empty *)
Lemma error_exit_ok : forall s, Inv s -> res s = None ->
  final_ok match sweep temps set_temps (seq 0 (kbound (temps s))) s with
           | Norm s1 => match res s1 with None => epilogue false s1 | Some _ => FStuck Overwrite end
           | Stuck w => FStuck w
           | _ => FStuck BadJump
           end.
Proof.
  intros s I Rn.
  destruct (sweep_ok temps set_temps (fun _ _ => eq_refl) (fun _ _ => eq_refl) temp_clear_ok (seq 0 (kbound (temps s))) s I)
    as (s1 & E1 & I1 & H1 & H2).
  pose proof (sweep_frame temps set_temps _ res (fun _ _ => eq_refl) (fun _ _ => eq_refl) _ _ _ E1) as R1.
  rewrite E1. rewrite R1, Rn. apply epilogue_ok; auto. eapply swept_nil; eauto.
Qed.

Theorem balanced_all : forall body O fuel nargs none, jumps_ok false body = true ->
  match run_fun O fuel nargs (gen_fun none body) with
  | Done _ s => clean s
  | FStuck _ => False
  | FFuel => True
  end.
Proof.
  intros body O fuel nargs none J. unfold run_fun, gen_fun.
  destruct (gen_stmt body A0) as [c A'] eqn:G. cbn [fst exec].
  assert (W0 : wfA A0) by (split; [constructor|intros t []]).
  destruct (gen_stmt_ok body A0 c A' false G W0 J) as (_ & S).
  assert (E0 : forall u, ~ inuse A0 u) by (intros u [H _]; simpl in H; lia).
  assert (B0 : B (inuse A0) (init nargs)).
  { split; auto. intros u. unfold bound. simpl. split; [congruence|]. intro H; exfalso; eapply E0; eauto. }
  specialize (S O fuel (init nargs) (Inv_init nargs) B0).
  destruct (exec O fuel c (init nargs)) as [s1|s1|s1|s1|s1|w|]; cbn [bind]; simpl in S; try contradiction; auto.
  - (* falling off the end: the implicit return None *)
    destruct S as [I1 B1].
    pose proof (step_ISetRes O (RArg none) s1 (inuse A0) I1 B1 (fun t (H : False) => match H with end)) as HS.
    destruct (step O (ISetRes (RArg none)) s1) as [s2|s2|s2|s2|s2|w|]; try contradiction.
    + destruct HS as [I2 B2]. apply epilogue_ok; auto.
      eapply BT_empty_nil; [|eauto]. intros u [Hu _]. eapply E0; eauto.
    + destruct HS as [I2 R2]. apply error_exit_ok; auto.
  - destruct S as [I1 R1]. apply error_exit_ok; auto.
  - destruct S as [I1 B1]. apply epilogue_ok; auto. eapply BT_empty_nil; [|eauto]. auto.
  - destruct S; discriminate.
  - destruct S; discriminate.
Qed.

Lemma rds_tmps_bound : forall l s, rds s (map RTmp l) = RsUnbound -> False.
Proof.
  induction l as [|a l IH]; simpl; intros s H; [discriminate|].
  destruct (get a (temps s)) as [o|]; [|discriminate].
  destruct (Nat.eqb (bal (tr s) o) 0); [discriminate|].
  destruct (rds s (map RTmp l)) eqn:E; try discriminate. eapply IH; eauto.
Qed.

(* a reference held by the emitted code itself (unmanaged temp) between its GOTREF and its DECREF *)
Lemma transient_ok : forall s o s', Inv s -> temps s' = temps s -> locs s' = locs s -> res s' = res s ->
  tr s' = Got o :: tr s ->
  exists s5, give o s' = Some s5 /\ Inv s5 /\ temps s5 = temps s /\ res s5 = res s /\ flag s5 = flag s'.
Proof.
  intros s o s' [a b c d] Ht Hl Hr Htr.
  assert (G : give o s' = Some (set_tr (Give o :: tr s') s')).
  { unfold give. rewrite Htr. simpl. rewrite Nat.eqb_refl. reflexivity. }
  eexists; split; [exact G|]. simpl. split; [|auto].
  constructor; simpl; rewrite ?Ht, ?Hl, ?Hr; auto.
  - intros o'. rewrite Htr. simpl. rewrite <- c. destruct (Nat.eqb o o'); lia.
  - rewrite Htr. simpl. rewrite Nat.eqb_refl. simpl. auto.
Qed.

Lemma BT_temps : forall L s s', temps s' = temps s -> BT L s -> BT L s'.
Proof. intros L s s' H HB u. unfold bound. rewrite H. apply HB. Qed.

(* the __exit__ call as it is emitted: on every outcome (call fails / truth test fails / answers) exactly
   exit_var and the args tuple have been released and nothing else is owned *)
Lemma exit_call_ok : forall O test te args s L, Inv s -> BT L s -> NoDup (te :: args) ->
  (forall t, In t (te :: args) -> L t) ->
  match exit_call O false test te args s with
  | Norm s' | Err s' => Inv s' /\ BT (fun u => L u /\ ~ In u (te :: args)) s' /\ res s' = res s
  | _ => False
  end.
Proof.
  intros O test te args s L I HB Hnd Hin. unfold exit_call.
  destruct (rds_ok (map RTmp (te :: args)) s L I HB) as [[os E]|E].
  { intros t Ht. apply in_map_iff in Ht. destruct Ht as (t' & [= ->] & Ht'). auto. }
  2:{ exfalso. eapply rds_tmps_bound; eauto. }
  rewrite E.
  destruct (decref_all_ok (te :: args) (tick s) L (Inv_tick s I) (BT_tick L s HB) Hnd Hin) as (s2 & E2 & I2 & B2 & R2).
  rewrite E2. cbn [bind]. simpl in R2. destruct (fail O (calls s)); [split; [auto|split; auto]|].
  set (o := nxt s2). destruct test.
  - destruct (transient_ok s2 o (tick (got o (fresh s2))) I2) as (s5 & E5 & I5 & T5 & R5 & F5); try reflexivity.
    rewrite E5. destruct (fail O (calls (got o (fresh s2)))).
    + split; [auto|]. split; [eapply BT_temps; eauto|congruence].
    + split; [apply Inv_flag; auto|]. split; [apply BT_flag; eapply BT_temps; eauto|]. simpl. congruence.
  - destruct (transient_ok s2 o (got o (fresh s2)) I2) as (s5 & E5 & I5 & T5 & R5 & F5); try reflexivity.
    rewrite E5. split; [auto|]. split; [eapply BT_temps; eauto|congruence].
Qed.

(* the variant with the error test in front of the DECREF of result_var loses that reference when the truth
   test fails: witness = exit_var in temp 0, args tuple in temp 1, the call succeeds, the truth test raises *)
Definition wit_state : state :=
  mk [(1, 11); (0, 10)] [] None [Got 11; Got 10] 12 0 0 false.
Definition wit_orc : orc := orc_of (Some 1) [].
Lemma wit_state_inv : Inv wit_state.
Proof. constructor; simpl; auto. - repeat constructor; simpl; intuition discriminate. - constructor.
  - intros o. destruct o as [|[|[|[|[|[|[|[|[|[|[|[|o]]]]]]]]]]]]; reflexivity. Qed.
Lemma exit_call_asis_same_input :
  exists s', exit_call wit_orc false true 0 [1] wit_state = Err s' /\
             temps s' = [] /\ (forall o, bal (tr s') o = 0).
Proof.
  eexists. split; [vm_compute; reflexivity|]. split; [reflexivity|].
  intros o. destruct o as [|[|[|[|[|[|[|[|[|[|[|[|[|o]]]]]]]]]]]]]; reflexivity.
Qed.

(* the same at statement level: "with a: <body that raises>" where __exit__ returns an object whose truth test
   raises (calls: 0 = __enter__, 1 = __exit__, 2 = the truth test) *)
Definition wit_with (late : bool) : result :=
  with_stat (orc_of (Some 2) []) late (RArg 0) 0 1 2 3 4 5 None [] (fun s => Err s) (init 5).
