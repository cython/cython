(* Proofs about Model/M_CMath.v (CMath.c DivInt / ModInt and the guards of DivNode).  C's truncating
   quotient and remainder are related to Python's floor once (floor_from_trunc); every
   intermediate value of the helpers is a value of the type unless MIN / -1 is evaluated
   (div_steps_in_range, mod_steps_in_range); the helpers and the guarded nodes follow. *)
From Coq Require Import ZArith List Bool Lia ZifyBool.
From CyVerif Require Import Lib.CInt Model.M_CMath.
Open Scope Z_scope.

Lemma quot_facts a b : b <> 0 ->
  a = b * Z.quot a b + Z.rem a b /\ Z.abs (Z.rem a b) < Z.abs b /\ 0 <= Z.rem a b * a.
Proof.
  intros Hb. split; [apply Z.quot_rem'|]. split; [apply Z.rem_bound_abs; exact Hb|].
  apply Z.rem_sign_mul; exact Hb.
Qed.

(* the `r = a - q*b` of DivInt is the C remainder *)
Lemma sub_quot_mul a b : a - Z.quot a b * b = Z.rem a b.
Proof. pose proof (Z.quot_rem' a b). lia. Qed.

Definition adj (r b : Z) : Z := b2z (negb (r =? 0) && xorb (r <? 0) (b <? 0)).

Lemma adapt_python_adj bconst r b : adapt_python bconst r b = adj r b.
Proof. unfold adapt_python, adj. destruct bconst; [reflexivity|]. now rewrite lxor_neg_iff. Qed.

Lemma floor_from_trunc a b : b <> 0 ->
  a / b = Z.quot a b - adj (Z.rem a b) b /\ a mod b = Z.rem a b + adj (Z.rem a b) b * b.
Proof.
  intros Hb. destruct (quot_facts a b Hb) as (E & Hr & Hs).
  set (q := Z.quot a b) in *. set (r := Z.rem a b) in *.
  assert (Hcases : (0 <= r + adj r b * b < b \/ b < r + adj r b * b <= 0)
                   /\ a = b * (q - adj r b) + (r + adj r b * b)).
  { unfold adj, b2z.
    destruct (Z.eqb_spec r 0) as [Hr0|Hr0]; cbn [negb andb].
    - split; [lia | lia].
    - destruct (Z.ltb_spec r 0), (Z.ltb_spec b 0); cbn [xorb]; split; lia. }
  destruct Hcases as [Hc E'].
  split.
  - symmetry. eapply Z.div_unique; [exact Hc | exact E'].
  - symmetry. eapply Z.mod_unique; [exact Hc | exact E'].
Qed.

Lemma quot_mul_between a b : b <> 0 ->
  0 <= Z.quot a b * b <= a \/ a <= Z.quot a b * b <= 0.
Proof.
  intros Hb. rewrite Z.mul_comm. destruct (Z.le_ge_cases 0 a).
  - left. apply Z.mul_quot_le; assumption.
  - right. apply Z.mul_quot_ge; assumption.
Qed.

Lemma rem_between a b : b <> 0 -> 0 <= Z.rem a b <= a \/ a <= Z.rem a b <= 0.
Proof. intros Hb. pose proof (quot_mul_between a b Hb). pose proof (sub_quot_mul a b). lia. Qed.

(* q, q*b, r and the floored quotient are values of the type.  q*b and r lie between 0 and a;
   |q| <= |q*b| <= |a| leaves only q = 2^(w-1), which needs a = MIN and b = -1; the floored
   quotient is q - 1 only for r <> 0, and q = MIN has |b| = 1, hence r = 0. *)
Lemma div_steps_in_range w s a b :
  2 <= w -> in_range w s a -> in_range w s b -> div_ub w s a b = false ->
  in_range w s (Z.quot a b) /\ in_range w s (Z.quot a b * b) /\ in_range w s (Z.rem a b)
  /\ in_range w s (a / b).
Proof.
  intros Hw Ha Hb Hub. unfold div_ub in Hub. assert (Hb0 : b <> 0) by lia.
  pose proof (quot_mul_between a b Hb0) as Hm. pose proof (rem_between a b Hb0) as Hr.
  pose proof (Z.rem_bound_abs a b Hb0) as Hrb. pose proof (sub_quot_mul a b) as E.
  rewrite (proj1 (floor_from_trunc a b Hb0)).
  set (q := Z.quot a b) in *. set (r := Z.rem a b) in *.
  assert (L : forall v, 0 <= v <= a \/ a <= v <= 0 -> in_range w s v)
    by (intros v; apply in_range_toward_zero; [lia | exact Ha]).
  assert (Hq : in_range w s q).
  { destruct s.
    - apply in_range_signed in Ha. apply in_range_signed. unfold min_int in Hub.
      clear - Ha Hub Hm.
      assert (b = 1 \/ b = -1 \/ 2 <= Z.abs b) as [->|[->|B]] by lia; [lia | lia | nia].
    - apply in_range_unsigned in Ha, Hb. apply L. clear - Ha Hb Hb0 Hm. nia. }
  split; [exact Hq | split; [exact (L _ Hm) | split; [exact (L _ Hr)|]]].
  unfold adj, b2z. destruct (negb (r =? 0) && xorb (r <? 0) (b <? 0)) eqn:A;
    [|now rewrite Z.sub_0_r].
  destruct s.
  - apply in_range_signed in Ha, Hq. apply in_range_signed. clear - Ha Hq Hm Hr Hrb E A. nia.
  - apply in_range_unsigned in Ha, Hb. lia.
Qed.

Lemma mod_steps_in_range w s a b :
  1 <= w -> in_range w s a -> in_range w s b -> b <> 0 ->
  in_range w s (Z.rem a b) /\ in_range w s (adj (Z.rem a b) b * b) /\ in_range w s (a mod b).
Proof.
  intros Hw Ha Hb Hb0. split; [|split].
  - apply (in_range_toward_zero w s a); [exact Hw | exact Ha | now apply rem_between].
  - apply (in_range_toward_zero w s b); [exact Hw | exact Hb |].
    unfold adj, b2z. destruct (negb _ && _); lia.
  - apply (in_range_toward_zero w s b); [exact Hw | exact Hb |].
    pose proof (Z.mod_pos_bound a b). pose proof (Z.mod_neg_bound a b). lia.
Qed.

Lemma no_overflow_div w s bconst a b :
  2 <= w -> in_range w s a -> in_range w s b -> div_ub w s a b = false ->
  div_int_no_overflow w s bconst a b = true.
Proof.
  intros Hw Ha Hb Hub. destruct (div_steps_in_range w s a b Hw Ha Hb Hub) as (Hq & Hqb & Hr & Hd).
  assert (Hb0 : b <> 0) by (unfold div_ub in Hub; lia).
  unfold div_int_no_overflow. rewrite sub_quot_mul, adapt_python_adj, <- (proj1 (floor_from_trunc a b Hb0)).
  rewrite !andb_true_iff, !in_rangeb_spec. auto.
Qed.

Lemma no_overflow_mod w s bconst a b :
  1 <= w -> in_range w s a -> in_range w s b -> b <> 0 ->
  mod_int_no_overflow w s bconst a b = true.
Proof.
  intros Hw Ha Hb Hb0. destruct (mod_steps_in_range w s a b Hw Ha Hb Hb0) as (Hr & Hab & Hm).
  unfold mod_int_no_overflow. rewrite adapt_python_adj, <- (proj2 (floor_from_trunc a b Hb0)).
  rewrite !andb_true_iff, !in_rangeb_spec. auto.
Qed.

Theorem div_int_floor w s bconst a b :
  2 <= w -> in_range w s a -> in_range w s b -> div_ub w s a b = false ->
  div_int w s bconst a b = a / b.
Proof.
  intros Hw Ha Hb Hub. destruct (div_steps_in_range w s a b Hw Ha Hb Hub) as (Hq & Hqb & Hr & Hd).
  assert (Hb0 : b <> 0) by (unfold div_ub in Hub; lia). assert (Hw1 : 1 <= w) by lia.
  unfold div_int. rewrite (wrap_id _ _ _ Hw1 Hq), (wrap_id _ _ _ Hw1 Hqb), sub_quot_mul, (wrap_id _ _ _ Hw1 Hr).
  rewrite adapt_python_adj, <- (proj1 (floor_from_trunc a b Hb0)). now apply wrap_id.
Qed.

Theorem mod_int_old_floor w s bconst a b :
  1 <= w -> in_range w s a -> in_range w s b -> b <> 0 ->
  mod_int_old w s bconst a b = a mod b.
Proof.
  intros Hw Ha Hb Hb0. destruct (mod_steps_in_range w s a b Hw Ha Hb Hb0) as (Hr & Hab & Hm).
  unfold mod_int_old. rewrite (wrap_id _ _ _ Hw Hr), adapt_python_adj, (wrap_id _ _ _ Hw Hab).
  rewrite <- (proj2 (floor_from_trunc a b Hb0)). now apply wrap_id.
Qed.

(* Python semantics of // and % on machine integers, as an outcome *)
Definition py_floordiv (w : Z) (s : bool) (a b : Z) : outcome :=
  if b =? 0 then ZeroDivisionError
  else if in_rangeb w s (a / b) then Value (a / b) else OverflowError.
Definition py_mod (a b : Z) : outcome :=
  if b =? 0 then ZeroDivisionError else Value (a mod b).

Lemma floordiv_in_range_iff w s a b :
  2 <= w -> in_range w s a -> in_range w s b -> b <> 0 ->
  in_rangeb w s (a / b) = negb (s && (a =? min_int w s) && (b =? -1)).
Proof.
  intros Hw Ha Hb Hb0.
  destruct (s && (a =? min_int w s) && (b =? -1)) eqn:Hc; cbn [negb].
  - destruct s; [|discriminate]. cbn [andb] in Hc.
    assert (a = min_int w true /\ b = -1) as [-> ->] by lia.
    assert (E : min_int w true / -1 = 2 ^ (w - 1)).
    { symmetry. apply Z.div_unique with (r := 0); [lia|]. unfold min_int. lia. }
    rewrite E. unfold in_rangeb, min_int, max_int.
    pose proof (pow2_pos (w - 1) ltac:(lia)). lia.
  - assert (Hub : div_ub w s a b = false) by (unfold div_ub; lia).
    apply in_rangeb_spec, (div_steps_in_range w s a b Hw Ha Hb Hub).
Qed.

(* with the guard on every width *)
Theorem div_node_python w s bconst a b :
  2 <= w -> in_range w s a -> in_range w s b ->
  div_node true w s bconst a b = py_floordiv w s a b.
Proof.
  intros Hw Ha Hb. unfold div_node, py_floordiv.
  destruct (Z.eqb_spec b 0) as [Hb0|Hb0]; [reflexivity|].
  rewrite (floordiv_in_range_iff w s a b Hw Ha Hb Hb0).
  cbn [orb]. rewrite andb_true_r.
  destruct (s && (b =? -1) && (a =? min_int w s)) eqn:Hg.
  - replace (s && (a =? min_int w s) && (b =? -1)) with true by lia. reflexivity.
  - replace (s && (a =? min_int w s) && (b =? -1)) with false by lia. cbn [negb].
    assert (Hub : div_ub w s a b = false) by (unfold div_ub; lia).
    rewrite Hub. now rewrite div_int_floor.
Qed.

(* The guard as first written (emitted only where sizeof(type) == sizeof(long)): the same
   statement holds for w = 64 ... *)
Theorem div_node_current_64 s bconst a b :
  in_range 64 s a -> in_range 64 s b ->
  div_node false 64 s bconst a b = py_floordiv 64 s a b.
Proof.
  intros Ha Hb. rewrite <- (div_node_python 64 s bconst a b ltac:(lia) Ha Hb).
  unfold div_node. reflexivity.
Qed.

(* ... and is refuted for w = 32: INT_MIN // -1 reaches the C division (UB, SIGFPE on x86) *)
Theorem div_node_current_refuted :
  exists w s bconst a b, 2 <= w /\ in_range w s a /\ in_range w s b /\
    div_node false w s bconst a b = UB.
Proof. exists 32, true, false, (-2147483648), (-1). unfold in_range. vm_compute. intuition congruence. Qed.

Lemma mod_minus1 a : a mod -1 = 0.
Proof. symmetry. apply Z.mod_unique with (q := - a); lia. Qed.

(* current helper: Python's % for every in-range pair with b <> 0, including MIN % -1 *)
Theorem mod_int_floor w s bconst a b :
  2 <= w -> in_range w s a -> in_range w s b -> b <> 0 ->
  mod_int w s bconst a b = a mod b.
Proof.
  intros Hw Ha Hb Hb0. unfold mod_int.
  destruct (s && (b =? -1)) eqn:Hc.
  - assert (b = -1) by lia. subst b. now rewrite mod_minus1.
  - apply mod_int_old_floor; (assumption || lia).
Qed.

Theorem mod_node_python w s bconst a b :
  2 <= w -> in_range w s a -> in_range w s b ->
  mod_node w s bconst a b = py_mod a b.
Proof.
  intros Hw Ha Hb. unfold mod_node, py_mod.
  destruct (Z.eqb_spec b 0) as [Hb0|Hb0]; [reflexivity|].
  now rewrite mod_int_floor.
Qed.

Theorem mod_node_old_min_refuted :
  exists w s bconst a b, in_range w s a /\ in_range w s b /\ mod_node_old w s bconst a b = UB.
Proof. exists 64, true, false, (-9223372036854775808), (-1). unfold in_range. vm_compute. intuition congruence. Qed.

Theorem mod_int_no_ub w s bconst a b :
  2 <= w -> in_range w s a -> in_range w s b -> b <> 0 ->
  (s && (b =? -1) = true) \/ (div_ub w s a b = false /\ mod_int_no_overflow w s bconst a b = true).
Proof.
  intros Hw Ha Hb Hb0. destruct (s && (b =? -1)) eqn:Hc; [now left|right].
  assert (Hub : div_ub w s a b = false) by (unfold div_ub; lia).
  split; [exact Hub|]. apply no_overflow_mod; (assumption || lia).
Qed.

Theorem cdivision_is_trunc w s a b :
  2 <= w -> in_range w s a -> in_range w s b -> div_ub w s a b = false ->
  cdiv_c w s a b = Z.quot a b /\ cmod_c w s a b = Z.rem a b.
Proof.
  intros Hw Ha Hb Hub. destruct (div_steps_in_range w s a b Hw Ha Hb Hub) as (Hq & _ & Hr & _).
  split; apply wrap_id; (assumption || lia).
Qed.
