(* C50: the scanner loop (run_machine_inlined / scan_a_token): longest accepting prefix
   with backup, failure iff no prefix is accepted; the loop ends within scan_fuel steps. *)
From Coq Require Import ZArith NArith List Bool Lia ZifyBool ZifyNat.
From CyVerif Require Import Model.M_Plex.
Import ListNotations.
Open Scope Z_scope.

Section Scan.
Variable acts : list (option Z).
Variable tr : list dstate.
Variable text : list Z.

(* the DFA state after reading the next k events of the scanner in configuration cfg *)
Fixpoint dfa_run (st : nat) (cfg : config) (k : nat) : option nat :=
  match k with
  | O => Some st
  | S k' => match nth_error tr st with
            | Some d => match d_lookup d (c_char cfg) with
                        | Some st' => dfa_run st' (next_char text cfg) k'
                        | None => None
                        end
            | None => None
            end
  end.

(* the machine accepts the first k events with action a *)
Definition accepts (st : nat) (cfg : config) (k : nat) (a : Z) : Prop :=
  exists st', dfa_run st cfg k = Some st' /\ nth_error acts st' = Some (Some a).

(* the machine blocks after exactly k events *)
Definition blocks (st : nat) (cfg : config) (k : nat) : Prop :=
  exists st' d, dfa_run st cfg k = Some st' /\ nth_error tr st' = Some d
                /\ d_lookup d (c_char (iter_next k text cfg)) = None.

Lemma iter_next_S k cfg : iter_next (S k) text cfg = iter_next k text (next_char text cfg).
Proof. reflexivity. Qed.

Lemma dfa_run_S st cfg k d : nth_error tr st = Some d ->
  dfa_run st cfg (S k) = match d_lookup d (c_char cfg) with
                         | Some st' => dfa_run st' (next_char text cfg) k | None => None end.
Proof. intros E. cbn [dfa_run]. rewrite E. reflexivity. Qed.

Lemma accepts_O st cfg a : accepts st cfg O a <-> nth_error acts st = Some (Some a).
Proof.
  unfold accepts. cbn [dfa_run]. split; [intros (s & [= <-] & A); exact A|intros A; exists st; auto].
Qed.

Lemma accepts_S st cfg k a d st' : nth_error tr st = Some d -> d_lookup d (c_char cfg) = Some st' ->
  (accepts st cfg (S k) a <-> accepts st' (next_char text cfg) k a).
Proof. intros Ed El. unfold accepts. rewrite (dfa_run_S _ _ _ _ Ed), El. reflexivity. Qed.

Lemma run_machine_spec : forall fuel st cfg bk,
  match run_machine fuel acts tr text st cfg bk with
  | RunOk a c =>
      (exists k, accepts st cfg k a /\ c = iter_next k text cfg
                 /\ forall k' a', (k < k')%nat -> ~ accepts st cfg k' a')
      \/ (bk = Some (a, c) /\ forall k a', ~ accepts st cfg k a')
  | RunFail c =>
      bk = None /\ (forall k a', ~ accepts st cfg k a')
      /\ exists k, blocks st cfg k /\ c = iter_next k text cfg
  | RunBad => exists k st', dfa_run st cfg k = Some st'
                            /\ (nth_error acts st' = None \/ nth_error tr st' = None)
  | RunFuel => True
  end.
Proof.
  induction fuel as [|f IH]; intros st cfg bk; [exact I|].
  cbn [run_machine].
  destruct (nth_error acts st) as [act|] eqn:Ea; [|exists O, st; cbn; auto].
  destruct (nth_error tr st) as [d|] eqn:Ed; [|exists O, st; cbn; auto].
  set (bk' := match act with Some a => Some (a, cfg) | None => bk end).
  assert (H0 : forall a, accepts st cfg O a <-> act = Some a)
    by (intros a; rewrite accepts_O, Ea; split; congruence).
  destruct (d_lookup d (c_char cfg)) as [st'|] eqn:El.
  - assert (HS : forall k a, accepts st cfg (S k) a <-> accepts st' (next_char text cfg) k a)
      by (intros; exact (accepts_S _ _ _ _ _ _ Ed El)).
    specialize (IH st' (next_char text cfg) bk').
    destruct (run_machine f acts tr text st' (next_char text cfg) bk') as [a c|c| |]; [| | |exact I].
    + destruct IH as [(k & A & Ec & Hmax)|(Eb & Hno)].
      * left. exists (S k). split; [apply HS; exact A|]. split; [exact Ec|].
        intros [|k'] a' Hk; [lia|]. rewrite HS. apply Hmax. lia.
      * subst bk'. destruct act as [a0|].
        -- injection Eb as <- <-. left. exists O. split; [apply H0; reflexivity|]. split; [reflexivity|].
           intros [|k'] a' Hk; [lia|]. rewrite HS. apply Hno.
        -- right. split; [exact Eb|]. intros [|k] a'; [rewrite H0; discriminate|rewrite HS; apply Hno].
    + destruct IH as (Eb & Hno & k & (s2 & d2 & R2 & D2 & L2) & Ec). subst bk'.
      destruct act as [a0|]; [discriminate|]. split; [exact Eb|]. split.
      * intros [|k0] a'; [rewrite H0; discriminate|rewrite HS; apply Hno].
      * exists (S k). split; [|exact Ec]. exists s2, d2. rewrite (dfa_run_S _ _ _ _ Ed), El, iter_next_S. auto.
    + destruct IH as (k & s2 & R2 & Hbad). exists (S k), s2. rewrite (dfa_run_S _ _ _ _ Ed), El. auto.
  - assert (Hno : forall k a', accepts st cfg k a' -> k = O /\ act = Some a').
    { intros [|k] a' H; [split; [reflexivity|apply H0; exact H]|].
      destruct H as (s3 & R3 & _). rewrite (dfa_run_S _ _ _ _ Ed), El in R3. discriminate. }
    subst bk'. destruct act as [a0|].
    + left. exists O. split; [apply H0; reflexivity|]. split; [reflexivity|].
      intros k' a' Hk H. apply Hno in H. lia.
    + assert (Hno' : forall k a', ~ accepts st cfg k a') by (intros k a' H; apply Hno in H; destruct H; discriminate).
      destruct bk as [[a c]|].
      * right. split; [reflexivity|exact Hno'].
      * split; [reflexivity|]. split; [exact Hno'|].
        exists O. split; [|reflexivity]. exists st, d. cbn. auto.
Qed.

(* the loop ends: the event stream reaches '' (which no state accepts) *)
Definition mu_ist (c : config) : nat :=
  let r := Z.to_nat (Z.of_nat (length text) - c_next c) in
  (if (c_ist c =? 1)%Z then 3 + 3 * r else if (c_ist c =? 2)%Z then 5 + 3 * r
   else if (c_ist c =? 3)%Z then 4 + 3 * r else if (c_ist c =? 4)%Z then 2 else 1)%nat.
Definition mu (c : config) : nat := match c_char c with EvNone => 0%nat | _ => mu_ist c end.

Lemma mu_decreases c : 0 <= c_next c -> c_char c <> EvNone ->
  (mu (next_char text c) < mu c)%nat /\ 0 <= c_next (next_char text c).
Proof.
  intros Hn Hc.
  assert (E : mu c = mu_ist c) by (unfold mu; destruct (c_char c); try reflexivity; congruence).
  rewrite E. clear E Hc. unfold mu, mu_ist, next_char.
  destruct (Z.eqb_spec (c_ist c) 1) as [E1|E1].
  - destruct (nth_error text (Z.to_nat (c_next c))) as [ch|] eqn:En; [|cbn; lia].
    assert (Z.to_nat (c_next c) < length text)%nat by (apply nth_error_Some; congruence).
    destruct (Z.eqb_spec ch 10); cbn; lia.
  - destruct (Z.eqb_spec (c_ist c) 2); [cbn; lia|]. destruct (Z.eqb_spec (c_ist c) 3); [cbn; lia|].
    destruct (Z.eqb_spec (c_ist c) 4); cbn; lia.
Qed.

Lemma run_machine_fuel : forall fuel st cfg bk, 0 <= c_next cfg -> (mu cfg < fuel)%nat ->
  run_machine fuel acts tr text st cfg bk <> RunFuel.
Proof.
  induction fuel as [|f IH]; intros st cfg bk Hn Hf; [lia|].
  cbn [run_machine]. destruct (nth_error acts st) as [act|]; [|discriminate].
  destruct (nth_error tr st) as [d|]; [|discriminate].
  destruct (d_lookup d (c_char cfg)) as [st'|] eqn:El.
  - assert (Hc : c_char cfg <> EvNone) by (intros E; rewrite E in El; cbn in El; discriminate).
    destruct (mu_decreases cfg Hn Hc) as [Hm Hn']. apply IH; [exact Hn'|lia].
  - destruct act as [a|]; [discriminate|]. destruct bk as [[a c]|]; discriminate.
Qed.

Lemma mu_bound cfg : 0 <= c_next cfg -> (mu cfg < scan_fuel text)%nat.
Proof.
  intros Hn. assert (mu cfg <= mu_ist cfg)%nat by (unfold mu; destruct (c_char cfg); lia).
  enough (mu_ist cfg < scan_fuel text)%nat by lia. unfold mu_ist, scan_fuel.
  destruct (c_ist cfg =? 1), (c_ist cfg =? 2), (c_ist cfg =? 3), (c_ist cfg =? 4); lia.
Qed.

End Scan.

(* well-formed machine: every transition target and the start state exist *)
Definition dfa_wf (acts : list (option Z)) (tr : list dstate) : Prop :=
  length acts = length tr /\ (0 < length tr)%nat /\
  forall st d e j, nth_error tr st = Some d -> d_lookup d e = Some j -> (j < length tr)%nat.

Lemma dfa_run_in acts tr text : dfa_wf acts tr -> forall k st cfg st',
  (st < length tr)%nat -> dfa_run tr text st cfg k = Some st' -> (st' < length tr)%nat.
Proof.
  intros (Hl & Hp & Hw). induction k as [|k IH]; intros st cfg st' Hst R.
  - cbn in R. inversion R; subst; assumption.
  - cbn [dfa_run] in R. destruct (nth_error tr st) as [d|] eqn:Ed; [|discriminate].
    destruct (d_lookup d (c_char cfg)) as [s2|] eqn:El; [|discriminate].
    apply (IH s2 (next_char text cfg) st'); [eapply Hw; eauto|exact R].
Qed.

(* scan_a_token: for every well-formed DFA, text and scanner configuration *)
Theorem scan_a_token_spec D text cfg : dfa_wf (dfa_acts D) (dfa_trans D) -> 0 <= c_next cfg ->
  match scan_a_token D text cfg with
  | TokOk start stop line col a c =>
      exists k, accepts (dfa_acts D) (dfa_trans D) text O cfg k a
        /\ (forall k' a', (k < k')%nat -> ~ accepts (dfa_acts D) (dfa_trans D) text O cfg k' a')
        /\ c = iter_next k text cfg        (* position, line, pending event: those saved at k *)
        /\ start = c_pos cfg /\ stop = c_pos c /\ line = c_line cfg /\ col = c_pos cfg - c_lstart cfg
  | TokEof c | TokErr c =>                (* ('', None) or UnrecognizedInput *)
      (forall k a, ~ accepts (dfa_acts D) (dfa_trans D) text O cfg k a)
      /\ exists k, blocks (dfa_trans D) text O cfg k /\ c = iter_next k text cfg
  | TokBad | TokFuel => False
  end.
Proof.
  intros Hwf Hn. unfold scan_a_token.
  pose proof (run_machine_spec (dfa_acts D) (dfa_trans D) text (scan_fuel text) O cfg None) as S.
  pose proof (run_machine_fuel (dfa_acts D) (dfa_trans D) text (scan_fuel text) O cfg None Hn
                (mu_bound text cfg Hn)) as F.
  destruct (run_machine (scan_fuel text) (dfa_acts D) (dfa_trans D) text 0 cfg None) as [a c|c| |].
  - destruct S as [(k & A & Ec & Hmax)|(Eb & _)]; [|discriminate].
    exists k. repeat split; auto.
  - destruct S as (_ & Hno & Hb).
    destruct ((c_pos c =? c_pos cfg) && is_eof (c_char c)); split; assumption.
  - destruct S as (k & st' & R & Hbad). destruct Hwf as (Hl & Hp & Hw).
    pose proof (dfa_run_in _ _ text (conj Hl (conj Hp Hw)) k O cfg st' Hp R) as Hin.
    destruct Hbad as [Hbad|Hbad]; apply nth_error_None in Hbad; lia.
  - congruence.
Qed.

(* UnrecognizedInput / EOF exactly when no prefix is accepted *)
Corollary scan_fails_iff D text cfg : dfa_wf (dfa_acts D) (dfa_trans D) -> 0 <= c_next cfg ->
  (forall k a, ~ accepts (dfa_acts D) (dfa_trans D) text O cfg k a) <->
  (exists c, scan_a_token D text cfg = TokEof c \/ scan_a_token D text cfg = TokErr c).
Proof.
  intros Hwf Hn. pose proof (scan_a_token_spec D text cfg Hwf Hn) as S.
  destruct (scan_a_token D text cfg) as [s e l c a c'|c'|c'| |] eqn:E; try contradiction.
  - split.
    + intros Hno. destruct S as (k & A & _). exfalso. exact (Hno k a A).
    + intros (c0 & [H|H]); discriminate.
  - split; [intros _; exists c'; auto|intros _; exact (proj1 S)].
  - split; [intros _; exists c'; auto|intros _; exact (proj1 S)].
Qed.
