(* Proofs for property C09: the frozenset pool key since a8197db74 (first item key per Python
   value, in a frozenset).  Model: frozen_key / top_key2 in Model/M_Consts.v. *)
From Coq Require Import ZArith List Bool Lia ZifyBool.
From CyVerif Require Import Lib.CInt Model.M_Consts Proof.P_Consts.
Import ListNotations.
Open Scope Z_scope.

(* ------------------------------------------------------------------ *)
(* generic facts about first_by                                        *)
(* ------------------------------------------------------------------ *)

Lemma first_by_in {T} (val : T -> pyconst) : forall l seen x, In x (first_by val seen l) -> In x l.
Proof.
  induction l as [|a r IH]; intros seen x H; [contradiction|]. cbn [first_by] in H.
  destruct (existsb _ seen).
  - right. exact (IH _ _ H).
  - destruct H as [->|H]; [left; reflexivity|right; exact (IH _ _ H)].
Qed.

Lemma first_by_map {T U} (g : T -> U) (val : U -> pyconst) : forall l seen,
  first_by val seen (map g l) = map g (first_by (fun x => val (g x)) seen l).
Proof.
  induction l as [|a r IH]; intros seen; [reflexivity|]. cbn [map first_by].
  destruct (existsb _ seen); [apply IH|]. cbn [map]. rewrite IH. reflexivity.
Qed.

Lemma existsb_map_eq {T} (f g : T -> pyconst) (S : list T) v w :
  (forall a, In a S -> py_eq (f a) v = py_eq (g a) w) ->
  existsb (fun s => py_eq s v) (map f S) = existsb (fun s => py_eq s w) (map g S).
Proof.
  induction S as [|a S IH]; intros H; [reflexivity|]. cbn [map existsb].
  rewrite (H a (or_introl eq_refl)), IH; [reflexivity|]. intros b Hb. apply H. right. exact Hb.
Qed.

(* two value functions that agree on == over all pairs select the same elements *)
Lemma first_by_agree {T} (f g : T -> pyconst) : forall l S,
  (forall a b, In a (S ++ l) -> In b (S ++ l) -> py_eq (f a) (f b) = py_eq (g a) (g b)) ->
  first_by f (map f S) l = first_by g (map g S) l.
Proof.
  induction l as [|x r IH]; intros S H; [reflexivity|]. cbn [first_by].
  rewrite (existsb_map_eq f g S (f x) (g x)).
  2:{ intros a Ha. apply H; apply in_or_app; [left; exact Ha|right; left; reflexivity]. }
  destruct (existsb _ (map g S)).
  - apply IH. intros a b Ha Hb. apply H.
    + apply in_app_or in Ha. apply in_or_app. destruct Ha; [left|right; right]; assumption.
    + apply in_app_or in Hb. apply in_or_app. destruct Hb; [left|right; right]; assumption.
  - f_equal. replace (map f S ++ [f x]) with (map f (S ++ [x])) by (rewrite map_app; reflexivity).
    replace (map g S ++ [g x]) with (map g (S ++ [x])) by (rewrite map_app; reflexivity).
    apply IH. intros a b Ha Hb. apply H.
    + rewrite <- app_assoc in Ha. exact Ha.
    + rewrite <- app_assoc in Hb. exact Hb.
Qed.

(* frozenset(args) keeps exactly the first_by elements *)
Lemma fs_build_first {T} (val : T -> pyconst) : forall l acc,
  fold_left (fun acc x => if existsb (fun y => py_eq y x) acc then acc else acc ++ [x]) (map val l) acc
  = acc ++ map val (first_by val acc l).
Proof.
  induction l as [|x r IH]; intros acc; cbn [map fold_left first_by]; [rewrite app_nil_r; reflexivity|].
  destruct (existsb (fun y => py_eq y (val x)) acc).
  - apply IH.
  - rewrite IH. cbn [map]. rewrite <- app_assoc. reflexivity.
Qed.

(* ------------------------------------------------------------------ *)
(* the value read off an item key is the item's value (no multiplier)  *)
(* ------------------------------------------------------------------ *)

Fixpoint pys_eq (l1 l2 : list pyconst) : bool :=
  match l1, l2 with
  | [], [] => true
  | x :: r1, y :: r2 => py_eq x y && pys_eq r1 r2
  | _, _ => false
  end.

Lemma py_eq_seq t1 l1 t2 l2 : py_eq (CSeq t1 l1) (CSeq t2 l2) = ntype_eqb t1 t2 && pys_eq l1 l2.
Proof. cbn. reflexivity. Qed.

(* the good items of a frozenset: well formed, hashable, no multiplier *)
Definition good (n : cnode) : Prop := wf_node n = true /\ hashable n = true /\ has_mult n = false.

Lemma args_good args : forallb wf_node args = true -> forallb hashable args = true ->
  existsb has_mult args = false -> Forall good args.
Proof.
  intros W H M. apply Forall_forall. intros a Hin. split; [|split].
  - rewrite forallb_forall in W. exact (W a Hin).
  - rewrite forallb_forall in H. exact (H a Hin).
  - destruct (has_mult a) eqn:E; [|reflexivity].
    assert (existsb has_mult args = true) by (apply existsb_exists; exists a; auto). congruence.
Qed.

Lemma good_seq_inv ty lit mult args : good (NSeq ty lit mult args) ->
  ty = TPyTuple /\ eff_mult lit mult = None /\ Forall good args.
Proof.
  intros (W & H & M). destruct (wf_seq_inv _ _ _ _ W) as (_ & _ & Wa).
  cbn [hashable] in H. cbn [has_mult] in M. rewrite eff_mult_if in M.
  apply andb_prop in H. destruct H as (Ht & Ha). apply orb_false_elim in M. destruct M as (Mm & Ma).
  split; [apply ntype_eqb_eq; exact Ht|]. split.
  - destruct (eff_mult lit mult); [discriminate|reflexivity].
  - apply args_good; assumption.
Qed.

Lemma faithful_lists args1 :
  Forall (fun n1 => forall n2, good n1 -> good n2 ->
            py_eq (key_value (ikey n1)) (key_value (ikey n2)) = py_eq (den n1) (den n2)) args1 ->
  forall args2, Forall good args1 -> Forall good args2 ->
  pys_eq (map key_value (map ikey args1)) (map key_value (map ikey args2)) = pys_eq (map den args1) (map den args2).
Proof.
  induction 1 as [|a1 r1 Ha _ IH]; intros [|a2 r2] G1 G2; try reflexivity.
  inversion G1; inversion G2; subst. cbn [map pys_eq]. rewrite Ha, IH by assumption. reflexivity.
Qed.

Lemma key_value_faithful : forall n1 n2, good n1 -> good n2 ->
  py_eq (key_value (ikey n1)) (key_value (ikey n2)) = py_eq (den n1) (den n2).
Proof.
  induction n1 as [ty1 x1|ty1 lit1 mult1 args1 _ IHa|ty1 a1 b1 c1 _ _ _|] using cnode_ind2; intros n2 G1 G2;
    [| |destruct G1 as (_ & H & _); discriminate|destruct G1 as (H & _); discriminate];
    (destruct n2 as [ty2 x2|ty2 lit2 mult2 args2|ty2 a2 b2 c2|];
     [| |destruct G2 as (_ & H & _); discriminate|destruct G2 as (H & _); discriminate]);
    try reflexivity.
  destruct (good_seq_inv _ _ _ _ G1) as (-> & M1 & Ga1). destruct (good_seq_inv _ _ _ _ G2) as (-> & M2 & Ga2).
  rewrite !ikey_seq. unfold mult_entry. cbn [den]. unfold mult_count. rewrite M1, M2. cbn [key_value map].
  rewrite !py_eq_seq. cbn [pys_eq].
  change (py_eq (key_value (none_entry true)) (key_value (none_entry true))) with true. cbn [andb].
  f_equal. exact (faithful_lists args1 IHa args2 Ga1 Ga2).
Qed.

(* ------------------------------------------------------------------ *)
(* the frozenset key                                                   *)
(* ------------------------------------------------------------------ *)

Fixpoint ex_key (x : key) (l : list key) : bool :=
  match l with [] => false | y :: r => key_eq x y || ex_key x r end.

Lemma key_eq_cont_set t1 t2 l1 l2 :
  key_eq (KCont t1 true l1) (KCont t2 true l2)
  = ntype_eqb t1 t2 && (forallb (fun x => existsb (fun y => key_eq x y) l2) l1
                        && forallb (fun y => existsb (fun x => key_eq x y) l1) l2).
Proof. cbn. reflexivity. Qed.

Lemma key_eq_set_tuple t1 t2 l1 l2 : key_eq (KCont t1 true l1) (KCont t2 false l2) = false.
Proof. cbn. destruct (ntype_eqb t1 t2); reflexivity. Qed.
Lemma key_eq_tuple_set t1 t2 l1 l2 : key_eq (KCont t1 false l1) (KCont t2 true l2) = false.
Proof. cbn. destruct (ntype_eqb t1 t2); reflexivity. Qed.

(* the key of a pooled frozenset: a set of the first item keys by value; none if the guard is on and
   there is a multiplied tuple among the items *)
Lemma frozen_key_wf guard args : forallb wf_node args = true ->
  frozen_key true guard args =
  if guard && existsb has_mult args then None
  else Some (KCont TPyFrozenset true (first_by key_value [] (map ikey args))).
Proof. intros W. unfold frozen_key. rewrite (item_keys_wf true args W). reflexivity. Qed.

Lemma frozen_key_set fx guard args k : frozen_key fx guard args = Some k -> exists ks, k = KCont TPyFrozenset true ks.
Proof.
  unfold frozen_key. destruct (_ && _); [discriminate|]. destruct (all_some _); [|discriminate].
  intros [= <-]. eauto.
Qed.

(* the key keeps the item keys of exactly the elements frozenset() keeps *)
Lemma frozen_key_first args : Forall good args ->
  first_by key_value [] (map ikey args) = map ikey (first_by den [] args)
  /\ fs_build (map den args) = map den (first_by den [] args).
Proof.
  intros G. split; [|exact (fs_build_first den args [])].
  rewrite first_by_map. f_equal. apply (first_by_agree (fun n => key_value (ikey n)) den args []).
  intros a b Ha Hb. rewrite Forall_forall in G. apply key_value_faithful; apply G; assumption.
Qed.

(* items with equal keys have the same value, so mutual inclusion of the keys is mutual inclusion of
   the values *)
Lemma set_incl_values (F1 F2 : list cnode) :
  Forall good F1 -> Forall good F2 ->
  forallb (fun x => existsb (fun y => key_eq x y) (map ikey F2)) (map ikey F1) = true ->
  forall v, In v (map den F1) -> In v (map den F2).
Proof.
  intros O1 O2 H v Hin. apply in_map_iff in Hin. destruct Hin as (x & <- & Hx).
  rewrite forallb_forall in H. specialize (H (ikey x) (in_map ikey _ _ Hx)).
  apply existsb_exists in H. destruct H as (ky & Hy & E). apply in_map_iff in Hy. destruct Hy as (y & <- & Hy).
  rewrite Forall_forall in O1, O2. rewrite (ikey_exact x y (proj1 (O1 x Hx)) (proj1 (O2 y Hy)) E). apply in_map. exact Hy.
Qed.

Lemma set_incl_values_rev (F1 F2 : list cnode) :
  Forall good F1 -> Forall good F2 ->
  forallb (fun y => existsb (fun x => key_eq x y) (map ikey F1)) (map ikey F2) = true ->
  forall v, In v (map den F2) -> In v (map den F1).
Proof.
  intros O1 O2 H v Hin. apply in_map_iff in Hin. destruct Hin as (y & <- & Hy).
  rewrite forallb_forall in H. specialize (H (ikey y) (in_map ikey _ _ Hy)).
  apply existsb_exists in H. destruct H as (kx & Hx & E). apply in_map_iff in Hx. destruct Hx as (x & <- & Hx).
  rewrite Forall_forall in O1, O2. rewrite <- (ikey_exact x y (proj1 (O1 x Hx)) (proj1 (O2 y Hy)) E). apply in_map. exact Hx.
Qed.

Lemma sub_good (l : list cnode) : Forall good l -> Forall good (first_by den [] l).
Proof.
  intros F. apply Forall_forall. intros x Hx. rewrite Forall_forall in F. apply F.
  exact (first_by_in _ _ _ _ Hx).
Qed.

(* Theorem: with the key function since a8197db74 (sign of a float in the leaf key, first item key
   per value for frozensets), pooled containers with equal keys are identical constants --
   for frozensets provided no multiplied tuple occurs among the items (the guard of the repaired
   code; without it the statement is false, see below) *)
Theorem dedup_first_injective guard t1 t2 k1 k2 :
  wf_top2 t1 = true -> wf_top2 t2 = true ->
  guard = true \/ (top_has_mult t1 = false /\ top_has_mult t2 = false) ->
  top_key2 true guard t1 = Some k1 -> top_key2 true guard t2 = Some k2 ->
  key_eq k1 k2 = true ->
  exists c1 c2, denote_top t1 = Some c1 /\ denote_top t2 = Some c2 /\ identical_top c1 c2.
Proof.
  intros W1 W2 Hg K1 K2 E.
  unfold wf_top2 in W1, W2. apply andb_prop in W1. destruct W1 as (W1 & H1).
  apply andb_prop in W2. destruct W2 as (W2 & H2).
  destruct t1 as [n1|n1|args1]; destruct t2 as [n2|n2|args2];
    try (apply (dedup_injective _ _ k1 k2); assumption); cbn [top_key2] in K1, K2.
  (* tuple or slice against frozenset: a tuple of keys is not a set of keys *)
  1-2: destruct (top_key_ordered _ _ W1 K1) as (ty & ks & ->); destruct (frozen_key_set _ _ _ _ K2) as (ks2 & ->);
    rewrite key_eq_tuple_set in E; discriminate.
  1-2: destruct (top_key_ordered _ _ W2 K2) as (ty & ks & ->); destruct (frozen_key_set _ _ _ _ K1) as (ks1 & ->);
    rewrite key_eq_set_tuple in E; discriminate.
  (* frozenset / frozenset *)
  cbn [wf_top] in W1, W2. rewrite frozen_key_wf in K1, K2 by assumption.
  assert (M : existsb has_mult args1 = false /\ existsb has_mult args2 = false).
  { destruct Hg as [->|]; [|assumption].
    destruct (existsb has_mult args1); [discriminate|]. destruct (existsb has_mult args2); [discriminate|]. auto. }
  destruct M as (M1 & M2). rewrite M1 in K1. rewrite M2 in K2. rewrite andb_false_r in K1, K2.
  injection K1 as <-. injection K2 as <-.
  pose proof (args_good _ W1 H1 M1) as G1. pose proof (args_good _ W2 H2 M2) as G2.
  destruct (frozen_key_first args1 G1) as (R1 & B1). destruct (frozen_key_first args2 G2) as (R2 & B2).
  rewrite R1, R2, key_eq_cont_set in E.
  apply andb_prop in E. destruct E as (_ & E). apply andb_prop in E. destruct E as (E12 & E21).
  exists (VFrozen (fs_build (map den args1))), (VFrozen (fs_build (map den args2))).
  cbn [denote_top]. rewrite !denote_args_wf by assumption. split; [reflexivity|]. split; [reflexivity|].
  rewrite B1, B2. split.
  - exact (set_incl_values _ _ (sub_good _ G1) (sub_good _ G2) E12).
  - exact (set_incl_values_rev _ _ (sub_good _ G1) (sub_good _ G2) E21).
Qed.

(* ... and without the guard two different frozensets share a key (finding
   frozenset_multiplied_tuple_merged): frozenset(((1,)*2, (1.0, 1.0))) and
   frozenset(((1.0, 1.0), (1,)*2)) -- the value read off the key of (1,)*2 is (2, 1), not (1, 1) *)
Definition one_f : Z := 4607182418800017408.
Definition wit_mult : cnode := NSeq TPyTuple true (Some (NLeaf (TC 0) (SInt 2))) [NLeaf TPyInt (SInt 1)].
Definition wit_flt : cnode := NSeq TPyTuple true None [NLeaf TPyFloat (SFloat one_f); NLeaf TPyFloat (SFloat one_f)].

Theorem dedup_first_unguarded_refuted :
  exists t1 t2 k1 k2 c1 c2,
    wf_top2 t1 = true /\ wf_top2 t2 = true /\
    top_key2 true false t1 = Some k1 /\ top_key2 true false t2 = Some k2 /\ key_eq k1 k2 = true /\
    denote_top t1 = Some c1 /\ denote_top t2 = Some c2 /\ ~ identical_top c1 c2.
Proof.
  exists (TopFrozen [wit_mult; wit_flt]), (TopFrozen [wit_flt; wit_mult]).
  do 2 eexists.
  exists (VFrozen [CSeq TPyTuple [CScalar (SInt 1); CScalar (SInt 1)]]),
         (VFrozen [CSeq TPyTuple [CScalar (SFloat one_f); CScalar (SFloat one_f)]]).
  split; [vm_compute; reflexivity|]. split; [vm_compute; reflexivity|].
  split; [vm_compute; reflexivity|]. split; [vm_compute; reflexivity|].
  split; [vm_compute; reflexivity|]. split; [vm_compute; reflexivity|].
  split; [vm_compute; reflexivity|].
  intros [A _]. specialize (A _ (or_introl eq_refl)). destruct A as [A|A]; [discriminate A|exact A].
Qed.

(* sharing: the order of the items no longer matters when no two of them are == *)
Theorem frozen_key_order_free :
  exists k1 k2,
    top_key2 true true (TopFrozen [NLeaf TPyInt (SInt 1); NLeaf TPyInt (SInt 2); NLeaf TPyInt (SInt 3)]) = Some k1 /\
    top_key2 true true (TopFrozen [NLeaf TPyInt (SInt 3); NLeaf TPyInt (SInt 1); NLeaf TPyInt (SInt 2)]) = Some k2 /\
    key_eq k1 k2 = true.
Proof. do 2 eexists. split; [vm_compute; reflexivity|]. split; [vm_compute; reflexivity|]. vm_compute. reflexivity. Qed.
