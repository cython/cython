(* C29 - the base-class walk of _inject_pickle_methods (Model/M_Pickle.v: walk, decide_walk):
   the loop computes the chain-wide disjunctions; the decision is level-wise; the variant that
   looks __cinit__ up in the scope of the class being compiled only is characterised and refuted. *)
From Coq Require Import ZArith List Bool Lia Permutation Sorted.
From CyVerif Require Import Model.M_Pickle Proof.P_Pickle.
Import ListNotations.

(* ------------------------------------------------------------------ the loop *)
Lemma walk_fold : forall sc sr node h w0,
  fold_left (walk_step sc sr node) h w0 =
  {| w_members := w_members w0 ++ flat_map own_members h;
     w_cinit := w_cinit w0 || existsb (fun k => c_cinit (sc node k)) h;
     w_reduce := w_reduce w0 || existsb (fun k => c_reduce (sr node k)) h |}.
Proof.
  intros sc sr node h. induction h as [|k r IH]; intro w0.
  - simpl. rewrite app_nil_r. rewrite !orb_false_r. destruct w0; reflexivity.
  - simpl fold_left. rewrite IH. unfold walk_step. simpl.
    rewrite <- app_assoc. rewrite <- !orb_assoc. reflexivity.
Qed.

(* loop invariant result: after the walk the accumulators are the members of every level in chain
   order and the disjunction over ALL levels of the two lookups *)
Lemma walk_spec : forall sc sr node h,
  walk sc sr node h =
  {| w_members := gather h;
     w_cinit := existsb (fun k => c_cinit (sc node k)) h;
     w_reduce := existsb (fun k => c_reduce (sr node k)) h |}.
Proof. intros. unfold walk. rewrite walk_fold. reflexivity. Qed.

Lemma existsb_const : forall (A : Type) (b : bool) (x : A) l, existsb (fun _ => b) (x :: l) = b.
Proof.
  intros A b x l. revert x. induction l as [|y r IH]; intro x; simpl.
  - apply orb_false_r.
  - simpl in IH. rewrite (IH y). apply orb_diag.
Qed.

(* the loop as written computes the decision of the declarative model: every theorem about
   [decide] (eligibility = documented rule, refusal reasons, member order) holds of the walk *)
Theorem decide_walk_eq : forall f e h, decide_walk sel_cls sel_cls f e h = decide f e h.
Proof.
  intros f e h. destruct h as [|c bs]; [reflexivity|].
  unfold decide_walk, decide, reduce_in_scope. rewrite walk_spec. unfold sel_cls.
  cbn [w_members w_cinit w_reduce].
  change (existsb (fun k => c_reduce k) (c :: bs)) with (existsb c_reduce (c :: bs)).
  change (existsb (fun k => c_cinit k) (c :: bs)) with (existsb c_cinit (c :: bs)).
  rewrite decide_on_core. cbn [head_auto]. fold (all_members (c :: bs)).
  cbn [existsb].
  destruct (c_reduce c); [reflexivity|]. cbn [orb].
  destruct (negb (fx_lookup f) && g_reduce e).
  { rewrite orb_true_r. reflexivity. }
  rewrite orb_false_r.
  destruct (existsb c_reduce bs); destruct (c_auto c) as [[|]|]; reflexivity.
Qed.

(* ------------------------------------------------------------------ level-wise rule *)
Definition forced_of (c : cls) : bool := match c_auto c with Some true => true | _ => false end.

(* one level of the chain does not stand in the way of auto-pickling the leaf *)
Definition level_ok (f : flags) (forced : bool) (k : cls) : Prop :=
  c_cinit k = false /\ c_reduce k = false /\
  forall m, In m (c_members k) -> special (m_name m) = false ->
    non_py f (m_kind m) = false /\ (is_struct (m_kind m) = false \/ forced = true).

Lemma existsb_false_iff : forall (A : Type) (p : A -> bool) l,
  existsb p l = false <-> forall x, In x l -> p x = false.
Proof.
  intros A p l. induction l as [|a r IH]; simpl; split; intro H.
  - intros x [].
  - reflexivity.
  - apply orb_false_iff in H. destruct H as [H1 H2]. intros x [->|Hx]; [exact H1|].
    apply IH; assumption.
  - apply orb_false_iff. split; [apply H; left; reflexivity|]. apply IH. intros x Hx. apply H. right. exact Hx.
Qed.

Lemma documented_levelwise : forall f c bs,
  documented_rule f c bs <->
  (c_auto c <> Some false /\ forall k, In k (c :: bs) -> level_ok f (forced_of c) k).
Proof.
  intros f c bs. unfold documented_rule, level_ok. split.
  - intros [HR [HA [HC [HN HS]]]]. split; [exact HA|]. intros k Hk.
    pose proof (proj1 (existsb_false_iff _ _ _) HR k Hk) as Rk.
    pose proof (proj1 (existsb_false_iff _ _ _) HC k Hk) as Ck.
    split; [exact Ck|]. split; [exact Rk|]. intros m Hm Hs.
    assert (I : In m (all_members (c :: bs))).
    { apply in_all_members. apply in_gather. exists k. repeat split; assumption. }
    split; [apply HN; exact I|].
    destruct HS as [HS|HS]; [left; apply HS; exact I|right; unfold forced_of; rewrite HS; reflexivity].
  - intros [HA HL]. split.
    { apply existsb_false_iff. intros k Hk. apply (HL k Hk). }
    split; [exact HA|]. split.
    { apply existsb_false_iff. intros k Hk. apply (HL k Hk). }
    split.
    { intros m Hm. apply in_all_members in Hm. apply in_gather in Hm.
      destruct Hm as [k [Hk [Hm Hs]]]. apply (HL k Hk); assumption. }
    unfold forced_of in HL. destruct (c_auto c) as [[|]|] eqn:EA.
    + right. reflexivity.
    + exfalso. apply HA. reflexivity.
    + left. intros m Hm. apply in_all_members in Hm. apply in_gather in Hm.
      destruct Hm as [k [Hk [Hm Hs]]].
      destruct (HL k Hk) as [_ [_ HM]]. destruct (HM m Hm Hs) as [_ [H|H]]; [exact H|discriminate].
Qed.

(* a __cinit__ at ANY level refuses the leaf (unless pickling is switched off / user-defined) *)
Theorem cinit_anywhere_refuses : forall f e c bs k,
  quiet f e -> In k (c :: bs) -> c_cinit k = true ->
  existsb c_reduce (c :: bs) = false -> c_auto c <> Some false ->
  decide_walk sel_cls sel_cls f e (c :: bs) = InjectRaise RCinit [].
Proof.
  intros f e c bs k Q Hk Ck HR HA. rewrite decide_walk_eq.
  rewrite decide_on_eq; [|unfold reduce_in_scope; rewrite HR; apply (quiet_reduce f e Q)|exact HA].
  unfold decide_on. rewrite (proj2 (existsb_exists _ _)) by (exists k; split; assumption). reflexivity.
Qed.

(* an unconvertible member declared at ANY level refuses the leaf *)
Theorem nonpy_anywhere_refuses : forall f e c bs k m,
  In k (c :: bs) -> In m (c_members k) -> special (m_name m) = false -> non_py f (m_kind m) = true ->
  forall ms, decide_walk sel_cls sel_cls f e (c :: bs) <> InjectPickle ms.
Proof.
  intros f e c bs k m Hk Hm Hs Hn ms D. rewrite decide_walk_eq in D.
  apply decide_inv in D as (_ & _ & D); [|discriminate]. rewrite decide_on_core in D.
  apply decide_core_pickle in D as (_ & NP & _). rewrite filter_nil_iff in NP.
  rewrite NP in Hn; [discriminate|]. apply in_all_members, in_gather. exists k. repeat split; assumption.
Qed.

(* ------------------------------------------------------------------ the own-scope-only variant *)
Lemma own_members_clear : forall k, own_members (clear_cinit k) = own_members k.
Proof. reflexivity. Qed.

Lemma gather_map : forall (g : cls -> cls) bs,
  (forall k, own_members (g k) = own_members k) -> gather (map g bs) = gather bs.
Proof.
  intros g bs H. unfold gather. induction bs as [|k r IH]; [reflexivity|].
  simpl. rewrite H, IH. reflexivity.
Qed.

Lemma existsb_reduce_clear : forall bs, existsb c_reduce (map clear_cinit bs) = existsb c_reduce bs.
Proof. intro bs. induction bs as [|k r IH]; [reflexivity|]. simpl. rewrite IH. reflexivity. Qed.

Lemma existsb_cinit_clear : forall bs, existsb c_cinit (map clear_cinit bs) = false.
Proof. intro bs. induction bs as [|k r IH]; [reflexivity|]. simpl. exact IH. Qed.

(* looking __cinit__ up in node.scope at every step = deciding the chain whose BASES have their
   __cinit__ erased, for every chain *)
Theorem own_scope_variant_spec : forall f e c bs,
  decide_walk sel_node sel_cls f e (c :: bs) = decide f e (c :: map clear_cinit bs).
Proof.
  intros f e c bs. rewrite <- decide_walk_eq.
  unfold decide_walk. rewrite !walk_spec. unfold sel_node, sel_cls.
  cbn [w_members w_cinit w_reduce].
  rewrite (existsb_const cls (c_cinit c) c bs).
  change (existsb (fun k => c_cinit k) (c :: map clear_cinit bs)) with
         (c_cinit c || existsb c_cinit (map clear_cinit bs)).
  rewrite existsb_cinit_clear. rewrite orb_false_r.
  change (existsb (fun k => c_reduce k) (c :: map clear_cinit bs)) with
         (c_reduce c || existsb c_reduce (map clear_cinit bs)).
  rewrite existsb_reduce_clear.
  change (existsb (fun k => c_reduce k) (c :: bs)) with (c_reduce c || existsb c_reduce bs).
  change (gather (c :: map clear_cinit bs)) with (own_members c ++ gather (map clear_cinit bs)).
  rewrite (gather_map _ _ own_members_clear). reflexivity.
Qed.

(* hence it is wrong on EVERY chain whose only obstacle is a base-class __cinit__ *)
Theorem own_scope_variant_wrong : forall f e c bs,
  quiet f e -> c_cinit c = false -> existsb c_cinit bs = true ->
  documented_rule f c (map clear_cinit bs) ->
  (exists ms, decide_walk sel_node sel_cls f e (c :: bs) = InjectPickle ms) /\
  decide_walk sel_cls sel_cls f e (c :: bs) = InjectRaise RCinit [].
Proof.
  intros f e c bs Q Cc Cb D. split.
  - rewrite own_scope_variant_spec. apply (decide_pickle_iff f e c (map clear_cinit bs) Q). exact D.
  - destruct D as [HR [HA _]].
    apply existsb_exists in Cb. destruct Cb as [k [Hk Ck]].
    apply (cinit_anywhere_refuses f e c bs k Q); [right; exact Hk|exact Ck| |exact HA].
    cbn [existsb] in HR |- *. rewrite existsb_reduce_clear in HR. exact HR.
Qed.

(* concrete witness (repaired flags): Base(__cinit__, int a) <- Leaf(object b) *)
Definition F1 : flags := {| fx_lookup := true; fx_ptr := true; fx_pad := true |}.
Definition cinit_base : cls :=
  {| c_id := 1; c_members := [{| m_name := nA; m_kind := kint |}]; c_cinit := true; c_reduce := false;
     c_getstate := false; c_setstate := false; c_auto := None |}.
Definition cinit_chain : hierarchy := [mk_cls 2 [{| m_name := nB; m_kind := KObj |}] None; cinit_base].

Lemma own_scope_variant_refuted :
  decide_walk sel_cls sel_cls F1 E0 cinit_chain = InjectRaise RCinit [] /\
  exists ms, decide_walk sel_node sel_cls F1 E0 cinit_chain = InjectPickle ms /\ ms <> [].
Proof. split; [reflexivity|]. eexists. split; [vm_compute; reflexivity|discriminate]. Qed.

(* the same for __reduce__: looking it up in node.scope only makes an inherited user __reduce__
   invisible; witness Base(def __reduce__) <- Leaf(int a) *)
Definition reduce_base : cls :=
  {| c_id := 1; c_members := []; c_cinit := false; c_reduce := true;
     c_getstate := false; c_setstate := false; c_auto := None |}.
Definition reduce_chain : hierarchy := [mk_cls 2 [{| m_name := nA; m_kind := kint |}] None; reduce_base].

Lemma own_scope_reduce_refuted :
  decide_walk sel_cls sel_cls F1 E0 reduce_chain = NoInject /\
  exists ms, decide_walk sel_cls sel_node F1 E0 reduce_chain = InjectPickle ms.
Proof. split; [reflexivity|]. eexists. vm_compute. reflexivity. Qed.

(* ------------------------------------------------------------------ cimported bases (finding) *)
(* A base class cimported from another module is seen through its .pxd: attributes yes, methods no.
   The members are still all collected ... *)
Lemma all_members_pxd_view : forall c bs, all_members (c :: map pxd_view bs) = all_members (c :: bs).
Proof.
  intros c bs. unfold all_members. f_equal.
  change (gather (c :: map pxd_view bs)) with (own_members c ++ gather (map pxd_view bs)).
  rewrite (gather_map pxd_view bs (fun _ => eq_refl)). reflexivity.
Qed.

(* ... but a __cinit__ of the cimported base is not: the class gets the real methods although the
   documented rule (applied to the true chain) refuses it.  For every such chain: *)
Theorem cimported_cinit_unseen : forall f e c bs,
  quiet f e -> existsb c_cinit bs = true ->
  documented_rule f c (map pxd_view bs) ->
  (exists ms, decide f e (c :: map pxd_view bs) = InjectPickle ms) /\ ~ documented_rule f c bs.
Proof.
  intros f e c bs Q Cb D. split.
  - apply (decide_pickle_iff f e c (map pxd_view bs) Q). exact D.
  - intros [_ [_ [HC _]]]. cbn [existsb] in HC. apply orb_false_iff in HC. destruct HC as [_ HC].
    rewrite HC in Cb. discriminate.
Qed.

Lemma cimported_cinit_refuted :
  decide F1 E0 cinit_chain = InjectRaise RCinit [] /\
  exists ms, decide F1 E0 [mk_cls 2 [{| m_name := nB; m_kind := KObj |}] None; pxd_view cinit_base] = InjectPickle ms
             /\ ms <> [].
Proof. split; [reflexivity|]. eexists. split; [vm_compute; reflexivity|discriminate]. Qed.
