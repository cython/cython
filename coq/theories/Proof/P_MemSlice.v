(* Proofs about Model/M_MemSlice.v: one sliced or indexed memoryview dimension vs CPython's slice.indices, and
   the N-dimensional composition. *)
From Coq Require Import ZArith List Bool Lia ZifyBool.
From CyVerif Require Import Lib.CInt Model.M_MemSlice.
Import ListNotations.
Open Scope Z_scope.

Lemma quot_facts a b : b <> 0 ->
  a = b * Z.quot a b + Z.rem a b /\ Z.abs (Z.rem a b) < Z.abs b /\ 0 <= Z.rem a b * a.
Proof.
  intros Hb. split; [apply Z.quot_rem'|]. split; [apply Z.rem_bound_abs; exact Hb|].
  apply Z.rem_sign_mul; exact Hb.
Qed.

Lemma quot_nonpos a b : (0 <= a /\ b < 0) \/ (a <= 0 /\ 0 < b) -> Z.quot a b <= 0.
Proof.
  intros [[Ha Hb]|[Ha Hb]].
  - assert (H : 0 <= Z.quot a (- b)) by (apply Z.quot_pos; lia).
    rewrite Z.quot_opp_r in H by lia. lia.
  - assert (H : 0 <= Z.quot (- a) b) by (apply Z.quot_pos; lia).
    rewrite Z.quot_opp_l in H by lia. lia.
Qed.

Lemma ceil_len_opp fx s e st : st <> 0 -> ceil_len fx (- s) (- e) (- st) = ceil_len fx s e st.
Proof.
  intros Hst. unfold ceil_len.
  replace (- e - - s) with (- (e - s)) by ring. rewrite Z.quot_opp_opp by exact Hst.
  set (q := Z.quot (e - s) st).
  replace (- (e - s) - - st * q) with (- (e - s - st * q)) by ring. set (r := e - s - st * q).
  replace (- r =? 0) with (r =? 0) by lia.
  replace (negb (r =? 0) && Bool.eqb (- r <? 0) (- st <? 0))
    with (negb (r =? 0) && Bool.eqb (r <? 0) (st <? 0)) by lia.
  reflexivity.
Qed.

Lemma py_len_opp s e st : st <> 0 -> py_len (- s) (- e) (- st) = py_len s e st.
Proof.
  intros Hst. unfold py_len. rewrite Z.opp_involutive.
  replace (- s - - e - 1) with (e - s - 1) by ring. replace (- e - - s - 1) with (s - e - 1) by ring.
  destruct (Z.ltb_spec (- st) 0), (Z.ltb_spec st 0); try lia.
  - replace (- e <? - s) with (s <? e) by lia. reflexivity.
  - replace (- s <? - e) with (e <? s) by lia. reflexivity.
Qed.

Lemma ceil_len_fixed_pos fc s e st : 0 < st ->
  ceil_len {| fx_clamp := fc; fx_ceil := true |} s e st = py_len s e st.
Proof.
  intros Hst. unfold ceil_len, py_len. cbn [fx_ceil].
  destruct (Z.ltb_spec st 0) as [?|_]; [lia|].
  destruct (quot_facts (e - s) st ltac:(lia)) as (E & Hr & Hs).
  set (d := e - s) in *. set (q := Z.quot d st) in *.
  replace (d - st * q) with (Z.rem d st) by lia. set (r := Z.rem d st) in *.
  destruct (Z.ltb_spec s e) as [Hlt|Hge].
  - (* non-empty: 0 <= r < st, and (d - 1) / st is q - 1 or q as r is 0 or not *)
    assert (0 <= r) by (apply Z.rem_nonneg; lia).
    assert (0 <= q) by (apply Z.quot_pos; lia).
    destruct (Z.ltb_spec r 0); [lia|].
    destruct (Z.eqb_spec r 0) as [R0|R0]; cbn [negb andb Bool.eqb].
    + rewrite <- (Z.div_unique (d - 1) st (q - 1) (st - 1)) by lia.
      destruct (Z.ltb_spec q 0); lia.
    + rewrite <- (Z.div_unique (d - 1) st q (r - 1)) by lia.
      destruct (Z.ltb_spec (q + 1) 0); lia.
  - (* empty: r <= 0 never rounds up, and q <= 0 *)
    assert (r <= 0) by (apply Z.rem_nonpos; lia).
    assert (q <= 0) by (apply quot_nonpos; lia).
    replace (negb (r =? 0) && Bool.eqb (r <? 0) false) with false by lia.
    destruct (Z.ltb_spec q 0); lia.
Qed.

(* the repaired rounding: ceil((stop-start)/step) clamped at 0 = CPython's slicelength *)
Lemma ceil_len_fixed_eq fc s e st : st <> 0 ->
  ceil_len {| fx_clamp := fc; fx_ceil := true |} s e st = py_len s e st.
Proof.
  intros Hst. destruct (proj1 (Z.lt_gt_cases st 0) Hst) as [Hneg|Hpos].
  - rewrite <- ceil_len_opp, <- py_len_opp by exact Hst. apply ceil_len_fixed_pos. lia.
  - apply ceil_len_fixed_pos. exact Hpos.
Qed.

(* clampv, start' and stop' of py_slice_indices under names.  The doubled test in py_start / py_stop
   is the model's `if neg then upper else lower` with upper and lower written out, so that
   py_slice_indices_unfold holds by computation *)
Definition py_clamp (length : Z) (neg : bool) (v : Z) : Z :=
  let lower := if neg then -1 else 0 in
  let upper := if neg then length - 1 else length in
  if v <? 0 then (let s := v + length in if s <? lower then lower else s)
  else (if v >? upper then upper else v).

Definition py_start (length : Z) (neg : bool) (o : option Z) : Z :=
  match o with
  | None => if neg then (if neg then length - 1 else length) else (if neg then -1 else 0)
  | Some s => py_clamp length neg s
  end.

Definition py_stop (length : Z) (neg : bool) (o : option Z) : Z :=
  match o with
  | None => if neg then (if neg then -1 else 0) else (if neg then length - 1 else length)
  | Some s => py_clamp length neg s
  end.

Lemma py_slice_indices_unfold length a b c :
  py_slice_indices length a b c =
  let step' := match c with None => 1 | Some s => s end in
  if step' =? 0 then None
  else Some (py_len (py_start length (step' <? 0) a) (py_stop length (step' <? 0) b) step',
             py_start length (step' <? 0) a, step').
Proof. reflexivity. Qed.

Lemma norm_start_eq fe shape neg hs start : 0 <= shape ->
  norm_start {| fx_clamp := true; fx_ceil := fe |} shape neg hs start = py_start shape neg (opt hs start).
Proof.
  intros Hs. unfold norm_start, py_start, py_clamp, clamp_low, opt. cbn [fx_clamp].
  destruct hs, neg; cbn [andb];
    case_ifs; lia.
Qed.

Lemma py_len_stop_irrel s e1 e2 st :
  e1 = e2 \/ (st < 0 /\ s <= e1 /\ s <= e2) \/ (0 <= st /\ e1 <= s /\ e2 <= s) ->
  py_len s e1 st = py_len s e2 st.
Proof.
  intros [->|[(H1 & H2 & H3)|(H1 & H2 & H3)]]; [reflexivity| |]; unfold py_len;
    case_ifs; lia.
Qed.

(* the stop bound may differ (shape instead of shape-1 for a negative step), never the length *)
Lemma norm_stop_len fe shape neg he stop s st : 0 <= shape ->
  neg = (st <? 0) -> (neg = true -> s <= shape - 1) ->
  py_len s (norm_stop {| fx_clamp := true; fx_ceil := fe |} shape neg he stop) st
  = py_len s (py_stop shape neg (opt he stop)) st.
Proof.
  intros Hs Hn Hb. apply py_len_stop_irrel.
  unfold norm_stop, py_stop, py_clamp, clamp_low, opt. cbn [fx_clamp].
  destruct he, neg; cbn [andb]; try specialize (Hb eq_refl); case_ifs; lia.
Qed.

Lemma py_start_neg_bound shape o : 0 <= shape -> py_start shape true o <= shape - 1.
Proof.
  intros Hs. unfold py_start, py_clamp. destruct o; [|lia].
  case_ifs; lia.
Qed.

(* the repaired per-dimension computation = slice(start, stop, step).indices(shape), with its length *)
Lemma slice_triple_eq shape start stop step hs he hst : 0 <= shape ->
  slice_triple fixes_all shape start stop step hs he hst
  = py_slice_indices shape (opt hs start) (opt he stop) (opt hst step).
Proof.
  intros Hs. rewrite py_slice_indices_unfold. unfold slice_triple, slice_bounds, fixes_all.
  (* an absent step is the step 1 *)
  set (st := if hst then step else 1).
  replace (match opt hst step with None => 1 | Some s => s end) with st by (destruct hst; reflexivity).
  replace (hst && (step =? 0)) with (st =? 0) by (destruct hst; reflexivity).
  replace (hst && (step <? 0)) with (st <? 0) by (destruct hst; reflexivity).
  cbv zeta. destruct (Z.eqb_spec st 0) as [Z0|NZ]; [reflexivity|].
  rewrite ceil_len_fixed_eq by exact NZ. rewrite norm_start_eq by exact Hs.
  rewrite norm_stop_len; [reflexivity | exact Hs | reflexivity |].
  intros ->. apply py_start_neg_bound; exact Hs.
Qed.

Lemma py_slice_ssize_eq M length a b c :
  0 <= length <= M -> (forall s, c = Some s -> - M <= s) ->
  py_slice_ssize M length a b c = py_slice_indices length a b c.
Proof.
  intros HM Hc. rewrite py_slice_indices_unfold. unfold py_slice_ssize, py_unpack.
  set (st0 := match c with Some s => if s <? - M then - M else s | None => 1 end).
  assert (Est : st0 = match c with Some s => s | None => 1 end).
  { unfold st0. destruct c as [s|]; [|reflexivity]. specialize (Hc s eq_refl).
    destruct (Z.ltb_spec s (- M)); [lia|reflexivity]. }
  rewrite <- Est. clearbody st0. clear Est Hc.
  destruct (Z.eqb_spec st0 0) as [Z0|NZ]; [reflexivity|].
  (* componentwise: the adjusted start, the adjusted stop, the start again *)
  unfold py_adjust, py_start, py_stop, py_clamp. do 3 f_equal; [f_equal|].
  1, 3: destruct a as [s|]; case_ifs; lia.
  destruct b as [s|]; case_ifs; lia.
Qed.

Lemma slice_triple_ssize_eq M shape start stop step hs he hst :
  0 <= shape <= M -> (hst = true -> - M <= step) ->
  slice_triple fixes_all shape start stop step hs he hst
  = py_slice_ssize M shape (opt hs start) (opt he stop) (opt hst step).
Proof.
  intros HM Hst. rewrite py_slice_ssize_eq; [apply slice_triple_eq; lia|exact HM|].
  intros s Hs. destruct hst; [injection Hs as <-; auto|discriminate].
Qed.

(* the view's i-th element lives at the base offset of element first + i*step (any variant) *)
Lemma element_eq fx shape stride start stop step hs he hst n s' o :
  slice_dim fx shape stride start stop step hs he hst = DSlice n s' o ->
  exists first istep,
    slice_triple fx shape start stop step hs he hst = Some (n, first, istep) /\
    (0 <= first -> forall i, o + i * s' = (first + i * istep) * stride) /\
    (first < 0 -> o = 0).
Proof.
  unfold slice_dim, slice_triple.
  destruct (slice_bounds fx shape start stop step hs he hst) as [[[[s0 e0] st0] n0]|]; [|discriminate].
  intros H. injection H as <- <- <-. exists s0, st0. split; [reflexivity|].
  destruct (Z.ltb_spec s0 0) as [Hneg|Hpos]; split.
  - intros Hge. lia.
  - intros _. ring.
  - intros _ i. ring.
  - intros Hlt. lia.
Qed.

Lemma py_clamp_bounds length (neg : bool) v : 0 <= length ->
  (if neg return Z then -1 else 0) <= py_clamp length neg v <= (if neg return Z then length - 1 else length).
Proof.
  intros H. unfold py_clamp. destruct neg;
    case_ifs; lia.
Qed.

Lemma steps_below D A i : 0 < A -> i < (D - 1) / A + 1 -> A * i < D.
Proof. intros HA Hi. pose proof (Z.mul_div_le (D - 1) A HA). nia. Qed.

Lemma py_slice_in_bounds length a b c n first step i :
  0 <= length -> py_slice_indices length a b c = Some (n, first, step) ->
  0 <= i < n -> 0 <= first + i * step < length.
Proof.
  intros Hl. rewrite py_slice_indices_unfold. cbv zeta.
  set (st := match c with Some s => s | None => 1 end).
  destruct (Z.eqb_spec st 0) as [Z0|NZ]; [discriminate|].
  intros [= Hn <- <-] Hi.
  set (s := py_start length (st <? 0) a) in *. set (e := py_stop length (st <? 0) b) in *.
  assert (Bs : (if st <? 0 return Z then -1 else 0) <= s <= (if st <? 0 return Z then length - 1 else length)).
  { unfold s, py_start. destruct a; [apply py_clamp_bounds; exact Hl|]. destruct (st <? 0); lia. }
  assert (Be : (if st <? 0 return Z then -1 else 0) <= e <= (if st <? 0 return Z then length - 1 else length)).
  { unfold e, py_stop. destruct b; [apply py_clamp_bounds; exact Hl|]. destruct (st <? 0); lia. }
  unfold py_len in Hn. clearbody s e.
  destruct (Z.ltb_spec st 0) as [Hneg|Hpos].
  - destruct (Z.ltb_spec e s) as [Hlt|Hge]; [|lia].
    pose proof (steps_below (s - e) (- st) i ltac:(lia) ltac:(lia)). nia.
  - destruct (Z.ltb_spec s e) as [Hlt|Hge]; [|lia].
    pose proof (steps_below (e - s) st i ltac:(lia) ltac:(lia)). nia.
Qed.

Lemma offsets_in_bounds shape start stop step hs he hst n first istep i :
  0 <= shape ->
  slice_triple fixes_all shape start stop step hs he hst = Some (n, first, istep) ->
  0 <= i < n -> 0 <= first + i * istep < shape.
Proof.
  intros Hs H Hi. rewrite slice_triple_eq in H by exact Hs.
  eapply py_slice_in_bounds; eassumption.
Qed.

Lemma py_len_nonneg s e st : st <> 0 -> 0 <= py_len s e st.
Proof.
  intros H. unfold py_len.
  destruct (Z.ltb_spec st 0); [destruct (Z.ltb_spec e s)|destruct (Z.ltb_spec s e)]; try lia.
  - pose proof (Z.div_pos (s - e - 1) (- st) ltac:(lia) ltac:(lia)). lia.
  - pose proof (Z.div_pos (e - s - 1) st ltac:(lia) ltac:(lia)). lia.
Qed.

Lemma index_dim_eq shape stride i :
  index_dim shape stride i =
  match py_index shape i with Some k => DIndex (k * stride) | None => DErr IndexError end.
Proof. unfold index_dim, py_index. destruct (_ && _); reflexivity. Qed.

Lemma py_index_spec length i :
  0 <= length ->
  (- length <= i < length -> py_index length i = Some (if i <? 0 then i + length else i)
                             /\ 0 <= (if i <? 0 then i + length else i) < length)
  /\ (~ (- length <= i < length) -> py_index length i = None).
Proof.
  intros Hl. unfold py_index. destruct (Z.ltb_spec i 0); split; intros Hx;
    match goal with |- context [if ?b then _ else _] => destruct b eqn:? end;
    try (split; [reflexivity|]); try reflexivity; lia.
Qed.

Lemma py_index_some length i k : py_index length i = Some k -> 0 <= k < length.
Proof. unfold py_index. destruct (_ && _) eqn:B; [|discriminate]. intros [= <-]. lia. Qed.

Lemma index_oob_raises shape stride i : 0 <= shape ->
  (index_dim shape stride i = DErr IndexError <-> ~ (- shape <= i < shape)).
Proof.
  intros Hs. rewrite index_dim_eq. destruct (py_index_spec shape i Hs) as [Hin Hout]. split.
  - intros H Hr. destruct (Hin Hr) as [E _]. rewrite E in H. discriminate.
  - intros Hr. rewrite (Hout Hr). reflexivity.
Qed.

Lemma index_dim_in_range shape stride i : 0 <= shape -> - shape <= i < shape ->
  index_dim shape stride i = DIndex ((if i <? 0 then i + shape else i) * stride)
  /\ 0 <= (if i <? 0 then i + shape else i) < shape.
Proof.
  intros Hs Hr. rewrite index_dim_eq. destruct (proj1 (py_index_spec shape i Hs) Hr) as [-> B].
  split; [reflexivity | exact B].
Qed.

Lemma zero_step_raises fx shape stride start stop step hs he hst :
  slice_dim fx shape stride start stop step hs he hst = DErr ValueError
  <-> (hst = true /\ step = 0).
Proof.
  unfold slice_dim, slice_bounds. destruct hst; cbn [andb].
  - destruct (Z.eqb_spec step 0); split; intros H; try reflexivity; try (split; auto; fail);
      try discriminate; lia.
  - split; [discriminate|intros [? _]; discriminate].
Qed.

Lemma slice_dim_never_index_error fx shape stride start stop step hs he hst :
  slice_dim fx shape stride start stop step hs he hst <> DErr IndexError.
Proof.
  unfold slice_dim. destruct (slice_bounds _ _ _ _ _ _ _ _) as [[[[? ?] ?] ?]|]; discriminate.
Qed.

Lemma simple_slice_eq fx shape stride : 0 <= shape ->
  slice_dim fx shape stride 0 0 0 false false false = simple_slice shape stride.
Proof.
  intros Hs. unfold slice_dim, slice_bounds, simple_slice, norm_start, norm_stop, ceil_len.
  cbn [andb]. rewrite Z.sub_0_r, Z.quot_1_r, Z.mul_1_l, Z.sub_diag, Z.mul_1_r, Z.mul_0_l.
  change (0 =? 0) with true. cbn [negb andb].
  destruct (fx_ceil fx); destruct (Z.ltb_spec shape 0); try lia; reflexivity.
Qed.

(* F7: a[:-12:-1] on 5 elements *)
Lemma clamp_unfixed_refuted : forall fe, exists shape start stop step hs he hst,
  0 <= shape /\ (hst = true -> step <> 0) /\
  slice_triple {| fx_clamp := false; fx_ceil := fe |} shape start stop step hs he hst
  <> py_slice_indices shape (opt hs start) (opt he stop) (opt hst step).
Proof.
  intros fe. exists 5, 0, (-12), (-1), false, true, true.
  split; [lia|]. split; [lia|]. destruct fe; vm_compute; discriminate.
Qed.

(* truncating ceil: a[3:2:2] on 5 elements has one element *)
Lemma ceil_unfixed_refuted : forall fc, exists shape start stop step hs he hst,
  0 <= shape /\ (hst = true -> step <> 0) /\
  slice_triple {| fx_clamp := fc; fx_ceil := false |} shape start stop step hs he hst
  <> py_slice_indices shape (opt hs start) (opt he stop) (opt hst step).
Proof.
  intros fc. exists 5, 3, 2, 2, true, true, true.
  split; [lia|]. split; [lia|]. destruct fc; vm_compute; discriminate.
Qed.

(* ... and a[5:4:2] on 5 elements addresses element 5 *)
Lemma bounds_unfixed_refuted : forall fc, exists shape start stop step hs he hst n first istep i,
  0 <= shape /\
  slice_triple {| fx_clamp := fc; fx_ceil := false |} shape start stop step hs he hst = Some (n, first, istep)
  /\ 0 <= i < n /\ ~ (0 <= first + i * istep < shape).
Proof.
  intros fc. exists 5, 5, 4, 2, true, true, true, 1, 5, 2, 0.
  split; [lia|]. split; [destruct fc; vm_compute; reflexivity|]. lia.
Qed.

Lemma opt_have_oz o : opt (have o) (oz o) = o.
Proof. destruct o; reflexivity. Qed.

Lemma slice_of_idx_eq fx sh st a b c : 0 <= sh ->
  slice_of_idx fx sh st a b c = slice_dim fx sh st (oz a) (oz b) (oz c) (have a) (have b) (have c).
Proof.
  intros Hs. unfold slice_of_idx. destruct a, b, c; try reflexivity.
  symmetry. apply simple_slice_eq; exact Hs.
Qed.

Lemma elem_offset_shift dims : forall js x c,
  elem_offset (x + c) dims js = elem_offset x dims js + c.
Proof.
  induction dims as [|[sh st] dr IH]; intros js x c; [destruct js; reflexivity|].
  destruct js as [|j jr]; [reflexivity|]. cbn [elem_offset].
  replace (x + c + j * st) with (x + j * st + c) by ring. apply IH.
Qed.

(* one dimension: a slice makes element j of the view base element first + j * step of
   slice.indices, which lies inside the base and is read at the same offset *)
Lemma slice_of_idx_elements sh st a b c n s o : 0 <= sh ->
  slice_of_idx fixes_all sh st a b c = DSlice n s o ->
  exists first istep, py_slice_indices sh a b c = Some (n, first, istep) /\
    forall j, 0 <= j < n ->
      0 <= first + j * istep < sh /\ o + j * s = (first + j * istep) * st.
Proof.
  intros Hsh H. rewrite slice_of_idx_eq in H by exact Hsh.
  destruct (element_eq _ _ _ _ _ _ _ _ _ _ _ _ H) as (first & istep & Ht & Hoff & _).
  exists first, istep. split.
  - rewrite <- Ht, slice_triple_eq, !opt_have_oz by exact Hsh. reflexivity.
  - intros j Hj. split; [exact (offsets_in_bounds _ _ _ _ _ _ _ _ _ _ j Hsh Ht Hj)|].
    apply Hoff. pose proof (offsets_in_bounds _ _ _ _ _ _ _ _ _ _ 0 Hsh Ht ltac:(lia)). lia.
Qed.

(* Every element of the result view is the element of the base that Python/NumPy basic
   indexing selects (base_index), that element lies inside the base, and it is read at the
   same byte offset. *)
Lemma slice_nd_elements : forall ixs dims off off' rdims,
  Forall (fun d => 0 <= fst d) dims ->
  slice_nd fixes_all dims ixs off = NdOk off' rdims ->
  forall js, in_box rdims js ->
  exists ks, base_index (map fst dims) ixs js = Some ks /\ in_box dims ks /\
             elem_offset off' rdims js = elem_offset off dims ks.
Proof.
  induction ixs as [|ix r IH]; intros dims off off' rdims Hd H js Hjs.
  - cbn [slice_nd] in H. destruct dims; [|discriminate]. injection H as <- <-.
    destruct js; [|contradiction]. exists []. repeat split.
  - destruct ix as [i|a b c| |]; cbn [slice_nd] in H; [| | |discriminate].
    + (* integer *)
      destruct dims as [|[sh st] dr]; [discriminate|]. inversion Hd as [|? ? Hsh Hdr]; subst.
      rewrite index_dim_eq in H. destruct (py_index sh i) as [k|] eqn:Ek; [|discriminate].
      destruct (IH dr (off + k * st) off' rdims Hdr H js Hjs) as (ks & Hb & Hbox & Ho).
      exists (k :: ks). cbn [base_index map fst]. rewrite Ek, Hb.
      split; [reflexivity|]. split; [exact (conj (py_index_some _ _ _ Ek) Hbox) | exact Ho].
    + (* slice *)
      destruct dims as [|[sh st] dr]; [discriminate|]. inversion Hd as [|? ? Hsh Hdr]; subst.
      cbn [fst] in Hsh.
      destruct (slice_of_idx fixes_all sh st a b c) as [?|n s o|?] eqn:Hsd; try discriminate.
      destruct (slice_nd fixes_all dr r (off + o)) as [o'' ds| |] eqn:Hr; try discriminate.
      injection H as <- <-.
      destruct (slice_of_idx_elements _ _ _ _ _ _ _ _ Hsh Hsd) as (first & istep & Ei & Hel).
      destruct js as [|j jr]; [contradiction|]. destruct Hjs as [Hj Hjr].
      destruct (Hel j Hj) as [Hin Hoff].
      destruct (IH dr (off + o) o'' ds Hdr Hr jr Hjr) as (ks & Hb & Hbox & Ho).
      exists ((first + j * istep) :: ks). cbn [base_index map fst]. rewrite Ei.
      replace ((0 <=? j) && (j <? n)) with true by lia. rewrite Hb.
      split; [reflexivity|]. split; [exact (conj Hin Hbox)|].
      cbn [elem_offset]. rewrite elem_offset_shift, Ho, <- elem_offset_shift. f_equal.
      rewrite <- Hoff. ring.
    + (* new axis *)
      destruct (slice_nd fixes_all dims r off) as [o'' ds| |] eqn:Hr; try discriminate.
      injection H as <- <-.
      destruct js as [|j jr]; [contradiction|]. destruct Hjs as [Hj Hjr].
      destruct (IH dims off o'' ds Hd Hr jr Hjr) as (ks & Hb & Hbox & Ho).
      exists ks. cbn [base_index]. assert (E : j = 0) by lia. subst j. cbn [Z.eqb].
      repeat split; try assumption. cbn [elem_offset].
      replace (o'' + 0 * 0) with o'' by ring. exact Ho.
Qed.

(* an error of kind e is traced to an index that can raise it *)
Definition culprit (e : err) (ixs : list idx) : Prop :=
  (e = ValueError -> exists a b, In (ISlice a b (Some 0)) ixs) /\
  (e = IndexError -> exists i, In (IInt i) ixs).

Lemma culprit_cons e ix ixs : culprit e ixs -> culprit e (ix :: ixs).
Proof.
  intros [HV HI]. split; intros He.
  - destruct (HV He) as (a & b & H). exists a, b. right. exact H.
  - destruct (HI He) as (i & H). exists i. right. exact H.
Qed.

Lemma index_dim_culprit sh st i e r : index_dim sh st i = DErr e -> culprit e (IInt i :: r).
Proof.
  unfold index_dim. cbv zeta. destruct (_ && _); [discriminate|]. intros [= <-].
  split; [discriminate|]. intros _. exists i. left. reflexivity.
Qed.

Lemma slice_of_idx_culprit fx sh st a b c e r :
  slice_of_idx fx sh st a b c = DErr e -> culprit e (ISlice a b c :: r).
Proof.
  intros H.
  assert (Hd : slice_dim fx sh st (oz a) (oz b) (oz c) (have a) (have b) (have c) = DErr e)
    by (destruct a, b, c; try exact H; discriminate).
  destruct e; [exfalso; exact (slice_dim_never_index_error _ _ _ _ _ _ _ _ _ Hd)|].
  apply zero_step_raises in Hd. destruct Hd as [Hh Hz].
  destruct c as [c0|]; [cbn [oz] in Hz; subst c0|discriminate].
  split; [|discriminate]. intros _. exists a, b. left. reflexivity.
Qed.

Lemma slice_nd_errors : forall ixs dims off e,
  slice_nd fixes_all dims ixs off = NdErr e -> culprit e ixs.
Proof.
  induction ixs as [|ix r IH]; intros dims off e H.
  - cbn [slice_nd] in H. destruct dims; discriminate.
  - destruct ix as [i|a b c| |]; cbn [slice_nd] in H; [| | |discriminate].
    + destruct dims as [|[sh st] dr]; [discriminate|].
      destruct (index_dim sh st i) as [o| |e'] eqn:Hi; try discriminate.
      * apply culprit_cons, (IH _ _ _ H).
      * injection H as <-. exact (index_dim_culprit _ _ _ _ _ Hi).
    + destruct dims as [|[sh st] dr]; [discriminate|].
      destruct (slice_of_idx fixes_all sh st a b c) as [?|n s o|e'] eqn:Hsd; try discriminate.
      * destruct (slice_nd fixes_all dr r (off + o)) as [| e'' |] eqn:Hr; try discriminate.
        injection H as <-. apply culprit_cons, (IH _ _ _ Hr).
      * injection H as <-. exact (slice_of_idx_culprit _ _ _ _ _ _ _ _ Hsd).
    + destruct (slice_nd fixes_all dims r off) as [| e'' |] eqn:Hr; try discriminate.
      injection H as <-. apply culprit_cons, (IH _ _ _ Hr).
Qed.

Lemma ceil_len_unfixed_eq s e st : st <> 0 -> ceil_class s e st = false ->
  ceil_len fixes_none s e st = ceil_len fixes_all s e st.
Proof.
  intros Hst Hc. unfold ceil_len, ceil_class, fixes_none, fixes_all in *. cbn [fx_ceil].
  destruct (quot_facts (e - s) st Hst) as (E & Hr & Hs).
  set (d := e - s) in *. set (q := Z.quot d st) in *.
  replace (d - st * q) with (Z.rem d st) by lia. set (r := Z.rem d st) in *.
  destruct (Z.eqb_spec r 0) as [R0|R0]; cbn [negb andb]; [reflexivity|].
  destruct (Bool.eqb (r <? 0) (st <? 0)) eqn:Hsg; [reflexivity|].
  (* the remainder has the sign of d, so d and st have opposite signs: q <= 0, and q = 0 only
     when |d| < |st|, which is the excluded class *)
  assert (d <> 0) by (intros D0; apply R0; unfold r; rewrite D0; apply Z.rem_0_l; exact Hst).
  assert (Hd : (0 < d /\ st < 0) \/ (d < 0 /\ 0 < st)) by nia.
  assert (q <= 0) by (apply quot_nonpos; lia).
  assert (q <> 0) by (unfold q; rewrite Z.quot_small_iff by exact Hst; lia).
  destruct (Z.ltb_spec (q + 1) 0), (Z.ltb_spec q 0); lia.
Qed.

Lemma norm_unfixed_eq shape start stop step hs he hst :
  f7_class shape start stop step hs he hst = false ->
  let neg := hst && (step <? 0) in
  norm_start fixes_none shape neg hs start = norm_start fixes_all shape neg hs start /\
  norm_stop fixes_none shape neg he stop = norm_stop fixes_all shape neg he stop.
Proof.
  unfold f7_class, norm_start, norm_stop, clamp_low, fixes_none, fixes_all. cbn [fx_clamp].
  intros H. cbv zeta.
  destruct hst, hs, he; cbn [andb orb] in *;
    case_ifs;
    split; try reflexivity; lia.
Qed.

Lemma slice_triple_current_partial shape start stop step hs he hst : 0 <= shape ->
  f7_class shape start stop step hs he hst = false ->
  (forall s' e' st' n, slice_bounds fixes_all shape start stop step hs he hst = Some (s', e', st', n) ->
                       ceil_class s' e' st' = false) ->
  slice_triple fixes_none shape start stop step hs he hst
  = py_slice_indices shape (opt hs start) (opt he stop) (opt hst step).
Proof.
  intros Hs Hf Hc. rewrite <- slice_triple_eq by exact Hs.
  unfold slice_triple, slice_bounds in *.
  destruct (hst && (step =? 0)) eqn:Hz; [reflexivity|].
  destruct (norm_unfixed_eq shape start stop step hs he hst Hf) as [-> ->].
  rewrite ceil_len_unfixed_eq; [reflexivity | destruct hst; cbn [andb] in Hz; lia |].
  eapply Hc. reflexivity.
Qed.

Lemma quot_mul_between a b : b <> 0 ->
  (0 <= b * Z.quot a b <= a) \/ (a <= b * Z.quot a b <= 0).
Proof.
  intros Hb. destruct (Z.le_ge_cases 0 a).
  - left. apply Z.mul_quot_le; assumption.
  - right. apply Z.mul_quot_ge; assumption.
Qed.

Lemma norm_start_bounds fx shape neg hs start : 0 <= shape ->
  let s' := norm_start fx shape neg hs start in
  -1 <= s' <= shape /\ (neg = false -> 0 <= s') /\ (neg = true -> s' <= shape - 1 \/ s' = 0).
Proof.
  intros Hs. cbv zeta. unfold norm_start, clamp_low.
  destruct (fx_clamp fx), neg, hs; cbn [andb]; case_ifs; repeat split; intros; try discriminate; lia.
Qed.

Lemma norm_stop_bounds fx shape neg he stop : 0 <= shape ->
  let e' := norm_stop fx shape neg he stop in -1 <= e' <= shape /\ (neg = false -> 0 <= e').
Proof.
  intros Hs. cbv zeta. unfold norm_stop, clamp_low.
  destruct (fx_clamp fx), neg, he; cbn [andb]; case_ifs; repeat split; intros; try discriminate; lia.
Qed.

Lemma quot_within B d st : st <> 0 -> - B <= d <= B ->
  let q := Z.quot d st in - B <= q <= B /\ - B <= st * q <= B /\ - B <= d - st * q <= B.
Proof.
  intros Hst Hd. cbv zeta. pose proof (quot_mul_between d st Hst) as Hm.
  assert (Z.abs (Z.quot d st) <= Z.abs (st * Z.quot d st)).
  { rewrite Z.abs_mul. pose proof (Z.abs_nonneg (Z.quot d st)). nia. }
  lia.
Qed.

Lemma slice_no_overflow fx shape start stop step hs he hst :
  in_range 64 true start -> in_range 64 true stop -> in_range 64 true step ->
  0 <= shape <= max_int 64 true - 1 -> (hst = true -> step <> 0) ->
  Forall (in_range 64 true) (slice_intermediates fx shape start stop step hs he hst).
Proof.
  unfold in_range, min_int, max_int. change (2 ^ (64 - 1)) with 9223372036854775808.
  intros Ha Hb Hc Hs Hnz. unfold slice_intermediates.
  assert (H1 : -9223372036854775808 <= (if hs && (start <? 0) then start + shape else 0) <= 9223372036854775807)
    by (destruct (hs && (start <? 0)) eqn:E; lia).
  assert (H2 : -9223372036854775808 <= (if he && (stop <? 0) then stop + shape else 0) <= 9223372036854775807)
    by (destruct (he && (stop <? 0)) eqn:E; lia).
  set (neg := hst && (step <? 0)). set (st' := if hst then step else 1).
  destruct (norm_start_bounds fx shape neg hs start ltac:(lia)) as (B1 & B2 & B3).
  destruct (norm_stop_bounds fx shape neg he stop ltac:(lia)) as (B4 & B5).
  set (s' := norm_start fx shape neg hs start) in *. set (e' := norm_stop fx shape neg he stop) in *.
  assert (Hst : st' <> 0) by (unfold st'; destruct hst; [auto | lia]).
  assert (Hneg : neg = (st' <? 0)) by (unfold neg, st'; destruct hst; reflexivity).
  assert (Hstr : -9223372036854775808 <= st' <= 9223372036854775807) by (unfold st'; destruct hst; lia).
  destruct (quot_within (shape + 1) (e' - s') st' Hst ltac:(lia)) as (Q1 & Q2 & Q3).
  set (d := e' - s') in *. set (q := Z.quot d st') in *.
  (* q + 1 needs more than |q| <= |d| <= shape + 1: the extreme d belong to a negative step, and
     then d > 0 gives q <= 0, while d = - shape - 1 is excluded by the start bound *)
  assert (Hq1 : q <= Z.max shape 1).
  { assert (Hd : - Z.max shape 1 <= d <= Z.max shape 1 \/ (st' < 0 /\ 0 < d)).
    { unfold d. destruct neg; [specialize (B3 eq_refl) | specialize (B2 eq_refl); specialize (B5 eq_refl)]; lia. }
    destruct Hd as [Hd | [? ?]].
    - apply (quot_within (Z.max shape 1) d st' Hst Hd).
    - assert (q <= 0) by (apply quot_nonpos; lia). lia. }
  clearbody s' e' q. clear - Hs Hstr B1 B4 Q1 Q2 Q3 Hq1 H1 H2.
  repeat (apply Forall_cons; [lia|]). apply Forall_nil.
Qed.
