(* C24, the kwds-dict convention: __Pyx_ParseKeywordDict and __Pyx_ParseKeywordDictToDict agree with
   the reference loop of P_ArgBind.v (parser_ok PDict), which completes the statement of C24.
   These loops walk the names and look each one up in the dict, where the reference loop walks the keys;
   both are characterised by what ends up in the value array (window = ref_at) and in the dict. *)
From Coq Require Import List Bool Arith Lia.
From CyVerif Require Import Lib.ListFacts Model.M_ArgBind Proof.P_ArgBind.
Import ListNotations.

Lemma dict_get_In : forall V n (d : list (key * V)) kv,
  In kv d -> key_eq (fst kv) n = true -> dict_get n d <> None.
Proof.
  intros V n d; induction d as [|[k x] r IH]; intros kv I E; [contradiction|].
  cbn [dict_get]. destruct (key_eq k n) eqn:Ek; [discriminate|].
  destruct I as [<-|I]; [cbn [fst] in E; congruence|]. exact (IH kv I E).
Qed.

(* __Pyx_ValidateDuplicatePosArgs reports a duplicate exactly when some keyword names a parameter
   that was already filled positionally *)
Lemma validate_dup_exact : forall V (kws : list (key * V)) names first,
  NoDup names ->
  validate_dup kws names first = existsb (fun kv => kw_dup names first (fst kv)) kws.
Proof.
  intros V kws names first ND. apply eq_true_iff_eq. unfold validate_dup. split.
  - intros H. apply existsb_firstn in H as [i [L1 [L2 E]]].
    destruct (dict_get (nth i names 0) kws) as [v|] eqn:G; [|discriminate].
    destruct (dict_get_Some_In _ _ _ _ G) as [kv [I Ek]].
    apply existsb_exists. exists kv. split; [exact I|].
    unfold kw_dup. rewrite (midx_unique _ _ _ ND L2 Ek).
    apply negb_true_iff, Nat.leb_gt. exact L1.
  - intros H. apply existsb_exists in H as [kv [I D]]. unfold kw_dup in D.
    destruct (midx (fst kv) names) as [i|] eqn:M; [|discriminate].
    apply negb_true_iff, Nat.leb_gt in D. destruct (midx_Some _ _ _ M) as [L E].
    apply existsb_firstn. exists i. repeat split; try assumption.
    pose proof (dict_get_In _ _ _ _ I E) as NN.
    destruct (dict_get (nth i names 0) kws); [reflexivity|congruence].
Qed.

(* __Pyx_RejectUnknownKeyword always finds a keyword to blame when one is bad (duplicate or
   unknown), so the impossible fall-through (returning without an exception set) is unreachable *)
Lemma reject_unknown_blames : forall V (kws : list (key * V)) names first,
  NoDup names -> all_str kws ->
  existsb (fun kv => kw_bad names first true (fst kv)) kws = true ->
  reject_unknown kws names first <> EImpossible.
Proof.
  intros V kws names first ND; induction kws as [|[k v] rest IH]; intros AS H; [discriminate|].
  apply all_str_cons in AS as [S AS']. cbn [fst] in S.
  assert (E : reject_unknown ((k, v) :: rest) names first =
    match tuple_find k names first with
    | MFound _ => reject_unknown rest names first
    | MNone => EUnexpected
    | MBad e => e
    end).
  { cbn [reject_unknown]. unfold tuple_find. destruct (find_from (key_is k) first names); reflexivity. }
  rewrite E, (tuple_find_spec _ _ _ ND S).
  cbn [existsb fst] in H. rewrite kw_bad_midx in H.
  destruct (midx k names) as [j|]; cbn iota; [|discriminate]. destruct (first <=? j); cbn iota; [|discriminate].
  apply IH; assumption.
Qed.

(* Both dict loops walk the names ns, numbered idx, idx+1, ..., and store the value found for a name at
   off + its number.  [window] is entry a of the array afterwards; dict_pop_all_spec and dict_extract_spec
   write this body out. *)
Definition window {V} (ns : list nat) (idx off : nat) (d : list (key * V)) (values : list (option V)) (a : nat)
  : option V :=
  if (off + idx <=? a) && (a <? off + idx + length ns) && (a <? length values)
  then match dict_get (nth (a - off - idx) ns 0) d with Some v => Some v | None => nth a values None end
  else nth a values None.

Lemma window_miss : forall V ns idx off (d : list (key * V)) values a,
  (forall n, In n ns -> dict_get n d = None) -> window ns idx off d values a = nth a values None.
Proof.
  intros V ns idx off d values a H. unfold window. destruct (_ && _ && _) eqn:C; [|reflexivity].
  apply window_true in C. rewrite H by (apply nth_In; lia). reflexivity.
Qed.

Lemma window_ext : forall V ns idx off (d d' : list (key * V)) values a,
  (forall n, In n ns -> dict_get n d = dict_get n d') -> window ns idx off d values a = window ns idx off d' values a.
Proof.
  intros V ns idx off d d' values a H. unfold window. destruct (_ && _ && _) eqn:C; [|reflexivity].
  apply window_true in C. rewrite H by (apply nth_In; lia). reflexivity.
Qed.

(* one step of either loop *)
Definition store {V} (n : nat) (d : list (key * V)) (i : nat) (values : list (option V)) : list (option V) :=
  match dict_get n d with Some v => upd i (Some v) values | None => values end.

Lemma store_length : forall V n (d : list (key * V)) i values, length (store n d i values) = length values.
Proof. intros. unfold store. destruct (dict_get n d); [apply upd_length|reflexivity]. Qed.

Lemma nth_store_other : forall V n (d : list (key * V)) i values a,
  a <> i -> nth a (store n d i values) None = nth a values None.
Proof. intros V n d i values a NE. unfold store. destruct (dict_get n d); [apply nth_upd_other, NE|reflexivity]. Qed.

Lemma window_cons : forall V n ns idx off (d : list (key * V)) values a,
  window (n :: ns) idx off d values a = window ns (S idx) off d (store n d (off + idx) values) a.
Proof.
  intros V n ns idx off d values a. unfold window. rewrite store_length. cbn [length].
  destruct (Nat.eq_dec a (off + idx)) as [->|NE].
  - replace (off + S idx <=? off + idx) with false by (symmetry; apply Nat.leb_gt; lia).
    rewrite Nat.leb_refl, (proj2 (Nat.ltb_lt (off + idx) _)) by lia.
    replace (off + idx - off - idx) with 0 by lia. cbn [andb nth]. unfold store.
    destruct (dict_get n d) as [v|]; [rewrite nth_upd_same|]; destruct (_ <? _); reflexivity.
  - rewrite nth_store_other by exact NE.
    destruct (Nat.leb_spec (off + idx) a), (Nat.leb_spec (off + S idx) a); try lia; [|reflexivity].
    replace (a <? off + S idx + length ns) with (a <? off + idx + S (length ns)) by (f_equal; lia).
    replace (a - off - idx) with (S (a - off - S idx)) by lia. reflexivity.
Qed.

Lemma ref_at_window : forall V names first off (kws : list (key * V)) values a, first <= length names ->
  ref_at names first off kws values a = window (skipn first names) first off kws values a.
Proof.
  intros V names first off kws values a FL. unfold ref_at, window. rewrite skipn_length.
  replace (off + first + (length names - first)) with (off + length names) by lia.
  destruct (_ && _ && _) eqn:C; [|reflexivity]. apply window_true in C.
  rewrite nth_skipn. replace (first + (a - off - first)) with (a - off) by lia. reflexivity.
Qed.

Lemma key_eq_two : forall k n n', key_eq k n = true -> key_eq k n' = true -> n = n'.
Proof.
  intros k n n' A B. apply key_eq_name in A as [A _]. apply key_eq_name in B as [B _]. congruence.
Qed.

Lemma dict_get_del_other : forall V n n' (d : list (key * V)), n <> n' ->
  dict_get n' (dict_del n d) = dict_get n' d.
Proof.
  intros V n n' d NE; induction d as [|[k v] r IH]; [reflexivity|].
  cbn [dict_del dict_get]. destruct (key_eq k n) eqn:E.
  - destruct (key_eq k n') eqn:E'; [exfalso; apply NE; exact (key_eq_two _ _ _ E E')|reflexivity].
  - cbn [dict_get]. rewrite IH. reflexivity.
Qed.

(* with distinct keys, deleting a name removes exactly the keys equal to it *)
Lemma dict_del_filter : forall V n (d : list (key * V)), keys_nodup d = true ->
  dict_del n d = filter (fun kv => negb (key_eq (fst kv) n)) d.
Proof.
  intros V n d; induction d as [|[k v] r IH]; intros KN; [reflexivity|].
  apply keys_nodup_cons in KN as [K1 K2].
  cbn [dict_del filter fst]. destruct (key_eq k n) eqn:E; cbn [negb]; [|f_equal; apply IH; exact K2].
  symmetry. apply filter_true. intros kv I. apply negb_true_iff.
  destruct (key_eq (fst kv) n) eqn:E'; [|reflexivity].
  pose proof (K1 kv I) as Q. rewrite (key_eq_same _ _ _ E E') in Q. discriminate Q.
Qed.

Lemma keys_nodup_filter : forall V (f : key * V -> bool) (d : list (key * V)),
  keys_nodup d = true -> keys_nodup (filter f d) = true.
Proof.
  intros V f d; induction d as [|[k v] r IH]; intros KN; [reflexivity|].
  apply keys_nodup_cons in KN as [K1 K2].
  cbn [filter]. destruct (f (k, v)); [|apply IH; exact K2].
  cbn [keys_nodup]. apply andb_true_iff. split; [|apply IH; exact K2].
  apply negb_true_iff. destruct (existsb (fun kv => key_same k (fst kv)) (filter f r)) eqn:X; [|reflexivity].
  apply existsb_exists in X as [kv [I S]]. apply filter_In in I as [I _]. rewrite (K1 kv I) in S. discriminate.
Qed.

Lemma filter_filter : forall A (f g : A -> bool) l,
  filter g (filter f l) = filter (fun x => f x && g x) l.
Proof.
  intros A f g l; induction l as [|x r IH]; [reflexivity|]. cbn [filter].
  destruct (f x); cbn [filter andb]; [destruct (g x); rewrite IH; reflexivity|exact IH].
Qed.

(* what the pop loop of __Pyx_ParseKeywordDictToDict computes: every name that some key equals gets that
   key's value, and exactly those keys leave the dict (order of the rest preserved) *)
Lemma dict_pop_all_spec : forall V ns idx off (values : list (option V)) d,
  NoDup ns -> keys_nodup d = true ->
  let '(values', d') := dict_pop_all ns idx off values d in
  length values' = length values /\
  (forall a, nth a values' None =
     if (off + idx <=? a) && (a <? off + idx + length ns) && (a <? length values)
     then match dict_get (nth (a - off - idx) ns 0) d with Some v => Some v | None => nth a values None end
     else nth a values None) /\
  d' = filter (fun kv => negb (existsb (key_eq (fst kv)) ns)) d.
Proof.
  intros V ns; induction ns as [|n ns IH]; intros idx off values d ND KN.
  - split; [reflexivity|]. split; [intros a; symmetry; apply (window_miss V [] idx off d); intros ? []|].
    symmetry. apply filter_true. reflexivity.
  - inversion ND as [|? ? NI ND']; subst.
    (* one step: the value of n, if any, is stored and n leaves the dict *)
    set (values1 := store n d (off + idx) values).
    assert (E : dict_pop_all (n :: ns) idx off values d = dict_pop_all ns (S idx) off values1 (dict_del n d)).
    { cbn [dict_pop_all]. unfold values1, store. destruct (dict_get n d) eqn:G; [reflexivity|].
      rewrite (dict_del_filter _ n d KN), filter_true; [reflexivity|].
      intros kv I. apply negb_true_iff. destruct (key_eq (fst kv) n) eqn:Ek; [|reflexivity].
      elim (dict_get_In _ _ _ _ I Ek G). }
    rewrite E. specialize (IH (S idx) off values1 (dict_del n d) ND').
    rewrite (dict_del_filter _ n d KN) in IH at 1. specialize (IH (keys_nodup_filter _ _ _ KN)).
    destruct (dict_pop_all ns (S idx) off values1 (dict_del n d)) as [values' d'].
    destruct IH as [L [P D]]. split; [|split].
    + rewrite L. apply store_length.
    + intros a. rewrite P.
      transitivity (window ns (S idx) off d values1 a); [|symmetry; apply window_cons].
      apply window_ext. intros n' I. apply dict_get_del_other. intros ->. exact (NI I).
    + rewrite D, (dict_del_filter _ n d KN), filter_filter. apply filter_ext. intros [k x].
      cbn [existsb fst]. rewrite negb_orb. reflexivity.
Qed.

Definition matched_from (names : list nat) (first : nat) (k : key) : bool :=
  match midx k names with Some i => first <=? i | None => false end.

Lemma existsb_skipn_midx : forall k names first, NoDup names ->
  existsb (key_eq k) (skipn first names) = matched_from names first k.
Proof.
  intros k names first ND. apply eq_true_iff_eq. unfold matched_from. split.
  - intros H. apply existsb_exists in H as [n [I E]].
    destruct (In_nth _ _ 0 I) as [j [L N]]. rewrite skipn_length in L. rewrite nth_skipn in N.
    rewrite <- N in E. rewrite (midx_unique k names (first + j) ND ltac:(lia) E).
    apply Nat.leb_le. lia.
  - intros H. destruct (midx k names) as [i|] eqn:M; [|discriminate].
    apply Nat.leb_le in H. destruct (midx_Some _ _ _ M) as [L E].
    apply existsb_exists. exists (nth i names 0). split; [|exact E].
    replace i with (first + (i - first)) by lia. rewrite <- nth_skipn. apply nth_In.
    rewrite skipn_length. lia.
Qed.

Lemma unmatched_split : forall names first k,
  negb (matched_from names first k) = kw_dup names first k || kw_unknown names k.
Proof.
  intros. unfold matched_from, kw_dup, kw_unknown. destruct (midx k names); [rewrite orb_false_r|]; reflexivity.
Qed.

Lemma existsb_bad_lenient : forall V (kws : list (key * V)) names first,
  existsb (fun kv => kw_bad names first false (fst kv)) kws = existsb (fun kv => kw_dup names first (fst kv)) kws.
Proof. intros. apply existsb_ext_in. intros kv _. apply orb_false_r. Qed.

Lemma window_values : forall V (kws : list (key * V)) names first off values values' vals',
  first <= length names -> length values' = length values -> length vals' = length values ->
  (forall a, nth a values' None = window (skipn first names) first off kws values a) ->
  (forall a, nth a vals' None = ref_at names first off kws values a) -> values' = vals'.
Proof.
  intros V kws names first off values values' vals' FL L L' P P'.
  apply (nth_ext _ _ None None); [congruence|]. intros a _. rewrite P, P'. symmetry. apply ref_at_window, FL.
Qed.

(* __Pyx_ParseKeywordDictToDict (kwds dict convention, a fresh **kwargs dict to fill) agrees with the reference loop *)
Theorem parser_ok_dict2dict : forall V (kws : list (key * V)) names first off ignore values,
  NoDup names -> all_str kws -> keys_nodup kws = true -> first <= length names ->
  sim (parse_keywords PDict kws names first off ignore values (Some []))
      (parse_ref kws names first off ignore values (Some [])).
Proof.
  intros V kws names first off ignore values ND AS KN FL.
  cbn [parse_keywords]. unfold parse_dict2dict. rewrite (all_str_nonstr _ _ AS).
  rewrite (dict_update_fresh V kws [] KN) by (intros ? ? ? []). cbn [app].
  pose proof (dict_pop_all_spec V (skipn first names) first off values kws (NoDup_skipn _ _ _ ND) KN) as S.
  destruct (dict_pop_all (skipn first names) first off values kws) as [values' d2].
  destruct S as [L [P D]].
  pose proof (parse_ref_ok V kws names first off ignore values (Some []) ND KN (or_intror eq_refl)) as R.
  unfold ref_result in R. cbn [strict_of] in R. rewrite existsb_bad_lenient in R.
  rewrite (validate_dup_exact V kws names first ND).
  assert (D2 : d2 = filter (fun kv => negb (matched_from names first (fst kv))) kws).
  { rewrite D. apply filter_ext. intros kv. rewrite existsb_skipn_midx by exact ND. reflexivity. }
  destruct (parse_ref kws names first off ignore values (Some [])) as [e|[vals' kw']].
  - (* a duplicate stays in the dict, so the duplicate test runs *)
    destruct R as [_ B]. rewrite B.
    assert (NE : (0 <? length d2) = true).
    { apply existsb_exists in B as [kv [I Dp]].
      assert (I2 : In kv d2) by (rewrite D2; apply filter_In; split; [exact I|rewrite unmatched_split, Dp; reflexivity]).
      destruct d2; [contradiction|reflexivity]. }
    rewrite NE. cbn [sim]. discriminate.
  - destruct R as [B [L' [P' K']]]. rewrite B.
    assert (EV : values' = vals') by (eapply window_values; eassumption).
    assert (ED : Some d2 = kw').
    { rewrite K'. cbn [option_map app]. f_equal. rewrite D2. apply filter_ext_in. intros kv I.
      rewrite unmatched_split, (existsb_false_In _ _ _ _ B I). reflexivity. }
    destruct (0 <? length d2); cbn [sim]; rewrite EV, ED; reflexivity.
Qed.

Lemma parser_ok_sel_dict_some : parser_ok_sel PDict true.
Proof.
  intros V kws names first off ignore values kw0 ND AS KN FL _ _ ->.
  apply parser_ok_dict2dict; assumption.
Qed.

(* FULL statement, no obligation left, for every signature whose body uses its **kwargs: all four
   calling conventions, the kwds-dict convention included *)
Theorem call_eq_starstar : forall V vc pth s (c : call V),
  wf_sig s = true -> wf_path pth s = true -> wf_entry vc pth = true -> keys_nodup (c_kws c) = true ->
  s_starstar s && s_kwused s = true ->
  erase s (call_cy vc pth s c) = erase s (call_py s c).
Proof.
  intros V vc pth s c WS WP WE KN H. apply call_eq_sel; auto. intros _. rewrite H.
  destruct pth; try (apply parser_ok_sel_of, parser_ok_tuple; discriminate).
  apply parser_ok_sel_dict_some.
Qed.

(* the extraction loop of __Pyx_ParseKeywordDict counts the names it finds in the dict and stops looking
   once the count reaches the number of keywords; [cnt] is what it counts over all of ns *)
Definition hit {V} (kws : list (key * V)) (n : nat) : bool :=
  match dict_get n kws with Some _ => true | None => false end.
Definition cnt {V} (kws : list (key * V)) (ns : list nat) : nat := length (filter (hit kws) ns).

(* pigeonhole: distinct names hit by keys are at most as many as the keys that equal one of them *)
Lemma cnt_le_matched : forall V (kws : list (key * V)) ns, NoDup ns ->
  cnt kws ns <= length (filter (fun kv => existsb (key_eq (fst kv)) ns) kws).
Proof.
  intros V kws ns ND. unfold cnt. rewrite <- (map_length (fun kv => k_name (fst kv))).
  apply NoDup_incl_length; [apply NoDup_filter; exact ND|].
  intros n I. apply filter_In in I as [I H]. unfold hit in H.
  destruct (dict_get n kws) as [v|] eqn:G; [|discriminate].
  destruct (dict_get_Some_In _ _ _ _ G) as [kv [Ik E]].
  apply in_map_iff. exists kv. split; [apply key_eq_name in E as [E _]; exact E|].
  apply filter_In. split; [exact Ik|]. apply existsb_exists. exists n. split; assumption.
Qed.

Lemma cnt_le : forall V (kws : list (key * V)) ns, NoDup ns -> cnt kws ns <= length kws.
Proof.
  intros V kws ns ND. eapply Nat.le_trans; [apply cnt_le_matched, ND|apply filter_length_le].
Qed.

Lemma cnt_zero_miss : forall V (kws : list (key * V)) ns n, cnt kws ns = 0 -> In n ns -> dict_get n kws = None.
Proof.
  intros V kws ns n C I. unfold cnt in C. apply length_zero_iff_nil in C.
  destruct (dict_get n kws) eqn:G; [|reflexivity]. exfalso.
  assert (X : In n (filter (hit kws) ns)) by (apply filter_In; split; [exact I|unfold hit; rewrite G; reflexivity]).
  rewrite C in X. exact X.
Qed.

Lemma dict_extract_spec : forall V (kws : list (key * V)) nkw ns idx off e (values : list (option V)),
  NoDup ns -> e + cnt kws ns <= nkw ->
  let '(values', e') := dict_extract kws nkw ns idx off e values in
  e' = e + cnt kws ns /\ length values' = length values /\
  (forall a, nth a values' None =
     if (off + idx <=? a) && (a <? off + idx + length ns) && (a <? length values)
     then match dict_get (nth (a - off - idx) ns 0) kws with Some v => Some v | None => nth a values None end
     else nth a values None).
Proof.
  intros V kws nkw ns; induction ns as [|n ns IH]; intros idx off e values ND B.
  - split; [unfold cnt; cbn; lia|]. split; [reflexivity|].
    intros a. symmetry. apply (window_miss V [] idx off kws). intros ? [].
  - inversion ND as [|? ? NI ND']; subst. cbn [dict_extract].
    assert (CS : cnt kws (n :: ns) = (if hit kws n then 1 else 0) + cnt kws ns).
    { unfold cnt. cbn [filter]. destruct (hit kws n); reflexivity. }
    destruct (Nat.ltb_spec e nkw) as [LT|GE].
    + set (values1 := store n kws (off + idx) values).
      set (e1 := (if hit kws n then 1 else 0) + e).
      assert (E : match dict_get n kws with
                  | Some v => dict_extract kws nkw ns (S idx) off (S e) (upd (off + idx) (Some v) values)
                  | None => dict_extract kws nkw ns (S idx) off e values
                  end = dict_extract kws nkw ns (S idx) off e1 values1).
      { unfold values1, store, e1, hit. destruct (dict_get n kws); reflexivity. }
      rewrite E. specialize (IH (S idx) off e1 values1 ND' ltac:(unfold e1; lia)).
      destruct (dict_extract kws nkw ns (S idx) off e1 values1) as [values' e'].
      destruct IH as [Ee [L P]]. split; [unfold e1 in Ee; lia|]. split.
      * rewrite L. apply store_length.
      * intros a. rewrite P. symmetry. apply window_cons.
    + (* the counter reached the number of keywords: nothing further can match *)
      assert (C0 : cnt kws (n :: ns) = 0) by lia.
      split; [lia|]. split; [reflexivity|]. intros a. symmetry.
      apply (window_miss V (n :: ns)). intros n' I. exact (cnt_zero_miss _ kws _ _ C0 I).
Qed.

Lemma knames_nodup : forall V (kws : list (key * V)), all_str kws -> keys_nodup kws = true ->
  NoDup (map (fun kv => k_name (fst kv)) kws).
Proof.
  intros V kws; induction kws as [|[k v] r IH]; intros AS KN; [constructor|].
  apply all_str_cons in AS as [S AS']. cbn [fst] in S. apply keys_nodup_cons in KN as [K1 K2].
  cbn [map fst]. constructor; [|apply IH; assumption].
  intros I. apply in_map_iff in I as [kv [E I]].
  pose proof (K1 kv I) as Q. unfold key_same in Q. rewrite S, (AS' kv I), E, Nat.eqb_refl in Q. discriminate.
Qed.

Lemma filter_length_lt : forall A (f : A -> bool) l x, In x l -> f x = false -> length (filter f l) < length l.
Proof.
  intros A f l; induction l as [|y r IH]; intros x I E; [contradiction|]. cbn [filter length].
  pose proof (filter_length_le f r) as LE.
  destruct I as [->|I].
  - rewrite E. lia.
  - specialize (IH x I E). destruct (f y); cbn [length]; lia.
Qed.

(* the counter of the extraction loop falls short of the number of keywords exactly when some
   keyword matches no name at or after [first] *)
Lemma extract_count : forall V (kws : list (key * V)) names first,
  NoDup names -> all_str kws -> keys_nodup kws = true ->
  (cnt kws (skipn first names) <? length kws) =
  existsb (fun kv => negb (matched_from names first (fst kv))) kws.
Proof.
  intros V kws names first ND AS KN. pose proof (NoDup_skipn _ first _ ND) as NDs.
  destruct (existsb (fun kv => negb (matched_from names first (fst kv))) kws) eqn:X.
  - apply Nat.ltb_lt. apply existsb_exists in X as [kv0 [I0 M0]]. apply negb_true_iff in M0.
    eapply Nat.le_lt_trans; [apply cnt_le_matched, NDs|].
    rewrite (filter_ext _ (fun kv => matched_from names first (fst kv)))
      by (intros kv; apply existsb_skipn_midx, ND).
    apply (filter_length_lt _ _ _ kv0 I0 M0).
  - apply Nat.ltb_ge. rewrite <- (map_length (fun kv => k_name (fst kv)) kws). unfold cnt.
    apply NoDup_incl_length; [apply knames_nodup; assumption|].
    intros n I. apply in_map_iff in I as [kv [E I]].
    pose proof (existsb_false_In _ _ _ _ X I) as Q. cbn beta in Q. apply negb_false_iff in Q.
    rewrite <- existsb_skipn_midx in Q by exact ND. apply existsb_exists in Q as [n' [I' E']].
    assert (n' = n) by (apply key_eq_name in E' as [E' _]; congruence). subst n'.
    apply filter_In. split; [exact I'|]. unfold hit.
    pose proof (dict_get_In _ n kws kv I E') as NN. destruct (dict_get n kws); [reflexivity|congruence].
Qed.

Lemma existsb_unmatched_strict : forall V (kws : list (key * V)) names first,
  existsb (fun kv => negb (matched_from names first (fst kv))) kws =
  existsb (fun kv => kw_bad names first true (fst kv)) kws.
Proof. intros. apply existsb_ext_in. intros kv _. apply unmatched_split. Qed.

(* __Pyx_ParseKeywordDict (kwds dict convention, no **kwargs dict to fill) agrees with the reference loop *)
Theorem parser_ok_dict_none : forall V (kws : list (key * V)) names first off ignore values,
  NoDup names -> all_str kws -> keys_nodup kws = true -> first <= length names ->
  sim (parse_keywords PDict kws names first off ignore values None)
      (parse_ref kws names first off ignore values None).
Proof.
  intros V kws names first off ignore values ND AS KN FL.
  cbn [parse_keywords]. unfold parse_dict. rewrite (all_str_nonstr _ _ AS).
  pose proof (NoDup_skipn _ first _ ND) as NDs.
  pose proof (dict_extract_spec V kws (length kws) (skipn first names) first off 0 values NDs
                (cnt_le V kws _ NDs)) as S.
  destruct (dict_extract kws (length kws) (skipn first names) first off 0 values) as [values' ex].
  destruct S as [E [L P]]. cbn [Nat.add] in E. rewrite E.
  rewrite (extract_count V kws names first ND AS KN).
  rewrite (validate_dup_exact V kws names first ND).
  pose proof (parse_ref_ok V kws names first off ignore values None ND KN (or_introl eq_refl)) as R.
  unfold ref_result in R. cbn [strict_of] in R.
  destruct (parse_ref kws names first off ignore values None) as [e|[vals' kw']].
  - destruct R as [_ B]. destruct ignore; cbn [negb] in B.
    + rewrite existsb_bad_lenient in B. rewrite B.
      assert (U : existsb (fun kv => negb (matched_from names first (fst kv))) kws = true).
      { apply existsb_exists in B as [kv [I Dp]]. apply existsb_exists. exists kv. split; [exact I|].
        rewrite unmatched_split, Dp. reflexivity. }
      rewrite U. cbn [sim]. discriminate.
    + rewrite existsb_unmatched_strict, B. cbn [sim].
      apply reject_unknown_blames; assumption.
  - destruct R as [B [L' [P' K']]].
    assert (EV : values' = vals') by (eapply window_values; eassumption).
    cbn [option_map] in K'. subst kw' vals'.
    destruct ignore; cbn [negb] in B.
    + rewrite existsb_bad_lenient in B. rewrite B.
      destruct (existsb (fun kv => negb (matched_from names first (fst kv))) kws); cbn [sim]; reflexivity.
    + rewrite existsb_unmatched_strict, B. cbn [sim]. reflexivity.
Qed.

(* both dict loops: the obligation of Prop/C24.v is discharged *)
Theorem parser_ok_dict : parser_ok PDict.
Proof.
  intros V kws names first off ignore values kw0 ND AS KN FL _ _ [->| ->].
  - apply parser_ok_dict_none; assumption.
  - apply parser_ok_dict2dict; assumption.
Qed.

Theorem parser_ok_all : forall pth, parser_ok pth.
Proof.
  intros pth. destruct pth; try (apply parser_ok_tuple; discriminate). apply parser_ok_dict.
Qed.

(* the full statement of C24 *)
Theorem call_eq_full : forall V vc pth s (c : call V),
  wf_sig s = true -> wf_path pth s = true -> wf_entry vc pth = true -> keys_nodup (c_kws c) = true ->
  erase s (call_cy vc pth s c) = erase s (call_py s c).
Proof.
  intros V vc pth s c WS WP WE KN. apply call_eq_param; auto. intros _. apply parser_ok_all.
Qed.
