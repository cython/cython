(* Proofs about Model/M_CStr.v.  The escaped text is a concatenation of tokens (esc_toks: one per
   byte, two octal escapes per pair of question marks); the reader consumes each token in one piece
   and gives its byte back, which is checked by evaluation for all 256 bytes.  split_string_literal
   cuts only at token boundaries (bnd).  The text has no two adjacent question marks and no new-line
   (clean), so translation phases 1 and 2 leave it alone. *)
From Coq Require Import ZArith NArith List Bool Arith Lia ZifyBool ZifyNat ZifyN.
From CyVerif Require Import Lib.CInt Model.M_CStr.
Import ListNotations.
Open Scope N_scope.

Definition all_bytes : list N := map N.of_nat (seq 0 256).

Lemma all_bytes_in b : b < 256 -> In b all_bytes.
Proof.
  intros H. unfold all_bytes. apply in_map_iff. exists (N.to_nat b). split.
  - apply N2Nat.id.
  - apply in_seq. lia.
Qed.

Lemma forall_bytes (P : N -> bool) :
  forallb P all_bytes = true -> forall b, b < 256 -> P b = true.
Proof. intros H b Hb. rewrite forallb_forall in H. apply H, all_bytes_in, Hb. Qed.

Definition bytes (bs : list N) : Prop := Forall (fun b => b < 256) bs.

(* induction over a byte string the way replace_specials walks it: two question marks in a row
   are taken together, any other byte alone *)
Lemma bytes_qq_ind (P : list N -> Prop) :
  P [] -> (forall a, a < 256 -> P [a]) -> (forall r, P r -> P (63 :: 63 :: r)) ->
  (forall a b r, a < 256 -> b < 256 -> (a =? 63) && (b =? 63) = false -> P (b :: r) -> P (a :: b :: r)) ->
  forall l, bytes l -> P l.
Proof.
  intros H0 H1 Hq Hs l. enough (G : (bytes l -> P l) /\ forall a, bytes (a :: l) -> P (a :: l)) by tauto.
  induction l as [|b r [IH1 IH2]]; split; auto.
  - intros a HB. inversion HB; auto.
  - intros a HB. inversion HB as [|? ? Ha HB']; subst. inversion HB' as [|? ? Hb HB'']; subst.
    destruct ((a =? 63) && (b =? 63)) eqn:E; [|auto].
    apply andb_prop in E as [E1 E2]. apply N.eqb_eq in E1, E2. subst. auto.
Qed.

Fixpoint list_eqb (a b : list N) : bool :=
  match a, b with
  | [], [] => true
  | x :: a', y :: b' => (x =? y) && list_eqb a' b'
  | _, _ => false
  end.

Lemma list_eqb_eq a b : list_eqb a b = true -> a = b.
Proof.
  revert b. induction a as [|x a IH]; destruct b as [|y b]; simpl; try congruence.
  intros H. apply andb_prop in H. destruct H as [H1 H2]. apply N.eqb_eq in H1. f_equal; auto.
Qed.

(* the reader on a prefix: state reached and bytes produced *)
Fixpoint run (m : rmode) (s : rstate) (tok : list N) : option (rstate * list N) :=
  match tok with
  | [] => Some (s, [])
  | c :: r =>
      match step m s c with
      | Some (s', o) =>
          match run m s' r with
          | Some (s'', o') => Some (s'', o ++ o')
          | None => None
          end
      | None => None
      end
  end.

Lemma rd_app m tok : forall s r,
  rd m s (tok ++ r) =
  match run m s tok with
  | Some (s', o) => option_map (app o) (rd m s' r)
  | None => None
  end.
Proof.
  induction tok as [|c tok IH]; intros s r.
  - simpl. destruct (rd m s r); reflexivity.
  - simpl. destruct (step m s c) as [[s' o]|]; [|reflexivity].
    rewrite IH. destruct (run m s' tok) as [[s'' o']|]; [|reflexivity].
    destruct (rd m s'' r); simpl; [|reflexivity]. now rewrite app_assoc.
Qed.

(* token shapes produced by escape_byte_string *)
Definition shape (tok : list N) : bool :=
  match tok with
  | [c] => negb (c =? 92)
  | [a; x] => (a =? 92) && negb (is_oct x)
  | [a; x; y; z] => (a =? 92) && is_oct x && is_oct y && is_oct z
  | _ => false
  end.

Definition shaped (toks : list (list N)) : Prop := Forall (fun t => shape t = true) toks.

Definition nolf (t : list N) : bool := forallb (fun c => negb (c =? 10)) t.

Definition tok_out (m : rmode) (tok : list N) : list N :=
  match run m RIn tok with Some (_, o) => o | None => [] end.

Definition run_ok (m : rmode) (tok : list N) : bool :=
  match run m RIn tok with Some (RIn, _) => true | _ => false end.

Definition good (m : rmode) (tok : list N) : Prop :=
  shape tok = true /\ run_ok m tok = true.

Definition outs (m : rmode) (toks : list (list N)) : list N := flat_map (tok_out m) toks.

Lemma read_tok m tok r : run_ok m tok = true ->
  rd m RIn (tok ++ r) = option_map (app (tok_out m tok)) (rd m RIn r).
Proof.
  intros Hr. rewrite rd_app. unfold run_ok in Hr. unfold tok_out.
  destruct (run m RIn tok) as [[s o]|]; [|discriminate]. destruct s; try discriminate. reflexivity.
Qed.

Lemma read_toks m toks : Forall (good m) toks -> forall r,
  rd m RIn (concat toks ++ r) = option_map (app (outs m toks)) (rd m RIn r).
Proof.
  induction 1 as [|tok toks Hg _ IH]; intros r.
  - cbn. now destruct (rd m RIn r).
  - cbn [concat]. rewrite <- app_assoc, read_tok, IH by exact (proj2 Hg). unfold outs. cbn [flat_map].
    destruct (rd m RIn r); cbn; [now rewrite app_assoc|reflexivity].
Qed.

(* hi: the second pass of escape_byte_string runs, i.e. some byte is not ASCII (has_high) *)
Definition esc1 (hi : bool) (b : N) : list N :=
  if hi && (127 <=? b) then oct3 b else esc_special b.

Fixpoint esc_toks (hi : bool) (bs : list N) : list (list N) :=
  match bs with
  | [] => []
  | b :: r =>
      match r with
      | b2 :: r2 =>
          if (b =? 63) && (b2 =? 63) then oct3 63 :: oct3 63 :: esc_toks hi r2
          else esc1 hi b :: esc_toks hi r
      | [] => [esc1 hi b]
      end
  end.

Definition q63 (c : N) : bool := c =? 63.

(* everything we need to know about the token of one byte, decided by computation for all 256 *)
Definition tok_facts (b : N) (tok : list N) : bool :=
  shape tok && nolf tok && negb (has_qq tok)
  && forallb (fun m => run_ok m tok && list_eqb (tok_out m tok) [b]) [MStr; MChar; MArr]
  && (negb (q63 (hd 0 tok)) || q63 b) && (negb (q63 (last tok 0)) || q63 b).

Definition byte_facts (b : N) : bool :=
  tok_facts b (esc1 false b) && tok_facts b (esc1 true b)
  && list_eqb (flat_map esc_high (esc_special b)) (esc1 true b)
  && Bool.eqb (is_ascii (esc_special b)) (b <? 128).

Lemma byte_facts_all : forallb byte_facts all_bytes = true.
Proof. vm_compute. reflexivity. Qed.

Section ByteFacts.
  Variable b : N.
  Hypothesis Hb : b < 256.

  Lemma bf_tok hi : tok_facts b (esc1 hi b) = true.
  Proof.
    pose proof (forall_bytes _ byte_facts_all b Hb) as F. unfold byte_facts in F.
    rewrite !andb_true_iff in F. destruct hi; tauto.
  Qed.

  Lemma esc1_good hi m : good m (esc1 hi b) /\ tok_out m (esc1 hi b) = [b].
  Proof.
    pose proof (bf_tok hi) as F. unfold tok_facts in F. rewrite !andb_true_iff, forallb_forall in F.
    destruct F as (((((S & _) & _) & R) & _) & _).
    destruct (proj1 (andb_true_iff _ _) (R m ltac:(destruct m; cbn; auto))) as (Rk & Ro).
    split; [split; assumption|now apply list_eqb_eq].
  Qed.

  Lemma esc1_text hi :
    let tok := esc1 hi b in
    tok <> [] /\ nolf tok = true /\ has_qq tok = false
    /\ (hd 0 tok = 63 -> b = 63) /\ (last tok 0 = 63 -> b = 63).
  Proof.
    pose proof (bf_tok hi) as F. unfold tok_facts, q63 in F. rewrite !andb_true_iff, negb_true_iff in F.
    destruct F as (((((S & Nl) & Q) & _) & H) & L). cbv zeta.
    split; [intros E; now rewrite E in S|]. repeat split; try assumption.
    - intros E. rewrite E in H. now apply N.eqb_eq.
    - intros E. rewrite E in L. now apply N.eqb_eq.
  Qed.

  Lemma bf_high : flat_map esc_high (esc_special b) = esc1 true b.
  Proof.
    pose proof (forall_bytes _ byte_facts_all b Hb) as F. unfold byte_facts in F.
    rewrite !andb_true_iff in F. now apply list_eqb_eq.
  Qed.

  Lemma bf_ascii : is_ascii (esc_special b) = (b <? 128).
  Proof.
    pose proof (forall_bytes _ byte_facts_all b Hb) as F. unfold byte_facts in F.
    rewrite !andb_true_iff in F. now apply eqb_prop.
  Qed.
End ByteFacts.

Lemma esc_toks_qq hi r : esc_toks hi (63 :: 63 :: r) = oct3 63 :: oct3 63 :: esc_toks hi r.
Proof. reflexivity. Qed.
Lemma esc_toks_cons hi a b r : (a =? 63) && (b =? 63) = false ->
  esc_toks hi (a :: b :: r) = esc1 hi a :: esc_toks hi (b :: r).
Proof.
  intros H. transitivity (if (a =? 63) && (b =? 63) then oct3 63 :: oct3 63 :: esc_toks hi r
                          else esc1 hi a :: esc_toks hi (b :: r)); [reflexivity|now rewrite H].
Qed.
Lemma replace_specials_qq r : replace_specials (63 :: 63 :: r) = oct3 63 ++ oct3 63 ++ replace_specials r.
Proof. reflexivity. Qed.
Lemma replace_specials_cons a b r : (a =? 63) && (b =? 63) = false ->
  replace_specials (a :: b :: r) = esc_special a ++ replace_specials (b :: r).
Proof.
  intros H. transitivity (if (a =? 63) && (b =? 63) then oct3 63 ++ oct3 63 ++ replace_specials r
                          else esc_special a ++ replace_specials (b :: r)); [reflexivity|now rewrite H].
Qed.

Lemma replace_specials_toks : forall bs, bytes bs -> replace_specials bs = concat (esc_toks false bs).
Proof.
  apply bytes_qq_ind.
  - reflexivity.
  - intros a _. cbn. now rewrite app_nil_r.
  - intros r IH. now rewrite replace_specials_qq, esc_toks_qq, IH.
  - intros a b r _ _ E IH. now rewrite replace_specials_cons, esc_toks_cons, IH by exact E.
Qed.

Lemma is_ascii_app a b : is_ascii (a ++ b) = is_ascii a && is_ascii b.
Proof. apply forallb_app. Qed.

Lemma replace_specials_ascii : forall bs, bytes bs -> is_ascii (replace_specials bs) = is_ascii bs.
Proof.
  apply bytes_qq_ind.
  - reflexivity.
  - intros a Ha. cbn [replace_specials]. rewrite bf_ascii by exact Ha. cbn. now rewrite andb_true_r.
  - intros r IH. now rewrite replace_specials_qq, !is_ascii_app, IH.
  - intros a b r Ha _ E IH. rewrite replace_specials_cons, is_ascii_app, IH, bf_ascii by assumption. reflexivity.
Qed.

Lemma flat_map_high_toks : forall bs, bytes bs ->
  flat_map esc_high (concat (esc_toks false bs)) = concat (esc_toks true bs).
Proof.
  apply bytes_qq_ind.
  - reflexivity.
  - intros a Ha. cbn. rewrite !app_nil_r. now apply bf_high.
  - intros r IH. rewrite !esc_toks_qq. cbn [concat]. now rewrite !flat_map_app, IH.
  - intros a b r Ha _ E IH. rewrite !esc_toks_cons by exact E. cbn [concat].
    rewrite flat_map_app, IH. f_equal. now apply bf_high.
Qed.

Definition has_high (bs : list N) : bool := negb (is_ascii bs).

Lemma escape_toks bs : bytes bs ->
  escape_byte_string bs = concat (esc_toks (has_high bs) bs).
Proof.
  intros HB. unfold escape_byte_string, has_high. cbv zeta.
  rewrite replace_specials_ascii, replace_specials_toks by assumption.
  destruct (is_ascii bs); [reflexivity|now apply flat_map_high_toks].
Qed.

Lemma oct3_63_good m : good m (oct3 63).
Proof. destruct m; split; vm_compute; reflexivity. Qed.

Lemma esc_toks_good m hi : forall bs, bytes bs ->
  Forall (good m) (esc_toks hi bs) /\ outs m (esc_toks hi bs) = bs.
Proof.
  unfold outs. apply bytes_qq_ind.
  - split; constructor.
  - intros a Ha. destruct (esc1_good a Ha hi m) as (G & O). cbn. rewrite app_nil_r.
    split; [constructor; [exact G|constructor]|exact O].
  - intros r (G & O). rewrite esc_toks_qq. cbn [flat_map]. rewrite O.
    split; [repeat (constructor; [apply oct3_63_good|]); exact G|destruct m; reflexivity].
  - intros a b r Ha _ E (G & O). destruct (esc1_good a Ha hi m) as (Ga & Oa).
    rewrite esc_toks_cons by exact E. cbn [flat_map]. rewrite O, Oa.
    split; [constructor; assumption|reflexivity].
Qed.

(* The splitter counts characters: this part is read in nat_scope, bytes carry the mark %N. *)
Section Splitter.
Local Open Scope nat_scope.

(* k is a token boundary of concat toks *)
Definition bnd (toks : list (list N)) (k : nat) : Prop :=
  exists t1 t2, toks = t1 ++ t2 /\ length (concat t1) = k.

Lemma bnd_0 toks : bnd toks 0.
Proof. exists [], toks. split; reflexivity. Qed.

Lemma bnd_cons tok toks k : bnd toks k -> bnd (tok :: toks) (length tok + k).
Proof.
  intros (t1 & t2 & E & L). exists (tok :: t1), t2. split.
  - now rewrite E.
  - simpl. rewrite app_length. lia.
Qed.

Lemma bnd_firstn_skipn toks k : bnd toks k ->
  exists t1 t2, toks = t1 ++ t2 /\ firstn k (concat toks) = concat t1
                /\ skipn k (concat toks) = concat t2 /\ length (concat t1) = k.
Proof.
  intros (t1 & t2 & E & L). exists t1, t2. subst toks. rewrite concat_app. repeat split; auto.
  - rewrite <- L. rewrite firstn_app, Nat.sub_diag, firstn_all. simpl. now rewrite app_nil_r.
  - rewrite <- L. rewrite skipn_app, Nat.sub_diag, skipn_all. reflexivity.
Qed.

Lemma shape_cases tok : shape tok = true ->
  (exists c, tok = [c] /\ c <> 92%N)
  \/ (exists x, tok = [92%N; x] /\ is_oct x = false)
  \/ (exists x y z, tok = [92%N; x; y; z] /\ x <> 92%N /\ y <> 92%N /\ z <> 92%N).
Proof.
  destruct tok as [|a [|x [|y [|z [|w r]]]]]; simpl; try discriminate; intros H.
  - left. exists a. split; auto. lia.
  - right; left. exists x. assert (a = 92%N) by lia. subst. split; auto.
    destruct (is_oct x); [simpl in H; lia | reflexivity].
  - right; right. unfold is_oct in H. exists x, y, z. assert (a = 92%N) by lia. subst.
    repeat split; lia.
Qed.

Lemma nth_app_shift (tok rest : list N) j :
  nth (length tok + j) (tok ++ rest) 0%N = nth j rest 0%N.
Proof. rewrite app_nth2 by lia. f_equal. lia. Qed.

(* a position that is not a token boundary lies inside a token: the token starts with a backslash at
   most three characters back, and from its third character on it consists of octal digits *)
Lemma bnd_or_inside toks : shaped toks -> forall k,
  k <= length (concat toks) ->
  bnd toks k \/ exists j, j < k <= j + 3 /\ nth j (concat toks) 0%N = 92%N
                          /\ (j + 2 <= k -> nth k (concat toks) 0%N <> 92%N).
Proof.
  induction 1 as [|tok toks Hs _ IH]; intros k Hk.
  - left. simpl in Hk. replace k with 0 by lia. apply bnd_0.
  - cbn [concat] in *. rewrite app_length in Hk. destruct (le_lt_dec (length tok) k) as [G|G].
    + replace k with (length tok + (k - length tok)) by lia.
      destruct (IH (k - length tok) ltac:(lia)) as [B|(j & Hj & Hb & Ho)]; [left; now apply bnd_cons|].
      right. exists (length tok + j). rewrite !nth_app_shift.
      repeat split; [lia|lia|exact Hb|intros; apply Ho; lia].
    + destruct k as [|k']; [left; apply bnd_0|]. right. exists 0.
      destruct (shape_cases tok Hs) as [(c & -> & Hc) | [(x & -> & Hx) | (x & y & z & -> & Hx & Hy & Hz)]];
        cbn [length] in G.
      * lia.
      * repeat split; lia.
      * repeat split; [lia|lia|]. intros _.
        destruct k' as [|[|[|]]]; cbn; [lia|assumption|assumption|lia].
Qed.

(* the three ways chunk_end picks its cut: no backslash in the window of four; the retreat stops
   behind a character that is not a backslash; the even fallback inside a run of backslashes *)
Lemma bnd_no_backslash toks : shaped toks -> forall k,
  k <= length (concat toks) ->
  (forall j, k - 4 <= j -> j < k -> nth j (concat toks) 0%N <> 92%N) ->
  bnd toks k.
Proof.
  intros HS k Hk Hw. destruct (bnd_or_inside toks HS k Hk) as [B|(j & Hj & Hb & _)]; [exact B|].
  destruct (Hw j); [lia|lia|exact Hb].
Qed.

Lemma bnd_before_backslash toks : shaped toks -> forall k,
  1 <= k -> k < length (concat toks) ->
  nth k (concat toks) 0%N = 92%N -> nth (k - 1) (concat toks) 0%N <> 92%N ->
  bnd toks k.
Proof.
  intros HS k Hk1 Hk Hn Hp. destruct (bnd_or_inside toks HS k ltac:(lia)) as [B|(j & Hj & Hb & Ho)]; [exact B|].
  destruct (Nat.eq_dec j (k - 1)) as [->|]; [contradiction|]. destruct Ho; [lia|exact Hn].
Qed.

Lemma bnd_even_in_run h : forall toks m, shaped toks ->
  (forall j, j < m -> nth j (concat toks) 0%N = 92%N) -> m <= length (concat toks) ->
  2 * h <= m -> bnd toks (2 * h).
Proof.
  induction h as [|h IH]; intros toks m HS Hrun Hm Hh.
  - apply bnd_0.
  - destruct HS as [|tok toks Hs HS]; [simpl in Hm; lia|].
    pose proof (Hrun 0 ltac:(lia)) as R0. pose proof (Hrun 1 ltac:(lia)) as R1.
    destruct (shape_cases tok Hs) as [(c & -> & Hc) | [(x & -> & Hx) | (x & y & z & -> & Hx & Hy & Hz)]].
    + simpl in R0. congruence.
    + replace (2 * S h) with (length [92%N; x] + 2 * h) by (simpl; lia).
      apply bnd_cons, (IH toks (m - 2)); auto.
      * intros j Hj. rewrite <- (nth_app_shift [92%N; x]). apply Hrun. simpl. lia.
      * simpl in Hm. lia.
      * lia.
    + simpl in R1. congruence.
Qed.

Lemma retreat_spec t fb : forall e',
  (exists j, retreat t fb e' = S j /\ j <= e' /\ nth j t 0%N <> 92%N
             /\ forall i, j < i -> i <= e' -> nth i t 0%N = 92%N)
  \/ (retreat t fb e' = fb /\ forall i, i <= e' -> nth i t 0%N = 92%N).
Proof.
  induction e' as [|e' IH]; simpl.
  - destruct (N.eqb_spec (nth 0 t 0%N) 92%N) as [E|E].
    + right. split; auto. intros i Hi. now replace i with 0 by lia.
    + left. exists 0. repeat split; auto. intros. lia.
  - destruct (N.eqb_spec (nth (S e') t 0%N) 92%N) as [E|E].
    + destruct IH as [(j & R & Hj & Hn & Hrun) | (R & Hrun)].
      * left. exists j. repeat split; auto. intros i H1 H2.
        destruct (Nat.eq_dec i (S e')) as [->|]; auto. apply Hrun; lia.
      * right. split; auto. intros i Hi.
        destruct (Nat.eq_dec i (S e')) as [->|]; auto. apply Hrun; lia.
    + left. exists (S e'). repeat split; auto. intros. lia.
Qed.

Lemma find_bs_spec w : 
  match find_bs w with
  | Some i => i < length w /\ nth i w 0%N = 92%N /\ forall j, j < i -> nth j w 0%N <> 92%N
  | None => forall j, j < length w -> nth j w 0%N <> 92%N
  end.
Proof.
  induction w as [|c w IH]; simpl.
  - intros j Hj. lia.
  - destruct (N.eqb_spec c 92%N) as [E|E].
    + repeat split; auto; lia.
    + destruct (find_bs w) as [i|]; simpl.
      * destruct IH as (H1 & H2 & H3). repeat split; auto; try lia.
        intros [|j] Hj; auto. apply H3. lia.
      * intros [|j] Hj; auto. apply IH. lia.
Qed.

Lemma nth_firstn_lt (l : list N) : forall n i d, i < n -> nth i (firstn n l) d = nth i l d.
Proof.
  induction l as [|x l IH]; intros n i d H.
  - now rewrite firstn_nil.
  - destruct n; [lia|]. destruct i; simpl; auto. apply IH. lia.
Qed.

Lemma nth_skipn_add (t : list N) : forall a i d, nth i (skipn a t) d = nth (a + i) t d.
Proof.
  induction t as [|x t IH]; intros a i d.
  - rewrite skipn_nil. destruct i, a; reflexivity.
  - destruct a; simpl; auto.
Qed.

Lemma nth_window (t : list N) a i : i < length (firstn 4 (skipn a t)) ->
  nth i (firstn 4 (skipn a t)) 0%N = nth (a + i) t 0%N.
Proof.
  intros Hi. rewrite firstn_length in Hi.
  rewrite nth_firstn_lt by lia. apply nth_skipn_add.
Qed.

Lemma fallback_even limit : 6 <= limit ->
  exists h, limit - limit mod 2 - 4 = 2 * h /\ 1 <= h /\ 2 * h <= limit - 4.
Proof. intros H. exists (limit / 2 - 2). lia. Qed.

Lemma chunk_end_range t limit : 6 <= limit -> 1 <= chunk_end t limit <= limit.
Proof.
  intros HL. unfold chunk_end.
  destruct (Nat.ltb_spec (limit - 4) (length t)) as [H|H]; [|lia].
  pose proof (find_bs_spec (firstn 4 (skipn (limit - 4) t))) as F.
  destruct (find_bs (firstn 4 (skipn (limit - 4) t))) as [i|]; [|lia].
  destruct F as (Hi & _). rewrite firstn_length in Hi.
  destruct (retreat_spec t (limit - limit mod 2 - 4) (limit - 5 + i)) as [(j & R & Hj & _) | (R & _)];
    rewrite R.
  - lia.
  - destruct (fallback_even limit HL) as (h & E & H1 & H2). lia.
Qed.

Lemma chunk_end_bnd toks limit : shaped toks -> 6 <= limit ->
  length (concat toks) <= chunk_end (concat toks) limit \/ bnd toks (chunk_end (concat toks) limit).
Proof.
  intros HS HL. set (t := concat toks). unfold chunk_end.
  destruct (Nat.ltb_spec (limit - 4) (length t)) as [H|H]; [|left; lia].
  pose proof (find_bs_spec (firstn 4 (skipn (limit - 4) t))) as F.
  destruct (find_bs (firstn 4 (skipn (limit - 4) t))) as [i|].
  - destruct F as (Hi & Hn & Hbefore). rewrite nth_window in Hn by exact Hi.
    rewrite firstn_length, skipn_length in Hi.
    right.
    destruct (retreat_spec t (limit - limit mod 2 - 4) (limit - 5 + i)) as [(j & R & Hj & Hnj & Hrun) | (R & Hrun)];
      rewrite R.
    + apply bnd_before_backslash; auto; fold t; try lia.
      * destruct (Nat.eq_dec j (limit - 5 + i)) as [->|Hne].
        -- replace (S (limit - 5 + i)) with (limit - 4 + i) by lia. exact Hn.
        -- apply Hrun; lia.
      * replace (S j - 1) with j by lia. exact Hnj.
    + destruct (fallback_even limit HL) as (h & E & H1 & H2). rewrite E.
      apply (bnd_even_in_run h toks (limit - 3 + i)); auto; fold t; try lia.
      intros j Hj. destruct (Nat.eq_dec j (limit - 4 + i)) as [->|Hne]; [exact Hn|].
      apply Hrun. lia.
  - destruct (le_lt_dec (length t) limit) as [G|G]; [left; exact G|].
    right. apply bnd_no_backslash; auto; fold t; try lia.
    intros j Hj1 Hj2. replace j with ((limit - 4) + (j - (limit - 4))) by lia.
    rewrite <- nth_window.
    + apply F. rewrite firstn_length, skipn_length. lia.
    + rewrite firstn_length, skipn_length. lia.
Qed.

Lemma concat_shape_nil toks : shaped toks -> concat toks = [] -> toks = [].
Proof.
  intros HS E. destruct HS as [|tok toks Hs _]; auto.
  destruct tok; [discriminate Hs | discriminate E].
Qed.

Lemma chunk_end_cut toks limit : shaped toks -> 6 <= limit ->
  exists t1 t2, toks = t1 ++ t2 /\ firstn (chunk_end (concat toks) limit) (concat toks) = concat t1
                /\ skipn (chunk_end (concat toks) limit) (concat toks) = concat t2.
Proof.
  intros HS HL. destruct (chunk_end_bnd toks limit HS HL) as [G|G].
  - exists toks, []. now rewrite app_nil_r, firstn_all2, skipn_all2 by exact G.
  - destruct (bnd_firstn_skipn _ _ G) as (t1 & t2 & E & F1 & F2 & _). eauto.
Qed.

(* the loop ends within length t + 1 rounds, and its result stands in every relation to the text
   that holds of the empty text and is kept when one chunk is cut off *)
Lemma split_loop_inv limit (I : list N -> list (list N) -> Prop) : 6 <= limit ->
  I [] [] ->
  (forall t cs, t <> [] -> I (skipn (chunk_end t limit) t) cs -> I t (firstn (chunk_end t limit) t :: cs)) ->
  forall fuel t, length t < fuel -> exists cs, split_loop fuel t limit = Chunks cs /\ I t cs.
Proof.
  intros HL I0 IS. induction fuel as [|f IH]; intros t Hlen; [lia|].
  cbn [split_loop]. destruct t as [|c0 t0] eqn:Et; [now exists []|].
  rewrite <- Et in *. pose proof (chunk_end_range t limit HL) as [R1 _].
  assert (Hne : t <> []) by (rewrite Et; discriminate).
  assert (Hlt : 1 <= length t) by (rewrite Et; simpl; lia).
  destruct (IH (skipn (chunk_end t limit) t)) as (cs & E & Hcs).
  { rewrite skipn_length. lia. }
  rewrite E. eexists. split; [reflexivity|]. now apply IS.
Qed.

Lemma split_loop_any limit : 6 <= limit -> forall fuel t, length t < fuel ->
  exists cs, split_loop fuel t limit = Chunks cs /\ concat cs = t
             /\ Forall (fun c => 1 <= length c <= limit) cs.
Proof.
  intros HL. apply (split_loop_inv limit (fun t cs => concat cs = t /\ Forall (fun c => 1 <= length c <= limit) cs) HL).
  - now split.
  - intros t cs Hne [C B]. pose proof (chunk_end_range t limit HL). split.
    + simpl. rewrite C. apply firstn_skipn.
    + constructor; [|exact B]. rewrite firstn_length. destruct t; [congruence|cbn [length]; lia].
Qed.

Lemma split_loop_tokens limit : 6 <= limit -> forall fuel toks,
  shaped toks -> length (concat toks) < fuel ->
  exists groups, split_loop fuel (concat toks) limit = Chunks (map (@concat N) groups)
                 /\ concat groups = toks.
Proof.
  intros HL fuel toks HS Hlen.
  destruct (split_loop_inv limit (fun t cs => forall toks, shaped toks -> concat toks = t ->
              exists groups, cs = map (@concat N) groups /\ concat groups = toks) HL) with (3 := Hlen)
    as (cs & E & Hcs).
  - intros toks0 HS0 E. exists []. split; [reflexivity|]. symmetry. now apply concat_shape_nil.
  - intros t cs _ Hcs toks0 HS0 <-.
    destruct (chunk_end_cut toks0 limit HS0 HL) as (t1 & t2 & -> & F1 & F2).
    apply Forall_app in HS0 as [_ HS2]. destruct (Hcs t2 HS2 (eq_sym F2)) as (groups & -> & <-).
    exists (t1 :: groups). now rewrite F1.
  - destruct (Hcs toks HS eq_refl) as (groups & -> & G). now exists groups.
Qed.

Lemma split_chunks_tokens toks limit : 6 <= limit -> shaped toks ->
  exists groups, split_chunks (concat toks) limit = Chunks (map (@concat N) groups)
                 /\ concat groups = toks.
Proof.
  intros HL HS. unfold split_chunks.
  destruct (Nat.ltb_spec limit 5) as [H|_]; [lia|].
  destruct (Nat.ltb_spec (length (concat toks)) limit) as [H|H].
  - exists [toks]. simpl. now rewrite !app_nil_r.
  - apply split_loop_tokens; auto.
Qed.

(* at limit 5 the all-backslash fallback is end = start: no progress, the fuel always runs out *)
Lemma split_loop_limit5_stuck fuel : split_loop fuel (repeat 92%N 8) 5 = OutOfFuel.
Proof.
  induction fuel as [|f IH]; [reflexivity|].
  cbn [split_loop repeat]. change (92%N :: 92%N :: 92%N :: 92%N :: 92%N :: 92%N :: 92%N :: [92%N]) with (repeat 92%N 8).
  replace (chunk_end (repeat 92%N 8) 5) with 0 by (vm_compute; reflexivity).
  cbn [skipn]. now rewrite IH.
Qed.

End Splitter.

Lemma has_qq_cons x t : has_qq (x :: t) = ((x =? 63) && (hd 0 t =? 63)) || has_qq t.
Proof. destruct t; simpl; auto. now rewrite andb_false_r. Qed.

Lemma has_qq_app_noq a : forall b, has_qq a = false -> has_qq b = false ->
  (last a 0 <> 63 \/ hd 0 b <> 63) -> has_qq (a ++ b) = false.
Proof.
  induction a as [|x a IH]; intros b Ha Hb Hj; [exact Hb|].
  rewrite <- app_comm_cons, has_qq_cons. rewrite has_qq_cons in Ha.
  apply orb_false_elim in Ha. destruct Ha as [Ha1 Ha2].
  destruct a as [|y a].
  - simpl app. rewrite Hb, orb_false_r. simpl in Hj.
    destruct (N.eqb_spec x 63); destruct (N.eqb_spec (hd 0 b) 63); simpl; auto. tauto.
  - rewrite IH; auto. now rewrite orb_false_r.
Qed.

Lemma has_qq_app_inv a b : has_qq (a ++ b) = false -> has_qq a = false /\ has_qq b = false.
Proof.
  induction a as [|x a IH]; intros H; [auto|].
  rewrite <- app_comm_cons, has_qq_cons in H. apply orb_false_elim in H. destruct H as [H1 H2].
  destruct (IH H2) as [Ia Ib]. split; auto. rewrite has_qq_cons, Ia, orb_false_r.
  destruct a as [|y a]; [simpl; apply andb_false_r | exact H1].
Qed.

Lemma trigraph_needs_qq t : has_qq t = false -> contains_trigraph t = false.
Proof.
  induction t as [|a t IH]; intros H; [reflexivity|].
  rewrite has_qq_cons in H. apply orb_false_elim in H. destruct H as [H1 H2].
  destruct t as [|b [|c r]]; try reflexivity.
  change (contains_trigraph (a :: b :: c :: r)) with
    (((a =? 63) && (b =? 63) && (match trigraph_char c with Some _ => true | None => false end))
     || contains_trigraph (b :: c :: r)).
  rewrite (IH H2). simpl hd in H1. rewrite H1. reflexivity.
Qed.

Lemma phase1_id t : has_qq t = false -> phase1 t = t.
Proof.
  induction t as [|a t IH]; intros H; [reflexivity|].
  rewrite has_qq_cons in H. apply orb_false_elim in H. destruct H as [H1 H2].
  destruct t as [|b [|c r]].
  - reflexivity.
  - cbn [phase1]. reflexivity.
  - change (phase1 (a :: b :: c :: r)) with
      (if (a =? 63) && (b =? 63) then
         match trigraph_char c with Some x => x :: phase1 r | None => a :: phase1 (b :: c :: r) end
       else a :: phase1 (b :: c :: r)).
    simpl hd in H1. rewrite H1. now rewrite (IH H2).
Qed.

Lemma nolf_app a b : nolf (a ++ b) = nolf a && nolf b.
Proof. apply forallb_app. Qed.

Lemma phase2_id t : nolf t = true -> phase2 t = t.
Proof.
  induction t as [|a t IH]; intros H; [reflexivity|].
  simpl in H. apply andb_prop in H. destruct H as [H1 H2].
  destruct t as [|b r]; [reflexivity|].
  change (phase2 (a :: b :: r)) with (if (a =? 92) && (b =? 10) then phase2 r else a :: phase2 (b :: r)).
  simpl in H2. apply andb_prop in H2. destruct H2 as [H2 H3].
  replace (b =? 10) with false by (symmetry; now apply negb_true_iff).
  rewrite andb_false_r, IH; auto. simpl. now rewrite H2, H3.
Qed.

(* no two adjacent question marks and no new-line: phases 1 and 2 leave such a text alone *)
Definition clean (t : list N) : Prop := has_qq t = false /\ nolf t = true.

Lemma clean_app a b : clean a -> clean b -> last a 0 <> 63 \/ hd 0 b <> 63 -> clean (a ++ b).
Proof. intros [Qa Na] [Qb Nb] H. split; [now apply has_qq_app_noq|now rewrite nolf_app, Na, Nb]. Qed.

Lemma clean_app_inv a b : clean (a ++ b) -> clean a /\ clean b.
Proof.
  intros [Q N]. apply has_qq_app_inv in Q as [Qa Qb]. rewrite nolf_app in N. apply andb_prop in N as [Na Nb].
  repeat split; assumption.
Qed.

Lemma hd_concat_esc_toks hi a r :
  hd 0 (concat (esc_toks hi (a :: r))) = 63 -> hd 0 (esc1 hi a) = 63 \/ esc1 hi a = [].
Proof.
  destruct r as [|b r]; [cbn; rewrite app_nil_r; auto|].
  destruct ((a =? 63) && (b =? 63)) eqn:E.
  - apply andb_prop in E as [E1 E2]. apply N.eqb_eq in E1, E2. subst. discriminate.
  - rewrite esc_toks_cons by exact E. cbn [concat]. destruct (esc1 hi a); cbn; auto.
Qed.

Lemma esc_toks_text hi : forall bs, bytes bs -> clean (concat (esc_toks hi bs)).
Proof.
  apply bytes_qq_ind.
  - split; reflexivity.
  - intros a Ha. destruct (esc1_text a Ha hi) as (_ & N1 & Q1 & _). cbn. rewrite app_nil_r. now split.
  - intros r C. rewrite esc_toks_qq. cbn [concat]. rewrite app_assoc.
    apply clean_app; [split; reflexivity|exact C|left; vm_compute; discriminate].
  - intros a b r Ha Hb E C. rewrite esc_toks_cons by exact E. cbn [concat].
    destruct (esc1_text a Ha hi) as (_ & N1 & Q1 & _ & L1).
    destruct (esc1_text b Hb hi) as (Sb & _ & _ & H1 & _).
    apply clean_app; [now split|exact C|].
    destruct (N.eq_dec (last (esc1 hi a) 0) 63) as [EL|]; [|now left]. right. intros EH.
    apply hd_concat_esc_toks in EH as [EH|EH].
    + apply L1 in EL. apply H1 in EH. subst. discriminate E.
    + contradiction.
Qed.

Lemma join_chunks_cons c c' r : join_chunks (c :: c' :: r) = c ++ [34; 34] ++ join_chunks (c' :: r).
Proof. reflexivity. Qed.

Lemma join_text cs : clean (concat cs) -> clean (join_chunks cs).
Proof.
  induction cs as [|c cs IH]; intros C; [exact C|].
  destruct cs as [|c' r]; [cbn in *; now rewrite app_nil_r in C|].
  rewrite join_chunks_cons. cbn [concat] in C. apply clean_app_inv in C as [Cc Cr].
  apply clean_app; [exact Cc| |right; discriminate].
  apply (clean_app [34; 34]); [split; reflexivity|auto|left; discriminate].
Qed.

Lemma rd_close_open t : rd MStr RIn (34 :: 34 :: t) = rd MStr RIn t.
Proof. cbn [rd step in_step delim N.eqb Pos.eqb]. destruct (rd MStr RIn t); reflexivity. Qed.

Lemma read_join groups : Forall (Forall (good MStr)) groups ->
  rd MStr RIn (join_chunks (map (@concat N) groups) ++ [34]) = Some (outs MStr (concat groups)).
Proof.
  induction 1 as [|g groups Hg Hgs IH].
  - reflexivity.
  - destruct groups as [|g' r].
    + cbn [map join_chunks concat]. rewrite read_toks by exact Hg. rewrite app_nil_r.
      cbn. now rewrite app_nil_r.
    + cbn [map] in *. rewrite join_chunks_cons, <- !app_assoc, read_toks by exact Hg.
      cbn [app]. rewrite rd_close_open, IH. cbn [concat option_map]. unfold outs.
      now rewrite (flat_map_app _ g).
Qed.

Lemma good_shape m toks : Forall (good m) toks -> shaped toks.
Proof. apply Forall_impl. now intros t [H _]. Qed.

Lemma concat_concat_map (A : Type) (l : list (list (list A))) :
  concat (map (@concat A) l) = concat (concat l).
Proof. induction l as [|x l IH]; simpl; auto. now rewrite concat_app, IH. Qed.

Lemma literal_structure bs limit : bytes bs -> (6 <= limit)%nat ->
  exists txt, as_c_string_literal bs limit = Some txt /\ clean txt /\ rd MStr RStart txt = Some bs.
Proof.
  intros HB HL. unfold as_c_string_literal, split_string_literal.
  rewrite (escape_toks bs HB). set (hi := has_high bs).
  destruct (esc_toks_good MStr hi bs HB) as (G1 & O1).
  pose proof (esc_toks_text hi bs HB) as C.
  destruct (split_chunks_tokens (esc_toks hi bs) limit HL (good_shape _ _ G1)) as (groups & E & Cg).
  rewrite E. eexists. split; [reflexivity|].
  rewrite <- Cg, <- concat_concat_map in C. apply join_text in C. split.
  - apply (clean_app [34]); [split; reflexivity| |left; discriminate].
    apply clean_app; [exact C|split; reflexivity|right; discriminate].
  - cbn [app rd step delim N.eqb Pos.eqb]. rewrite read_join.
    + rewrite Cg, O1. reflexivity.
    + apply Forall_concat. now rewrite Cg.
Qed.

Theorem emit_reads_back bs limit : bytes bs -> (6 <= limit)%nat ->
  exists txt, as_c_string_literal bs limit = Some txt /\ c_read txt = Some bs.
Proof.
  intros HB HL. destruct (literal_structure bs limit HB HL) as (txt & E & [Q N] & R).
  exists txt. split; auto. unfold c_read. now rewrite (phase1_id _ Q), (phase2_id _ N).
Qed.

Theorem no_trigraph bs limit txt : bytes bs -> (6 <= limit)%nat ->
  as_c_string_literal bs limit = Some txt ->
  has_qq txt = false /\ contains_trigraph txt = false /\ phase1 txt = txt.
Proof.
  intros HB HL E. destruct (literal_structure bs limit HB HL) as (txt' & E' & [Q N] & R).
  rewrite E in E'. injection E' as <-. repeat split; auto.
  - now apply trigraph_needs_qq.
  - now apply phase1_id.
Qed.

Theorem chunks_bounded s limit : (6 <= limit)%nat ->
  exists cs, split_chunks s limit = Chunks cs /\ concat cs = s
    /\ Forall (fun c => (length c <= limit)%nat /\ (s <> [] -> (1 <= length c)%nat)) cs.
Proof.
  intros HL. unfold split_chunks.
  destruct (Nat.ltb_spec limit 5) as [H|_]; [lia|].
  destruct (Nat.ltb_spec (length s) limit) as [H|H].
  - exists [s]. simpl. rewrite app_nil_r. repeat split; auto. constructor; auto.
    split; [lia|]. intros Hne. destruct s; [congruence | simpl; lia].
  - destruct (split_loop_any limit HL (S (length s)) s ltac:(lia)) as (cs & E & C & B).
    exists cs. repeat split; auto. eapply Forall_impl; [|exact B]. simpl. intros c Hc. lia.
Qed.

Theorem split_terminates s limit : (6 <= limit)%nat ->
  exists cs, split_loop (S (length s)) s limit = Chunks cs /\ concat cs = s.
Proof.
  intros HL. destruct (split_loop_any limit HL (S (length s)) s ltac:(lia)) as (cs & E & C & _).
  eauto.
Qed.

Lemma sc_1 c R : c <> 92 -> split_characters (c :: R) = [c] :: split_characters R.
Proof. intros H. simpl. destruct (N.eqb_spec c 92); [congruence | reflexivity]. Qed.

Lemma sc_2 x R : is_oct x = false -> split_characters (92 :: x :: R) = [92; x] :: split_characters R.
Proof. intros H. destruct R as [|b [|c r]]; simpl; rewrite ?H; reflexivity. Qed.

Lemma sc_4 x y z R : is_oct x = true -> is_oct y = true -> is_oct z = true ->
  split_characters (92 :: x :: y :: z :: R) = [92; x; y; z] :: split_characters R.
Proof. intros H1 H2 H3. simpl. rewrite H1, H2, H3. reflexivity. Qed.

Lemma split_characters_toks toks : shaped toks ->
  split_characters (concat toks) = toks.
Proof.
  induction 1 as [|tok toks Hs _ IH]; [reflexivity|].
  destruct tok as [|a [|x [|y [|z [|w r]]]]]; simpl in Hs; try discriminate; cbn [concat app].
  - rewrite sc_1, IH; auto. lia.
  - assert (a = 92) by lia. subst. rewrite sc_2, IH; auto. destruct (is_oct x); [simpl in Hs; lia | auto].
  - assert (a = 92) by lia. subst. rewrite sc_4, IH; auto; destruct (is_oct x), (is_oct y), (is_oct z); simpl in Hs; lia.
Qed.

Lemma char_array_items_cons c c' r :
  char_array_items (c :: c' :: r) = [39] ++ c ++ [39] ++ [44] ++ char_array_items (c' :: r).
Proof. reflexivity. Qed.

Lemma read_items toks : Forall (good MArr) toks -> toks <> [] ->
  forall s, s = RStart \/ s = RSep ->
  rd MArr s (char_array_items toks) = Some (outs MArr toks).
Proof.
  induction 1 as [|c toks Hc Hrest IH]; intros Hne s Hs; [congruence|].
  assert (Step : step MArr s 39 = Some (RIn, [])) by (destruct Hs; subst; reflexivity).
  destruct toks as [|c' r].
  - cbn [char_array_items app]. cbn [rd]. rewrite Step. rewrite read_tok by exact (proj2 Hc).
    cbn. unfold outs. cbn. now rewrite !app_nil_r.
  - rewrite char_array_items_cons. cbn [app]. cbn [rd]. rewrite Step. rewrite read_tok by exact (proj2 Hc).
    cbn [rd step in_step delim N.eqb Pos.eqb]. rewrite IH; [| discriminate | now right].
    cbn. reflexivity.
Qed.

Lemma items_text toks : clean (concat toks) -> clean (char_array_items toks).
Proof.
  induction toks as [|c toks IH]; intros C; [exact C|].
  cbn [concat] in C. apply clean_app_inv in C as [Cc Cr]. specialize (IH Cr).
  assert (W : forall x, clean x -> hd 0 x <> 63 -> clean ([39] ++ c ++ [39] ++ x)).
  { intros x Cx Hx. apply (clean_app [39]); [split; reflexivity| |left; discriminate].
    apply clean_app; [exact Cc| |right; discriminate].
    apply (clean_app [39]); [split; reflexivity|exact Cx|left; discriminate]. }
  destruct toks as [|c' r]; [apply W; [split; reflexivity|discriminate]|].
  rewrite char_array_items_cons. apply W; [|discriminate].
  apply (clean_app [44]); [split; reflexivity|exact IH|left; discriminate].
Qed.

Theorem char_array_form_equal bs : bytes bs -> bs <> [] ->
  c_read_chars (char_array_form bs) = Some bs
  /\ has_qq (char_array_form bs) = false.
Proof.
  intros HB Hne. unfold char_array_form, c_read_chars.
  rewrite (escape_toks bs HB). set (hi := has_high bs).
  destruct (esc_toks_good MArr hi bs HB) as (G2 & O2).
  rewrite split_characters_toks by (eapply good_shape; exact G2).
  destruct (items_text _ (esc_toks_text hi bs HB)) as [QI NI].
  rewrite (phase1_id _ QI), (phase2_id _ NI). split; [|exact QI].
  rewrite read_items; [now rewrite O2|exact G2| |now left].
  intros Et. rewrite Et in O2. now subst bs.
Qed.

Lemma escape_char_table :
  forallb (fun b => match c_read_char ([39] ++ escape_char b ++ [39]) with
                    | Some x => x =? b
                    | None => false
                    end) all_bytes = true.
Proof. vm_compute. reflexivity. Qed.

Theorem escape_char_reads_back b : b < 256 ->
  c_read_char ([39] ++ escape_char b ++ [39]) = Some b.
Proof.
  intros Hb. pose proof (forall_bytes _ escape_char_table b Hb) as H. cbv beta in H.
  destruct (c_read_char ([39] ++ escape_char b ++ [39])) as [x|]; [|discriminate].
  apply N.eqb_eq in H. now subst.
Qed.
