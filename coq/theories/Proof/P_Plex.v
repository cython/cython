(* C50: the parts put together (NFA -> DFA -> scanner), and Regexps.chars_to_ranges. *)
From Coq Require Import ZArith NArith List Bool Lia ZifyBool ZifyNat.
From CyVerif Require Import Model.M_Plex Proof.P_Plex_TMap Proof.P_Plex_Sets Proof.P_Plex_DFA
  Proof.P_Plex_Scan Proof.P_Plex_Deriv.
Import ListNotations.
Open Scope Z_scope.

(* the event word of a scanner configuration *)
Fixpoint evs (text : list Z) (cfg : config) (k : nat) : list event :=
  match k with O => [] | S k' => c_char cfg :: evs text (next_char text cfg) k' end.

Lemma dfa_run_evs tr text : forall k st cfg, dfa_run tr text st cfg k = dfa_run_w tr st (evs text cfg k).
Proof.
  induction k as [|k IH]; intros st cfg; [reflexivity|]. cbn [dfa_run evs dfa_run_w].
  destruct (nth_error tr st) as [d|]; [|reflexivity].
  destruct (d_lookup d (c_char cfg)); [apply IH|reflexivity].
Qed.

Definition text_ok (text : list Z) : Prop := Forall (fun ch => - maxint <= ch < maxint) text.

Lemma next_char_valid text cfg : text_ok text -> valid_ev (c_char (next_char text cfg)).
Proof.
  intros Ht. unfold next_char.
  destruct (c_ist cfg =? 1).
  - destruct (nth_error text (Z.to_nat (c_next cfg))) as [ch|] eqn:En; [|exact I].
    destruct (ch =? 10); [exact I|]. cbn. apply nth_error_In in En.
    unfold text_ok in Ht. rewrite Forall_forall in Ht. apply Ht. exact En.
  - destruct (c_ist cfg =? 2); [cbn; unfold maxint; lia|].
    destruct (c_ist cfg =? 3); [exact I|]. destruct (c_ist cfg =? 4); exact I.
Qed.

Lemma evs_valid text : text_ok text -> forall k cfg, valid_ev (c_char cfg) -> Forall valid_ev (evs text cfg k).
Proof.
  intros Ht. induction k as [|k IH]; intros cfg Hv; cbn [evs]; constructor; [exact Hv|].
  apply IH. apply next_char_valid. exact Ht.
Qed.

(* the set of NFA states reached on the first k events, as a predicate on a state set *)
Definition nfa_set (m : nfa) (w : list event) (S : sset) : Prop :=
  forall t, s_mem t S = true <-> nreach m O w t.

(* acceptance by the DFA read on the NFA: the states reached on the first k events have best action a *)
Lemma accepts_nfa m fuel D text cfg :
  nfa_ok m = true -> nfa_to_dfa fuel m = Some D -> text_ok text -> valid_ev (c_char cfg) ->
  forall k a, accepts (dfa_acts D) (dfa_trans D) text O cfg k a <->
              exists S, nfa_set m (evs text cfg k) S /\ best_action m S = Some a.
Proof.
  intros Hok HD Ht Hv k a. destruct (nfa_ok_spec m Hok) as (Hwf & Helse).
  destruct (nfa_to_dfa_correct m Hwf Helse fuel D HD) as (_ & _ & _ & Hrun).
  unfold accepts. rewrite dfa_run_evs.
  specialize (Hrun (evs text cfg k) (evs_valid text Ht k cfg Hv)).
  destruct (dfa_run_w (dfa_trans D) 0 (evs text cfg k)) as [d|].
  - destruct Hrun as (S' & Hs & Hm & Ha). split.
    + intros (st' & E & A). inversion E; subst st'. exists S'. split; [exact Hm|]. congruence.
    + intros (S0 & Hm0 & Hb). exists d. split; [reflexivity|].
      assert (S0 = S') by (apply s_ext; intros i; apply eq_true_iff_eq; rewrite (Hm0 i), (Hm i); tauto).
      subst S0. rewrite Ha, Hb. reflexivity.
  - split; [intros (st' & E & _); discriminate|]. intros (S0 & Hm0 & Hb).
    rewrite best_action_no_member in Hb; [discriminate|]. intros t.
    destruct (s_mem t S0) eqn:E; [|reflexivity]. apply Hm0 in E. exfalso. exact (Hrun t E).
Qed.

(* Lexicon machine -> nfa_to_dfa -> scan_a_token: the token is the longest prefix of the pending
   events on which the NFA reaches an accepting state, its action is the highest-priority action
   of the states reached there, the scanner state is the one saved at that point; ('', None) /
   UnrecognizedInput exactly when no prefix is accepted. *)
Theorem lexer_pipeline m fuel D text cfg :
  nfa_ok m = true -> nfa_to_dfa fuel m = Some D ->
  text_ok text -> valid_ev (c_char cfg) -> 0 <= c_next cfg ->
  match scan_a_token D text cfg with
  | TokOk start stop line col a c =>
      exists k S, nfa_set m (evs text cfg k) S /\ best_action m S = Some a
        /\ (forall k' S', (k < k')%nat -> nfa_set m (evs text cfg k') S' -> best_action m S' = None)
        /\ c = iter_next k text cfg
        /\ start = c_pos cfg /\ stop = c_pos c /\ line = c_line cfg /\ col = c_pos cfg - c_lstart cfg
  | TokEof c | TokErr c =>
      forall k S, nfa_set m (evs text cfg k) S -> best_action m S = None
  | TokBad | TokFuel => False
  end.
Proof.
  intros Hok HD Ht Hv Hn. destruct (nfa_ok_spec m Hok) as (Hwf & Helse).
  destruct (nfa_to_dfa_correct m Hwf Helse fuel D HD) as (Hl & Hp & Hw & _).
  pose proof (scan_a_token_spec D text cfg (conj Hl (conj Hp Hw)) Hn) as S.
  pose proof (accepts_nfa m fuel D text cfg Hok HD Ht Hv) as Hacc.
  assert (Hnone : forall k, (forall a, ~ accepts (dfa_acts D) (dfa_trans D) text O cfg k a) ->
                    forall S0, nfa_set m (evs text cfg k) S0 -> best_action m S0 = None).
  { intros k Hno S0 Hm0. destruct (best_action m S0) as [a|] eqn:E; [|reflexivity].
    exfalso. apply (Hno a). apply Hacc. exists S0. auto. }
  destruct (scan_a_token D text cfg) as [s e l c a c'|c'|c'| |]; try exact S.
  - destruct S as (k & A & Hmax & Ec & R). apply Hacc in A. destruct A as (S0 & Hm0 & Hb).
    exists k, S0. split; [exact Hm0|]. split; [exact Hb|]. split; [|split; [exact Ec|exact R]].
    intros k' S' Hk Hm'. apply (Hnone k'); [|exact Hm']. intros a'. apply Hmax. exact Hk.
  - destruct S as (Hno & _). intros k S0. apply Hnone. intros a. apply Hno.
  - destruct S as (Hno & _). intros k S0. apply Hnone. intros a. apply Hno.
Qed.

(* Regexps.chars_to_ranges *)
Lemma insert_sorted_in x l y : In y (insert_sorted x l) <-> y = x \/ In y l.
Proof.
  induction l as [|a t IH]; cbn [insert_sorted].
  - cbn. intuition.
  - destruct (x <=? a); cbn [In]; [intuition|]. rewrite IH. intuition.
Qed.

Lemma sort_codes_in l y : In y (sort_codes l) <-> In y l.
Proof.
  induction l as [|a t IH]; [reflexivity|]. cbn [sort_codes fold_right]. fold (sort_codes t).
  rewrite insert_sorted_in, IH. cbn. intuition.
Qed.

Fixpoint sorted_le (l : list Z) : Prop :=
  match l with
  | x :: ((y :: _) as t) => x <= y /\ sorted_le t
  | _ => True
  end.

Lemma insert_sorted_le x l : sorted_le l -> sorted_le (insert_sorted x l).
Proof.
  induction l as [|a t IH]; intros H; [exact I|]. cbn [insert_sorted].
  destruct (Z.leb_spec x a).
  - cbn [sorted_le]. split; [lia|exact H].
  - destruct t as [|b t'].
    + cbn. split; [lia|exact I].
    + change (a <= b /\ sorted_le (b :: t')) in H. destruct H as [Hab Ht]. specialize (IH Ht). cbn [insert_sorted] in IH |- *.
      destruct (Z.leb_spec x b); cbn [sorted_le] in IH |- *; (split; [lia|exact IH]).
Qed.

Lemma sort_codes_sorted l : sorted_le (sort_codes l).
Proof. induction l as [|a t IH]; [exact I|]. cbn [sort_codes fold_right]. apply insert_sorted_le. exact IH. Qed.

Lemma dedup_sorted_cons2 a b t :
  dedup_sorted (a :: b :: t) = if a =? b then dedup_sorted (b :: t) else a :: dedup_sorted (b :: t).
Proof. reflexivity. Qed.

Lemma dedup_sorted_spec : forall l, sorted_le l ->
  sorted (dedup_sorted l) /\ (forall y, In y (dedup_sorted l) <-> In y l)
  /\ (forall a t, l = a :: t -> exists t', dedup_sorted l = a :: t').
Proof.
  induction l as [|a t IH]; intros H.
  - split; [exact I|]. split; [reflexivity|]. intros; discriminate.
  - destruct t as [|b t'].
    + cbn. split; [exact I|]. split; [reflexivity|]. intros a0 t0 E. inversion E; subst. eauto.
    + change (a <= b /\ sorted_le (b :: t')) in H. destruct H as [Hab Ht]. destruct (IH Ht) as (Hs & Hin & Hhd).
      destruct (Hhd b t' eq_refl) as (u & Eu). rewrite dedup_sorted_cons2.
      destruct (Z.eqb_spec a b) as [->|Hne].
      * split; [exact Hs|]. split.
        -- intros y. rewrite Hin. cbn. intuition.
        -- intros a0 t0 E. inversion E; subst. eauto.
      * split.
        -- rewrite Eu. rewrite Eu in Hs. cbn [sorted]. split; [lia|exact Hs].
        -- split.
           ++ intros y. cbn [In]. rewrite Hin. cbn. intuition.
           ++ intros a0 t0 E. inversion E; subst. eauto.
Qed.

Lemma c2r_go_spec x : forall l c1 c2, c1 < c2 -> sorted l -> (forall y, In y l -> c2 <= y) ->
  (ranges_cover (c2r_go c1 c2 l) x = true <-> (c1 <= x < c2) \/ In x l).
Proof.
  induction l as [|c t IH]; intros c1 c2 Hlt Hs Hge; cbn [c2r_go].
  - cbn. split; [intros H; left; lia|intros [H|[]]; lia].
  - assert (Hgt : forall y, In y t -> c < y) by (apply sorted_head_lt; exact Hs).
    pose proof (Hge c (or_introl eq_refl)) as Hc.
    destruct (Z.geb_spec c2 c) as [Hcc|Hcc].
    + rewrite IH; [|lia|eapply sorted_tail; eauto|intros y Hy; specialize (Hgt y Hy); lia].
      assert (Ec : c = c2) by lia. cbn [In]. split.
      * intros [H|H]; [|right; right; exact H].
        destruct (Z.eq_dec x c2); [right; left; lia|left; lia].
      * intros [H|[H|H]]; [left; lia|left; lia|right; exact H].
    + cbn [ranges_cover]. rewrite orb_true_iff.
      rewrite IH; [|lia|eapply sorted_tail; eauto|intros y Hy; specialize (Hgt y Hy); lia].
      cbn [In]. split.
      * intros [H|[H|H]]; [left; lia|right; left; lia|right; right; exact H].
      * intros [H|[->|H]]; [left; lia|right; left; lia|right; right; exact H].
Qed.

(* with duplicates removed the ranges cover exactly the characters of s *)
Theorem chars_to_ranges_dedup_correct s x :
  ranges_cover (chars_to_ranges true s) x = true <-> In x s.
Proof.
  unfold chars_to_ranges. destruct (dedup_sorted_spec (sort_codes s) (sort_codes_sorted s)) as (Hs & Hin & _).
  rewrite <- sort_codes_in, <- Hin. destruct (dedup_sorted (sort_codes s)) as [|c t].
  - cbn. split; [discriminate|contradiction].
  - rewrite c2r_go_spec; [|lia|eapply sorted_tail; eauto|].
    + cbn [In]. split; intros [H|H]; auto; [left; lia|left; lia].
    + intros y Hy. pose proof (sorted_head_lt t c Hs y Hy). lia.
Qed.

(* the code as it is: a repeated character widens the range (finding any_duplicate_chars) *)
Theorem chars_to_ranges_refuted :
  exists s x, ranges_cover (chars_to_ranges false s) x = true /\ ~ In x s.
Proof. exists [97; 97], 98. split; [vm_compute; reflexivity|]. cbn. intros [H|[H|[]]]; discriminate. Qed.

Lemma dedup_sorted_id : forall l, sorted l -> dedup_sorted l = l.
Proof.
  induction l as [|a t IH]; intros Hs; [reflexivity|]. destruct t as [|b t']; [reflexivity|].
  rewrite dedup_sorted_cons2. change (a < b /\ sorted (b :: t')) in Hs. destruct Hs as [Hab Ht].
  destruct (Z.eqb_spec a b); [lia|]. rewrite (IH Ht). reflexivity.
Qed.

(* without repeated characters both variants agree *)
Theorem chars_to_ranges_nodup_partial s : sorted (sort_codes s) ->
  chars_to_ranges false s = chars_to_ranges true s.
Proof. intros H. unfold chars_to_ranges. rewrite (dedup_sorted_id _ H). reflexivity. Qed.
