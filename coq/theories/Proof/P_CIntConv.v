(* Proofs about Model/M_CIntConv.v (CIntFromPy / CIntToPy of TypeConversion.c).  [good w s v r]: r is
   the conversion of the integer v to the type, exact if v fits and the right OverflowError if
   not.  Every path of from_py ends in one of three ways to be good (good_ok, good_neg,
   good_overflow), most of them through __PYX_VERIFY_RETURN_INT (verify_good); from_py_good
   collects them and the statements of C05 are its readings. *)
From Coq Require Import ZArith List Bool Lia ZifyBool.
From CyVerif Require Import Lib.CInt Lib.PyLong Model.M_CIntConv.
Import ListNotations.
Open Scope Z_scope.

Definition cfg_ok (c : cfg) : Prop :=
  1 <= c_sh c /\ c_sh c < c_compact c /\ 2 <= c_int c /\ c_int c <= c_long c /\
  c_long c <= c_llong c /\ 32 <= c_long c /\ 2 <= c_ssize c.

Definition overflow_kind (e : err) : bool :=
  match e with
  | Overflow | NegOverflow | CPyOverflow | CPyBytesOverflow => true
  | _ => false
  end.

(* the property for one conversion of an integer value v to the type (w,s):
   exact when it fits; otherwise OverflowError signalled correctly ((T)-1 + error indicator),
   with the "negative" message for a negative value and an unsigned target *)
Definition good (w : Z) (s : bool) (v : Z) (r : cres) : Prop :=
  if in_rangeb w s v then observe w s r = Ok v
  else exists e, observe w s r = Err e /\ overflow_kind e = true /\
                 (s = false -> v < 0 -> e = NegOverflow).

Lemma wrap_m1_s w : 1 <= w -> wrap w true (-1) = -1.
Proof.
  intros. apply wrap_id; [lia|]. apply in_range_signed.
  pose proof (pow2_pos (w - 1) ltac:(lia)). lia.
Qed.

Lemma wrap_u_neg fw u : 1 <= fw -> - 2 ^ fw <= u < 0 -> wrap fw false u = u + 2 ^ fw.
Proof.
  intros Hw Hu. rewrite (wrap_unique fw false u 1); [lia | exact Hw | apply in_range_unsigned; lia].
Qed.

Lemma observe_err w s e : observe w s (Ret (wrap w s (-1)) (Some e)) = Err e.
Proof. cbn [observe]. rewrite Z.eqb_refl. reflexivity. Qed.

Lemma good_ok w s v : in_range w s v -> 1 <= w -> good w s v (Ret (wrap w s v) None).
Proof.
  intros Hin Hw. unfold good. rewrite (proj2 (in_rangeb_spec w s v) Hin).
  cbn [observe]. rewrite wrap_id by assumption. reflexivity.
Qed.

Lemma good_neg w v : 1 <= w -> v < 0 -> good w false v (raise_neg_overflow w false).
Proof.
  intros Hw Hv. unfold good.
  rewrite (proj2 (in_rangeb_false w false v)) by (rewrite in_range_unsigned; lia).
  exists NegOverflow. split; [apply observe_err | split; reflexivity].
Qed.

Lemma good_overflow w s v e : ~ in_range w s v -> overflow_kind e = true -> (s = false -> 0 <= v) ->
  good w s v (Ret (wrap w s (-1)) (Some e)).
Proof.
  intros Hout He Hs. unfold good. rewrite (proj2 (in_rangeb_false w s v) Hout).
  exists e. split; [apply observe_err | split; [exact He|]]. intros -> Hv. specialize (Hs eq_refl). lia.
Qed.

Lemma verify_good w s fw fs exc v :
  1 <= w -> 1 <= fw -> in_range fw fs v ->
  (fs = false -> s = true -> v < 2 ^ (fw - 1)) ->
  (fs = true -> s = false -> fw <= w -> 0 <= v) ->
  good w s v (verify w s fw fs exc (v, None)).
Proof.
  intros Hw Hfw Hr H1 H2. unfold verify.
  destruct (Z.ltb_spec w fw) as [Hlt|Hge].
  - destruct (in_rangeb w s v) eqn:Ein.
    + apply in_rangeb_spec in Ein.
      replace (v =? wrap fw fs (wrap w s v)) with true
        by (now rewrite (wrap_id w s v Hw Ein), (wrap_id fw fs v Hfw Hr), Z.eqb_refl).
      now apply good_ok.
    + (* u = (T) v differs from v; cast back it is u, or u + 2^fw when u < 0 and the function
         type is unsigned, and that is too large for v *)
      apply in_rangeb_false in Ein.
      assert (Hne : (v =? wrap fw fs (wrap w s v)) = false).
      { apply Z.eqb_neq. intros Heq.
        pose proof (wrap_in_range w s v Hw) as Hu. set (u := wrap w s v) in *.
        assert (Huv : u <> v) by (intros E; apply Ein; rewrite <- E; exact Hu).
        destruct fs.
        - rewrite wrap_id in Heq; [congruence | lia | apply (in_range_widen w s); [lia | exact Hu]].
        - apply in_range_unsigned in Hr. pose proof (pow2_mono w (fw - 1) ltac:(lia)).
          pose proof (pow2_split fw Hfw). destruct (Z.ltb_spec u 0) as [Hneg|Hpos].
          + destruct s; [|apply in_range_unsigned in Hu; lia]. apply in_range_signed in Hu.
            pose proof (pow2_split w Hw). rewrite wrap_u_neg in Heq by lia.
            specialize (H1 eq_refl eq_refl). lia.
          + rewrite wrap_id in Heq; [congruence | lia |]. apply in_range_unsigned.
            pose proof (min_max_sign w s Hw). pose proof (pow2_split w Hw).
            unfold in_range, max_int in Hu. destruct s; lia. }
      rewrite Hne. cbn [negb is_some]. rewrite andb_false_r.
      destruct (negb s && (v <? 0)) eqn:N.
      * destruct s; [discriminate|]. apply good_neg; [exact Hw | cbn in N; lia].
      * apply good_overflow; [exact Ein | reflexivity | intros ->; cbn in N; lia].
  - apply good_ok; [|exact Hw]. destruct fs, s.
    + apply (in_range_mono fw); [lia | exact Hr].
    + specialize (H2 eq_refl eq_refl Hge). apply in_range_signed in Hr. apply in_range_unsigned.
      pose proof (pow2_mono (fw - 1) w ltac:(lia)). lia.
    + specialize (H1 eq_refl eq_refl). apply in_range_unsigned in Hr. apply in_range_signed.
      pose proof (pow2_mono (fw - 1) (w - 1) ltac:(lia)). lia.
    + apply (in_range_mono fw); [lia | exact Hr].
Qed.

Lemma verify_good_same w s fw exc v :
  1 <= w -> 1 <= fw -> in_range fw s v -> good w s v (verify w s fw s exc (v, None)).
Proof. intros. apply verify_good; try assumption; destruct s; discriminate. Qed.

(* the C-API fall-through, __PYX_VERIFY_RETURN_INT_EXC(T, long, PyLong_AsLong(x)): the error return of
   the API call is passed on as the error return of the target type *)
Lemma verify_exc w s fw fs e : 1 <= w <= fw ->
  verify w s fw fs true (wrap fw fs (-1), Some e) = Ret (wrap w s (-1)) (Some e).
Proof.
  intros H. unfold verify. rewrite Z.eqb_refl, (wrap_narrow w s fw fs) by lia. cbn [andb is_some].
  destruct (w <? fw); [destruct (negb _)|]; reflexivity.
Qed.

Lemma verify_api_signed w fw v :
  1 <= w -> w <= fw ->
  good w true v (verify w true fw true true (api_as_signed fw v)).
Proof.
  intros Hw Hle. unfold api_as_signed.
  destruct (in_rangeb fw true v) eqn:Ein.
  - apply in_rangeb_spec in Ein. apply verify_good_same; (assumption || lia).
  - apply in_rangeb_false in Ein. rewrite <- (wrap_m1_s fw), verify_exc by lia.
    apply good_overflow; [|reflexivity | discriminate].
    intros Hin. apply Ein, (in_range_mono w); [lia | exact Hin].
Qed.

Lemma verify_api_unsigned w fw v :
  1 <= w -> w <= fw -> 0 <= v ->
  good w false v (verify w false fw false true (api_as_unsigned fw v)).
Proof.
  intros Hw Hle Hv. unfold api_as_unsigned.
  destruct (Z.ltb_spec v 0); [lia|].
  destruct (in_rangeb fw false v) eqn:Ein.
  - apply in_rangeb_spec in Ein. apply verify_good_same; (assumption || lia).
  - apply in_rangeb_false in Ein. rewrite verify_exc by lia.
    apply good_overflow; [|reflexivity | intros _; exact Hv].
    intros Hin. apply Ein, (in_range_mono w); [lia | exact Hin].
Qed.

Lemma wf_facts sh x : 0 <= sh -> wf sh x ->
  let m := mag sh (pl_digits x) in
  0 <= m < 2 ^ (sh * ndigits x) /\
  (pl_neg x = true -> value sh x = - m /\ 0 < m) /\
  (pl_neg x = false -> value sh x = m).
Proof.
  intros Hsh (Ok & La & Z0). cbv zeta. unfold ndigits, value. repeat split.
  - apply mag_nonneg; exact Ok.
  - apply mag_lt; assumption.
  - rewrite H. reflexivity.
  - destruct (pl_digits x) eqn:E; [rewrite Z0 in H by reflexivity; discriminate|].
    apply mag_pos; try assumption. congruence.
  - intros ->. reflexivity.
Qed.

Lemma some_inj {A} (a b : A) : Some a = Some b -> a = b.
Proof. congruence. Qed.

Lemma chain_good (P : cres -> Prop) bs fb :
  Forall (fun gb : bool * option cres => fst gb = true -> forall r, snd gb = Some r -> P r) bs ->
  P fb -> P (match chain bs with Some r => r | None => fb end).
Proof.
  intros H Hfb. induction H as [|[g b] rest Hgb _ IH]; cbn [chain]; [exact Hfb|].
  destruct g; [|exact IH]. destruct b as [r|]; [now apply Hgb | exact Hfb].
Qed.

Definition large_ok (c : cfg) : Prop :=
  forall w s v, 1 <= w -> (s = false -> 0 <= v) -> good w s v (large c w s v).

(* __Pyx_LargePyLong_: the _PyLong_AsByteArray variant *)
Lemma unsigned_nonneg s v : (s = false -> 0 <= v) -> negb s && (v <? 0) = false.
Proof. destruct s; [reflexivity|]. intros H. specialize (H eq_refl). cbn [negb andb]. lia. Qed.

Lemma large_bytearray_good w s v : 1 <= w -> (s = false -> 0 <= v) -> good w s v (large_bytearray w s v).
Proof.
  intros Hw Hs. unfold large_bytearray. rewrite (unsigned_nonneg s v Hs).
  destruct (in_rangeb w s v) eqn:Ein.
  - unfold good. now rewrite Ein.
  - apply good_overflow; [now apply in_rangeb_false | reflexivity | exact Hs].
Qed.

Lemma large_ok_bytearray c : c_chunks c = false -> large_ok c.
Proof. intros Hc w s v Hw Hs. unfold large. rewrite Hc. apply large_bytearray_good; assumption. Qed.

(* __Pyx_LargePyLong_: the chunk loop through the C-API (Limited API / PyPy) *)
Lemma land_signbit a n : 0 <= n -> 0 <= a < 2 ^ n -> Z.land a (- 2 ^ n) = 0.
Proof.
  intros Hn Ha. replace (- 2 ^ n) with (Z.shiftl (-1) n) by (rewrite Z.shiftl_mul_pow2 by lia; lia).
  rewrite Z.land_comm. apply land_shiftl_low; assumption.
Qed.

Lemma lor_low_high lo hi n : 0 <= n -> 0 <= lo < 2 ^ n -> Z.lor lo (hi * 2 ^ n) = lo + hi * 2 ^ n.
Proof.
  intros Hn Hlo. rewrite <- Z.shiftl_mul_pow2 by lia. rewrite Z.lor_comm.
  rewrite shiftl_lor_add by assumption. rewrite Z.shiftl_mul_pow2 by lia. lia.
Qed.

Lemma land_mask a n : 0 <= n -> Z.land a (2 ^ n - 1) = a mod 2 ^ n.
Proof.
  intros Hn. replace (2 ^ n - 1) with (Z.ones n) by (rewrite Z.ones_equiv; lia).
  apply Z.land_ones. exact Hn.
Qed.

Section Chunks.
  Variables (lw w : Z) (s : bool) (chunk : Z).
  Hypothesis Hw : 1 <= w.
  Hypothesis Hchunk : 1 <= chunk <= lw - 2.

  Lemma or_shifted_exact val d bits :
    0 <= bits -> 0 <= val < 2 ^ bits -> 0 <= d ->
    (d + 1) * 2 ^ bits <= 2 ^ (if s then w - 1 else w) ->
    or_shifted w s val d bits = Some (val + d * 2 ^ bits).
  Proof.
    intros Hb Hval Hd Hfit. unfold or_shifted. cbv zeta. pose proof (pow2_pos bits Hb) as Pb.
    assert (Hdr : in_range w s d)
      by (apply in_range_nonneg_iff; [exact Hw | exact Hd | clear - Hd Pb Hfit; nia]).
    assert (Hsr : in_range w s (d * 2 ^ bits))
      by (apply in_range_nonneg_iff; [exact Hw | clear - Hd Pb; nia | clear - Pb Hfit; nia]).
    rewrite (wrap_id w s d Hw Hdr), Z.shiftl_mul_pow2 by lia.
    rewrite (proj2 (in_rangeb_spec _ _ _) Hsr). cbn [negb]. rewrite andb_false_r.
    rewrite (wrap_id w s _ Hw Hsr), lor_low_high by assumption. reflexivity.
  Qed.

  (* the loop moves the low bits of stepval into val, chunk by chunk, and stops with at most
     chunk bits of the type still to fill *)
  Lemma chunk_loop_spec fuel : forall bits stepval val,
    0 <= bits -> 0 <= stepval -> 0 <= val < 2 ^ bits -> (bits = 0 \/ bits < w) ->
    w - bits < Z.of_nat fuel ->
    exists bits' stepval' val',
      chunk_loop fuel lw w s chunk bits stepval val = Some (inr (bits', stepval', val')) /\
      val' + stepval' * 2 ^ bits' = val + stepval * 2 ^ bits /\
      0 <= val' < 2 ^ bits' /\ 0 <= stepval' /\ 0 <= bits' /\ w - chunk <= bits' /\
      (bits' = 0 \/ bits' < w).
  Proof.
    induction fuel as [|f IH]; intros bits stepval val Hb Hs Hv Hbw Hf.
    - cbn in Hf. lia.
    - cbn [chunk_loop]. destruct (Z.ltb_spec bits (w - chunk)) as [Hlt|Hge].
      + rewrite land_mask by lia.
        pose proof (pow2_pos chunk ltac:(lia)) as Pc. pose proof (pow2_pos bits Hb) as Pb.
        pose proof (Z.mod_pos_bound stepval (2 ^ chunk) Pc) as Hd.
        pose proof (Z.div_mod stepval (2 ^ chunk) ltac:(lia)) as DM.
        assert (Hq : 0 <= stepval / 2 ^ chunk) by (apply Z.div_pos; lia).
        set (d := stepval mod 2 ^ chunk) in *. set (q := stepval / 2 ^ chunk) in *.
        (* PyLong_AsLong(digit) succeeds: d < 2^chunk <= 2^(lw-1) *)
        unfold api_as_signed.
        assert (Hdin : in_rangeb lw true d = true).
        { apply in_rangeb_spec, in_range_signed. pose proof (pow2_mono chunk (lw - 1) ltac:(lia)). lia. }
        rewrite Hdin. destruct (Z.ltb_spec d 0); [lia|].
        assert (E2 : 2 ^ (bits + chunk) = 2 ^ chunk * 2 ^ bits) by (rewrite Z.pow_add_r by lia; ring).
        assert (Hfit : (d + 1) * 2 ^ bits <= 2 ^ (if s then w - 1 else w)).
        { apply Z.le_trans with (2 ^ (bits + chunk)); [rewrite E2; clear - Hd Pb; nia|].
          apply pow2_mono. destruct s; lia. }
        rewrite (or_shifted_exact val d bits Hb Hv ltac:(lia) Hfit), Z.shiftr_div_pow2 by lia.
        fold q.
        destruct (IH (bits + chunk) q (val + d * 2 ^ bits))
          as (b' & s' & v' & E & Htot & Rest); try lia.
        * rewrite E2. clear - Hv Hd Pb. nia.
        * exists b', s', v'. rewrite E, Htot, E2, DM. split; [reflexivity|]. split; [ring | exact Rest].
      + exists bits, stepval, val. repeat split; lia.
  Qed.
End Chunks.

(* the loop runs on v, or on ~v for a negative v: a non-negative number that has as many bits as
   the value bits of the type iff v fits *)
Lemma stepval_fits w s v : 1 <= w -> (s = false -> 0 <= v) ->
  let step := if v <? 0 then Z.lnot v else v in
  0 <= step /\ (in_range w s v <-> step < 2 ^ (if s then w - 1 else w)).
Proof.
  intros Hw Hs. cbv zeta. unfold Z.lnot. pose proof (pow2_pos (w - 1) ltac:(lia)).
  destruct s; [rewrite in_range_signed | specialize (Hs eq_refl); rewrite in_range_unsigned];
    destruct (Z.ltb_spec v 0); lia.
Qed.

Lemma wrap_signbit w : 1 <= w -> wrap w true (2 ^ (w - 1)) = - 2 ^ (w - 1).
Proof.
  intros Hw. pose proof (pow2_split w Hw). pose proof (pow2_pos (w - 1) ltac:(lia)).
  rewrite (wrap_unique w true _ (-1)); [lia | exact Hw | apply in_range_signed; lia].
Qed.

Lemma large_chunks_good c w s v : cfg_ok c -> 1 <= w -> (s = false -> 0 <= v) ->
  good w s v (large_chunks c w s v).
Proof.
  intros (Hsh & Hcw & Hi & Hil & Hll & Hl32 & Hz) Hw Hs. unfold large_chunks. cbv zeta.
  set (chunk := if c_long c <? 64 then 30 else 62).
  assert (Hchunk : 1 <= chunk <= c_long c - 2) by (subst chunk; destruct (Z.ltb_spec (c_long c) 64); lia).
  rewrite (unsigned_nonneg s v Hs). destruct (stepval_fits w s v Hw Hs) as [H0 HR].
  set (step0 := if v <? 0 then Z.lnot v else v) in *. set (R := if s then w - 1 else w) in *.
  destruct (chunk_loop_spec (c_long c) w s chunk Hw Hchunk (S (Z.to_nat w)) 0 step0 0)
    as (b' & s' & v' & Eloop & Htot & Hv' & Hs' & Hb' & Hge' & Hbw'); try lia.
  rewrite Eloop. rewrite Z.pow_0_r, Z.mul_1_r, Z.add_0_l in Htot.
  pose proof (pow2_pos b' Hb') as Pb.
  set (rem := w - b' - (if s then 1 else 0)).
  assert (Hrem : 0 <= rem <= chunk) by (subst rem; destruct s; lia).
  assert (HRb : 2 ^ R = 2 ^ rem * 2 ^ b').
  { rewrite <- Z.pow_add_r by lia. f_equal. subst R rem. destruct s; lia. }
  (* v' holds the low b' bits: the value fits iff what is left of stepval has at most rem bits *)
  assert (HRs : in_range w s v <-> s' < 2 ^ rem).
  { rewrite HR, <- Htot, HRb. clear - Hv' Pb. split; nia. }
  unfold api_as_signed. destruct (in_rangeb (c_long c) true s') eqn:Ein.
  - (* the remaining bits fit a long *)
    destruct (Z.ltb_spec s' 0); [lia|].
    destruct (Z.ltb_spec rem 0); [lia|]. destruct (Z.leb_spec (c_long c - 1) rem); [lia|].
    cbn [orb].
    destruct (Z.leb_spec (2 ^ rem) s') as [Hov|Hfit].
    + (* idigit >= 1L << remaining_bits *)
      apply good_overflow; [rewrite HRs; lia | reflexivity | exact Hs].
    + assert (Hin : in_range w s v) by (apply HRs; lia).
      rewrite (or_shifted_exact w s Hw v' s' b' Hb' Hv' Hs')
        by (fold R; rewrite HRb; apply Z.mul_le_mono_nonneg_r; clear - Pb Hfit; lia).
      rewrite Htot. unfold good. rewrite (proj2 (in_rangeb_spec _ _ _) Hin).
      destruct s.
      * (* the sign bit of the collected value is clear *)
        rewrite Z.shiftl_mul_pow2, Z.mul_1_l, wrap_signbit, land_signbit by (apply HR in Hin; subst R; lia).
        cbn [Z.eqb negb observe]. subst step0. destruct (Z.ltb_spec v 0); [|reflexivity].
        now rewrite Z.lnot_involutive, wrap_id.
      * cbn [observe]. subst step0. specialize (Hs eq_refl). destruct (Z.ltb_spec v 0); [lia | reflexivity].
  - (* PyLong_AsLong(stepval) itself overflows: stepval >= 2^(long bits - 1) >= 2^rem *)
    apply in_rangeb_false in Ein. change (-1 <? 0) with true. cbv iota.
    rewrite in_range_signed in Ein. pose proof (pow2_mono rem (c_long c - 1) ltac:(lia)).
    apply good_overflow; [rewrite HRs; lia | reflexivity | exact Hs].
Qed.

Theorem large_ok_all c : cfg_ok c -> large_ok c.
Proof.
  intros Hc w s v Hw Hs. unfold large. destruct (c_chunks c).
  - apply large_chunks_good; assumption.
  - apply large_bytearray_good; assumption.
Qed.

Section WithInt.
  Variable c : cfg.
  Variable w : Z.
  Variable x : pylong.
  Hypothesis Hc : cfg_ok c.
  Hypothesis Hw : 1 <= w.
  Hypothesis Hwf : wf (c_sh c) x.

  Let v := value (c_sh c) x.
  Let m := mag (c_sh c) (pl_digits x).

  (* an int of k digits is below 2^(sh*k): joining the digits in a type with that many value bits
     is exact and stays inside the type *)
  Lemma k_digits k : ndigits x = Z.of_nat k ->
    forall jw (js : bool), 1 <= jw -> c_sh c * Z.of_nat k <= (if js then jw - 1 else jw) ->
      join_c jw js (c_sh c) k x = Some m /\ in_range jw js m.
  Proof.
    intros Hn jw js Hjw Hfit. destruct Hc as (Hsh & _).
    destruct (wf_facts (c_sh c) x ltac:(lia) Hwf) as (Hm & _). rewrite Hn in Hm. split.
    - apply join_c_exact; [lia | exact Hjw | apply Hwf | unfold ndigits in Hn; lia | exact Hfit].
    - apply in_range_nonneg_iff; [exact Hjw | apply Hm |].
      eapply Z.lt_le_trans; [apply Hm | apply pow2_mono; destruct js; lia].
  Qed.

  Lemma ulong_branch_good k r : pl_neg x = false ->
    fst (ulong_branch c w x k) = true -> snd (ulong_branch c w x k) = Some r ->
    good w false v r.
  Proof.
    intros Hpos. unfold ulong_branch. cbn [fst snd]. cbv zeta. intros Hg.
    destruct Hc as (Hsh & Hcw & Hi & Hil & Hll & Hl32 & Hz).
    destruct (wf_facts (c_sh c) x ltac:(lia) Hwf) as (_ & _ & Hv). specialize (Hv Hpos).
    pose proof (k_digits k ltac:(lia)) as J. fold v in Hv. rewrite Hv. fold m.
    destruct (Z.ltb_spec (Z.of_nat k * c_sh c) (c_long c)) as [Hb|Hb].
    - intros <-%some_inj. destruct (J (c_long c) false) as [-> R]; [lia | lia |].
      apply verify_good_same; [lia | lia | exact R].
    - destruct (Z.leb_spec (Z.of_nat k * c_sh c) w) as [Hb2|Hb2]; [|discriminate].
      intros <-%some_inj. destruct (J w false) as [-> R]; [lia | lia |]. now apply good_ok.
  Qed.

  Lemma pyulong_good : (c_internals c = true -> pl_neg x = false) -> good w false v (pyulong c w x).
  Proof.
    intros Hint. unfold pyulong. cbv zeta.
    assert (Hapi : 0 <= v ->
      good w false v
        (if w <=? c_long c then verify w false (c_long c) false true (api_as_unsigned (c_long c) v)
         else if w <=? c_llong c then verify w false (c_llong c) false true (api_as_unsigned (c_llong c) v)
         else large c w false v)).
    { intros Hv0. destruct (Z.leb_spec w (c_long c)); [apply verify_api_unsigned; lia|].
      destruct (Z.leb_spec w (c_llong c)); [apply verify_api_unsigned; lia|].
      apply (large_ok_all c Hc); [lia | intros _; exact Hv0]. }
    destruct (c_internals c) eqn:Ei.
    - specialize (Hint eq_refl).
      assert (Hv0 : 0 <= v).
      { destruct Hc as (Hsh & _).
        destruct (wf_facts (c_sh c) x ltac:(lia) Hwf) as (Hm & _ & Hv). subst v. rewrite (Hv Hint). lia. }
      apply (chain_good (good w false v)); [|apply Hapi; exact Hv0].
      repeat constructor; intros Hg r' Hr'; eapply ulong_branch_good; eassumption.
    - fold v. destruct (Z.ltb_spec v 0) as [Hn|Hn]; [apply good_neg; lia | apply Hapi; exact Hn].
  Qed.

  Lemma slong_pos_branch_good k r : pl_neg x = false ->
    fst (slong_pos_branch c w x k) = true -> snd (slong_pos_branch c w x k) = Some r ->
    good w true v r.
  Proof.
    intros Hpos. unfold slong_pos_branch. cbn [fst snd]. cbv zeta. intros Hg.
    destruct Hc as (Hsh & Hcw & Hi & Hil & Hll & Hl32 & Hz).
    destruct (wf_facts (c_sh c) x ltac:(lia) Hwf) as (_ & _ & Hv). specialize (Hv Hpos).
    pose proof (k_digits k ltac:(lia)) as J. fold v in Hv. rewrite Hv. fold m.
    destruct (Z.ltb_spec (Z.of_nat k * c_sh c) (c_long c)) as [Hb|Hb].
    - intros <-%some_inj. destruct (J (c_long c) false) as [-> R]; [lia | lia |].
      destruct (J (c_long c) true) as [_ R'%in_range_signed]; [lia | lia |].
      apply verify_good; [lia | lia | exact R | intros _ _; apply R' | discriminate].
    - destruct (Z.ltb_spec (Z.of_nat k * c_sh c) (w - 1)) as [Hb2|Hb2]; [|discriminate].
      intros <-%some_inj. destruct (J w true) as [-> R]; [lia | lia |]. now apply good_ok.
  Qed.

  Lemma slong_neg_branch_good k r : pl_neg x = true ->
    fst (slong_neg_branch c w x k) = true -> snd (slong_neg_branch c w x k) = Some r ->
    good w true v r.
  Proof.
    intros Hneg. unfold slong_neg_branch. cbn [fst snd]. cbv zeta. intros Hg.
    destruct Hc as (Hsh & Hcw & Hi & Hil & Hll & Hl32 & Hz).
    destruct (wf_facts (c_sh c) x ltac:(lia) Hwf) as (_ & Hv & _). destruct (Hv Hneg) as (Ev & Hm0).
    pose proof (k_digits k ltac:(lia)) as J. fold v in Ev. rewrite Ev. fold m in Hm0 |- *.
    (* - m is a value of every signed type that m is a value of *)
    assert (N : forall jw, in_range jw true m -> in_range jw true (- m))
      by (intros jw; rewrite !in_range_signed; lia).
    destruct (Z.ltb_spec (Z.of_nat k * c_sh c) (c_long c)) as [Hb|Hb].
    - intros <-%some_inj. destruct (J (c_long c) false) as [-> _]; [lia | lia |].
      destruct (J (c_long c) true) as [_ R]; [lia | lia |]. unfold of_join.
      rewrite (wrap_id (c_long c) true m) by (exact R || lia).
      pose proof (min_max_sign (c_long c) true ltac:(lia)).
      destruct (Z.eqb_spec m (min_int (c_long c) true)); [lia|].
      apply verify_good_same; [lia | lia | now apply N].
    - destruct (Z.ltb_spec (Z.of_nat k * c_sh c) (w - 1)) as [Hb2|Hb2]; [|discriminate].
      intros <-%some_inj. destruct (J w true) as [-> R%N]; [lia | lia |]. unfold of_join.
      rewrite (proj2 (in_rangeb_spec _ _ _) R). now apply good_ok.
  Qed.

  Lemma pyslong_good : good w true v (pyslong c w x).
  Proof.
    unfold pyslong. cbv zeta. fold v.
    assert (Hapi : good w true v
      (if c_asint c && (w <=? c_int c) && (c_int c <? c_long c)
       then verify w true (c_int c) true true (api_as_signed (c_int c) v)
       else if w <=? c_long c then verify w true (c_long c) true true (api_as_signed (c_long c) v)
       else if w <=? c_llong c then verify w true (c_llong c) true true (api_as_signed (c_llong c) v)
       else large c w true v)).
    { destruct (c_asint c && (w <=? c_int c) && (c_int c <? c_long c)) eqn:Ea.
      - apply verify_api_signed; lia.
      - destruct (Z.leb_spec w (c_long c)); [apply verify_api_signed; lia|].
        destruct (Z.leb_spec w (c_llong c)); [apply verify_api_signed; lia|].
        apply (large_ok_all c Hc); [lia | congruence]. }
    destruct (c_internals c); [|exact Hapi].
    destruct (pl_neg x) eqn:En.
    - apply (chain_good (good w true v)); [|exact Hapi].
      repeat constructor; intros Hg r' Hr'; eapply slong_neg_branch_good; eassumption.
    - apply (chain_good (good w true v)); [|exact Hapi].
      repeat constructor; intros Hg r' Hr'; eapply slong_pos_branch_good; eassumption.
  Qed.

  Lemma compact_facts : is_compact x = true ->
    compact_value x = v /\ in_range (c_compact c) true v /\
    (pl_neg x = false -> compact_uvalue x = v /\ in_range (c_compact c) false v).
  Proof.
    unfold is_compact, ndigits, compact_value, compact_uvalue, digit. intros Hcmp.
    destruct Hc as (Hsh & Hcw & _). destruct Hwf as (Hok & _ & Hz).
    rewrite in_range_signed, in_range_unsigned. unfold v, value.
    pose proof (pow2_pos (c_sh c) ltac:(lia)). pose proof (pow2_mono (c_sh c) (c_compact c - 1) ltac:(lia)).
    pose proof (pow2_split (c_compact c) ltac:(lia)).
    destruct (pl_digits x) as [|d [|d' r']] eqn:E; cbn [length nth mag] in *.
    - rewrite (Hz eq_refl). lia.
    - inversion Hok as [|? ? Hd _]; subst. unfold digit_ok in Hd.
      destruct (pl_neg x); repeat split; try lia; intros; try discriminate; lia.
    - lia.
  Qed.

  Theorem from_py_good s : good w s v (from_py c w s x).
  Proof.
    unfold from_py. destruct Hc as (Hsh & Hcw & Hi & Hil & Hll & Hl32 & Hz).
    destruct s; cbn [negb].
    - destruct (c_internals c && is_compact x) eqn:E; [|apply pyslong_good].
      apply andb_true_iff in E. destruct E as [_ Ecmp].
      destruct (compact_facts Ecmp) as (-> & Hr & _). apply verify_good_same; [lia | lia | exact Hr].
    - destruct (c_internals c) eqn:Ei; [|apply pyulong_good; congruence].
      destruct (pl_neg x) eqn:En.
      + destruct (wf_facts (c_sh c) x ltac:(lia) Hwf) as (_ & Hvn & _).
        destruct (Hvn En) as (Hv1 & Hv2). apply good_neg; [lia|]. fold v in Hv1. lia.
      + destruct (is_compact x) eqn:Ecmp; [|apply pyulong_good; intros _; exact En].
        destruct (compact_facts Ecmp) as (_ & _ & Hu). destruct (Hu En) as [-> Hr].
        apply verify_good_same; [lia | lia | exact Hr].
  Qed.
End WithInt.

Lemma to_py_exact c w s v : cfg_ok c -> 1 <= w -> in_range w s v -> to_py c w s v = v.
Proof.
  intros (Hsh & Hcw & Hi & Hil & Hll & Hl32 & Hz) Hw Hin. unfold to_py.
  assert (M : forall w', w <= w' -> wrap w' s v = v)
    by (intros w' L; apply wrap_id; [lia | apply (in_range_mono w); [lia | exact Hin]]).
  destruct s; cbn [negb].
  - destruct (Z.leb_spec w (c_long c)); [now apply M|].
    destruct (Z.leb_spec w (c_llong c)); apply M; lia.
  - destruct (Z.ltb_spec w (c_long c)).
    + apply wrap_id; [lia | apply (in_range_widen w false); [lia | exact Hin]].
    + destruct (Z.leb_spec w (c_long c)); [now apply M|].
      destruct (Z.leb_spec w (c_llong c)); apply M; lia.
Qed.

Theorem from_py_exact_all c w s x :
  cfg_ok c -> 1 <= w -> wf (c_sh c) x -> in_range w s (value (c_sh c) x) ->
  observe w s (from_py c w s x) = Ok (value (c_sh c) x).
Proof.
  intros Hc Hw Hwf Hin. pose proof (from_py_good c w x Hc Hw Hwf s) as G.
  unfold good in G. rewrite (proj2 (in_rangeb_spec _ _ _) Hin) in G. exact G.
Qed.

Theorem from_py_overflow_all c w s x :
  cfg_ok c -> 1 <= w -> wf (c_sh c) x -> ~ in_range w s (value (c_sh c) x) ->
  exists e, observe w s (from_py c w s x) = Err e /\ overflow_kind e = true /\
            (s = false -> value (c_sh c) x < 0 -> e = NegOverflow).
Proof.
  intros Hc Hw Hwf Hin. pose proof (from_py_good c w x Hc Hw Hwf s) as G.
  unfold good in G. rewrite (proj2 (in_rangeb_false _ _ _) Hin) in G. exact G.
Qed.

Theorem to_from_all c w s v :
  cfg_ok c -> 1 <= w -> in_range w s v ->
  observe w s (from_py c w s (of_Z (c_sh c) (to_py c w s v))) = Ok v.
Proof.
  intros Hc Hw Hin. rewrite (to_py_exact c w s v Hc Hw Hin).
  pose proof Hc as (Hsh & _).
  rewrite <- (value_of_Z (c_sh c) v Hsh) at 2.
  apply from_py_exact_all; try assumption.
  - apply wf_of_Z; assumption.
  - rewrite value_of_Z by assumption. exact Hin.
Qed.

Theorem roundtrip_all c w s x :
  cfg_ok c -> 1 <= w -> wf (c_sh c) x -> in_range w s (value (c_sh c) x) ->
  roundtrip c w s x = Ok (value (c_sh c) x).
Proof.
  intros Hc Hw Hwf Hin. unfold roundtrip. rewrite from_py_exact_all by assumption.
  rewrite to_py_exact by assumption. reflexivity.
Qed.

(* two build variants never disagree on an int: same value, or both OverflowError *)
Definition same_verdict (o1 o2 : outcome) : Prop :=
  match o1, o2 with
  | Ok a, Ok b => a = b
  | Err e1, Err e2 => overflow_kind e1 = true /\ overflow_kind e2 = true
  | _, _ => False
  end.

Theorem variants_agree_all c1 c2 w s x :
  cfg_ok c1 -> cfg_ok c2 -> c_sh c1 = c_sh c2 -> 1 <= w -> wf (c_sh c1) x ->
  same_verdict (observe w s (from_py c1 w s x)) (observe w s (from_py c2 w s x)).
Proof.
  intros H1 H2 Hsh Hw Hwf.
  pose proof (from_py_good c1 w x H1 Hw Hwf s) as G1.
  assert (Hwf2 : wf (c_sh c2) x) by (rewrite <- Hsh; exact Hwf).
  pose proof (from_py_good c2 w x H2 Hw Hwf2 s) as G2.
  unfold good in *. rewrite <- Hsh in G2.
  destruct (in_rangeb w s (value (c_sh c1) x)).
  - rewrite G1, G2. reflexivity.
  - destruct G1 as (e1 & -> & K1 & _). destruct G2 as (e2 & -> & K2 & _). split; assumption.
Qed.

(* the same with the property of the large path as a hypothesis (it holds: large_ok_all) *)
Theorem from_py_exact c w s x :
  cfg_ok c -> large_ok c -> 1 <= w -> wf (c_sh c) x -> in_range w s (value (c_sh c) x) ->
  observe w s (from_py c w s x) = Ok (value (c_sh c) x).
Proof. intros Hc _. now apply from_py_exact_all. Qed.

Theorem from_py_overflow c w s x :
  cfg_ok c -> large_ok c -> 1 <= w -> wf (c_sh c) x -> ~ in_range w s (value (c_sh c) x) ->
  exists e, observe w s (from_py c w s x) = Err e /\ overflow_kind e = true /\
            (s = false -> value (c_sh c) x < 0 -> e = NegOverflow).
Proof. intros Hc _. now apply from_py_overflow_all. Qed.

Theorem to_from c w s v :
  cfg_ok c -> large_ok c -> 1 <= w -> in_range w s v ->
  observe w s (from_py c w s (of_Z (c_sh c) (to_py c w s v))) = Ok v.
Proof. intros Hc _. now apply to_from_all. Qed.

Theorem variants_agree c1 c2 w s x :
  cfg_ok c1 -> cfg_ok c2 -> large_ok c1 -> large_ok c2 -> c_sh c1 = c_sh c2 ->
  1 <= w -> wf (c_sh c1) x ->
  same_verdict (observe w s (from_py c1 w s x)) (observe w s (from_py c2 w s x)).
Proof. intros H1 H2 _ _. now apply variants_agree_all. Qed.

(* Py_ssize_t: __Pyx_PyLong_AsSsize_t *)
Definition ssize_spec (zw v : Z) : outcome := if in_rangeb zw true v then Ok v else Err CPyOverflow.

Lemma ssize_api zw v : 1 <= zw ->
  observe zw true (let (r, e) := api_as_signed zw v in Ret r e) = ssize_spec zw v.
Proof.
  intros Hz. unfold api_as_signed, ssize_spec. destruct (in_rangeb zw true v); [reflexivity|].
  cbn [observe]. rewrite wrap_m1_s by lia. reflexivity.
Qed.

Lemma ssize_branch_good c x k r : cfg_ok c -> wf (c_sh c) x ->
  fst (ssize_branch c x k) = true -> snd (ssize_branch c x k) = Some r ->
  observe (c_ssize c) true r = ssize_spec (c_ssize c) (value (c_sh c) x).
Proof.
  intros Hc Hwf. pose proof Hc as (Hsh & Hcw & Hi & Hil & Hll & Hl32 & Hz).
  unfold ssize_branch. cbn [fst snd]. cbv zeta. intros Hg <-%some_inj.
  destruct (wf_facts (c_sh c) x ltac:(lia) Hwf) as (_ & Hvn & Hvp).
  pose proof (k_digits c x Hc Hwf k ltac:(lia)) as J.
  destruct (J (c_ssize c) false) as [-> _]; [lia | lia |].
  destruct (J (c_ssize c) true) as [_ R]; [lia | lia |].
  unfold of_join. set (m := mag (c_sh c) (pl_digits x)) in *.
  rewrite (wrap_id (c_ssize c) true m) by (exact R || lia).
  unfold ssize_spec. destruct (pl_neg x) eqn:En.
  - destruct (Hvn eq_refl) as (Hv & Hm0). rewrite Hv.
    pose proof (min_max_sign (c_ssize c) true ltac:(lia)).
    destruct (Z.eqb_spec m (min_int (c_ssize c) true)); [lia|].
    rewrite (proj2 (in_rangeb_spec _ _ _)); [reflexivity|]. apply in_range_signed in R. apply in_range_signed. lia.
  - rewrite (Hvp eq_refl). now rewrite (proj2 (in_rangeb_spec _ _ _) R).
Qed.

Theorem ssize_exact c x : cfg_ok c -> wf (c_sh c) x ->
  observe (c_ssize c) true (pylong_as_ssize_t c x) = ssize_spec (c_ssize c) (value (c_sh c) x).
Proof.
  intros Hc Hwf. unfold pylong_as_ssize_t. cbv zeta.
  pose proof Hc as (Hsh & Hcw & Hi & Hil & Hll & Hl32 & Hz).
  destruct (c_internals c); [|apply ssize_api; lia].
  destruct (Z.eqb_spec (ndigits x) 0) as [H0|H0].
  - destruct (no_digits _ x Hwf H0) as [E N]. unfold value. rewrite E, N. cbn [mag observe]. unfold ssize_spec.
    now rewrite (proj2 (in_rangeb_spec _ _ 0) (min_max_sign (c_ssize c) true ltac:(lia))).
  - apply (chain_good (fun r => observe (c_ssize c) true r = ssize_spec (c_ssize c) (value (c_sh c) x)));
      [|apply ssize_api; lia].
    repeat constructor; intros Hg r' Hr'; eapply ssize_branch_good; eassumption.
Qed.

(* the rule of the property text / of CPython's own PyLong_As* (>= 3.10): an object is an
   integer exactly when it implements __index__ *)
Definition index_rule_outcome (c : cfg) (w : Z) (s : bool) (k : objkind) : outcome :=
  match pynumber_index k with
  | inl x => observe w s (from_py c w s x)
  | inr e => Err e
  end.

Definition float_1_5 : objkind := ObjKind (Some (SR_int (of_Z 30 1))) None.

(* F24: the converter asks nb_int, so 1.5 becomes 1 where TypeError is required *)
Theorem nonint_dispatch_refuted :
  exists k, observe 32 true (from_py_obj lp64_internals 32 true (PObj k)) = Ok 1 /\
            index_rule_outcome lp64_internals 32 true k = Err TypeErr.
Proof. exists float_1_5. split; vm_compute; reflexivity. Qed.

Theorem nonint_dispatch_partial c w s k :
  (nb_int k = None -> c_slots c = true ->
     observe w s (from_py_obj c w s (PObj k)) = Err TypeErr) /\
  (nb_int k = nb_index k ->
     observe w s (from_py_obj c w s (PObj k)) = index_rule_outcome c w s k).
Proof.
  unfold from_py_obj, index_rule_outcome, pynumber_long, pynumber_index. split.
  - intros -> ->. apply observe_err.
  - intros ->. destruct (nb_index k) as [r|].
    + destruct (run_slot r); [reflexivity | apply observe_err].
    + destruct (c_slots c); apply observe_err.
Qed.

Theorem int_object_is_from_py c w s x : from_py_obj c w s (PInt x) = from_py c w s x.
Proof. reflexivity. Qed.

Theorem ssize_obj_index_rule c k : cfg_ok c ->
  observe (c_ssize c) true (pyindex_as_ssize_t c (PObj k)) =
  match pynumber_index k with
  | inl x => observe (c_ssize c) true (pylong_as_ssize_t c x)
  | inr e => Err e
  end.
Proof.
  intros (Hsh & Hcw & Hi & Hil & Hll & Hl32 & Hz). unfold pyindex_as_ssize_t.
  destruct (pynumber_index k); [reflexivity|].
  rewrite <- (wrap_m1_s (c_ssize c)) by lia. apply observe_err.
Qed.

Theorem bint_truth c x : bint_from_py c x = if value (c_sh c) x =? 0 then 0 else 1.
Proof. unfold bint_from_py. destruct (value (c_sh c) x =? 0); reflexivity. Qed.

Lemma cfg_ok_lp64 : cfg_ok lp64_internals /\ cfg_ok lp64_nointernals /\ cfg_ok lp64_limited.
Proof. unfold cfg_ok; cbn; lia. Qed.
