(* Proofs for Model/M_CmpFold.v: the folded comparison chain evaluates like the unfolded one. *)
From Coq Require Import ZArith List Bool Lia.
From CyVerif Require Import Lib.CInt Model.M_Cmp Proof.P_Cmp Model.M_CmpFold.
Import ListNotations.
Open Scope Z_scope.

Section FoldProofs.
  Variable ct : Z -> val -> val -> option bool.
  Variable cmp : Z -> val -> val -> val + exn.
  Variable truth : val -> bool + exn.
  Variable vbool : bool -> val.
  Variable loud : val -> bool.

  (* a constant operand is a literal: no event, a value, and that value does not log *)
  Definition const_ok (o : cfop) : Prop :=
    f_const o = true ->
    o_log (f_op o) = false /\ exists v, o_res (f_op o) = inl v /\ loud v = false.
  Definition chain_ok (c : chain) : Prop :=
    const_ok (fst c) /\ Forall (fun l => const_ok (snd l)) (snd c).

  Hypothesis Htruth : forall b, truth (vbool b) = inl b.
  Hypothesis Hquiet : forall b, loud (vbool b) = false.
  (* comparison results are the objects True / False (built-in types, instrumented objects
     returning bools); arbitrary result objects: see fold_objresult_refuted below *)
  Hypothesis Hres : forall op a b r, cmp op a b = inl r -> exists bb, r = vbool bb.
  (* the compile-time evaluation agrees with the run-time comparison of the same constants *)
  Hypothesis Hct : forall op a b r, ct op a b = Some r -> cmp op a b = inl (vbool r).

  Notation res := (list event * outcome val)%type.
  Notation flt := (filter (keep loud)).

  Definition sim (a b : res) : Prop := flt (fst a) = flt (fst b) /\ snd a = snd b.

  Lemma sim_stop : forall t1 t2 o, flt t1 = flt t2 -> sim (t1, o) (t2, o).
  Proof. intros. split; auto. Qed.

  Lemma flt_app : forall t1 t2 x, flt t1 = flt t2 -> flt (t1 ++ x) = flt (t2 ++ x).
  Proof. intros. rewrite !filter_app. congruence. Qed.

  Lemma flt_truth : forall t b, flt (t ++ [EvTruth (vbool b)]) = flt t.
  Proof. intros. apply filter_snoc_false. cbn [keep]. apply Hquiet. Qed.

  Lemma status_some : forall op l r b,
    status ct op l r = Some b -> const_ok l -> const_ok r ->
    exists a c, o_res (f_op l) = inl a /\ o_res (f_op r) = inl c /\ ct op a c = Some b /\
                o_log (f_op r) = false /\ loud a = false /\ loud c = false.
  Proof.
    unfold status. intros op l r b H Hl Hr.
    destruct (f_const l) eqn:El; [|discriminate].
    destruct (f_const r) eqn:Er; [|discriminate]. cbn [andb] in H.
    destruct (Hl El) as [_ [a [Ha La]]]. destruct (Hr Er) as [Lr [c [Hc Lc]]].
    rewrite Ha, Hc in H. exists a, c. auto 10.
  Qed.

  Lemma fold_from_cons : forall tf l op r rest,
    fold_from ct tf l ((op, r) :: rest) =
    match status ct op l r with
    | None => let (cur, more) := fold_from ct tf r rest in ((op, f_op r) :: cur, more)
    | Some false => ([], [FBool false])
    | Some true =>
      match rest with
      | [] => ([], if tf then [FBool true] else [])
      | _ :: _ => let (cur, more) := fold_from ct tf r rest in ([], mk_casc (f_op r) cur ++ more)
      end
    end.
  Proof. reflexivity. Qed.

  (* the folded side, once the left operand of the next link has the value vl *)
  Definition run_cur (vl : val) (cm : list (Z * operand) * list fnode) (tr : list event) : res :=
    match fst cm with
    | [] =>
      match snd cm with
      | [] => (tr, OVal (vbool true))
      | _ :: _ => eval_nodes cmp truth vbool (snd cm) tr
      end
    | _ :: _ =>
      match snd cm with
      | [] => ref_links cmp truth vl (fst cm) tr
      | _ :: _ => and_then truth (ref_links cmp truth vl (fst cm) tr) (eval_nodes cmp truth vbool (snd cm))
      end
    end.

  Lemma plain_links_cons : forall op r rest,
    plain_links ((op, r) :: rest) = (op, f_op r) :: plain_links rest.
  Proof. reflexivity. Qed.

  (* a segment with no node after it is the reference *)
  Lemma run_cur_ref : forall vl links tr,
    links <> [] -> run_cur vl (links, []) tr = ref_links cmp truth vl links tr.
  Proof. intros vl [|l links] tr H; [congruence|reflexivity]. Qed.

  (* one link of the current segment.  A bool result is truth-tested by the cascade, by the
     `and` that joins the nodes, or by both, always silently: up to such tests the run goes on
     behind the link or stops with False *)
  Lemma run_cur_cons : forall vl op e cur more tr,
    match o_res e with
    | inr x => run_cur vl ((op, e) :: cur, more) tr = (tr ++ ev_of e, ORaise x)
    | inl vr =>
      match cmp op vl vr with
      | inr x => run_cur vl ((op, e) :: cur, more) tr = ((tr ++ ev_of e) ++ [EvCmp op vl vr], ORaise x)
      | inl r => forall bb, r = vbool bb ->
        exists t, flt t = flt ((tr ++ ev_of e) ++ [EvCmp op vl vr]) /\
          run_cur vl ((op, e) :: cur, more) tr =
          if bb then run_cur vr (cur, more) t else (t, OVal (vbool false))
      end
    end.
  Proof.
    intros. unfold run_cur. cbn [fst snd]. rewrite ref_links_cons.
    destruct (o_res e) as [vr|x]; [|destruct more; reflexivity].
    destruct (cmp op vl vr) as [r|x]; [|destruct more; reflexivity].
    intros bb ->. unfold ref_after. set (t := (tr ++ ev_of e) ++ [EvCmp op vl vr]).
    destruct cur as [|c0 cur], more as [|m0 more]; cbn [and_then]; rewrite ?Htruth.
    - exists t. destruct bb; split; reflexivity.
    - exists (t ++ [EvTruth (vbool bb)]). split; [apply flt_truth|]. destruct bb; reflexivity.
    - exists (t ++ [EvTruth (vbool bb)]). split; [apply flt_truth|]. destruct bb; reflexivity.
    - destruct bb; [exists (t ++ [EvTruth (vbool true)]); split; [apply flt_truth|reflexivity]|].
      cbn [and_then]. rewrite Htruth.
      exists ((t ++ [EvTruth (vbool false)]) ++ [EvTruth (vbool false)]).
      split; [rewrite !flt_truth|]; reflexivity.
  Qed.

  (* the nodes made of a head, its segment and what follows: a head without a link is dropped *)
  Lemma run_cur_nodes : forall vl h cur more tr,
    run_cur vl ([], mk_casc h cur ++ more) tr =
    match cur with
    | [] => run_cur vl ([], more) tr
    | _ :: _ =>
      match o_res h with
      | inl v0 => run_cur v0 (cur, more) (tr ++ ev_of h)
      | inr x => (tr ++ ev_of h, ORaise x)
      end
    end.
  Proof.
    intros vl h [|c0 cur] [|m0 more] tr; unfold run_cur; cbn [mk_casc app fst snd eval_nodes eval_node and_then];
      try reflexivity; destruct (o_res h); reflexivity.
  Qed.

  (* the simulation, with the reference written as a segment followed by nothing *)
  Lemma fold_sim : forall tf rest l vl tr tr',
    const_ok l -> Forall (fun x => const_ok (snd x)) rest ->
    o_res (f_op l) = inl vl -> flt tr = flt tr' ->
    sim (run_cur vl (plain_links rest, []) tr) (run_cur vl (fold_from ct tf l rest) tr').
  Proof.
    intros tf rest. induction rest as [|[op r] rest IH]; intros l vl tr tr' Hl Hall Hvl Htr.
    { apply sim_stop. exact Htr. }
    inversion Hall as [|x xs Hr Hrest]; subst x xs. cbn [snd] in Hr.
    rewrite plain_links_cons, fold_from_cons.
    pose proof (run_cur_cons vl op (f_op r) (plain_links rest) [] tr) as L.
    destruct (status ct op l r) as [b|] eqn:Hs.
    - (* a constant link: nothing of it is seen on the reference side *)
      destruct (status_some _ _ _ _ Hs Hl Hr) as [a [c [Ha [Hc [Hk [Lr [La Lc]]]]]]].
      rewrite Hvl in Ha. injection Ha as Ha; subst a.
      rewrite Hc, (Hct _ _ _ _ Hk) in L. destruct (L b eq_refl) as [tL [FL ->]].
      assert (F : flt tL = flt tr').
      { rewrite FL, filter_snoc_false by (cbn [keep]; rewrite La, Lc; reflexivity).
        unfold ev_of. rewrite Lr, app_nil_r. exact Htr. }
      destruct b; [|apply sim_stop; exact F].
      destruct rest as [|l2 rest2]; [destruct tf; apply sim_stop; exact F|].
      destruct (fold_from ct tf r (l2 :: rest2)) as [cur more] eqn:Hf.
      assert (E : run_cur vl ([], mk_casc (f_op r) cur ++ more) tr' = run_cur c (cur, more) tr').
      { rewrite run_cur_nodes, Hc. unfold ev_of. rewrite Lr, app_nil_r. destruct cur; reflexivity. }
      rewrite E, <- Hf. apply IH; assumption.
    - destruct (fold_from ct tf r rest) as [cur more] eqn:Hf.
      pose proof (run_cur_cons vl op (f_op r) cur more tr') as R.
      destruct (o_res (f_op r)) as [vr|x] eqn:Hvr; [|rewrite L, R; apply sim_stop, flt_app, Htr].
      destruct (cmp op vl vr) as [rv|x] eqn:Hc; [|rewrite L, R; apply sim_stop, flt_app, flt_app, Htr].
      destruct (Hres _ _ _ _ Hc) as [bb ->].
      destruct (L bb eq_refl) as [tL [FL ->]]. destruct (R bb eq_refl) as [tR [FR ->]].
      assert (F : flt tL = flt tR) by (rewrite FL, FR; apply flt_app, flt_app, Htr).
      destruct bb; [|apply sim_stop; exact F]. rewrite <- Hf. apply IH; assumption.
  Qed.

  Lemma main : forall tf rest l vl tr tr',
    rest <> [] -> const_ok l -> Forall (fun x => const_ok (snd x)) rest ->
    o_res (f_op l) = inl vl -> flt tr = flt tr' ->
    sim (ref_links cmp truth vl (plain_links rest) tr) (run_cur vl (fold_from ct tf l rest) tr').
  Proof.
    intros tf rest l vl tr tr' Hne. rewrite <- run_cur_ref by (destruct rest; [congruence|discriminate]).
    apply fold_sim.
  Qed.

  (* the head is dropped only when the first link is constant: then it is a literal *)
  Lemma head_dropped : forall tf l op r rest,
    fst (fold_from ct tf l ((op, r) :: rest)) = [] -> f_const l = true.
  Proof.
    intros tf l op r rest. rewrite fold_from_cons. unfold status.
    destruct (f_const l); [reflexivity|]. cbn [andb]. destruct (fold_from ct tf r rest). discriminate.
  Qed.

  (* the folded chain = the unfolded chain: value or exception, operand evaluations,
     comparison calls and truth tests of logging objects *)
  Theorem fold_correct : forall tf (c : chain),
    snd c <> [] -> chain_ok c ->
    obs loud (run_fold cmp truth vbool ct tf false c) = obs loud (ref_cascade cmp truth (plain c)).
  Proof.
    intros tf [h links] Hne [Hh Hall]. cbn [fst snd] in *.
    assert (S : sim (ref_cascade cmp truth (plain (h, links)))
                    (run_fold cmp truth vbool ct tf false (h, links))).
    2:{ destruct S as [S1 S2]. unfold obs. rewrite S1, S2. reflexivity. }
    unfold run_fold, fold, ref_cascade, plain. cbn [fst snd andb].
    pose proof (fun v0 => main tf links h v0 (ev_of (f_op h)) ([] ++ ev_of (f_op h)) Hne Hh Hall) as M.
    destruct links as [|[op r] rest]; [congruence|].
    pose proof (head_dropped tf h op r rest) as Hd.
    destruct (fold_from ct tf h ((op, r) :: rest)) as [cur more].
    replace (eval_nodes cmp truth vbool _ []) with (run_cur 0 ([], mk_casc (f_op h) cur ++ more) [])
      by (destruct (mk_casc (f_op h) cur ++ more); reflexivity).
    rewrite run_cur_nodes. destruct cur as [|c0 cur].
    - destruct (Hh (Hd eq_refl)) as [Lh [v0 [Hv0 _]]]. specialize (M v0 Hv0 eq_refl).
      rewrite Hv0. unfold ev_of in M |- *. rewrite Lh in M |- *. exact M.
    - destruct (o_res (f_op h)) as [v0|x]; [exact (M v0 eq_refl eq_refl)|apply sim_stop; reflexivity].
  Qed.
End FoldProofs.

(* a partial cascade of the folded chain is evaluated by the temp machine of M_Cmp *)
Theorem fold_segment_is_cascade : forall cmp truth vbool (c : cascade),
  snd c <> [] -> eval_node cmp truth vbool (FCasc c) [] = run_cascade cmp truth true c.
Proof.
  intros. rewrite cascade_trace_eq by assumption. unfold ref_cascade. cbn [eval_node app].
  reflexivity.
Qed.

(* concrete oracles for the witnesses: values are integers, True = 1, False = 0 *)
Definition w_vbool (b : bool) : val := if b then 1 else 0.
Definition w_rel (op a b : Z) : bool := if op =? 0 then a <? b else if op =? 4 then b <? a else a =? b.
Definition w_cmp (op a b : Z) : val + exn := inl (w_vbool (w_rel op a b)).
Definition w_truth (v : val) : bool + exn := inl (negb (v =? 0)).
Definition w_ct (op a b : Z) : option bool := Some (w_rel op a b).
Definition w_quiet (v : val) : bool := false.

(* f() < 1 > 2 : f is called (it returns 0), the result is False *)
Definition w_chain : chain :=
  (mkF (mkOp 0 true (inl 0)) false,
   [(0, mkF (mkOp 1 false (inl 1)) true); (4, mkF (mkOp 2 false (inl 2)) true)]).

Lemma w_hyps :
  (forall b, w_truth (w_vbool b) = inl b) /\ (forall b, w_quiet (w_vbool b) = false) /\
  (forall op a b r, w_cmp op a b = inl r -> exists bb, r = w_vbool bb) /\
  (forall op a b r, w_ct op a b = Some r -> w_cmp op a b = inl (w_vbool r)) /\
  chain_ok w_quiet w_chain.
Proof.
  split; [intros []; reflexivity|]. split; [reflexivity|].
  split; [intros op a b r H; injection H as H; eexists; symmetry; exact H|].
  split; [intros op a b r H; injection H as H; subst r; reflexivity|].
  split; [discriminate|].
  repeat constructor; cbn; eauto.
Qed.

(* the seeded variant (partial cascades before a constant-False link are thrown away) loses
   the evaluation of the operands to the left of that link *)
Theorem fold_drop_left_refuted :
  exists ct cmp truth vbool loud (c : chain),
    (forall b, truth (vbool b) = inl b) /\ (forall b, loud (vbool b) = false) /\
    (forall op a b r, cmp op a b = inl r -> exists bb, r = vbool bb) /\
    (forall op a b r, ct op a b = Some r -> cmp op a b = inl (vbool r)) /\
    chain_ok loud c /\ snd c <> [] /\
    obs loud (run_fold cmp truth vbool ct false true c) <> obs loud (ref_cascade cmp truth (plain c)).
Proof.
  exists w_ct, w_cmp, w_truth, w_vbool, w_quiet, w_chain.
  destruct w_hyps as [H1 [H2 [H3 [H4 H5]]]].
  repeat (split; [assumption|]). split; [discriminate|].
  vm_compute. discriminate.
Qed.

(* comparison results that are arbitrary objects (value 7: truthy, its truth test is logged):
   w < 2 > 1  - the code as it is returns the object untested, Python returns True after
   testing it (finding constfold_true_tail_result_untested) *)
Definition o_cmp (op a b : Z) : val + exn := if 50 <=? a then inl 7 else w_cmp op a b.
Definition o_loud (v : val) : bool := (v =? 7) || (50 <=? v).
Definition o_ct (op a b : Z) : option bool := if (50 <=? a) then None else w_ct op a b.
Definition o_chain : chain :=
  (mkF (mkOp 0 true (inl 50)) false,
   [(0, mkF (mkOp 1 false (inl 2)) true); (4, mkF (mkOp 2 false (inl 1)) true)]).

Theorem fold_objresult_refuted :
  exists ct cmp truth vbool loud (c : chain),
    (forall b, truth (vbool b) = inl b) /\ (forall b, loud (vbool b) = false) /\
    (forall op a b r, ct op a b = Some r -> cmp op a b = inl (vbool r)) /\
    chain_ok loud c /\ snd c <> [] /\
    obs loud (run_fold cmp truth vbool ct false false c) <> obs loud (ref_cascade cmp truth (plain c)) /\
    obs loud (run_fold cmp truth vbool ct true false c) = obs loud (ref_cascade cmp truth (plain c)).
Proof.
  exists o_ct, o_cmp, w_truth, w_vbool, o_loud, o_chain.
  split; [intros []; reflexivity|]. split; [intros []; reflexivity|].
  split.
  { intros op a b r. unfold o_ct, o_cmp. destruct (50 <=? a); [discriminate|].
    intros H; injection H as H; subst r; reflexivity. }
  split; [split; [discriminate|repeat constructor; cbn; eauto]|].
  split; [discriminate|].
  split; [vm_compute; discriminate|vm_compute; reflexivity].
Qed.

(* a falsy result object inside a partial cascade of two links that is followed by another node
   is truth-tested twice, also with tail_fix (finding constfold_segment_result_tested_twice):
   w1 < w2 < 2 > 1 < 3  with  w1 < w2 = 8 (falsy object) *)
Definition d_cmp (op a b : Z) : val + exn := if 50 <=? a then inl 8 else w_cmp op a b.
Definition d_truth (v : val) : bool + exn := inl (negb ((v =? 0) || (v =? 8))).
Definition d_loud (v : val) : bool := (v =? 8) || (50 <=? v).
Definition d_chain : chain :=
  (mkF (mkOp 0 true (inl 50)) false,
   [(0, mkF (mkOp 1 true (inl 51)) false); (0, mkF (mkOp 2 false (inl 2)) true);
    (4, mkF (mkOp 3 false (inl 1)) true); (0, mkF (mkOp 4 true (inl 3)) false)]).

Theorem fold_double_truth_refuted :
  exists ct cmp truth vbool loud (c : chain),
    (forall b, truth (vbool b) = inl b) /\ (forall b, loud (vbool b) = false) /\
    (forall op a b r, ct op a b = Some r -> cmp op a b = inl (vbool r)) /\
    chain_ok loud c /\ snd c <> [] /\
    obs loud (run_fold cmp truth vbool ct true false c) <> obs loud (ref_cascade cmp truth (plain c)).
Proof.
  exists o_ct, d_cmp, d_truth, w_vbool, d_loud, d_chain.
  split; [intros []; reflexivity|]. split; [intros []; reflexivity|].
  split.
  { intros op a b r. unfold o_ct, d_cmp. destruct (50 <=? a); [discriminate|].
    intros H; injection H as H; subst r; reflexivity. }
  split; [split; [discriminate|repeat constructor; cbn; eauto; discriminate]|].
  split; [discriminate|].
  vm_compute. discriminate.
Qed.
