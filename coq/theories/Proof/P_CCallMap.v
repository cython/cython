(* P_CCallMap - proofs about the model of GeneralCallNode.map_to_simple_call_node (C20):
   for every well-formed call the mapped argument list is the declared binding and the evaluation
   order (temps, then the arguments left in place) visits the non-simple arguments in call order. *)
From Coq Require Import List Bool Arith Lia Sorted Permutation.
From CyVerif Require Import Lib.ListFacts Model.M_CCallMap.
Import ListNotations.

Lemma memb_In x l : memb x l = true <-> In x l.
Proof.
  induction l as [|y r IH]; simpl; [split; [discriminate | tauto]|].
  rewrite orb_true_iff, IH, Nat.eqb_eq. tauto.
Qed.

Lemma memb_false x l : memb x l = false <-> ~ In x l.
Proof.
  rewrite <- memb_In. symmetry. apply not_true_iff_false.
Qed.

Lemma nodupb_NoDup l : nodupb l = true -> NoDup l.
Proof.
  induction l as [|x r IH]; simpl; intros H; constructor; apply andb_true_iff in H; destruct H as [H1 H2]; auto.
  apply negb_true_iff in H1. apply memb_false. exact H1.
Qed.

Lemma index_of_Some d l : forall i, index_of d l = Some i -> i < length l /\ nth i l 0 = d.
Proof.
  induction l as [|x r IH]; simpl; intros i H; [discriminate|].
  destruct (Nat.eqb_spec x d).
  - injection H as <-. split; [lia | auto].
  - destruct (index_of d r) as [j|]; [|discriminate]. injection H as <-.
    destruct (IH j eq_refl). split; [lia | auto].
Qed.

Lemma index_of_None d l : index_of d l = None -> ~ In d l.
Proof.
  induction l as [|x r IH]; simpl; intros H; [tauto|].
  destruct (Nat.eqb_spec x d); [discriminate|].
  destruct (index_of d r); [discriminate|]. intros [E|E]; [auto | apply IH; auto].
Qed.

Lemma index_of_nth l : NoDup l -> forall i, i < length l -> index_of (nth i l 0) l = Some i.
Proof.
  induction 1 as [|x r Hx Hr IH]; simpl; intros i Hi; [lia|].
  destruct i as [|i].
  - rewrite Nat.eqb_refl. reflexivity.
  - destruct (Nat.eqb_spec x (nth i r 0)) as [E|E].
    + exfalso. apply Hx. rewrite E. apply nth_In. lia.
    + rewrite IH by lia. reflexivity.
Qed.

Lemma filter_head {A} (f : A -> bool) l x r : filter f l = x :: r -> In x l /\ f x = true.
Proof. intros H. apply filter_In. rewrite H. left. reflexivity. Qed.

Lemma filter_filter_impl {A} (f g : A -> bool) l :
  (forall x, f x = true -> g x = true) -> filter f (filter g l) = filter f l.
Proof.
  intros H. induction l as [|x l IH]; simpl; auto.
  destruct (g x) eqn:G; simpl; destruct (f x) eqn:Fx; auto; try congruence.
  rewrite (H x Fx) in G. discriminate.
Qed.

Lemma insert_perm x l : Permutation (insert x l) (x :: l).
Proof.
  induction l as [|y r IH]; simpl; auto.
  destruct (Nat.leb x y); auto.
  eapply perm_trans; [apply perm_skip; exact IH | apply perm_swap].
Qed.

Lemma isort_perm l : Permutation (isort l) l.
Proof.
  induction l as [|x r IH]; simpl; auto.
  eapply perm_trans; [apply insert_perm | apply perm_skip; exact IH].
Qed.

Lemma insert_sorted x l : StronglySorted le l -> StronglySorted le (insert x l).
Proof.
  induction 1 as [|y r Hr IH Hy]; simpl.
  - constructor; constructor.
  - destruct (Nat.leb_spec x y).
    + constructor; [constructor; auto|]. constructor; auto.
      eapply Forall_impl; [|exact Hy]. intros; lia.
    + constructor; auto.
      eapply Permutation_Forall; [apply Permutation_sym, insert_perm|]. constructor; [lia | auto].
Qed.

Lemma isort_sorted l : StronglySorted le (isort l).
Proof. induction l; simpl; [constructor | apply insert_sorted; auto]. Qed.

Lemma sorted_lt_of_le l : StronglySorted le l -> NoDup l -> StronglySorted lt l.
Proof.
  induction 1 as [|x r Hr IH Hx]; intros N; constructor; inversion N; subst; auto.
  rewrite Forall_forall in *. intros y Hy. specialize (Hx y Hy).
  assert (x <> y) by (intros ->; auto). lia.
Qed.

Lemma sorted_lt_unique l1 : forall l2,
  StronglySorted lt l1 -> StronglySorted lt l2 -> (forall x, In x l1 <-> In x l2) -> l1 = l2.
Proof.
  induction l1 as [|a r1 IH]; intros l2 S1 S2 E.
  - destruct l2 as [|b r2]; auto. exfalso. apply (E b). left; auto.
  - destruct l2 as [|b r2]; [exfalso; apply (E a); left; auto|].
    inversion S1 as [|? ? S1' F1]; subst. inversion S2 as [|? ? S2' F2]; subst.
    rewrite Forall_forall in F1, F2.
    assert (a = b).
    { destruct (proj1 (E a) (or_introl eq_refl)) as [|Ha]; auto.
      destruct (proj2 (E b) (or_introl eq_refl)) as [|Hb]; auto.
      specialize (F1 b Hb). specialize (F2 a Ha). lia. }
    subst b. f_equal. apply IH; auto.
    intros x. split; intros H.
    + destruct (proj1 (E x) (or_intror H)) as [->|]; auto. specialize (F1 x H). lia.
    + destruct (proj2 (E x) (or_intror H)) as [->|]; auto. specialize (F2 x H). lia.
Qed.

Lemma seq_sorted a n : StronglySorted lt (seq a n).
Proof.
  revert a. induction n as [|n IH]; intros a; simpl; constructor; auto.
  rewrite Forall_forall. intros x H. apply in_seq in H. lia.
Qed.

Lemma filter_sorted (f : nat -> bool) l : StronglySorted lt l -> StronglySorted lt (filter f l).
Proof.
  induction 1 as [|x r Hr IH Hx]; simpl; [constructor|].
  destruct (f x); auto. constructor; auto.
  rewrite Forall_forall in *. intros y Hy. apply filter_In in Hy. apply Hx. tauto.
Qed.

(* sorting a duplicate-free list that has the elements of a strictly increasing one yields that list *)
Lemma isort_is l l' :
  NoDup l -> StronglySorted lt l' -> (forall x, In x l <-> In x l') -> isort l = l'.
Proof.
  intros N S E. apply sorted_lt_unique; auto.
  - apply sorted_lt_of_le; [apply isort_sorted|].
    eapply Permutation_NoDup; [apply Permutation_sym, isort_perm | exact N].
  - intros x. rewrite <- E. split; apply Permutation_in; [apply isort_perm | apply Permutation_sym, isort_perm].
Qed.

Lemma inorder_prefix_spec ndecl l : forall d i,
  i < inorder_prefix ndecl d l -> nth i l 0 = d + i /\ d + i < ndecl.
Proof.
  induction l as [|x r IH]; simpl; intros d i H; [lia|].
  destruct (Nat.eqb_spec x d); simpl in H; [|lia].
  destruct (Nat.ltb_spec d ndecl); simpl in H; [|lia].
  destruct i as [|i]; [subst; split; [auto | lia]|].
  destruct (IH (S d) i ltac:(lia)) as [A B]. split; [rewrite A|]; lia.
Qed.

Lemma inorder_prefix_le ndecl l : forall d, inorder_prefix ndecl d l <= length l.
Proof.
  induction l as [|x r IH]; simpl; intros d; [lia|].
  destruct (Nat.eqb x d && Nat.ltb d ndecl); [specialize (IH (S d)); lia | lia].
Qed.

Lemma before_first_filter (f : nat -> bool) l : forall first t,
  filter f l = first :: t -> filter f (before_first first l) = [].
Proof.
  induction l as [|x r IH]; simpl; intros first t H; [discriminate|].
  destruct (f x) eqn:Fx.
  - injection H as -> _. rewrite Nat.eqb_refl. reflexivity.
  - assert (Ff : f first = true).
    { assert (In first (filter f r)) by (rewrite H; left; auto). apply filter_In in H0. tauto. }
    destruct (Nat.eqb_spec x first) as [->|]; [congruence|].
    simpl. rewrite Fx. eapply IH; eauto.
Qed.

Lemma before_first_app l1 l2 first :
  ~ In first l1 -> before_first first (l1 ++ l2) = l1 ++ before_first first l2.
Proof.
  induction l1 as [|x r IH]; simpl; intros H; auto.
  destruct (Nat.eqb_spec x first); [exfalso; auto|]. f_equal. apply IH. tauto.
Qed.

Section Slots.
Variables (npos : nat) (names : list nat).

Lemma slot_pos_ge d : npos <= d -> slot_pos npos names d = option_map (Nat.add npos) (index_of d names).
Proof. intros H. unfold slot_pos. destruct (Nat.ltb_spec d npos); [lia | reflexivity]. Qed.

Lemma slot_pos_inj d d' p : npos <= d -> npos <= d' ->
  slot_pos npos names d = Some p -> slot_pos npos names d' = Some p -> d = d'.
Proof.
  intros H H'. rewrite !slot_pos_ge by auto.
  destruct (index_of d names) as [i|] eqn:E; [|discriminate].
  destruct (index_of d' names) as [i'|] eqn:E'; [|discriminate].
  simpl. intros [= <-] [= X]. assert (i' = i) by lia. subst i'.
  destruct (index_of_Some _ _ _ E) as [_ A]. destruct (index_of_Some _ _ _ E') as [_ A']. congruence.
Qed.

(* the declared parameters d .. d+j-1 are bound to the call positions of the same number *)
Definition straight (d j : nat) : Prop := forall d', d <= d' < d + j -> slot_pos npos names d' = Some d'.

Lemma straight_S d j : straight d (S j) -> slot_pos npos names d = Some d /\ straight (S d) j.
Proof. intros H. split; [apply H; lia | intros d' Hd'; apply H; lia]. Qed.

Lemma ref_slots_seq : forall j fuel d, straight d j -> j <= fuel ->
  ref_slots npos names fuel d = seq d j ++ ref_slots npos names (fuel - j) (d + j).
Proof.
  induction j as [|j IH]; intros fuel d H Hf.
  - rewrite Nat.sub_0_r, Nat.add_0_r. reflexivity.
  - destruct fuel as [|fuel]; [lia|]. destruct (straight_S _ _ H) as [H0 H1]. simpl. rewrite H0. f_equal.
    rewrite (IH fuel (S d) H1) by lia. replace (S d + j) with (d + S j) by lia. reflexivity.
Qed.

Lemma nogapb_skip : forall j fuel d, straight d j -> j <= fuel ->
  nogapb npos names fuel d false = true -> nogapb npos names (fuel - j) (d + j) false = true.
Proof.
  induction j as [|j IH]; intros fuel d H Hf G.
  - rewrite Nat.sub_0_r, Nat.add_0_r. exact G.
  - destruct fuel as [|fuel]; [lia|]. destruct (straight_S _ _ H) as [H0 H1]. simpl in G. rewrite H0 in G.
    replace (d + S j) with (S d + j) by lia. apply (IH fuel (S d) H1); [lia | exact G].
Qed.

Lemma nogapb_missing : forall fuel d, nogapb npos names fuel d true = true ->
  forall d', d <= d' < d + fuel -> slot_pos npos names d' = None.
Proof.
  induction fuel as [|fuel IH]; intros d G d' Hd; [lia|]. simpl in G.
  destruct (slot_pos npos names d) eqn:E; [discriminate|].
  destruct (Nat.eq_dec d' d) as [->|]; auto. apply (IH (S d)); auto. lia.
Qed.

Lemma scan_rel : forall fuel d missing, npos <= d ->
  nogapb npos names fuel d missing = true ->
  ooo_scan npos names fuel d missing = Some (if missing then [] else ref_slots npos names fuel d).
Proof.
  induction fuel as [|fuel IH]; intros d missing Hd G; simpl.
  - destruct missing; reflexivity.
  - simpl in G. rewrite slot_pos_ge in * by auto.
    destruct (index_of d names) as [i|] eqn:E; simpl in *.
    + destruct missing; [discriminate|]. simpl in G.
      rewrite (IH (S d) false) by (auto; lia). reflexivity.
    + rewrite (IH (S d) true) by (auto; lia). destruct missing; reflexivity.
Qed.

Lemma ref_slots_In : forall fuel d p, In p (ref_slots npos names fuel d) ->
  exists d', d <= d' < d + fuel /\ slot_pos npos names d' = Some p.
Proof.
  induction fuel as [|fuel IH]; simpl; intros d p H; [tauto|].
  destruct (slot_pos npos names d) as [q|] eqn:E; [|destruct H].
  destruct H as [<-|H]; [exists d; split; [lia | auto]|].
  destruct (IH _ _ H) as (d' & A & B). exists d'. split; [lia | auto].
Qed.

Lemma ref_slots_complete : forall fuel d, nogapb npos names fuel d false = true ->
  forall d' p, d <= d' < d + fuel -> slot_pos npos names d' = Some p -> In p (ref_slots npos names fuel d).
Proof.
  induction fuel as [|fuel IH]; intros d G d' p Hd Hp; [lia|]. simpl in G. simpl.
  destruct (slot_pos npos names d) as [q|] eqn:E.
  - simpl in G. destruct (Nat.eq_dec d' d) as [->|]; [left; congruence|].
    right. apply (IH (S d) G d'); auto. lia.
  - destruct (Nat.eq_dec d' d) as [->|]; [congruence|].
    rewrite (nogapb_missing _ _ G d') in Hp by lia. discriminate.
Qed.

Lemma ref_slots_NoDup : forall fuel d, npos <= d -> NoDup (ref_slots npos names fuel d).
Proof.
  induction fuel as [|fuel IH]; simpl; intros d Hd; [constructor|].
  destruct (slot_pos npos names d) as [q|] eqn:E; [|constructor].
  constructor; [|apply IH; lia].
  intros H. destruct (ref_slots_In _ _ _ H) as (d' & A & B).
  assert (d = d') by (eapply slot_pos_inj; eauto; lia). lia.
Qed.
End Slots.

Definition nonsimple (simple : nat -> bool) (p : nat) : bool := negb (simple p).

Lemma cc_order_nil args : cc_order [] args = args.
Proof. unfold cc_order. simpl. apply filter_true. auto. Qed.

(* with the non-simple positions as temps, in call order, the order of evaluation lists every position once and
   the non-simple ones in call order *)
Lemma cc_order_temps simple m slots : NoDup slots -> (forall p, In p slots <-> p < m) ->
  let T := filter (nonsimple simple) (seq 0 m) in
  filter (nonsimple simple) (cc_order T slots) = T /\ NoDup (cc_order T slots) /\
  forall p, In p (cc_order T slots) <-> p < m.
Proof.
  intros N Hs T. unfold cc_order.
  assert (InT : forall p, In p T <-> p < m /\ nonsimple simple p = true).
  { intros p. unfold T. rewrite filter_In, in_seq. split; intros [A B]; (split; [lia | exact B]). }
  assert (E : filter (fun p => negb (memb p T)) slots = filter (fun p => negb (nonsimple simple p)) slots).
  { apply filter_ext_in. intros p Hp. apply Hs in Hp. f_equal. destruct (nonsimple simple p) eqn:Np.
    - apply memb_In, InT. auto.
    - apply memb_false. rewrite InT. intros [_ X]. congruence. }
  rewrite E. split; [|split].
  - rewrite filter_app. unfold T at 1. rewrite filter_filter_impl by auto.
    rewrite (filter_false _ (filter _ slots)); [apply app_nil_r|].
    intros p Hp. apply filter_In in Hp. destruct Hp as [_ Hp]. apply negb_true_iff. exact Hp.
  - apply NoDup_app_intro; [apply NoDup_filter, seq_NoDup | apply NoDup_filter, N|].
    intros p Hp Hq. apply InT in Hp. apply filter_In in Hq. destruct Hp as [_ Hp], Hq as [_ Hq].
    rewrite Hp in Hq. discriminate.
  - intros p. rewrite in_app_iff, InT, filter_In, Hs. destruct (nonsimple simple p); simpl; intuition discriminate.
Qed.

Section Wf.
Variables (cc_keep : bool) (npos ndecl : nat) (names : list nat) (simple : nat -> bool).
Hypothesis Hwf : cc_wf npos ndecl names = true.

Let pre := inorder_prefix ndecl npos names.
Let k := npos + pre.
Let m := npos + length names.
Let slots := ref_slots npos names ndecl 0.
(* the binding of the declared parameters behind the keywords passed in order *)
Let oo := ref_slots npos names (ndecl - k) k.
Let ns := nonsimple simple.

Lemma wf_parts :
  npos <= ndecl /\ NoDup names /\ (forall x, In x names -> npos <= x < ndecl) /\
  nodupb names = true /\ nogapb npos names ndecl 0 false = true.
Proof.
  pose proof Hwf as H. unfold cc_wf in H. apply andb_true_iff in H. destruct H as [H G].
  apply andb_true_iff in H. destruct H as [H R]. apply andb_true_iff in H. destruct H as [P N].
  split; [apply Nat.leb_le; auto|]. split; [apply nodupb_NoDup; auto|]. split; [|auto].
  intros x Hx. rewrite forallb_forall in R. specialize (R x Hx). apply andb_true_iff in R.
  destruct R as [A B]. apply Nat.leb_le in A. apply Nat.ltb_lt in B. lia.
Qed.

Lemma k_le_m : k <= m.
Proof. pose proof (inorder_prefix_le ndecl names npos). unfold k, m, pre. lia. Qed.

Lemma k_le_ndecl : k <= ndecl.
Proof.
  destruct wf_parts as (Hpos & _). unfold k. destruct pre as [|p] eqn:E; [lia|].
  destruct (inorder_prefix_spec ndecl names npos p) as [_ H]; [fold pre; lia|]. lia.
Qed.

(* the positional arguments and the keywords passed in order *)
Lemma slot_pos_prefix : straight npos names 0 k.
Proof.
  destruct wf_parts as (_ & Hnd & _). intros d [_ H]. unfold slot_pos. destruct (Nat.ltb_spec d npos); [reflexivity|].
  destruct (inorder_prefix_spec ndecl names npos (d - npos)) as [A _]; [fold pre; unfold k in H; lia|].
  replace (npos + (d - npos)) with d in A by lia.
  rewrite <- A. rewrite index_of_nth; auto; [simpl; f_equal; lia|].
  pose proof k_le_m. unfold k, m in *. lia.
Qed.

Lemma slots_split : slots = seq 0 k ++ oo.
Proof. exact (ref_slots_seq npos names k ndecl 0 slot_pos_prefix k_le_ndecl). Qed.

Lemma gap_tail : nogapb npos names (ndecl - k) k false = true.
Proof.
  destruct wf_parts as (_ & _ & _ & _ & G). exact (nogapb_skip npos names k ndecl 0 slot_pos_prefix k_le_ndecl G).
Qed.

Lemma scan_oo : ooo_scan npos names (ndecl - k) k false = Some oo.
Proof. apply (scan_rel npos names (ndecl - k) k false); [unfold k; lia | exact gap_tail]. Qed.

Lemma oo_NoDup : NoDup oo.
Proof. apply ref_slots_NoDup. unfold k. lia. Qed.

(* oo holds exactly the call positions k .. m-1 *)
Lemma oo_In p : In p oo <-> k <= p < m.
Proof.
  destruct wf_parts as (_ & Hnd & Hrange & _). split.
  - intros H. destruct (ref_slots_In _ _ _ _ _ H) as (d' & A & B).
    rewrite slot_pos_ge in B by (unfold k in A; lia).
    destruct (index_of d' names) as [i|] eqn:E; [|discriminate]. injection B as <-.
    destruct (index_of_Some _ _ _ E) as [Hi Hn]. split; [|unfold m; lia].
    destruct (Nat.lt_ge_cases i pre) as [L|L]; [|unfold k; lia].
    destruct (inorder_prefix_spec ndecl names npos i L) as [X _]. unfold k in A. lia.
  - intros [H1 H2]. set (i := p - npos).
    assert (Hi : i < length names) by (unfold i, m in *; unfold k in H1; lia).
    set (d := nth i names 0).
    assert (Hin : In d names) by (apply nth_In; auto).
    destruct (Hrange d Hin) as [R1 R2].
    assert (Sp : slot_pos npos names d = Some p).
    { rewrite slot_pos_ge by auto. unfold d. rewrite index_of_nth by auto. simpl. f_equal.
      unfold i. unfold k in H1. lia. }
    assert (k <= d).
    { destruct (Nat.lt_ge_cases d k) as [L|L]; auto. rewrite slot_pos_prefix in Sp by lia.
      injection Sp as ->. lia. }
    apply (ref_slots_complete _ _ _ _ gap_tail d); auto. pose proof k_le_ndecl. lia.
Qed.

(* the declared binding lists every call position once *)
Lemma slots_In p : In p slots <-> p < m.
Proof. rewrite slots_split, in_app_iff, in_seq, oo_In. pose proof k_le_m. lia. Qed.

Lemma slots_NoDup : NoDup slots.
Proof.
  rewrite slots_split. apply NoDup_app_intro; [apply seq_NoDup | apply oo_NoDup|].
  intros x H1 H2. apply in_seq in H1. apply oo_In in H2. lia.
Qed.

Lemma slots_length : length slots = m.
Proof.
  rewrite <- (seq_length m 0). apply Permutation_length, NoDup_Permutation; [apply slots_NoDup | apply seq_NoDup|].
  intros p. rewrite slots_In, in_seq. lia.
Qed.

(* the temps among the out-of-order keyword values, sorted, follow the non-simple arguments before them in
   call order *)
Lemma temps_sorted : filter ns (seq 0 k) ++ isort (filter ns oo) = filter ns (seq 0 m).
Proof.
  pose proof k_le_m. replace m with (k + (m - k)) at 1 by lia. rewrite seq_app, filter_app. f_equal.
  apply isort_is; [apply NoDup_filter, oo_NoDup | apply filter_sorted, seq_sorted|].
  intros x. rewrite !filter_In, in_seq, oo_In. replace (0 + k + (m - k)) with m by lia. reflexivity.
Qed.

(* a well-formed call passes the error checks of the mapping *)
Lemma wf_guards :
  Nat.ltb ndecl npos = false /\
  existsb (fun x => Nat.ltb x npos) names || negb (nodupb names) = false /\
  existsb (fun x => Nat.leb ndecl x) names = false.
Proof.
  destruct wf_parts as (Hpos & _ & Hrange & Hndb & _).
  assert (No : forall f, (forall x, npos <= x < ndecl -> f x = false) -> existsb f names = false).
  { intros f Hf. apply not_true_is_false. intros H. apply existsb_exists in H. destruct H as (x & Hx & E).
    rewrite Hf in E by auto. discriminate. }
  split; [apply Nat.ltb_ge; exact Hpos|]. rewrite Hndb.
  split; [rewrite No; [reflexivity|] | apply No]; intros x Hx; [apply Nat.ltb_ge | apply Nat.leb_gt]; lia.
Qed.

Theorem ccmap_ok :
  (cc_keep = true \/ (forall p, p < k -> simple p = true) \/ (forall p, k <= p < m -> simple p = true)) ->
  exists temps,
    ccmap true cc_keep npos ndecl names simple = CMOk temps slots /\
    filter (nonsimple simple) (cc_order temps slots) = filter (nonsimple simple) (seq 0 m) /\
    NoDup (cc_order temps slots) /\
    (forall p, In p (cc_order temps slots) <-> p < m) /\
    (forall p, In p slots <-> p < m) /\ length slots = m.
Proof.
  intros Hc. destruct wf_guards as (G1 & G2 & G3). unfold ccmap. rewrite G1, G2, G3. fold pre k.
  change (fun p => negb (simple p)) with ns. fold ns.
  destruct (filter ns oo) as [|first rest] eqn:Et.
  - (* all out-of-order keyword values are simple: no temps, nothing moves *)
    exists []. rewrite cc_order_nil. split; [|split; [|auto using slots_NoDup, slots_In, slots_length]].
    + destruct (Nat.leb_spec (length names) pre) as [Lall|Lsome]; [|rewrite scan_oo, Et, <- slots_split; reflexivity].
      (* every keyword is passed in declaration order *)
      rewrite slots_split. destruct oo as [|p r] eqn:E; [rewrite app_nil_r; reflexivity|].
      exfalso. assert (In p oo) by (rewrite E; left; auto). apply oo_In in H. unfold k, m in H. lia.
    + rewrite <- temps_sorted, slots_split, filter_app, Et. reflexivity.
  - (* some out-of-order keyword value goes into a temp *)
    destruct (filter_head _ _ _ _ Et) as [Hfirst Nfirst]. apply oo_In in Hfirst.
    exists (filter ns (seq 0 m)).
    destruct (cc_order_temps simple m slots slots_NoDup slots_In) as (A & B & C).
    split; [|auto using slots_In, slots_length].
    destruct (Nat.leb_spec (length names) pre) as [Lall|Lsome]; [unfold k, m in Hfirst; lia|].
    rewrite scan_oo, Et, before_first_app by (rewrite in_seq; lia).
    rewrite filter_app, (before_first_filter _ oo first rest Et), app_nil_r, <- Et, temps_sorted. f_equal.
    (* the argument list is kept whole *)
    rewrite slots_split. destruct (filter ns (seq 0 k)) as [|q r] eqn:En; auto.
    destruct Hc as [->|[Hc|Hc]]; auto; exfalso.
    + destruct (filter_head _ _ _ _ En) as [H1 H2]. apply in_seq in H1.
      unfold ns, nonsimple in H2. rewrite Hc in H2 by lia. discriminate.
    + unfold ns, nonsimple in Nfirst. rewrite Hc in Nfirst by lia. discriminate.
Qed.

End Wf.

(* when every keyword is passed in declaration order the mapping does not look at the arguments *)
Lemma ccmap_inorder s kp npos ndecl names simple simple' :
  length names <= inorder_prefix ndecl npos names ->
  ccmap s kp npos ndecl names simple = ccmap s kp npos ndecl names simple'.
Proof.
  intros H. unfold ccmap. apply Nat.leb_le in H. rewrite H.
  destruct (Nat.ltb ndecl npos); auto.
Qed.

(* the same for a notion ts of "simple" that holds of every argument the mapping takes for simple (of any, when every
   keyword is passed in declaration order): the arguments that are not simple in that sense are visited in call order *)
Corollary ccmap_ok_finer cc_keep npos ndecl names simple ts :
  cc_wf npos ndecl names = true ->
  let m := npos + length names in
  let k := npos + inorder_prefix ndecl npos names in
  (cc_keep = true \/ (forall p, p < k -> simple p = true) \/ (forall p, k <= p < m -> simple p = true)) ->
  (forall p, simple p = true -> ts p = true) \/ length names <= inorder_prefix ndecl npos names ->
  let slots := ref_slots npos names ndecl 0 in
  exists temps,
    ccmap true cc_keep npos ndecl names simple = CMOk temps slots /\
    filter (nonsimple ts) (cc_order temps slots) = filter (nonsimple ts) (seq 0 m) /\
    (forall p, In p (cc_order temps slots) <-> p < m).
Proof.
  intros W. cbv zeta. intros Hc [Imp|Io].
  - destruct (ccmap_ok cc_keep npos ndecl names simple W Hc) as (temps & E1 & E2 & _ & E4 & _).
    exists temps. split; [exact E1|]. split; [|exact E4].
    assert (Imp' : forall p, nonsimple ts p = true -> nonsimple simple p = true).
    { intros p. unfold nonsimple. rewrite !negb_true_iff. intros T.
      destruct (simple p) eqn:Sp; [rewrite (Imp p Sp) in T; discriminate | reflexivity]. }
    rewrite <- (filter_filter_impl _ _ (cc_order temps _) Imp'), E2. apply filter_filter_impl, Imp'.
  - rewrite (ccmap_inorder _ _ _ _ _ simple ts Io).
    destruct (ccmap_ok cc_keep npos ndecl names ts W) as (temps & E1 & E2 & _ & E4 & _); [|exists temps; auto].
    right; right. intros p Hp. lia.
Qed.

(* the temp-sorting step is needed: without it (the seeded variant) the temps follow the declaration *)
Lemma ccmap_unsorted_w :
  ccmap false false 0 3 [2; 1; 0] (fun _ => false) = CMOk [2; 1; 0] [2; 1; 0] /\
  ccmap true false 0 3 [2; 1; 0] (fun _ => false) = CMOk [0; 1; 2] [2; 1; 0].
Proof. split; reflexivity. Qed.

(* the argument list is cut at the first temp when a non-simple argument precedes it (as is) *)
Lemma ccmap_truncated_w :
  ccmap true false 1 3 [2; 1] (fun _ => false) = CMOk [0; 1; 2] [0] /\
  ccmap true true 1 3 [2; 1] (fun _ => false) = CMOk [0; 1; 2] [0; 2; 1] /\
  ref_slots 1 [2; 1] 3 0 = [0; 2; 1].
Proof. repeat split; reflexivity. Qed.
