(* C24: the generated argument-parsing code binds like CPython's initialize_locals.
   The wrapper's kwnames-tuple loop and CPython's keyword loop are both the reference loop parse_ref, each over
   its own table of names; what parse_ref computes is said once (ref_result); the wrapper's value array and
   CPython's slots are then compared entry by entry (arrays).  The kwds-dict loops: P_ArgBindDict.v. *)
From Coq Require Import List Bool Arith PeanoNat Lia Permutation.
From CyVerif Require Import Lib.ListFacts Model.M_ArgBind.
Import ListNotations.

Lemma upd_length : forall A i (x : A) l, length (upd i x l) = length l.
Proof. intros A i x l; revert i; induction l; destruct i; simpl; auto. Qed.

Lemma nth_upd : forall A i (x : A) l a d,
  nth a (upd i x l) d = if (a =? i) && (i <? length l) then x else nth a l d.
Proof.
  intros A i x l; revert i; induction l as [|h t IH]; intros i a d.
  - rewrite andb_false_r. destruct i; reflexivity.
  - destruct i as [|i]; destruct a as [|a]; simpl; try reflexivity. apply IH.
Qed.

Lemma nth_upd_same : forall A i (x : A) l d, nth i (upd i x l) d = if i <? length l then x else nth i l d.
Proof. intros. rewrite nth_upd, Nat.eqb_refl. reflexivity. Qed.

Lemma nth_upd_other : forall A i (x : A) l a d, a <> i -> nth a (upd i x l) d = nth a l d.
Proof. intros A i x l a d NE. rewrite nth_upd. apply Nat.eqb_neq in NE. rewrite NE. reflexivity. Qed.

Lemma nth_fill_pos : forall V (pos : list V) n k a,
  nth a (fill_pos n k pos) None = if a <? Nat.min k (length pos) then nth_error pos a else None.
Proof.
  unfold fill_pos. intros V pos; induction pos as [|x r IH]; intros n k a.
  - rewrite firstn_nil. simpl. rewrite Nat.min_0_r. simpl. apply nth_repeat.
  - destruct k; simpl; [apply nth_repeat|]. destruct a; simpl; [reflexivity|].
    replace (n - S k) with ((n - 1) - k) by lia. apply IH.
Qed.

Lemma nth_fill_pos_ge : forall V (pos : list V) n k a, k <= a -> nth a (fill_pos n k pos) None = None.
Proof. intros. rewrite nth_fill_pos. destruct (Nat.ltb_spec a (Nat.min k (length pos))); [lia|reflexivity]. Qed.

Lemma fill_pos_length : forall V (pos : list V) n k, k <= length pos -> k <= n -> length (fill_pos n k pos) = n.
Proof. intros. unfold fill_pos. rewrite app_length, map_length, firstn_length, repeat_length. lia. Qed.

Lemma nth_error_None_ge : forall A (l : list A) a, a < length l -> nth_error l a <> None.
Proof. intros A l a L. apply nth_error_Some. exact L. Qed.

Lemma none_in_at : forall V (vals : list (option V)) lo hi a,
  lo <= a < hi -> nth a vals None = None -> none_in vals lo hi = true.
Proof.
  intros V vals lo hi a L N. unfold none_in. apply existsb_exists. exists a.
  split; [apply in_seq; lia|rewrite N; reflexivity].
Qed.

Lemma none_in_empty : forall V (vals : list (option V)) lo hi, hi <= lo -> none_in vals lo hi = false.
Proof. intros V vals lo hi L. unfold none_in. replace (hi - lo) with 0 by lia. reflexivity. Qed.

Lemma none_in_fill : forall V (pos : list V) n k lo hi, k <= lo ->
  none_in (fill_pos n k pos) lo hi = (lo <? hi).
Proof.
  intros V pos n k lo hi L. destruct (Nat.ltb_spec lo hi) as [C|C].
  - apply (none_in_at _ _ _ _ lo); [lia|apply nth_fill_pos_ge, L].
  - apply none_in_empty, C.
Qed.

Lemma find_idx_Some : forall A (f : A -> bool) l i d,
  find_idx f l = Some i -> i < length l /\ f (nth i l d) = true.
Proof.
  intros A f l; induction l as [|x r IH]; intros i d H; simpl in H; [discriminate|].
  destruct (f x) eqn:E.
  - inversion H; subst. simpl. split; [lia|exact E].
  - destruct (find_idx f r) eqn:F; simpl in H; [|discriminate]. inversion H; subst.
    destruct (IH n d eq_refl). simpl. split; [lia|assumption].
Qed.

Lemma find_idx_None : forall A (f : A -> bool) l, find_idx f l = None -> existsb f l = false.
Proof.
  intros A f l; induction l as [|x r IH]; intros H; simpl in *; [reflexivity|].
  destruct (f x); [discriminate|]. destruct (find_idx f r); [discriminate|]. simpl. auto.
Qed.

Lemma existsb_false_In : forall A (f : A -> bool) l x, existsb f l = false -> In x l -> f x = false.
Proof.
  intros A f l x H I. destruct (f x) eqn:E; [|reflexivity].
  rewrite <- H. symmetry. apply existsb_exists. exists x. auto.
Qed.

Lemma nth_skipn : forall A n (l : list A) i d, nth i (skipn n l) d = nth (n + i) l d.
Proof. intros A n; induction n; intros l i d; simpl; [reflexivity|]. destruct l; [destruct i; reflexivity|]. apply IHn. Qed.

Lemma NoDup_app_r : forall A (l1 l2 : list A), NoDup (l1 ++ l2) -> NoDup l2.
Proof. intros A l1; induction l1; simpl; intros l2 H; [exact H|]. inversion H; auto. Qed.

Lemma NoDup_skipn : forall A n (l : list A), NoDup l -> NoDup (skipn n l).
Proof. intros A n l H. rewrite <- (firstn_skipn n l) in H. exact (NoDup_app_r _ _ _ H). Qed.

Lemma window_true : forall lo hi n a,
  (lo <=? a) && (a <? hi) && (a <? n) = true <-> lo <= a < hi /\ a < n.
Proof. intros. rewrite !andb_true_iff, Nat.leb_le, !Nat.ltb_lt. tauto. Qed.

Lemma nodupb_NoDup : forall l, nodupb l = true -> NoDup l.
Proof.
  induction l as [|x r IH]; intros H; [constructor|]. simpl in H. apply andb_true_iff in H as [H1 H2].
  constructor; [|auto]. intros I. apply negb_true_iff in H1.
  pose proof (existsb_false_In _ _ _ x H1 I) as Q. rewrite Nat.eqb_refl in Q. discriminate.
Qed.

Lemma key_is_eq : forall k n, key_is k n = true -> key_eq k n = true.
Proof. unfold key_is, key_eq, is_str. intros k n. destruct (k_kind k); try discriminate. auto. Qed.

Lemma key_eq_name : forall k n, key_eq k n = true -> k_name k = n /\ is_str k = true.
Proof. unfold key_eq. intros k n H. apply andb_true_iff in H as [A B]. apply Nat.eqb_eq in B. auto. Qed.

Lemma key_eq_same : forall k k' n, key_eq k n = true -> key_eq k' n = true -> key_same k k' = true.
Proof.
  intros k k' n H H'. apply key_eq_name in H as [A B]. apply key_eq_name in H' as [A' B'].
  unfold key_same. rewrite B, B', A, A'. simpl. apply Nat.eqb_refl.
Qed.

Lemma key_same_sym : forall a b, key_same a b = key_same b a.
Proof. intros a b. unfold key_same. rewrite (Nat.eqb_sym (k_name a)). destruct (is_str a), (is_str b); reflexivity. Qed.

Definition midx (k : key) (names : list nat) : option nat := find_idx (key_eq k) names.

Lemma midx_Some : forall k names i, midx k names = Some i -> i < length names /\ key_eq k (nth i names 0) = true.
Proof. intros k names i H. apply (find_idx_Some _ _ _ _ 0 H). Qed.

Lemma midx_None : forall k names i, midx k names = None -> i < length names -> key_eq k (nth i names 0) = false.
Proof. intros k names i H L. apply find_idx_None in H. apply existsb_nth; assumption. Qed.

Lemma midx_unique : forall k names i, NoDup names -> i < length names ->
  key_eq k (nth i names 0) = true -> midx k names = Some i.
Proof.
  intros k names i ND L E. destruct (midx k names) as [j|] eqn:F.
  - destruct (midx_Some _ _ _ F) as [Lj Ej].
    apply key_eq_name in E as [E _]. apply key_eq_name in Ej as [Ej _].
    f_equal. apply (proj1 (NoDup_nth names 0) ND); auto. congruence.
  - rewrite (midx_None _ _ i F L) in E. discriminate.
Qed.

Lemma find_from_Some : forall (f : nat -> bool) first names i,
  find_from f first names = Some i -> first <= i /\ i < length names /\ f (nth i names 0) = true.
Proof.
  unfold find_from. intros f first names i H.
  destruct (find_idx f (skipn first names)) as [j|] eqn:F; simpl in H; [|discriminate]. inversion H; subst.
  destruct (find_idx_Some _ _ _ _ 0 F) as [L E]. rewrite nth_skipn in E. rewrite skipn_length in L.
  repeat split; auto; lia.
Qed.

Lemma find_from_None : forall (f : nat -> bool) first names i,
  find_from f first names = None -> first <= i -> i < length names -> f (nth i names 0) = false.
Proof.
  unfold find_from. intros f first names i H L1 L2.
  destruct (find_idx f (skipn first names)) as [j|] eqn:F; simpl in H; [discriminate|].
  apply find_idx_None in F. replace i with (first + (i - first)) by lia. rewrite <- nth_skipn.
  apply existsb_nth; [rewrite skipn_length; lia|exact F].
Qed.

Lemma existsb_firstn : forall (f : nat -> bool) first names,
  existsb f (firstn first names) = true <-> exists i, i < first /\ i < length names /\ f (nth i names 0) = true.
Proof.
  intros f first names. rewrite existsb_exists. split.
  - intros [x [I E]]. destruct (In_nth _ _ 0 I) as [i [L N]]. rewrite firstn_length in L.
    exists i. repeat split; try lia. rewrite <- E, <- N.
    rewrite <- (firstn_skipn first names) at 1. rewrite app_nth1; [reflexivity|rewrite firstn_length; lia].
  - intros [i [L1 [L2 E]]]. exists (nth i names 0). split; [|exact E].
    rewrite <- (firstn_skipn first names) at 1. rewrite app_nth1 by (rewrite firstn_length; lia).
    apply nth_In. rewrite firstn_length. lia.
Qed.

(* the lookup of one str key, as __Pyx_ParseKeywordsTuple and __Pyx_RejectUnknownKeyword perform it *)
Definition tuple_find (k : key) (names : list nat) (first : nat) : mres :=
  match find_from (key_is k) first names with
  | Some i => MFound i
  | None => match_kw k names first
  end.

Lemma tuple_find_spec : forall k names first, NoDup names -> is_str k = true ->
  tuple_find k names first =
  match midx k names with
  | Some i => if first <=? i then MFound i else MBad EMultiple
  | None => MNone
  end.
Proof.
  intros k names first ND S. unfold tuple_find.
  destruct (find_from (key_is k) first names) as [i|] eqn:F1.
  - destruct (find_from_Some _ _ _ _ F1) as [A [B C]]. apply key_is_eq in C.
    rewrite (midx_unique _ _ _ ND B C). apply Nat.leb_le in A. rewrite A. reflexivity.
  - assert (M : match_kw k names first = match_scan k names first).
    { unfold match_kw. destruct (is_exact k); [reflexivity|]. rewrite S. reflexivity. }
    rewrite M. unfold match_scan.
    destruct (find_from (key_eq k) first names) as [i|] eqn:F2.
    + destruct (find_from_Some _ _ _ _ F2) as [A [B C]].
      rewrite (midx_unique _ _ _ ND B C). apply Nat.leb_le in A. rewrite A. reflexivity.
    + destruct (midx k names) as [i|] eqn:M2.
      * destruct (midx_Some _ _ _ M2) as [L E].
        destruct (first <=? i) eqn:C.
        { apply Nat.leb_le in C. rewrite (find_from_None _ _ _ i F2 C L) in E. discriminate. }
        apply Nat.leb_gt in C.
        assert (X : existsb (key_eq k) (firstn first names) = true) by (apply existsb_firstn; exists i; auto).
        rewrite X. reflexivity.
      * destruct (existsb (key_eq k) (firstn first names)) eqn:X; [|reflexivity].
        apply existsb_firstn in X as [i [_ [L E]]]. rewrite (midx_None _ _ i M2 L) in E. discriminate.
Qed.

Fixpoint parse_ref {V} (kws : list (key * V)) (names : list nat) (first off : nat) (ignore : bool)
         (values : list (option V)) (kwds2 : option (list (key * V))) : ekind + pstate V :=
  match kws with
  | [] => inr (values, kwds2)
  | (k, v) :: rest =>
    match midx k names with
    | Some i => if first <=? i then parse_ref rest names first off ignore (upd (off + i) (Some v) values) kwds2
                else inl EMultiple
    | None => match kwds2 with
              | Some d => parse_ref rest names first off ignore values (Some (dict_set k v d))
              | None => if ignore then parse_ref rest names first off ignore values None else inl EUnexpected
              end
    end
  end.

Definition all_str {V} (kws : list (key * V)) : Prop := forall kv, In kv kws -> is_str (fst kv) = true.

Lemma nonstr_in_false : forall V (kws : list (key * V)), nonstr_in kws = false -> all_str kws.
Proof. intros V kws H kv I. apply negb_false_iff. exact (existsb_false_In _ _ _ kv H I). Qed.

Lemma all_str_nonstr : forall V (kws : list (key * V)), all_str kws -> nonstr_in kws = false.
Proof.
  intros V kws H. unfold nonstr_in. destruct (existsb _ kws) eqn:E; [|reflexivity].
  apply existsb_exists in E as [kv [I N]]. rewrite (H kv I) in N. discriminate.
Qed.

Lemma all_str_cons : forall V kv (kws : list (key * V)), all_str (kv :: kws) -> is_str (fst kv) = true /\ all_str kws.
Proof. intros V kv kws H. split; [apply H; left; reflexivity|intros x I; apply H; right; exact I]. Qed.

Lemma parse_tuple_ref : forall V (kws : list (key * V)) names first off ignore values kwds2,
  NoDup names -> all_str kws ->
  parse_tuple kws names first off ignore values kwds2 = parse_ref kws names first off ignore values kwds2.
Proof.
  intros V kws names first off ignore; induction kws as [|[k v] rest IH]; intros values kwds2 ND AS; [reflexivity|].
  apply all_str_cons in AS as [S AS]. simpl in S.
  assert (E : parse_tuple ((k, v) :: rest) names first off ignore values kwds2 =
    match tuple_find k names first with
    | MFound i => parse_tuple rest names first off ignore (upd (off + i) (Some v) values) kwds2
    | MBad e => inl e
    | MNone => match kwds2 with
               | Some d => parse_tuple rest names first off ignore values (Some (dict_set k v d))
               | None => if ignore then parse_tuple rest names first off ignore values None else inl EUnexpected
               end
    end).
  { simpl. unfold tuple_find. destruct (find_from (key_is k) first names); reflexivity. }
  rewrite E, (tuple_find_spec _ _ _ ND S). simpl.
  destruct (midx k names) as [i|].
  - destruct (first <=? i); [apply IH; auto|reflexivity].
  - destruct kwds2; [apply IH; auto|]. destruct ignore; [apply IH; auto|reflexivity].
Qed.

Lemma py_find_spec : forall k names npo, NoDup (skipn npo names) ->
  (match find_from (key_is k) npo names with
   | Some j => Some j
   | None => find_from (key_eq k) npo names
   end) = option_map (Nat.add npo) (midx k (skipn npo names)).
Proof.
  intros k names npo ND. unfold find_from, midx.
  destruct (find_idx (key_is k) (skipn npo names)) as [j|] eqn:F; simpl; [|reflexivity].
  destruct (find_idx_Some _ _ _ _ 0 F) as [L E]. apply key_is_eq in E.
  pose proof (midx_unique _ _ _ ND L E) as M. unfold midx in M. rewrite M. reflexivity.
Qed.

(* CPython's slots when its keyword loop starts: of the names a keyword can match, exactly the first
   nfill hold a value (the positional arguments copied before) *)
Definition py_inv {V} (kws : list (key * V)) (pnames : list nat) (npo nfill : nat) (slots : list (option V)) : Prop :=
  forall kv i, In kv kws -> midx (fst kv) pnames = Some i ->
    (nth (npo + i) slots None <> None <-> i < nfill).

Lemma keys_nodup_cons : forall V k (v : V) rest, keys_nodup ((k, v) :: rest) = true ->
  (forall kv, In kv rest -> key_same k (fst kv) = false) /\ keys_nodup rest = true.
Proof.
  intros V k v rest H. simpl in H. apply andb_true_iff in H as [A B]. split; [|exact B].
  intros kv I. apply negb_true_iff in A. exact (existsb_false_In _ _ _ kv A I).
Qed.

Lemma py_kw_ref : forall V (kws : list (key * V)) names npo nfill slots d,
  NoDup (skipn npo names) -> all_str kws -> keys_nodup kws = true ->
  py_inv kws (skipn npo names) npo nfill slots ->
  py_kw kws names npo slots d = parse_ref kws (skipn npo names) nfill npo false slots d.
Proof.
  intros V kws names npo nfill; induction kws as [|[k v] rest IH]; intros slots d ND AS KN INV; [reflexivity|].
  apply all_str_cons in AS as [S AS]. simpl in S. apply keys_nodup_cons in KN as [KH KN].
  simpl. rewrite S. simpl. rewrite (py_find_spec _ _ _ ND).
  destruct (midx k (skipn npo names)) as [i|] eqn:M; simpl.
  - pose proof (INV (k, v) i (or_introl eq_refl) M) as F.
    destruct (nth (npo + i) slots None) as [x|] eqn:N.
    + assert (L : i < nfill) by (apply F; discriminate). apply Nat.leb_gt in L. rewrite L. reflexivity.
    + assert (L : nfill <= i) by (destruct (Nat.le_gt_cases nfill i) as [G|G]; [exact G|apply F in G; congruence]).
      apply Nat.leb_le in L. rewrite L. apply IH; auto.
      intros kv i' I M'. destruct (Nat.eq_dec i' i) as [->|NE].
      * exfalso. destruct (midx_Some _ _ _ M) as [_ E1]. destruct (midx_Some _ _ _ M') as [_ E2].
        pose proof (KH kv I) as Q. rewrite (key_eq_same _ _ _ E1 E2) in Q. discriminate Q.
      * rewrite nth_upd_other by lia. apply (INV kv i'); [right; exact I|exact M'].
  - destruct d as [d|]; [|reflexivity]. apply IH; auto. intros kv i' I M'. apply (INV kv i'); [right; exact I|exact M'].
Qed.

Definition kw_unknown (names : list nat) (k : key) : bool :=
  match midx k names with None => true | Some _ => false end.
Definition kw_dup (names : list nat) (first : nat) (k : key) : bool :=
  match midx k names with Some i => negb (first <=? i) | None => false end.
Definition kw_bad (names : list nat) (first : nat) (strict : bool) (k : key) : bool :=
  kw_dup names first k || (strict && kw_unknown names k).

Lemma kw_bad_midx : forall names first strict k,
  kw_bad names first strict k = match midx k names with Some i => negb (first <=? i) | None => strict end.
Proof.
  intros. unfold kw_bad, kw_dup, kw_unknown.
  destruct (midx k names); [rewrite andb_false_r; apply orb_false_r|apply andb_true_r].
Qed.

(* entry a of the value array after the loop *)
Definition ref_at {V} (names : list nat) (first off : nat) (kws : list (key * V))
           (values : list (option V)) (a : nat) : option V :=
  if (off + first <=? a) && (a <? off + length names) && (a <? length values) then
    match dict_get (nth (a - off) names 0) kws with Some v => Some v | None => nth a values None end
  else nth a values None.

Lemma dict_get_Some_In : forall V n (d : list (key * V)) v,
  dict_get n d = Some v -> exists kv, In kv d /\ key_eq (fst kv) n = true.
Proof.
  intros V n d; induction d as [|[k x] r IH]; intros v H; simpl in H; [discriminate|].
  destruct (key_eq k n) eqn:E.
  - exists (k, x). split; [left; reflexivity|exact E].
  - destruct (IH _ H) as [kv [I E']]. exists kv. split; [right; exact I|exact E'].
Qed.

Lemma ref_at_in : forall V names first off (kws : list (key * V)) values a,
  off + first <= a < off + length names -> a < length values ->
  ref_at names first off kws values a =
  match dict_get (nth (a - off) names 0) kws with Some v => Some v | None => nth a values None end.
Proof. intros. unfold ref_at. rewrite (proj2 (window_true _ _ _ _)) by auto. reflexivity. Qed.

Lemma ref_at_out : forall V names first off (kws : list (key * V)) values a,
  a < off + first \/ off + length names <= a \/ length values <= a ->
  ref_at names first off kws values a = nth a values None.
Proof.
  intros V names first off kws values a H. unfold ref_at.
  destruct (_ && _ && _) eqn:C; [|reflexivity]. apply window_true in C. lia.
Qed.

Lemma ref_at_nil : forall V names first off (values : list (option V)) a,
  nth a values None = ref_at names first off [] values a.
Proof. intros. unfold ref_at. simpl. destruct (_ && _); reflexivity. Qed.

Lemma ref_at_unknown : forall V names first off k (v : V) rest values a, midx k names = None ->
  ref_at names first off ((k, v) :: rest) values a = ref_at names first off rest values a.
Proof.
  intros V names first off k v rest values a M. unfold ref_at.
  destruct (_ && _ && _) eqn:C; [|reflexivity]. apply window_true in C.
  simpl dict_get. rewrite (midx_None _ _ (a - off) M) by lia. reflexivity.
Qed.

Lemma ref_at_known : forall V names first off k (v : V) rest values i a,
  NoDup names -> midx k names = Some i -> first <= i ->
  (forall kv, In kv rest -> key_same k (fst kv) = false) ->
  ref_at names first off ((k, v) :: rest) values a =
  ref_at names first off rest (upd (off + i) (Some v) values) a.
Proof.
  intros V names first off k v rest values i a ND M C KH. unfold ref_at. rewrite upd_length.
  destruct (midx_Some _ _ _ M) as [Li Ei]. simpl dict_get.
  destruct (Nat.eq_dec a (off + i)) as [->|NE].
  - rewrite nth_upd_same. replace (off + i - off) with i by lia. rewrite Ei.
    destruct (dict_get (nth i names 0) rest) as [x|] eqn:G.
    { exfalso. destruct (dict_get_Some_In _ _ _ _ G) as [kv [I E]].
      pose proof (KH kv I) as Q. rewrite (key_eq_same _ _ _ Ei E) in Q. discriminate Q. }
    rewrite (proj2 (Nat.leb_le (off + first) _)), (proj2 (Nat.ltb_lt _ (off + length names))) by lia.
    destruct (off + i <? length values); reflexivity.
  - rewrite nth_upd_other by exact NE.
    destruct (_ && _ && _) eqn:CC; [|reflexivity]. apply window_true in CC.
    destruct (key_eq k (nth (a - off) names 0)) eqn:E; [|reflexivity].
    assert (M2 : midx k names = Some (a - off)) by (apply midx_unique; [exact ND|lia|exact E]).
    rewrite M in M2. inversion M2. lia.
Qed.

Lemma dict_set_fresh : forall V k (v : V) d,
  (forall kv', In kv' d -> key_same (fst kv') k = false) -> dict_set k v d = d ++ [(k, v)].
Proof.
  intros V k v d; induction d as [|[k' v'] r IH]; intros H; [reflexivity|]. simpl.
  pose proof (H (k', v') (or_introl eq_refl)) as Q. simpl in Q. rewrite Q.
  rewrite IH; [reflexivity|]. intros kv I. apply H. right. exact I.
Qed.

Definition strict_of {V} (ignore : bool) (kwds2 : option (list (key * V))) : bool :=
  match kwds2 with None => negb ignore | Some _ => false end.

Definition ref_result {V} (kws : list (key * V)) names first off ignore values kwds2 (res : ekind + pstate V) : Prop :=
  match res with
  | inl e => e <> EImpossible /\
             existsb (fun kv => kw_bad names first (strict_of ignore kwds2) (fst kv)) kws = true
  | inr (vals', kw') =>
      existsb (fun kv => kw_bad names first (strict_of ignore kwds2) (fst kv)) kws = false /\
      length vals' = length values /\
      (forall a, nth a vals' None = ref_at names first off kws values a) /\
      kw' = option_map (fun d => d ++ filter (fun kv => kw_unknown names (fst kv)) kws) kwds2
  end.

Lemma parse_ref_inv : forall V (kws : list (key * V)) names first off ignore values kwds2,
  NoDup names -> keys_nodup kws = true ->
  (forall d, kwds2 = Some d -> forall kv kv', In kv kws -> In kv' d -> key_same (fst kv') (fst kv) = false) ->
  ref_result kws names first off ignore values kwds2 (parse_ref kws names first off ignore values kwds2).
Proof.
  unfold ref_result.
  intros V kws names first off ignore; induction kws as [|[k v] rest IH]; intros values kwds2 ND KN DJ.
  - simpl. repeat split; auto.
    + intros a. apply ref_at_nil.
    + destruct kwds2; simpl; [rewrite app_nil_r|]; reflexivity.
  - apply keys_nodup_cons in KN as [KH KN].
    simpl parse_ref. simpl existsb. simpl filter. simpl fst. rewrite kw_bad_midx.
    change (kw_unknown names k) with (match midx k names with None => true | Some _ => false end).
    destruct (midx k names) as [i|] eqn:M.
    + destruct (first <=? i) eqn:C; simpl; [|split; [discriminate|reflexivity]]. apply Nat.leb_le in C.
      specialize (IH (upd (off + i) (Some v) values) kwds2 ND KN
                     (fun d E kv kv' I => DJ d E kv kv' (or_intror I))).
      destruct (parse_ref rest names first off ignore (upd (off + i) (Some v) values) kwds2) as [e|[vals' kw']];
        [exact IH|].
      destruct IH as [B [L [N K]]]. rewrite upd_length in L. repeat split; auto.
      intros a. rewrite N. symmetry. apply ref_at_known; assumption.
    + simpl. assert (N0 : forall values a, ref_at names first off rest values a =
                                           ref_at names first off ((k, v) :: rest) values a)
        by (intros; symmetry; apply ref_at_unknown; exact M).
      destruct kwds2 as [d|].
      * rewrite dict_set_fresh by (intros kv' I; apply (DJ d eq_refl (k, v) kv'); [left; reflexivity|exact I]).
        assert (DJ' : forall d0, Some (d ++ [(k, v)]) = Some d0 -> forall kv kv', In kv rest -> In kv' d0 ->
                      key_same (fst kv') (fst kv) = false).
        { intros d0 [= <-] kv kv' I I'. apply in_app_or in I' as [I'|[<-|[]]].
          - apply (DJ d eq_refl); [right; exact I|exact I'].
          - apply KH. exact I. }
        specialize (IH values (Some (d ++ [(k, v)])) ND KN DJ'). simpl strict_of in *.
        destruct (parse_ref rest names first off ignore values (Some (d ++ [(k, v)]))) as [e|[vals' kw']];
          [exact IH|].
        destruct IH as [B [L [N K]]]. repeat split; auto.
        { intros a. rewrite N. apply N0. }
        { rewrite K. simpl. rewrite <- app_assoc. reflexivity. }
      * destruct ignore; simpl; [|split; [discriminate|reflexivity]].
        specialize (IH values None ND KN ltac:(discriminate)).
        destruct (parse_ref rest names first off true values None) as [e|[vals' kw']]; [exact IH|].
        destruct IH as [B [L [N K]]]. repeat split; auto. intros a. rewrite N. apply N0.
Qed.

(* started with no dict or an empty one, as the wrapper and CPython do *)
Lemma parse_ref_ok : forall V (kws : list (key * V)) names first off ignore values kwds2,
  NoDup names -> keys_nodup kws = true -> kwds2 = None \/ kwds2 = Some [] ->
  ref_result kws names first off ignore values kwds2 (parse_ref kws names first off ignore values kwds2).
Proof.
  intros V kws names first off ignore values kwds2 ND KN K0. apply parse_ref_inv; auto.
  intros d E kv kv' _ I'. destruct K0 as [->| ->]; [discriminate|]. injection E as <-. destruct I'.
Qed.

Lemma ref_at_fill_front : forall V A B B' off nf (kws : list (key * V)) n n' k pos a,
  k <= length pos -> k <= off + length A -> a < off + length A -> off + length A <= n -> off + length A <= n' ->
  ref_at (A ++ B) nf off kws (fill_pos n k pos) a = ref_at (A ++ B') nf off kws (fill_pos n' k pos) a.
Proof.
  intros V A B B' off nf kws n n' k pos a Lk Lk' La Ln Ln'.
  destruct (Nat.lt_ge_cases a (off + nf)) as [C|C].
  - rewrite !ref_at_out, !nth_fill_pos by auto. reflexivity.
  - rewrite !ref_at_in, !nth_fill_pos, !app_nth1 by (rewrite ?fill_pos_length, ?app_length; lia). reflexivity.
Qed.

Lemma ref_at_fill_back : forall V A B off nf (kws : list (key * V)) n k pos j,
  k <= length pos -> k <= off + length A -> nf <= length A -> j < length B -> n = off + length A + length B ->
  ref_at (A ++ B) nf off kws (fill_pos n k pos) (off + length A + j) = dict_get (nth j B 0) kws.
Proof.
  intros V A B off nf kws n k pos j Lk Lk' Lnf Lj ->.
  rewrite ref_at_in, nth_fill_pos_ge, app_nth2 by (rewrite ?fill_pos_length, ?app_length; lia).
  replace (off + length A + j - off - length A) with j by lia.
  destruct (dict_get _ kws); reflexivity.
Qed.

Definition Pn (s : sig) := map p_name (s_posonly s).
Definition Qn (s : sig) := map p_name (s_poskw s).
Definition Kn (s : sig) := map p_name (s_kwonly s).
Definition Ksn (s : sig) := map p_name (kw_only_args s).

Lemma filter_partition_perm : forall A (f : A -> bool) l,
  Permutation (filter (fun x => negb (f x)) l ++ filter f l) l.
Proof.
  intros A f l; induction l as [|a l IH]; simpl; [constructor|].
  destruct (f a); simpl.
  - apply Permutation_sym, Permutation_cons_app, Permutation_sym, IH.
  - constructor. exact IH.
Qed.

Lemma kw_perm : forall s, Permutation (kw_only_args s) (s_kwonly s).
Proof. intros s. apply filter_partition_perm. Qed.

Lemma Ksn_perm : forall s, Permutation (Ksn s) (Kn s).
Proof. intros s. apply Permutation_map, kw_perm. Qed.

Lemma argnames_eq : forall s, argnames s = Qn s ++ Ksn s.
Proof. intros s. unfold argnames, Qn, Ksn. apply map_app. Qed.

Lemma allnames_eq : forall s, map p_name (all_args s) = Pn s ++ Qn s ++ Ksn s.
Proof. intros s. unfold all_args, positional_args, Pn, Qn, Ksn. rewrite !map_app, app_assoc. reflexivity. Qed.

Lemma declnames_eq : forall s, map p_name (declared s) = Pn s ++ Qn s ++ Kn s.
Proof. intros s. unfold declared, Pn, Qn, Kn. rewrite !map_app. reflexivity. Qed.

Lemma declared_eq : forall s, declared s = positional_args s ++ s_kwonly s.
Proof. intros s. apply app_assoc. Qed.

Lemma pnames_eq : forall s, skipn (npo s) (map p_name (declared s)) = Qn s ++ Kn s.
Proof.
  intros s. rewrite declnames_eq. apply skipn_app_exact. symmetry. apply map_length.
Qed.

Lemma sig_lengths : forall s,
  length (all_args s) = maxpos s + length (kw_only_args s) /\
  length (declared s) = maxpos s + length (s_kwonly s) /\
  maxpos s = npo s + length (s_poskw s) /\
  length (kw_only_args s) = length (s_kwonly s).
Proof.
  intros s. unfold all_args, declared, maxpos, positional_args, npo. rewrite !app_length.
  pose proof (Permutation_length (kw_perm s)). lia.
Qed.

Lemma midx_app : forall k A B,
  midx k (A ++ B) = match midx k A with Some i => Some i | None => option_map (Nat.add (length A)) (midx k B) end.
Proof.
  intros k A B. unfold midx. induction A as [|a A IH]; simpl.
  - destruct (find_idx (key_eq k) B); reflexivity.
  - destruct (key_eq k a); [reflexivity|]. rewrite IH.
    destruct (find_idx (key_eq k) A); simpl; [reflexivity|].
    destruct (find_idx (key_eq k) B); reflexivity.
Qed.

Lemma kw_dup_app : forall k A B B' first, first <= length A ->
  kw_dup (A ++ B) first k = kw_dup (A ++ B') first k.
Proof.
  intros k A B B' first L. unfold kw_dup. rewrite !midx_app.
  destruct (midx k A); [reflexivity|].
  assert (X : forall n, negb (first <=? length A + n) = false)
    by (intros n; apply negb_false_iff, Nat.leb_le; lia).
  destruct (midx k B), (midx k B'); simpl; rewrite ?X; reflexivity.
Qed.

Lemma midx_perm_None : forall k B B', Permutation B B' -> midx k B = None -> midx k B' = None.
Proof.
  intros k B B' P H. destruct (midx k B') as [j|] eqn:E; [|reflexivity].
  destruct (midx_Some _ _ _ E) as [L Q].
  assert (I : In (nth j B' 0) B) by (apply (Permutation_in _ (Permutation_sym P)), nth_In; exact L).
  destruct (In_nth _ _ 0 I) as [i [Li Ni]]. pose proof (midx_None _ _ i H Li) as Z. rewrite Ni in Z. congruence.
Qed.

Lemma kw_unknown_perm : forall k A B B', Permutation B B' ->
  kw_unknown (A ++ B) k = kw_unknown (A ++ B') k.
Proof.
  intros k A B B' P. unfold kw_unknown. rewrite !midx_app. destruct (midx k A); [reflexivity|].
  destruct (midx k B) eqn:E1, (midx k B') eqn:E2; simpl; try reflexivity.
  - rewrite (midx_perm_None _ _ _ (Permutation_sym P) E2) in E1. discriminate.
  - rewrite (midx_perm_None _ _ _ P E1) in E2. discriminate.
Qed.

(* the same keywords are bad for the wrapper's name table and for CPython's *)
Lemma bad_equiv : forall s nf st k, nf <= length (s_poskw s) ->
  kw_bad (argnames s) nf st k = kw_bad (Qn s ++ Kn s) nf st k.
Proof.
  intros s nf st k L. unfold kw_bad. rewrite argnames_eq.
  rewrite (kw_dup_app k (Qn s) (Ksn s) (Kn s)) by (unfold Qn; rewrite map_length; exact L).
  rewrite (kw_unknown_perm k (Qn s) _ _ (Ksn_perm s)). reflexivity.
Qed.

Record wfs (s : sig) : Prop := {
  wf_nd_all : NoDup (Pn s ++ Qn s ++ Ksn s);
  wf_nd_arg : NoDup (Qn s ++ Ksn s);
  wf_nd_p : NoDup (Qn s ++ Kn s);
  wf_used : s_starstar s = true \/ s_kwused s = false
}.

Lemma wf_sig_wfs : forall s, wf_sig s = true -> wfs s.
Proof.
  intros s H. unfold wf_sig in H. apply andb_true_iff in H as [H U]. apply andb_true_iff in H as [N _].
  apply nodupb_NoDup in N. rewrite declnames_eq in N.
  assert (N2 : NoDup (Pn s ++ Qn s ++ Ksn s)).
  { eapply Permutation_NoDup; [|exact N]. apply Permutation_app_head, Permutation_app_head, Permutation_sym, Ksn_perm. }
  constructor; auto.
  - apply (NoDup_app_r _ _ _ N2).
  - apply (NoDup_app_r _ _ _ N).
  - apply orb_true_iff in U as [U|U]; [left; exact U|right; apply negb_true_iff; exact U].
Qed.

Lemma filter_length_compl : forall A (f : A -> bool) l,
  length (filter (fun x => negb (f x)) l) + length (filter f l) = length l.
Proof. intros A f l; induction l; simpl; [lia|]. destruct (f a); simpl; lia. Qed.

Lemma req_counts : forall s,
  minpos s = nreq_posonly s + length (required (s_poskw s)) /\ nreq_posonly s <= npo s /\
  maxpos s - length (optional (positional_args s)) = minpos s /\ minpos s <= maxpos s.
Proof.
  intros s. unfold minpos, nreq_posonly, npo, maxpos, required, optional, positional_args.
  pose proof (filter_length_le (fun p => negb (p_def p)) (s_posonly s)) as A.
  pose proof (filter_length_compl _ p_def (s_posonly s)) as C1.
  pose proof (filter_length_compl _ p_def (s_poskw s)) as C2.
  rewrite !filter_app, !app_length. lia.
Qed.

Definition sim {V} (x y : ekind + pstate V) : Prop :=
  match x, y with
  | inl e, inl _ => e <> EImpossible
  | inr a, inr b => a = b
  | _, _ => False
  end.

(* what is asked of a keyword parser: agreement with the reference loop on an array long enough for the
   names and still empty from [first] on, as the wrapper passes it (cy_kw_ref).  The parsers here need neither
   premise on [values] (parser_ok_tuple, P_ArgBindDict.parser_ok_dict); they only weaken what call_eq_param asks for. *)
Definition parser_ok (pth : path) : Prop :=
  forall V (kws : list (key * V)) names first off ignore values kw0,
    NoDup names -> all_str kws -> keys_nodup kws = true -> first <= length names ->
    off + length names <= length values ->
    (forall i, first <= i -> i < length names -> nth (off + i) values None = None) ->
    (kw0 = None \/ kw0 = Some []) ->
    sim (parse_keywords pth kws names first off ignore values kw0)
        (parse_ref kws names first off ignore values kw0).

(* the same obligation for one shape of the initial **kwargs dict only: [some] = the wrapper passes a
   fresh dict (the signature has a used **kwargs), otherwise NULL *)
Definition parser_ok_sel (pth : path) (some : bool) : Prop :=
  forall V (kws : list (key * V)) names first off ignore values kw0,
    NoDup names -> all_str kws -> keys_nodup kws = true -> first <= length names ->
    off + length names <= length values ->
    (forall i, first <= i -> i < length names -> nth (off + i) values None = None) ->
    kw0 = (if some then Some [] else None) ->
    sim (parse_keywords pth kws names first off ignore values kw0)
        (parse_ref kws names first off ignore values kw0).

Lemma parser_ok_sel_of : forall pth some, parser_ok pth -> parser_ok_sel pth some.
Proof.
  intros pth some H V kws names first off ignore values kw0 A B C D E F G. apply H; auto.
  destruct some; [right|left]; exact G.
Qed.

Lemma parser_ok_tuple : forall pth, pth <> PDict -> parser_ok pth.
Proof.
  intros pth NE V kws names first off ignore values kw0 ND AS KN _ _ _ K0.
  assert (E : parse_keywords pth kws names first off ignore values kw0 = parse_tuple kws names first off ignore values kw0)
    by (destruct pth; try reflexivity; congruence).
  rewrite E, parse_tuple_ref by assumption.
  pose proof (parse_ref_ok V kws names first off ignore values kw0 ND KN K0) as P.
  unfold sim. destruct (parse_ref kws names first off ignore values kw0) as [e|p]; [apply P|reflexivity].
Qed.

Definition dp : param := mkParam 0 false.

(* values' is laid out along all_args (keyword-only parameters: required first), slots' along declared *)
Record arrays {V} (s : sig) (pos : list V) (kws : list (key * V)) (k nf : nat)
              (values' slots' : list (option V)) : Prop := {
  ar_k : k <= length pos /\ k <= maxpos s;
  ar_nf : nf <= length (s_poskw s);
  ar_lv : length values' = length (all_args s);
  ar_nv : forall a, nth a values' None =
            ref_at (argnames s) nf (npo s) kws (fill_pos (length (all_args s)) k pos) a;
  ar_ns : forall a, nth a slots' None =
            ref_at (Qn s ++ Kn s) nf (npo s) kws (fill_pos (length (declared s)) k pos) a
}.

Lemma arrays_nil : forall V s (pos : list V) k, k <= length pos /\ k <= maxpos s ->
  arrays s pos [] k 0 (fill_pos (length (all_args s)) k pos) (fill_pos (length (declared s)) k pos).
Proof.
  intros V s pos k Lk. destruct (sig_lengths s) as [E1 _].
  constructor; try (intros a; apply ref_at_nil); try (apply fill_pos_length); lia.
Qed.

Lemma assoc_combine : forall V (names : list nat) (vals : list (option V)) a,
  NoDup names -> length vals = length names -> a < length names ->
  assoc (nth a names 0) (combine names vals) = Some (nth a vals None).
Proof.
  unfold assoc. induction names as [|n names IH]; intros vals a ND L La; simpl in La; [lia|].
  destruct vals as [|v vals]; simpl in L; [lia|]. inversion ND as [|? ? NI ND']; subst.
  destruct a as [|a]; simpl.
  - rewrite Nat.eqb_refl. reflexivity.
  - assert (X : (n =? nth a names 0) = false).
    { apply Nat.eqb_neq. intros ->. apply NI, nth_In. lia. }
    rewrite X. apply IH; auto; lia.
Qed.

Lemma existsb_ext_in : forall A (f g : A -> bool) l, (forall x, In x l -> f x = g x) -> existsb f l = existsb g l.
Proof.
  intros A f g l; induction l as [|x l IH]; intros H; simpl; [reflexivity|].
  rewrite (H x (or_introl eq_refl)), IH; [reflexivity|]. intros y I. apply H. right. exact I.
Qed.

Lemma existsb_filter : forall A (f g : A -> bool) l, existsb f (filter g l) = existsb (fun x => g x && f x) l.
Proof.
  intros A f g l; induction l as [|x l IH]; [reflexivity|]. cbn [filter existsb].
  destruct (g x); cbn [existsb andb]; rewrite IH; reflexivity.
Qed.

Lemma none_in_list : forall V A (F : A -> option V) (l : list A) d (vals : list (option V)) c,
  (forall j, j < length l -> nth (c + j) vals None = F (nth j l d)) ->
  none_in vals c (c + length l) = existsb (fun p => match F p with None => true | Some _ => false end) l.
Proof.
  intros V A F l d vals c H. unfold none_in. rewrite Nat.add_comm, Nat.add_sub.
  revert c H; induction l as [|x l IH]; intros c H; [reflexivity|]. cbn [length seq existsb].
  pose proof (H 0 ltac:(cbn; lia)) as H0. rewrite Nat.add_0_r in H0. cbn [nth] in H0. rewrite H0.
  f_equal. apply IH. intros j Lj. replace (S c + j) with (c + S j) by lia. apply (H (S j)). cbn. lia.
Qed.

Lemma missing_kwonly_list : forall V (F : param -> option V) (l : list param) d (slots : list (option V)) c,
  (forall j, j < length l -> nth (c + j) slots None = F (nth j l d)) ->
  missing_kwonly c l slots =
  existsb (fun p => negb (p_def p) && match F p with None => true | Some _ => false end) l.
Proof.
  intros V F l d slots c H. unfold missing_kwonly.
  revert c H; induction l as [|x l IH]; intros c H; [reflexivity|]. cbn [length seq combine existsb fst snd].
  pose proof (H 0 ltac:(cbn; lia)) as H0. rewrite Nat.add_0_r in H0. cbn [nth] in H0. rewrite H0.
  f_equal. apply IH. intros j Lj. replace (S c + j) with (c + S j) by lia. apply (H (S j)). cbn. lia.
Qed.

Section Arrays.
  Context {V : Type} {s : sig} {pos : list V} {kws : list (key * V)} {k nf : nat} {values' slots' : list (option V)}
          (AR : arrays s pos kws k nf values' slots').

  Lemma arr_pos : forall a, a < maxpos s -> nth a values' None = nth a slots' None.
  Proof.
    intros a L. destruct AR as [[Lk Lk'] Lnf _ Nv Ns]. destruct (sig_lengths s) as [E1 [E2 [E3 E4]]].
    rewrite Nv, Ns, argnames_eq. unfold Qn in *.
    apply ref_at_fill_front; rewrite ?map_length; lia.
  Qed.

  Lemma arr_kw_cy : forall j, j < length (kw_only_args s) ->
    nth (maxpos s + j) values' None = dict_get (p_name (nth j (kw_only_args s) dp)) kws.
  Proof.
    intros j L. destruct AR as [[Lk Lk'] Lnf _ Nv _]. destruct (sig_lengths s) as [E1 [E2 [E3 E4]]].
    rewrite Nv, argnames_eq, E3, <- (map_length p_name (s_poskw s)), <- (map_nth p_name _ dp).
    apply ref_at_fill_back; unfold Qn, Ksn; rewrite ?map_length; lia.
  Qed.

  Lemma arr_kw_py : forall j, j < length (s_kwonly s) ->
    nth (maxpos s + j) slots' None = dict_get (p_name (nth j (s_kwonly s) dp)) kws.
  Proof.
    intros j L. destruct AR as [[Lk Lk'] Lnf _ _ Ns]. destruct (sig_lengths s) as [E1 [E2 [E3 E4]]].
    rewrite Ns, E3, <- (map_length p_name (s_poskw s)), <- (map_nth p_name _ dp).
    apply ref_at_fill_back; unfold Qn, Kn; rewrite ?map_length; lia.
  Qed.

  Lemma readout_eq : wfs s -> readout_cy s values' = readout_py (declared s) slots'.
  Proof.
    intros W. unfold readout_cy, readout_py.
    destruct (sig_lengths s) as [E1 [E2 [E3 E4]]].
    set (f := fun p : param => (p_name p, to_arg p (assoc (p_name p) (combine (map p_name (all_args s)) values')))).
    set (g := fun ip : nat * param => (p_name (snd ip), to_arg (snd ip) (Some (nth (fst ip) slots' None)))).
    apply (nth_ext _ _ (f dp) (g (0, dp))).
    { rewrite !map_length, combine_length, seq_length. lia. }
    intros i Li. rewrite map_length in Li.
    rewrite (map_nth f), (map_nth g), combine_nth by (rewrite seq_length; reflexivity).
    rewrite seq_nth by exact Li. unfold f, g. cbn [fst snd Nat.add].
    (* where the parameter declared at i sits in all_args *)
    assert (X : exists i', i' < length (all_args s) /\ nth i (declared s) dp = nth i' (all_args s) dp /\
                           nth i' values' None = nth i slots' None).
    { rewrite declared_eq in *. unfold all_args, maxpos in *.
      destruct (Nat.lt_ge_cases i (length (positional_args s))) as [C|C].
      - exists i. rewrite !app_nth1 by exact C. split; [lia|]. split; [reflexivity|apply arr_pos, C].
      - rewrite app_nth2 by exact C. set (j := i - length (positional_args s)).
        assert (Lj : j < length (s_kwonly s)) by (unfold j; lia).
        destruct (In_nth _ _ dp (Permutation_in _ (Permutation_sym (kw_perm s)) (nth_In _ dp Lj))) as [j' [Lj' Ej']].
        exists (length (positional_args s) + j'). rewrite app_nth2_plus. split; [lia|]. split; [auto|].
        replace i with (length (positional_args s) + j) by (unfold j; lia).
        rewrite arr_kw_cy, arr_kw_py, Ej' by assumption. reflexivity. }
    destruct X as [i' [Li' [-> <-]]]. f_equal. f_equal.
    rewrite <- (map_nth p_name (all_args s) dp i'). change (p_name dp) with 0.
    apply assoc_combine; rewrite ?map_length; [rewrite allnames_eq; apply (wf_nd_all _ W)|apply (ar_lv _ _ _ _ _ _ _ AR)|exact Li'].
  Qed.

  Lemma none_in_pos_eq : forall lo hi, hi <= maxpos s -> none_in values' lo hi = none_in slots' lo hi.
  Proof.
    intros lo hi H. unfold none_in. apply existsb_ext_in. intros x I. apply in_seq in I.
    rewrite arr_pos by lia. reflexivity.
  Qed.

  (* both tests say: some required keyword-only parameter got no value *)
  Lemma missing_kw_eq :
    none_in values' (maxpos s) (maxpos s + nreq_kw s) = missing_kwonly (maxpos s) (s_kwonly s) slots'.
  Proof.
    set (unset := fun p : param => match dict_get (p_name p) kws with None => true | Some _ => false end).
    transitivity (existsb unset (required (s_kwonly s))).
    - apply none_in_list with (d := dp). intros j Lj.
      rewrite arr_kw_cy by (unfold kw_only_args; rewrite app_length; lia).
      unfold kw_only_args. rewrite app_nth1 by exact Lj. reflexivity.
    - unfold required. rewrite existsb_filter. symmetry. apply missing_kwonly_list with (d := dp).
      intros j Lj. rewrite arr_kw_py by exact Lj. reflexivity.
  Qed.
End Arrays.

Lemma parse_ref_off : forall V (kws : list (key * V)) names first off off' ignore values kwds2,
  off = off' \/ names = [] ->
  parse_ref kws names first off ignore values kwds2 = parse_ref kws names first off' ignore values kwds2.
Proof.
  intros V kws names first off off' ignore values kwds2 [->| ->]; [reflexivity|]. revert values kwds2.
  induction kws as [|[k v] rest IH]; intros values kwds2; simpl; [reflexivity|].
  destruct kwds2; [apply IH|]. destruct ignore; [apply IH|reflexivity].
Qed.

Lemma py_inv_fill : forall V (kws : list (key * V)) names npo0 nq total nargs (pos : list V),
  nargs = length pos ->
  py_inv kws names npo0 (Nat.min (nargs - npo0) nq) (fill_pos total (Nat.min nargs (npo0 + nq)) pos).
Proof.
  intros V kws names npo0 nq total nargs pos E kv i _ _. rewrite nth_fill_pos.
  destruct (npo0 + i <? Nat.min (Nat.min nargs (npo0 + nq)) (length pos)) eqn:C.
  - apply Nat.ltb_lt in C. split; [lia|]. intros _. apply nth_error_None_ge. lia.
  - apply Nat.ltb_ge in C. split; [congruence|lia].
Qed.

Lemma erase_err : forall V s e, e <> EImpossible -> erase s (@TypeErr V e) = OTypeError.
Proof. intros V s e H. destruct e; try reflexivity. congruence. Qed.

Lemma erase_reject : forall V s pth (kws : list (key * V)),
  erase s (@TypeErr V (reject_keywords pth kws)) = OTypeError.
Proof. intros. unfold reject_keywords. destruct pth; try reflexivity. destruct (nonstr_in kws); reflexivity. Qed.

(* how many positional arguments both sides copy, and how many positional-or-keyword names that fills *)
Definition ncopied {V} (s : sig) (pos : list V) : nat := Nat.min (length pos) (maxpos s).
Definition nfilled {V} (s : sig) (pos : list V) : nat := Nat.min (length pos - npo s) (length (s_poskw s)).

Lemma ncopied_le : forall V s (pos : list V), ncopied s pos <= length pos /\ ncopied s pos <= maxpos s.
Proof. intros. unfold ncopied. lia. Qed.

Lemma skipn_ncopied : forall V s (pos : list V), skipn (ncopied s pos) pos = skipn (maxpos s) pos.
Proof.
  intros V s pos. unfold ncopied. destruct (Nat.le_gt_cases (length pos) (maxpos s)).
  - rewrite Nat.min_l by lia. rewrite !skipn_all2 by lia. reflexivity.
  - rewrite Nat.min_r by lia. reflexivity.
Qed.

Lemma py_kw_sig : forall V s (pos : list V) kws kwdict, wfs s -> all_str kws -> keys_nodup kws = true ->
  py_kw kws (map p_name (declared s)) (npo s) (fill_pos (length (declared s)) (ncopied s pos) pos) kwdict =
  parse_ref kws (Qn s ++ Kn s) (nfilled s pos) (npo s) false
            (fill_pos (length (declared s)) (ncopied s pos) pos) kwdict.
Proof.
  intros V s pos kws kwdict W AS KN. destruct (sig_lengths s) as [_ [_ [E3 _]]].
  rewrite <- pnames_eq. apply py_kw_ref; auto; rewrite pnames_eq.
  - apply (wf_nd_p _ W).
  - unfold nfilled, ncopied. rewrite E3. apply py_inv_fill. reflexivity.
Qed.

(* generate_posargs_unpacking_code *)
Lemma posargs_kw_spec : forall V s (pos : list V),
  posargs_kw s pos =
  if ((maxpos s <? length pos) && negb (s_star s)) || (length pos <? nreq_posonly s) then None
  else Some (fill_pos (length (all_args s)) (ncopied s pos) pos).
Proof.
  intros V s pos. unfold posargs_kw, ncopied.
  destruct (sig_lengths s) as [_ [_ [E3 _]]]. destruct (req_counts s) as [_ [R2 _]].
  destruct (Nat.ltb_spec (maxpos s) (length pos)) as [C|C].
  - replace (length pos <? nreq_posonly s) with false by (symmetry; apply Nat.ltb_ge; lia).
    rewrite Nat.min_r by lia. destruct (s_star s); reflexivity.
  - rewrite Nat.min_l by lia. reflexivity.
Qed.

(* the first name the keyword loop may fill, as generate_keyword_unpacking_code computes it *)
Lemma kw_first_eq : forall V s (pos : list V), (maxpos s <? length pos) && negb (s_star s) = false ->
  (if maxpos s =? 0 then 0
   else if s_star s then Nat.min (if 0 <? npo s then length pos - npo s else length pos) (maxpos s - npo s)
   else if 0 <? npo s then length pos - npo s else length pos) = nfilled s pos.
Proof.
  intros V s pos TM. unfold nfilled. destruct (sig_lengths s) as [_ [_ [E3 _]]].
  destruct (Nat.eqb_spec (maxpos s) 0); [lia|].
  destruct (s_star s); [|rewrite andb_true_r in TM; apply Nat.ltb_ge in TM];
    destruct (Nat.ltb_spec 0 (npo s)); lia.
Qed.

(* the wrapper's keyword loop, with the offset the wrapper passes, is the reference loop at offset npo *)
Lemma cy_kw_ref : forall V pth s (pos : list V) kws (kw0 : option (list (key * V))),
  wfs s -> parser_ok_sel pth (s_starstar s && s_kwused s) -> all_str kws -> keys_nodup kws = true ->
  kw0 = (if s_starstar s && s_kwused s then Some [] else None) ->
  sim (parse_keywords pth kws (argnames s) (nfilled s pos)
         (if (0 <? npo s) && (npo s <? length (all_args s)) then npo s else 0) (s_starstar s)
         (fill_pos (length (all_args s)) (ncopied s pos) pos) kw0)
      (parse_ref kws (argnames s) (nfilled s pos) (npo s) (s_starstar s)
         (fill_pos (length (all_args s)) (ncopied s pos) pos) kw0).
Proof.
  intros V pth s pos kws kw0 W PO AS KN K0.
  destruct (sig_lengths s) as [E1 [_ [E3 E4]]].
  assert (La : length (argnames s) = length (s_poskw s) + length (kw_only_args s))
    by (rewrite argnames_eq, app_length; unfold Qn, Ksn; rewrite !map_length; reflexivity).
  set (off := if (0 <? npo s) && (npo s <? length (all_args s)) then npo s else 0).
  assert (OFF : off = npo s \/ argnames s = []).
  { unfold off. destruct (Nat.ltb_spec 0 (npo s)); simpl; [|left; lia].
    destruct (Nat.ltb_spec (npo s) (length (all_args s))); [left; reflexivity|right].
    apply length_zero_iff_nil. lia. }
  rewrite <- (parse_ref_off V kws (argnames s) _ off (npo s)) by exact OFF.
  unfold nfilled, ncopied. apply PO; auto.
  - rewrite argnames_eq. apply (wf_nd_arg _ W).
  - lia.
  - rewrite fill_pos_length by lia. destruct OFF as [O|O]; rewrite O; [lia|].
    cbn [length]. unfold off. clear - E1 E3. destruct (_ && _); lia.
  - intros i L1 L2. destruct OFF as [O|O]; [|rewrite O in L2; cbn [length] in L2; lia].
    apply nth_fill_pos_ge. lia.
Qed.

Lemma generic_kw : forall V pth s (c : call V),
  wfs s -> parser_ok_sel pth (s_starstar s && s_kwused s) -> all_str (c_kws c) -> keys_nodup (c_kws c) = true ->
  (0 <? length (c_kws c)) = true ->
  erase s (bind_generic pth s c) = erase s (bind_py s c).
Proof.
  intros V pth s [pos kws] W PO AS KN NE. simpl in *.
  destruct (sig_lengths s) as [E1 [E2 [E3 E4]]]. destruct (req_counts s) as [R1 [R2 [R3 R4]]].
  set (kwdict := if s_starstar s then Some (@nil (key * V)) else None).
  set (kw0 := if s_starstar s && s_kwused s then Some (@nil (key * V)) else None).
  assert (K0 : kwdict = None \/ kwdict = Some []) by (unfold kwdict; destruct (s_starstar s); auto).
  assert (K0' : kw0 = None \/ kw0 = Some []) by (unfold kw0; destruct (s_starstar s && s_kwused s); auto).
  pose proof (ncopied_le V s pos) as Lk.
  assert (Lnf : nfilled s pos <= length (s_poskw s)) by (unfold nfilled; lia).
  unfold bind_generic, bind_py. simpl c_pos. simpl c_kws. rewrite NE.
  fold (ncopied s pos). fold kwdict. fold kw0. rewrite py_kw_sig by assumption.
  pose proof (parse_ref_ok V kws (Qn s ++ Kn s) (nfilled s pos) (npo s) false
                (fill_pos (length (declared s)) (ncopied s pos) pos) kwdict (wf_nd_p _ W) KN K0) as PYOK.
  destruct (accept_kwd_args s) eqn:ACC; simpl negb; cbv iota.
  2:{ (* no keyword can be accepted *)
    rewrite erase_reject.
    unfold accept_kwd_args in ACC. apply orb_false_iff in ACC as [A1 A2].
    apply negb_false_iff, Nat.eqb_eq in A1. rewrite argnames_eq, app_length in A1. unfold Qn, Ksn in A1. rewrite !map_length in A1.
    assert (EQ : Qn s ++ Kn s = []).
    { apply length_zero_iff_nil. rewrite app_length. unfold Qn, Kn. rewrite !map_length. lia. }
    rewrite EQ. unfold kwdict. rewrite A2. destruct kws as [|[k0 v0] rest]; [discriminate|]. reflexivity. }
  rewrite posargs_kw_spec. rewrite R3.
  destruct ((maxpos s <? length pos) && negb (s_star s)) eqn:TM; cbn [orb].
  { (* too many positional arguments *)
    destruct (parse_ref _ (Qn s ++ Kn s) _ _ _ _ _) as [e2|[slots' kw']]; [|reflexivity].
    apply eq_sym, erase_err, PYOK. }
  destruct (Nat.ltb_spec (length pos) (nreq_posonly s)) as [RN|RN].
  { (* a required positional-only parameter is missing: argtuple_error in the switch *)
    destruct (parse_ref _ (Qn s ++ Kn s) _ _ _ _ _) as [e2|[slots' kw']]; [apply eq_sym, erase_err, PYOK|].
    destruct PYOK as [_ [_ [Ns _]]].
    rewrite (none_in_at _ slots' _ _ (length pos)); [reflexivity|lia|].
    rewrite Ns, ref_at_out, nth_fill_pos_ge by (unfold ncopied; lia). reflexivity. }
  (* the positional arguments are copied; the keyword loops *)
  rewrite kw_first_eq by exact TM.
  pose proof (cy_kw_ref V pth s pos kws kw0 W PO AS KN eq_refl) as SIM.
  pose proof (parse_ref_ok V kws (argnames s) (nfilled s pos) (npo s) (s_starstar s)
                (fill_pos (length (all_args s)) (ncopied s pos) pos) kw0
                ltac:(rewrite argnames_eq; apply (wf_nd_arg _ W)) KN K0') as CYOK.
  assert (BE : existsb (fun kv : key * V => kw_bad (argnames s) (nfilled s pos) (strict_of (s_starstar s) kw0) (fst kv)) kws =
               existsb (fun kv : key * V => kw_bad (Qn s ++ Kn s) (nfilled s pos) (strict_of false kwdict) (fst kv)) kws).
  { apply existsb_ext_in. intros kv _. rewrite bad_equiv by exact Lnf. f_equal.
    unfold kw0, kwdict. destruct (wf_used _ W) as [U|U]; rewrite U; [destruct (s_kwused s)|destruct (s_starstar s)]; reflexivity. }
  unfold ref_result in *. rewrite BE in CYOK. clear BE. unfold sim in SIM.
  destruct (parse_keywords pth kws (argnames s) _ _ _ _ kw0) as [e|[values' kwds2]];
  destruct (parse_ref kws (argnames s) _ _ _ _ kw0) as [e'|[values2 kwds2']]; try contradiction;
  destruct (parse_ref kws (Qn s ++ Kn s) _ _ _ _ kwdict) as [e2|[slots' kw']].
  - rewrite !erase_err by (exact SIM || apply PYOK). reflexivity.
  - destruct CYOK as [_ B]. destruct PYOK as [B' _]. congruence.
  - destruct CYOK as [B _]. destruct PYOK as [_ B']. congruence.
  - inversion SIM; subst values2 kwds2'. destruct CYOK as [_ [Lv [Nv Kv]]]. destruct PYOK as [_ [_ [Ns Ks]]].
    rewrite fill_pos_length in Lv by lia.
    pose proof (Build_arrays V s pos kws _ _ values' slots' Lk Lnf Lv Nv Ns) as AR.
    rewrite (none_in_pos_eq AR) by lia. rewrite (missing_kw_eq AR).
    assert (G : (nreq_posonly s <? minpos s) && none_in slots' (length pos) (minpos s) =
                none_in slots' (length pos) (minpos s)).
    { destruct (Nat.ltb_spec (nreq_posonly s) (minpos s)); [reflexivity|]. symmetry. apply none_in_empty. lia. }
    rewrite G.
    destruct (none_in slots' (length pos) (minpos s)); [reflexivity|].
    destruct (missing_kwonly (maxpos s) (s_kwonly s) slots'); [reflexivity|].
    simpl. rewrite (readout_eq AR W), skipn_ncopied. f_equal.
    destruct (s_starstar s && negb (s_kwused s)) eqn:U; [reflexivity|].
    rewrite Kv, Ks. unfold kw0, kwdict. destruct (s_starstar s) eqn:SS; simpl in *; [|reflexivity].
    apply negb_false_iff in U. rewrite U. simpl. f_equal. apply filter_ext. intros kv.
    rewrite argnames_eq. apply kw_unknown_perm, Ksn_perm.
Qed.

Lemma nokw_spec : forall V s (pos : list V) star kw0,
  erase s (bind_nokw s pos star kw0) =
  if ((maxpos s <? length pos) && negb (s_star s)) || (length pos <? minpos s) || (0 <? nreq_kw s)
  then OTypeError
  else erase s (Bound (readout_cy s (fill_pos (length (all_args s)) (ncopied s pos) pos)) star kw0).
Proof.
  intros V s pos star kw0. destruct (req_counts s) as [_ [_ [_ R]]]. unfold bind_nokw, ncopied.
  set (nargs := length pos) in *. set (mn := minpos s) in *. set (mx := maxpos s) in *.
  destruct (Nat.ltb_spec 0 (nreq_kw s)) as [_|_].
  - (* every branch raises *)
    rewrite orb_true_r. destruct (_ && _); [reflexivity|]. destruct (_ && _); reflexivity.
  - rewrite orb_false_r. cbn [andb orb].
    destruct (Nat.eqb_spec mn mx) as [E|E]; cbn [andb].
    + destruct (s_star s); cbn [negb].
      * rewrite andb_false_r. cbn [orb]. destruct (Nat.ltb_spec nargs mn); [reflexivity|].
        rewrite Nat.min_r by lia. reflexivity.
      * rewrite andb_true_r. destruct (Nat.eqb_spec nargs mn) as [N|N]; cbn [negb].
        { destruct (Nat.ltb_spec mx nargs); [lia|]. destruct (Nat.ltb_spec nargs mn); [lia|].
          rewrite Nat.min_r by lia. reflexivity. }
        destruct (Nat.ltb_spec mx nargs); [reflexivity|]. destruct (Nat.ltb_spec nargs mn); [reflexivity|lia].
    + destruct (Nat.ltb_spec mx nargs).
      * destruct (Nat.ltb_spec nargs mn); [lia|]. rewrite orb_false_r.
        destruct (s_star s); [|reflexivity]. rewrite Nat.min_r by lia. reflexivity.
      * cbn [andb orb]. destruct (Nat.ltb_spec nargs mn); [reflexivity|].
        rewrite Nat.min_l by lia. reflexivity.
Qed.

Lemma generic_nokw : forall V pth s (c : call V), wfs s -> c_kws c = [] ->
  erase s (bind_generic pth s c) = erase s (bind_py s c).
Proof.
  intros V pth s [pos kws] W E. simpl in E. subst kws.
  destruct (sig_lengths s) as [E1 [E2 [E3 E4]]]. destruct (req_counts s) as [R1 [R2 [R3 R4]]].
  unfold bind_generic, bind_py. cbn [c_pos c_kws py_kw length]. change (0 <? 0) with false. cbv iota.
  fold (ncopied s pos). rewrite nokw_spec, R3.
  pose proof (ncopied_le V s pos) as Lk. pose proof (arrays_nil V s pos _ Lk) as AR.
  rewrite none_in_fill by lia. rewrite <- (missing_kw_eq AR), none_in_fill by lia.
  replace (maxpos s <? maxpos s + nreq_kw s) with (0 <? nreq_kw s)
    by (destruct (Nat.ltb_spec 0 (nreq_kw s)); symmetry; [apply Nat.ltb_lt|apply Nat.ltb_ge]; lia).
  destruct ((maxpos s <? length pos) && negb (s_star s)); [reflexivity|].
  destruct (length pos <? minpos s); [reflexivity|]. destruct (0 <? nreq_kw s); [reflexivity|].
  simpl. rewrite (readout_eq AR W), skipn_ncopied.
  destruct (wf_used _ W) as [U|U]; rewrite U; [destruct (s_kwused s)|destruct (s_starstar s)]; reflexivity.
Qed.

Lemma dict_update_fresh : forall V (kws d : list (key * V)), keys_nodup kws = true ->
  (forall kv kv', In kv kws -> In kv' d -> key_same (fst kv') (fst kv) = false) ->
  dict_update d kws = d ++ kws.
Proof.
  unfold dict_update. intros V kws; induction kws as [|[k v] rest IH]; intros d KN DJ; simpl.
  - rewrite app_nil_r. reflexivity.
  - apply keys_nodup_cons in KN as [KH KN].
    rewrite dict_set_fresh by (intros kv' I; apply (DJ (k, v) kv'); [left; reflexivity|exact I]).
    rewrite IH; [rewrite <- app_assoc; reflexivity|exact KN|].
    intros kv kv' I I'. apply in_app_or in I' as [I'|[<-|[]]].
    + apply DJ; [right; exact I|exact I'].
    + simpl. apply KH. exact I.
Qed.

Lemma py_kw_nil_some : forall V (kws : list (key * V)) slots d, all_str kws ->
  py_kw kws [] 0 slots (Some d) = inr (slots, Some (dict_update d kws)).
Proof.
  intros V kws; induction kws as [|[k v] rest IH]; intros slots d AS; [reflexivity|].
  apply all_str_cons in AS as [S AS]. simpl in S. simpl. rewrite S. simpl. unfold find_from. simpl.
  rewrite IH by exact AS. reflexivity.
Qed.

Lemma py_kw_nil_none : forall V k v (rest : list (key * V)) slots, is_str k = true ->
  py_kw ((k, v) :: rest) [] 0 slots None = inl EUnexpected.
Proof. intros. simpl. rewrite H. reflexivity. Qed.

Lemma no_params : forall s, length (all_args s) = 0 ->
  s_posonly s = [] /\ s_poskw s = [] /\ s_kwonly s = [].
Proof.
  intros s H. destruct (sig_lengths s) as [E1 [E2 [E3 E4]]]. unfold npo in E3.
  repeat split; apply length_zero_iff_nil; lia.
Qed.

Lemma starcopy_eq : forall V pth s (c : call V), length (all_args s) = 0 ->
  all_str (c_kws c) -> keys_nodup (c_kws c) = true ->
  erase s (bind_starcopy pth s c) = erase s (bind_py s c).
Proof.
  intros V pth s [pos kws] L0 AS KN. simpl in AS, KN.
  destruct (no_params s L0) as [EP [EQ EK]].
  unfold bind_starcopy, bind_py, declared, maxpos, positional_args, npo, optional. simpl c_pos. simpl c_kws.
  rewrite EP, EQ, EK. simpl app. simpl length. rewrite Nat.min_0_r. simpl map. simpl filter. simpl length.
  rewrite (all_str_nonstr _ _ AS), (andb_comm (0 <? length pos)).
  change (fill_pos 0 0 pos) with (@nil (option V)).
  assert (DU : dict_update [] kws = kws) by (apply (dict_update_fresh V kws [] KN); intros ? ? ? []).
  replace (match pth with PDict => kws | _ => dict_update [] kws end) with kws by (destruct pth; auto).
  replace (match pth with PDict => false | _ => false end) with false by (destruct pth; reflexivity).
  destruct (s_starstar s) eqn:SS.
  - rewrite py_kw_nil_some, DU by exact AS.
    destruct (negb (s_star s) && (0 <? length pos)); [reflexivity|].
    destruct kws; destruct (s_kwused s) eqn:KU; cbn; rewrite SS, KU; reflexivity.
  - destruct kws as [|[k v] rest].
    + destruct (negb (s_star s) && (0 <? length pos)); cbn; rewrite ?SS; reflexivity.
    + apply all_str_cons in AS as [S _]. rewrite py_kw_nil_none by exact S.
      destruct (negb (s_star s) && (0 <? length pos)); [reflexivity|].
      apply erase_reject.
Qed.

(* the METH_NOARGS and METH_O entry points are chosen for signatures on which they behave like the
   kwnames-tuple wrapper *)
Lemma noargs_as_tuple : forall V s (c : call V), wf_path PNoArgs s = true ->
  erase s (bind_cy PNoArgs s c) = erase s (bind_cy PTuple s c).
Proof.
  intros V s c WP. simpl in WP. apply andb_true_iff in WP as [WP SS]. apply andb_true_iff in WP as [L ST].
  apply Nat.eqb_eq in L. apply negb_true_iff in SS, ST.
  assert (L0 : length (all_args s) = 0) by (destruct (sig_lengths s) as [E1 [E2 [E3 E4]]]; lia).
  unfold bind_cy, bind_noargs, bind_starcopy. rewrite L0, SS, ST. simpl.
  destruct (0 <? length (c_kws c)); destruct (0 <? length (c_pos c)); reflexivity.
Qed.

Lemma metho_as_tuple : forall V s (c : call V), wf_path PMethO s = true ->
  erase s (bind_cy PMethO s c) = erase s (bind_cy PTuple s c).
Proof.
  intros V s c WP. simpl in WP. apply andb_true_iff in WP as [WP SS]. apply andb_true_iff in WP as [WP ST].
  apply andb_true_iff in WP as [WP L]. apply Nat.eqb_eq in L. rewrite app_length in L.
  apply negb_true_iff in SS, ST.
  destruct (s_posonly s) as [|p [|? ?]] eqn:EP; try discriminate. apply negb_true_iff in WP.
  assert (EQ : s_poskw s = []) by (apply length_zero_iff_nil; lia).
  assert (EK : s_kwonly s = []) by (apply length_zero_iff_nil; lia).
  unfold bind_cy, bind_metho, bind_generic, bind_nokw, accept_kwd_args, argnames, readout_cy, minpos, maxpos, nreq_kw,
    all_args, positional_args, kw_only_args, required, optional, declared.
  rewrite EP, EQ, EK, SS, ST. simpl. rewrite WP. simpl.
  destruct (0 <? length (c_kws c)); [reflexivity|].
  destruct (c_pos c) as [|v [|? ?]]; simpl; try reflexivity.
  unfold assoc. simpl. rewrite Nat.eqb_refl. reflexivity.
Qed.

(* non-str keys reaching a dict-convention wrapper are rejected by the generated code itself *)
Lemma dict_nonstr : forall V s (c : call V), nonstr_in (c_kws c) = true ->
  erase s (bind_cy PDict s c) = OTypeError.
Proof.
  intros V s [pos kws] NS. simpl in NS.
  assert (NE : (0 <? length kws) = true) by (destruct kws; [discriminate|reflexivity]).
  unfold bind_cy. destruct (length (all_args s) =? 0).
  - unfold bind_starcopy. simpl c_pos. simpl c_kws. rewrite NE, NS.
    destruct (negb (s_star s) && (0 <? length pos)); [reflexivity|].
    destruct (s_starstar s); [reflexivity|]. apply erase_reject.
  - unfold bind_generic. simpl c_pos. simpl c_kws. rewrite NE.
    destruct (accept_kwd_args s); simpl negb; cbv iota.
    2:{ apply erase_reject. }
    destruct (posargs_kw s pos); [|reflexivity].
    unfold parse_keywords. destruct (s_starstar s && s_kwused s);
      [unfold parse_dict2dict|unfold parse_dict]; rewrite NS; reflexivity.
Qed.

Lemma wrapper_eq : forall V pth s (c : call V),
  wfs s -> all_str (c_kws c) -> keys_nodup (c_kws c) = true ->
  (length (all_args s) <> 0 -> parser_ok_sel pth (s_starstar s && s_kwused s)) ->
  erase s (if length (all_args s) =? 0 then bind_starcopy pth s c else bind_generic pth s c) = erase s (bind_py s c).
Proof.
  intros V pth s c W AS KN PO. destruct (Nat.eqb_spec (length (all_args s)) 0) as [L0|L0].
  - apply starcopy_eq; assumption.
  - destruct (0 <? length (c_kws c)) eqn:NE; [apply generic_kw; auto|].
    apply generic_nokw; [assumption|destruct (c_kws c); [reflexivity|discriminate]].
Qed.

Theorem bind_cy_py : forall V pth s (c : call V),
  wf_sig s = true -> wf_path pth s = true -> keys_nodup (c_kws c) = true -> nonstr_in (c_kws c) = false ->
  (length (all_args s) <> 0 -> parser_ok_sel pth (s_starstar s && s_kwused s)) ->
  erase s (bind_cy pth s c) = erase s (bind_py s c).
Proof.
  intros V pth s c WS WP KN NS PO. apply wf_sig_wfs in WS. apply nonstr_in_false in NS.
  assert (PT : length (all_args s) <> 0 -> parser_ok_sel PTuple (s_starstar s && s_kwused s))
    by (intros _; apply parser_ok_sel_of, parser_ok_tuple; discriminate).
  destruct pth.
  - apply wrapper_eq; assumption.
  - apply wrapper_eq; assumption.
  - rewrite noargs_as_tuple by exact WP. apply wrapper_eq; assumption.
  - rewrite metho_as_tuple by exact WP. apply wrapper_eq; assumption.
Qed.

Theorem call_eq_sel : forall V vc pth s (c : call V),
  wf_sig s = true -> wf_path pth s = true -> wf_entry vc pth = true -> keys_nodup (c_kws c) = true ->
  (length (all_args s) <> 0 -> parser_ok_sel pth (s_starstar s && s_kwused s)) ->
  erase s (call_cy vc pth s c) = erase s (call_py s c).
Proof.
  intros V vc pth s c WS WP WE KN PO. unfold call_cy, call_py.
  destruct (nonstr_in (c_kws c)) eqn:NS.
  - rewrite andb_true_r. destruct vc; [reflexivity|].
    destruct pth; try discriminate.
    + apply dict_nonstr, NS.
    + unfold bind_cy, bind_noargs. destruct (c_kws c); [discriminate|reflexivity].
    + unfold bind_cy, bind_metho. destruct (c_kws c); [discriminate|reflexivity].
  - rewrite andb_false_r. apply bind_cy_py; assumption.
Qed.

Theorem call_eq_param : forall V vc pth s (c : call V),
  wf_sig s = true -> wf_path pth s = true -> wf_entry vc pth = true -> keys_nodup (c_kws c) = true ->
  (length (all_args s) <> 0 -> parser_ok pth) ->
  erase s (call_cy vc pth s c) = erase s (call_py s c).
Proof.
  intros V vc pth s c WS WP WE KN PO. apply call_eq_sel; auto.
  intros L. apply parser_ok_sel_of, PO, L.
Qed.

(* every calling convention except a named-parameter wrapper entered with a kwds dict *)
Theorem call_eq_partial : forall V vc pth s (c : call V),
  wf_sig s = true -> wf_path pth s = true -> wf_entry vc pth = true -> keys_nodup (c_kws c) = true ->
  (pth <> PDict \/ length (all_args s) = 0) ->
  erase s (call_cy vc pth s c) = erase s (call_py s c).
Proof.
  intros V vc pth s c WS WP WE KN H. apply call_eq_param; auto.
  intros L. destruct H as [H|H]; [apply parser_ok_tuple; exact H|contradiction].
Qed.
