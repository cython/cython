(* C18 - the f-string part-list rewrites of the compiler preserve CPython's text and the observable
   formatting calls (proofs for Model/M_FStr.v). *)
From Coq Require Import List NArith Bool Arith Lia.
From CyVerif Require Import Model.M_FStr.
Import ListNotations.

(* operands as the run time sees them: the static class plays no role *)
Inductive fop := FVar (v : nat) | FInt (t : text) | FStr (t : text).
Definition erase (o : operand) : fop :=
  match o with OVar v _ => FVar v | OInt t => FInt t | OStr t => FStr t end.

Definition event := (nat * conv * text)%type.

Section Sem.
  (* CPython: the text of formatting operand o with conversion c and spec text t (format(conv(o), t));
     the value of a nested spec; the static class of every variable *)
  Variable fmt : fop -> conv -> text -> text.
  Variable dyn : nat -> text.
  Variable cls : nat -> vclass.

  Definition spec_text (s : spec) : text :=
    match s with SNone => [] | SLit t _ => t | SDyn id => dyn id end.

  (* --- CPython's meaning of a part list: text and the formatting calls on generic objects *)
  Definition ref_part (p : part) : text :=
    match p with PLit t => t | PPh o c s => fmt (erase o) c (spec_text s) end.
  Definition ref_ev (p : part) : list event :=
    match p with PPh (OVar v KObj) c s => [(v, c, spec_text s)] | _ => [] end.
  Definition ref_text (ps : list part) : text := concat (map ref_part ps).
  Definition ref_events (ps : list part) : list event := concat (map ref_ev ps).

  (* --- meaning of the rewritten node list: values are produced left to right, a CloneNode takes
     the text already produced for values[j] and formats nothing *)
  Definition ntext (done : list text) (n : node) : text :=
    match n with
    | NLit t => t
    | NName v => fmt (FVar v) CvNone []
    | NUni v => fmt (FVar v) CvS []
    | NFmt o c _ s => fmt (erase o) c (spec_text s)
    | NClone j => nth j done []
    end.
  Definition nev (n : node) : list event :=
    match n with NFmt (OVar v KObj) c _ s => [(v, c, spec_text s)] | _ => [] end.
  Fixpoint eval_from (done : list text) (l : list node) : list text :=
    match l with [] => done | n :: r => eval_from (done ++ [ntext done n]) r end.
  Definition eval_nodes (l : list node) : list text := eval_from [] l.
  Definition shape_text (sh : shape) : text := concat (eval_nodes (shape_nodes sh)).
  Definition shape_events (sh : shape) : list event := concat (map nev (shape_nodes sh)).

  (* --- well-formedness: the class written at a use of a variable is the class of that variable *)
  Definition wf_op (o : operand) : Prop := match o with OVar v k => k = cls v | _ => True end.
  Definition wf_part (p : part) : Prop := match p with PLit _ => True | PPh o _ _ => wf_op o end.
  Definition wf_node (n : node) : Prop := match n with NFmt o _ _ _ => wf_op o | _ => True end.
  Definition noclone (n : node) : Prop := match n with NClone _ => False | _ => True end.

  (* the facts about CPython the rewrites rely on; a lemma that takes one says so in `Proof using`,
     the others, and the definitions of this section, depend on fmt, dyn, cls alone *)
  Hypothesis Hint : forall t c, fmt (FInt t) c [] = t.
  Hypothesis Hstrc : forall t c, plain c = true -> fmt (FStr t) c [] = t.
  Hypothesis Hplain : forall v, cls v <> KObj -> fmt (FVar v) CvNone [] = fmt (FVar v) CvS [].

  Lemma norm_spec_text : forall s, spec_text (norm_spec s) = spec_text s.
  Proof. intros [|[|x t] a|id]; reflexivity. Qed.

  Lemma fold_part_text : forall p, ref_part (fold_part p) = ref_part p.
  Proof using Hint Hstrc.
    intros [t|o c s]; [reflexivity|].
    destruct s as [|[|x t] a|id]; destruct o as [v k|t'|t']; cbn [fold_part norm_spec ref_part erase spec_text];
      try reflexivity; try (symmetry; apply Hint);
      destruct (plain c) eqn:P; cbn [ref_part erase spec_text]; try reflexivity; symmetry; apply Hstrc; assumption.
  Qed.

  Lemma fold_part_ev : forall p, ref_ev (fold_part p) = ref_ev p.
  Proof.
    intros [t|o c s]; [reflexivity|].
    destruct s as [|[|x t] a|id]; destruct o as [v k|t'|t']; cbn [fold_part norm_spec];
      try reflexivity; try (destruct k; reflexivity); destruct (plain c); reflexivity.
  Qed.

  Lemma fold_part_wf : forall p, wf_part p -> wf_part (fold_part p).
  Proof.
    intros [t|o c s] H; [exact I|]. unfold fold_part.
    destruct o as [v k|t|t]; destruct (norm_spec s); try exact H; try exact I.
    destruct (plain c); exact I.
  Qed.

  (* merging keeps whatever is read off the parts one by one and is additive on literals *)
  Lemma merge_concat {A} (g : part -> list A) :
    g (PLit []) = [] -> (forall t t', g (PLit (t ++ t')) = g (PLit t) ++ g (PLit t')) ->
    forall l, concat (map g (merge l)) = concat (map g l).
  Proof.
    intros G0 Ga. induction l as [|p r IH]; [reflexivity|].
    destruct p as [t|o c s]; cbn [merge map concat]; [|now rewrite IH].
    rewrite <- IH. destruct (merge r) as [|[t'|o' c' s'] r'].
    - destruct t; cbn [map concat]; now rewrite ?G0.
    - cbn [map concat]. now rewrite Ga, app_assoc.
    - destruct t; cbn [map concat]; now rewrite ?G0.
  Qed.

  Lemma merge_wf : forall l, Forall wf_part l -> Forall wf_part (merge l).
  Proof.
    induction l as [|p r IH]; intros H; [constructor|]. inversion H as [|? ? Hp Hr]; subst.
    specialize (IH Hr). destruct p as [t|o c s]; cbn [merge]; [|constructor; assumption].
    destruct (merge r) as [|[t'|o' c' s'] r'] eqn:M.
    - destruct t; repeat constructor.
    - inversion IH; subst. constructor; [exact I|assumption].
    - destruct t; [assumption|constructor; [exact I|assumption]].
  Qed.

  Lemma fold_concat {A} (g : part -> list A) :
    g (PLit []) = [] -> (forall t t', g (PLit (t ++ t')) = g (PLit t) ++ g (PLit t')) ->
    (forall p, g (fold_part p) = g p) -> forall ps, concat (map g (fold ps)) = concat (map g ps).
  Proof.
    intros G0 Ga Gf ps. unfold fold. rewrite merge_concat by assumption. rewrite map_map.
    f_equal. apply map_ext, Gf.
  Qed.

  Lemma fold_text : forall ps, ref_text (fold ps) = ref_text ps.
  Proof using Hint Hstrc. exact (fold_concat ref_part eq_refl (fun _ _ => eq_refl) fold_part_text). Qed.

  Lemma fold_events : forall ps, ref_events (fold ps) = ref_events ps.
  Proof. exact (fold_concat ref_ev eq_refl (fun _ _ => eq_refl) fold_part_ev). Qed.

  Lemma fold_wf : forall ps, Forall wf_part ps -> Forall wf_part (fold ps).
  Proof.
    intros ps H. unfold fold. apply merge_wf. rewrite Forall_forall in *. intros p Hp.
    apply in_map_iff in Hp. destruct Hp as [q [<- Hq]]. apply fold_part_wf. auto.
  Qed.

  Definition nt0 (n : node) : text := ntext [] n.

  Lemma ntext_noclone : forall done n, noclone n -> ntext done n = nt0 n.
  Proof. intros done [t|v|v|o c cf s|j] H; try reflexivity. destruct H. Qed.

  Lemma analyse_noclone : forall p, noclone (analyse p).
  Proof.
    intros [t|[v k|t|t] c s]; cbn [analyse]; try exact I.
    destruct k, s, (plain c); exact I.
  Qed.

  Lemma analyse_wf : forall p, wf_part p -> wf_node (analyse p).
  Proof.
    intros [t|[v k|t|t] c s] H; cbn [analyse]; try exact I.
    destruct k, s, (plain c); try exact I; exact H.
  Qed.

  Lemma plain_cases : forall c, plain c = true -> c = CvNone \/ c = CvS.
  Proof. intros [] H; try discriminate; auto. Qed.

  Lemma analyse_text : forall p, wf_part p -> nt0 (analyse p) = ref_part p.
  Proof using Hplain.
    intros [t|[v k|t|t] c s] H; cbn [analyse]; try reflexivity.
    cbn [wf_part wf_op] in H.
    destruct k, s; try reflexivity; destruct (plain c) eqn:P; try reflexivity;
      destruct (plain_cases c P) as [-> | ->]; cbn [nt0 ntext ref_part erase spec_text]; try reflexivity;
      (apply Hplain || (symmetry; apply Hplain)); rewrite <- H; discriminate.
  Qed.

  Lemma analyse_ev : forall p, nev (analyse p) = ref_ev p.
  Proof.
    intros [t|[v k|t|t] c s]; cbn [analyse]; try reflexivity.
    destruct k, s, (plain c); reflexivity.
  Qed.

  Lemma eval_noclone : forall l done, Forall noclone l -> eval_from done l = done ++ map nt0 l.
  Proof.
    induction l as [|n r IH]; intros done H; cbn [eval_from map]; [now rewrite app_nil_r|].
    inversion H; subst. rewrite IH by assumption. rewrite ntext_noclone by assumption.
    now rewrite <- app_assoc.
  Qed.

  Lemma text_eqb_eq : forall a b, text_eqb a b = true -> a = b.
  Proof.
    induction a as [|x a IH]; intros [|y b] H; try discriminate; [reflexivity|].
    cbn [text_eqb] in H. apply andb_prop in H. destruct H as [H1 H2].
    apply N.eqb_eq in H1. subst. f_equal. auto.
  Qed.

  Lemma conv_eqb_eq : forall a b, conv_eqb a b = true -> a = b.
  Proof. intros [] []; cbn; intros; congruence. Qed.

  Lemma key_eqb_parts : forall a b, key_eqb a b = true ->
    k_name a = k_name b /\ onat_eqb (k_spec a) (k_spec b) = true /\ k_conv a = k_conv b.
  Proof.
    intros a b H. unfold key_eqb in H.
    apply andb_prop in H. destruct H as [H Hc]. apply andb_prop in H. destruct H as [H Hs].
    apply andb_prop in H. destruct H as [Hn _].
    apply Nat.eqb_eq in Hn. apply conv_eqb_eq in Hc. auto.
  Qed.

  Lemma spec_id_same : forall i j s s', i <> j -> onat_eqb (spec_id i s) (spec_id j s') = true ->
    s = SNone /\ s' = SNone.
  Proof.
    intros i j s s' Hne H. destruct s, s'; cbn in H; try discriminate; auto;
      apply Nat.eqb_eq in H; contradiction.
  Qed.

  Lemma conv_or_s_cases : forall c c', conv_or_s c = conv_or_s c' ->
    c = c' \/ (plain c = true /\ plain c' = true).
  Proof. intros [] [] H; cbn in *; auto; discriminate. Qed.

  (* a keyed value formats a variable; of its class only this much is known *)
  Lemma keyed_view : forall i n k, wf_node n -> node_key kflags_real i n = Some k ->
    exists c s, nt0 n = fmt (FVar (k_name k)) c (spec_text s) /\ k_spec k = spec_id i s /\
                k_conv k = conv_or_s c /\ (c = CvS \/ cls (k_name k) <> KObj).
  Proof.
    intros i n k W K. destruct n as [t|v|v|[v kc|t|t] c cf s|j]; try discriminate K;
      cbn [node_key kflags_real kf_obj kf_conv andb] in K.
    - injection K as <-. exists CvS, SNone. cbn. auto.
    - destruct (is_obj kc) eqn:O; [discriminate|]. injection K as <-. exists c, s. cbn. repeat split.
      right. cbn [wf_node wf_op] in W. rewrite <- W. destruct kc; discriminate.
  Qed.

  (* the key of the code as it is determines the text *)
  Lemma key_sound : forall i j n m k k',
    i <> j -> wf_node n -> wf_node m ->
    node_key kflags_real i n = Some k -> node_key kflags_real j m = Some k' ->
    key_eqb k k' = true -> nt0 n = nt0 m.
  Proof using Hplain.
    intros i j n m k k' Hne Wn Wm Kn Km E. apply key_eqb_parts in E as (En & Es & Ec).
    destruct (keyed_view _ _ _ Wn Kn) as (c & s & -> & Sn & Cn & Vn).
    destruct (keyed_view _ _ _ Wm Km) as (c' & s' & -> & Sm & Cm & Vm).
    rewrite Sn, Sm in Es. destruct (spec_id_same i j s s' Hne Es) as [-> ->].
    rewrite Cn, Cm in Ec. rewrite <- En in *. cbn [spec_text].
    destruct (conv_or_s_cases c c' Ec) as [-> | [P P']]; [reflexivity|].
    destruct (plain_cases c P) as [-> | ->], (plain_cases c' P') as [-> | ->]; try reflexivity.
    - apply Hplain. destruct Vn; [discriminate|assumption].
    - symmetry. apply Hplain. destruct Vm; [discriminate|assumption].
  Qed.

  Definition seen_ok (seen : list (dkey * nat)) (pre : list node) : Prop :=
    Forall (fun e => exists n, nth_error pre (snd e) = Some n /\ node_key kflags_real (snd e) n = Some (fst e)) seen.

  Lemma lookup_in : forall k seen j, lookup k seen = Some j ->
    exists k', In (k', j) seen /\ key_eqb k k' = true.
  Proof.
    induction seen as [|[k' j'] r IH]; intros j H; [discriminate|]. cbn [lookup] in H.
    destruct (key_eqb k k') eqn:E.
    - injection H as <-. exists k'. split; [left; reflexivity|assumption].
    - destruct (IH j H) as [k'' [I E']]. exists k''. split; [right; assumption|assumption].
  Qed.

  Lemma seen_ok_ext : forall seen pre n, seen_ok seen pre -> seen_ok seen (pre ++ [n]).
  Proof.
    intros seen pre n H. unfold seen_ok in *. rewrite Forall_forall in *. intros e He.
    destruct (H e He) as [m [N K]]. exists m. split; [|assumption].
    rewrite nth_error_app1; [assumption|]. apply nth_error_Some. congruence.
  Qed.

  Lemma dedup_sound : forall rest pre seen,
    Forall noclone rest -> Forall wf_node pre -> Forall wf_node rest -> seen_ok seen pre ->
    eval_from (map nt0 pre) (dedup_from kflags_real (length pre) seen rest) = map nt0 (pre ++ rest).
  Proof using Hplain.
    induction rest as [|n r IH]; intros pre seen Hnc Wp Wr Hs.
    - cbn [dedup_from eval_from]. now rewrite app_nil_r.
    - inversion Hnc as [|? ? Hn Hncr]; subst. inversion Wr as [|? ? Wn Wrr]; subst.
      (* whichever node stands for n in the result: all that matters is that it yields the text of n *)
      assert (Step : forall n' seen', ntext (map nt0 pre) n' = nt0 n -> seen_ok seen' (pre ++ [n]) ->
                eval_from (map nt0 pre) (n' :: dedup_from kflags_real (S (length pre)) seen' r)
                = map nt0 (pre ++ n :: r)).
      { intros n' seen' T Hs'. cbn [eval_from]. rewrite T.
        replace (map nt0 pre ++ [nt0 n]) with (map nt0 (pre ++ [n])) by apply map_app.
        replace (S (length pre)) with (length (pre ++ [n])) by (rewrite app_length; cbn; lia).
        rewrite IH, <- app_assoc; auto. apply Forall_app; auto. }
      cbn [dedup_from]. destruct (node_key kflags_real (length pre) n) as [k|] eqn:K.
      + destruct (lookup k seen) as [j|] eqn:Lk.
        * destruct (lookup_in _ _ _ Lk) as [k' [I E]].
          destruct (proj1 (Forall_forall _ _) Hs _ I) as [m [N Km]]. cbn [fst snd] in N, Km.
          apply Step; [|apply seen_ok_ext, Hs]. cbn [ntext].
          rewrite (nth_error_nth _ _ _ (map_nth_error nt0 _ _ N)). symmetry.
          apply (key_sound (length pre) j n m k k'); auto.
          -- assert (j < length pre) by (apply nth_error_Some; congruence). lia.
          -- exact (proj1 (Forall_forall _ _) Wp m (nth_error_In _ _ N)).
        * apply Step; [apply ntext_noclone, Hn|]. constructor; [|apply seen_ok_ext, Hs].
          exists n. split; [|exact K]. cbn [snd]. rewrite nth_error_app2, Nat.sub_diag by lia. reflexivity.
      + apply Step; [apply ntext_noclone, Hn|apply seen_ok_ext, Hs].
  Qed.

  Lemma dedup_text : forall l, Forall noclone l -> Forall wf_node l ->
    eval_nodes (dedup kflags_real l) = map nt0 l.
  Proof using Hplain.
    intros l Hn Hw. unfold eval_nodes, dedup.
    apply (dedup_sound l [] []); auto. constructor.
  Qed.

  (* a value that is replaced by a clone formats nothing observable *)
  Lemma keyed_no_event : forall i n k, node_key kflags_real i n = Some k -> nev n = [].
  Proof.
    intros i [t|v|v|[v kc|t|t] c cf s|j] k H; try reflexivity.
    cbn [node_key kflags_real kf_obj andb] in H. destruct kc; try reflexivity. discriminate.
  Qed.

  Lemma dedup_events : forall l i seen,
    concat (map nev (dedup_from kflags_real i seen l)) = concat (map nev l).
  Proof.
    induction l as [|n r IH]; intros i seen; [reflexivity|]. cbn [dedup_from].
    destruct (node_key kflags_real i n) as [k|] eqn:K.
    - destruct (lookup k seen); cbn [map concat]; rewrite IH; [|reflexivity].
      rewrite (keyed_no_event _ _ _ K). reflexivity.
    - cbn [map concat]. now rewrite IH.
  Qed.

  Lemma shape_of_text : forall l, Forall noclone l -> Forall wf_node l ->
    eval_nodes (shape_nodes (shape_of kflags_real l)) = map nt0 l.
  Proof using Hplain.
    intros l Hn Hw. destruct l as [|a [|b [|c r]]]; cbn [shape_of shape_nodes].
    - reflexivity.
    - unfold eval_nodes. now rewrite eval_noclone.
    - unfold eval_nodes. now rewrite eval_noclone.
    - now apply dedup_text.
  Qed.

  Lemma shape_of_events : forall l,
    concat (map nev (shape_nodes (shape_of kflags_real l))) = concat (map nev l).
  Proof.
    intros l. destruct l as [|a [|b [|c r]]]; cbn [shape_of shape_nodes]; try reflexivity.
    apply dedup_events.
  Qed.

  (* the nodes handed to the shape: no clone yet, classes as declared, CPython's text and calls *)
  Lemma analysed_fold : forall ps, Forall wf_part ps ->
    Forall noclone (map analyse (fold ps)) /\ Forall wf_node (map analyse (fold ps)) /\
    concat (map nt0 (map analyse (fold ps))) = ref_text ps /\
    concat (map nev (map analyse (fold ps))) = ref_events ps.
  Proof using Hint Hplain Hstrc.
    intros ps W. pose proof (fold_wf ps W) as Wf. repeat split.
    - apply Forall_map, Forall_forall. intros p _. apply analyse_noclone.
    - apply Forall_map. eapply Forall_impl; [|exact Wf]. exact analyse_wf.
    - rewrite <- fold_text. unfold ref_text. rewrite map_map. f_equal.
      apply map_ext_in. intros p Hp. apply analyse_text. exact (proj1 (Forall_forall _ _) Wf p Hp).
    - rewrite <- fold_events. unfold ref_events. rewrite map_map. f_equal. apply map_ext, analyse_ev.
  Qed.

  Theorem optimise_correct : forall ps, Forall wf_part ps ->
    shape_text (optimise kflags_real ps) = ref_text ps /\
    shape_events (optimise kflags_real ps) = ref_events ps.
  Proof using Hint Hplain Hstrc.
    intros ps W. destruct (analysed_fold ps W) as (Hn & Hw & T & E).
    unfold optimise, shape_text, shape_events. split.
    - rewrite shape_of_text by assumption. exact T.
    - rewrite shape_of_events. exact E.
  Qed.

  Theorem optimise_inner_correct : forall ps, Forall wf_part ps ->
    shape_text (optimise_inner ps) = ref_text ps /\ shape_events (optimise_inner ps) = ref_events ps.
  Proof using Hint Hplain Hstrc.
    intros ps W. destruct (analysed_fold ps W) as (Hn & _ & T & E).
    assert (Es : shape_nodes (optimise_inner ps) = map analyse (fold ps)).
    { unfold optimise_inner. destruct (map analyse (fold ps)) as [|a [|b [|c r]]]; reflexivity. }
    unfold shape_text, shape_events, eval_nodes. rewrite Es, eval_noclone by assumption. split; assumption.
  Qed.

  (* literal merging on its own: no two adjacent literals, no empty literal remain *)
  Fixpoint merged (l : list part) : Prop :=
    match l with
    | [] => True
    | PLit t :: r => t <> [] /\ match r with PLit _ :: _ => False | _ => True end /\ merged r
    | _ :: r => merged r
    end.

  Lemma merge_merged : forall l, merged (merge l).
  Proof.
    induction l as [|p r IH]; [exact I|]. destruct p as [t|o c s]; cbn [merge]; [|exact IH].
    destruct (merge r) as [|[t'|o' c' s'] r'] eqn:M.
    - destruct t; cbn; auto. split; [discriminate|auto].
    - cbn [merged] in IH |- *. destruct IH as [Ne [Adj Mr]]. split; [|split; assumption].
      destruct t; cbn; [assumption|discriminate].
    - destruct t; [exact IH|]. cbn [merged]. split; [discriminate|]. split; [exact I|exact IH].
  Qed.
End Sem.

(* ------------------------------------------------------------ the variants that are wrong *)
Definition w_fmt (o : fop) (c : conv) (t : text) : text :=
  match o, c with
  | FVar _, CvR => [39; 97; 39]%N          (* repr: quoted *)
  | FVar _, _ => [97]%N
  | FInt s, _ => s
  | FStr s, _ => s
  end.
Definition w_cls_str (_ : nat) : vclass := KStrOpt.
Definition w_cls_obj (_ : nat) : vclass := KObj.
Definition w_dyn (_ : nat) : text := [].

(* f"{s!r}={s}|" with a str argument s *)
Definition w_parts_conv : list part :=
  [PPh (OVar 0 KStrOpt) CvR SNone; PLit [61%N]; PPh (OVar 0 KStrOpt) CvNone SNone; PLit [124%N]].

Lemma key_without_conversion_refuted :
  Forall (wf_part w_cls_str) w_parts_conv /\
  (forall t c, w_fmt (FInt t) c [] = t) /\ (forall t c, plain c = true -> w_fmt (FStr t) c [] = t) /\
  (forall v, w_cls_str v <> KObj -> w_fmt (FVar v) CvNone [] = w_fmt (FVar v) CvS []) /\
  shape_text w_fmt w_dyn (optimise (mk_kflags false true) w_parts_conv) <> ref_text w_fmt w_dyn w_parts_conv.
Proof.
  split; [repeat constructor|]. split; [reflexivity|]. split; [reflexivity|]. split; [reflexivity|].
  vm_compute. discriminate.
Qed.

(* f"{o}|{o}|" with a generic object: de-duplicating it drops a __format__ call *)
Definition w_parts_obj : list part :=
  [PPh (OVar 0 KObj) CvNone SNone; PLit [124%N]; PPh (OVar 0 KObj) CvNone SNone; PLit [124%N]].

Lemma object_dedup_refuted :
  Forall (wf_part w_cls_obj) w_parts_obj /\
  shape_events w_dyn (optimise (mk_kflags true false) w_parts_obj) <> ref_events w_dyn w_parts_obj.
Proof. split; [repeat constructor|]. vm_compute. discriminate. Qed.

(* ------------------------------------------------------------ the kind handed to the join *)
(* f"{v:3c}|{v:3c}|x" with a C int v = 0x20AC: under the test  c_format_spec != 'c'  (join_kind false) the
   padded c value is taken for ASCII and the result is allocated for ASCII characters; under the test
   .endswith('c')  (join_kind true, the text of ExprNodes.py in /repo) it is wide enough *)
Definition w_nodes_kind : list node :=
  [NFmt (OVar 0 KCInt) CvNone (Some [51; 99]%N) (SLit [51; 99]%N true); NLit [124%N];
   NFmt (OVar 0 KCInt) CvNone (Some [51; 99]%N) (SLit [51; 99]%N true); NLit [124; 120]%N].
Definition w_texts_kind : list text := [[32; 32; 8364]; [124]; [32; 32; 8364]; [124; 120]]%N.

Lemma padded_c_kind_refuted :
  exists c, In c (concat w_texts_kind) /\ N.ltb (max_char (join_kind false w_nodes_kind w_texts_kind)) c = true.
Proof. exists 8364%N. split; [vm_compute; auto|reflexivity]. Qed.

Lemma padded_c_kind_repaired_witness :
  forallb (fun c => N.leb c (max_char (join_kind true w_nodes_kind w_texts_kind))) (concat w_texts_kind) = true.
Proof. reflexivity. Qed.
