(* C06 -- proofs about a % b and a // b on C doubles (Model/M_FloatOps.v). *)
From Coq Require Import ZArith Bool List SpecFloat Lia.
From CyVerif Require Import Model.M_FloatOps Lib.FloatMulOne.
Import ListNotations.
Open Scope Z_scope.

(* ---------- the repaired helpers are CPython's algorithms, for every libm ---------- *)

Lemma xorb_neq a b : xorb a b = negb (Bool.eqb b a).
Proof. destruct a, b; reflexivity. Qed.

Theorem mod_new_eq_py : forall (fmod : F -> F -> F) a b,
  mod_node fmod true a b = py_float_rem fmod a b.
Proof.
  intros fmod a b. unfold mod_node, py_float_rem, mod_float, mod_float_new.
  destruct (feqb b fzero); [reflexivity|].
  rewrite xorb_neq. reflexivity.
Qed.

Theorem floordiv_new_eq_py : forall (fmod : F -> F -> F) (ffloor : F -> F) a b,
  floordiv_node fmod ffloor true a b = py_float_floor_div fmod ffloor a b.
Proof. intros. reflexivity. Qed.

(* ---------- the current helpers are refuted (exact fmod / floor) ---------- *)

(* 0.0 % inf = nan (CPython 0.0); 5.0 % inf = nan (5.0); 1.0 % -1.0 = +0.0 (CPython -0.0) *)
Theorem mod_old_refuted :
  mod_node_x false fzero (finf false) = FVal S754_nan /\ py_float_rem_x fzero (finf false) = FVal fzero /\
  mod_node_x false ffive (finf false) = FVal S754_nan /\ py_float_rem_x ffive (finf false) = FVal ffive /\
  mod_node_x false fone fmone = FVal (S754_zero false) /\ py_float_rem_x fone fmone = FVal (S754_zero true).
Proof. vm_compute. repeat split. Qed.

Theorem mod_old_refuted_ex :
  exists a b, fvalid a = true /\ fvalid b = true /\ mod_node_x false a b <> py_float_rem_x a b.
Proof. exists fone, fmone. vm_compute. repeat split; discriminate. Qed.

(* -1.0 // inf = -0.0 (CPython -1.0); 1.0 // 0.1 = 10.0 (CPython 9.0) *)
Theorem floordiv_old_refuted :
  floordiv_node_x false fmone (finf false) = FVal (S754_zero true) /\
  py_float_floor_div_x fmone (finf false) = FVal fmone /\
  floordiv_node_x false fone ftenth = FVal (S754_finite false 5629499534213120 (-49)) /\
  py_float_floor_div_x fone ftenth = FVal (S754_finite false 5066549580791808 (-49)).
Proof. vm_compute. repeat split. Qed.

Theorem floordiv_old_refuted_ex :
  exists a b, fvalid a = true /\ fvalid b = true /\
    floordiv_node_x false a b <> py_float_floor_div_x a b.
Proof. exists fone, ftenth. vm_compute. repeat split; discriminate. Qed.

(* ---------- exact characterisation of the current ModFloat ---------- *)

(* is_inf and is_nan read as in Model/M_Complex.v, which this file does not import *)
Definition is_inf (x : F) : bool := match x with S754_infinity _ => true | _ => false end.
Definition is_nan (x : F) : bool := match x with S754_nan => true | _ => false end.
Definition is_pzero (x : F) : bool := match x with S754_zero false => true | _ => false end.
Definition is_neg_finite (x : F) : bool := match x with S754_finite true _ _ => true | _ => false end.

(* the finding class F2, in terms of r = fmod(a, b):
   - b infinite and no adjustment by b happens (r is not NaN):  0 * inf = nan is added
   - r = +0 and b a negative finite number:  +0 + -0 = +0, CPython returns copysign(0, b) = -0 *)
Definition mod_old_bad (r b : F) : bool :=
  (is_inf b && negb (is_nan r) && negb (fnonzero r && xorb (fneg r) (fneg b)))
  || (is_pzero r && is_neg_finite b).

(* The comparison needs 1.0 * b = b ([fmul_one_l]) and, of fmod's contract, only
   fmod(a, NaN) = NaN (C99 7.12.10.1 / F.9.7.1). *)
Lemma mod_old_char_aux : forall r b,
  fvalid b = true -> feqb b fzero = false -> (b = S754_nan -> r = S754_nan) ->
  let old := fadd r (fmul (f_of_bool (fnonzero r && xorb (fneg r) (fneg b))) b) in
  let py := if fnonzero r then (if negb (Bool.eqb (fneg b) (fneg r)) then fadd r b else r)
            else fcopysign fzero b in
  (mod_old_bad r b = false -> old = py) /\ (mod_old_bad r b = true -> old <> py).
Proof.
  intros r b Hv Hnz Hn. cbv zeta. rewrite <- xorb_neq.
  destruct (fnonzero r && xorb (fneg r) (fneg b)) eqn:C.
  - (* adjustment: r + 1*b *)
    apply andb_prop in C. destruct C as [C1 C2]. rewrite C1, C2.
    cbn [f_of_bool]. rewrite (fmul_one_l b Hv).
    split; [reflexivity|].
    unfold mod_old_bad. rewrite C1, C2. cbn [andb negb]. rewrite andb_false_r. cbn [orb].
    intros H. apply andb_prop in H. destruct H as [H1 H2].
    destruct r as [[|]| | |]; try discriminate.
  - cbn [f_of_bool].
    destruct b as [[|]|[|]| |[|] mb eb]; try discriminate;
      destruct r as [[|]|[|]| |[|] mr er]; cbn in C |- *; try discriminate C;
      (split; [intros Hb; try discriminate Hb; try reflexivity
              | intros Hb; try discriminate Hb; try discriminate]).
    all: discriminate (Hn eq_refl).
Qed.

(* current ModFloat = CPython exactly outside the class, and different inside *)
Theorem mod_old_characterised : forall (fmod : F -> F -> F),
  (forall a, fmod a S754_nan = S754_nan) ->
  forall a b, fvalid b = true ->
  (mod_old_bad (fmod a b) b = false -> mod_node fmod false a b = py_float_rem fmod a b) /\
  (feqb b fzero = false -> mod_old_bad (fmod a b) b = true ->
     mod_node fmod false a b <> py_float_rem fmod a b).
Proof.
  intros fmod fmod_nan_r a b Hv. unfold mod_node, py_float_rem, mod_float, mod_float_old.
  destruct (feqb b fzero) eqn:Z.
  - split; [reflexivity| discriminate].
  - destruct (mod_old_char_aux (fmod a b) b Hv Z) as [H1 H2].
    { intros ->. apply fmod_nan_r. } cbv zeta in H1, H2.
    split.
    + intros Hb. f_equal. apply H1, Hb.
    + intros _ Hb E. apply (H2 Hb). injection E. auto.
Qed.
