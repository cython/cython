(* Proofs about Model/M_DepTree.v: the memoised, cycle-aware transitive merge computes the
   reflexive-transitive closure, for every finite graph, every stack discipline state and
   every history of queries on the shared cache. *)
From Coq Require Import List Arith Bool ZArith Lia.
From CyVerif Require Import Model.M_DepTree.
Import ListNotations.

Ltac splits := repeat match goal with |- _ /\ _ => split end.

Lemma mem_In x l : mem x l = true <-> In x l.
Proof.
  induction l as [|y t IH]; simpl.
  - split; [discriminate | tauto].
  - destruct (Nat.eqb_spec x y) as [->|Hne].
    + split; auto.
    + rewrite IH. split; [auto | intros [H|H]; [congruence | exact H]].
Qed.

Lemma union_In x a b : In x (union a b) <-> In x a \/ In x b.
Proof.
  unfold union. rewrite in_app_iff, filter_In. cbv beta. split.
  - intros [H|[H _]]; auto.
  - intros [H|H]; auto.
    destruct (mem x a) eqn:E.
    + left. apply mem_In; exact E.
    + right. split; [exact H | reflexivity].
Qed.

Lemma lookup_cons_eq {A} k (v : A) l : lookup k ((k, v) :: l) = Some v.
Proof. simpl. now rewrite Nat.eqb_refl. Qed.

Lemma lookup_cons_ne {A} k k' (v : A) l : k <> k' -> lookup k ((k', v) :: l) = lookup k l.
Proof. intros H. simpl. destruct (Nat.eqb_spec k k'); [contradiction | reflexivity]. Qed.

Lemma lookup_In_keys {A} k (l : list (node * A)) v : lookup k l = Some v -> In k (map fst l).
Proof.
  induction l as [|[k' v'] t IH]; simpl; [discriminate|].
  destruct (Nat.eqb_spec k k'); intros H; [left; auto | right; auto].
Qed.

Lemma lookup_None_keys {A} k (l : list (node * A)) : lookup k l = None -> ~ In k (map fst l).
Proof.
  induction l as [|[k' v'] t IH]; simpl; [tauto|].
  destruct (Nat.eqb_spec k k'); [discriminate|]. intros H [E|I]; [congruence | now apply IH].
Qed.

Lemma opt_is_spec o n : reflect (o = Some n) (opt_is o n).
Proof.
  destruct o as [l|]; simpl; [|constructor; discriminate].
  destruct (Nat.eqb_spec l n); constructor; congruence.
Qed.

Section Graph.
  Variable outgoing : node -> list node.
  Variable extract : node -> nset.
  (* the finite node universe, closed under the edges *)
  Variable V : list node.
  Hypothesis V_closed : forall v, In v V -> incl (outgoing v) V.

  Inductive reach : node -> node -> Prop :=
  | reach_refl n : reach n n
  | reach_step n c m : In c (outgoing n) -> reach c m -> reach n m.

  (* reachability inside the graph with the nodes of A removed *)
  Inductive reach_av (A : node -> Prop) : node -> node -> Prop :=
  | ra_refl n : ~ A n -> reach_av A n n
  | ra_step n c m : ~ A n -> In c (outgoing n) -> reach_av A c m -> reach_av A n m.

  (* x is an item of the closure of n *)
  Definition closure (n : node) (x : nat) : Prop := exists m, reach n m /\ In x (extract m).

  Lemma reach_trans a b c : reach a b -> reach b c -> reach a c.
  Proof. induction 1; intros; [assumption | econstructor; eauto]. Qed.

  Lemma reach_av_reach A n m : reach_av A n m -> reach n m.
  Proof. induction 1; [constructor | econstructor; eauto]. Qed.

  Lemma reach_av_mono (A B : node -> Prop) n m :
    (forall x, B x -> A x) -> reach_av A n m -> reach_av B n m.
  Proof.
    intros HBA H. induction H as [n Hn | n c m Hn Hc _ IH].
    - apply ra_refl. intros HB; apply Hn; auto.
    - eapply ra_step; eauto.
  Qed.

  Lemma reach_reach_av n m : reach n m -> reach_av (fun _ => False) n m.
  Proof. induction 1; [apply ra_refl; tauto | eapply ra_step; eauto]. Qed.

  (* first step out of n, then never through n again *)
  Lemma reach_av_split (A : node -> Prop) n x m :
    reach_av A x m ->
    reach_av (fun y => A y \/ y = n) x m \/ m = n \/
    exists c, In c (outgoing n) /\ reach_av (fun y => A y \/ y = n) c m.
  Proof.
    induction 1 as [x Hx | x c m Hx Hc _ IH].
    - destruct (Nat.eq_dec x n) as [->|Hne]; [right; left; reflexivity|].
      left. apply ra_refl. intros [H|H]; auto.
    - destruct IH as [IH|[IH|IH]]; [|right; left; exact IH|right; right; exact IH].
      destruct (Nat.eq_dec x n) as [->|Hne].
      + right; right. exists c; auto.
      + left. eapply ra_step; eauto. intros [H|H]; auto.
  Qed.

  Lemma reach_av_first (A : node -> Prop) n m :
    reach_av A n m ->
    m = n \/ exists c, In c (outgoing n) /\ reach_av (fun y => A y \/ y = n) c m.
  Proof.
    intros H. destruct (reach_av_split A n n m H) as [H1|[H1|H1]]; auto.
    exfalso. inversion H1; subst; match goal with H : ~ (_ \/ _) |- _ => apply H; right; reflexivity end.
  Qed.

  (* every cache entry is exactly the closure of its key *)
  Definition cache_ok (seen : cache) : Prop :=
    forall k d, lookup k seen = Some d -> forall x, In x d <-> closure k x.

  (* the stack dict: distinct keys inside V, depth indices below its length *)
  Definition stack_ok (st : stk) : Prop :=
    NoDup (map fst st) /\ incl (map fst st) V /\ forall s d, lookup s st = Some d -> d < length st.

  (* stack nodes at depth >= depth of loop: what a result with this `loop` may have stopped at *)
  Definition blocked (st : stk) (loop : option node) (s : node) : Prop :=
    match loop with
    | None => False
    | Some l => exists dl ds, lookup l st = Some dl /\ lookup s st = Some ds /\ dl <= ds
    end.

  Definition loop_ok (st : stk) (n : node) (loop : option node) : Prop :=
    forall l, loop = Some l -> (exists d, lookup l st = Some d) /\ reach n l.

  (* contract of one helper call (stack st) *)
  Definition call_spec (st : stk) (n : node) (r : result) : Prop :=
    exists deps loop seen',
      r = Ok deps loop seen' /\ cache_ok seen' /\
      (forall x, In x deps -> closure n x) /\
      (forall m, reach_av (blocked st loop) n m -> incl (extract m) deps) /\
      loop_ok st n loop.

  Lemma blocked_choose st loop sub loop1 :
    choose_loop st loop sub = Some loop1 ->
    (forall s, blocked st loop s -> blocked st loop1 s) /\
    (forall s, blocked st sub s -> blocked st loop1 s) /\
    (loop1 = loop \/ loop1 = sub).
  Proof.
    unfold choose_loop. destruct sub as [sl|].
    - destruct loop as [l|].
      + destruct (lookup l st) as [dl|] eqn:El; [|discriminate].
        destruct (lookup sl st) as [ds|] eqn:Es; [|discriminate].
        destruct (Nat.ltb_spec dl ds) as [Hlt|Hge]; intros H; inversion H; subst; clear H.
        * splits; auto. intros s (d1 & d2 & H1 & H2 & H3). simpl.
          rewrite Es in H1. inversion H1; subst. exists dl, d2. splits; auto. lia.
        * splits; auto. intros s (d1 & d2 & H1 & H2 & H3). simpl.
          rewrite El in H1. inversion H1; subst. exists ds, d2. splits; auto. lia.
      + intros H; inversion H; subst. splits; auto. intros s [].
    - intros H; inversion H; subst. splits; auto. intros s [].
  Qed.

  Lemma choose_loop_total st loop sub :
    (forall l, loop = Some l -> exists d, lookup l st = Some d) ->
    (forall l, sub = Some l -> exists d, lookup l st = Some d) ->
    exists loop1, choose_loop st loop sub = Some loop1.
  Proof.
    intros H1 H2. unfold choose_loop. destruct sub as [sl|]; [|eauto]. destruct loop as [l|]; [|eauto].
    destruct (H1 l eq_refl) as [dl ->]. destruct (H2 sl eq_refl) as [ds ->].
    destruct (dl <? ds); eauto.
  Qed.

  Lemma children_spec (rec : node -> cache -> result) (st : stk) (parent : node) :
    (forall c seen, In c V -> cache_ok seen -> call_spec st c (rec c seen)) ->
    forall l deps0 loop0 seen0,
      incl l V -> incl l (outgoing parent) -> cache_ok seen0 -> loop_ok st parent loop0 ->
      exists deps loop seen',
        children rec st l deps0 loop0 seen0 = Ok deps loop seen' /\ cache_ok seen' /\
        incl deps0 deps /\
        (forall x, In x deps -> In x deps0 \/ exists c, In c l /\ closure c x) /\
        (forall c m, In c l -> reach_av (blocked st loop) c m -> incl (extract m) deps) /\
        (forall s, blocked st loop0 s -> blocked st loop s) /\
        loop_ok st parent loop.
  Proof.
    intros Hrec. induction l as [|c tl IH]; intros deps0 loop0 seen0 HV Hout Hc Hl0; simpl.
    - exists deps0, loop0, seen0. splits; auto using incl_refl.
      intros c m [].
    - assert (HcV : In c V) by (apply HV; left; reflexivity).
      destruct (Hrec c seen0 HcV Hc) as (sd & sl & seen1 & -> & Hc1 & Hsound & Hcompl & Hsl).
      destruct (choose_loop_total st loop0 sl) as [loop1 Hch].
      { intros l0 E. apply (Hl0 l0 E). }
      { intros l0 E. apply (Hsl l0 E). }
      rewrite Hch. destruct (blocked_choose _ _ _ _ Hch) as (Hb0 & Hbs & Hor).
      destruct (IH (union deps0 sd) loop1 seen1) as (deps & loop & seen' & Heq & Hc' & Hincl & Hsnd & Hcmp & Hbl & Hlp).
      { intros x Hx; apply HV; right; exact Hx. }
      { intros x Hx; apply Hout; right; exact Hx. }
      { exact Hc1. }
      { intros l1 E. destruct Hor as [->| ->].
        - apply (Hl0 l1 E).
        - destruct (Hsl l1 E) as [Hd Hr]. split; [exact Hd|].
          econstructor; [apply Hout; left; reflexivity | exact Hr]. }
      exists deps, loop, seen'. split; [exact Heq|]. split; [exact Hc'|]. split; [|split; [|split; [|split]]].
      + intros x Hx. apply Hincl. apply union_In. left; exact Hx.
      + intros x Hx. destruct (Hsnd x Hx) as [H|(c' & Hc'in & Hcl)].
        * apply union_In in H. destruct H as [H|H]; [left; exact H|].
          right. exists c. split; [left; reflexivity | apply Hsound; exact H].
        * right. exists c'. split; [right; exact Hc'in | exact Hcl].
      + intros c' m [<-|Hin] Hr.
        * intros x Hx. apply Hincl. apply union_In. right.
          apply (Hcompl m); [|exact Hx].
          eapply reach_av_mono; [|exact Hr]. intros s Hs. apply Hbl. apply Hbs. exact Hs.
        * apply (Hcmp c' m Hin Hr).
      + intros s Hs. apply Hbl. apply Hb0. exact Hs.
      + exact Hlp.
  Qed.

  Lemma call_spec_intro st n deps loop seen' :
    cache_ok seen' ->
    (forall x, In x deps -> closure n x) ->
    (forall m, reach_av (blocked st loop) n m -> incl (extract m) deps) ->
    loop_ok st n loop ->
    call_spec st n (Ok deps loop seen').
  Proof. intros H1 H2 H3 H4. exists deps, loop, seen'. splits; auto. Qed.

  Lemma loop_ok_None st n : loop_ok st n None.
  Proof. intros l E; discriminate. Qed.

  Lemma cache_ok_add seen n deps :
    cache_ok seen -> (forall x, In x deps <-> closure n x) -> cache_ok ((n, deps) :: seen).
  Proof.
    intros Hc Hd k d. simpl. destruct (Nat.eqb_spec k n) as [->|Hne].
    - intros E; inversion E; subst d. exact Hd.
    - apply Hc.
  Qed.

  Lemma stack_ok_push st n : stack_ok st -> In n V -> lookup n st = None -> stack_ok ((n, length st) :: st).
  Proof.
    intros (Hnd & HinV & Hdepth) HnV Hn. split; [|split]; simpl.
    - constructor; [apply lookup_None_keys; exact Hn | exact Hnd].
    - intros x [<-|Hx]; [exact HnV | apply HinV; exact Hx].
    - intros s d. destruct (Nat.eqb_spec s n).
      + intros E; inversion E; subst. lia.
      + intros E. apply Hdepth in E. lia.
  Qed.

  Lemma call_spec_cached st n d seen :
    cache_ok seen -> lookup n seen = Some d -> call_spec st n (Ok d None seen).
  Proof.
    intros Hc E. apply call_spec_intro; [exact Hc | | | apply loop_ok_None].
    - intros x Hx. apply (Hc n d E). exact Hx.
    - intros m Hr x Hx. apply (Hc n d E). exists m. split; [eapply reach_av_reach; eauto | exact Hx].
  Qed.

  (* a node met again below itself gives its own items and names itself as the head of the cycle *)
  Lemma call_spec_on_stack st n dn seen :
    cache_ok seen -> lookup n st = Some dn -> call_spec st n (Ok (extract n) (Some n) seen).
  Proof.
    intros Hc E. apply call_spec_intro; [exact Hc | | | ].
    - intros x Hx. exists n. split; [constructor | exact Hx].
    - intros m Hr. exfalso.
      assert (Hb : blocked st (Some n) n) by (exists dn, dn; auto).
      inversion Hr; subst; contradiction.
    - intros l [= <-]. split; [eauto | constructor].
  Qed.

  (* a new node after the loop over its children (run on the stack st1 = st with n pushed): deps holds
     its own items and whatever the children reach outside blocked st1 loop.  When n heads every cycle
     met below it, or none was met, that is the whole closure and the entry is cached; otherwise the
     head is an enclosing stack node and the result is passed up uncached *)
  Lemma node_spec st n deps loop seen' :
    stack_ok st -> lookup n st = None -> cache_ok seen' -> incl (extract n) deps ->
    (forall x, In x deps -> In x (extract n) \/ exists c, In c (outgoing n) /\ closure c x) ->
    (forall c m, In c (outgoing n) -> reach_av (blocked ((n, length st) :: st) loop) c m -> incl (extract m) deps) ->
    loop_ok ((n, length st) :: st) n loop ->
    call_spec st n (let loop2 := if opt_is loop n then None else loop in
                    match loop2 with
                    | None => Ok deps None ((n, deps) :: seen')
                    | Some _ => Ok deps loop2 seen'
                    end).
  Proof.
    intros (_ & _ & Hdepth) Estack Hc' Hincl Hsnd Hcmp Hlp. set (st1 := (n, length st) :: st) in *.
    assert (Hsound : forall x, In x deps -> closure n x).
    { intros x Hx. destruct (Hsnd x Hx) as [H|(c & Hcin & m & Hr & Hm)].
      - exists n. split; [constructor | exact H].
      - exists m. split; [econstructor; eauto | exact Hm]. }
    (* completeness: everything reachable without entering B, when blocked(loop) is within B + {n} *)
    assert (Hcomplete : forall (B : node -> Prop),
               (forall s, blocked st1 loop s -> B s \/ s = n) ->
               forall m, reach_av B n m -> incl (extract m) deps).
    { intros B HB m Hr. destruct (reach_av_first B n m Hr) as [->|(c & Hcin & Hrc)].
      - exact Hincl.
      - apply (Hcmp c m Hcin). eapply reach_av_mono; [|exact Hrc]. exact HB. }
    assert (Hcached : (forall s, blocked st1 loop s -> s = n) ->
               call_spec st n (Ok deps None ((n, deps) :: seen'))).
    { intros Hbn.
      assert (Hall : forall m, reach n m -> incl (extract m) deps).
      { intros m Hr. apply (Hcomplete (fun _ => False)); [|apply reach_reach_av; exact Hr].
        intros s Hs. right. apply Hbn. exact Hs. }
      apply call_spec_intro.
      - apply cache_ok_add; [exact Hc'|]. intros x. split; [apply Hsound|].
        intros (m & Hr & Hm). apply (Hall m Hr). exact Hm.
      - exact Hsound.
      - intros m Hr. apply Hall. eapply reach_av_reach; eauto.
      - apply loop_ok_None. }
    cbv zeta. destruct (opt_is_spec loop n) as [->|Hne]; [|destruct loop as [l|]].
    - (* loop == node: n heads every cycle met below it; complete, cached *)
      apply Hcached. intros s (dl & ds & H1 & H2 & H3).
      unfold st1 in H1, H2. rewrite lookup_cons_eq in H1. inversion H1; subst dl.
      simpl in H2. destruct (Nat.eqb_spec s n); [assumption|].
      apply Hdepth in H2. lia.
    - (* an enclosing stack node is the head: not cached *)
      assert (Hln : l <> n) by congruence.
      destruct (Hlp l eq_refl) as [[dl Hdl] Hrl].
      unfold st1 in Hdl. rewrite lookup_cons_ne in Hdl by exact Hln.
      apply call_spec_intro.
      + exact Hc'.
      + exact Hsound.
      + intros m Hr. apply (Hcomplete (blocked st (Some l))); [|exact Hr].
        intros s (d1 & d2 & H1 & H2 & H3).
        destruct (Nat.eq_dec s n) as [->|Hsn]; [right; reflexivity|]. left.
        unfold st1 in H1, H2. rewrite lookup_cons_ne in H1, H2; auto.
        exists d1, d2. auto.
      + intros l' [= <-]. split; [eauto | exact Hrl].
    - (* no cycle through the stack: complete, cached *)
      apply Hcached. intros s [].
  Qed.

  Lemma tmh_spec : forall fuel n seen st,
    In n V -> cache_ok seen -> stack_ok st -> length V + 1 <= fuel + length st ->
    call_spec st n (tmh outgoing extract fuel n seen st).
  Proof.
    induction fuel as [|f IH]; intros n seen st HnV Hc Hst Hfuel.
    - (* the stack never holds more than |V| nodes *)
      exfalso. destruct Hst as (Hnd & HinV & _).
      assert (length (map fst st) <= length V) by (apply NoDup_incl_length; auto).
      rewrite map_length in *. lia.
    - simpl. destruct (lookup n seen) as [d|] eqn:Eseen; [apply call_spec_cached; assumption|].
      destruct (lookup n st) as [dn|] eqn:Estack; [eapply call_spec_on_stack; eassumption|].
      set (st1 := (n, length st) :: st).
      destruct (children_spec (fun c s => tmh outgoing extract f c s st1) st1 n) with
          (l := outgoing n) (deps0 := extract n) (loop0 := @None node) (seen0 := seen)
        as (deps & loop & seen' & Heq & Hc' & Hincl & Hsnd & Hcmp & _ & Hlp).
      { intros c s HcV Hcs. apply IH; [assumption|assumption|apply stack_ok_push; assumption|simpl; lia]. }
      { apply V_closed; exact HnV. }
      { apply incl_refl. }
      { exact Hc. }
      { apply loop_ok_None. }
      rewrite Heq. apply node_spec; assumption.
  Qed.

  Lemma stack_ok_nil : stack_ok [].
  Proof. split; [constructor | split; [intros x [] | intros s d; discriminate]]. Qed.

  Lemma cache_ok_nil : cache_ok [].
  Proof. intros k d; discriminate. Qed.

  (* nothing is blocked when no loop is reported: the merged set is the whole closure *)
  Lemma call_spec_exact st n deps seen' :
    call_spec st n (Ok deps None seen') -> forall x, In x deps <-> closure n x.
  Proof.
    intros (deps' & loop & seen'' & [= <- <- <-] & _ & Hsound & Hcompl & _) x. split; [apply Hsound|].
    intros (m & Hr & Hm). apply (Hcompl m); [|exact Hm].
    eapply reach_av_mono; [|apply reach_reach_av; exact Hr]. intros s [].
  Qed.

  (* one top-level query on any cache produced so far *)
  Lemma transitive_merge_correct seen q :
    In q V -> cache_ok seen ->
    exists deps seen',
      transitive_merge outgoing extract (fuel_for V) seen q = Ok deps None seen' /\
      cache_ok seen' /\ forall x, In x deps <-> closure q x.
  Proof.
    intros Hq Hc. unfold transitive_merge, fuel_for.
    pose proof (tmh_spec (S (length V)) q seen [] Hq Hc stack_ok_nil ltac:(simpl; lia)) as S.
    pose proof S as (deps & loop & seen' & Heq & Hc' & _ & _ & Hlp).
    assert (loop = None) as ->.
    { destruct loop as [l|]; [|reflexivity]. destruct (Hlp l eq_refl) as [[d Hd] _]. discriminate. }
    exists deps, seen'. split; [exact Heq|]. split; [exact Hc'|]. rewrite Heq in S. apply (call_spec_exact _ _ _ _ S).
  Qed.

  (* answers of a query sequence: pointwise the closure *)
  Definition answers_ok (qs : list node) (ans : list nset) : Prop :=
    Forall2 (fun q d => forall x, In x d <-> closure q x) qs ans.

  Lemma run_queries_correct : forall qs seen,
    incl qs V -> cache_ok seen ->
    exists ans seen',
      run_queries outgoing extract (fuel_for V) seen qs = QOk ans seen' /\
      cache_ok seen' /\ answers_ok qs ans.
  Proof.
    induction qs as [|q tl IH]; intros seen HV Hc; simpl.
    - exists [], seen. splits; auto. constructor.
    - destruct (transitive_merge_correct seen q) as (d & seen1 & -> & Hc1 & Hd); auto.
      { apply HV; left; reflexivity. }
      destruct (IH seen1) as (ans & seen2 & -> & Hc2 & Hans); auto.
      { intros x Hx; apply HV; right; exact Hx. }
      exists (d :: ans), seen2. splits; auto. constructor; auto.
  Qed.

  Theorem closure_correct qs :
    incl qs V ->
    exists ans seen',
      run_queries outgoing extract (fuel_for V) [] qs = QOk ans seen' /\
      cache_ok seen' /\ answers_ok qs ans.
  Proof. intros H. apply run_queries_correct; auto using cache_ok_nil. Qed.

  (* the contract of the helper in any well-formed state, in the words of the code *)
  Theorem helper_contract n seen st :
    In n V -> cache_ok seen -> stack_ok st ->
    exists deps loop seen',
      tmh outgoing extract (fuel_for V) n seen st = Ok deps loop seen' /\
      cache_ok seen' /\
      (forall x, In x deps -> closure n x) /\
      (forall m, reach_av (blocked st loop) n m -> incl (extract m) deps) /\
      (forall l, loop = Some l -> (exists d, lookup l st = Some d) /\ reach n l) /\
      (loop = None -> forall x, In x deps <-> closure n x).
  Proof.
    intros Hn Hc Hst.
    pose proof (tmh_spec (fuel_for V) n seen st Hn Hc Hst ltac:(unfold fuel_for; lia)) as S.
    pose proof S as (deps & loop & seen' & Heq & Hc' & Hsound & Hcompl & Hlp).
    exists deps, loop, seen'. splits; auto.
    intros ->. rewrite Heq in S. apply (call_spec_exact _ _ _ _ S).
  Qed.

  (* the last of a sequence of queries, whatever was asked before it *)
  Lemma last_answer qs q :
    incl qs V -> In q V ->
    exists a ans s,
      run_queries outgoing extract (fuel_for V) [] (qs ++ [q]) = QOk (ans ++ [a]) s /\
      forall x, In x a <-> closure q x.
  Proof.
    intros Hqs Hq.
    destruct (closure_correct (qs ++ [q])) as (ans & s & Heq & _ & Hans).
    { intros x Hx. apply in_app_iff in Hx. destruct Hx as [Hx|[<-|[]]]; auto. }
    unfold answers_ok in Hans. apply Forall2_app_inv_l in Hans.
    destruct Hans as (l1 & l2 & _ & Hl2 & ->). inversion Hl2 as [|? a ? l2' Ha Hnil]; subst.
    inversion Hnil; subst. exists a, l1, s. split; auto.
  Qed.
End Graph.

(* the answer to a query does not depend on what was asked before *)
Theorem order_independent outgoing extract V qs1 qs2 q :
  (forall v, In v V -> incl (outgoing v) V) -> incl qs1 V -> incl qs2 V -> In q V ->
  exists a1 a2 ans1 ans2 s1 s2,
    run_queries outgoing extract (fuel_for V) [] (qs1 ++ [q]) = QOk (ans1 ++ [a1]) s1 /\
    run_queries outgoing extract (fuel_for V) [] (qs2 ++ [q]) = QOk (ans2 ++ [a2]) s2 /\
    forall x, In x a1 <-> In x a2.
Proof.
  intros Hcl H1 H2 Hq.
  destruct (last_answer outgoing extract V Hcl qs1 q H1 Hq) as (a1 & ans1 & s1 & E1 & C1).
  destruct (last_answer outgoing extract V Hcl qs2 q H2 Hq) as (a2 & ans2 & s2 & E2 & C2).
  exists a1, a2, ans1, ans2, s1, s2. split; [exact E1|]. split; [exact E2|].
  intros x. rewrite C1, C2. tauto.
Qed.

Open Scope Z_scope.

(* the running maximum is an upper bound of the start value and of every item, and is one of them *)
Lemma fold_max_spec (ts : nat -> Z) l a :
  let r := fold_left (fun acc x => Z.max acc (ts x)) l a in
  a <= r /\ (forall x, In x l -> ts x <= r) /\ (r = a \/ exists x, In x l /\ r = ts x).
Proof.
  revert a. induction l as [|y t IH]; intros a; simpl.
  - split; [lia|]. split; [intros x [] | left; reflexivity].
  - destruct (IH (Z.max a (ts y))) as (Hge & Hub & Hwit). split; [lia|]. split.
    + intros x [<-|Hx]; [lia|apply Hub; exact Hx].
    + destruct Hwit as [E|(x & Hx & E)]; [|right; exists x; auto].
      destruct (Z.max_spec a (ts y)) as [[_ Em]|[_ Em]].
      * right. exists y. split; [left; reflexivity | rewrite E; exact Em].
      * left. rewrite E; exact Em.
Qed.

Lemma newest_spec ts deps :
  deps <> [] ->
  exists t, newest ts deps = Some t /\ (forall x, In x deps -> ts x <= t) /\ exists x, In x deps /\ t = ts x.
Proof.
  destruct deps as [|d tl]; [congruence|]. intros _. simpl.
  destruct (fold_max_spec ts tl (ts d)) as (Hge & Hub & Hwit). eexists. split; [reflexivity|]. split.
  - intros x [<-|Hx]; [exact Hge | apply Hub; exact Hx].
  - destruct Hwit as [E|(x & Hx & E)]; [exists d | exists x]; auto.
Qed.

(* without force: regenerate exactly when some dependency is newer than the C file *)
Theorem rebuild_iff_newer c_ts ts source deps :
  In source deps ->
  exists b, rebuild_decision false c_ts ts source deps = Some b /\
            (b = true <-> exists x, In x deps /\ c_ts < ts x).
Proof.
  intros Hs. unfold rebuild_decision.
  destruct (Z.ltb_spec c_ts (ts source)) as [Hlt|Hge].
  - exists true. split; [reflexivity|]. split; auto. intros _. exists source. auto.
  - destruct (newest_spec ts deps) as (t & -> & Hub & x & Hx & Et).
    { intros ->. contradiction. }
    exists (c_ts <? t). split; [reflexivity|]. simpl. rewrite Z.ltb_lt. split.
    + intros H. exists x. subst t. auto.
    + intros (y & Hy & H). specialize (Hub y Hy). lia.
Qed.

Theorem rebuild_forced c_ts ts source deps :
  In source deps -> rebuild_decision true c_ts ts source deps = Some true.
Proof.
  intros Hs. unfold rebuild_decision.
  destruct (Z.ltb_spec c_ts (ts source)); [reflexivity|].
  destruct (newest_spec ts deps) as (t & -> & _). { intros ->. contradiction. }
  reflexivity.
Qed.
Close Scope Z_scope.

(* end to end: the decision on the answer of any query history *)
Theorem cythonize_exact outgoing extract V (before : list node) q (c_ts : Z) (ts : nat -> Z) :
  (forall v, In v V -> incl (outgoing v) V) -> incl before V -> In q V ->
  In q (extract q) ->                       (* immediate_dependencies contains the file itself *)
  exists ans d seen b,
    run_queries outgoing extract (fuel_for V) [] (before ++ [q]) = QOk (ans ++ [d]) seen /\
    rebuild_decision false c_ts ts q d = Some b /\
    (b = true <-> exists n x, reach outgoing q n /\ In x (extract n) /\ (c_ts < ts x)%Z).
Proof.
  intros Hcl Hb Hq Hself.
  destruct (last_answer outgoing extract V Hcl before q Hb Hq) as (d & l1 & s & Heq & Hd).
  assert (Hin : In q d). { apply Hd. exists q. split; [constructor | exact Hself]. }
  destruct (rebuild_iff_newer c_ts ts q d Hin) as (b & Hb1 & Hb2).
  exists l1, d, s, b. split; [exact Heq|]. split; [exact Hb1|]. rewrite Hb2. split.
  - intros (x & Hx & Hlt). apply Hd in Hx. destruct Hx as (n & Hr & Hn). exists n, x. auto.
  - intros (n & x & Hr & Hn & Hlt). exists x. split; [|exact Hlt]. apply Hd. exists n. auto.
Qed.

(* Finding from_cimport_submodule_untracked.  The code as it is: pk/q0.pxd (2) is read by the compiler
   but is not in all_dependencies(m.pyx), and touching it (timestamp 30 > C file 20 > everything else 10)
   does not regenerate m. *)
Lemma from_cimport_scan_refuted :
  exists ans seen x,
    run_queries (wit_out false) (wit_ext false) (fuel_for [0; 1; 2]) [] [0] = QOk [ans] seen /\
    In x wit_files_read /\ ~ In x ans /\
    wit_rebuild false 20 (fun f => if Nat.eqb f 2 then 30 else 10)%Z = Some false.
Proof.
  exists [0; 1], [(0, [0; 1]); (1, [1])], 2. split; [reflexivity|]. split; [simpl; tauto|].
  split; [|reflexivity]. simpl. intros [H|[H|[]]]; discriminate.
Qed.

(* After the repair: the answer is the set of files read, and the module is regenerated exactly when
   one of the files read is newer than the C file. *)
Lemma from_cimport_scan_fixed :
  exists ans seen,
    run_queries (wit_out true) (wit_ext true) (fuel_for [0; 1; 2]) [] [0] = QOk [ans] seen /\
    (forall x, In x ans <-> In x wit_files_read) /\
    forall c_ts ts, exists b, wit_rebuild true c_ts ts = Some b /\
      (b = true <-> exists x, In x wit_files_read /\ (c_ts < ts x)%Z).
Proof.
  exists [0; 1; 2], [(0, [0; 1; 2]); (2, [2]); (1, [1])]. split; [reflexivity|]. split.
  - intros x. simpl. tauto.
  - intros c_ts ts. unfold wit_rebuild.
    change (run_queries (wit_out true) (wit_ext true) (fuel_for [0; 1; 2]) [] [0])
      with (QOk [[0; 1; 2]] [(0, [0; 1; 2]); (2, [2]); (1, [1])]).
    apply rebuild_iff_newer. simpl. tauto.
Qed.
