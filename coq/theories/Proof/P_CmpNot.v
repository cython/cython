(* Proofs for Model/M_CmpNot.v: `not (a in b)` -> `a not in b` etc. keeps value, exception and
   operand evaluations. *)
From Coq Require Import ZArith List Bool Lia.
From CyVerif Require Import Lib.CInt Model.M_Cmp Proof.P_Cmp Model.M_CmpFold Model.M_CmpNot.
Import ListNotations.
Open Scope Z_scope.

Definition quiet (v : val) : bool := false.

Section NotProofs.
  Variable cmp : Z -> val -> val -> val + exn.
  Variable truth : val -> bool + exn.
  Variable vbool : bool -> val.

  Hypothesis Htruth : forall b, truth (vbool b) = inl b.
  (* `a not in b` is `not (a in b)`, `a is not b` is `not (a is b)` (language reference 6.10.2,
     6.10.3): same exception, negated bool *)
  Hypothesis Hneg : forall op op' a b, negate_op op = Some op' ->
    match cmp op a b with
    | inr x => cmp op' a b = inr x
    | inl r => exists bb, r = vbool bb /\ cmp op' a b = inl (vbool (negb bb))
    end.

  Theorem handle_not_correct : forall ns,
    obs quiet (eval_nexpr cmp truth vbool (handle_not ns)) =
    obs quiet (eval_nexpr cmp truth vbool (NNot ns)).
  Proof.
    intros ns. unfold handle_not.
    destruct ns as [|n [|n2 ns]]; try reflexivity.
    2:{ destruct n as [b|[h [|[op r] [|l2 ls]]]]; reflexivity. }
    destruct n as [b|[h ls]].
    - cbn [eval_nexpr eval_nodes eval_node]. rewrite Htruth. unfold obs. cbn [fst snd app filter keep quiet].
      reflexivity.
    - destruct ls as [|[op r] [|l2 ls]]; try reflexivity.
      destruct (negate_op op) as [op'|] eqn:Hn; [|reflexivity].
      cbn [eval_nexpr eval_nodes eval_node fst snd app].
      destruct (o_res h) as [v0|x]; [|reflexivity].
      rewrite !ref_links_cons.
      destruct (o_res r) as [vr|x]; [|reflexivity].
      specialize (Hneg op op' v0 vr Hn).
      destruct (cmp op v0 vr) as [res|x].
      + destruct Hneg as [bb [Hb Hc]]. subst res. rewrite Hc. cbn [ref_after]. rewrite Htruth.
        unfold obs. cbn [fst snd]. f_equal.
        rewrite !filter_snoc_false by reflexivity. reflexivity.
      + rewrite Hneg. unfold obs. cbn [fst snd]. f_equal.
        rewrite !filter_snoc_false by reflexivity. reflexivity.
  Qed.
End NotProofs.

(* operator 8 (in) is swapped to 9 (not in); 0 (<) keeps its NotNode; a literal is negated *)
Theorem handle_not_nonvacuous :
  handle_not [FCasc (mkOp 0 true (inl 1), [(8, mkOp 1 true (inl 7))])] =
    NPlain [FCasc (mkOp 0 true (inl 1), [(9, mkOp 1 true (inl 7))])] /\
  handle_not [FCasc (mkOp 0 true (inl 1), [(0, mkOp 1 true (inl 7))])] =
    NNot [FCasc (mkOp 0 true (inl 1), [(0, mkOp 1 true (inl 7))])] /\
  handle_not [FBool true] = NPlain [FBool false].
Proof. repeat split; reflexivity. Qed.
