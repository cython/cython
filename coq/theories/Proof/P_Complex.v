(* C08 -- proofs about M_Complex.v *)
From Coq Require Import ZArith Bool List SpecFloat Lia.
From CyVerif Require Import Model.M_FloatOps Model.M_Complex Lib.FloatMulOne.
Import ListNotations.
Open Scope Z_scope.

(* ---------- same operation tree: + - * unary - conjugate == ---------- *)
Lemma sum_same a b : c_sum a b = py_c_sum a b.       Proof. reflexivity. Qed.
Lemma diff_same a b : c_diff a b = py_c_diff a b.    Proof. reflexivity. Qed.
Lemma prod_same a b : c_prod a b = py_c_prod a b.    Proof. reflexivity. Qed.
Lemma neg_same a : c_neg a = py_c_neg a.             Proof. reflexivity. Qed.
Lemma conj_same a : c_conj a = py_conj a.            Proof. reflexivity. Qed.
Lemma eq_same a b : c_eq a b = py_eq a b.            Proof. reflexivity. Qed.

(* ---------- zero division ---------- *)
Definition absf (x : F) : F := if fltb x fzero then fopp x else x.   (* x < 0 ? -x : x *)

Lemma absf_zero_test br bi :
  feqb (absf br) fzero && fgeb (absf br) (absf bi) = feqb br fzero && feqb bi fzero.
Proof.
  destruct br as [[|]|[|]| |[|] mr er]; try reflexivity;
  destruct bi as [[|]|[|]| |[|] mi ei]; reflexivity.
Qed.

Lemma py_quot_edom a b : py_c_quot a b = None <-> c_is_zero b = true.
Proof.
  destruct b as [br bi]. unfold py_c_quot, c_is_zero. cbn [re im].
  fold (absf br). fold (absf bi). rewrite <- absf_zero_test.
  destruct (fgeb (absf br) (absf bi)) eqn:E1.
  - destruct (feqb (absf br) fzero); cbn [andb]; split; intros H; try reflexivity; discriminate H.
  - rewrite andb_false_r. destruct (fgeb (absf bi) (absf br)); split; discriminate.
Qed.

Definition res_match (d : divres) (p : pyres) : Prop :=
  match d, p with
  | DivZeroDiv, PyZeroDiv => True
  | DivVal z, PyVal w => z = w
  | _, _ => False
  end.

Lemma is_zero_quot a b :
  c_is_zero b = match py_c_quot a b with None => true | Some _ => false end.
Proof.
  destruct (py_quot_edom a b) as [H1 H2].
  destruct (py_c_quot a b); [|auto]. destruct (c_is_zero b); [discriminate (H2 eq_refl) | reflexivity].
Qed.

Lemma zero_division_exact fixed a b :
  div_node fixed false a b = DivZeroDiv <-> py_complex_div a b = PyZeroDiv.
Proof.
  unfold div_node, py_complex_div. cbn [negb andb]. rewrite (is_zero_quot a b).
  destruct (py_c_quot a b); split; try reflexivity; discriminate.
Qed.

(* ---------- the repaired quotient is _Py_c_quot ---------- *)
Lemma quot_new_same a b z : py_c_quot a b = Some z -> c_quot_new a b = z.
Proof.
  unfold py_c_quot, c_quot_new.
  destruct (fgeb _ _).
  - destruct (feqb _ fzero); [discriminate|]. intros [= <-]. reflexivity.
  - destruct (fgeb _ _); intros [= <-]; reflexivity.
Qed.

Lemma div_node_fixed_same a b : res_match (div_node true false a b) (py_complex_div a b).
Proof.
  unfold div_node, py_complex_div. cbn [negb andb c_quot]. rewrite (is_zero_quot a b).
  destruct (py_c_quot a b) eqn:Ep; cbn; [apply quot_new_same, Ep | exact I].
Qed.

(* ---------- the current quotient ---------- *)
Definition fmtwohalf : F := S754_finite true 5629499534213120 (-51).   (* -2.5 *)

(* 1j / (1-2.5j): last bit (x*s vs x/denom);  0j / (-5e-324j): 1/denom overflows;
   (0-0j) / (1-0j): the b.imag == 0 shortcut keeps -0.0 *)
Lemma quot_old_refuted :
  (exists a b, ~ res_match (div_node false false a b) (py_complex_div a b) /\
               is_fnz (re b) = true /\ is_fnz (im b) = true /\ is_fin (re a) = true /\ is_fin (im a) = true) /\
  (exists a b, div_node false false a b = DivVal (Cx S754_nan S754_nan) /\
               py_complex_div a b = PyVal (Cx (S754_zero true) (S754_zero false))) /\
  (exists a b, im b = S754_zero true /\ ~ res_match (div_node false false a b) (py_complex_div a b)).
Proof.
  split; [|split].
  - exists (Cx fzero fone), (Cx fone fmtwohalf). split; [|repeat split; reflexivity].
    vm_compute. intros H. discriminate H.
  - exists (Cx fzero fzero), (Cx fzero (fminsub true)). split; vm_compute; reflexivity.
  - exists (Cx fzero fnzero), (Cx fone fnzero). split; [reflexivity|].
    vm_compute. intros H. discriminate H.
Qed.

(* what the shortcut does preserve: a real divisor (b.imag = +-0, b.real finite non-zero) and a
   dividend with finite non-zero components *)
Lemma quot_old_real_divisor a b :
  feqb (im b) fzero = true -> is_fnz (re b) = true -> is_fnz (re a) = true -> is_fnz (im a) = true ->
  py_c_quot a b = Some (c_quot_old a b).
Proof.
  destruct a as [ar ai], b as [br bi]. cbn [re im]. intros Hz Hb Har Hai.
  unfold c_quot_old, py_c_quot. cbn [re im]. rewrite Hz.
  destruct br as [ | | |sb mb eb]; try discriminate Hb.
  destruct ar as [ | | |sa ma ea]; try discriminate Har.
  destruct ai as [ | | |si mi ei]; try discriminate Hai.
  destruct bi as [sz|[|]| |[|] ? ?]; try discriminate Hz.
  destruct sb, sz, sa, si; reflexivity.
Qed.

Lemma div_node_old_real_divisor_partial a b :
  feqb (im b) fzero = true -> is_fnz (re b) = true -> is_fnz (re a) = true -> is_fnz (im a) = true ->
  res_match (div_node false false a b) (py_complex_div a b).
Proof.
  intros Hz Hb Har Hai. unfold div_node, py_complex_div. cbn [negb andb c_quot].
  rewrite (quot_old_real_divisor a b Hz Hb Har Hai).
  unfold c_is_zero. destruct (re b) as [ | | |[|] ? ?]; try discriminate Hb; cbn; reflexivity.
Qed.

(* same branch of Smith's method whenever the shortcut is not taken *)
Lemma quot_same_branch b :
  fgeb (fabs (re b)) (fabs (im b)) = fgeb (absf (re b)) (absf (im b)).
Proof.
  destruct b as [br bi]. cbn [re im].
  destruct br as [[|]|[|]| |[|] mr er], bi as [[|]|[|]| |[|] mi ei]; reflexivity.
Qed.

(* ---------- ** with small integral exponents ---------- *)
Definition ftwo : F := S754_finite false 4503599627370496 (-51).
Definition ffour : F := S754_finite false 4503599627370496 (-50).
Definition py_ret (p : cplx) : pyres := if has_inf p then PyOverflow else PyVal p.

(* exponent 0 (any signs of the zeros): both give 1+0j for every base *)
Lemma pow0_same a s1 s2 :
  c_pow a (Cx (S754_zero s1) (S754_zero s2)) = PowVal c_1 /\
  py_complex_pow a (Cx (S754_zero s1) (S754_zero s2)) = PyVal c_1.
Proof. split; reflexivity. Qed.

(* the exact relation for exponents 1..4 ([fone], [ftwo], [fthree], [ffour] are [f_of_Z] of them):
   Cython returns the product chain [c_pow_small], CPython's c_powu starts from r = 1+0j and
   associates a**3 as (1*a)*(a*a) *)
Lemma pow_small_relation a s n z : 1 <= n <= 4 -> c_pow_small a n = Some z ->
  c_pow a (Cx (f_of_Z n) (S754_zero s)) = PowVal z /\
  py_complex_pow a (Cx (f_of_Z n) (S754_zero s)) = py_ret (py_c_powu a n).
Proof.
  intros H. assert (n = 1 \/ n = 2 \/ n = 3 \/ n = 4) as [->|[->|[->| ->]]] by lia.
  all: intros [= <-]; split; reflexivity.
Qed.

(* components that are valid doubles, finite and non-zero *)
Definition nice (z : cplx) : Prop :=
  is_fnz (re z) = true /\ is_fnz (im z) = true /\ fvalid (re z) = true /\ fvalid (im z) = true.

Lemma unit_prod_nice z : nice z -> py_c_prod c_1 z = z.
Proof.
  destruct z as [x y]. unfold nice. cbn [re im]. intros (Hx & Hy & Vx & Vy).
  unfold py_c_prod, c_1. cbn [re im]. rewrite (fmul_one_l x Vx), (fmul_one_l y Vy).
  destruct x as [ | | |sx mx ex]; try discriminate Hx.
  destruct y as [ | | |sy my ey]; try discriminate Hy.
  destruct sx, sy; reflexivity.
Qed.

Lemma nice_no_inf z : nice z -> has_inf z = false.
Proof.
  destruct z as [x y]. intros (Hx & Hy & _). cbn [re im] in *.
  destruct x; try discriminate Hx. destruct y; try discriminate Hy. reflexivity.
Qed.

Definition pow_match (c : powres) (p : pyres) : Prop :=
  match c, p with PowVal z, PyVal w => z = w | _, _ => False end.

(* for a power of two c_powu multiplies 1+0j by Cython's chain *)
Lemma pow_small_same_partial a s n z : n = 1 \/ n = 2 \/ n = 4 -> c_pow_small a n = Some z -> nice z ->
  pow_match (c_pow a (Cx (f_of_Z n) (S754_zero s))) (py_complex_pow a (Cx (f_of_Z n) (S754_zero s))).
Proof.
  intros Hn Hz H. destruct (pow_small_relation a s n z ltac:(lia) Hz) as [-> ->].
  replace (py_c_powu a n) with (py_c_prod c_1 z)
    by (destruct Hn as [->|[->| ->]]; injection Hz as <-; reflexivity).
  unfold py_ret. rewrite (unit_prod_nice z H), (nice_no_inf z H). reflexivity.
Qed.

(* ---------- commutativity of the IEEE operations (spec_float has a single NaN) ---------- *)
Lemma fmul_comm x y : fmul x y = fmul y x.
Proof.
  unfold fmul. destruct x as [sx|sx| |sx mx ex], y as [sy|sy| |sy my ey]; cbn [SFmul];
    rewrite ?(xorb_comm sy sx); try reflexivity.
  rewrite (Pos.mul_comm my mx), (Z.add_comm ey ex). reflexivity.
Qed.

Lemma fadd_comm x y : fadd x y = fadd y x.
Proof.
  unfold fadd. destruct x as [sx|sx| |sx mx ex], y as [sy|sy| |sy my ey]; cbn [SFadd]; try reflexivity.
  - destruct sx, sy; reflexivity.
  - destruct sx, sy; reflexivity.
  - rewrite (Z.min_comm ey ex), Z.add_comm. reflexivity.
Qed.

Lemma c_prod_comm x y : c_prod x y = c_prod y x.
Proof.
  unfold c_prod. rewrite (fmul_comm (re y) (re x)), (fmul_comm (im y) (im x)).
  rewrite (fadd_comm (fmul (re y) (im x))), (fmul_comm (im x) (re y)), (fmul_comm (re x) (im y)).
  reflexivity.
Qed.

Lemma pow3_same_partial a s : nice a -> has_inf (c_prod (c_prod a a) a) = false ->
  pow_match (c_pow a (Cx fthree (S754_zero s))) (py_complex_pow a (Cx fthree (S754_zero s))).
Proof.
  intros H Hi. change fthree with (f_of_Z 3).
  destruct (pow_small_relation a s 3 _ ltac:(lia) eq_refl) as [-> ->]. unfold py_ret.
  change (py_c_powu a 3) with (c_prod (py_c_prod c_1 a) (c_prod a a)).
  rewrite (unit_prod_nice a H), (c_prod_comm a (c_prod a a)), Hi. reflexivity.
Qed.

Definition fmone_ : F := S754_finite true 4503599627370496 (-52).   (* -1.0, the same value as M_FloatOps.fmone *)

(* (-0.0-1j) ** 1: Cython (-0-1j), CPython (0-1j);  (1e308j) ** 2: Cython (-inf+0j), CPython
   OverflowError;  0j ** -1: Cython (nan+nanj), CPython ZeroDivisionError *)
Lemma pow_small_refuted :
  (exists a, c_pow a (Cx fone fzero) = PowVal a /\
             py_complex_pow a (Cx fone fzero) = PyVal (Cx fzero (im a)) /\ re a = S754_zero true) /\
  (exists a, c_pow a (Cx ftwo fzero) = PowVal (Cx (S754_infinity true) fzero) /\
             py_complex_pow a (Cx ftwo fzero) = PyOverflow) /\
  (exists a, c_pow a (Cx fmone_ fzero) = PowVal (Cx S754_nan S754_nan) /\
             py_complex_pow a (Cx fmone_ fzero) = PyZeroDiv).
Proof.
  split; [|split].
  - exists (Cx fnzero fmone_). vm_compute. repeat split.
  - exists (Cx fzero f1e308). vm_compute. repeat split.
  - exists (Cx fzero fzero). vm_compute. repeat split.
Qed.

(* ---------- conversions ---------- *)
Lemma conv_identity native fixed z : native && negb fixed = false -> to_py (from_py native fixed z) = z.
Proof. intros H. destruct z. unfold from_py, from_parts. rewrite H. reflexivity. Qed.

(* complex(-0.0, 1.0) -> (0+1j);  complex(0.0, inf) -> (nan+infj) *)
Lemma from_parts_native_refuted :
  from_py true false (Cx fnzero fone) = Cx fzero fone /\
  from_py true false (Cx fzero (finf_ false)) = Cx S754_nan (finf_ false).
Proof. split; reflexivity. Qed.

Lemma from_parts_native_partial z :
  is_fin (im z) = true -> re z <> S754_zero true -> from_py true false z = z.
Proof.
  destruct z as [x y]. cbn [re im]. intros Hy Hx.
  unfold from_py, from_parts, from_parts_native_old. cbn [re im andb negb].
  destruct y as [sy| | |sy my ey]; try discriminate Hy;
  destruct x as [[|]|sx| |sx mx ex]; try (exfalso; apply Hx; reflexivity); destruct sy; reflexivity.
Qed.

(* ---------- abs ---------- *)
Section Abs.
  Variable hypot : F -> F -> F.
  (* C99 F.9.4.3 / 7.12.7.3: hypot(+-inf, y) = hypot(x, +-inf) = +inf even for NaN; NaN otherwise
     propagates *)
  Hypothesis hypot_inf_l : forall s y, hypot (S754_infinity s) y = S754_infinity false.
  Hypothesis hypot_inf_r : forall s x, hypot x (S754_infinity s) = S754_infinity false.
  Hypothesis hypot_nan_l : forall y, is_inf y = false -> hypot S754_nan y = S754_nan.
  Hypothesis hypot_nan_r : forall x, is_inf x = false -> hypot x S754_nan = S754_nan.

  (* with hypot (HAVE_HYPOT) the helper returns what CPython returns, except that CPython raises
     OverflowError when the modulus of a finite value overflows *)
  Lemma abs_hypot_same z :
    py_abs hypot z = AbsVal (c_abs hypot true z) \/
    (py_abs hypot z = AbsOverflow /\ is_fin (re z) = true /\ is_fin (im z) = true /\
     is_fin (c_abs hypot true z) = false).
  Proof.
    destruct z as [x y]. unfold py_abs, c_abs, c_abs_hypot. cbn [re im].
    destruct x as [sx|sx| |sx mx ex]; destruct y as [sy|sy| |sy my ey]; cbn [is_fin is_inf negb orb fabs SFabs];
      rewrite ?hypot_inf_l, ?hypot_inf_r, ?hypot_nan_l, ?hypot_nan_r by reflexivity;
      try (left; reflexivity);
      match goal with |- context [is_fin (hypot ?u ?v)] =>
        destruct (is_fin (hypot u v)) eqn:E; [left; reflexivity | right; repeat split; reflexivity] end.
  Qed.

  (* the variant compiled today (HAVE_HYPOT undefined): abs(1e308j) = inf *)
  Lemma abs_naive_refuted :
    hypot fzero f1e308 = f1e308 ->
    py_abs hypot (Cx fzero f1e308) = AbsVal f1e308 /\
    c_abs hypot false (Cx fzero f1e308) = S754_infinity false.
  Proof.
    intros H. split.
    - unfold py_abs. cbn [re im is_fin negb orb]. rewrite H. reflexivity.
    - vm_compute. reflexivity.
  Qed.
End Abs.

