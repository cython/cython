(* C50: nfa_to_dfa terminates: with fuel above 2^(number of NFA states) the worklist and the
   recursive epsilon closure return a machine (never "out of fuel"). *)
From Coq Require Import ZArith NArith List Bool Lia ZifyBool ZifyNat.
From CyVerif Require Import Lib.ListFacts Model.M_Plex Proof.P_Plex_TMap Proof.P_Plex_Sets Proof.P_Plex_DFA.
Import ListNotations.
Open Scope Z_scope.

Lemma NoDup_snoc {A} (l : list A) x : NoDup l -> ~ In x l -> NoDup (l ++ [x]).
Proof.
  intros Hn Hx. apply NoDup_app_intro; [exact Hn | constructor; [intros []|constructor] |].
  intros y Hy [<-|[]]. exact (Hx Hy).
Qed.

Section Term.
Variable m : nfa.
Hypothesis Hwf : forall s, tm_inv (n_tm (n_get m s)).
Hypothesis Helse : forall s, tm_else_ok (n_tm (n_get m s)) = true.

Definition bounded (S : sset) : Prop := forall x, s_mem x S = true -> (x < length m)%nat.

(* every transition target is a state of the machine *)
Hypothesis Heps : forall s, bounded (n_eps (n_get m s)).
Hypothesis Htg : forall s e, bounded (ntrans m s e).
Hypothesis Hpos : (0 < length m)%nat.

Definition unv_in (l : list nat) (acc : sset) : nat := length (filter (fun x => negb (s_mem x acc)) l).
Definition unv (acc : sset) : nat := unv_in (seq 0 (length m)) acc.

Lemma unv_in_mono l a b : (forall x, s_mem x a = true -> s_mem x b = true) -> (unv_in l b <= unv_in l a)%nat.
Proof.
  intros H. unfold unv_in. induction l as [|y l IH]; cbn [filter]; [lia|].
  destruct (s_mem y a) eqn:Ea.
  - rewrite (H y Ea). cbn. exact IH.
  - destruct (s_mem y b); cbn; lia.
Qed.

Lemma unv_in_add l s acc : In s l -> s_mem s acc = false -> (unv_in l (s_add s acc) < unv_in l acc)%nat.
Proof.
  intros Hin Hs. unfold unv_in. induction l as [|y l IH]; [contradiction|]. cbn [filter].
  assert (Hm : (length (filter (fun x => negb (s_mem x (s_add s acc))) l)
                <= length (filter (fun x => negb (s_mem x acc)) l))%nat).
  { apply (unv_in_mono l acc (s_add s acc)). intros x Hx. rewrite s_mem_add, Hx. apply orb_true_r. }
  destruct (Nat.eq_dec y s) as [->|Hne].
  - rewrite Hs, s_mem_add, Nat.eqb_refl. cbn. lia.
  - destruct Hin as [Heq|Hin]; [congruence|]. specialize (IH Hin).
    rewrite s_mem_add. destruct (Nat.eqb_spec s y); [congruence|]. cbn [orb].
    destruct (s_mem y acc); cbn; lia.
Qed.

Lemma eclose_add_total : forall f acc s, (s < length m)%nat -> (unv acc < f)%nat ->
  exists r, eclose_add f m acc s = Some r.
Proof.
  induction f as [|f IH]; intros acc s Hs Hf; [lia|]. cbn [eclose_add].
  destruct (s_mem s acc) eqn:Es; [eauto|].
  assert (Hlt : (unv (s_add s acc) < unv acc)%nat).
  { apply unv_in_add; [|exact Es]. apply in_seq. lia. }
  apply (fold_opt_total (eclose_add f m) (fun a => (unv a < f)%nat) (fun y => (y < length m)%nat)); [|lia|].
  - intros a y Ha Hy. destruct (IH a y Hy Ha) as (a1 & E1). exists a1. split; [exact E1|].
    destruct (eclose_add_spec m _ _ _ _ E1) as (A1 & _).
    pose proof (unv_in_mono (seq 0 (length m)) a a1 A1). unfold unv in *. lia.
  - intros y Hy. apply s_elems_spec in Hy. exact (Heps s y Hy).
Qed.

Lemma eclose_total s : (s < length m)%nat -> exists C, eclose m s = Some C.
Proof.
  intros Hs. unfold eclose. apply eclose_add_total; [exact Hs|].
  unfold unv, unv_in.
  pose proof (filter_length_le (fun x => negb (s_mem x s_empty)) (seq 0 (length m))) as H.
  rewrite seq_length in H. lia.
Qed.

Lemma ereach_bounded x t : (x < length m)%nat -> ereach m x t -> (t < length m)%nat.
Proof.
  intros Hx H. unfold ereach in H. remember [] as w eqn:Ew. revert Hx.
  induction H as [s|s u w t He H IH|s e u w t He H IH]; intros Hx; [exact Hx| |discriminate].
  apply IH; [exact Ew|]. exact (Heps s u He).
Qed.

Lemma eclose_set_total ss : bounded ss -> exists C, eclose_set m ss = Some C.
Proof.
  intros Hb.
  apply (fold_opt_total (fun a s => do c <- eclose m s; Some (s_union a c)) (fun _ => True)
           (fun y => (y < length m)%nat)); [|exact I|].
  - intros a y _ Hy. destruct (eclose_total y Hy) as (c & ->). eauto.
  - intros y Hy. apply s_elems_spec in Hy. exact (Hb y Hy).
Qed.

Lemma items_bounded s c0 c1 tg : In (c0, c1, tg) (tm_items (n_tm (n_get m s))) -> bounded tg.
Proof.
  intros Hi. pose proof (tm_items_range _ _ _ _ (Hwf s) Hi) as R.
  rewrite (tm_items_at _ c0 (Hwf s) c0 c1 tg Hi ltac:(lia)). exact (Htg s (EvChar c0)).
Qed.

Lemma add_state_transitions_total u s : tm_inv (u_tm u) -> exists u', add_state_transitions m u s = Some u'.
Proof.
  intros I. unfold add_state_transitions.
  destruct (fold_opt_total (item_step m) tm_inv (fun it => In it (tm_items (n_tm (n_get m s)))))
    with (l := tm_items (n_tm (n_get m s))) (a := u_tm u) as (tm1 & E); [|exact I|auto|].
  - intros tm [[c0 c1] tg] Itm Hin. pose proof (tm_items_range _ _ _ _ (Hwf s) Hin) as R.
    cbn [item_step]. destruct (s_is_empty tg); [eauto|].
    destruct (eclose_set_total tg (items_bounded s _ _ _ Hin)) as (cl & ->).
    destruct (tm_add_set_spec tm c0 c1 cl Itm ltac:(lia) ltac:(lia)) as (tm' & -> & I' & _). eauto.
  - unfold item_step in E. rewrite E.
    destruct (eclose_set_total _ (Htg s EvBol)) as (b & Eb). cbn [ntrans] in Eb. rewrite Eb.
    destruct (eclose_set_total _ (Htg s EvEol)) as (l & El). cbn [ntrans] in El. rewrite El.
    destruct (eclose_set_total _ (Htg s EvEof)) as (f & Ef). cbn [ntrans] in Ef. rewrite Ef.
    eauto.
Qed.

Lemma union_transitions_total old : exists u, union_transitions m old = Some u.
Proof.
  apply (fold_opt_total (add_state_transitions m) (fun u => tm_inv (u_tm u)) (fun _ => True));
    [|exact tm_new_inv|auto].
  intros u0 s I0 _. destruct (add_state_transitions_total u0 s I0) as (ua & Ea). exists ua. split; [exact Ea|].
  exact (proj1 (add_state_transitions_spec m Hwf Helse u0 ua s I0 Ea)).
Qed.

Lemma process_state_total sm old : exists r, process_state m sm old = Some r.
Proof.
  unfold process_state. destruct (union_transitions_total old) as (u & Eu). rewrite Eu.
  destruct (add_range_items m (tm_items (u_tm u)) sm _) as [sm1 d1].
  destruct (add_special m (u_bol u) sm1) as [sm2 jb].
  destruct (add_special m (u_eol u) sm2) as [sm3 je].
  destruct (add_special m (u_eof u) sm3) as [sm4 jf]. eauto.
Qed.

(* the worklist: the new states are distinct subsets of the NFA states *)
Definition sm_good (sm : smap) : Prop := NoDup (sm_sets sm) /\ forall S, In S (sm_sets sm) -> bounded S.

Lemma find_idx_none key : forall l k0, find_idx key l k0 = None -> ~ In key l.
Proof.
  induction l as [|x t IH]; intros k0 H; [intros []|]. cbn [find_idx] in H.
  destruct (N.eqb_spec x key) as [->|Hne]; [discriminate|]. intros [Heq|Hin]; [congruence|].
  exact (IH _ H Hin).
Qed.

Lemma old_to_new_good sm ss sm' j : old_to_new m sm ss = (sm', j) -> bounded ss -> sm_good sm -> sm_good sm'.
Proof.
  unfold old_to_new. intros H Hb (Hnd & Hbd). destruct (find_idx ss (sm_sets sm) O) eqn:Ef.
  - inversion H; subst. split; assumption.
  - inversion H; subst; clear H. cbn [sm_sets]. split.
    + apply NoDup_snoc; [exact Hnd|]. eapply find_idx_none; eauto.
    + intros S HS. apply in_app_or in HS. destruct HS as [HS|[<-|[]]]; [apply Hbd; exact HS|exact Hb].
Qed.

Lemma ari_good : forall items sm d sm' d', add_range_items m items sm d = (sm', d') ->
  (forall c0 c1 ss, In (c0, c1, ss) items -> bounded ss) -> sm_good sm -> sm_good sm'.
Proof.
  induction items as [|[[c0 c1] ss] items IH]; intros sm d sm' d' H Hb Hg.
  - cbn in H. inversion H; subst. exact Hg.
  - cbn [add_range_items] in H. destruct (old_to_new m sm ss) as [sm1 j] eqn:Eo.
    eapply IH; [exact H| |].
    + intros a b g Hin. eapply Hb. right. exact Hin.
    + eapply old_to_new_good; [exact Eo| |exact Hg]. eapply Hb. left. reflexivity.
Qed.

Lemma add_special_good ss sm sm' r : add_special m ss sm = (sm', r) -> bounded ss -> sm_good sm -> sm_good sm'.
Proof.
  unfold add_special. intros H Hb Hg. destruct (s_is_empty ss); [inversion H; subst; exact Hg|].
  destruct (old_to_new m sm ss) as [sm1 j] eqn:Eo. inversion H; subst. eapply old_to_new_good; eauto.
Qed.

Lemma uget_bounded old u e : union_transitions m old = Some u -> valid_ev e -> bounded (uget u e).
Proof.
  intros Eu He x Hx. destruct (union_transitions_spec m Hwf Helse old u Eu) as (_ & G).
  apply (G e He x) in Hx. destruct Hx as (s & y & _ & Hy & Hr).
  eapply ereach_bounded; [|exact Hr]. exact (Htg s e y Hy).
Qed.

Lemma process_state_good sm old sm' d : process_state m sm old = Some (sm', d) -> sm_good sm -> sm_good sm'.
Proof.
  unfold process_state. intros H Hg.
  destruct (union_transitions m old) as [u|] eqn:Eu; [|discriminate].
  destruct (union_transitions_spec m Hwf Helse old u Eu) as (Iu & _).
  match type of H with context [add_range_items m ?its sm ?d0] =>
    destruct (add_range_items m its sm d0) as [sm1 d1] eqn:Er end.
  destruct (add_special m (u_bol u) sm1) as [sm2 jb] eqn:Eb.
  destruct (add_special m (u_eol u) sm2) as [sm3 je] eqn:El.
  destruct (add_special m (u_eof u) sm3) as [sm4 jf] eqn:Ef.
  inversion H; subst; clear H.
  eapply add_special_good; [exact Ef|exact (uget_bounded old u EvEof Eu I)|].
  eapply add_special_good; [exact El|exact (uget_bounded old u EvEol Eu I)|].
  eapply add_special_good; [exact Eb|exact (uget_bounded old u EvBol Eu I)|].
  eapply ari_good; [exact Er| |exact Hg].
  intros c0 c1 ss Hi. pose proof (tm_items_range _ _ _ _ Iu Hi) as R.
  rewrite (tm_items_at _ c0 Iu c0 c1 ss Hi ltac:(lia)).
  apply (uget_bounded old u (EvChar c0) Eu). unfold valid_ev. lia.
Qed.

Definition nsub : N := (2 ^ N.of_nat (length m))%N.

Lemma bounded_lt S : bounded S -> (S < nsub)%N.
Proof.
  intros Hb. unfold nsub. destruct (N.eq_dec S 0) as [->|Hne].
  - apply N.neq_0_lt_0. apply N.pow_nonzero. discriminate.
  - apply N.log2_lt_pow2; [lia|]. pose proof (N.bit_log2 S Hne) as Hbit.
    specialize (Hb (N.to_nat (N.log2 S))). unfold s_mem in Hb. rewrite N2Nat.id in Hb.
    specialize (Hb Hbit). lia.
Qed.

Lemma nodup_bound (l : list N) B : NoDup l -> (forall S, In S l -> (S < B)%N) -> (length l <= N.to_nat B)%nat.
Proof.
  intros Hnd Hlt.
  assert (Hincl : incl l (map N.of_nat (seq 0 (N.to_nat B)))).
  { intros S HS. apply in_map_iff. exists (N.to_nat S). split; [apply N2Nat.id|].
    apply in_seq. specialize (Hlt S HS). lia. }
  pose proof (NoDup_incl_length Hnd Hincl) as H. rewrite map_length, seq_length in H. exact H.
Qed.

Lemma worklist_total : forall fuel sm done, sm_ok m sm -> sm_good sm ->
  (length done <= length (sm_sets sm))%nat -> (N.to_nat nsub - length done < fuel)%nat ->
  exists r, worklist fuel m sm done = Some r.
Proof.
  induction fuel as [|f IH]; intros sm done Hok Hg Hlen Hf; [lia|]. cbn [worklist].
  destruct (nth_error (sm_sets sm) (length done)) as [old|] eqn:En; [|eauto].
  destruct (process_state_total sm old) as ([sm1 d] & Ep). rewrite Ep.
  destruct (process_state_spec m Hwf Helse _ _ _ _ Ep Hok) as (Hok1 & (ex & Eex) & _).
  pose proof (process_state_good _ _ _ _ Ep Hg) as Hg1.
  pose proof (nth_error_lt _ _ _ En) as Hlt.
  destruct Hg as (Hnd & Hbd).
  pose proof (nodup_bound _ nsub Hnd (fun S HS => bounded_lt S (Hbd S HS))) as Hcard.
  apply IH; [exact Hok1|exact Hg1| |].
  - rewrite app_length, Eex, app_length. cbn [length]. lia.
  - rewrite app_length. cbn [length]. change (@length N (sm_sets sm)) with (@length sset (sm_sets sm)) in Hcard.
    set (B := N.to_nat nsub) in *. clearbody B. lia.
Qed.

(* nfa_to_dfa returns a machine whenever the fuel exceeds the number of subsets *)
Theorem nfa_to_dfa_total fuel : (N.to_nat nsub < fuel)%nat -> exists D, nfa_to_dfa fuel m = Some D.
Proof.
  intros Hf. unfold nfa_to_dfa. destruct (eclose_total O Hpos) as (c0 & E0). rewrite E0.
  cbn [old_to_new find_idx sm_sets sm_acts app length].
  match goal with |- context [worklist fuel m ?ss0 []] => set (sm0 := ss0) end.
  destruct (worklist_total fuel sm0 []) as ([sm tr] & Ew).
  - reflexivity.
  - split; [repeat constructor; intros []|]. intros S [<-|[]]. intros x Hx.
    apply (proj2 (eclose_spec m O c0 E0)) in Hx. eapply ereach_bounded; [exact Hpos|exact Hx].
  - cbn. lia.
  - cbn [length]. lia.
  - rewrite Ew. eauto.
Qed.
End Term.

(* nfa_bounded reflects the hypotheses of nfa_to_dfa_total *)
Lemma set_bounded_b_spec n S : set_bounded_b n S = true -> forall x, s_mem x S = true -> (x < n)%nat.
Proof.
  unfold set_bounded_b, s_mem. intros H x Hx. apply N.ltb_lt in H.
  destruct (N.eq_dec S 0) as [->|Hne]; [rewrite N.bits_0 in Hx; discriminate|].
  apply N.log2_lt_pow2 in H; [|lia].
  destruct (N.le_gt_cases (N.of_nat x) (N.log2 S)) as [Hle|Hgt]; [lia|].
  rewrite (N.bits_above_log2 S (N.of_nat x) Hgt) in Hx. discriminate.
Qed.

Lemma nfa_bounded_spec m : nfa_bounded m = true ->
  (forall s, bounded m (n_eps (n_get m s))) /\ (forall s e, bounded m (ntrans m s e)) /\ (0 < length m)%nat.
Proof.
  unfold nfa_bounded. intros H. apply andb_true_iff in H. destruct H as [Hp H].
  apply Nat.ltb_lt in Hp. rewrite forallb_forall in H.
  assert (Hs : forall s, let st := n_get m s in
            (forall S, In S (tm_sets (n_tm st)) -> bounded m S) /\ bounded m (n_eps st)
            /\ bounded m (n_bol st) /\ bounded m (n_eol st) /\ bounded m (n_eof st)).
  { intros s. cbn zeta. pattern (n_get m s). apply n_get_forall.
    - assert (He0 : bounded m s_empty) by (intros y Hy; rewrite s_mem_empty in Hy; discriminate).
      cbn [n_new n_tm n_eps n_bol n_eol n_eof tm_new tm_sets]. split; [intros S [<-|[]]; exact He0|]. auto.
    - intros st Hst. specialize (H st Hst). repeat (apply andb_true_iff in H; destruct H as [H ?]).
      rename H into Hts. rewrite forallb_forall in Hts.
      split; [intros S HS; exact (set_bounded_b_spec _ _ (Hts S HS))|].
      split; [exact (set_bounded_b_spec _ _ H3)|]. split; [exact (set_bounded_b_spec _ _ H2)|].
      split; [exact (set_bounded_b_spec _ _ H1)|exact (set_bounded_b_spec _ _ H0)]. }
  split; [intros s; exact (proj1 (proj2 (Hs s)))|]. split; [|exact Hp].
  intros s e. destruct (Hs s) as (Ht & _ & Hb & Hl & Hf). destruct e as [c| | | |]; cbn [ntrans]; auto.
  - unfold tm_get. intros x Hx.
    destruct (nth_in_or_default (count_le (tm_codes (n_tm (n_get m s))) c - 1) (tm_sets (n_tm (n_get m s))) s_empty) as [Hin|Hd].
    + exact (Ht _ Hin x Hx).
    + rewrite Hd, s_mem_empty in Hx. discriminate.
  - intros x Hx. rewrite s_mem_empty in Hx. discriminate.
Qed.

(* with the executable checks: nfa_to_dfa returns a machine for fuel above 2^(number of states) *)
Theorem nfa_to_dfa_total_b m fuel : nfa_ok m = true -> nfa_bounded m = true ->
  (N.to_nat (2 ^ N.of_nat (length m)) < fuel)%nat -> exists D, nfa_to_dfa fuel m = Some D.
Proof.
  intros Hok Hb Hf. destruct (nfa_bounded_spec m Hb) as (He & Ht & Hp).
  destruct (nfa_ok_spec m Hok) as (Hwf & Helse). exact (nfa_to_dfa_total m Hwf Helse He Ht Hp fuel Hf).
Qed.
