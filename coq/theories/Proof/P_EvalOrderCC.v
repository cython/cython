(* P_EvalOrderCC - C20, calls of C functions with keyword arguments: the statement for the call node
   spelled out, coverage of the repaired variant, and the witnesses of the deviations of the tree as it
   is (and of the seeded variant without the temp-sorting step). *)
From Coq Require Import List Bool Arith Lia.
From CyVerif Require Import Model.M_CCallMap Model.M_EvalOrder Proof.P_CCallMap Proof.P_EvalOrder.
Import ListNotations.

(* the generated code of a covered call evaluates the receiver, then every argument value in CALL order,
   exactly once, and passes the values to the declared parameters they are bound to *)
Theorem ccall_call_order : forall (S : sem) (F : flags) o nreq ndecl recv npos names es n st,
  eok F (ECCall o nreq ndecl recv npos names es) = true ->
  let '(code, ro, n') := gen F CVal (ECCall o nreq ndecl recv npos names es) n in
  let rr := eval S (mvars st) MVal recv in
  let rs := evals S (mvars st) es in
  let p := opsem S o (rv rr :: map (fun q => nth q (map rv rs) VNone) (ref_slots npos names ndecl 0)) in
  exists st', run S code st Normal = (st', Normal) /\ mvars st' = mvars st /\
    trace st' = trace st ++ rev rr ++ flat_ev rs ++ snd p /\
    leaflog st' = leaflog st ++ rlf rr ++ flat_lf rs /\
    getop st' ro = fst p /\ (forall t, t < n -> temps st' t = temps st t).
Proof.
  intros S F o nreq ndecl recv npos names es n st H.
  pose proof (gen_expr_correct S F _ n st H) as G.
  destruct (gen F CVal (ECCall o nreq ndecl recv npos names es) n) as [[code ro] n'].
  cbv zeta in G. rewrite eval_ECCall in G. cbv zeta in G |- *.
  destruct (opsem S o _) as [v ev]. simpl in G |- *.
  destruct G as (st' & A & B & C & D & E & G). exists st'. auto 10.
Qed.

(* with the three repairs every well-formed call that supplies the required parameters is covered *)
Lemma ccok_repaired F nreq ndecl recv npos names es :
  fx_ccsimple F = true -> fx_cckeep F = true -> fx_ccrecv F = true -> cc_sorted F = true ->
  length es = npos + length names -> cc_wf npos ndecl names = true -> nreq <= npos + length names ->
  ccok F nreq ndecl recv npos names es = true.
Proof.
  intros A B C D E W R. unfold ccok. rewrite B, C, D, W, E, Nat.eqb_refl. simpl.
  apply Nat.leb_le in R. rewrite R. simpl.
  assert (X : forallb (fun e => implb (csimple F e) (tsimple e)) es = true).
  { apply forallb_forall. intros e _. unfold csimple. rewrite A. destruct (tsimple e); reflexivity. }
  rewrite X. reflexivity.
Qed.

(* witnesses (std_sem) *)
Definition cc_asis : flags := mk_flags8 true true true true false false false true.
Definition cc_seeded : flags := mk_flags8 true true true true true true true false.
Definition cfn : op := OLog 9.

(* r = cf(c=T(1), b=T(2), a=T(3))   for   cdef cf(a, b, c) *)
Definition w_cc_reversed : stmt :=
  SAssign [TS (TName rvar)] (ECCall cfn 3 3 ENone 0 [2; 1; 0] [ELeaf 0 1; ELeaf 0 2; ELeaf 0 3]).
(* r = cf(c=x.a, b=T(1), a=T(2)) *)
Definition w_cc_attr : stmt :=
  SAssign [TS (TName rvar)] (ECCall cfn 3 3 ENone 0 [2; 1; 0] [EOp (OGetAttr 0) [EName 0]; ELeaf 0 1; ELeaf 0 2]).
(* r = co(T(1), c=T(2), b=T(3))   for   cdef co(a, b=None, c=None, d=None) *)
Definition w_cc_cut : stmt :=
  SAssign [TS (TName rvar)] (ECCall cfn 1 4 ENone 1 [2; 1] [ELeaf 0 1; ELeaf 0 2; ELeaf 0 3]).
(* r = cf(T(1), c=T(2), b=T(3))   for   cdef cf(a, b, c): rejected (Call with wrong number of arguments) *)
Definition w_cc_cut_rejected : stmt :=
  SAssign [TS (TName rvar)] (ECCall cfn 3 3 ENone 1 [2; 1] [ELeaf 0 1; ELeaf 0 2; ELeaf 0 3]).
(* r = T(9).m(b=T(1), a=T(2))   for   cdef m(self, a, b) *)
Definition w_cc_recv : stmt :=
  SAssign [TS (TName rvar)] (ECCall cfn 2 2 (ELeaf 0 9) 0 [1; 0] [ELeaf 0 1; ELeaf 0 2]).

Lemma cc_seeded_refuted_w :
  trace_of cc_seeded w_cc_reversed <> sev (ref_run w_cc_reversed) /\
  leaflog (fst (run_stmt cc_seeded w_cc_reversed)) = [3; 2; 1] /\
  trace_of repaired w_cc_reversed = sev (ref_run w_cc_reversed) /\
  trace_of cc_asis w_cc_reversed = sev (ref_run w_cc_reversed).
Proof. vm_compute. repeat split; auto; discriminate. Qed.

Lemma cc_simple_refuted_w :
  trace_of cc_asis w_cc_attr <> sev (ref_run w_cc_attr) /\ trace_of repaired w_cc_attr = sev (ref_run w_cc_attr).
Proof. vm_compute. split; [discriminate | reflexivity]. Qed.

Lemma cc_cut_refuted_w :
  trace_of cc_asis w_cc_cut <> sev (ref_run w_cc_cut) /\ stmt_rejected cc_asis w_cc_cut = false /\
  trace_of repaired w_cc_cut = sev (ref_run w_cc_cut) /\
  stmt_rejected cc_asis w_cc_cut_rejected = true /\ stmt_rejected repaired w_cc_cut_rejected = false /\
  trace_of repaired w_cc_cut_rejected = sev (ref_run w_cc_cut_rejected).
Proof. vm_compute. repeat split; auto; discriminate. Qed.

Lemma cc_recv_refuted_w :
  trace_of cc_asis w_cc_recv <> sev (ref_run w_cc_recv) /\ trace_of repaired w_cc_recv = sev (ref_run w_cc_recv).
Proof. vm_compute. split; [discriminate | reflexivity]. Qed.

(* non-vacuity: a covered call of the tree as it is, the right operand of an and: receiver and positional
   argument are names, the three keyword values (a subscript, a not, a leaf) are out of order *)
Definition w_cc_big : expr :=
  EAnd (ELeaf 0 20)
       (ECCall cfn 3 4 (EName 1) 1 [3; 1; 2]
          [EName 0; EOp (OGetItem) [ELeaf 0 1; ELeaf 0 2]; ENot (ELeaf 1 3); ELeaf 0 4]).
Lemma cc_big_covered : eok cc_asis w_cc_big = true /\
  trace_of cc_asis (SAssign [TS (TName rvar)] w_cc_big) = sev (ref_run (SAssign [TS (TName rvar)] w_cc_big)) /\
  6 <= length (trace_of cc_asis (SAssign [TS (TName rvar)] w_cc_big)).
Proof. vm_compute. repeat split; auto; repeat constructor. Qed.
