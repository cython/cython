(* P_Dataclass: the decisions of Cython's Dataclass.py equal those of dataclasses.py.
   Every theorem is over ALL field lists / option combinations; where the faithful model
   differs, the difference is proved (_refuted) and the equality is proved on the explicit
   complement (_partial). *)
From Coq Require Import NArith ZArith List Bool Lia.
From CyVerif Require Import Lib.ListFacts Model.M_Dataclass Gen.Gen_HashAction.
Import ListNotations.

(* ------------------------------------------------------------------ list facts *)

Lemma filter_filter {A} (p q : A -> bool) (l : list A) :
  filter p (filter q l) = filter (fun x => q x && p x) l.
Proof.
  induction l as [|a l IH]; simpl; auto.
  destruct (q a); simpl; [destruct (p a)|]; rewrite ?IH; auto.
Qed.

Lemma existsb_none {A} (p : A -> bool) (l : list A) :
  (forall a, In a l -> p a = false) -> existsb p l = false.
Proof.
  induction l as [|a l IH]; simpl; intros H; auto.
  rewrite (H a (or_introl eq_refl)). apply IH. intros b Hb. apply H. now right.
Qed.

Lemma sig_cons_none r : sig_cons None r = r.
Proof. reflexivity. Qed.

(* ------------------------------------------------------------------ __init__ signature *)

Definition no_field_kw (fs : list field) : Prop := forall f, In f fs -> f_kw f = None.

Lemma eff_kw_nokw o fs : no_field_kw fs -> forall f, In f fs -> eff_kw o f = o_kw_only o.
Proof. intros H f Hf. unfold eff_kw. now rewrite (H f Hf). Qed.

Lemma py_std_nokw o fs : no_field_kw fs ->
  py_std o fs = if o_kw_only o then [] else filter f_init fs.
Proof.
  intros H. unfold py_std. destruct (o_kw_only o) eqn:Hk.
  - apply filter_false. intros f Hf. rewrite (eff_kw_nokw o fs H f Hf), Hk. apply andb_false_r.
  - apply filter_ext_in. intros f Hf. rewrite (eff_kw_nokw o fs H f Hf), Hk. apply andb_true_r.
Qed.

Lemma py_kwf_nokw o fs : no_field_kw fs ->
  py_kwf o fs = if o_kw_only o then filter f_init fs else [].
Proof.
  intros H. unfold py_kwf. destruct (o_kw_only o) eqn:Hk.
  - apply filter_ext_in. intros f Hf. rewrite (eff_kw_nokw o fs H f Hf), Hk. apply andb_true_r.
  - apply filter_false. intros f Hf. rewrite (eff_kw_nokw o fs H f Hf), Hk. apply andb_false_r.
Qed.

Lemma cy_loop_pos : forall fs seen,
  cy_init_loop false seen fs =
  match py_check seen (filter f_init fs) with
  | Some n => SigErr n
  | None => SigOk (map (py_param PPos) (filter f_init fs))
  end.
Proof.
  induction fs as [|a r IH]; intros seen; [reflexivity|].
  cbn [cy_init_loop filter].
  destruct (has_default a) eqn:Hd; destruct (f_init a) eqn:Hi.
  - cbn [py_check map]. rewrite Hi, Hd, IH.
    destruct (py_check true (filter f_init r)); cbn; unfold py_param; rewrite ?Hd; reflexivity.
  - rewrite sig_cons_none. apply IH.
  - destruct seen; cbn [andb negb py_check map]; rewrite Hi, Hd; [reflexivity|].
    rewrite IH. destruct (py_check false (filter f_init r)); cbn; unfold py_param; rewrite ?Hd; reflexivity.
  - rewrite andb_false_r, sig_cons_none. apply IH.
Qed.

Lemma cy_loop_kw : forall fs seen,
  cy_init_loop true seen fs = SigOk (map (py_param PKw) (filter f_init fs)).
Proof.
  induction fs as [|a r IH]; intros seen; [reflexivity|].
  cbn [cy_init_loop filter negb].
  rewrite andb_false_r. cbn [andb].
  destruct (has_default a) eqn:Hd; destruct (f_init a) eqn:Hi;
    rewrite ?sig_cons_none, IH; cbn; unfold py_param; rewrite ?Hd; reflexivity.
Qed.

(* the user-__init__ condition: dataclasses.py runs the seen_default check even when the
   class defines __init__ itself; Cython skips it *)
Definition user_init_checked (o : opts) (u : user) (fs : list field) : Prop :=
  u_init u = true -> o_init o = true -> py_check false (py_std o fs) = None.

Theorem init_signature_eq : forall o u fs,
  no_field_kw fs -> user_init_checked o u fs ->
  cy_init_sig o u fs = py_init_sig o u fs.
Proof.
  intros o u fs Hkw Hu. unfold cy_init_sig, py_init_sig.
  destruct (o_init o) eqn:Hoi; cbn [negb orb]; [|reflexivity].
  destruct (u_init u) eqn:Hui.
  - rewrite (Hu Hui Hoi). reflexivity.
  - rewrite (py_std_nokw o fs Hkw), (py_kwf_nokw o fs Hkw).
    destruct (o_kw_only o).
    + cbn [py_check map app]. apply cy_loop_kw.
    + rewrite cy_loop_pos. destruct (py_check false (filter f_init fs)); [reflexivity|].
      cbn [map]. now rewrite app_nil_r.
Qed.

(* in particular the error case: same offending field *)
Corollary init_error_eq : forall o u fs n,
  no_field_kw fs -> user_init_checked o u fs ->
  (cy_init_sig o u fs = SigErr n <-> py_init_sig o u fs = SigErr n).
Proof. intros o u fs n H1 H2. now rewrite (init_signature_eq o u fs H1 H2). Qed.

Definition fld (n : N) (d : dkind) (i : bool) (kw : option bool) : field :=
  mkField n d i true true None kw false.
Definition dflt_opts : opts := mkOpts true true true false false false true false.
Definition no_user : user := mkUser false false false HMissing false false.

(* field(kw_only=True): a compile error in Cython (see cy_rejected); dataclasses.py moves the
   parameter behind a bare star *)
Theorem init_signature_field_kw_refuted : exists o u fs,
  user_init_checked o u fs /\ cy_init_sig o u fs <> py_init_sig o u fs /\ cy_rejected o u fs = true
  /\ py_rejected o u fs = false.
Proof.
  exists dflt_opts, no_user, [fld 1 DValue true (Some true); fld 2 DNone true None].
  repeat split; try (intros; reflexivity); vm_compute; congruence.
Qed.

(* a user __init__ hides the non-default-after-default error in Cython only *)
Theorem init_signature_user_init_refuted : exists o u fs,
  no_field_kw fs /\ cy_init_sig o u fs = SigNone /\ py_init_sig o u fs = SigErr 2%N.
Proof.
  exists dflt_opts, (mkUser true false false HMissing false false),
    [fld 1 DValue true None; fld 2 DNone true None].
  split; [|split; reflexivity].
  intros f [<-|[<-|[]]]; reflexivity.
Qed.

(* ------------------------------------------------------------------ repr / compare / hash fields *)

Theorem repr_fields_eq : forall o u fs, cy_repr_fields o u fs = py_repr_fields o u fs.
Proof.
  intros. unfold cy_repr_fields, py_repr_fields, real_fields.
  destruct (o_repr o), (u_repr u); cbn; try reflexivity.
  rewrite filter_filter. do 2 f_equal. apply filter_ext. intros f. apply andb_comm.
Qed.

Lemma cmp_names_eq fs : cy_cmp_names fs = py_cmp_names fs.
Proof.
  unfold cy_cmp_names, py_cmp_names, real_fields. rewrite filter_filter. f_equal.
  apply filter_ext. intros f. apply andb_comm.
Qed.

Theorem compare_fields_eq : forall o u fs,
  cy_eq_fields o u fs = py_eq_fields o u fs /\ cy_order_fields o fs = py_order_fields o fs.
Proof.
  intros. unfold cy_eq_fields, py_eq_fields, cy_order_fields, py_order_fields.
  rewrite cmp_names_eq. destruct (o_eq o), (u_eq u), (o_order o); cbn; auto.
Qed.

(* with the repaired `hash is None` test *)
Theorem hash_fields_eq : forall fs, cy_hash_names true fs = py_hash_names fs.
Proof.
  intros. unfold cy_hash_names, py_hash_names, real_fields, cy_hash_flag. now rewrite filter_filter.
Qed.

(* the code as it is: equal only when no real field combines hash=None with compare=False *)
Definition hash_none_is_compared (fs : list field) : Prop :=
  forall f, In f fs -> f_initvar f = false -> f_hash f = None -> f_cmp f = true.

Theorem hash_fields_eq_partial : forall fs,
  hash_none_is_compared fs -> cy_hash_names false fs = py_hash_names fs.
Proof.
  intros fs H. rewrite <- hash_fields_eq. unfold cy_hash_names. f_equal. apply filter_ext_in.
  intros f Hf. destruct (f_initvar f) eqn:Hiv; [reflexivity|]. cbn [negb andb].
  unfold cy_hash_flag, hash_flag. destruct (f_hash f) eqn:Hh; [reflexivity|].
  symmetry. apply H; auto.
Qed.

(* full statement (false): forall fs, cy_hash_names false fs = py_hash_names fs.
   field a compared, field b = field(compare=False): b is hashed by Cython only, so equal
   objects get different hashes *)
Theorem hash_fields_compare_false_refuted : exists fs,
  cy_hash_names false fs = [1%N; 2%N] /\ py_hash_names fs = [1%N] /\ py_cmp_names fs = [1%N]
  /\ cy_cmp_names fs = [1%N].
Proof.
  exists [mkField 1%N DNone true true true None None false;
          mkField 2%N DNone true true false None None false].
  repeat split; reflexivity.
Qed.

(* the fields hashed are the compared ones unless field(hash=...) says otherwise *)
Theorem hash_fields_default_are_compare_fields : forall fs,
  (forall f, In f fs -> f_hash f = None) -> py_hash_names fs = py_cmp_names fs.
Proof.
  intros fs H. unfold py_hash_names, py_cmp_names. f_equal. apply filter_ext_in.
  intros f Hf. unfold hash_flag. rewrite H; auto.
  unfold real_fields in Hf. apply filter_In in Hf. tauto.
Qed.

(* ------------------------------------------------------------------ hash action *)

Theorem hash_action_eq : forall unsafe eq frozen expl,
  cy_hash_action unsafe eq frozen expl = py_hash_action unsafe eq frozen expl.
Proof. intros [] [] [] []; reflexivity. Qed.

Definition explicit_hash_agree (u : user) : Prop := ~ (u_hash u = HNone /\ u_eq u = true).

Theorem hash_eq_partial : forall o u fs,
  explicit_hash_agree u -> cy_hash true o u fs = py_hash o u fs.
Proof.
  intros o u fs H. unfold cy_hash, py_hash. rewrite hash_fields_eq, hash_action_eq.
  do 2 f_equal. unfold cy_explicit_hash, py_explicit_hash, explicit_hash_agree in *.
  destruct (u_hash u), (u_eq u); try reflexivity. exfalso. apply H. auto.
Qed.

(* full statement (false): forall o u fs, cy_hash o u fs = py_hash o u fs *)
Theorem hash_eq_refuted : exists o u fs, cy_hash true o u fs = HErr /\ py_hash o u fs = HAdd [1%N].
Proof.
  exists (mkOpts true true true false true false true false),
    (mkUser false false true HNone false false), [fld 1 DNone true None].
  split; reflexivity.
Qed.

(* the tables dumped from the running code (Gen_HashAction, regenerated on every run):
   cy_hash_rows from Dataclass.generate_hash_code, py_hash_rows from dataclasses._hash_action *)
Definition action_eqb (a b : action) : bool :=
  match a, b with
  | ANothing, ANothing | ASetNone, ASetNone | AAdd, AAdd | ARaise, ARaise => true
  | _, _ => false
  end.

Definition row := (bool * bool * bool * bool * action)%type.
Definition row_ok (f : bool -> bool -> bool -> bool -> action) (r : row) : bool :=
  match r with (a, b, c, d, x) => action_eqb (f a b c d) x end.

Definition all_keys : list (bool * bool * bool * bool) :=
  flat_map (fun a => flat_map (fun b => flat_map (fun c => map (fun d => (a, b, c, d))
    [false; true]) [false; true]) [false; true]) [false; true].

Definition key_eqb (k1 k2 : bool * bool * bool * bool) : bool :=
  match k1, k2 with (a, b, c, d), (a', b', c', d') =>
    Bool.eqb a a' && Bool.eqb b b' && Bool.eqb c c' && Bool.eqb d d' end.

Definition covers (rows : list row) : bool :=
  forallb (fun k => existsb (fun r => key_eqb k (fst r)) rows) all_keys.

Definition rows_agree (r1 r2 : list row) : bool :=
  forallb (fun r => forallb (fun r' => negb (key_eqb (fst r) (fst r')) || action_eqb (snd r) (snd r')) r2) r1.

Definition hash_table_check : bool :=
  forallb (row_ok cy_hash_action) cy_hash_rows && covers cy_hash_rows
  && forallb (row_ok py_hash_action) py_hash_rows && covers py_hash_rows
  && rows_agree cy_hash_rows py_hash_rows.

(* ------------------------------------------------------------------ __match_args__ *)

(* with the repaired loop (mx = true): full statement *)
Theorem match_args_eq : forall o u fs,
  no_field_kw fs -> cy_match_args true o u fs = py_match_args o u fs.
Proof.
  intros o u fs Hkw. unfold cy_match_args, py_match_args.
  destruct (o_match_args o), (u_match_args u); cbn; try reflexivity.
  rewrite (py_std_nokw o fs Hkw). now destruct (o_kw_only o).
Qed.

Theorem match_args_eq_partial : forall o u fs,
  no_field_kw fs -> (o_kw_only o = true \/ forall f, In f fs -> f_init f = true) ->
  cy_match_args false o u fs = py_match_args o u fs.
Proof.
  intros o u fs Hkw H. unfold cy_match_args, py_match_args.
  destruct (o_match_args o), (u_match_args u); cbn; try reflexivity.
  rewrite (py_std_nokw o fs Hkw). destruct (o_kw_only o) eqn:Hk; [reflexivity|].
  destruct H as [H|H]; [discriminate|]. now rewrite filter_true.
Qed.

(* full statement (false): forall o u fs, no_field_kw fs -> cy_match_args = py_match_args *)
Theorem match_args_init_false_refuted : exists o u fs,
  no_field_kw fs /\ cy_match_args false o u fs = Some [1%N; 2%N] /\ py_match_args o u fs = Some [1%N].
Proof.
  exists dflt_opts, no_user, [fld 1 DNone true None; fld 2 DValue false None].
  split; [|split; reflexivity].
  intros f [<-|[<-|[]]]; reflexivity.
Qed.

(* ------------------------------------------------------------------ attribute sources *)

Definition init_false_has_default (fs : list field) : Prop :=
  forall f, In f fs -> f_initvar f = false -> f_init f = false -> has_default f = true.

Theorem body_eq_partial : forall fs, init_false_has_default fs -> cy_body fs = py_body fs.
Proof.
  intros fs H. unfold cy_body, py_body. apply map_ext_in. intros f Hf.
  unfold real_fields in Hf. apply filter_In in Hf. destruct Hf as [Hf Hiv].
  apply negb_true_iff in Hiv. specialize (H f Hf Hiv).
  unfold cy_src, py_src, has_default in *. destruct (f_default f), (f_init f); try reflexivity.
  specialize (H eq_refl). discriminate.
Qed.

Theorem body_init_false_refuted : exists fs,
  cy_body fs = [(1%N, SZero)] /\ py_body fs = [(1%N, SUnset)].
Proof. exists [fld 1 DNone false None]. split; reflexivity. Qed.

(* ------------------------------------------------------------------ rejected classes *)

Definition no_initvar_factory (fs : list field) : Prop :=
  forall f, In f fs -> f_initvar f && is_factory f = false.

Theorem rejected_eq_partial : forall o u fs,
  no_field_kw fs -> user_init_checked o u fs -> explicit_hash_agree u ->
  no_initvar_factory fs -> (o_order o = true -> o_eq o = true) ->
  cy_rejected o u fs = py_rejected o u fs.
Proof.
  intros o u fs Hkw Hu Hh Hiv Hord. unfold cy_rejected, py_rejected.
  rewrite (init_signature_eq o u fs Hkw Hu), (hash_eq_partial o u fs Hh).
  rewrite (existsb_none _ fs Hiv), existsb_none by (intros f Hf; now rewrite (Hkw f Hf)).
  destruct (o_order o); [rewrite Hord|]; reflexivity.
Qed.

(* order=True with eq=False: ValueError in dataclasses.py, accepted by Cython *)
Theorem rejected_order_without_eq_refuted : exists o u fs,
  no_field_kw fs /\ cy_rejected o u fs = false /\ py_rejected o u fs = true.
Proof.
  exists (mkOpts true true false true false false true false), no_user, [fld 1 DNone true None].
  split; [|split; reflexivity]. intros f [<-|[]]; reflexivity.
Qed.

(* InitVar with default_factory: TypeError in dataclasses.py, accepted by Cython *)
Theorem rejected_initvar_factory_refuted : exists o u fs,
  no_field_kw fs /\ cy_rejected o u fs = false /\ py_rejected o u fs = true.
Proof.
  exists dflt_opts, no_user, [mkField 1%N DFactory true true true None None true].
  split; [|split; reflexivity]. intros f [<-|[]]; reflexivity.
Qed.

(* ------------------------------------------------------------------ everything at once *)

Record domain_ok (o : opts) (u : user) (fs : list field) : Prop := {
  dom_kw : no_field_kw fs;
  dom_user_init : user_init_checked o u fs;
  dom_hash : explicit_hash_agree u;
  dom_initvar : no_initvar_factory fs;
  dom_order : o_order o = true -> o_eq o = true;
  dom_match : o_kw_only o = true \/ forall f, In f fs -> f_init f = true;
  dom_body : init_false_has_default fs
}.

Theorem decisions_eq_partial : forall o u fs, domain_ok o u fs -> cy_decide true true o u fs = py_decide o u fs.
Proof.
  intros o u fs [H1 H2 H3 H4 H5 H6 H7]. unfold cy_decide, py_decide.
  rewrite (rejected_eq_partial o u fs H1 H2 H3 H4 H5), (init_signature_eq o u fs H1 H2),
    repr_fields_eq, (hash_eq_partial o u fs H3), (match_args_eq o u fs H1),
    (body_eq_partial fs H7).
  destruct (compare_fields_eq o u fs) as [-> ->]. reflexivity.
Qed.

(* the code as it is (hx = false) on the further complement of the hash-field finding *)
Theorem decisions_eq_asis_partial : forall o u fs,
  domain_ok o u fs -> hash_none_is_compared fs -> cy_decide false false o u fs = py_decide o u fs.
Proof.
  intros o u fs H Hh. rewrite <- (decisions_eq_partial o u fs H). unfold cy_decide. f_equal.
  - unfold cy_hash. now rewrite (hash_fields_eq_partial fs Hh), hash_fields_eq.
  - destruct H as [H1 _ _ _ _ H6 _].
    now rewrite (match_args_eq_partial o u fs H1 H6), (match_args_eq o u fs H1).
Qed.

(* ------------------------------------------------------------------ ordering = tuple ordering *)

Section CmpProofs.
  Variable A : Type.
  Variable ident : A -> A -> bool.
  Variable eqv : A -> A -> bool.
  Variable rel : cop -> A -> A -> option bool.

  (* the contract on the element comparisons under which the field-by-field cascade is the
     tuple comparison: (1) identical objects are equal; (2) equal elements can be ordered and
     are not strictly ordered; (3) on unequal elements `<=` is `<` and `>=` is `>` *)
  Definition cmp_contract (ps : list (A * A)) : Prop :=
    forall x y, In (x, y) ps ->
      (ident x y = true -> eqv x y = true)
      /\ (eqv x y = true -> rel OLt x y = Some false /\ rel OGt x y = Some false)
      /\ (eqv x y = false -> rel OLe x y = rel OLt x y /\ rel OGe x y = rel OGt x y).

  Lemma strict_idem c : strict (strict c) = strict c.
  Proof. destruct c; reflexivity. Qed.

  Theorem order_is_tuple_order : forall c ps,
    cmp_contract ps -> cy_order A eqv rel c ps = py_order A ident eqv rel c ps.
  Proof.
    intros c ps. induction ps as [|[x y] r IH]; intros H; [reflexivity|].
    cbn [cy_order py_order].
    destruct (H x y (or_introl eq_refl)) as [H1 [H2 H3]].
    assert (IH' : cy_order A eqv rel c r = py_order A ident eqv rel c r).
    { apply IH. intros a b Hab. apply H. now right. }
    destruct (eqv x y) eqn:He.
    - rewrite orb_true_r. destruct (H2 eq_refl) as [Hl Hg].
      replace (rel (strict c) x y) with (Some false) by (destruct c; cbn; auto).
      cbn. exact IH'.
    - destruct (ident x y) eqn:Hi; [discriminate (H1 eq_refl)|].
      cbn [orb negb]. destruct (H3 eq_refl) as [Hle Hge].
      replace (rel c x y) with (rel (strict c) x y) by (destruct c; cbn; auto).
      destruct (rel (strict c) x y) as [[|]|]; reflexivity.
  Qed.

  Theorem equal_is_tuple_equal : forall ps,
    (forall x y, In (x, y) ps -> ident x y = true -> eqv x y = true) ->
    cy_equal A eqv ps = py_equal A ident eqv ps.
  Proof.
    induction ps as [|[x y] r IH]; intros H; [reflexivity|].
    cbn [cy_equal py_equal].
    assert (IH' : cy_equal A eqv r = py_equal A ident eqv r).
    { apply IH. intros a b Hab. apply H. now right. }
    destruct (eqv x y) eqn:He.
    - rewrite orb_true_r. exact IH'.
    - destruct (ident x y) eqn:Hi; [|reflexivity].
      pose proof (H x y (or_introl eq_refl) Hi) as E. congruence.
  Qed.
End CmpProofs.

(* integers satisfy the contract: unconditional statement for int-valued fields *)
Definition z_rel (c : cop) (x y : Z) : option bool :=
  Some (match c with OLt => Z.ltb x y | OLe => Z.leb x y | OGt => Z.gtb x y | OGe => Z.geb x y end).

Theorem order_is_tuple_order_int : forall c ps,
  cy_order Z Z.eqb z_rel c ps = py_order Z Z.eqb Z.eqb z_rel c ps.
Proof.
  intros c ps. apply order_is_tuple_order. unfold cmp_contract. intros x y _. unfold z_rel.
  split; [|split]; [intros E|intros E; split|intros E; split].
  - exact E.
  - apply Z.eqb_eq in E. subst. now rewrite Z.ltb_irrefl.
  - apply Z.eqb_eq in E. subst. f_equal. rewrite Z.gtb_ltb. apply Z.ltb_irrefl.
  - apply Z.eqb_neq in E. f_equal. destruct (Z.leb_spec x y), (Z.ltb_spec x y); auto; lia.
  - apply Z.eqb_neq in E. f_equal. rewrite Z.geb_leb, Z.gtb_ltb.
    destruct (Z.leb_spec y x), (Z.ltb_spec y x); auto; lia.
Qed.

(* and the tuple order on integers is the lexicographic order *)
Fixpoint lex_lt (ps : list (Z * Z)) : bool :=
  match ps with
  | [] => false
  | (x, y) :: r => Z.ltb x y || (Z.eqb x y && lex_lt r)
  end.

Theorem order_lt_is_lexicographic : forall ps, cy_order Z Z.eqb z_rel OLt ps = Some (lex_lt ps).
Proof.
  induction ps as [|[x y] r IH]; [reflexivity|].
  cbn [cy_order lex_lt strict z_rel]. rewrite IH.
  destruct (Z.ltb_spec x y), (Z.eqb_spec x y); cbn; auto; lia.
Qed.

(* full statement (false): order_is_tuple_order without clause (2) of the contract.
   Field value None on both sides: == holds, < raises. dataclasses: (None,) <= (None,) is True *)
Theorem order_unorderable_equal_refuted :
  cy_order (option Z) oz_ident oz_rel OLe [(None, None)] = None
  /\ py_order (option Z) oz_ident oz_ident oz_rel OLe [(None, None)] = Some true.
Proof. split; reflexivity. Qed.

(* full statement (false): equal_is_tuple_equal without reflexivity of == on identical objects
   (a NaN stored in a field, same object on both sides) *)
Theorem equal_nan_identity_refuted :
  cy_equal (bool * Z) nv_eqv [((true, 7%Z), (true, 7%Z))] = false
  /\ py_equal (bool * Z) nv_ident nv_eqv [((true, 7%Z), (true, 7%Z))] = true.
Proof. split; reflexivity. Qed.
