(* Proofs for property C09, second part (Model/M_ConstNames.v): numeric constants get pairwise
   different C names, and every pooled constant resolves to a number-table slot that is
   initialised with its own value. *)
From Coq Require Import ZArith List Bool Lia ZifyBool Permutation.
From CyVerif Require Import Lib.CInt Model.M_Consts Proof.P_Consts Model.M_ConstNames.
Import ListNotations.
Open Scope Z_scope.

(* ------------------------------------------------------------------ *)
(* A. the dict of used names                                           *)
(* ------------------------------------------------------------------ *)

Definition keys (d : dict) : list str := map fst d.

Lemma dmem_in k d : dmem k d = true <-> In k (keys d).
Proof.
  unfold dmem. induction d as [|[k' v] r IH]; cbn.
  - split; [discriminate|tauto].
  - destruct (zlist_eqb k k') eqn:E.
    + apply zlist_eqb_iff in E. subst. split; auto.
    + rewrite IH. split; [auto|]. intros [->|H]; [|exact H]. rewrite zlist_eqb_refl in E. discriminate.
Qed.

Lemma dmem_dget k d : dmem k d = true -> exists v, dget k d = Some v.
Proof. unfold dmem. destruct (dget k d) as [v|]; [eauto|discriminate]. Qed.

(* dset overwrites in place or appends *)
Lemma dset_keys k v d : keys (dset k v d) = if dmem k d then keys d else keys d ++ [k].
Proof.
  unfold dmem, keys. induction d as [|[k' v'] r IH]; cbn; [reflexivity|].
  destruct (zlist_eqb k k') eqn:E; cbn.
  - apply zlist_eqb_iff in E. subst. reflexivity.
  - rewrite IH. destruct (dget k r); reflexivity.
Qed.

Lemma dget_dset_same k v d : dget k (dset k v d) = Some v.
Proof.
  induction d as [|[k' v'] r IH]; cbn; [rewrite zlist_eqb_refl; reflexivity|].
  destruct (zlist_eqb k k') eqn:E; cbn; [rewrite zlist_eqb_refl; reflexivity|]. rewrite E. exact IH.
Qed.

Lemma dmem_dset_same k v d : dmem k (dset k v d) = true.
Proof. unfold dmem. rewrite dget_dset_same. reflexivity. Qed.

Lemma dmem_dset_mono k k' v d : dmem k d = true -> dmem k (dset k' v d) = true.
Proof.
  intros H. apply dmem_in. apply dmem_in in H. rewrite dset_keys.
  destruct (dmem k' d); [exact H|apply in_or_app; left; exact H].
Qed.

Lemma dset_length_mem k v d : dmem k d = true -> length (dset k v d) = length d.
Proof.
  intros H. pose proof (dset_keys k v d) as E. rewrite H in E. unfold keys in E.
  rewrite <- (map_length fst), E, map_length. reflexivity.
Qed.

Definition dict_pos (d : dict) : Prop := Forall (fun kv => 1 <= snd kv) d.

Lemma dict_pos_dset k v d : 1 <= v -> dict_pos d -> dict_pos (dset k v d).
Proof.
  intros Hv. unfold dict_pos. induction d as [|[k' v'] r IH]; cbn; intros H.
  - constructor; [exact Hv|constructor].
  - inversion H as [|? ? H1 H2]; subst. destruct (zlist_eqb k k'); constructor; auto.
Qed.

Lemma dict_pos_get k d v : dict_pos d -> dget k d = Some v -> 1 <= v.
Proof.
  unfold dict_pos. induction d as [|[k' v'] r IH]; cbn; intros H E; [discriminate|].
  inversion H as [|? ? H1 H2]; subst. destruct (zlist_eqb k k').
  - inversion E; subst. exact H1.
  - exact (IH H2 E).
Qed.

(* ------------------------------------------------------------------ *)
(* B. the counter text                                                 *)
(* ------------------------------------------------------------------ *)

Lemma dec_pos c : 0 < c -> dec c = to_digits 10 c.
Proof.
  intros H. unfold dec. destruct (Z.eqb_spec c 0); [lia|]. destruct (Z.ltb_spec c 0); [lia|].
  rewrite Z.abs_eq by lia. reflexivity.
Qed.

Lemma dec_inj a b : 0 < a -> 0 < b -> dec a = dec b -> a = b.
Proof.
  intros Ha Hb E. rewrite !dec_pos in E by assumption.
  destruct (to_digits_spec 10 a ltac:(lia) Ha) as (Va & _).
  destruct (to_digits_spec 10 b ltac:(lia) Hb) as (Vb & _).
  rewrite E in Va. lia.
Qed.

Lemma fmt_at_inj f a b : 0 < a -> 0 < b -> fmt_at f a = fmt_at f b -> a = b.
Proof.
  unfold fmt_at. intros Ha Hb E. apply app_inv_head in E. apply app_inv_head in E.
  apply app_inv_tail in E. exact (dec_inj a b Ha Hb E).
Qed.

(* ------------------------------------------------------------------ *)
(* C. unique_const_cname                                               *)
(* ------------------------------------------------------------------ *)

Lemma same_keys_dmem d d' : keys d' = keys d -> forall k, dmem k d' = dmem k d.
Proof.
  intros E k. apply eq_true_iff_eq. rewrite !dmem_in, E. reflexivity.
Qed.

(* lo: the counter value the enclosing call started from *)
Lemma uniq_loop_spec f lo : forall fuel d c0,
  lo <= c0 -> dict_pos d -> dget (fmt_base f) d = Some c0 ->
  match uniq_loop fuel f d with
  | UOk n d' => dmem n d = false /\ dmem n d' = true
                /\ (forall k, dmem k d = true -> dmem k d' = true) /\ dict_pos d'
                /\ exists c, lo < c /\ n = fmt_at f c
  | UKeyError => False
  | UFuel => forall i, 1 <= i <= Z.of_nat fuel -> In (fmt_at f (c0 + i)) (keys d)
  end.
Proof.
  induction fuel as [|fuel IH]; intros d c0 Hlo Hp Hg.
  - cbn. intros i Hi. lia.
  - cbn [uniq_loop]. rewrite Hg.
    assert (Hb : dmem (fmt_base f) d = true) by (unfold dmem; rewrite Hg; reflexivity).
    set (d1 := dset (fmt_base f) (c0 + 1) d).
    assert (K1 : keys d1 = keys d) by (unfold d1; rewrite dset_keys, Hb; reflexivity).
    pose proof (same_keys_dmem d d1 K1) as S1.
    assert (P1 : dict_pos d1) by (apply dict_pos_dset; [pose proof (dict_pos_get _ _ _ Hp Hg); lia|exact Hp]).
    destruct (dmem (fmt_at f (c0 + 1)) d1) eqn:M.
    + (* the name is taken: the next round sees the same keys *)
      specialize (IH d1 (c0 + 1) ltac:(lia) P1 (dget_dset_same _ _ _)).
      destruct (uniq_loop fuel f d1) as [n d'| |]; [setoid_rewrite S1 in IH; exact IH|exact IH|].
      intros i Hi. rewrite <- K1. destruct (Z.eq_dec i 1) as [->|Ni]; [apply dmem_in; exact M|].
      replace (c0 + i) with (c0 + 1 + (i - 1)) by lia. apply IH. lia.
    + rewrite S1 in M.
      split; [exact M|]. split; [apply dmem_dset_same|]. split.
      { intros k Hk. apply dmem_dset_mono. unfold d1. apply dmem_dset_mono. exact Hk. }
      split; [apply dict_pos_dset; [lia|exact P1]|].
      exists (c0 + 1). split; [lia|reflexivity].
Qed.

Lemma NoDup_map_in_inj {A B} (g : A -> B) l :
  (forall x y, In x l -> In y l -> g x = g y -> x = y) -> NoDup l -> NoDup (map g l).
Proof.
  induction l as [|a l IH]; intros Inj ND; cbn; [constructor|].
  inversion ND as [|? ? Na NDl]; subst. constructor.
  - intros Hin. apply in_map_iff in Hin. destruct Hin as (y & Ey & Hy).
    assert (y = a) by (apply Inj; [right; exact Hy|left; reflexivity|exact Ey]). subst. contradiction.
  - apply IH; [|exact NDl]. intros x y Hx Hy. apply Inj; right; assumption.
Qed.

(* the name returned is new, registered, and nothing in use is forgotten; the call always
   returns (no KeyError, the loop ends within the fuel) *)
Theorem unique_const_cname_fresh f d : dict_pos d ->
  exists n d', unique_const_cname f d = UOk n d'
    /\ dmem n d = false /\ dmem n d' = true
    /\ (forall k, dmem k d = true -> dmem k d' = true) /\ dict_pos d'
    /\ (n = fmt_base f \/ exists c, 1 < c /\ n = fmt_at f c).
Proof.
  intros Hp. unfold unique_const_cname. destruct (dmem (fmt_base f) d) eqn:Hb.
  - destruct (dmem_dget _ _ Hb) as (c0 & Hg).
    pose proof (dict_pos_get _ _ _ Hp Hg) as Hc0.
    pose proof (uniq_loop_spec f 1 (S (length d)) d c0 Hc0 Hp Hg) as Sp.
    destruct (uniq_loop (S (length d)) f d) as [n d'| |].
    + exists n, d'. split; [reflexivity|]. tauto.
    + contradiction.
    + exfalso.
      set (L := map (fun i => fmt_at f (c0 + Z.of_nat i)) (seq 1 (S (length d)))).
      assert (ND : NoDup L).
      { apply NoDup_map_in_inj; [|apply seq_NoDup]. intros x y Hx Hy E.
        apply in_seq in Hx. apply in_seq in Hy. apply fmt_at_inj in E; lia. }
      assert (Inc : incl L (keys d)).
      { intros x Hx. apply in_map_iff in Hx. destruct Hx as (i & <- & Hi). apply in_seq in Hi.
        apply Sp. lia. }
      pose proof (NoDup_incl_length ND Inc) as Len.
      unfold L, keys in Len. rewrite !map_length, seq_length in Len. lia.
  - exists (fmt_base f), (dset (fmt_base f) 1 d). split; [reflexivity|]. split; [exact Hb|].
    split; [apply dmem_dset_same|]. split; [intros k Hk; apply dmem_dset_mono; exact Hk|].
    split; [apply dict_pos_dset; [lia|exact Hp]|]. left. reflexivity.
Qed.

(* ------------------------------------------------------------------ *)
(* D. the character replacement is injective on numeric spellings      *)
(* ------------------------------------------------------------------ *)

Lemma sanitize_ch_cases c :
  ((c = 46 \/ c = 43) /\ sanitize_ch c = [95]) \/
  (c = 45 /\ sanitize_ch c = s_neg) \/
  (c <> 46 /\ c <> 43 /\ c <> 45 /\ sanitize_ch c = [c]).
Proof.
  unfold sanitize_ch.
  destruct (Z.eqb_spec c 46) as [->|N1]; [left; split; [left|]; reflexivity|].
  destruct (Z.eqb_spec c 43) as [->|N2]; [left; split; [right|]; reflexivity|].
  destruct (Z.eqb_spec c 45) as [->|N3]; [right; left; split; reflexivity|].
  right; right. repeat split; assumption.
Qed.

Lemma sanitize_cons c r : sanitize (c :: r) = sanitize_ch c ++ sanitize r.
Proof. reflexivity. Qed.

Lemma sanitize_cons_nonnil c r : sanitize (c :: r) <> [].
Proof.
  rewrite sanitize_cons.
  destruct (sanitize_ch_cases c) as [(_ & S)|[(_ & S)|(_ & _ & _ & S)]]; rewrite S; discriminate.
Qed.

(* first character of a sanitised string *)
Lemma sanitize_head s h t : sanitize s = h :: t ->
  exists c r, s = c :: r /\ (h = c \/ h = 95 \/ h = 110).
Proof.
  destruct s as [|c r]; [discriminate|]. rewrite sanitize_cons. intros E. exists c, r. split; [reflexivity|].
  destruct (sanitize_ch_cases c) as [(_ & S)|[(_ & S)|(_ & _ & _ & S)]]; rewrite S in E; cbn in E;
    inversion E; subst; auto.
Qed.

(* free of 'l' and 'L', as every spelling is (okc_no_l) *)
Definition no_l (s : str) : bool := forallb (fun c => negb ((c =? 108) || (c =? 76))) s.

Lemma spell_ok_sep s : spell_ok s = true -> sep_ok false s = true.
Proof. intros H. exact H. Qed.

Lemma okc_no_l c : okc c = true -> c <> 108 /\ c <> 76.
Proof. unfold okc. lia. Qed.

Lemma sep_ok_cons p c r : sep_ok p (c :: r) = true ->
  okc c = true /\ (if c =? 43 then p else if c =? 46 then negb p else true) = true /\ sep_ok (is_e c) r = true.
Proof. cbn [sep_ok]. intros H. apply andb_prop in H. destruct H as (H & T). apply andb_prop in H. tauto. Qed.

Lemma sep_ok_chars p s : sep_ok p s = true -> Forall (fun c => okc c = true) s.
Proof.
  revert p. induction s as [|c r IH]; intros p H; [constructor|].
  apply sep_ok_cons in H. destruct H as (K & _ & T). constructor; [exact K|exact (IH _ T)].
Qed.

(* "neg_" is never mistaken for letters of the spelling: no 'g' after "ne" *)
Lemma no_eg r x : Forall (fun c => okc c = true) r -> sanitize r = 101 :: 103 :: x -> False.
Proof.
  intros F E. destruct (sanitize_head _ _ _ E) as (c3 & r3 & -> & _). rewrite sanitize_cons in E.
  inversion F as [|? ? _ F3]; subst.
  destruct (sanitize_ch_cases c3) as [(_ & S)|[(_ & S)|(_ & _ & _ & S)]]; rewrite S in E; cbn in E;
    try discriminate.
  inversion E as [[E1 E2]]. destruct (sanitize_head _ _ _ E2) as (c4 & r4 & -> & Hc).
  inversion F3 as [|? ? K4 _]; subst. unfold okc in K4. lia.
Qed.

Lemma sanitize_inj : forall s1 s2 p,
  sep_ok p s1 = true -> sep_ok p s2 = true -> sanitize s1 = sanitize s2 -> s1 = s2.
Proof.
  induction s1 as [|c1 r1 IH]; intros [|c2 r2] p O1 O2 E.
  - reflexivity.
  - exfalso. symmetry in E. exact (sanitize_cons_nonnil _ _ E).
  - exfalso. exact (sanitize_cons_nonnil _ _ E).
  - pose proof (sep_ok_chars _ _ O1) as F1. pose proof (sep_ok_chars _ _ O2) as F2.
    inversion F1 as [|? ? K1 Fr1]; inversion F2 as [|? ? K2 Fr2]; subst.
    apply sep_ok_cons in O1, O2. destruct O1 as (_ & C1 & T1), O2 as (_ & C2 & T2).
    rewrite !sanitize_cons in E.
    destruct (sanitize_ch_cases c1) as [(A1 & S1)|[(A1 & S1)|(A1 & B1 & D1 & S1)]];
    destruct (sanitize_ch_cases c2) as [(A2 & S2)|[(A2 & S2)|(A2 & B2 & D2 & S2)]];
    rewrite S1, S2 in E; cbn in E.
    + inversion E as [E'].
      (* '.' and '+' both become '_': which one it was is told by the character before *)
      assert (c1 = c2).
      { destruct A1 as [-> | ->]; destruct A2 as [-> | ->]; try reflexivity;
          cbn in C1, C2; destruct p; discriminate. }
      subst c2. f_equal. exact (IH r2 _ T1 T2 E').
    + discriminate.
    + inversion E as [[E1 E2]]. subst c2. vm_compute in K2. discriminate.
    + discriminate.
    + inversion E as [E']. subst. f_equal. exact (IH r2 _ T1 T2 E').
    + exfalso. inversion E as [[E1 E2]]. symmetry in E2. exact (no_eg _ _ Fr2 E2).
    + inversion E as [[E1 E2]]. subst c1. vm_compute in K1. discriminate.
    + exfalso. inversion E as [[E1 E2]]. exact (no_eg _ _ Fr1 E2).
    + inversion E as [[E1 E2]]. subst c2. f_equal. exact (IH r2 _ T1 T2 E2).
Qed.

Theorem sanitize_injective s1 s2 :
  spell_ok s1 = true -> spell_ok s2 = true -> sanitize s1 = sanitize s2 -> s1 = s2.
Proof. apply sanitize_inj. Qed.

(* ------------------------------------------------------------------ *)
(* E. the pool: names are injective in the key                         *)
(* ------------------------------------------------------------------ *)

Lemma ptype_eqb_iff a b : ptype_eqb a b = true <-> a = b.
Proof. destruct a, b; cbn; split; intros H; try reflexivity; discriminate. Qed.

Lemma nkey_eqb_iff a b : nkey_eqb a b = true <-> a = b.
Proof.
  destruct a as [s1 t1], b as [s2 t2]. unfold nkey_eqb. cbn [fst snd]. split.
  - intros H. apply andb_prop in H. destruct H as (A & B).
    apply zlist_eqb_iff in A. apply ptype_eqb_iff in B. subst. reflexivity.
  - intros H. inversion H; subst. rewrite zlist_eqb_refl. cbn. apply ptype_eqb_iff. reflexivity.
Qed.

Lemma nkey_eqb_refl a : nkey_eqb a a = true.
Proof. apply nkey_eqb_iff. reflexivity. Qed.

Lemma nkey_eqb_neq a b : a <> b -> nkey_eqb a b = false.
Proof. intros N. destruct (nkey_eqb a b) eqn:E; [|reflexivity]. apply nkey_eqb_iff in E. contradiction. Qed.

Definition key_ok (k : nkey) : bool := spell_ok (fst k).
Definition value_of (k : nkey) : str := sanitize (eff_spelling (fst k) (snd k)).
Definition is_long_name (k : nkey) : bool := name_limit <? Z.of_nat (length (value_of k)).

(* what the pool knows about the name n it gave to key k *)
Definition name_shape (k : nkey) (n : str) (d : dict) : Prop :=
  if is_long_name k
  then dmem n d = true /\ exists rest, n = prefix_of (snd k) ++ s_large ++ rest
  else n = prefix_of (snd k) ++ value_of k.

Lemma name_shape_mono k n d d' :
  (forall x, dmem x d = true -> dmem x d' = true) -> name_shape k n d -> name_shape k n d'.
Proof. unfold name_shape. intros M. destruct (is_long_name k); [|auto]. intros (A & B). split; auto. Qed.

Lemma new_name_spec v t d : dict_pos d ->
  exists n d', new_num_const_cname v t d = UOk n d' /\ dict_pos d'
    /\ (forall x, dmem x d = true -> dmem x d' = true)
    /\ name_shape (v, t) n d'
    /\ (is_long_name (v, t) = true -> dmem n d = false).
Proof.
  intros Hp. unfold new_num_const_cname, new_num_const_cname_gen, name_shape, is_long_name, value_of.
  cbn [fst snd]. set (value := sanitize (eff_spelling v t)).
  destruct (name_limit <? Z.of_nat (length value)) eqn:L.
  - destruct (unique_const_cname_fresh (large_fmt t value) d Hp)
      as (n & d' & E & F & I & Mono & P & Sh).
    exists n, d'. split; [exact E|]. split; [exact P|]. split; [exact Mono|]. split; [|intros _; exact F].
    split; [exact I|]. destruct Sh as [->|(c & _ & ->)].
    + unfold fmt_base, large_fmt. cbn [f_pre f_post]. rewrite <- app_assoc. eexists. reflexivity.
    + unfold fmt_at, large_fmt. cbn [f_pre f_post f_sep]. rewrite <- app_assoc. eexists. reflexivity.
  - exists (prefix_of t ++ value), d. split; [reflexivity|]. split; [exact Hp|]. split; [auto|].
    split; [reflexivity|discriminate].
Qed.

Lemma prefix_split t1 t2 x y : prefix_of t1 ++ x = prefix_of t2 ++ y ->
  x = y /\ (t1 = PFloat <-> t2 = PFloat).
Proof.
  destruct t1, t2; cbn [prefix_of]; intros E;
    try (apply app_inv_head in E; split; [exact E|split; intros; (reflexivity || discriminate)]);
    exfalso; unfold pfx_int, pfx_float in E; cbn in E; discriminate.
Qed.

Lemma spell_no_l v : spell_ok v = true -> ~ In 108 v /\ ~ In 76 v.
Proof.
  intros H. pose proof (sep_ok_chars _ _ H) as F. rewrite Forall_forall in F.
  split; intros Hin; apply F, okc_no_l in Hin; tauto.
Qed.

(* the sanitised spelling has the characters of the spelling, '_' and those of "neg_" *)
Lemma sanitize_in c s : In c (sanitize s) -> In c s \/ In c (95 :: s_neg).
Proof.
  induction s as [|c0 r IH]; [contradiction|]. rewrite sanitize_cons. intros H. apply in_app_or in H.
  destruct H as [H|H]; [|destruct (IH H); [left; right|right]; assumption].
  destruct (sanitize_ch_cases c0) as [(_ & S)|[(_ & S)|(_ & _ & _ & S)]]; rewrite S in H.
  - right. destruct H as [<-|[]]. left. reflexivity.
  - right. right. exact H.
  - left. destruct H as [<-|[]]. left. reflexivity.
Qed.

(* two names of the short form *)
Lemma short_short k1 k2 : key_ok k1 = true -> key_ok k2 = true ->
  prefix_of (snd k1) ++ value_of k1 = prefix_of (snd k2) ++ value_of k2 -> k1 = k2.
Proof.
  destruct k1 as [v1 t1], k2 as [v2 t2]. unfold key_ok, value_of. cbn [fst snd]. intros O1 O2 E.
  apply prefix_split in E. destruct E as (E & Fl).
  (* the 'L' that ends the effective spelling of a 'long' key occurs in no other *)
  assert (NL : forall v w, spell_ok v = true -> sanitize v = sanitize (w ++ [76]) -> False).
  { intros v w O Ev. assert (Hin : In 76 (sanitize v)).
    { rewrite Ev. unfold sanitize. rewrite flat_map_app. apply in_or_app. right. left. reflexivity. }
    apply sanitize_in in Hin. destruct Hin as [Hin|Hin]; [exact (proj2 (spell_no_l v O) Hin)|cbn in Hin; lia]. }
  destruct t1, t2; cbn [eff_spelling] in E;
    try (exfalso; destruct Fl as (F1 & F2); (discriminate (F1 eq_refl) || discriminate (F2 eq_refl)));
    try (exfalso; exact (NL _ _ O1 E)); try (exfalso; exact (NL _ _ O2 (eq_sym E))).
  - apply (sanitize_inj _ _ false O1 O2) in E. subst. reflexivity.
  - unfold sanitize in E. rewrite !flat_map_app in E. apply app_inv_tail in E.
    apply (sanitize_inj _ _ false O1 O2) in E. subst. reflexivity.
  - apply (sanitize_inj _ _ false O1 O2) in E. subst. reflexivity.
Qed.

(* a short name is never of the abbreviated form *)
Lemma short_large k1 t2 rest : key_ok k1 = true ->
  prefix_of (snd k1) ++ value_of k1 = prefix_of t2 ++ s_large ++ rest -> False.
Proof.
  destruct k1 as [v1 t1]. unfold key_ok, value_of. cbn [fst snd]. intros O1 E.
  apply prefix_split in E. destruct E as (E & _). unfold s_large in E. cbn [app] in E.
  destruct (sanitize_head _ _ _ E) as (c & r & D & Hc).
  assert (c = 108) by lia. subst c.
  assert (Hin : In 108 (eff_spelling v1 t1)) by (rewrite D; left; reflexivity).
  assert (Hv : In 108 v1).
  { destruct t1; cbn [eff_spelling] in Hin; try exact Hin.
    apply in_app_or in Hin. destruct Hin as [H|[H|[]]]; [exact H|discriminate]. }
  exact (proj1 (spell_no_l v1 O1) Hv).
Qed.

Lemma index_find_in k ix n : index_find k ix = Some n -> In (k, n) ix.
Proof.
  induction ix as [|[k' n'] r IH]; cbn; [discriminate|].
  destruct (nkey_eqb k k') eqn:E.
  - apply nkey_eqb_iff in E. intros H. inversion H; subst. left. reflexivity.
  - intros H. right. exact (IH H).
Qed.

Lemma index_find_none k ix : index_find k ix = None -> ~ In k (map fst ix).
Proof.
  induction ix as [|[k' n'] r IH]; cbn; [tauto|].
  destruct (nkey_eqb k k') eqn:E; [discriminate|]. intros H [Hk|Hin].
  - subst. rewrite nkey_eqb_refl in E. discriminate.
  - exact (IH H Hin).
Qed.

Lemma index_find_nodup k n ix : NoDup (map fst ix) -> In (k, n) ix -> index_find k ix = Some n.
Proof.
  induction ix as [|[k' n'] r IH]; cbn; intros ND Hin; [contradiction|].
  inversion ND as [|? ? Nk NDr]; subst. destruct Hin as [H|H].
  - inversion H; subst. rewrite nkey_eqb_refl. reflexivity.
  - destruct (nkey_eqb k k') eqn:E.
    + apply nkey_eqb_iff in E. subst. exfalso. apply Nk. apply in_map_iff. exists (k', n). auto.
    + exact (IH NDr H).
Qed.

Record Inv (p : pool) : Prop := {
  inv_pos : dict_pos (p_used p);
  inv_ok : forall k n, In (k, n) (p_index p) -> key_ok k = true /\ name_shape k n (p_used p);
  inv_inj : forall k1 k2 n, In (k1, n) (p_index p) -> In (k2, n) (p_index p) -> k1 = k2;
  inv_nodup : NoDup (map fst (p_index p)) }.

Lemma Inv_empty d0 : dict_pos d0 -> Inv {| p_index := []; p_used := d0 |}.
Proof. intros H. constructor; cbn; [exact H|tauto|tauto|constructor]. Qed.

(* the name given to a new key differs from the name of every older key *)
Lemma new_name_differs p k n d' k2 :
  Inv p -> key_ok k = true -> index_find k (p_index p) = None ->
  name_shape k n d' -> (is_long_name k = true -> dmem n (p_used p) = false) ->
  In (k2, n) (p_index p) -> False.
Proof.
  intros I Ok Nf Sh Fr Hin.
  destruct (inv_ok p I k2 n Hin) as (Ok2 & Sh2).
  unfold name_shape in Sh, Sh2.
  destruct (is_long_name k) eqn:L1; destruct (is_long_name k2) eqn:L2.
  - destruct Sh2 as (M2 & _). rewrite (Fr eq_refl) in M2. discriminate.
  - destruct Sh as (_ & (rest & En)). rewrite Sh2 in En. exact (short_large _ _ _ Ok2 En).
  - destruct Sh2 as (_ & (rest & En)). rewrite Sh in En. exact (short_large _ _ _ Ok En).
  - rewrite Sh in Sh2. apply short_short in Sh2; [|exact Ok|exact Ok2]. subst k2.
    rewrite (index_find_nodup _ _ _ (inv_nodup p I) Hin) in Nf. discriminate.
Qed.

Lemma get_num_const_step p k : Inv p -> key_ok k = true ->
  exists n p', get_num_const k p = Some (n, p') /\ Inv p'
    /\ index_find k (p_index p') = Some n
    /\ (forall k' n', index_find k' (p_index p) = Some n' -> index_find k' (p_index p') = Some n').
Proof.
  intros I Ok. unfold get_num_const, get_num_const_gen.
  destruct (index_find k (p_index p)) as [n|] eqn:F.
  - exists n, p. split; [reflexivity|]. split; [exact I|]. split; [exact F|]. auto.
  - destruct k as [v t].
    destruct (new_name_spec v t (p_used p) (inv_pos p I)) as (n & d' & E & P & Mono & Sh & Fr).
    cbn [fst snd]. unfold new_num_const_cname in E. rewrite E.
    pose proof (fun k2 => new_name_differs p (v, t) n d' k2 I Ok F Sh Fr) as Fresh.
    exists n, {| p_index := ((v, t), n) :: p_index p; p_used := d' |}.
    split; [reflexivity|]. split; [|split].
    + constructor; cbn [p_index p_used].
      * exact P.
      * intros k0 n0 [H|H].
        { inversion H; subst. split; [exact Ok|exact Sh]. }
        { destruct (inv_ok p I k0 n0 H) as (A & B). split; [exact A|]. exact (name_shape_mono _ _ _ _ Mono B). }
      * intros k1 k2 m [H1|H1] [H2|H2].
        { inversion H1; inversion H2; subst. reflexivity. }
        { inversion H1; subst. destruct (Fresh k2 H2). }
        { inversion H2; subst. destruct (Fresh k1 H1). }
        { exact (inv_inj p I k1 k2 m H1 H2). }
      * cbn. constructor; [exact (index_find_none _ _ F)|exact (inv_nodup p I)].
    + cbn. rewrite nkey_eqb_refl. reflexivity.
    + intros k' n' H. cbn. destruct (nkey_eqb k' (v, t)) eqn:E'; [|exact H].
      apply nkey_eqb_iff in E'. subst. rewrite H in F. discriminate.
Qed.

Lemma uniq_event_step p f : Inv p ->
  exists n d', unique_const_cname f (p_used p) = UOk n d'
    /\ Inv {| p_index := p_index p; p_used := d' |}.
Proof.
  intros I. destruct (unique_const_cname_fresh f (p_used p) (inv_pos p I))
    as (n & d' & E & _ & _ & Mono & P & _).
  exists n, d'. split; [exact E|]. constructor; cbn [p_index p_used].
  - exact P.
  - intros k0 n0 H. destruct (inv_ok p I k0 n0 H) as (A & B). split; [exact A|].
    exact (name_shape_mono _ _ _ _ Mono B).
  - exact (inv_inj p I).
  - exact (inv_nodup p I).
Qed.

Definition ev_res (p : pool) (e : event) (n : str) : Prop :=
  match e with EReq k => index_find k (p_index p) = Some n | EUniq _ => True end.

Lemma run_events_spec : forall es p, Inv p -> forallb event_okb es = true ->
  exists ns p', run_events es p = Some (ns, p') /\ Inv p'
    /\ Forall2 (ev_res p') es ns
    /\ (forall k' n', index_find k' (p_index p) = Some n' -> index_find k' (p_index p') = Some n').
Proof.
  induction es as [|e r IH]; intros p I Ok.
  - exists [], p. split; [reflexivity|]. split; [exact I|]. split; [constructor|]. auto.
  - cbn [forallb] in Ok. apply andb_prop in Ok. destruct Ok as (Ok1 & Okr).
    unfold run_events in *. cbn [run_events_gen]. destruct e as [k|f]; cbn [step_event_gen].
    + destruct (get_num_const_step p k I Ok1) as (n & p1 & E & I1 & F1 & St1).
      destruct (IH p1 I1 Okr) as (ns & p2 & E2 & I2 & F2 & St2).
      exists (n :: ns), p2. unfold get_num_const in E. rewrite E, E2.
      split; [reflexivity|]. split; [exact I2|]. split.
      * constructor; [exact (St2 _ _ F1)|exact F2].
      * intros k' n' H. exact (St2 _ _ (St1 _ _ H)).
    + destruct (uniq_event_step p f I) as (n & d' & E & I1).
      destruct (IH _ I1 Okr) as (ns & p2 & E2 & I2 & F2 & St2).
      exists (n :: ns), p2. rewrite E, E2.
      split; [reflexivity|]. split; [exact I2|]. split.
      * constructor; [exact Logic.I|exact F2].
      * intros k' n' H. exact (St2 _ _ H).
Qed.

Lemma Inv_pool0 : Inv pool0.
Proof. exact (Inv_empty [] (Forall_nil _)). Qed.

Lemma requested_found es ns p k : Forall2 (ev_res p) es ns -> In (EReq k) es ->
  exists n, index_find k (p_index p) = Some n.
Proof.
  induction 1 as [|e n es0 ns0 H0 F0 IH]; intros Hin; [contradiction|].
  destruct Hin as [->|Hin]; [exists n; exact H0|exact (IH Hin)].
Qed.

(* Theorem: whatever a module asks for -- numeric constants interleaved with the other users of
   the name registry --, every request gets the pool's name of its key, and in the pool two
   names are equal exactly if their keys are *)
Theorem num_const_names_injective es :
  forallb event_okb es = true ->
  exists ns p, run_events es pool0 = Some (ns, p)
    /\ Forall2 (ev_res p) es ns
    /\ forall k1 k2 n1 n2, index_find k1 (p_index p) = Some n1 -> index_find k2 (p_index p) = Some n2 ->
         (n1 = n2 <-> k1 = k2).
Proof.
  intros Ok. destruct (run_events_spec es _ Inv_pool0 Ok) as (ns & p & E & I & F & _).
  exists ns, p. split; [exact E|]. split; [exact F|]. intros k1 k2 n1 n2 H1 H2. split.
  - intros <-. exact (inv_inj p I k1 k2 n1 (index_find_in _ _ _ H1) (index_find_in _ _ _ H2)).
  - intros <-. rewrite H1 in H2. inversion H2. reflexivity.
Qed.

(* without the counter two different large constants share a name: 2**256 and 2**512 as spelled
   by IntNode.generate_evaluation_code (hex) *)
Definition hex_2_256 : str := [48; 120; 49] ++ repeat 48 64.
Definition hex_2_512 : str := [48; 120; 49] ++ repeat 48 128.
Theorem names_need_counter :
  event_okb (EReq (hex_2_256, PInt)) = true /\ event_okb (EReq (hex_2_512, PInt)) = true /\
  exists n p, run_events_gen false [EReq (hex_2_256, PInt); EReq (hex_2_512, PInt)] pool0
              = Some ([n; n], p).
Proof. split; [reflexivity|]. split; [reflexivity|]. eexists. eexists. vm_compute. reflexivity. Qed.

(* ------------------------------------------------------------------ *)
(* F. generate_num_constants: every constant resolves to its own slot  *)
(* ------------------------------------------------------------------ *)

Lemma nc_insert_perm x l : Permutation (nc_insert x l) (x :: l).
Proof.
  induction l as [|y r IH]; cbn; [apply Permutation_refl|].
  destruct (nc_le y x); [|apply Permutation_refl].
  eapply Permutation_trans; [apply perm_skip; exact IH|apply perm_swap].
Qed.

Lemma nc_sort_perm l : Permutation (nc_sort l) l.
Proof.
  unfold nc_sort.
  assert (G : forall l acc, Permutation (fold_left (fun a x => nc_insert x a) l acc) (l ++ acc)).
  { induction l0 as [|x r IH]; intros acc; cbn [fold_left app]; [apply Permutation_refl|].
    eapply Permutation_trans; [apply IH|].
    eapply Permutation_trans; [apply Permutation_app_head; apply nc_insert_perm|].
    apply Permutation_sym. apply Permutation_middle. }
  specialize (G l []). rewrite app_nil_r in G. exact G.
Qed.

Lemma three_way {A} (p1 p2 p3 : A -> bool) l :
  (forall x, (p1 x = true /\ p2 x = false /\ p3 x = false) \/
             (p1 x = false /\ p2 x = true /\ p3 x = false) \/
             (p1 x = false /\ p2 x = false /\ p3 x = true)) ->
  Permutation (filter p1 l ++ filter p2 l ++ filter p3 l) l.
Proof.
  intros Ex. induction l as [|x r IH]; [apply Permutation_refl|]. cbn [filter].
  destruct (Ex x) as [(A1 & A2 & A3)|[(A1 & A2 & A3)|(A1 & A2 & A3)]]; rewrite A1, A2, A3.
  - cbn. apply perm_skip. exact IH.
  - apply Permutation_sym. apply Permutation_cons_app. apply Permutation_sym. exact IH.
  - apply Permutation_sym. rewrite app_assoc. apply Permutation_cons_app. rewrite <- app_assoc.
    apply Permutation_sym. exact IH.
Qed.

Lemma class_exclusive c :
  (is_float c = true /\ is_small c = false /\ is_large c = false) \/
  (is_float c = false /\ is_small c = true /\ is_large c = false) \/
  (is_float c = false /\ is_small c = false /\ is_large c = true).
Proof. unfold is_large, is_small. destruct (is_float c); cbn; [auto|]. destruct (match _ with Some _ => _ | None => _ end); cbn; auto. Qed.

Lemma small_slots_names : forall l cur, map fst (small_slots cur l) = map nc_name l.
Proof.
  induction l as [|c r IH]; intros cur; [reflexivity|]. cbn [small_slots].
  destruct (emit_num cur (nc_text c)) as [[b v|t]|]; cbn [map fst]; rewrite IH; reflexivity.
Qed.

Lemma layout_names cs : Permutation (map fst (layout cs)) (map nc_name cs).
Proof.
  unfold layout. rewrite !map_app, small_slots_names, !map_map. cbn [fst large_slot].
  rewrite <- !map_app. apply Permutation_map.
  eapply Permutation_trans; [apply three_way; exact class_exclusive|apply nc_sort_perm].
Qed.

Lemma small_slot_value : forall l cur c v, In c l -> is_small c = true ->
  str_to_number (nc_text c) = Some v ->
  exists s, In (nc_name c, s) (small_slots cur l) /\ slot_value s = Some v.
Proof.
  induction l as [|c0 r IH]; intros cur c v Hin Sm Sv; [contradiction|]. cbn [small_slots].
  destruct Hin as [->|Hin].
  - unfold is_small in Sm. rewrite Sv in Sm. apply andb_prop in Sm. destruct Sm as (_ & Bl).
    unfold emit_num. rewrite Sv, Bl. eexists. split; [left; reflexivity|].
    cbn [slot_value decode_emitted]. rewrite c_array_fits by lia. reflexivity.
  - destruct (emit_num cur (nc_text c0)) as [[b v0|t]|];
      match goal with |- context [small_slots ?cc r] =>
        destruct (IH cc c v Hin Sm Sv) as (s & Hs & Vs); exists s; split; [right; exact Hs|exact Vs] end.
Qed.

Lemma large_slot_value c v : is_large c = true -> str_to_number (nc_text c) = Some v ->
  slot_value (snd (large_slot c)) = Some v.
Proof.
  unfold is_large, is_small. intros L Sv. rewrite Sv in L.
  destruct (is_float c); [discriminate|]. cbn in L.
  unfold large_slot, emit_num. rewrite Sv. cbn [snd].
  destruct (bit_length v <=? 63); [discriminate|].
  cbn [slot_value decode_emitted]. apply to_base32_roundtrip.
Qed.

Lemma resolve_from_notin : forall l i name acc,
  ~ In name (map fst l) -> resolve_from i name l acc = acc.
Proof.
  induction l as [|[n s] r IH]; intros i name acc Hn; [reflexivity|]. cbn [resolve_from].
  cbn in Hn. rewrite zlist_eqb_neq by (intros ->; apply Hn; left; reflexivity).
  apply IH. intros H. apply Hn. right. exact H.
Qed.

Lemma resolve_from_nodup : forall l i acc n s, NoDup (map fst l) -> In (n, s) l ->
  exists j, resolve_from i n l acc = Some (i + Z.of_nat j) /\ nth_error l j = Some (n, s).
Proof.
  induction l as [|[n0 s0] r IH]; intros i acc n s ND Hin; [contradiction|].
  cbn [map fst] in ND. inversion ND as [|? ? Nn NDr]; subst. cbn [resolve_from].
  destruct Hin as [H|H].
  - inversion H; subst. rewrite zlist_eqb_refl. exists O. split; [|reflexivity].
    rewrite resolve_from_notin by exact Nn. f_equal. lia.
  - destruct (IH (i + 1) (if zlist_eqb n n0 then Some i else acc) n s NDr H) as (j & R & Nt).
    exists (S j). split; [|exact Nt]. rewrite R. f_equal. lia.
Qed.

(* Theorem: if the constants have pairwise different names, the #define of every integer
   constant selects a slot whose initialiser decodes to the constant's own value *)
Theorem layout_value cs c v :
  NoDup (map nc_name cs) -> In c cs -> nc_type c <> PFloat ->
  str_to_number (nc_text c) = Some v ->
  exists i s, resolve (nc_name c) (layout cs) = Some i
    /\ nth_error (layout cs) (Z.to_nat i) = Some (nc_name c, s) /\ slot_value s = Some v.
Proof.
  intros ND Hin Nf Sv.
  assert (NDl : NoDup (map fst (layout cs))).
  { eapply Permutation_NoDup; [apply Permutation_sym; apply layout_names|exact ND]. }
  assert (Hs : In c (nc_sort cs)).
  { eapply Permutation_in; [apply Permutation_sym; apply nc_sort_perm|exact Hin]. }
  assert (Ff : is_float c = false).
  { unfold is_float. destruct (nc_type c); [reflexivity|reflexivity|contradiction]. }
  assert (Hslot : exists s, In (nc_name c, s) (layout cs) /\ slot_value s = Some v).
  { unfold layout. destruct (class_exclusive c) as [(A & _)|[(_ & Sm & _)|(_ & _ & Lg)]].
    - rewrite A in Ff. discriminate.
    - destruct (small_slot_value (filter is_small (nc_sort cs)) 1 c v) as (s & Hs1 & Vs); auto.
      { apply filter_In. split; assumption. }
      exists s. split; [|exact Vs]. apply in_or_app. right. apply in_or_app. left. exact Hs1.
    - exists (snd (large_slot c)). split; [|exact (large_slot_value c v Lg Sv)].
      apply in_or_app. right. apply in_or_app. right. apply in_map_iff. exists c.
      split; [reflexivity|]. apply filter_In. split; assumption. }
  destruct Hslot as (s & Hs1 & Vs).
  destruct (resolve_from_nodup (layout cs) 0 None (nc_name c) s NDl Hs1) as (j & R & Nt).
  exists (Z.of_nat j), s. unfold resolve. rewrite R. rewrite Nat2Z.id. auto.
Qed.

Lemma names_nodup ix :
  NoDup (map fst ix) -> (forall k1 k2 n, In (k1, n) ix -> In (k2, n) ix -> k1 = k2) ->
  NoDup (map (@snd nkey str) ix).
Proof.
  intros ND Inj. apply NoDup_map_in_inj; [|exact (NoDup_map_inv _ _ ND)].
  intros [k1 n1] [k2 n2] H1 H2 E. cbn in E. subst n2. f_equal. exact (Inj _ _ _ H1 H2).
Qed.

(* Theorem (end to end): after any sequence of events, the integer constant requested under
   the text t evaluates, through its C name, the #define table and the slot initialiser, to
   the value of t *)
Theorem pool_const_value es ns p code_of k v :
  forallb event_okb es = true ->
  run_events es pool0 = Some (ns, p) ->
  In (EReq k) es -> snd k <> PFloat -> str_to_number (fst k) = Some v ->
  const_value p code_of k = Some v.
Proof.
  intros Ok Run Hin Nf Sv.
  destruct (run_events_spec es _ Inv_pool0 Ok) as (ns' & p' & E & I & F & _).
  rewrite Run in E. inversion E; subst ns' p'. clear E.
  destruct (requested_found _ _ _ _ F Hin) as (n & Fk).
  unfold const_value. rewrite Fk.
  set (c := {| nc_name := n; nc_text := fst k; nc_type := snd k; nc_code := code_of k |}).
  assert (Hc : In c (pool_consts p code_of)).
  { unfold pool_consts. apply in_map_iff. exists (k, n). split; [reflexivity|exact (index_find_in _ _ _ Fk)]. }
  assert (ND : NoDup (map nc_name (pool_consts p code_of))).
  { unfold pool_consts. rewrite map_map. cbn [nc_name].
    exact (names_nodup _ (inv_nodup p I) (inv_inj p I)). }
  destruct (layout_value _ c v ND Hc Nf Sv) as (i & s & R & Nt & Vs).
  cbn [nc_name c] in R, Nt. rewrite R, Nt. exact Vs.
Qed.

(* the texts IntNode.generate_evaluation_code hands to the pool are spellings of the theorems *)
Definition plainc (c : Z) : Prop := okc c = true /\ c <> 43 /\ c <> 46.

Lemma plain_sep_ok s : Forall plainc s -> forall p, sep_ok p s = true.
Proof.
  induction 1 as [|c r (K & N1 & N2) F IH]; intros p; [reflexivity|]. cbn [sep_ok].
  rewrite K, IH. destruct (Z.eqb_spec c 43); [contradiction|]. destruct (Z.eqb_spec c 46); [contradiction|].
  reflexivity.
Qed.

Lemma digits_plain b l : b <= 16 -> Forall (dig_ok b) l -> Forall plainc l.
Proof.
  intros Hb F. eapply Forall_impl; [|exact F]. intros c (Hd & _).
  unfold plainc, okc. pose proof (digit_val_cases c). lia.
Qed.

Lemma py_hex_plain v : Forall plainc (py_hex v).
Proof.
  unfold py_hex. destruct (hex_digits_spec v) as (_ & F & _). apply Forall_app. split.
  - destruct (v <? 0); constructor; [|constructor]. unfold plainc, okc, ch_minus. lia.
  - apply Forall_app. split; [|apply (digits_plain 16); [lia|exact F]].
    constructor; [unfold plainc, okc, ch_0; lia|]. constructor; [unfold plainc, okc; lia|constructor].
Qed.

Lemma py_str_plain v s : py_str v = Some s -> Forall plainc s.
Proof.
  unfold py_str. destruct (Z.eqb_spec v 0).
  - intros E. inversion E. constructor; [|constructor]. unfold plainc, okc, ch_0. lia.
  - destruct (pow10_limit <=? Z.abs v); [discriminate|]. intros E. inversion E. subst s. clear E.
    destruct (to_digits_spec 10 (Z.abs v) ltac:(lia) ltac:(lia)) as (_ & F & _).
    pose proof (digits_plain 10 _ ltac:(lia) F) as P.
    destruct (v <? 0); [|exact P]. constructor; [|exact P]. unfold plainc, okc, ch_minus. lia.
Qed.

Lemma int_const_text_spell_ok a v t : int_const_text a v = Some t -> spell_ok t = true.
Proof.
  intros T. apply plain_sep_ok.
  destruct (int_const_text_inv a v t T) as [->|PS]; [apply py_hex_plain|exact (py_str_plain v t PS)].
Qed.

(* Theorem: a Python int constant of value v -- spelled by IntNode.generate_evaluation_code, pooled
   under that text, named, numbered, #defined and initialised -- evaluates to v at run time,
   whatever else the module pools before and after it *)
Theorem int_constant_value a es ns p code_of v t :
  forallb event_okb es = true -> run_events es pool0 = Some (ns, p) ->
  int_const_text a v = Some t -> In (EReq (t, PInt)) es ->
  const_value p code_of (t, PInt) = Some v.
Proof.
  intros Ok Run T Hin.
  apply (pool_const_value es ns p code_of (t, PInt) v Ok Run Hin); cbn [fst snd];
    [discriminate|exact (int_const_text_value a v t T)].
Qed.
