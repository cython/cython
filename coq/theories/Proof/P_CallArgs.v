(* C43 - proofs about the argument-list loop of p_call_parse_args (Model/M_CallArgs.v) *)
From Coq Require Import List Bool Arith Lia.
From CyVerif Require Import Model.M_CallArgs.
Import ListNotations.

(* the specification: Python's grammar of argument lists *)
Definition compat (a b : akind) : Prop := compatb a b = true.
(* pairwise: whenever a stands before b, b is allowed after a *)
Definition py_args_ok (l : list akind) : Prop := ForallOrdPairs compat l.
(* the PEG rule itself: (positional | *x)* (k=v | *x)* (k=v | **x)* *)
Definition py_grammar (l : list akind) : Prop :=
  exists l1 l2 l3, l = l1 ++ l2 ++ l3 /\ forallb in_ps l1 = true /\ forallb in_ks l2 = true /\ forallb in_kd l3 = true.
Definition py_valid (is_call : bool) (l : list akind) (t : atail) : Prop :=
  match t with
  | TEnd => py_args_ok l
  | TComma => py_args_ok l /\ l <> []
  | TFor => is_call = true /\ l = [APos]
  end.

Definition allowed (kw ss : bool) (b : akind) : bool :=
  match b with APos => negb kw | AStar => negb ss | _ => true end.
Definition is_kwlike k := match k with AKw | ADStar => true | _ => false end.
Definition is_dstar k := match k with ADStar => true | _ => false end.

Lemma step_spec : forall st i k,
  match step false st i k with
  | Some st' => allowed (nonempty (keywords st)) (starstar_seen st) k = true /\
                nonempty (keywords st') = (nonempty (keywords st) || is_kwlike k) /\
                starstar_seen st' = (starstar_seen st || is_dstar k)
  | None => allowed (nonempty (keywords st)) (starstar_seen st) k = false
  end.
Proof.
  intros st i k. destruct k; unfold step; cbn [allowed is_kwlike is_dstar].
  - destruct (nonempty (keywords st)) eqn:E; cbn; [reflexivity|]. rewrite E. repeat split; auto using orb_false_r.
  - destruct (starstar_seen st) eqn:E; cbn; [reflexivity|]. repeat split; auto using orb_false_r.
  - cbn. repeat split; auto using orb_true_r, orb_false_r.
  - cbn. repeat split; auto using orb_true_r.
Qed.

Lemma allowed_step : forall a b kw ss,
  allowed (kw || is_kwlike a) (ss || is_dstar a) b = (allowed kw ss b && compatb a b).
Proof. intros a b kw ss. destruct a, b, kw, ss; reflexivity. Qed.

Lemma run_ok : forall l st i,
  (exists st', run false st i l = Some st') <->
  (Forall (fun b => allowed (nonempty (keywords st)) (starstar_seen st) b = true) l /\ py_args_ok l).
Proof.
  induction l as [|a r IH]; intros st i; cbn [run].
  - split; [intros _; split; constructor | intros _; eauto].
  - pose proof (step_spec st i a) as Hs. destruct (step false st i a) as [st1|].
    + destruct Hs as (Ha & Hk & Hss). rewrite IH, Hk, Hss. split.
      * intros [HF HP]. split.
        -- constructor; [exact Ha|]. eapply Forall_impl; [|exact HF]. intros b Hb. cbv beta in Hb.
           rewrite allowed_step in Hb. apply andb_true_iff in Hb. tauto.
        -- constructor; [|exact HP]. eapply Forall_impl; [|exact HF]. intros b Hb. cbv beta in Hb.
           rewrite allowed_step in Hb. apply andb_true_iff in Hb. unfold compat. tauto.
      * intros [HF HP]. inversion HF as [|? ? _ HF']; subst. inversion HP as [|? ? HC HP']; subst. split; [|exact HP'].
        rewrite Forall_forall in *. intros b Hb. rewrite allowed_step. apply andb_true_iff. split; [auto | apply HC; exact Hb].
    + split.
      * intros [st' H]. discriminate.
      * intros [HF _]. inversion HF; subst. congruence.
Qed.

(* number of arguments recorded in a state *)
Fixpoint psize (ps : list pitem) : nat :=
  match ps with [] => 0 | PGroup g :: r => length g + psize r | PUnpack _ :: r => S (psize r) end.
Definition ssize (st : pstate) : nat := psize (positional st) + length (keywords st).

Lemma step_size : forall g st i k st', step g st i k = Some st' -> ssize st' = S (ssize st).
Proof.
  intros g st i k st'. unfold step, ssize. destruct k.
  - destruct (nonempty (keywords st)); [discriminate|]. intros [= <-]. cbn [positional keywords].
    destruct (positional st) as [|[gr|u] r]; destruct (last_unpack st); cbn [psize length]; try rewrite app_length; cbn [length]; lia.
  - destruct (if g then nonempty (keywords st) else starstar_seen st); [discriminate|]. intros [= <-]. cbn. lia.
  - intros [= <-]. cbn. lia.
  - intros [= <-]. cbn. lia.
Qed.

Lemma run_size : forall g l st i st', run g st i l = Some st' -> ssize st' = ssize st + length l.
Proof.
  induction l as [|a r IH]; intros st i st'; cbn [run length].
  - intros [= <-]. lia.
  - destruct (step g st i a) as [st1|] eqn:E; [|discriminate]. intros H. apply IH in H. apply step_size in E. lia.
Qed.

Lemma finish_for : forall g ag l st, run g pstate0 0 l = Some st -> finish ag (length l) TFor st = true -> ag = true /\ l = [APos].
Proof.
  intros g ag l st Hr Hf. pose proof (run_size _ _ _ _ _ Hr) as Hsz. cbn [finish] in Hf.
  apply andb_true_iff in Hf as [Hf Hsp]. apply andb_true_iff in Hf as [Hf Hlu]. apply andb_true_iff in Hf as [Hag Hkw].
  split; [exact Hag|].
  assert (length l = 1) as Hl.
  { unfold ssize in Hsz. destruct (keywords st); [|discriminate]. destruct (positional st) as [|[[|x [|y gr]]|u] [|q r]]; try discriminate.
    cbn in Hsz. lia. }
  destruct l as [|a [|b r]]; try discriminate. destruct a, g; cbn in Hr; try discriminate; injection Hr as <-; try discriminate; reflexivity.
Qed.

(* the loop as it is accepts exactly the argument lists of Python's grammar, in every context
   (allow_genexp = true: calls; false: class headers) *)
Theorem accepts_iff_python : forall ag l t, accepts false ag l t = true <-> py_valid ag l t.
Proof.
  intros ag l t. unfold accepts, parse_args.
  pose proof (run_ok l pstate0 0) as Hr. cbn [pstate0 keywords starstar_seen nonempty] in Hr.
  assert (HF : Forall (fun b => allowed false false b = true) l) by (apply Forall_forall; intros b _; destruct b; reflexivity).
  destruct (run false pstate0 0 l) as [st|] eqn:E.
  - assert (Hok : py_args_ok l) by (apply Hr; eauto).
    destruct t; cbn [py_valid].
    + cbn [finish]. tauto.
    + cbn [finish]. destruct l; cbn; split; try tauto; try discriminate. intros _. split; [exact Hok | discriminate].
    + destruct (finish ag (length l) TFor st) eqn:Ef.
      * split; [intros _; eapply finish_for; eauto | reflexivity].
      * split; [discriminate|]. intros [-> ->]. cbn in E. injection E as <-. discriminate.
  - assert (Hno : ~ py_args_ok l) by (intros H; destruct Hr as [_ Hr]; destruct (Hr (conj HF H)); discriminate).
    split; [discriminate|]. destruct t; cbn [py_valid]; try tauto.
    intros [_ ->]. discriminate.
Qed.

Lemma psize_app a b : psize (a ++ b) = psize a + psize b.
Proof. induction a as [|[?|?] a IH]; cbn; [reflexivity| |]; rewrite IH; lia. Qed.
Lemma psize_rev q : psize (rev q) = psize q.
Proof. induction q as [|[gr|u] q IH]; cbn; [reflexivity| |]; rewrite psize_app, IH; cbn; lia. Qed.

(* accepted argument lists lose nothing: every argument is recorded exactly once *)
Theorem accepted_keeps_all_arguments : forall g ag l t ps ks,
  parse_args g ag l t = Some (ps, ks) -> psize ps + length ks = length l.
Proof.
  intros g ag l t ps ks. unfold parse_args. destruct (run g pstate0 0 l) as [st|] eqn:E; [|discriminate].
  destruct (finish ag (length l) t st); [|discriminate]. intros [= <- <-]. apply run_size in E. unfold ssize in E. cbn in E.
  rewrite rev_length. destruct (rev (positional st)) eqn:Er.
  - rewrite <- (psize_rev (positional st)), Er in E. cbn in *. lia.
  - rewrite <- Er, psize_rev. lia.
Qed.

(* the guard `if keyword_args:` before a `*` argument (instead of `if starstar_seen:`) rejects valid Python *)
Theorem star_guard_on_keywords_refuted :
  py_valid true [AKw; AStar] TEnd /\ accepts true true [AKw; AStar] TEnd = false /\ accepts false true [AKw; AStar] TEnd = true
  /\ py_valid false [AKw; AStar; AKw; ADStar] TComma /\ accepts true false [AKw; AStar; AKw; ADStar] TComma = false.
Proof.
  repeat split; try reflexivity; try discriminate; cbn; repeat constructor.
Qed.

(* pairwise form = the three-segment PEG rule = its executable (longest-segment) form *)
Fixpoint fopb (l : list akind) : bool :=
  match l with [] => true | a :: r => forallb (compatb a) r && fopb r end.

Lemma fopb_spec : forall l, fopb l = true <-> py_args_ok l.
Proof.
  induction l as [|a r IH]; cbn [fopb].
  - split; [constructor | reflexivity].
  - rewrite andb_true_iff, forallb_forall, IH. split.
    + intros [H1 H2]. constructor; [apply Forall_forall; exact H1 | exact H2].
    + intros H. inversion H; subst. split; [apply Forall_forall; assumption | assumption].
Qed.

Definition notp (k : akind) := match k with APos => false | _ => true end.

Lemma kd_fopb : forall l, forallb in_kd l = true -> fopb l = true /\ forallb notp l = true.
Proof.
  induction l as [|a r IH]; cbn; [auto|]. intros H. apply andb_true_iff in H as [Ha Hr]. destruct (IH Hr) as [H1 H2].
  rewrite H1, H2, !andb_true_r. split; [|destruct a; auto; discriminate].
  apply forallb_forall. intros b Hb. rewrite forallb_forall in Hr. specialize (Hr b Hb).
  destruct a, b; try discriminate; reflexivity.
Qed.

(* compatb ADStar is in_kd and compatb AKw is notp by computation, so seg_b and py_args_b_fopb pass from one
   to the other by change (a rewrite would find either side) *)
Lemma compat_d : forall r, forallb (compatb ADStar) r = forallb in_kd r.
Proof. reflexivity. Qed.
Lemma compat_k : forall r, forallb (compatb AKw) r = forallb notp r.
Proof. reflexivity. Qed.
Lemma compat_ps : forall a r, in_ps a = true -> forallb (compatb a) r = true.
Proof. intros a r Ha. apply forallb_forall. intros b _. destruct a, b; try discriminate; reflexivity. Qed.

Lemma seg_b : forall l, forallb in_kd (drop_while in_ks l) = (fopb l && forallb notp l).
Proof.
  induction l as [|a r IH]; [reflexivity|]. destruct a; cbn [drop_while in_ks fopb forallb notp in_kd].
  - cbn [andb]. rewrite andb_false_r. reflexivity.
  - rewrite IH, (compat_ps AStar) by reflexivity. reflexivity.
  - rewrite IH. change (forallb (compatb AKw) r) with (forallb notp r). destruct (forallb notp r), (fopb r); reflexivity.
  - change (forallb (compatb ADStar) r) with (forallb in_kd r). destruct (forallb in_kd r) eqn:E; [|reflexivity]. destruct (kd_fopb r E) as [-> ->]. reflexivity.
Qed.

Lemma py_args_b_fopb : forall l, py_args_b l = fopb l.
Proof.
  unfold py_args_b. induction l as [|a r IH]; [reflexivity|]. destruct a; cbn [drop_while in_ps fopb].
  - rewrite IH, (compat_ps APos) by reflexivity. reflexivity.
  - rewrite IH, (compat_ps AStar) by reflexivity. reflexivity.
  - cbn [in_ks]. rewrite seg_b. change (forallb (compatb AKw) r) with (forallb notp r). apply andb_comm.
  - cbn [drop_while in_ks forallb in_kd]. change (forallb (compatb ADStar) r) with (forallb in_kd r). destruct (forallb in_kd r) eqn:E; [|reflexivity].
    destruct (kd_fopb r E) as [-> _]. reflexivity.
Qed.

Theorem py_args_b_spec : forall l, py_args_b l = true <-> py_args_ok l.
Proof. intros l. rewrite py_args_b_fopb. apply fopb_spec. Qed.

Fixpoint take_while (p : akind -> bool) (l : list akind) : list akind :=
  match l with [] => [] | a :: r => if p a then a :: take_while p r else [] end.
Lemma take_drop : forall p l, l = take_while p l ++ drop_while p l /\ forallb p (take_while p l) = true.
Proof.
  induction l as [|a r [IH1 IH2]]; cbn; [auto|]. destruct (p a) eqn:E; cbn; [|auto]. rewrite E, IH2. split; [f_equal; exact IH1 | reflexivity].
Qed.

Lemma fopb_app : forall l1 l2, fopb (l1 ++ l2) = (fopb l1 && fopb l2 && forallb (fun a => forallb (compatb a) l2) l1).
Proof.
  induction l1 as [|a r IH]; intros l2; cbn [app fopb forallb].
  - rewrite andb_true_r. reflexivity.
  - rewrite IH, forallb_app. destruct (forallb (compatb a) r), (forallb (compatb a) l2), (fopb r), (fopb l2); reflexivity.
Qed.

Theorem pairwise_iff_grammar : forall l, py_args_ok l <-> py_grammar l.
Proof.
  intros l. split.
  - intros H. apply py_args_b_spec in H. unfold py_args_b in H.
    exists (take_while in_ps l), (take_while in_ks (drop_while in_ps l)), (drop_while in_ks (drop_while in_ps l)).
    destruct (take_drop in_ps l) as [E1 F1]. destruct (take_drop in_ks (drop_while in_ps l)) as [E2 F2].
    repeat split; auto. rewrite <- E2. exact E1.
  - intros (l1 & l2 & l3 & -> & H1 & H2 & H3). apply fopb_spec. rewrite !fopb_app.
    assert (A1 : forall m, forallb (fun a => forallb (compatb a) m) l1 = true).
    { intros m. apply forallb_forall. intros a Ha. apply compat_ps. rewrite forallb_forall in H1. auto. }
    assert (A2 : forallb (fun a => forallb (compatb a) l3) l2 = true).
    { apply forallb_forall. intros a Ha. apply forallb_forall. intros b Hb. rewrite forallb_forall in H2, H3.
      specialize (H2 a Ha). specialize (H3 b Hb). destruct a, b; try discriminate; reflexivity. }
    assert (B1 : fopb l1 = true).
    { clear A1. induction l1 as [|a r IH]; cbn in *; [reflexivity|]. apply andb_true_iff in H1 as [Ha Hr]. rewrite (compat_ps a r Ha), IH; auto. }
    assert (B2 : fopb l2 = true).
    { clear A2. induction l2 as [|a r IH]; cbn in *; [reflexivity|]. apply andb_true_iff in H2 as [Ha Hr]. rewrite IH by auto. rewrite andb_true_r.
      apply forallb_forall. intros b Hb. rewrite forallb_forall in Hr. specialize (Hr b Hb). destruct a, b; try discriminate; reflexivity. }
    destruct (kd_fopb l3 H3) as [B3 _]. rewrite A1, A2, B1, B2, B3. reflexivity.
Qed.
