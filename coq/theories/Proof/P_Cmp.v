(* Proofs for Model/M_Cmp.v, parts 1 (cascaded comparisons) and 2 (FlattenInListTransform). *)
From Coq Require Import ZArith List Bool Lia.
From CyVerif Require Import Lib.CInt Model.M_Cmp.
Import ListNotations.
Open Scope Z_scope.

Lemma filter_snoc_false {A} (f : A -> bool) t e : f e = false -> filter f (t ++ [e]) = filter f t.
Proof. intros H. rewrite filter_app. cbn [filter]. rewrite H. apply app_nil_r. Qed.

Lemma upd_same : forall temps t v, upd temps t v t = Some v.
Proof. intros. unfold upd. rewrite Nat.eqb_refl. reflexivity. Qed.
Lemma upd_other : forall temps t v j, j <> t -> upd temps t v j = temps j.
Proof. intros. unfold upd. destruct (Nat.eqb_spec j t); congruence. Qed.

Section CascadeProofs.
  Variable cmp : Z -> val -> val -> val + exn.
  Variable truth : val -> bool + exn.

  (* what the reference does once the comparison result r of the link ending in vr is known *)
  Definition ref_after (r vr : val) (rest : list (Z * operand)) (tr : list event)
    : list event * outcome val :=
    match rest with
    | [] => (tr, OVal r)
    | _ :: _ =>
      let tr3 := tr ++ [EvTruth r] in
      match truth r with
      | inr x => (tr3, ORaise x)
      | inl false => (tr3, OVal r)
      | inl true => ref_links cmp truth vr rest tr3
      end
    end.

  Lemma ref_links_cons : forall vl op e rest tr,
    ref_links cmp truth vl ((op, e) :: rest) tr =
    match o_res e with
    | inr x => (tr ++ ev_of e, ORaise x)
    | inl vr =>
      match cmp op vl vr with
      | inr x => ((tr ++ ev_of e) ++ [EvCmp op vl vr], ORaise x)
      | inl r => ref_after r vr rest ((tr ++ ev_of e) ++ [EvCmp op vl vr])
      end
    end.
  Proof.
    intros. cbn [ref_links]. destruct (o_res e); [|reflexivity].
    destruct (cmp op vl v); [|reflexivity]. unfold ref_after. destruct rest; reflexivity.
  Qed.

  (* first hypothesis: the truth test is checked, or it cannot fail *)
  Lemma exec_gen_cascade : forall chk rest i temps r vr tr,
    (chk = true \/ forall v x, truth v <> inr x) ->
    temps i = Some vr ->
    exec cmp truth chk (gen_cascade i rest) temps (Some r) tr = ref_after r vr rest tr.
  Proof.
    intros chk rest. induction rest as [|[op e] rest IH]; intros i temps r vr tr Hok Hi.
    - reflexivity.
    - cbn [gen_cascade exec ref_after].
      destruct (truth r) as [[|]|x] eqn:Ht.
      + rewrite ref_links_cons. destruct (o_res e) as [v|x]; [|reflexivity].
        rewrite upd_other by lia. rewrite Hi, upd_same.
        destruct (cmp op vr v) as [r2|x]; [|reflexivity].
        apply IH; [assumption|apply upd_same].
      + reflexivity.
      + destruct Hok as [->|Hno]; [reflexivity|]. exfalso. exact (Hno _ _ Ht).
  Qed.

  Lemma run_cascade_eq : forall chk (c : cascade),
    (chk = true \/ forall v x, truth v <> inr x) ->
    snd c <> [] -> run_cascade cmp truth chk c = ref_cascade cmp truth c.
  Proof.
    intros chk [e0 links] Hok Hne. cbn [snd fst] in *. unfold run_cascade, ref_cascade, gen_primary.
    cbn [snd fst]. destruct links as [|[op e1] rest]; [congruence|].
    cbn [exec]. cbn [app]. destruct (o_res e0) as [v0|x]; [|reflexivity].
    rewrite ref_links_cons. destruct (o_res e1) as [v1|x]; [|reflexivity].
    rewrite upd_other by lia. rewrite !upd_same.
    destruct (cmp op v0 v1) as [r|x]; [|reflexivity].
    apply exec_gen_cascade; [assumption|apply upd_same].
  Qed.

  (* operand events of the reference: a prefix of the operands, in order *)
  Lemma ref_links_ops : forall links vl tr ids,
    Forall (fun l => o_log (snd l) = true) links ->
    filter is_opev tr = map EvOp ids ->
    exists n, filter is_opev (fst (ref_links cmp truth vl links tr))
              = map EvOp (ids ++ firstn n (map o_id (map snd links))).
  Proof.
    induction links as [|[op e] rest IH]; intros vl tr ids Hall Htr.
    - exists 0%nat. cbn. rewrite app_nil_r. exact Htr.
    - inversion Hall as [|? ? He Hrest]; subst. cbn [snd] in He.
      (* the comparison and the truth test of this link are no operand events: wherever
         evaluation stops before the next link, e is the last operand seen *)
      assert (H1 : filter is_opev (tr ++ ev_of e) = map EvOp (ids ++ [o_id e])).
      { rewrite filter_app, Htr, map_app. unfold ev_of. rewrite He. reflexivity. }
      rewrite ref_links_cons.
      destruct (o_res e) as [vr|x]; [|exists 1%nat; exact H1].
      assert (H2 : filter is_opev ((tr ++ ev_of e) ++ [EvCmp op vl vr]) = map EvOp (ids ++ [o_id e]))
        by (rewrite filter_snoc_false by reflexivity; exact H1).
      destruct (cmp op vl vr) as [r|x]; [|exists 1%nat; exact H2].
      unfold ref_after. destruct rest as [|l rest']; [exists 1%nat; exact H2|].
      assert (H3 : filter is_opev (((tr ++ ev_of e) ++ [EvCmp op vl vr]) ++ [EvTruth r])
                   = map EvOp (ids ++ [o_id e]))
        by (rewrite filter_snoc_false by reflexivity; exact H2).
      destruct (truth r) as [[|]|x]; try (exists 1%nat; exact H3).
      destruct (IH vr _ _ Hrest H3) as [n Hn]. exists (S n).
      rewrite Hn, <- app_assoc. reflexivity.
  Qed.
End CascadeProofs.

Theorem cascade_trace_eq : forall cmp truth (c : cascade),
  snd c <> [] -> run_cascade cmp truth true c = ref_cascade cmp truth c.
Proof. intros. apply run_cascade_eq; [left; reflexivity|assumption]. Qed.

Theorem cascade_old_refuted : exists cmp truth (c : cascade),
  snd c <> [] /\ run_cascade cmp truth false c <> ref_cascade cmp truth c.
Proof.
  exists (fun _ _ _ => inl 7), (fun _ => inr 5),
         (mkOp 0 true (inl 1), [(0, mkOp 1 true (inl 2)); (0, mkOp 2 true (inl 3))]).
  split; [discriminate|]. vm_compute. intros H. inversion H.
Qed.

Definition all_logged (c : cascade) : Prop :=
  o_log (fst c) = true /\ Forall (fun l => o_log (snd l) = true) (snd c).

Theorem cascade_operands_once : forall cmp truth (c : cascade),
  snd c <> [] -> all_logged c ->
  exists n, filter is_opev (fst (run_cascade cmp truth true c))
            = map EvOp (firstn n (map o_id (fst c :: map snd (snd c)))).
Proof.
  intros cmp truth c Hne [H0 Hall]. rewrite cascade_trace_eq by assumption.
  destruct c as [e0 links]. cbn [fst snd] in *. unfold ref_cascade. cbn [fst snd].
  destruct (o_res e0) as [v0|x].
  - destruct (ref_links_ops cmp truth links v0 (ev_of e0) [o_id e0] Hall) as [n Hn].
    { unfold ev_of. rewrite H0. reflexivity. }
    exists (S n). rewrite Hn. reflexivity.
  - exists 1%nat. cbn [fst map firstn]. unfold ev_of. rewrite H0. reflexivity.
Qed.

Definition pure_op (o : operand) : Prop := o_log o = false /\ exists v, o_res o = inl v.
Definition simple_pure (e : intest) : Prop :=
  (i_lhs_simple e = true -> pure_op (i_lhs e)) /\
  Forall (fun m => m_simple m = true -> pure_op (m_op m)) (i_members e).
(* the second half of simple_pure, for a member list of its own *)
Definition members_pure (ms : list member) : Prop :=
  Forall (fun m => m_simple m = true -> pure_op (m_op m)) ms.
Definition set_hashable (hashable : val -> bool) (e : intest) : Prop :=
  i_kind e = KSet ->
  (forall x, o_res (i_lhs e) = inl x -> hashable x = true) /\
  Forall (fun m => forall v, o_res (m_op m) = inl v -> hashable v = true) (i_members e).

Section FlattenProofs.
  Variable same : val -> val -> bool.
  Variable eqb : val -> val -> bool.
  Variable hashable : val -> bool.
  Variable te : exn.
  Hypothesis Hsym : forall a b, eqb a b = eqb b a.
  Hypothesis Hrefl : forall a b, same a b = true -> eqb a b = true.

  Lemma contains_eq : forall x vs, contains same eqb x vs = existsb (eqb x) vs.
  Proof.
    intros x vs. unfold contains. induction vs as [|v vs IH]; [reflexivity|].
    cbn [existsb]. rewrite IH. f_equal.
    destruct (same v x) eqn:E.
    - cbn. rewrite (Hsym x v). symmetry. apply Hrefl. exact E.
    - cbn. apply Hsym.
  Qed.

  (* the value a member contributes to the comparison chain under env *)
  Definition mval (env : nat -> option val) (i : nat) (m : member) (v : val) : Prop :=
    (m_simple m = true -> o_log (m_op m) = false /\ o_res (m_op m) = inl v) /\
    (m_simple m = false -> env i = Some v).

  Fixpoint mvals (env : nat -> option val) (i : nat) (ms : list member) (vs : list val) : Prop :=
    match ms, vs with
    | [], [] => True
    | m :: ms', v :: vs' => mval env i m v /\ mvals env (S i) ms' vs'
    | _, _ => False
    end.

  Lemma eval_one : forall neg env i m v x tr,
    env 0%nat = Some x -> mval env i m v ->
    eval_t same eqb hashable te
           (TCmp neg (ARef 0) (if m_simple m then AInl (m_op m) else ARef i)) env tr
    = (tr, OVal (xorb neg (eqb x v))).
  Proof.
    intros neg env i m v x tr H0 [Hs Hn]. cbn [eval_t eval_atom]. rewrite H0.
    destruct (m_simple m).
    - destruct (Hs eq_refl) as [Hl Hr]. cbn [eval_atom]. unfold ev_of. rewrite Hl, Hr.
      rewrite app_nil_r. reflexivity.
    - cbn [eval_atom]. rewrite (Hn eq_refl). reflexivity.
  Qed.

  (* the chain after some members: found = the left operand equals one of them; an or-chain
     holds found, an and-chain of != holds its negation *)
  Lemma chain_eval : forall (neg : bool) ms i vs acc found env tr x,
    env 0%nat = Some x -> mvals env i ms vs ->
    eval_t same eqb hashable te acc env tr = (tr, OVal (xorb neg found)) ->
    eval_t same eqb hashable te
           (fold_left (if neg then TAnd else TOr) (conds_from neg i ms) acc) env tr
    = (tr, OVal (xorb neg (found || existsb (eqb x) vs))).
  Proof.
    induction ms as [|m ms IH]; intros i vs acc found env tr x H0 Hm Hacc.
    - destruct vs; [|contradiction]. cbn [conds_from fold_left existsb]. rewrite orb_false_r. exact Hacc.
    - destruct vs as [|v vs]; [contradiction|]. destruct Hm as [Hm1 Hm2].
      cbn [conds_from fold_left existsb]. rewrite orb_assoc. apply (IH (S i)); [exact H0|exact Hm2|].
      pose proof (eval_one neg env i m v x tr H0 Hm1) as H1.
      destruct neg; cbn [eval_t]; rewrite Hacc; destruct found; try reflexivity; exact H1.
  Qed.

  (* the whole condition built by flatten, on a non-empty member list *)
  Lemma condition_eval : forall (neg : bool) m ms v vs env tr x,
    env 0%nat = Some x -> mvals env 1 (m :: ms) (v :: vs) ->
    eval_t same eqb hashable te
      (fold_left (if neg then TAnd else TOr) (tl (conds_from neg 1 (m :: ms)))
                 (hd (TBool false) (conds_from neg 1 (m :: ms)))) env tr
    = (tr, OVal (xorb neg (existsb (eqb x) (v :: vs)))).
  Proof.
    intros neg m ms v vs env tr x H0 [Hm1 Hm2]. cbn [conds_from tl hd existsb].
    apply chain_eval; [exact H0|exact Hm2|]. apply eval_one; assumption.
  Qed.

  (* environment after the member temps have been bound *)
  Fixpoint bind (i : nat) (ms : list member) (vs : list val) (env : nat -> option val)
    : nat -> option val :=
    match ms, vs with
    | m :: ms', v :: vs' => bind (S i) ms' vs' (if m_simple m then env else upd env i v)
    | _, _ => env
    end.

  Lemma bind_below : forall ms i vs env j, (j < i)%nat -> bind i ms vs env j = env j.
  Proof.
    induction ms as [|m ms IH]; intros i vs env j Hj; [reflexivity|].
    destruct vs as [|v vs]; [reflexivity|]. cbn [bind]. rewrite IH by lia.
    destruct (m_simple m); [reflexivity|]. unfold upd. destruct (Nat.eqb_spec j i); [lia|reflexivity].
  Qed.

  Lemma lets_eval : forall ms i env tr body,
    members_pure ms ->
    eval_t same eqb hashable te (lets_from i ms body) env tr =
    match eval_members ms tr with
    | (tr1, inr x) => (tr1, ORaise x)
    | (tr1, inl vs) => eval_t same eqb hashable te body (bind i ms vs env) tr1
    end.
  Proof.
    induction ms as [|m ms IH]; intros i env tr body Hp; [reflexivity|].
    inversion Hp as [|? ? Hm Hrest]; subst. cbn [lets_from eval_members].
    destruct (m_simple m) eqn:Es.
    - destruct (Hm eq_refl) as [Hl [v Hv]]. unfold ev_of. rewrite Hl, Hv, app_nil_r.
      rewrite (IH (S i) env tr body Hrest).
      destruct (eval_members ms tr) as [tr1 [vs|x]]; [|reflexivity].
      cbn [bind]. rewrite Es. reflexivity.
    - cbn [eval_t]. destruct (o_res (m_op m)) as [v|x]; [|reflexivity].
      rewrite (IH (S i) (upd env i v) _ body Hrest).
      destruct (eval_members ms (tr ++ ev_of (m_op m))) as [tr1 [vs|x]]; [|reflexivity].
      cbn [bind]. rewrite Es. reflexivity.
  Qed.

  Lemma bind_mvals : forall ms i vs env tr tr1,
    members_pure ms -> eval_members ms tr = (tr1, inl vs) ->
    mvals (bind i ms vs env) i ms vs.
  Proof.
    induction ms as [|m ms IH]; intros i vs env tr tr1 Hp Hev.
    - cbn in Hev. inversion Hev; subst. exact I.
    - inversion Hp as [|? ? Hm Hrest]; subst. cbn [eval_members] in Hev.
      destruct (o_res (m_op m)) as [v|x] eqn:Ev; [|discriminate].
      destruct (eval_members ms (tr ++ ev_of (m_op m))) as [tr2 [vs'|x]] eqn:Er; [|discriminate].
      inversion Hev; subst. cbn [mvals bind]. split.
      + split.
        * intros Es. destruct (Hm Es) as [Hl _]. split; [exact Hl|exact Ev].
        * intros Es. rewrite bind_below by lia. rewrite Es. apply upd_same.
      + eapply IH; eassumption.
  Qed.

  Lemma members_hashable : forall ms tr tr1 vs,
    Forall (fun m => forall v, o_res (m_op m) = inl v -> hashable v = true) ms ->
    eval_members ms tr = (tr1, inl vs) -> forallb hashable vs = true.
  Proof.
    induction ms as [|m ms IH]; intros tr tr1 vs Hh Hev.
    - cbn in Hev. inversion Hev. reflexivity.
    - inversion Hh as [|? ? Hm Hrest]; subst. cbn [eval_members] in Hev.
      destruct (o_res (m_op m)) as [v|x] eqn:Ev; [|discriminate].
      destruct (eval_members ms (tr ++ ev_of (m_op m))) as [tr2 [vs'|x]] eqn:Er; [|discriminate].
      inversion Hev; subst. cbn [forallb]. rewrite (Hm v eq_refl). cbn. eapply IH; eassumption.
  Qed.

  Lemma eval_members_length : forall ms tr tr1 vs,
    eval_members ms tr = (tr1, inl vs) -> length vs = length ms.
  Proof.
    induction ms as [|m ms IH]; intros tr tr1 vs Hev.
    - cbn in Hev. inversion Hev. reflexivity.
    - cbn [eval_members] in Hev. destruct (o_res (m_op m)); [|discriminate].
      destruct (eval_members ms (tr ++ ev_of (m_op m))) as [tr2 [vs'|x]] eqn:Er; [|discriminate].
      inversion Hev; subst. cbn. f_equal. eapply IH; eassumption.
  Qed.

  (* the reference, with the set test discharged *)
  Lemma ref_in_unfold : forall e x,
    set_hashable hashable e -> o_res (i_lhs e) = inl x ->
    ref_in same eqb hashable te e =
    match eval_members (i_members e) (ev_of (i_lhs e)) with
    | (tr1, inr ex) => (tr1, ORaise ex)
    | (tr1, inl vs) => (tr1, OVal (xorb (i_not e) (existsb (eqb x) vs)))
    end.
  Proof.
    intros e x Hset Hx. unfold ref_in. rewrite Hx.
    destruct (eval_members (i_members e) (ev_of (i_lhs e))) as [tr1 [vs|ex]] eqn:Ev; [|reflexivity].
    rewrite contains_eq. destruct (i_kind e) eqn:Ek; try reflexivity.
    destruct (Hset Ek) as [Hl Hm]. cbn [is_set andb].
    rewrite (members_hashable _ _ _ _ Hm Ev), (Hl x Hx). reflexivity.
  Qed.

  Lemma eval_generic : forall e env,
    eval_t same eqb hashable te (TGeneric e) env [] = ref_in same eqb hashable te e.
  Proof. intros. cbn [eval_t]. destruct (ref_in same eqb hashable te e). reflexivity. Qed.

  Theorem flatten_eq : forall e,
    simple_pure e -> set_hashable hashable e ->
    run_flatten same eqb hashable te true e = ref_in same eqb hashable te e.
  Proof.
    intros e [Hl Hp] Hset. unfold run_flatten, flatten.
    destruct (i_members e) as [|m0 rest] eqn:Hms.
    { destruct (i_lhs_simple e) eqn:Els; [|apply eval_generic].
      destruct (Hl eq_refl) as [Hlog [x Hx]]. rewrite (ref_in_unfold e x Hset Hx), Hms.
      unfold ev_of. rewrite Hlog. cbn. rewrite xorb_false_r. reflexivity. }
    rewrite <- Hms in Hp |- *. destruct (existsb m_starred (i_members e)); [apply eval_generic|].
    destruct (is_set (i_kind e) && existsb m_unhash (i_members e)); [apply eval_generic|].
    cbn [eval_t app]. destruct (o_res (i_lhs e)) as [x|ex] eqn:Hx.
    2:{ unfold ref_in. rewrite Hx. reflexivity. }
    rewrite (ref_in_unfold e x Hset Hx), lets_eval by exact Hp.
    destruct (eval_members (i_members e) (ev_of (i_lhs e))) as [tr1 [vs|ex]] eqn:Ev; [|reflexivity].
    pose proof (bind_mvals _ 1 vs (upd (fun _ => None) 0 x) _ _ Hp Ev) as Hmv.
    pose proof (eval_members_length _ _ _ _ Ev) as Hlen.
    rewrite Hms in *. destruct vs as [|v vs]; [discriminate|].
    apply condition_eval; [|exact Hmv].
    rewrite bind_below by lia. apply upd_same.
  Qed.

  Lemma lets_all_simple : forall ms i body,
    Forall (fun m => m_simple m = true) ms -> lets_from i ms body = body.
  Proof.
    induction ms as [|m ms IH]; intros i body H; [reflexivity|].
    inversion H; subst. cbn [lets_from]. rewrite H2. apply IH. assumption.
  Qed.

  Lemma mvals_upd0 : forall ms i vs env x,
    (1 <= i)%nat -> mvals env i ms vs -> mvals (upd env 0 x) i ms vs.
  Proof.
    induction ms as [|m ms IH]; intros i vs env x Hi Hm; destruct vs as [|v vs]; try exact Hm.
    destruct Hm as [[Hs Hn] Hm2]. split.
    - split; [exact Hs|]. intros Es. rewrite upd_other by lia. exact (Hn Es).
    - apply IH; [lia|exact Hm2].
  Qed.

  (* the transform as it is differs only where it rewrites, and there only in the place of the
     temp of the left operand: harmless when no member has a temp or the left operand is pure *)
  Theorem flatten_old_eq_partial : forall e,
    simple_pure e -> set_hashable hashable e ->
    (Forall (fun m => m_simple m = true) (i_members e) \/ pure_op (i_lhs e)) ->
    run_flatten same eqb hashable te false e = ref_in same eqb hashable te e.
  Proof.
    intros e Hp Hset Hold. rewrite <- (flatten_eq e Hp Hset). unfold run_flatten, flatten.
    destruct (i_members e) as [|m0 rest] eqn:Hms; [reflexivity|]. rewrite <- Hms in *.
    destruct (existsb m_starred (i_members e)); [reflexivity|].
    destruct (is_set (i_kind e) && existsb m_unhash (i_members e)); [reflexivity|].
    destruct Hold as [Hall|[Hlog [x Hx]]]; [rewrite !lets_all_simple by assumption; reflexivity|].
    destruct Hp as [_ Hp]. cbn [eval_t app]. unfold ev_of. rewrite Hlog, Hx.
    rewrite !lets_eval by exact Hp.
    destruct (eval_members (i_members e) []) as [tr1 [vs|ex]] eqn:Ev; [|reflexivity].
    cbn [eval_t]. unfold ev_of. rewrite Hlog, Hx, app_nil_r.
    pose proof (bind_mvals _ 1 vs (fun _ => None) _ _ Hp Ev) as Hmv.
    pose proof (bind_mvals _ 1 vs (upd (fun _ => None) 0 x) _ _ Hp Ev) as Hmv'.
    pose proof (eval_members_length _ _ _ _ Ev) as Hlen.
    rewrite Hms in *. destruct vs as [|v vs]; [discriminate|].
    rewrite (condition_eval _ _ _ v vs _ _ x); [symmetry; apply condition_eval| |].
    - rewrite bind_below by lia. apply upd_same.
    - exact Hmv'.
    - apply upd_same.
    - apply mvals_upd0; [lia|exact Hmv].
  Qed.
End FlattenProofs.

Definition w_call (i v : Z) : operand := mkOp i true (inl v).
Definition w_lit (i v : Z) : operand := mkOp i false (inl v).
Definition w_hash (_ : val) : bool := true.

Theorem flatten_order_refuted : exists same eqb hashable te (e : intest),
  (forall a b, eqb a b = eqb b a) /\ (forall a b, same a b = true -> eqb a b = true) /\
  simple_pure e /\ set_hashable hashable e /\
  run_flatten same eqb hashable te false e <> ref_in same eqb hashable te e.
Proof.
  exists Z.eqb, Z.eqb, w_hash, 900,
    (mkIn false (w_call 0 1) false KTuple [mkM false false false (w_call 1 2)]).
  split; [intros; apply Z.eqb_sym|]. split; [intros; assumption|].
  split.
  { split; [discriminate|]. constructor; [discriminate|constructor]. }
  split; [discriminate|]. vm_compute. intros H. inversion H.
Qed.

Theorem flatten_lazy_simple_refuted : exists same eqb hashable te (e : intest),
  (forall a b, eqb a b = eqb b a) /\ (forall a b, same a b = true -> eqb a b = true) /\
  set_hashable hashable e /\
  run_flatten same eqb hashable te true e <> ref_in same eqb hashable te e.
Proof.
  exists Z.eqb, Z.eqb, w_hash, 900,
    (mkIn false (w_call 0 1) false KTuple
          [mkM true false false (w_lit 1 1); mkM true false false (mkOp 2 false (inr 77))]).
  split; [intros; apply Z.eqb_sym|]. split; [intros; assumption|].
  split; [discriminate|]. vm_compute. intros H. inversion H.
Qed.

Definition w_nan_eqb (a b : val) : bool := (a =? b) && negb (a =? 7).

Theorem flatten_identity_refuted : exists same eqb hashable te (e : intest),
  (forall a b, eqb a b = eqb b a) /\ simple_pure e /\ set_hashable hashable e /\
  run_flatten same eqb hashable te true e <> ref_in same eqb hashable te e.
Proof.
  exists Z.eqb, w_nan_eqb, w_hash, 900,
    (mkIn false (w_call 0 7) false KTuple [mkM false false false (w_call 1 7)]).
  split.
  { intros a b. unfold w_nan_eqb. destruct (Z.eqb_spec a b); [subst; rewrite Z.eqb_refl; reflexivity|].
    destruct (Z.eqb_spec b a); [congruence|reflexivity]. }
  split.
  { split; [discriminate|]. constructor; [discriminate|constructor]. }
  split; [discriminate|]. vm_compute. intros H. inversion H.
Qed.

Theorem flatten_set_unhashable_refuted : exists same eqb hashable te (e : intest),
  (forall a b, eqb a b = eqb b a) /\ (forall a b, same a b = true -> eqb a b = true) /\
  simple_pure e /\
  run_flatten same eqb hashable te true e <> ref_in same eqb hashable te e.
Proof.
  exists Z.eqb, Z.eqb, (fun v => negb (v =? 13)), 900,
    (mkIn false (w_call 0 13) false KSet [mkM true false false (w_lit 1 1)]).
  split; [intros; apply Z.eqb_sym|]. split; [intros; assumption|].
  split.
  { split; [discriminate|]. constructor; [|constructor]. intros _. split; [reflexivity|exists 1; reflexivity]. }
  vm_compute. intros H. inversion H.
Qed.
