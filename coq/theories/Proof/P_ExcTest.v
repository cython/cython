(* C32 -- proofs about the value-level sentinel test (Model/M_ExcTest.v). *)
From Coq Require Import ZArith List Bool Lia ZifyBool.
From CyVerif Require Import Lib.CInt Model.M_ExcSpec Model.M_ExcTest Proof.P_ExcSpec.
Import ListNotations.
Open Scope Z_scope.

Lemma okb_iff t : ity_okb t = true <-> 1 <= iw t.
Proof. unfold ity_okb. lia. Qed.

Lemma in_ty_spec t v : in_ty t v = true <-> in_range (iw t) (isg t) v.
Proof. apply in_rangeb_spec. Qed.

Lemma conv_in_ty t v : 1 <= iw t -> in_ty t (conv t v) = true.
Proof. apply in_rangeb_wrap. Qed.

Lemma conv_id t v : 1 <= iw t -> in_ty t v = true -> conv t v = v.
Proof. intros H Hv. apply wrap_id; [assumption|]. apply in_ty_spec. assumption. Qed.

Lemma conv_idem t v : 1 <= iw t -> conv t (conv t v) = conv t v.
Proof. intros. apply conv_id; [assumption|]. apply conv_in_ty. assumption. Qed.

(* conversion to a type of width W is injective on the values of any type of width w <= W:
   converting on to the narrow type gives the values back *)
Lemma conv_inj ct rt a b :
  1 <= iw rt -> iw rt <= iw ct -> in_ty rt a = true -> in_ty rt b = true ->
  conv ct a = conv ct b -> a = b.
Proof.
  intros Hw Hle Ha Hb E. rewrite <- (conv_id rt a Hw Ha), <- (conv_id rt b Hw Hb). unfold conv in *.
  rewrite <- (wrap_narrow _ _ (iw ct) (isg ct) a), <- (wrap_narrow _ _ (iw ct) (isg ct) b), E by lia.
  reflexivity.
Qed.

Lemma promote_ok t : 1 <= iw t -> 1 <= iw (promote t).
Proof. unfold promote. destruct (iw t <? 32) eqn:E; cbn; lia. Qed.

Lemma promote_wider t : iw t <= iw (promote t).
Proof. unfold promote. destruct (iw t <? 32) eqn:E; cbn; lia. Qed.

Lemma promote_contains t v : 1 <= iw t -> in_ty t v = true -> in_ty (promote t) v = true.
Proof.
  intros Hw Hv. unfold promote. destruct (Z.ltb_spec (iw t) 32); [|assumption].
  apply in_ty_spec in Hv. apply in_ty_spec. apply (in_range_widen (iw t) (isg t)); [cbn; lia|assumption].
Qed.

(* the common type is one of the two operand types and at least as wide as both *)
Lemma uac_spec a b :
  (uac a b = a \/ uac a b = b) /\ iw a <= iw (uac a b) /\ iw b <= iw (uac a b).
Proof.
  unfold uac. destruct (Bool.eqb (isg a) (isg b)).
  - destruct (iw a <? iw b) eqn:E; (split; [auto | lia]).
  - destruct (isg a); destruct (_ <=? _) eqn:E; (split; [auto | lia]).
Qed.

Lemma uac_ok a b : 1 <= iw a -> 1 <= iw b -> 1 <= iw (uac a b).
Proof. intros. destruct (uac_spec a b) as [[-> | ->] _]; assumption. Qed.

Lemma uac_wider_l a b : iw a <= iw (uac a b).
Proof. apply uac_spec. Qed.

Lemma uac_wider_r a b : iw b <= iw (uac a b).
Proof. apply uac_spec. Qed.

(* a signed type contains every type that is narrower, or signed and not wider *)
Lemma signed_contains c t v :
  isg c = true -> 1 <= iw t -> (if isg t then iw t <= iw c else iw t < iw c) ->
  in_ty t v = true -> in_ty c v = true.
Proof.
  intros Hc Hw Hle Hv. apply in_ty_spec in Hv. apply in_ty_spec. rewrite Hc.
  destruct (isg t); [apply (in_range_mono (iw t))|apply (in_range_widen (iw t) false)]; (lia || assumption).
Qed.

(* when the common type is signed it holds all values of both operand types *)
Lemma uac_signed_contains a b v :
  1 <= iw a -> 1 <= iw b -> isg (uac a b) = true ->
  (in_ty a v = true \/ in_ty b v = true) -> in_ty (uac a b) v = true.
Proof.
  intros Ha Hb. unfold uac.
  destruct (isg a) eqn:Sa, (isg b) eqn:Sb; cbn [Bool.eqb].
  - destruct (iw a <? iw b) eqn:E; intros Hs [H|H]; try assumption.
    + apply (signed_contains b a v); try assumption. rewrite Sa. lia.
    + apply (signed_contains a b v); try assumption. rewrite Sb. lia.
  - destruct (iw a <=? iw b) eqn:E; intros Hs [H|H]; try congruence; try assumption.
    apply (signed_contains a b v); try assumption. rewrite Sb. lia.
  - destruct (iw b <=? iw a) eqn:E; intros Hs [H|H]; try congruence; try assumption.
    apply (signed_contains b a v); try assumption. rewrite Sa. lia.
  - destruct (iw a <? iw b); intros Hs; congruence.
Qed.

Lemma first_fit_spec l n t v :
  first_fit l n = Some (t, v) -> v = n /\ in_ty t n = true /\ In t l.
Proof.
  induction l as [|x r IH]; cbn; [discriminate|].
  destruct (in_ty x n) eqn:E.
  - intros [= <- <-]. auto.
  - intros H. destruct (IH H) as (A & B & C). auto.
Qed.

(* a typed value as ceval returns it: the type is well formed and holds the value *)
Definition tv_ok (x : option (ity * Z)) : Prop :=
  forall t v, x = Some (t, v) -> 1 <= iw t /\ in_ty t v = true.

Lemma tv_none : tv_ok None.
Proof. intros t v [=]. Qed.

Lemma tv_some t v : 1 <= iw t -> in_ty t v = true -> tv_ok (Some (t, v)).
Proof. intros Hw Hv t' v' [= <- <-]. auto. Qed.

Lemma lit_in_range hex s n : tv_ok (first_fit (lit_types hex s) n).
Proof.
  intros t v H. apply first_fit_spec in H. destruct H as (-> & H & I). split; [|assumption].
  destruct s, hex; cbn in I; repeat (destruct I as [<-|I]; [cbn; lia|]); contradiction.
Qed.

Lemma arith_ok ct r : 1 <= iw ct -> tv_ok (arith ct r).
Proof.
  intros Hw. unfold arith. destruct (isg ct).
  - destruct (in_ty ct r) eqn:E; [apply tv_some; assumption|apply tv_none].
  - apply tv_some; [|apply conv_in_ty]; assumption.
Qed.

Lemma binop_ok f x y : tv_ok x -> tv_ok y -> tv_ok (binop f x y).
Proof.
  intros Hx Hy. unfold binop.
  destruct x as [[ta va]|]; [|apply tv_none]. destruct y as [[tb vb]|]; [|apply tv_none].
  apply arith_ok, uac_ok; apply promote_ok; [apply (Hx _ _ eq_refl)|apply (Hy _ _ eq_refl)].
Qed.

(* the value of a constant expression lies in its type *)
Lemma ceval_in_range e : tv_ok (ceval e).
Proof.
  induction e as [n s|n s|z|a IHa|a IHa b IHb|a IHa b IHb|a IHa b IHb|tc a IHa]; cbn [ceval].
  - destruct (0 <=? n); [exact (lit_in_range _ _ _)|apply tv_none].
  - destruct (0 <=? n); [exact (lit_in_range _ _ _)|apply tv_none].
  - destruct (in_ty T_INT z) eqn:E; [|apply tv_none]. apply tv_some; [cbn; lia|assumption].
  - destruct (ceval a) as [[ta va]|]; [|apply tv_none]. apply arith_ok, promote_ok, (IHa _ _ eq_refl).
  - apply binop_ok; assumption.
  - apply binop_ok; assumption.
  - apply binop_ok; assumption.
  - destruct (ceval a) as [[ta va]|]; [|apply tv_none].
    destruct (ity_okb tc) eqn:E; [|apply tv_none]. apply okb_iff in E.
    apply tv_some; [|apply conv_in_ty]; assumption.
Qed.

Lemma ceval_cast tc e te v :
  1 <= iw tc -> ceval e = Some (te, v) -> ceval (CCast tc e) = Some (tc, conv tc v).
Proof.
  intros Hw H. cbn [ceval]. rewrite H.
  replace (ity_okb tc) with true by (symmetry; apply okb_iff; assumption). reflexivity.
Qed.

(* with a cast to tc the comparison happens in the common type of rt and tc, on the cast value *)
Lemma eq_test_cast rt tc e te v r :
  1 <= iw tc -> ceval e = Some (te, v) ->
  eq_test rt r (emitted (Some tc) e) =
  Some (conv (uac (promote rt) (promote tc)) r =? conv (uac (promote rt) (promote tc)) (conv tc v)).
Proof. intros Hc He. unfold eq_test, emitted. rewrite (ceval_cast tc e te v Hc He). reflexivity. Qed.

(* a cast that does not change what the callee stores makes the test exact: it holds for r
   iff r is the stored sentinel -- every return type width/signedness, every constant *)
Theorem cast_exact : forall rt tc e te v r,
  1 <= iw rt -> 1 <= iw tc ->
  in_ty rt r = true -> ceval e = Some (te, v) ->
  conv tc v = conv rt v ->
  eq_test rt r (emitted (Some tc) e) = Some (r =? conv rt v).
Proof.
  intros rt tc e te v r Hr Hc Hin He Hs.
  rewrite (eq_test_cast rt tc e te v r Hc He), Hs. f_equal.
  set (ct := uac (promote rt) (promote tc)).
  assert (Wle : iw rt <= iw ct).
  { pose proof (promote_wider rt). pose proof (uac_wider_l (promote rt) (promote tc)). subst ct. lia. }
  assert (Is : in_ty rt (conv rt v) = true) by (apply conv_in_ty; assumption).
  destruct (Z.eqb_spec r (conv rt v)) as [->|N].
  - apply Z.eqb_refl.
  - apply Z.eqb_neq. intros E. apply N. apply (conv_inj ct rt); assumption.
Qed.

(* the repaired code / integer literals (constant typed with the return type) *)
Corollary cast_ret_exact : forall rt e te v r,
  1 <= iw rt -> in_ty rt r = true -> ceval e = Some (te, v) ->
  eq_test rt r (emitted (Some rt) e) = Some (r =? conv rt v).
Proof. intros. eapply cast_exact; eauto. Qed.

Corollary cast_ret_matches_stored : forall rt e te v r,
  1 <= iw rt -> in_ty rt r = true -> ceval e = Some (te, v) ->
  (fires (Some rt) rt e r = true <-> stored rt e = Some r).
Proof.
  intros rt e te v r Hw Hin He. unfold fires, stored.
  rewrite (cast_ret_exact rt e te v r Hw Hin He), He.
  split.
  - intros H. apply Z.eqb_eq in H. congruence.
  - intros [= H]. apply Z.eqb_eq. congruence.
Qed.

(* a constant whose (cast) value is not a value of the return type is never matched when the
   comparison happens in a signed type *)
Theorem out_of_range_never_fires : forall rt tc e te v r,
  1 <= iw rt -> 1 <= iw tc ->
  in_ty rt r = true -> ceval e = Some (te, v) ->
  isg (uac (promote rt) (promote tc)) = true ->
  in_ty rt (conv tc v) = false ->
  eq_test rt r (emitted (Some tc) e) = Some false.
Proof.
  intros rt tc e te v r Hr Hc Hin He Hsg Hout.
  rewrite (eq_test_cast rt tc e te v r Hc He). f_equal.
  set (ct := uac (promote rt) (promote tc)) in *.
  assert (Wc : 1 <= iw ct) by (apply uac_ok; apply promote_ok; assumption).
  assert (I1 : in_ty ct r = true).
  { apply uac_signed_contains; try apply promote_ok; try assumption.
    left. apply promote_contains; assumption. }
  assert (I2 : in_ty ct (conv tc v) = true).
  { apply uac_signed_contains; try apply promote_ok; try assumption.
    right. apply promote_contains; [assumption|]. apply conv_in_ty. assumption. }
  rewrite (conv_id ct r Wc I1), (conv_id ct (conv tc v) Wc I2).
  apply Z.eqb_neq. intros ->. congruence.
Qed.

(* casting a constant to its own type changes nothing: the uncast text is the special case *)
Lemma cast_own_type : forall rt e te v r,
  ceval e = Some (te, v) -> eq_test rt r (emitted (Some te) e) = eq_test rt r (emitted None e).
Proof.
  intros rt e te v r He. destruct (ceval_in_range e te v He) as [Wt It].
  rewrite (eq_test_cast rt te e te v r Wt He), (conv_id te v Wt It). unfold eq_test, emitted. rewrite He. reflexivity.
Qed.

(* the seeded text (no cast): for every unsigned return type narrower than int and every
   negative constant of a signed type the test is never true *)
Theorem nocast_never_fires : forall rt e te v r,
  1 <= iw rt -> iw rt < 32 -> isg rt = false -> in_ty rt r = true ->
  ceval e = Some (te, v) -> isg te = true -> v < 0 ->
  eq_test rt r (emitted None e) = Some false.
Proof.
  intros rt e te v r Hw Hn Hu Hin He Hs Hneg.
  destruct (ceval_in_range e te v He) as [Wt It].
  rewrite <- (cast_own_type rt e te v r He).
  eapply out_of_range_never_fires; try eassumption.
  - assert (Sr : isg (promote rt) = true) by (unfold promote; replace (iw rt <? 32) with true by lia; reflexivity).
    assert (St : isg (promote te) = true) by (unfold promote; destruct (iw te <? 32); [reflexivity|assumption]).
    destruct (uac_spec (promote rt) (promote te)) as [[-> | ->] _]; assumption.
  - rewrite (conv_id te v Wt It). unfold in_ty, in_rangeb, min_int. rewrite Hu. lia.
Qed.

(* witnesses *)
Theorem nocast_refuted :
  exists rt e r, in_ty rt r = true /\ stored rt e = Some r /\ fires None rt e r = false.
Proof. exists T_UCHAR, (CNeg (CDec 1 SufNone)), 255. vm_compute. auto. Qed.

(* the code as it is: a constant expression typed long by the compiler, unsigned char return *)
Theorem cast_const_refuted :
  exists rt tc e r, in_ty rt r = true /\ stored rt e = Some r /\ fires (Some tc) rt e r = false.
Proof.
  exists T_UCHAR, T_LONG, (CNeg (CAdd (CDec 1 SufNone) (CDec 1 SufNone))), 254. vm_compute. auto.
Qed.

Lemma site_spec_is_fn_spec : forall rt tc e te v ck,
  1 <= iw rt -> 1 <= iw tc -> ceval e = Some (te, v) -> conv tc v = conv rt v ->
  site_spec (Some tc) rt e ck = Some {| ev := Some (Sent (VInt (conv rt v)) false); ec := ck |} /\
  fn_spec rt e ck = Some {| ev := Some (Sent (VInt (conv rt v)) false); ec := ck |}.
Proof.
  intros rt tc e te v ck Hr Hc He Hs. split.
  - unfold site_spec. cbn [emitted]. rewrite (ceval_cast tc e te v Hc He).
    rewrite Hs, (conv_idem rt v Hr). unfold fires.
    rewrite (cast_exact rt tc e te v (conv rt v) Hr Hc (conv_in_ty rt v Hr) He Hs).
    rewrite Z.eqb_refl. reflexivity.
  - unfold fn_spec, stored. rewrite He. reflexivity.
Qed.

(* the sentinel test of the decision-level model is the emitted C test *)
Theorem c_test_is_emitted_test : forall rt tc e te v r,
  1 <= iw rt -> 1 <= iw tc -> in_ty rt r = true -> ceval e = Some (te, v) -> conv tc v = conv rt v ->
  c_test (kind_of rt) (Sent (VInt (conv rt v)) false) (VInt r) = fires (Some tc) rt e r.
Proof.
  intros rt tc e te v r Hr Hc Hin He Hs. unfold fires.
  rewrite (cast_exact rt tc e te v r Hr Hc Hin He Hs).
  unfold kind_of. cbn [c_test]. fold (conv rt r). fold (conv rt (conv rt v)).
  rewrite (conv_idem rt v Hr), (conv_id rt r Hr Hin). reflexivity.
Qed.

(* with a cast that preserves the stored value, every integer return type, declaration form,
   constant, body, caller context: the caller observes the documented outcome *)
Theorem value_faithful : forall rt tc e te v ck fl cn b st,
  1 <= iw rt -> 1 <= iw tc -> ceval e = Some (te, v) -> conv tc v = conv rt v ->
  chk_plus ck = false ->
  let fsp := {| ev := Some (Sent (VInt (conv rt v)) false); ec := ck |} in
  cython_body b = true -> body_val_okb (kind_of rt) b = true ->
  ctx_okb fl cn = true -> clean cn st -> contract_okb fsp (kind_of rt) b = true ->
  observe_value (Some tc) rt e ck fl cn b st = Some (documented fsp (kind_of rt) b st).
Proof.
  intros rt tc e te v ck fl cn b st Hr Hc He Hs Hck fsp Hb Hv Hctx Hcl Hcon.
  destruct (site_spec_is_fn_spec rt tc e te v ck Hr Hc He Hs) as [S F].
  unfold observe_value. rewrite S, F. f_equal. fold fsp.
  apply (spec_faithful fsp (kind_of rt) fl cn b st); try assumption.
  unfold wf_specb, fsp, kind_of. cbn [ev ec kind_okb sent_okb is_obj].
  pose proof (conv_in_ty rt v Hr) as I. unfold in_ty in I. rewrite Hck, I. clear - Hr. lia.
Qed.

(* the code as it is hides a raised exception (cast to the constant's own type) *)
Theorem cast_const_hides_exception :
  exists rt tc e ck fl cn ex st o,
    clean cn st /\ ctx_okb fl cn = true /\
    observe_value (Some tc) rt e ck fl cn (Raise ex) st = Some o /\
    o_err o = false /\ pending (o_st o) = Some ex.
Proof.
  exists T_UCHAR, T_LONG, (CNeg (CAdd (CDec 1 SufNone) (CDec 1 SufNone))), ChkYes, FPlain, false, 7,
    {| pending := None; unraisable := []; gil := true; viol := O |}.
  eexists. unfold clean. cbn [pending gil negb]. split; [split; reflexivity|]. split; [reflexivity|].
  split; [vm_compute; reflexivity|]. split; reflexivity.
Qed.

(* and so does the seeded text *)
Theorem nocast_hides_exception :
  exists rt e ck fl cn ex st o,
    clean cn st /\ ctx_okb fl cn = true /\
    observe_value None rt e ck fl cn (Raise ex) st = Some o /\
    o_err o = false /\ pending (o_st o) = Some ex.
Proof.
  exists T_UCHAR, (CNeg (CDec 1 SufNone)), ChkYes, FPlain, false, 7,
    {| pending := None; unraisable := []; gil := true; viol := O |}.
  eexists. unfold clean. cbn [pending gil negb]. split; [split; reflexivity|]. split; [reflexivity|].
  split; [vm_compute; reflexivity|]. split; reflexivity.
Qed.

Section FloatFacts.
  Variable V : Type.
  Variable feq : V -> V -> bool.
  Variable to_f32 : V -> V.

  (* cast to the return type: the stored error value always satisfies the test (NaN included) *)
  Theorem float_cast_ret_self : forall rt c,
    float_test V feq to_f32 true (Some rt) c (float_stored V to_f32 rt c) = true.
  Proof.
    intros rt c. unfold float_test, float_stored.
    destruct (feq (fconv V to_f32 rt c) (fconv V to_f32 rt c)); reflexivity.
  Qed.

  (* the code as it is for a float function with a double-typed constant: the stored value is
     matched iff rounding to float does not change the constant *)
  Theorem float_cast_const_self : forall m c,
    feq c c = true ->
    float_test V feq to_f32 m (Some F64) c (float_stored V to_f32 F32 c) = feq (to_f32 c) c.
  Proof.
    intros m c H. unfold float_test, float_stored. cbn [fconv]. rewrite H. destruct m; reflexivity.
  Qed.
End FloatFacts.
