(* Proofs for Model/M_CmpInt.v: the int-int comparison helper of PyObjectCompare returns the
   mathematical comparison of the two values, for every operator, every pair of well-formed
   CPython ints (any number of digits), every supported configuration; no signed overflow. *)
From Coq Require Import ZArith List Bool Lia ZifyBool.
From CyVerif Require Import Lib.CInt Lib.PyLong Model.M_CmpInt.
Import ListNotations.
Open Scope Z_scope.

(* the configurations covered: digits fit Py_ssize_t with a bit to spare, and the two-digit
   join (taken when 2*sh <= width) does not reach the sign bit.  True for (30,64), (15,32),
   (15,64), (30,32). *)
Definition cfg_ok (c : icfg) : Prop :=
  1 <= i_sh c /\ i_sh c < i_ssz c /\ i_ssz c <> 2 * i_sh c /\ 1 <= i_llong c.

(* zop depends on the order of its operands only *)
Lemma zop_order op x y x' y' : (x < y <-> x' < y') -> (x = y <-> x' = y') ->
  zop op x y = zop op x' y'.
Proof. intros H1 H2. destruct op; cbn [zop]; lia. Qed.

Lemma final_spec op cmp x y : cmp <> 0 -> (cmp < 0 <-> x < y) -> x <> y ->
  final op cmp = zop op x y.
Proof. intros H1 H2 H3. destruct op; cbn [final zop]; lia. Qed.

Lemma eqlege_spec op x : in_eqlege op = zop op x x.
Proof. destruct op; cbn [in_eqlege zop]; lia. Qed.

Lemma mag_app sh l x : 0 <= sh ->
  mag sh (l ++ [x]) = mag sh l + 2 ^ (sh * Z.of_nat (length l)) * x.
Proof.
  intros Hsh. induction l as [|d l IH].
  - cbn [app mag length]. replace (sh * Z.of_nat 0) with 0 by lia. rewrite Z.pow_0_r. lia.
  - cbn [app mag length]. rewrite IH. rewrite Nat2Z.inj_succ, Z.mul_succ_r, Z.pow_add_r by nia.
    ring.
Qed.

Lemma firstn_snoc (l : list Z) : forall i, (i < length l)%nat ->
  firstn (S i) l = firstn i l ++ [nth i l 0].
Proof.
  induction l as [|d l IH]; intros i Hi; [cbn in Hi; lia|].
  destruct i as [|i]; [reflexivity|].
  cbn [length] in Hi. change (firstn (S (S i)) (d :: l)) with (d :: firstn (S i) l).
  rewrite IH by lia. reflexivity.
Qed.

(* a higher digit outweighs everything below it *)
Lemma top_digit_decides P ma mb x y : 0 <= ma < P -> 0 <= mb < P -> x < y ->
  ma + P * x < mb + P * y.
Proof.
  intros Ha Hb H. assert (P * (x + 1) <= P * y) by (apply Z.mul_le_mono_nonneg_l; lia). lia.
Qed.

Lemma pow_half_le sh w : 0 <= sh -> sh < w -> 2 ^ sh <= 2 ^ (w - 1).
Proof. intros. apply Z.pow_le_mono_r; lia. Qed.

Lemma small_in_range w v : 1 <= w -> - 2 ^ (w - 1) < v < 2 ^ (w - 1) -> in_range w true v.
Proof. intros Hw Hv. unfold in_range, min_int, max_int. lia. Qed.

Lemma sub_ss_small w a b : 1 <= w -> - 2 ^ (w - 1) < a - b < 2 ^ (w - 1) ->
  sub_ss w a b = Some (a - b).
Proof.
  intros Hw Hv. unfold sub_ss.
  assert (E : in_rangeb w true (a - b) = true) by (apply in_rangeb_spec, small_in_range; assumption).
  rewrite E. reflexivity.
Qed.

Lemma dcast_id sh w x i : 0 <= sh -> sh < w -> digits_ok sh (pl_digits x) ->
  (i < length (pl_digits x))%nat -> dcast w x i = digit x i /\ 0 <= digit x i < 2 ^ sh.
Proof.
  intros Hsh Hw Hok Hi. pose proof (pow_half_le sh w Hsh Hw) as Hp.
  assert (Hd : 0 <= digit x i < 2 ^ sh).
  { unfold digits_ok in Hok. rewrite Forall_forall in Hok. apply Hok, nth_In, Hi. }
  split; [|exact Hd]. apply wrap_id; [lia|]. apply small_in_range; lia.
Qed.

Lemma digit_loop_stop w a b k c : c <> 0 -> digit_loop w a b k c = Some c.
Proof.
  intros Hc. destruct k; [reflexivity|]. cbn [digit_loop].
  destruct (Z.eqb_spec c 0); [contradiction|reflexivity].
Qed.

(* what a magnitude comparison result must say *)
Definition cmp_says (w d ma mb : Z) : Prop :=
  (d < 0 <-> ma < mb) /\ (d = 0 <-> ma = mb) /\ - 2 ^ (w - 1) < d < 2 ^ (w - 1).

(* the digit loop started at index k-1 compares the numbers made of the k low digits *)
Lemma digit_loop_spec sh w a b : 0 <= sh -> sh < w ->
  digits_ok sh (pl_digits a) -> digits_ok sh (pl_digits b) ->
  length (pl_digits a) = length (pl_digits b) ->
  forall k, (k <= length (pl_digits a))%nat ->
  exists d, digit_loop w a b k 0 = Some d /\
            cmp_says w d (mag sh (firstn k (pl_digits a))) (mag sh (firstn k (pl_digits b))).
Proof.
  intros Hsh Hw Hoa Hob Hlen.
  pose proof (pow_half_le sh w Hsh Hw) as Hp.
  assert (P0 : 0 < 2 ^ (w - 1)) by (apply Z.pow_pos_nonneg; lia).
  induction k as [|i IH]; intros Hk.
  - exists 0. split; [reflexivity|]. cbn [firstn mag]. unfold cmp_says. lia.
  - cbn [digit_loop]. change (0 =? 0) with true. cbv iota.
    destruct (dcast_id sh w a i Hsh Hw Hoa ltac:(lia)) as [-> Ha].
    destruct (dcast_id sh w b i Hsh Hw Hob ltac:(lia)) as [-> Hb].
    rewrite sub_ss_small by lia.
    rewrite (firstn_snoc (pl_digits a) i), (firstn_snoc (pl_digits b) i) by lia.
    rewrite !mag_app by lia. fold (digit a i) (digit b i).
    pose proof (mag_nonneg sh _ (digits_ok_firstn sh i _ Hoa)) as La.
    pose proof (mag_nonneg sh _ (digits_ok_firstn sh i _ Hob)) as Lb.
    pose proof (mag_lt sh _ Hsh (digits_ok_firstn sh i _ Hoa)) as Ua.
    pose proof (mag_lt sh _ Hsh (digits_ok_firstn sh i _ Hob)) as Ub.
    rewrite !firstn_length_le in * by lia.
    set (P := 2 ^ (sh * Z.of_nat i)) in *.
    set (ma := mag sh (firstn i (pl_digits a))) in *.
    set (mb := mag sh (firstn i (pl_digits b))) in *.
    set (x := digit a i) in *. set (y := digit b i) in *.
    destruct (Z.eq_dec x y) as [E|N].
    + (* equal digits: the loop goes on below them *)
      rewrite E, Z.sub_diag. destruct (IH ltac:(lia)) as (d & Hd & S1 & S2 & S3).
      exists d. split; [exact Hd|]. unfold cmp_says. lia.
    + rewrite digit_loop_stop by lia. exists (x - y). split; [reflexivity|].
      pose proof (top_digit_decides P ma mb x y ltac:(lia) ltac:(lia)).
      pose proof (top_digit_decides P mb ma y x ltac:(lia) ltac:(lia)).
      unfold cmp_says. lia.
Qed.

Lemma digit_loop_1 w a b : digit_loop w a b 1 0 = sub_ss w (dcast w a 0) (dcast w b 0).
Proof. cbn [digit_loop]. change (0 =? 0) with true. destruct (sub_ss _ _ _); reflexivity. Qed.

Lemma shorter_smaller sh da db : 0 <= sh -> digits_ok sh da -> digits_ok sh db ->
  last db 1 <> 0 -> (length da < length db)%nat -> mag sh da < mag sh db.
Proof.
  intros Hsh Ha Hb Hl Hlen.
  assert (Hn : db <> []) by (destruct db; [cbn in Hlen; lia|discriminate]).
  pose proof (mag_lt sh da Hsh Ha) as U. pose proof (mag_ge sh db Hsh Hb Hn Hl) as L.
  assert (2 ^ (sh * Z.of_nat (length da)) <= 2 ^ (sh * (Z.of_nat (length db) - 1))).
  { apply Z.pow_le_mono_r; [lia|]. nia. }
  lia.
Qed.

(* Py_SIZE (digit count with the sign of the number) orders well-formed ints as far as it
   differs, and otherwise tells that sign and digit count are equal *)
Lemma ssize_order sh a b : 0 <= sh -> wf sh a -> wf sh b ->
  (ssize a = ssize b -> pl_neg a = pl_neg b /\ length (pl_digits a) = length (pl_digits b)) /\
  (ssize a < ssize b -> value sh a < value sh b).
Proof.
  intros Hsh (Oa & La & Za) (Ob & Lb & Zb).
  pose proof (shorter_smaller sh _ _ Hsh Oa Ob Lb) as Hab.
  pose proof (shorter_smaller sh _ _ Hsh Ob Oa La) as Hba.
  pose proof (shorter_smaller sh [] _ Hsh (Forall_nil _) Oa La) as Pa.
  pose proof (shorter_smaller sh [] _ Hsh (Forall_nil _) Ob Lb) as Pb.
  pose proof (mag_nonneg sh _ Oa) as Na. pose proof (mag_nonneg sh _ Ob) as Nb.
  (* more digits mean a larger magnitude, some digit a positive one; the rest is signs *)
  unfold ssize, value, ndigits. cbn [mag length] in Pa, Pb.
  destruct (pl_digits a) as [|x da], (pl_digits b) as [|y db];
    rewrite ?Za, ?Zb by reflexivity; destruct (pl_neg a), (pl_neg b); cbn [length] in *; lia.
Qed.

(* lv_tag holds the same information as Py_SIZE *)
Lemma signbits_ssize x : (pl_digits x = [] -> pl_neg x = false) ->
  signbits x = 1 - Z.sgn (ssize x) /\ ndigits x = Z.abs (ssize x).
Proof.
  intros Z0. unfold signbits, ssize, ndigits.
  destruct (pl_digits x); [rewrite Z0 by reflexivity; split; reflexivity|].
  cbn [length]. destruct (pl_neg x); lia.
Qed.

(* __Pyx_PyLong_CompareSignAndSize has the sign of the difference of the two Py_SIZEs, in
   either layout *)
Lemma css_sign c a b :
  (pl_digits a = [] -> pl_neg a = false) -> (pl_digits b = [] -> pl_neg b = false) ->
  (css c a b = 0 <-> ssize a = ssize b) /\ (css c a b < 0 <-> ssize a < ssize b).
Proof.
  intros Za Zb. unfold css. destruct (i_tag312 c); [|lia].
  unfold tag. destruct (signbits_ssize a Za) as [-> ->]. destruct (signbits_ssize b Zb) as [-> ->].
  generalize (ssize a) (ssize b). clear. intros sa sb.
  destruct (Z.eqb_spec (8 * Z.abs sa + (1 - Z.sgn sa)) (8 * Z.abs sb + (1 - Z.sgn sb))); [lia|].
  destruct (Z.ltb_spec (1 - Z.sgn sb) (1 - Z.sgn sa)); [lia|].
  destruct (Z.ltb_spec (1 - Z.sgn sa) (1 - Z.sgn sb)); [lia|].
  (* same sign: (1 - signbits) * (difference of the digit counts) *)
  assert (E : Z.sgn sa = Z.sgn sb) by lia. rewrite E.
  destruct (Z.sgn_spec sb) as [[? ->]|[[? ->]|[? ->]]]; lia.
Qed.

(* 0 = same sign and digit count; otherwise its sign orders the values *)
Lemma css_spec c a b : 0 <= i_sh c -> wf (i_sh c) a -> wf (i_sh c) b ->
  (css c a b = 0 -> pl_neg a = pl_neg b /\ length (pl_digits a) = length (pl_digits b)) /\
  (css c a b < 0 -> value (i_sh c) a < value (i_sh c) b) /\
  (0 < css c a b -> value (i_sh c) b < value (i_sh c) a).
Proof.
  intros Hsh Wa Wb.
  destruct (css_sign c a b (proj2 (proj2 Wa)) (proj2 (proj2 Wb))) as [S0 S1].
  destruct (ssize_order _ a b Hsh Wa Wb) as [E L]. destruct (ssize_order _ b a Hsh Wb Wa) as [_ G].
  split; [|split]; intros H; [apply E|apply L|apply G]; lia.
Qed.

Lemma is_neg_spec c x : (pl_digits x = [] -> pl_neg x = false) -> is_neg c x = pl_neg x.
Proof.
  intros Z0. unfold is_neg, ssize, signbits, ndigits.
  destruct (pl_digits x); [rewrite Z0 by reflexivity; destruct (i_tag312 c); reflexivity|].
  cbn [length]. destruct (i_tag312 c), (pl_neg x); try reflexivity; lia.
Qed.

(* the magnitude comparison under `if (cmp == 0)` *)
Lemma digit_cmp_spec c a b : cfg_ok c ->
  digits_ok (i_sh c) (pl_digits a) -> digits_ok (i_sh c) (pl_digits b) ->
  length (pl_digits a) = length (pl_digits b) ->
  exists d, digit_cmp c a b = Some d /\
            cmp_says (i_ssz c) d (mag (i_sh c) (pl_digits a)) (mag (i_sh c) (pl_digits b)).
Proof.
  intros (Hsh & Hw & Hne & _) Oa Ob Hlen.
  set (sh := i_sh c) in *. set (w := i_ssz c) in *.
  assert (Hsh0 : 0 <= sh) by lia.
  (* what the loop over all digits finds; the one-digit case is its instance k = 1 *)
  destruct (digit_loop_spec sh w a b Hsh0 Hw Oa Ob Hlen _ (le_n _)) as (d & Hd & Sd).
  rewrite firstn_all, Hlen, firstn_all in Sd.
  unfold digit_cmp. fold sh w. unfold ndigits.
  destruct (Z.ltb_spec 0 (Z.of_nat (length (pl_digits a)))) as [_|H0].
  2:{ exists d. split; [|exact Sd]. replace (length (pl_digits a)) with 0%nat in Hd by lia. exact Hd. }
  destruct (Z.eqb_spec (Z.of_nat (length (pl_digits a))) 1) as [E1|_].
  { exists d. split; [|exact Sd]. rewrite <- digit_loop_1.
    replace 1%nat with (length (pl_digits a)) by lia. exact Hd. }
  destruct ((Z.of_nat (length (pl_digits a)) =? 2) && (2 * sh <=? w)) eqn:E2.
  2:{ exists d. rewrite Nat2Z.id. split; [exact Hd|exact Sd]. }
  (* two digits joined in size_t, then cast to Py_ssize_t: below the sign bit *)
  clear d Hd Sd.
  rewrite !(join_c_exact w false sh 2) by (assumption || lia).
  pose proof (mag_nonneg sh _ Oa) as A0. pose proof (mag_nonneg sh _ Ob) as B0.
  pose proof (mag_lt sh _ Hsh0 Oa) as A1. pose proof (mag_lt sh _ Hsh0 Ob) as B1.
  rewrite <- Hlen in B1.
  assert (Hq : 2 ^ (sh * Z.of_nat (length (pl_digits a))) <= 2 ^ (w - 1))
    by (apply Z.pow_le_mono_r; lia).
  assert (P0 : 0 < 2 ^ (w - 1)) by (apply Z.pow_pos_nonneg; lia).
  set (ma := mag sh (pl_digits a)) in *. set (mb := mag sh (pl_digits b)) in *.
  rewrite !wrap_id by (lia || (apply small_in_range; lia)).
  rewrite sub_ss_small by lia. exists (ma - mb). split; [reflexivity|].
  unfold cmp_says. lia.
Qed.

(* PyLong_AsLongLongAndOverflow: the value when it fits, and an overflow flag that grows
   with the value *)
Lemma llong_ovf_spec lw v : 1 <= lw ->
  let r := as_llong_ovf lw v in
  (snd r = 0 /\ fst r = v /\ in_range lw true v) \/
  (snd r = -1 /\ v < min_int lw true) \/ (snd r = 1 /\ max_int lw true < v).
Proof.
  intros Hw. unfold as_llong_ovf.
  assert (P0 : 0 < 2 ^ (lw - 1)) by (apply Z.pow_pos_nonneg; lia).
  destruct (in_rangeb lw true v) eqn:E.
  - left. apply in_rangeb_spec in E. cbn [fst snd]. auto.
  - assert (N : ~ in_range lw true v) by (rewrite <- in_rangeb_spec; congruence).
    unfold in_range, min_int, max_int in *.
    destruct (Z.ltb_spec v 0); cbn [fst snd]; [right; left|right; right]; lia.
Qed.

Theorem intint_correct c rich op a b :
  cfg_ok c -> (forall o x y, rich o x y = zop o x y) ->
  wf (i_sh c) a -> wf (i_sh c) b ->
  cmp_intint c rich op a b = Some (zop op (value (i_sh c) a) (value (i_sh c) b)).
Proof.
  intros Hc Hrich Wa Wb. pose proof Hc as (Hsh & Hw & Hne & Hll).
  assert (Hsh0 : 0 <= i_sh c) by lia.
  unfold cmp_intint. destruct (i_internals c).
  - pose proof (css_spec c a b Hsh0 Wa Wb) as (C0 & C1 & C2).
    destruct (Z.eqb_spec (css c a b) 0) as [E|N].
    + destruct (C0 E) as [Hn Hlen].
      destruct (digit_cmp_spec c a b Hc (proj1 Wa) (proj1 Wb) Hlen) as (d & -> & S1 & S2 & S3).
      rewrite (is_neg_spec c a (proj2 (proj2 Wa))).
      unfold value. rewrite <- Hn. clear - Hsh Hw S1 S2 S3.
      set (ma := mag (i_sh c) (pl_digits a)) in *. set (mb := mag (i_sh c) (pl_digits b)) in *.
      destruct (Z.eqb_spec d 0) as [D0|D0].
      * replace mb with ma by lia. f_equal. apply eqlege_spec.
      * destruct (pl_neg a).
        -- rewrite sub_ss_small by lia. f_equal. apply final_spec; lia.
        -- f_equal. apply final_spec; lia.
    + f_equal. apply final_spec; lia.
  - pose proof (llong_ovf_spec (i_llong c) (value (i_sh c) a) Hll) as La.
    pose proof (llong_ovf_spec (i_llong c) (value (i_sh c) b) Hll) as Lb.
    destruct (as_llong_ovf (i_llong c) (value (i_sh c) a)) as [v1 o1].
    destruct (as_llong_ovf (i_llong c) (value (i_sh c) b)) as [v2 o2].
    cbv zeta in La, Lb. cbn [fst snd] in La, Lb.
    assert (P0 : 0 < 2 ^ (i_llong c - 1)) by (apply Z.pow_pos_nonneg; lia).
    unfold in_range, min_int, max_int in *. clear - La Lb P0 Hrich.
    set (va := value (i_sh c) a) in *. set (vb := value (i_sh c) b) in *.
    destruct (Z.eqb_spec o1 0) as [Z1|Z1]; destruct (Z.eqb_spec o2 0) as [Z2|Z2]; cbn [andb].
    + replace v1 with va by lia. replace v2 with vb by lia. reflexivity.
    + destruct (Z.eqb_spec o1 o2) as [E|E]; cbn [negb]; [lia|]. f_equal. apply zop_order; lia.
    + destruct (Z.eqb_spec o1 o2) as [E|E]; cbn [negb]; [lia|]. f_equal. apply zop_order; lia.
    + destruct (Z.eqb_spec o1 o2) as [E|E]; cbn [negb]; f_equal; [apply Hrich|apply zop_order; lia].
Qed.

(* the dispatcher: two references to one object compare like the value with itself *)
Theorem exact_correct c rich op (same : bool) a b :
  cfg_ok c -> (forall o x y, rich o x y = zop o x y) ->
  wf (i_sh c) a -> wf (i_sh c) b -> (same = true -> a = b) ->
  cmp_exact c rich op same a b = Some (zop op (value (i_sh c) a) (value (i_sh c) b)).
Proof.
  intros Hc Hr Wa Wb Hs. unfold cmp_exact. destruct same.
  - rewrite (Hs eq_refl). f_equal. apply eqlege_spec.
  - apply intint_correct; assumption.
Qed.

(* by value: what the correspondence driver runs *)
Theorem values_correct c op (same : bool) x y :
  cfg_ok c -> (same = true -> x = y) -> cmp_values c op same x y = Some (zop op x y).
Proof.
  intros Hc Hs. unfold cmp_values. pose proof Hc as (Hsh & _).
  rewrite exact_correct; try assumption.
  - rewrite !value_of_Z by lia. reflexivity.
  - reflexivity.
  - apply wf_of_Z. lia.
  - apply wf_of_Z. lia.
  - intros E. rewrite (Hs E). reflexivity.
Qed.

Lemma cfg_ok_lp64_312 : cfg_ok lp64_312.   Proof. unfold cfg_ok; cbn; lia. Qed.
Lemma cfg_ok_lp64_311 : cfg_ok lp64_311.   Proof. unfold cfg_ok; cbn; lia. Qed.
Lemma cfg_ok_lp64_noint : cfg_ok lp64_noint. Proof. unfold cfg_ok; cbn; lia. Qed.
Lemma cfg_ok_ilp32_15 : cfg_ok ilp32_15.   Proof. unfold cfg_ok; cbn; lia. Qed.
