(* C09 -- proofs about the model of ConstantFolding on sequence displays (Model/M_Fold.v).
   Two inductions over expressions: every tree `fold` builds is `sound` (the constant results
   stored in it can be trusted), for both variants of the code and all expressions; and, using
   that, every rewriting step keeps the value the tree denotes (`fold_value`). *)
From Coq Require Import ZArith List Bool Lia.
From CyVerif Require Import Model.M_Fold.
Import ListNotations.
Open Scope Z_scope.

Section expr_induction.
  Variable P : expr -> Prop.
  Hypothesis HInt : forall z, P (EInt z).
  Hypothesis HBool : forall b, P (EBool b).
  Hypothesis HOpq : forall b, P (EOpq b).
  Hypothesis HVar : forall n, P (EVar n).
  Hypothesis HStar : forall x, P x -> P (EStar x).
  Hypothesis HDisp : forall k items, Forall P items -> P (EDisp k items).
  Hypothesis HMul : forall a b, P a -> P b -> P (EMul a b).
  Hypothesis HCmp : forall a b, P a -> P b -> P (ECmp a b).
  Hypothesis HOr : forall a b, P a -> P b -> P (EOr a b).
  Hypothesis HCond : forall c a b, P c -> P a -> P b -> P (ECond c a b).

  Fixpoint expr_ind2 (e : expr) : P e :=
    match e with
    | EInt z => HInt z | EBool b => HBool b | EOpq b => HOpq b | EVar n => HVar n
    | EStar x => HStar x (expr_ind2 x)
    | EDisp k items =>
        HDisp k items
          ((fix go (l : list expr) : Forall P l :=
              match l with [] => Forall_nil P | x :: t => Forall_cons x (expr_ind2 x) (go t) end) items)
    | EMul a b => HMul a b (expr_ind2 a) (expr_ind2 b)
    | ECmp a b => HCmp a b (expr_ind2 a) (expr_ind2 b)
    | EOr a b => HOr a b (expr_ind2 a) (expr_ind2 b)
    | ECond c a b => HCond c a b (expr_ind2 c) (expr_ind2 a) (expr_ind2 b)
    end.
End expr_induction.

Lemma rep_nat_nil : forall A n, @rep_nat A n [] = [].
Proof. induction n; simpl; auto. Qed.

Lemma rep_nat_add : forall A (l : list A) a b, rep_nat (a + b) l = rep_nat a l ++ rep_nat b l.
Proof. induction a; simpl; intros; auto. rewrite IHa, app_assoc. reflexivity. Qed.

Lemma rep_nat_mul : forall A (l : list A) a b, rep_nat a (rep_nat b l) = rep_nat (b * a) l.
Proof.
  induction a; simpl; intros.
  - rewrite Nat.mul_0_r. reflexivity.
  - rewrite IHa. rewrite <- rep_nat_add. f_equal. lia.
Qed.

Lemma zrep_nil : forall A n, @zrep A n [] = [].
Proof. intros. apply rep_nat_nil. Qed.

Lemma zrep_one : forall A (l : list A), zrep 1 l = l.
Proof. intros. unfold zrep. simpl. apply app_nil_r. Qed.

Lemma zrep_nonpos : forall A (l : list A) z, z <= 0 -> zrep z l = [].
Proof. intros. unfold zrep. destruct z; try lia; reflexivity. Qed.

Lemma zrep_mul : forall A (l : list A) z mz, 0 < z -> zrep z (zrep mz l) = zrep (mz * z) l.
Proof.
  intros. unfold zrep. rewrite rep_nat_mul. f_equal.
  destruct (Z.leb_spec mz 0).
  - replace (Z.to_nat mz) with O by lia. replace (Z.to_nat (mz * z)) with O by nia. reflexivity.
  - rewrite Z2Nat.inj_mul by lia. reflexivity.
Qed.

Lemma py_mul_seq_l : forall k l x v,
  py_mul (VSeq k l) x = Some v -> exists n, as_int x = Some n /\ v = VSeq k (zrep n l).
Proof. intros. simpl in H. destruct (as_int x); inversion H. eauto. Qed.

Lemma py_mul_int_seq : forall z k l, py_mul (VInt z) (VSeq k l) = py_mul (VSeq k l) (VInt z).
Proof. reflexivity. Qed.

Lemma py_mul_comm : forall x y, py_mul x y = py_mul y x.
Proof. destruct x, y; cbn [py_mul as_int]; try reflexivity; rewrite Z.mul_comm; reflexivity. Qed.

Definition nonseq (v : value) : bool := match v with VSeq _ _ => false | _ => true end.

Lemma py_mul_nonseq : forall x y c, py_mul x y = Some c -> nonseq c = true -> nonseq x = true /\ nonseq y = true.
Proof.
  intros. destruct x, y; simpl in *; auto;
    repeat match goal with H : match ?e with _ => _ end = Some _ |- _ => destruct e; try discriminate end;
    inversion H; subst; simpl in *; try discriminate; auto.
Qed.

Definition eitems (env : nat -> value) : list expr -> option (list value) :=
  fix go (l : list expr) : option (list value) :=
    match l with
    | [] => Some []
    | EStar x :: t =>
        match eval env x, go t with
        | Some (VSeq _ vs), Some r => Some (vs ++ r)
        | _, _ => None
        end
    | x :: t =>
        match eval env x, go t with
        | Some v, Some r => Some (v :: r)
        | _, _ => None
        end
    end.

Definition fitems (env : nat -> value) : list fnode -> option (list value) :=
  fix go (l : list fnode) : option (list value) :=
    match l with
    | [] => Some []
    | FStar x :: t =>
        match fdenote env x, go t with
        | Some (VSeq _ vs), Some r => Some (vs ++ r)
        | _, _ => None
        end
    | x :: t =>
        match fdenote env x, go t with
        | Some v, Some r => Some (v :: r)
        | _, _ => None
        end
    end.

Lemma eval_disp : forall env k items,
  eval env (EDisp k items) = match eitems env items with Some l => Some (VSeq k l) | None => None end.
Proof. reflexivity. Qed.

(* how often a mult_factor slot repeats the items: absent means once *)
Definition times (env : nat -> value) (m : option fnode) : option Z :=
  match m with
  | None => Some 1
  | Some mf => match fdenote env mf with Some f => as_int f | None => None end
  end.

Lemma fdenote_seq : forall env k items m c,
  fdenote env (FSeq k items m c) =
  match fitems env items, times env m with Some l, Some n => Some (VSeq k (zrep n l)) | _, _ => None end.
Proof.
  intros. cbn [fdenote].
  match goal with |- match ?go items with _ => _ end = _ => change go with (fitems env) end.
  destruct (fitems env items) as [l|]; [|reflexivity].
  destruct m as [mf|]; cbn [times]; [destruct (fdenote env mf)|rewrite zrep_one]; reflexivity.
Qed.

Lemma fdenote_mul : forall env a b c,
  fdenote env (FMul a b c) = match fdenote env a, fdenote env b with Some x, Some y => py_mul x y | _, _ => None end.
Proof. reflexivity. Qed.

Definition eitem1 (env : nat -> value) (x : expr) : option (list value) :=
  match x with
  | EStar y => match eval env y with Some (VSeq _ vs) => Some vs | _ => None end
  | _ => match eval env x with Some v => Some [v] | None => None end
  end.

Definition fitem1 (env : nat -> value) (x : fnode) : option (list value) :=
  match x with
  | FStar y => match fdenote env y with Some (VSeq _ vs) => Some vs | _ => None end
  | _ => match fdenote env x with Some v => Some [v] | None => None end
  end.

Lemma eitems_cons : forall env x t,
  eitems env (x :: t) =
  match eitem1 env x, eitems env t with Some a, Some r => Some (a ++ r) | _, _ => None end.
Proof.
  intros. destruct x; simpl;
    repeat match goal with |- context [match ?e with _ => _ end] => destruct e; simpl; auto end.
Qed.

Lemma fitems_cons : forall env x t,
  fitems env (x :: t) =
  match fitem1 env x, fitems env t with Some a, Some r => Some (a ++ r) | _, _ => None end.
Proof.
  intros. destruct x; simpl;
    repeat match goal with |- context [match ?e with _ => _ end] => destruct e; simpl; auto end.
Qed.

Lemma fitems_one : forall env x, fitems env [x] = fitem1 env x.
Proof. intros. rewrite fitems_cons. simpl. destruct (fitem1 env x); [rewrite app_nil_r|]; reflexivity. Qed.

Lemma fitems_app : forall env a b,
  fitems env (a ++ b) =
  match fitems env a, fitems env b with Some x, Some y => Some (x ++ y) | _, _ => None end.
Proof.
  induction a as [|x a IH]; intros.
  - simpl. destruct (fitems env b); reflexivity.
  - rewrite <- app_comm_cons, !fitems_cons, IH.
    destruct (fitem1 env x), (fitems env a), (fitems env b); try reflexivity.
    rewrite app_assoc. reflexivity.
Qed.

Lemma fitem1_of_value : forall env n v, fdenote env n = Some v -> fitem1 env n = Some [v].
Proof. intros. destruct n; try (simpl in H; discriminate); unfold fitem1; rewrite H; reflexivity. Qed.

(* visit_SequenceNode, item by item *)
Definition inline1 (guard : bool) (it : fnode) : list fnode :=
  match it with
  | FStar (FSeq _ args None _) => args
  | FStar (FSeq _ args (Some _) _) => if guard then [it] else args
  | _ => [it]
  end.

Lemma flatten_cons : forall g x t, flatten g (x :: t) = inline1 g x ++ flatten g t.
Proof. reflexivity. Qed.

Lemma inline1_fitems : forall env x, fitems env (inline1 true x) = fitem1 env x.
Proof.
  intros. destruct x; try apply fitems_one. destruct x; try apply fitems_one. destruct m; try apply fitems_one.
  unfold inline1, fitem1. rewrite fdenote_seq. cbn [times]. destruct (fitems env items); [rewrite zrep_one|]; reflexivity.
Qed.

Lemma flatten_fitems : forall env its, fitems env (flatten true its) = fitems env its.
Proof.
  induction its as [|x t IH]; [reflexivity|].
  rewrite flatten_cons, fitems_app, IH, inline1_fitems, fitems_cons. reflexivity.
Qed.

(* which stored constant results are claimed sound: all of them for the repaired code; for the
   code as it is only those that are not sequences (a sequence node keeps a stale one) *)
Definition vok (fx : bool) (v : value) : Prop := fx = true \/ nonseq v = true.

Definition cok (fx : bool) (env : nat -> value) (n : fnode) : Prop :=
  forall c v, cres n = Some c -> vok fx c -> fdenote env n = Some v -> v = c.

(* a sequence node's stored result is a sequence (so never trusted for the code as it is) *)
Definition seqc (n : fnode) : Prop :=
  match n with FSeq _ _ _ (Some c) => nonseq c = false | _ => True end.

Definition children (n : fnode) : list fnode :=
  match n with
  | FStar x => [x]
  | FSeq _ items m _ => match m with Some mf => mf :: items | None => items end
  | FMul a b _ | FCmp a b | FOr a b => [a; b]
  | FCond c a b => [c; a; b]
  | _ => []
  end.

(* the invariant of the trees ConstantFolding builds: both hold at every node.  It has to be
   hereditary because inlining, 'or' and the conditional expression promote subtrees, and
   _calculate_constant_seq reads the constant result of a node's mult_factor. *)
Inductive sound (fx : bool) (env : nat -> value) (n : fnode) : Prop :=
  Sound : cok fx env n -> seqc n -> Forall (sound fx env) (children n) -> sound fx env n.

Lemma sound_cok : forall fx env n, sound fx env n -> cok fx env n.
Proof. intros fx env n [H _ _]. exact H. Qed.

Lemma sound_children : forall fx env n, sound fx env n -> Forall (sound fx env) (children n).
Proof. intros fx env n [_ _ H]. exact H. Qed.

Lemma sound_no_cres : forall fx env n,
  cres n = None -> Forall (sound fx env) (children n) -> sound fx env n.
Proof.
  intros fx env n H F. constructor; [intros c v E; congruence| |exact F].
  destruct n; try exact I. simpl in H. subst. exact I.
Qed.

Lemma sound_atom : forall fx env n,
  match n with FInt _ | FBool _ | FOpq _ | FVar _ => True | _ => False end -> sound fx env n.
Proof.
  intros fx env n H. destruct n; try contradiction; (constructor; [|exact I|constructor]);
    intros c v E _ D; simpl in *; congruence.
Qed.

Lemma int_cres_sound : forall fx env n z z',
  cok fx env n -> is_int_value (cres n) = Some z -> times env (Some n) = Some z' -> z' = z.
Proof.
  intros fx env n z z' Hc Hi Hd. cbn [times] in Hd.
  destruct (cres n) as [c|] eqn:E; [|discriminate]. destruct (fdenote env n) as [v|] eqn:D; [|discriminate].
  assert (v = c).
  { apply Hc; auto. right. destruct c; simpl in *; try discriminate; reflexivity. }
  subst. destruct c; simpl in *; congruence.
Qed.

(* TupleNode/ListNode.calculate_constant_result (repaired code: all items are trusted) *)
Lemma items_cres_sound : forall env its cl l,
  Forall (sound true env) its -> items_cres its = Some cl -> fitems env its = Some l -> l = cl.
Proof.
  induction its as [|x t IH]; intros cl l H E D.
  - simpl in *. congruence.
  - inversion H as [|? ? Hx Ht]; subst. simpl in E.
    destruct (cres x) as [c|] eqn:Ec; [|discriminate].
    destruct (items_cres t) as [r|] eqn:Er; [|discriminate]. inversion E; subst cl.
    rewrite fitems_cons in D.
    destruct (fitem1 env x) as [a|] eqn:E1; [|discriminate].
    destruct (fitems env t) as [r'|] eqn:E2; [|discriminate]. inversion D; subst l.
    rewrite (IH r r' Ht eq_refl eq_refl).
    (* a node with a constant result is no starred item *)
    assert (a = [c]).
    { destruct x; try (simpl in Ec; discriminate); unfold fitem1 in E1; cbv beta iota in E1;
        match type of E1 with match ?e with _ => _ end = _ => destruct e as [v0|] eqn:Dv; [|discriminate] end;
        inversion E1; subst a; f_equal; apply (sound_cok _ _ _ Hx c v0); auto; left; auto. }
    subst a. reflexivity.
Qed.

(* visit_SequenceNode: the display node with the constant result of its (inlined) items *)
Lemma disp_sound : forall fx env k its,
  Forall (sound fx env) its ->
  sound fx env (FSeq k its None (match items_cres its with Some l => Some (VSeq k l) | None => None end)).
Proof.
  intros fx env k its F. constructor; [|destruct (items_cres its); exact eq_refl || exact I|exact F].
  intros c v E V D. simpl in E. destruct (items_cres its) as [cl|] eqn:Ecl; [|discriminate].
  inversion E; subst c. destruct V as [->|V]; [|discriminate].
  rewrite fdenote_seq in D. destruct (fitems env its) as [l|] eqn:El; [|discriminate].
  inversion D; subst v. rewrite zrep_one. f_equal. exact (items_cres_sound env its cl l F Ecl El).
Qed.

Lemma flatten_sound : forall fx env its,
  Forall (sound fx env) its -> Forall (sound fx env) (flatten true its).
Proof.
  intros fx env its F. apply Forall_flat_map. eapply Forall_impl; [|exact F]. intros x Hx.
  change (Forall (sound fx env) (inline1 true x)).
  destruct x as [| | | |y| | | | |]; cbn [inline1]; auto.
  destruct y as [| | | | |k args m c| | | |]; auto. destruct m; auto.
  (* the items of an inlined literal are its children *)
  apply sound_children in Hx. inversion Hx as [|? ? Hs _]. exact (sound_children _ _ _ Hs).
Qed.

(* the node _calculate_constant_seq returns: its constant result is recalculated or dropped
   (repaired code), or is the sequence's old one, which nothing may trust (code as it is) *)
Lemma calc_seq_sound : forall fx env node k args m sc factor,
  sound fx env (FSeq k args m sc) -> sound fx env factor -> sound fx env node ->
  sound fx env (calc_seq fx node k args m sc factor).
Proof.
  intros fx env node k args m sc factor Hs Hf Hn. pose proof Hs as [_ Hsc Hch].
  assert (STALE : forall it mm, Forall (sound fx env) (children (FSeq k it mm None)) ->
                                sound fx env (FSeq k it mm (if fx then None else sc))).
  { intros it mm F. destruct fx; [apply sound_no_cres; [reflexivity|exact F]|].
    constructor; [|exact Hsc|exact F]. intros c v E [V|V] _; [discriminate|].
    simpl in E, Hsc. rewrite E in Hsc. congruence. }
  assert (EMPTY : sound fx env (FSeq k [] None (if fx then Some (VSeq k []) else sc))).
  { destruct fx; [|apply (STALE [] None); constructor]. constructor; [|reflexivity|constructor].
    intros c v E _ D. simpl in E, D. congruence. }
  unfold calc_seq.
  destruct (differs_from_one (cres factor) && match args with [] => false | _ => true end); [|exact Hs].
  destruct (is_int_value (cres factor)) as [z|]; [destruct (z <=? 0); [exact EMPTY|]|];
    (destruct m as [mf|]; [|apply STALE; cbn [children] in *; auto]).
  - destruct (is_int_value (cres mf)); [|exact Hn].
    apply STALE. inversion Hch. constructor; [apply sound_atom; exact I|assumption].
  - exact Hn.
Qed.

(* node.constant_result of a MulNode: the product of the operands' constant results *)
Definition mul_cres (a b : fnode) : option value :=
  match cres a, cres b with Some x, Some y => py_mul x y | _, _ => None end.

Lemma mul_node_eq : forall fx a b,
  mul_node fx a b =
  match a, b with
  | FSeq k args m sc, _ => calc_seq fx (FMul a b (mul_cres a b)) k args m sc b
  | FInt _, FSeq k args m sc => calc_seq fx (FMul a b (mul_cres a b)) k args m sc a
  | _, _ => binop_mul a b (mul_cres a b)
  end.
Proof. reflexivity. Qed.

Lemma mul_self_sound : forall fx env a b,
  sound fx env a -> sound fx env b -> sound fx env (FMul a b (mul_cres a b)).
Proof.
  intros fx env a b Ha Hb. constructor; [|exact I|cbn [children]; auto].
  intros c v E V D. unfold mul_cres in E. simpl in E, D.
  destruct (cres a) as [x|] eqn:Ea; [|discriminate]. destruct (cres b) as [y|] eqn:Eb; [|discriminate].
  destruct (fdenote env a) as [va|] eqn:Da; [|discriminate]. destruct (fdenote env b) as [vb|] eqn:Db; [|discriminate].
  (* a scalar product has scalar operands *)
  assert (Vx : vok fx x /\ vok fx y).
  { destruct V as [V|V]; [split; left; auto|]. destruct (py_mul_nonseq _ _ _ E V). split; right; auto. }
  destruct Vx as [Vx Vy].
  rewrite (sound_cok _ _ _ Ha x va Ea Vx Da), (sound_cok _ _ _ Hb y vb Eb Vy Db) in D. congruence.
Qed.

(* visit_BinopNode for '*': the MulNode, or the IntNode of its constant result *)
Lemma binop_mul_sound : forall fx env a b c, sound fx env (FMul a b c) -> sound fx env (binop_mul a b c).
Proof.
  intros fx env a b c H. unfold binop_mul. destruct c as [[]|]; auto.
  destruct a; auto; destruct b; auto; apply sound_atom; exact I.
Qed.

Lemma binop_mul_value : forall fx env a b c v,
  cok fx env (FMul a b c) -> fdenote env (FMul a b c) = Some v -> fdenote env (binop_mul a b c) = Some v.
Proof.
  intros fx env a b c v H D. unfold binop_mul. destruct c as [[z| | |]|]; auto.
  assert (v = VInt z) as -> by (apply H; [reflexivity|right; reflexivity|exact D]).
  destruct a; auto; destruct b; auto.
Qed.

Lemma mul_node_sound : forall fx env a b,
  sound fx env a -> sound fx env b -> sound fx env (mul_node fx a b).
Proof.
  intros fx env a b Ha Hb. pose proof (mul_self_sound fx env a b Ha Hb) as Hn.
  pose proof (binop_mul_sound _ _ _ _ _ Hn) as Hbin. rewrite mul_node_eq.
  destruct a; try exact Hbin; [destruct b; try exact Hbin|]; apply calc_seq_sound; assumption.
Qed.

(* _calculate_constant_seq(node, sequence, factor): node denotes sequence * factor, and so does
   the result *)
Lemma calc_seq_value : forall fx env node k args m sc factor v,
  sound fx env (FSeq k args m sc) -> sound fx env factor ->
  fdenote env node = fdenote env (FMul (FSeq k args m sc) factor None) ->
  fdenote env node = Some v -> fdenote env (calc_seq fx node k args m sc factor) = Some v.
Proof.
  intros fx env node k args m sc factor v Hs Hf En Hn.
  pose proof (sound_cok _ _ _ Hf) as Hcf. apply sound_children in Hs.
  pose proof Hn as Hp. rewrite En, fdenote_mul, fdenote_seq in Hp.
  destruct (fitems env args) as [l|] eqn:Hl; [|discriminate].
  destruct (times env m) as [nm|] eqn:Hm; [|discriminate].
  assert (Hf' : exists n, times env (Some factor) = Some n /\ v = VSeq k (zrep n (zrep nm l))).
  { cbn [times]. destruct (fdenote env factor) as [vf|]; [|discriminate].
    destruct (py_mul_seq_l _ _ _ _ Hp) as (n & -> & ->). eauto. }
  destruct Hf' as (n & Hf' & ->). clear Hp.
  unfold calc_seq.
  destruct (differs_from_one (cres factor) && match args with [] => false | _ => true end) eqn:Hd.
  - destruct (is_int_value (cres factor)) as [z|] eqn:Ez.
    + pose proof (int_cres_sound _ _ _ _ _ Hcf Ez Hf'). subst n.
      destruct (Z.leb_spec z 0) as [Hz|Hz]; [rewrite zrep_nonpos by exact Hz; reflexivity|].
      destruct m as [mf|].
      * destruct (is_int_value (cres mf)) as [mz|] eqn:Emz; [|exact Hn].
        inversion Hs as [|? ? Hmf _]. rewrite (int_cres_sound _ _ _ _ _ (sound_cok _ _ _ Hmf) Emz Hm).
        rewrite fdenote_seq, Hl, zrep_mul by exact Hz. reflexivity.
      * inversion Hm. rewrite fdenote_seq, Hl, Hf', !zrep_one. reflexivity.
    + destruct m as [mf|]; [exact Hn|].
      inversion Hm. rewrite fdenote_seq, Hl, Hf', !zrep_one. reflexivity.
  - (* factor 1, or nothing to repeat: the sequence node itself *)
    rewrite fdenote_seq, Hl, Hm. do 2 f_equal. apply andb_false_iff in Hd. destruct Hd as [Hd|Hd].
    + unfold differs_from_one in Hd. destruct (is_int_value (cres factor)) as [z|] eqn:Ez; [|discriminate].
      rewrite (int_cres_sound _ _ _ _ _ Hcf Ez Hf').
      destruct (Z.eqb_spec z 1) as [->|]; [rewrite zrep_one; reflexivity|discriminate].
    + destruct args; [|discriminate]. inversion Hl. rewrite !zrep_nil. reflexivity.
Qed.

(* visit_MulNode *)
Lemma mul_node_value : forall fx env a b c v,
  sound fx env a -> sound fx env b ->
  fdenote env (FMul a b c) = Some v -> fdenote env (mul_node fx a b) = Some v.
Proof.
  intros fx env a b c v Ha Hb D. change (fdenote env (FMul a b (mul_cres a b)) = Some v) in D.
  pose proof (binop_mul_value fx _ _ _ _ _ (sound_cok _ _ _ (mul_self_sound fx env a b Ha Hb)) D) as Hbin.
  rewrite mul_node_eq.
  destruct a; try exact Hbin; [destruct b; try exact Hbin|]; apply calc_seq_value; auto.
  (* IntNode * sequence is sequence * IntNode *)
  rewrite !fdenote_mul. destruct (fdenote env (FSeq k items m c0)); [apply py_mul_comm|reflexivity].
Qed.

(* the consumers of constant results: visit_PrimaryCmpNode, visit_BoolBinopNode, visit_CondExprNode *)
Lemma cmp_value : forall env a b v,
  cok true env a -> cok true env b -> fdenote env (FCmp a b) = Some v ->
  fdenote env (match cres a, cres b with Some x, Some y => FBool (py_eq x y) | _, _ => FCmp a b end) = Some v.
Proof.
  intros env a b v Ha Hb D. destruct (cres a) as [x|] eqn:Ca; [destruct (cres b) as [y|] eqn:Cb|]; try exact D.
  simpl in D |- *. destruct (fdenote env a) as [va|] eqn:Da; [|discriminate].
  destruct (fdenote env b) as [vb|] eqn:Db; [|discriminate].
  rewrite <- (Ha x va Ca (or_introl eq_refl) Da), <- (Hb y vb Cb (or_introl eq_refl) Db). exact D.
Qed.

Lemma or_value : forall env a b v,
  cok true env a -> fdenote env (FOr a b) = Some v ->
  fdenote env (match cres a with Some x => if truthy x then a else b | None => FOr a b end) = Some v.
Proof.
  intros env a b v Ha D. destruct (cres a) as [x|] eqn:Ca; [|exact D].
  simpl in D. destruct (fdenote env a) as [va|] eqn:Da; [|discriminate].
  rewrite <- (Ha x va Ca (or_introl eq_refl) Da). destruct (truthy va); [rewrite Da|]; exact D.
Qed.

Lemma cond_value : forall env c a b v,
  cok true env c -> fdenote env (FCond c a b) = Some v ->
  fdenote env (match cres c with Some x => if truthy x then a else b | None => FCond c a b end) = Some v.
Proof.
  intros env c a b v Hc D. destruct (cres c) as [x|] eqn:Cc; [|exact D].
  simpl in D. destruct (fdenote env c) as [vc|] eqn:Dc; [|discriminate].
  rewrite <- (Hc x vc Cc (or_introl eq_refl) Dc). destruct (truthy vc); exact D.
Qed.

Lemma fold_disp : forall fx g k items,
  fold fx g (EDisp k items) =
  FSeq k (flatten g (map (fold fx g) items)) None
       (match items_cres (flatten g (map (fold fx g) items)) with Some l => Some (VSeq k l) | None => None end).
Proof. reflexivity. Qed.

Lemma fold_mul : forall fx g a b, fold fx g (EMul a b) = mul_node fx (fold fx g a) (fold fx g b).
Proof. reflexivity. Qed.

Lemma fold_cmp : forall fx g a b,
  fold fx g (ECmp a b) =
  match cres (fold fx g a), cres (fold fx g b) with
  | Some x, Some y => FBool (py_eq x y)
  | _, _ => FCmp (fold fx g a) (fold fx g b)
  end.
Proof. reflexivity. Qed.

Lemma fold_or : forall fx g a b,
  fold fx g (EOr a b) =
  match cres (fold fx g a) with
  | Some x => if truthy x then fold fx g a else fold fx g b
  | None => FOr (fold fx g a) (fold fx g b)
  end.
Proof. reflexivity. Qed.

Lemma fold_cond : forall fx g c a b,
  fold fx g (ECond c a b) =
  match cres (fold fx g c) with
  | Some x => if truthy x then fold fx g a else fold fx g b
  | None => FCond (fold fx g c) (fold fx g a) (fold fx g b)
  end.
Proof. reflexivity. Qed.

Lemma fold_sound : forall fx env e, sound fx env (fold fx true e).
Proof.
  intros fx env.
  induction e as [z|b|b|n|x IHx|k items IH|a b IHa IHb|a b IHa IHb|a b IHa IHb|c a b IHc IHa IHb] using expr_ind2.
  1-4: apply sound_atom; exact I.
  - apply sound_no_cres; [reflexivity|cbn [fold children]; auto].
  - rewrite fold_disp. apply disp_sound, flatten_sound, Forall_map. exact IH.
  - rewrite fold_mul. apply mul_node_sound; assumption.
  - rewrite fold_cmp. destruct (cres (fold fx true a)); [destruct (cres (fold fx true b))|];
      try (apply sound_atom; exact I); apply sound_no_cres; cbn [children]; auto.
  - rewrite fold_or. destruct (cres (fold fx true a)) as [x|]; [destruct (truthy x); assumption|].
    apply sound_no_cres; cbn [children]; auto.
  - rewrite fold_cond. destruct (cres (fold fx true c)) as [x|]; [destruct (truthy x); assumption|].
    apply sound_no_cres; cbn [children]; auto.
Qed.

(* the code as it is only on expressions without a consumer of constant results *)
Definition mode_ok (fx : bool) (e : expr) : Prop := fx = true \/ display_only e = true.

Lemma mode_ok_items : forall fx k items, mode_ok fx (EDisp k items) -> Forall (mode_ok fx) items.
Proof.
  intros fx k items [H|H].
  - apply Forall_forall. intros; left; auto.
  - simpl in H. rewrite forallb_forall in H. apply Forall_forall. intros; right; auto.
Qed.

Definition keeps (fx : bool) (env : nat -> value) (e : expr) : Prop :=
  forall v, eval env e = Some v -> fdenote env (fold fx true e) = Some v.

(* a starred item has no value of its own, so the induction carries the one of what it unpacks *)
Definition keeps_item (fx : bool) (env : nat -> value) (e : expr) : Prop :=
  keeps fx env e /\ match e with EStar x => keeps fx env x | _ => True end.

Lemma item_value : forall fx env x a,
  keeps_item fx env x -> eitem1 env x = Some a -> fitem1 env (fold fx true x) = Some a.
Proof.
  intros fx env x a [A Hs] E.
  destruct x as [z|b|b|n|y|k its|a0 b0|a0 b0|a0 b0|c0 a0 b0]; unfold eitem1 in E; cbv beta iota in E;
    try (match type of E with match ?e with _ => _ end = _ => destruct e as [v0|] eqn:Ev; [|discriminate] end;
         inversion E; subst a; apply fitem1_of_value; apply A; first [exact Ev|reflexivity]).
  destruct (eval env y) as [[| | |k vs]|] eqn:Ev; try discriminate. inversion E; subst a.
  simpl. rewrite (Hs _ Ev). reflexivity.
Qed.

Lemma items_value : forall fx env items,
  Forall (keeps_item fx env) items ->
  forall l, eitems env items = Some l -> fitems env (map (fold fx true) items) = Some l.
Proof.
  induction 1 as [|x t Hx Ht IH]; intros l E; [exact E|].
  rewrite eitems_cons in E. simpl map. rewrite fitems_cons.
  destruct (eitem1 env x) as [a|] eqn:E1; [|discriminate].
  destruct (eitems env t) as [r|] eqn:E2; [|discriminate].
  rewrite (IH r eq_refl), (item_value fx env x a Hx E1). exact E.
Qed.

Lemma fold_value : forall fx env e, mode_ok fx e -> keeps_item fx env e.
Proof.
  intros fx env.
  induction e as [z|b|b|n|x IHx|k items IH|a b IHa IHb|a b IHa IHb|a b IHa IHb|c a b IHc IHa IHb] using expr_ind2;
    intros M; (split; [intros v Hv|try exact I]).
  1-4: exact Hv.
  - discriminate.
  - apply IHx. destruct M as [M|M]; [left|right]; exact M.
  - rewrite eval_disp in Hv. destruct (eitems env items) as [l|] eqn:El; [|discriminate].
    assert (Hs : Forall (keeps_item fx env) items).
    { pose proof (mode_ok_items _ _ _ M) as Mi. rewrite Forall_forall in *. auto. }
    rewrite fold_disp, fdenote_seq, flatten_fitems, (items_value fx env items Hs l El). cbn [times].
    rewrite zrep_one. exact Hv.
  - assert (Ma : mode_ok fx a /\ mode_ok fx b).
    { destruct M as [M|M]; [split; left; auto|]. simpl in M. apply andb_true_iff in M. destruct M. split; right; auto. }
    rewrite fold_mul. apply (mul_node_value fx env _ _ None); try apply fold_sound. simpl in Hv |- *.
    destruct (eval env a) as [va|] eqn:Ea; [|discriminate]. destruct (eval env b) as [vb|] eqn:Eb; [|discriminate].
    rewrite (proj1 (IHa (proj1 Ma)) va Ea), (proj1 (IHb (proj2 Ma)) vb Eb). exact Hv.
  - destruct M as [->|M]; [|discriminate]. rewrite fold_cmp. apply cmp_value; try apply sound_cok, fold_sound.
    simpl in Hv |- *.
    destruct (eval env a) as [va|] eqn:Ea; [|discriminate]. destruct (eval env b) as [vb|] eqn:Eb; [|discriminate].
    rewrite (proj1 (IHa (or_introl eq_refl)) va Ea), (proj1 (IHb (or_introl eq_refl)) vb Eb). exact Hv.
  - destruct M as [->|M]; [|discriminate]. rewrite fold_or. apply or_value; [apply sound_cok, fold_sound|].
    simpl in Hv |- *. destruct (eval env a) as [va|] eqn:Ea; [|discriminate].
    rewrite (proj1 (IHa (or_introl eq_refl)) va Ea).
    destruct (truthy va); [exact Hv|apply (IHb (or_introl eq_refl)); exact Hv].
  - destruct M as [->|M]; [|discriminate]. rewrite fold_cond. apply cond_value; [apply sound_cok, fold_sound|].
    simpl in Hv |- *. destruct (eval env c) as [vc|] eqn:Ec; [|discriminate].
    rewrite (proj1 (IHc (or_introl eq_refl)) vc Ec).
    destruct (truthy vc); [apply (IHa (or_introl eq_refl))|apply (IHb (or_introl eq_refl))]; exact Hv.
Qed.

(* code as it is: display / repetition / starred-item folding keeps the value CPython gives *)
Theorem fold_display_value : forall env e v,
  display_only e = true -> eval env e = Some v -> fdenote env (fold false true e) = Some v.
Proof. intros env e v D. apply (fold_value false env e (or_intror D)). Qed.

(* repaired code: every expression of the model, consumers of constant results included *)
Theorem fold_value_repaired : forall env e v,
  eval env e = Some v -> fdenote env (fold true true e) = Some v.
Proof. intros env e v. apply (fold_value true env e (or_introl eq_refl)). Qed.

Theorem fold_constant_result_repaired : forall env e c v,
  cres (fold true true e) = Some c -> eval env e = Some v -> v = c.
Proof.
  intros env e c v C H.
  exact (sound_cok _ _ _ (fold_sound true env e) c v C (or_introl eq_refl) (fold_value_repaired env e v H)).
Qed.

Theorem fold_constant_result_scalar : forall env e c v,
  display_only e = true -> nonseq c = true ->
  cres (fold false true e) = Some c -> eval env e = Some v -> v = c.
Proof.
  intros env e c v D N C H.
  exact (sound_cok _ _ _ (fold_sound false env e) c v C (or_intror N) (fold_display_value env e v D H)).
Qed.

Definition tup (l : list Z) : expr := EDisp KTuple (map EInt l).

(* the display  ( *((1, 2) * 2), 3 ) : inlining a starred literal that carries a factor loses the repetition *)
Theorem unguarded_inlining_refuted : forall fx env, exists e v,
  display_only e = true /\ eval env e = Some v /\ fdenote env (fold fx false e) <> Some v.
Proof.
  intros fx env.
  exists (EDisp KTuple [EStar (EMul (tup [1; 2]) (EInt 2)); EInt 3]).
  exists (VSeq KTuple [VInt 1; VInt 2; VInt 1; VInt 2; VInt 3]).
  destruct fx; (split; [reflexivity|split; [reflexivity|vm_compute; discriminate]]).
Qed.

(* code as it is: ((1, 2) * 2) == (1, 2) is folded to True *)
Theorem stale_constant_result_refuted : forall env, exists e c v,
  cres (fold false true e) = Some c /\ eval env e = Some v /\ v <> c /\
  exists e2 v2, eval env e2 = Some v2 /\ fdenote env (fold false true e2) <> Some v2.
Proof.
  intros env.
  exists (EMul (tup [1; 2]) (EInt 2)), (VSeq KTuple [VInt 1; VInt 2]), (VSeq KTuple [VInt 1; VInt 2; VInt 1; VInt 2]).
  split; [reflexivity|split; [reflexivity|split; [discriminate|]]].
  exists (ECmp (EMul (tup [1; 2]) (EInt 2)) (tup [1; 2])), (VBool false).
  split; [reflexivity|vm_compute; discriminate].
Qed.

(* ((0,) * n) or 5 with a run-time n = 0: the emptied / repeated node still counts as the truthy (0,) *)
Theorem stale_constant_result_runtime_factor_refuted : exists env e v,
  eval env e = Some v /\ fdenote env (fold false true e) <> Some v.
Proof.
  exists (fun _ => VInt 0), (EOr (EMul (tup [0]) (EVar 0)) (EInt 5)), (VInt 5).
  split; [reflexivity|vm_compute; discriminate].
Qed.
