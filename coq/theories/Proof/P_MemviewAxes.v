(* C17 -- the axis part of MemviewSliceValidateAndInit (Model/M_MemviewAxes.v): a declared C- or
   Fortran-contiguous memoryview type accepts exactly the buffers of the right ndim that are empty or
   contiguous in that order; a strided type tests ndim only. *)
From Coq Require Import ZArith List Bool Lia.
From CyVerif Require Import Model.M_MemviewAxes.
Import ListNotations.
Open Scope Z_scope.

Lemma vc_loop_spec : forall isz dims inner, vc_loop isz inner dims = true <-> contig_from isz inner dims.
Proof.
  intros isz dims. induction dims as [|[sh st] r IH]; intros inner; cbn [vc_loop contig_from].
  - tauto.
  - destruct (Z.eqb_spec (inner * isz) st) as [E|E]; destruct (Z.ltb_spec 1 sh) as [L|L]; cbn [negb andb].
    + rewrite IH. split; [intros H; split; [intros _; lia|exact H]|tauto].
    + rewrite IH. split; [intros H; split; [intros; lia|exact H]|tauto].
    + split; [discriminate|]. intros [H _]. specialize (H L). lia.
    + rewrite IH. split; [intros H; split; [intros; lia|exact H]|tauto].
Qed.

Theorem verify_contig_c : forall isz shape strides,
  verify_contig FC isz shape strides = true <-> c_contiguous isz shape strides.
Proof. intros. apply vc_loop_spec. Qed.
Theorem verify_contig_f : forall isz shape strides,
  verify_contig FF isz shape strides = true <-> f_contiguous isz shape strides.
Proof. intros. apply vc_loop_spec. Qed.

(* a C-contiguous declared type  T[:, :, ::1]  (all axes "follow", the last one "contig", flag C) *)
Fixpoint c_axes (n : nat) : list axis :=
  match n with O => [] | S O => [AContig] | S m => AFollow :: c_axes m end.
(* ... and the Fortran one  T[::1, :, :] *)
Definition f_axes (n : nat) : list axis :=
  match n with O => [] | S m => AContig :: repeat AFollow m end.

Definition chk (isz : Z) (t : axis * (Z * Z)) : bool := check_stride isz (fst t) (fst (snd t)) (snd (snd t)).
Definition Pfollow (isz : Z) (d : Z * Z) : Prop := 1 < fst d -> isz <= Z.abs (snd d).
Definition Qcontig (isz : Z) (d : Z * Z) : Prop := 1 < fst d -> snd d = isz.

(* on a contiguous prefix the per-axis tests are implied: |stride| >= itemsize for "follow" axes and
   stride = itemsize for the "contig" axis *)
Lemma contig_follow : forall isz dims inner, 0 < isz -> 1 <= inner ->
  Forall (fun d => 1 <= fst d) dims -> contig_from isz inner dims -> Forall (Pfollow isz) dims.
Proof.
  intros isz dims. induction dims as [|[sh st] r IH]; intros inner Hi Hn Hs Hc; constructor.
  - unfold Pfollow. cbn [fst snd]. intros L. destruct Hc as [Hc _]. rewrite (Hc L). nia.
  - destruct Hc as [_ Hc]. apply (IH (inner * sh)); auto.
    + pose proof (Forall_inv Hs) as H1. cbn [fst] in H1. nia.
    + exact (Forall_inv_tail Hs).
Qed.

Lemma chk_follow : forall isz d, Pfollow isz d -> chk isz (AFollow, d) = true.
Proof.
  intros isz [sh st] H. unfold chk, check_stride. cbn [fst snd] in *.
  destruct (Z.leb_spec sh 1); [reflexivity|]. unfold Pfollow in H. cbn [fst snd] in H. apply Z.leb_le. apply H. lia.
Qed.
Lemma chk_contig : forall isz d, Qcontig isz d -> chk isz (AContig, d) = true.
Proof.
  intros isz [sh st] H. unfold chk, check_stride. cbn [fst snd] in *.
  destruct (Z.leb_spec sh 1); [reflexivity|]. unfold Qcontig in H. cbn [fst snd] in H. apply Z.eqb_eq. apply H. lia.
Qed.

Lemma check_c_axes : forall isz dims n, length dims = n -> Forall (Pfollow isz) dims ->
  match rev dims with d :: _ => Qcontig isz d | [] => True end ->
  forallb (chk isz) (combine (c_axes n) dims) = true.
Proof.
  intros isz dims. induction dims as [|d r IH]; intros n Hn HP HQ.
  - destruct n; [reflexivity|destruct n; reflexivity].
  - destruct n as [|m]; [discriminate Hn|]. cbn [length] in Hn. injection Hn as Hn.
    destruct r as [|d2 r2].
    + cbn [length] in Hn. subst m. cbn [c_axes combine forallb]. cbn [rev app] in HQ.
      rewrite (chk_contig isz d HQ). reflexivity.
    + destruct m as [|m']; [discriminate Hn|].
      change (c_axes (S (S m'))) with (AFollow :: c_axes (S m')). cbn [combine forallb].
      rewrite (chk_follow isz d (Forall_inv HP)). cbn [andb].
      apply IH; [exact Hn|exact (Forall_inv_tail HP)|].
      cbn [rev] in HQ. cbn [rev].
      destruct (rev r2 ++ [d2]) as [|x xs] eqn:E; [destruct (rev r2); discriminate E|].
      cbn [app] in HQ. exact HQ.
Qed.

Lemma check_f_axes : forall isz dims n, length dims = n -> Forall (Pfollow isz) dims ->
  match dims with d :: _ => Qcontig isz d | [] => True end ->
  forallb (chk isz) (combine (f_axes n) dims) = true.
Proof.
  intros isz [|d r] n Hn HP HQ; [destruct n; reflexivity|].
  destruct n as [|m]; [discriminate Hn|]. cbn [f_axes combine forallb].
  rewrite (chk_contig isz d HQ). cbn [andb]. cbn [length] in Hn. injection Hn as Hn.
  apply Forall_inv_tail in HP. clear HQ d. revert m Hn. induction r as [|d r IH]; intros m Hn.
  - destruct m; reflexivity.
  - destruct m as [|m']; [discriminate Hn|]. cbn [repeat combine forallb].
    rewrite (chk_follow isz d (Forall_inv HP)). cbn [andb]. apply IH; [exact (Forall_inv_tail HP)|].
    cbn [length] in Hn. lia.
Qed.

Lemma contig_head : forall isz dims, contig_from isz 1 dims ->
  match dims with d :: _ => Qcontig isz d | [] => True end.
Proof. intros isz [|[sh st] r] H; [exact I|]. destruct H as [H _]. unfold Qcontig. cbn [fst snd]. intros L. rewrite (H L). lia. Qed.

Lemma prodz_cons : forall x r, prodz (x :: r) = x * prodz r.
Proof. reflexivity. Qed.
Lemma prodz_nonneg : forall l, Forall (fun s => 0 <= s) l -> 0 <= prodz l.
Proof.
  induction l as [|x r IH]; intros Hn; [cbn; lia|]. rewrite prodz_cons.
  pose proof (Forall_inv Hn) as Hx. cbn beta in Hx. specialize (IH (Forall_inv_tail Hn)). nia.
Qed.
Lemma prodz_pos : forall l, Forall (fun s => 0 <= s) l -> 0 < prodz l -> Forall (fun s => 1 <= s) l.
Proof.
  induction l as [|x r IH]; intros Hn Hp; [constructor|]. rewrite prodz_cons in Hp.
  pose proof (Forall_inv Hn) as Hx. cbn beta in Hx. pose proof (prodz_nonneg r (Forall_inv_tail Hn)).
  constructor; [nia|]. apply IH; [exact (Forall_inv_tail Hn)|nia].
Qed.

Lemma dims_pos : forall shape strides, Forall (fun s => 1 <= s) shape ->
  Forall (fun d : Z * Z => 1 <= fst d) (combine shape strides).
Proof.
  induction shape as [|x r IH]; intros [|y t] H; cbn [combine]; constructor.
  - exact (Forall_inv H).
  - apply IH. exact (Forall_inv_tail H).
Qed.

Lemma c_axes_length : forall n, length (c_axes n) = n.
Proof.
  induction n as [|m IH]; [reflexivity|]. destruct m; [reflexivity|].
  change (c_axes (S (S m))) with (AFollow :: c_axes (S m)). cbn [length]. rewrite IH. reflexivity.
Qed.

Lemma f_axes_length : forall n, length (f_axes n) = n.
Proof. destruct n; [reflexivity|]. cbn [f_axes length]. rewrite repeat_length. reflexivity. Qed.

(* both orders: the ndim test, the len == 0 shortcut, then the contiguity loop, whose success C makes
   the per-axis tests redundant *)
Lemma validate_contig_iff : forall axes fl n isz shape strides (C : Prop),
  length axes = n -> 0 < isz -> Forall (fun s => 0 <= s) shape ->
  (verify_contig fl isz shape strides = true <-> C) ->
  (C -> length shape = n -> Forall (fun d : Z * Z => 1 <= fst d) (combine shape strides) ->
   forallb (chk isz) (combine axes (combine shape strides)) = true) ->
  (validate_axes axes fl isz shape strides = true <-> length shape = n /\ (prodz shape = 0 \/ C)).
Proof.
  intros axes fl n isz shape strides C Ha Hi Hn Hv Hax. unfold validate_axes. rewrite Ha.
  pose proof (prodz_nonneg shape Hn) as Hp0.
  destruct (Nat.eqb_spec (length shape) n) as [E|E]; cbn [negb]; [|split; [discriminate|intros [H _]; contradiction]].
  destruct (Z.leb_spec (prodz shape * isz) 0) as [Z0|Z0].
  - split; [intros _; split; [exact E|left; nia]|reflexivity].
  - rewrite <- Hv. split.
    + intros H. apply andb_prop in H. split; [exact E|right; exact (proj2 H)].
    + intros [_ [H|H]]; [nia|]. rewrite H, andb_true_r. apply Hax; [apply Hv; exact H|exact E|].
      apply dims_pos. apply prodz_pos; [exact Hn|nia].
Qed.

(* T[:, ..., ::1] accepts exactly the buffers of the right ndim that are empty or C-contiguous *)
Theorem validate_c_contig_iff : forall n isz shape strides,
  0 < isz -> Forall (fun s => 0 <= s) shape -> length strides = length shape ->
  (validate_axes (c_axes n) FC isz shape strides = true <->
   length shape = n /\ (prodz shape = 0 \/ c_contiguous isz shape strides)).
Proof.
  intros n isz shape strides Hi Hn Hl.
  apply validate_contig_iff; [apply c_axes_length|exact Hi|exact Hn|apply verify_contig_c|].
  intros H E Hpos. unfold c_contiguous in H. apply check_c_axes.
  - rewrite combine_length, Hl, Nat.min_id. exact E.
  - apply Forall_rev in Hpos. pose proof (contig_follow isz _ 1 Hi (Z.le_refl 1) Hpos H) as HF.
    apply Forall_rev in HF. rewrite rev_involutive in HF. exact HF.
  - exact (contig_head isz _ H).
Qed.

Theorem validate_f_contig_iff : forall n isz shape strides,
  0 < isz -> Forall (fun s => 0 <= s) shape -> length strides = length shape ->
  (validate_axes (f_axes n) FF isz shape strides = true <->
   length shape = n /\ (prodz shape = 0 \/ f_contiguous isz shape strides)).
Proof.
  intros n isz shape strides Hi Hn Hl.
  apply validate_contig_iff; [apply f_axes_length|exact Hi|exact Hn|apply verify_contig_f|].
  intros H E Hpos. unfold f_contiguous in H. apply check_f_axes.
  - rewrite combine_length, Hl, Nat.min_id. exact E.
  - exact (contig_follow isz _ 1 Hi (Z.le_refl 1) Hpos H).
  - exact (contig_head isz _ H).
Qed.

(* a strided type T[:, :] only tests ndim *)
Theorem validate_strided_iff : forall n isz shape strides,
  validate_axes (repeat AStrided n) FNone isz shape strides = true <-> length shape = n.
Proof.
  intros n isz shape strides. unfold validate_axes. rewrite repeat_length.
  destruct (Nat.eqb_spec (length shape) n) as [E|E]; cbn [negb]; [|split; [discriminate|contradiction]].
  split; [intros _; exact E|intros _].
  destruct (prodz shape * isz <=? 0); [reflexivity|]. cbn [verify_contig]. rewrite andb_true_r.
  unfold check_axes. apply forallb_forall. intros [ax [sh st]] Hin.
  apply in_combine_l in Hin. apply repeat_spec in Hin. subst ax. cbn [fst snd]. unfold check_stride.
  destruct (sh <=? 1); reflexivity.
Qed.
