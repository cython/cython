(* Proofs about Model/M_GlobalCache.v: an invariant ties every call-site cache to the module dict
   through the version tag (a cached version equal to the dict's current tag means the cached value
   is the current binding), so cached and uncached lookups agree on every history of mutations. *)
From Coq Require Import ZArith List Bool Lia ZifyBool.
From CyVerif Require Import Model.M_GlobalCache.
Import ListNotations.
Open Scope Z_scope.

(* the association-list dict is a map: dset binds, ddel removes *)
Lemma dget_dset_same {V} (d : list (Z * V)) k v : dget (dset d k v) k = Some v.
Proof. cbn. now rewrite Z.eqb_refl. Qed.

Lemma dget_dset_other {V} (d : list (Z * V)) k k' v : k <> k' -> dget (dset d k v) k' = dget d k'.
Proof. intros H. cbn. destruct (Z.eqb_spec k k'); [contradiction|reflexivity]. Qed.

Lemma dget_ddel_same {V} (d : list (Z * V)) k : dget (ddel d k) k = None.
Proof.
  induction d as [|[k' v] d IH]; cbn; [reflexivity|]. destruct (Z.eqb_spec k' k); [assumption|].
  cbn. destruct (Z.eqb_spec k' k); [contradiction|assumption].
Qed.

Lemma dget_ddel_other {V} (d : list (Z * V)) k k' : k <> k' -> dget (ddel d k) k' = dget d k'.
Proof.
  intros Hne. induction d as [|[k0 v] d IH]; cbn; [reflexivity|].
  destruct (Z.eqb_spec k0 k) as [->|N].
  - destruct (Z.eqb_spec k k'); [contradiction|assumption].
  - cbn. destruct (Z.eqb_spec k0 k'); [reflexivity|assumption].
Qed.

Lemma ddel_absent {V} (d : list (Z * V)) k : dget d k = None -> ddel d k = d.
Proof.
  induction d as [|[k' v] d IH]; cbn; [reflexivity|]. destruct (Z.eqb_spec k' k); [discriminate|].
  intros H. f_equal. apply IH. assumption.
Qed.

(* the uncached semantics does not look at the call-site caches *)
Definition same_dicts (a b : world) : Prop :=
  moddict a = moddict b /\ builtins a = builtins b.

Lemma run_uncached_sites nm ops : forall a b, same_dicts a b -> run false nm a ops = run false nm b ops.
Proof.
  induction ops as [|o ops IH]; intros a b [Hm Hb]; [reflexivity|].
  destruct o as [k v|k|k v|k|i]; cbn [run step fst snd].
  - apply IH. split; cbn; congruence.
  - rewrite Hm. destruct (dget (moddict b) k); apply IH; split; cbn; congruence.
  - apply IH. split; cbn; congruence.
  - rewrite Hb. destruct (dget (builtins b) k); apply IH; split; cbn; congruence.
  - unfold lookup_uncached, builtin_lookup. rewrite Hm, Hb. f_equal. apply IH. split; assumption.
Qed.

(* invariant tying each call-site cache to the module dict through the version tag *)
Definition Inv (nm : Z -> name) (w : world) : Prop :=
  0 < mod_version w /\ mod_version w < next_version w /\
  forall i cv cval, dget (sites w) i = Some (cv, cval) ->
    cv < next_version w /\ (cv = mod_version w -> cval = dget (moddict w) (nm i)).

Lemma inv_w0 nm : Inv nm w0.
Proof. unfold Inv, w0; cbn. repeat split; try lia; discriminate. Qed.

Lemma inv_bump nm w d : Inv nm w -> Inv nm (bump w d).
Proof.
  intros (H0 & H1 & H2). unfold bump. split; [cbn; lia|]. split; [cbn; lia|].
  intros i cv cval H. cbn in *. destruct (H2 _ _ _ H) as [Hlt _]. split; [lia|]. intros E. lia.
Qed.

Lemma inv_bump_b nm w b : Inv nm w -> Inv nm (bump_b w b).
Proof.
  intros (H0 & H1 & H2). unfold bump_b. split; [cbn; lia|]. split; [cbn; lia|].
  intros i cv cval H. cbn in *. destruct (H2 _ _ _ H) as [Hlt Hc]. split; [lia|]. exact Hc.
Qed.

Lemma lookup_cached_correct nm w i :
  Inv nm w -> lookup_cached_result w i (nm i) = lookup_spec w (nm i).
Proof.
  intros (H0 & H1 & H2). unfold lookup_cached_result, cache_hit, site_get, lookup_spec, lookup_uncached.
  destruct (dget (sites w) i) as [[cv cval]|] eqn:Hs; cbn [fst snd].
  - destruct (Z.eqb_spec cv (mod_version w)) as [E|NE]; [|reflexivity].
    destruct (H2 _ _ _ Hs) as [_ Hc]. rewrite <- (Hc E). reflexivity.
  - (* a site never used before: its static version 0 is not a live dict's tag *)
    destruct (Z.eqb_spec 0 (mod_version w)); [lia|reflexivity].
Qed.

Lemma lookup_cached_world_inv nm w i :
  Inv nm w -> Inv nm (lookup_cached_world w i (nm i)) /\ same_dicts (lookup_cached_world w i (nm i)) w.
Proof.
  intros HI. unfold lookup_cached_world. destruct (cache_hit w i); [split; [assumption|split; reflexivity]|].
  split; [|split; reflexivity]. destruct HI as (H0 & H1 & H2).
  unfold with_sites. split; [cbn; lia|]. split; [cbn; lia|].
  intros j cv cval H. cbn [sites moddict mod_version next_version] in *.
  destruct (Z.eq_dec i j) as [->|Ne].
  - rewrite dget_dset_same in H. inversion H; subst. split; [lia|reflexivity].
  - rewrite dget_dset_other in H by assumption. exact (H2 _ _ _ H).
Qed.

(* For every history of module-dict / builtins mutations and global-name reads, from any state
   satisfying the invariant, the cached lookups return what the uncached lookups return *)
Theorem cached_eq_uncached_from nm ops : forall w, Inv nm w -> run true nm w ops = run false nm w ops.
Proof.
  induction ops as [|o ops IH]; intros w HI; [reflexivity|].
  destruct o as [k v|k|k v|k|i]; cbn [run step fst snd].
  - apply IH. apply inv_bump; assumption.
  - destruct (dget (moddict w) k); apply IH; [apply inv_bump|]; assumption.
  - apply IH. apply inv_bump_b; assumption.
  - destruct (dget (builtins w) k); apply IH; [apply inv_bump_b|]; assumption.
  - rewrite (lookup_cached_correct nm w i HI). unfold lookup_spec. f_equal.
    destruct (lookup_cached_world_inv nm w i HI) as [HI' Hsame].
    rewrite (IH _ HI'). apply run_uncached_sites. assumption.
Qed.

Theorem cached_eq_uncached nm ops : run true nm w0 ops = run false nm w0 ops.
Proof. apply cached_eq_uncached_from. apply inv_w0. Qed.

(* and the uncached lookups are the language rule evaluated on the current dicts: each read
   returns the binding current at that point of the history *)
Fixpoint spec_run (nm : Z -> name) (m b : list (name * value)) (ops : list op) : list result :=
  match ops with
  | [] => []
  | SetMod k v :: r => spec_run nm (dset m k v) b r
  | DelMod k :: r => spec_run nm (ddel m k) b r
  | SetBuiltin k v :: r => spec_run nm m (dset b k v) r
  | DelBuiltin k :: r => spec_run nm m (ddel b k) r
  | Lookup i :: r =>
      (match dget m (nm i) with
       | Some v => Found v
       | None => match dget b (nm i) with Some v => Found v | None => NameError end
       end) :: spec_run nm m b r
  end.

Lemma run_uncached_spec nm ops : forall w,
  run false nm w ops = spec_run nm (moddict w) (builtins w) ops.
Proof.
  induction ops as [|o ops IH]; intros w; [reflexivity|].
  destruct o as [k v|k|k v|k|i]; cbn [run step fst snd spec_run].
  - rewrite IH. reflexivity.
  - destruct (dget (moddict w) k) eqn:E; rewrite IH; cbn [bump moddict builtins]; [reflexivity|].
    now rewrite ddel_absent.
  - rewrite IH. reflexivity.
  - destruct (dget (builtins w) k) eqn:E; rewrite IH; cbn [bump_b moddict builtins]; [reflexivity|].
    now rewrite ddel_absent.
  - rewrite IH. reflexivity.
Qed.

Theorem lookup_current nm ops : run true nm w0 ops = spec_run nm [] [] ops.
Proof. rewrite cached_eq_uncached, run_uncached_spec. reflexivity. Qed.
