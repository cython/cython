(* C10 (model in Model/M_StrLit.v).  The string-literal decoder agrees with the language's reading of the body:
   for each escape token the builder action and the rule of the language agree (esc_agree), and errors are sticky.
   Then the UTF-8 and unicode_escape round trips, the string table with its index bit-fields, and the pipeline
   from the constants to the table read back at module init. *)
From Coq Require Import NArith ZArith List Bool Lia ZifyBool ZifyN.
From CyVerif Require Import Lib.CInt Model.M_StrLit.
From CyVerif Require Model.M_CStr Model.M_LZSS Proof.P_CStr Proof.P_LZSS.
Import ListNotations.
Open Scope N_scope.

Lemma hexv_oct d : is_octd d = true -> hexv d = d - 48 /\ d - 48 < 8.
Proof. unfold is_octd, hexv. intros H. destruct (N.leb_spec d 57); lia. Qed.

Lemma hexv_hex d : is_hexd d = true -> hexv d < 16.
Proof.
  unfold is_hexd, hexv. intros H.
  destruct (N.leb_spec d 57); [lia|]. destruct (N.leb_spec d 70); lia.
Qed.

Lemma oct_not_special e : is_octd e = true ->
  e <> 92 /\ e <> 10 /\ e <> 78 /\ e <> 117 /\ e <> 120 /\ e <> 85 /\ simple_escape e = None.
Proof.
  unfold is_octd. intros H. repeat split; try lia.
  unfold simple_escape.
  repeat match goal with |- context [if ?a =? ?b then _ else _] => destruct (N.eqb_spec a b); [lia|] end.
  reflexivity.
Qed.

Lemma of_base_snoc b ds d : of_base b (ds ++ [d]) = of_base b ds * b + hexv d.
Proof. unfold of_base. now rewrite fold_left_app. Qed.

Lemma of_base16_lt h : forallb is_hexd h = true -> of_base 16 h < 16 ^ N.of_nat (length h).
Proof.
  induction h as [|d h IH] using rev_ind; intros H; [reflexivity|].
  rewrite forallb_app in H. cbn [forallb] in H. rewrite andb_true_r in H. apply andb_true_iff in H as [Hh Hd].
  apply hexv_hex in Hd. specialize (IH Hh).
  rewrite of_base_snoc, app_length, Nat.add_1_r, Nat2N.inj_succ, N.pow_succ_r'. lia.
Qed.

Lemma dec_nil f fx k raw s : dec (S f) fx k raw [] s = finish k s.
Proof. reflexivity. Qed.

Lemma dec_plain f fx k raw c r s : c <> 92 ->
  dec (S f) fx k raw (c :: r) s =
  dec f fx k raw r {| st_err := st_err s; st_nonascii := st_nonascii s || (128 <=? c);
                      st_b := b_append [c] (st_b s); st_u := c :: st_u s |}.
Proof. intros H. cbn [dec]. destruct (N.eqb_spec c 92); [contradiction|reflexivity]. Qed.

Lemma dec_esc f fx k raw r s :
  dec (S f) fx k raw (92 :: r) s =
  match do_action fx k (if raw then AChars (fst (lex_escape r)) else append_escape_sequence k (fst (lex_escape r))) s with
  | SNext s' => dec f fx k raw (snd (lex_escape r)) s'
  | SStop d => d
  end.
Proof.
  cbn [dec]. change (92 =? 92) with true. cbv iota. destruct (lex_escape r) as [esc r']. reflexivity.
Qed.

Lemma span_upto_app p n l : fst (span_upto p n l) ++ snd (span_upto p n l) = l.
Proof.
  revert l. induction n as [|n IH]; intros [|c r]; cbn [span_upto]; try reflexivity.
  destruct (p c); [|reflexivity]. specialize (IH r). destruct (span_upto p n r). cbn in *. now rewrite IH.
Qed.
Lemma span_all_app p l : fst (span_all p l) ++ snd (span_all p l) = l.
Proof.
  induction l as [|c r IH]; cbn [span_all]; [reflexivity|].
  destruct (p c); [|reflexivity]. destruct (span_all p r). cbn in *. now rewrite IH.
Qed.
Lemma span_upto_all p n l : forallb p (fst (span_upto p n l)) = true.
Proof.
  revert l. induction n as [|n IH]; intros [|c r]; cbn [span_upto]; try reflexivity.
  destruct (p c) eqn:E; [|reflexivity]. specialize (IH r). destruct (span_upto p n r). cbn in *. now rewrite E.
Qed.
Lemma span_upto_pref p n a b : length a = n -> forallb p a = true -> span_upto p n (a ++ b) = (a, b).
Proof.
  revert a. induction n as [|n IH]; intros [|c a] Hl Hp; try discriminate; [reflexivity|].
  cbn in Hl, Hp. apply andb_true_iff in Hp as [H1 H2]. cbn [app span_upto]. rewrite H1, IH by (auto; lia). reflexivity.
Qed.

Lemma take_exact_some p n l a b : take_exact p n l = Some (a, b) -> l = a ++ b /\ length a = n /\ forallb p a = true.
Proof.
  unfold take_exact. pose proof (span_upto_app p n l) as H. pose proof (span_upto_all p n l) as Ha.
  destruct (span_upto p n l) as [x y]. destruct (Nat.eqb_spec (length x) n); [|discriminate].
  intros [= <- <-]. cbn in *. auto.
Qed.
Lemma take_exact_pref p n a b : length a = n -> forallb p a = true -> take_exact p n (a ++ b) = Some (a, b).
Proof. intros Hl Hp. unfold take_exact. now rewrite span_upto_pref, Hl, Nat.eqb_refl. Qed.
Lemma take_exact_none p n l : take_exact p n l = None -> forall a b, l = a ++ b -> length a = n -> forallb p a = false.
Proof.
  intros H a b -> Hl. destruct (forallb p a) eqn:E; [|reflexivity].
  rewrite take_exact_pref in H by assumption. discriminate.
Qed.

Lemma lex_named_some r t r' : lex_named r = Some (t, r') -> r = t ++ r' /\ exists r1, r = 123 :: r1.
Proof.
  unfold lex_named. destruct r as [|c r1]; [discriminate|].
  destruct (N.eqb_spec c 123) as [->|]; [|discriminate].
  pose proof (span_all_app is_namech r1) as H. destruct (span_all is_namech r1) as [nm r2].
  destruct r2 as [|d r3]; [discriminate|]. destruct (N.eqb_spec d 125) as [->|]; [|discriminate].
  intros [= <- <-]. cbn in *. rewrite <- H, <- app_assoc. eauto.
Qed.

(* the token of the x, u and U escapes: exactly n hexadecimal digits, or the two characters alone *)
Definition hex_tok (c : N) (n : nat) (r : list N) : list N * list N :=
  match take_exact is_hexd n r with Some (h, r') => (92 :: c :: h, r') | None => ([92; c], r) end.

Lemma hex_tok_app c n r : exists t, fst (hex_tok c n r) = 92 :: t /\ t ++ snd (hex_tok c n r) = c :: r.
Proof.
  unfold hex_tok. destruct (take_exact is_hexd n r) as [[h r']|] eqn:E.
  - apply take_exact_some in E as (-> & _). now exists (c :: h).
  - now exists [c].
Qed.

Lemma lx_oct e r : is_octd e = true ->
  lex_escape (e :: r) = (92 :: e :: fst (span_upto is_octd 2 r), snd (span_upto is_octd 2 r)).
Proof. intros H. unfold lex_escape. rewrite H. now destruct (span_upto is_octd 2 r). Qed.
Lemma lx_x r : lex_escape (120 :: r) = hex_tok 120 2 r.
Proof. reflexivity. Qed.
Lemma lx_u r : lex_escape (117 :: r) = hex_tok 117 4 r.
Proof. reflexivity. Qed.
Lemma lx_U r : lex_escape (85 :: r) = hex_tok 85 8 r.
Proof. reflexivity. Qed.
Lemma lx_N r : lex_escape (78 :: r) =
  match lex_named r with Some (t, r') => (92 :: 78 :: t, r') | None => ([92; 78], r) end.
Proof. reflexivity. Qed.
Lemma lx_unknown e r : is_octd e = false -> is_esc2 e = false -> lex_escape (e :: r) = ([92], e :: r).
Proof.
  intros H0 H5. unfold lex_escape. rewrite H0, H5.
  unfold is_esc2 in H5. cbn [existsb] in H5.
  destruct (N.eqb_spec e 78); [subst; discriminate|]. destruct (N.eqb_spec e 117); [subst; discriminate|].
  destruct (N.eqb_spec e 120); [subst; discriminate|]. destruct (N.eqb_spec e 85); [subst; discriminate|].
  reflexivity.
Qed.

Lemma lex_escape_app r : exists t, fst (lex_escape r) = 92 :: t /\ t ++ snd (lex_escape r) = r.
Proof.
  destruct r as [|c r]; [now exists []|].
  destruct (is_octd c) eqn:Ho.
  { rewrite lx_oct by exact Ho. exists (c :: fst (span_upto is_octd 2 r)). cbn [fst snd app]. now rewrite span_upto_app. }
  unfold lex_escape. rewrite Ho.
  destruct (N.eqb_spec c 78) as [->|_].
  { destruct (lex_named r) as [[t r']|] eqn:E; [|now exists [78]].
    apply lex_named_some in E as (-> & _). now exists (78 :: t). }
  destruct (N.eqb_spec c 117) as [->|_]; [exact (hex_tok_app 117 4 r)|].
  destruct (N.eqb_spec c 120) as [->|_]; [exact (hex_tok_app 120 2 r)|].
  destruct (N.eqb_spec c 85) as [->|_]; [exact (hex_tok_app 85 8 r)|].
  destruct (is_esc2 c); [now exists [c]|now exists []].
Qed.

Lemma lex_escape_len r : (length (snd (lex_escape r)) <= length r)%nat.
Proof. destruct (lex_escape_app r) as (t & _ & E). rewrite <- E at 2. rewrite app_length. lia. Qed.

(* named escapes are excluded: has_named finds a backslash, N, left brace in a row anywhere in the body *)
Fixpoint has_named (l : list N) : bool :=
  match l with
  | a :: r => (match r with b :: c :: _ => (a =? 92) && (b =? 78) && (c =? 123) | _ => false end) || has_named r
  | [] => false
  end.
Lemma has_named_tl a r : has_named (a :: r) = false -> has_named r = false.
Proof. cbn [has_named]. intros H. apply orb_false_iff in H. tauto. Qed.
Lemma has_named_skip l r : has_named (l ++ r) = false -> has_named r = false.
Proof. induction l as [|a l IH]; [auto|]. intros H. apply IH. eapply has_named_tl. exact H. Qed.

Lemma has_named_rest r : has_named (92 :: r) = false -> has_named (snd (lex_escape r)) = false.
Proof.
  intros H. destruct (lex_escape_app r) as (t & _ & E). rewrite <- E in H. exact (has_named_skip (92 :: t) _ H).
Qed.

Lemma lex_named_none r : has_named (92 :: 78 :: r) = false -> lex_named r = None.
Proof.
  intros H. destruct (lex_named r) as [[t r']|] eqn:E; [|reflexivity].
  apply lex_named_some in E as (_ & r1 & ->). discriminate.
Qed.

(* errors are sticky: once an error is recorded, or (bytes) a non-ASCII character was seen, the result is DError *)
Definition doomed (k : kind) (s : bstate) : bool :=
  st_err s || (match k with KBytes => st_nonascii s | _ => false end).

Lemma finish_doomed k s : doomed k s = true -> finish k s = DError.
Proof.
  unfold doomed, finish. destruct k; intros H.
  - rewrite orb_false_r in H. now rewrite H.
  - rewrite orb_false_r in H. now rewrite H.
  - rewrite orb_comm in H. now rewrite H.
  - rewrite orb_false_r in H. now rewrite H.
Qed.

Lemma do_action_flags fx k a s s' : do_action fx k a s = SNext s' ->
  st_nonascii s' = st_nonascii s /\ (st_err s' = st_err s \/ st_err s' = true).
Proof.
  destruct a; cbn [do_action]; try discriminate; try (intros [= <-]; cbn; auto).
  destruct k; try (intros [= <-]; cbn; auto);
    (destruct ((n <? 256) || fx); [intros [= <-]; cbn; auto|discriminate]).
Qed.

Lemma do_action_doomed fx k a s s' : doomed k s = true -> do_action fx k a s = SNext s' -> doomed k s' = true.
Proof.
  unfold doomed. intros H E. destruct (do_action_flags _ _ _ _ _ E) as [-> [-> | ->]]; [exact H|reflexivity].
Qed.

Definition sval (t : bool) (s : bstate) : list N := if t then st_u s else st_b s.

(* s' is s with the values w appended to the visible accumulator, flags unchanged *)
Definition good (t : bool) (s s' : bstate) (w : list N) : Prop :=
  sval t s' = rev_append w (sval t s) /\ st_err s' = st_err s /\ (t = false -> st_nonascii s' = st_nonascii s).

Definition papp (w : list N) (r : pyres) : pyres := fold_right pcons r w.

Lemma papp_value w v : papp w (PyValue v) = PyValue (w ++ v).
Proof. induction w as [|a w IH]; cbn; [reflexivity|]. unfold papp in IH. now rewrite IH. Qed.
Lemma papp_other w r : (forall v, r <> PyValue v) -> papp w r = r.
Proof. intros H. induction w as [|a w IH]; cbn; [reflexivity|]. unfold papp in IH. rewrite IH. destruct r; try reflexivity. now destruct (H v). Qed.

Lemma rev_append_app {A} (w v a : list A) : rev_append (w ++ v) a = rev_append v (rev_append w a).
Proof. rewrite !rev_append_rev, rev_app_distr, app_assoc. reflexivity. Qed.

Lemma good_refl t s : good t s s [].
Proof. unfold good. cbn. auto. Qed.
Lemma good_trans t s s1 s2 w v : good t s s1 w -> good t s1 s2 v -> good t s s2 (w ++ v).
Proof.
  unfold good. intros (A & B & C) (A' & B' & C'). repeat split.
  - rewrite rev_append_app, <- A. exact A'.
  - congruence.
  - intros Ht. rewrite C', C; auto.
Qed.

Definition push_val (k : kind) (n : N) (s : bstate) : bstate :=
  match k with
  | KUni => {| st_err := st_err s; st_nonascii := st_nonascii s; st_b := st_b s; st_u := n :: st_u s |}
  | _ => {| st_err := st_err s; st_nonascii := st_nonascii s; st_b := (n mod 256) :: st_b s; st_u := n :: st_u s |}
  end.
Definition set_err (s : bstate) : bstate :=
  {| st_err := true; st_nonascii := st_nonascii s; st_b := st_b s; st_u := st_u s |}.

Lemma act_val k n s : do_action true k (ACharval n) s = SNext (push_val k n s).
Proof. unfold do_action, push_val. destruct k; try reflexivity; now rewrite orb_true_r. Qed.
Lemma act_err k s : do_action true k AError s = SNext (set_err s).
Proof. reflexivity. Qed.

Lemma ascii_enc cs : forallb (fun c => c <? 128) cs = true -> flat_map enc_char cs = cs.
Proof.
  induction cs as [|c cs IH]; [reflexivity|]. cbn [forallb flat_map]. intros H.
  apply andb_true_iff in H as [H1 H2]. rewrite IH by exact H2. unfold enc_char. now rewrite H1.
Qed.

Lemma good_val k n s : (kind_is_text k = false -> n < 256) ->
  good (kind_is_text k) s (push_val k n s) [n].
Proof.
  intros H. unfold good, push_val, sval. destruct k; cbn in *; repeat split; auto;
    rewrite N.mod_small by auto; reflexivity.
Qed.
Lemma good_val' k n s :
  good (kind_is_text k) s (push_val k n s) [if kind_is_text k then n else n mod 256].
Proof. unfold good, push_val, sval. destruct k; cbn; repeat split; auto. Qed.

Lemma good_plain t c s : negb t && (128 <=? c) = false ->
  good t s {| st_err := st_err s; st_nonascii := st_nonascii s || (128 <=? c);
              st_b := b_append [c] (st_b s); st_u := c :: st_u s |} [c].
Proof.
  intros H. unfold good, sval. destruct t; cbn [negb andb st_err st_nonascii st_b st_u] in *; repeat split; try discriminate.
  - unfold b_append. rewrite ascii_enc; [reflexivity|]. cbn [forallb]. lia.
  - intros _. rewrite H. apply orb_false_r.
Qed.

Lemma doomed_set_err k s : doomed k (set_err s) = true.
Proof. reflexivity. Qed.

Lemma py_lit_nonascii t c r : negb t && (128 <=? c) = true -> py_lit t (c :: r) = PyReject.
Proof. intros H. cbn [py_lit]. now rewrite H. Qed.
Lemma py_lit_plain t c r : negb t && (128 <=? c) = false -> c <> 92 -> py_lit t (c :: r) = pcons c (py_lit t r).
Proof. intros H Hc. cbn [py_lit]. rewrite H. destruct (N.eqb_spec c 92); [contradiction|reflexivity]. Qed.
Lemma py_lit_run t h r : Forall (fun c => c < 128 /\ c <> 92) h -> py_lit t (h ++ r) = papp h (py_lit t r).
Proof.
  induction 1 as [|c h [H1 H2] _ IH]; [reflexivity|]. cbn [app papp fold_right].
  rewrite py_lit_plain; [|destruct t; cbn; lia|exact H2]. now rewrite IH.
Qed.

Definition esc_body (t : bool) (e : N) (r r1 : list N) : pyres :=
      if e =? 10 then py_lit t r1 else
      match simple_escape e with
      | Some v => pcons v (py_lit t r1)
      | None =>
        if is_octd e then
          match r1 with
          | d2 :: r2 =>
            if is_octd d2 then
              match r2 with
              | d3 :: r3 =>
                if is_octd d3 then
                  let v := 64 * (e - 48) + 8 * (d2 - 48) + (d3 - 48) in
                  pcons (if t then v else v mod 256) (py_lit t r3)
                else pcons (8 * (e - 48) + (d2 - 48)) (py_lit t r2)
              | [] => pcons (8 * (e - 48) + (d2 - 48)) (py_lit t r2)
              end
            else pcons (e - 48) (py_lit t r1)
          | [] => pcons (e - 48) (py_lit t r1)
          end
        else if e =? 120 then
          match r1 with
          | h1 :: h2 :: r2 =>
            if is_hexd h1 && is_hexd h2 then pcons (hex2 h1 h2) (py_lit t r2) else PyReject
          | _ => PyReject
          end
        else if t && (e =? 117) then
          match r1 with
          | h1 :: h2 :: h3 :: h4 :: r2 =>
            if is_hexd h1 && is_hexd h2 && is_hexd h3 && is_hexd h4
            then pcons (hex4 h1 h2 h3 h4) (py_lit t r2) else PyReject
          | _ => PyReject
          end
        else if t && (e =? 85) then
          match r1 with
          | h1 :: h2 :: h3 :: h4 :: h5 :: h6 :: h7 :: h8 :: r2 =>
            if is_hexd h1 && is_hexd h2 && is_hexd h3 && is_hexd h4
               && is_hexd h5 && is_hexd h6 && is_hexd h7 && is_hexd h8
            then let v := 65536 * hex4 h1 h2 h3 h4 + hex4 h5 h6 h7 h8 in
                 if v <? 1114112 then pcons v (py_lit t r2) else PyReject
            else PyReject
          | _ => PyReject
          end
        else if t && (e =? 78) then
          match r1 with
          | b :: r2 => if (b =? 123) && has_rbrace r2 then PyNamed else PyReject
          | [] => PyReject
          end
        else pcons 92 (py_lit t r)
      end.

Lemma py_lit_esc t e r1 : py_lit t (92 :: e :: r1) = esc_body t e (e :: r1) r1.
Proof.
  cbn [py_lit]. change (128 <=? 92) with false. rewrite andb_false_r.
  change (92 =? 92) with true. cbv [negb]. reflexivity.
Qed.

Lemma py_lit_simple t e v r1 : simple_escape e = Some v -> py_lit t (92 :: e :: r1) = pcons v (py_lit t r1).
Proof.
  intros H. rewrite py_lit_esc. unfold esc_body. rewrite H.
  destruct (N.eqb_spec e 10) as [->|_]; [discriminate|reflexivity].
Qed.

Lemma of_base8_1 e : is_octd e = true -> of_base 8 [e] = e - 48.
Proof. intros H. destruct (hexv_oct _ H). unfold of_base. cbn [fold_left]. lia. Qed.
Lemma of_base8_2 e d : is_octd e = true -> is_octd d = true -> of_base 8 [e; d] = 8 * (e - 48) + (d - 48).
Proof. intros H1 H2. destruct (hexv_oct _ H1), (hexv_oct _ H2). unfold of_base. cbn [fold_left]. lia. Qed.
Lemma of_base8_3 e d c : is_octd e = true -> is_octd d = true -> is_octd c = true ->
  of_base 8 [e; d; c] = 64 * (e - 48) + 8 * (d - 48) + (c - 48).
Proof.
  intros H1 H2 H3. destruct (hexv_oct _ H1), (hexv_oct _ H2), (hexv_oct _ H3). unfold of_base. cbn [fold_left]. lia.
Qed.

Lemma py_lit_oct t e r1 : is_octd e = true ->
  py_lit t (92 :: e :: r1) =
  pcons (let v := of_base 8 (e :: fst (span_upto is_octd 2 r1)) in if t then v else v mod 256)
        (py_lit t (snd (span_upto is_octd 2 r1))).
Proof.
  intros Ho. destruct (oct_not_special e Ho) as (_ & Hnl & _ & _ & _ & _ & Hs). destruct (hexv_oct _ Ho) as [_ Be].
  rewrite py_lit_esc. unfold esc_body. rewrite Hs, Ho. destruct (N.eqb_spec e 10); [contradiction|].
  assert (Hsmall : forall v w X, v = w -> w < 256 -> pcons w X = pcons (let v := v in if t then v else v mod 256) X).
  { intros v w X -> B. cbv zeta. destruct t; [reflexivity|]. now rewrite N.mod_small. }
  destruct r1 as [|d2 r2]; cbn [span_upto fst snd]; [apply Hsmall; [now apply of_base8_1|lia]|].
  destruct (is_octd d2) eqn:Ho2; cbn [fst snd]; [|apply Hsmall; [now apply of_base8_1|lia]].
  destruct (hexv_oct _ Ho2) as [_ B2].
  destruct r2 as [|d3 r3]; cbn [fst snd]; [apply Hsmall; [now apply of_base8_2|lia]|].
  destruct (is_octd d3) eqn:Ho3; cbn [fst snd]; [|apply Hsmall; [now apply of_base8_2|lia]].
  cbv zeta. now rewrite of_base8_3.
Qed.

Lemma of_base16_2 a b : of_base 16 [a; b] = hex2 a b.
Proof. unfold of_base, hex2. cbn [fold_left]. lia. Qed.
Lemma of_base16_4 a b c d : of_base 16 [a; b; c; d] = hex4 a b c d.
Proof. unfold of_base, hex4, hex2. cbn [fold_left]. lia. Qed.
Lemma of_base16_8 a b c d e f g h : of_base 16 [a; b; c; d; e; f; g; h] = 65536 * hex4 a b c d + hex4 e f g h.
Proof. unfold of_base, hex4, hex2. cbn [fold_left]. lia. Qed.

Lemma py_lit_x t r1 : py_lit t (92 :: 120 :: r1) =
  match take_exact is_hexd 2 r1 with Some (h, r') => pcons (of_base 16 h) (py_lit t r') | None => PyReject end.
Proof.
  rewrite py_lit_esc. unfold esc_body. cbn [N.eqb Pos.eqb simple_escape is_octd N.leb N.compare Pos.compare Pos.compare_cont andb].
  destruct (take_exact is_hexd 2 r1) as [[h r']|] eqn:E.
  - apply take_exact_some in E as (-> & Hl & Hp). destruct h as [|h1 [|h2 [|]]]; try discriminate.
    cbn [forallb] in Hp. rewrite andb_true_r in Hp. cbn [app]. now rewrite Hp, of_base16_2.
  - destruct r1 as [|h1 [|h2 r2]]; try reflexivity.
    pose proof (take_exact_none _ _ _ E [h1; h2] r2 eq_refl eq_refl) as Hf.
    cbn [forallb] in Hf. rewrite andb_true_r in Hf. now rewrite Hf.
Qed.
Lemma py_text_u r1 : py_lit true (92 :: 117 :: r1) =
  match take_exact is_hexd 4 r1 with Some (h, r') => pcons (of_base 16 h) (py_lit true r') | None => PyReject end.
Proof.
  rewrite py_lit_esc. unfold esc_body. cbn [N.eqb Pos.eqb simple_escape is_octd N.leb N.compare Pos.compare Pos.compare_cont andb].
  destruct (take_exact is_hexd 4 r1) as [[h r']|] eqn:E.
  - apply take_exact_some in E as (-> & Hl & Hp). destruct h as [|h1 [|h2 [|h3 [|h4 [|]]]]]; try discriminate.
    cbn [forallb] in Hp. rewrite andb_true_r, !andb_assoc in Hp. cbn [app]. now rewrite Hp, of_base16_4.
  - destruct r1 as [|h1 [|h2 [|h3 [|h4 r2]]]]; try reflexivity.
    pose proof (take_exact_none _ _ _ E [h1; h2; h3; h4] r2 eq_refl eq_refl) as Hf.
    cbn [forallb] in Hf. rewrite andb_true_r, !andb_assoc in Hf. now rewrite Hf.
Qed.
Lemma py_text_U r1 : py_lit true (92 :: 85 :: r1) =
  match take_exact is_hexd 8 r1 with
  | Some (h, r') => if of_base 16 h <? 1114112 then pcons (of_base 16 h) (py_lit true r') else PyReject
  | None => PyReject
  end.
Proof.
  rewrite py_lit_esc. unfold esc_body. cbn [N.eqb Pos.eqb simple_escape is_octd N.leb N.compare Pos.compare Pos.compare_cont andb].
  destruct (take_exact is_hexd 8 r1) as [[h r']|] eqn:E.
  - apply take_exact_some in E as (-> & Hl & Hp).
    destruct h as [|h1 [|h2 [|h3 [|h4 [|h5 [|h6 [|h7 [|h8 [|]]]]]]]]]; try discriminate.
    cbn [forallb] in Hp. rewrite andb_true_r, !andb_assoc in Hp. cbn [app]. now rewrite Hp, of_base16_8.
  - destruct r1 as [|h1 [|h2 [|h3 [|h4 [|h5 [|h6 [|h7 [|h8 r2]]]]]]]]; try reflexivity.
    pose proof (take_exact_none _ _ _ E [h1; h2; h3; h4; h5; h6; h7; h8] r2 eq_refl eq_refl) as Hf.
    cbn [forallb] in Hf. rewrite andb_true_r, !andb_assoc in Hf. now rewrite Hf.
Qed.

(* N in a text literal, without a left brace after it *)
Lemma py_text_N r1 : has_named (92 :: 78 :: r1) = false -> py_lit true (92 :: 78 :: r1) = PyReject.
Proof.
  intros Hn. rewrite py_lit_esc. destruct r1 as [|b r2]; [reflexivity|].
  destruct (N.eqb_spec b 123) as [->|Hb]; [discriminate Hn|]. cbn. now destruct (N.eqb_spec b 123).
Qed.

(* a backslash that starts no escape of the literal's kind stands for itself *)
Definition is_uUN (e : N) : bool := (e =? 117) || (e =? 85) || (e =? 78).
Lemma py_lit_verbatim t e r1 : e <> 10 -> simple_escape e = None -> is_octd e = false -> e <> 120 ->
  (t = true -> is_uUN e = false) -> py_lit t (92 :: e :: r1) = pcons 92 (py_lit t (e :: r1)).
Proof.
  intros Hnl Hse Ho Hx Ht. rewrite py_lit_esc. unfold esc_body. rewrite Hse, Ho.
  destruct (N.eqb_spec e 10); [contradiction|]. destruct (N.eqb_spec e 120); [contradiction|].
  destruct t; [|reflexivity]. specialize (Ht eq_refl). unfold is_uUN in Ht.
  rewrite !orb_false_iff in Ht. destruct Ht as [[-> ->] ->]. reflexivity.
Qed.

Lemma simple_tok e v r k : simple_escape e = Some v ->
  lex_escape (e :: r) = ([92; e], r) /\ append_escape_sequence k [92; e] = AChars [v] /\ v <? 128 = true.
Proof.
  unfold simple_escape.
  repeat match goal with |- context [if e =? ?b then _ else _] =>
    destruct (N.eqb_spec e b) as [->|_]; [intros [= <-]; now repeat split|] end.
  discriminate.
Qed.
Lemma simple_none e : simple_escape e = None ->
  e <> 92 /\ e <> 39 /\ e <> 34 /\ e <> 97 /\ e <> 98 /\ e <> 102 /\ e <> 110 /\ e <> 114 /\ e <> 116 /\ e <> 118.
Proof.
  unfold simple_escape.
  repeat match goal with |- context [if ?a =? ?b then _ else _] => destruct (N.eqb_spec a b); [discriminate|] end.
  intros _. repeat split; assumption.
Qed.

Lemma aes_oct k e ds : is_octd e = true -> append_escape_sequence k (92 :: e :: ds) = ACharval (of_base 8 (e :: ds)).
Proof. intros H. cbn [append_escape_sequence]. now rewrite H. Qed.
Lemma aes_x k h : length h = 2%nat -> append_escape_sequence k (92 :: 120 :: h) = ACharval (of_base 16 h).
Proof. destruct h as [|h1 [|h2 [|]]]; try discriminate. reflexivity. Qed.
Lemma aes_x_bad k : append_escape_sequence k [92; 120] = AError.
Proof. reflexivity. Qed.
Lemma aes_uU k e h : kind_is_text k = true -> (e = 117 /\ length h = 4%nat) \/ (e = 85 /\ length h = 8%nat) ->
  append_escape_sequence k (92 :: e :: h) =
  if 1114111 <? of_base 16 h then AFatal else AUescape (of_base 16 h) (92 :: e :: h).
Proof. intros Hk [[-> Hl]|[-> Hl]]; cbn; now rewrite Hk, Hl. Qed.
Lemma aes_two_text k c : kind_is_text k = true -> c = 78 \/ c = 117 \/ c = 85 ->
  append_escape_sequence k [92; c] = AError.
Proof. intros Hk [->|[->| ->]]; cbn; rewrite Hk; reflexivity. Qed.
Lemma aes_verbatim_bytes k c rest : kind_is_text k = false -> c = 78 \/ c = 117 \/ c = 85 ->
  append_escape_sequence k (92 :: c :: rest) = AChars (92 :: c :: rest).
Proof. intros Hk [->|[->| ->]]; cbn; rewrite Hk; reflexivity. Qed.

(* in a bytes literal u, U and N are not escapes: the token stays as it is, and is made of plain characters *)
Lemma hexd_plain c : is_hexd c = true -> c < 128 /\ c <> 92.
Proof. unfold is_hexd. lia. Qed.
Lemma lex_uUN_bytes e r1 : is_uUN e = true -> has_named (92 :: e :: r1) = false ->
  exists h r', lex_escape (e :: r1) = (92 :: e :: h, r') /\ r1 = h ++ r' /\ Forall (fun c => c < 128 /\ c <> 92) (e :: h).
Proof.
  unfold is_uUN. intros He Hn.
  assert (Hx : forall n, exists h r', hex_tok e n r1 = (92 :: e :: h, r') /\ r1 = h ++ r'
                                      /\ Forall (fun c => c < 128 /\ c <> 92) (e :: h)).
  { intros n. unfold hex_tok. destruct (take_exact is_hexd n r1) as [[h r']|] eqn:E.
    - apply take_exact_some in E as (-> & _ & Hp). exists h, r'. repeat split. constructor; [lia|].
      rewrite forallb_forall in Hp. apply Forall_forall. intros x Hx. now apply hexd_plain, Hp.
    - exists [], r1. repeat split. constructor; [lia|constructor]. }
  destruct (N.eqb_spec e 117) as [->|]; [apply (Hx 4%nat)|].
  destruct (N.eqb_spec e 85) as [->|]; [apply (Hx 8%nat)|].
  assert (e = 78) as -> by lia. rewrite lx_N, (lex_named_none _ Hn).
  exists [], r1. repeat split. constructor; [lia|constructor].
Qed.

(* lit: what the language makes of the body from the backslash on; rest: the text after the token; a: the builder action *)
Definition agree (k : kind) (t : bool) (lit : pyres) (rest : list N) (a : action) : Prop :=
  (exists w, lit = papp w (py_lit t rest)
             /\ forall s, exists s1, do_action true k a s = SNext s1 /\ good t s s1 w)
  \/ (lit = PyReject /\ (a = AError \/ a = AFatal)).

Lemma agree_nothing k t rest : agree k t (py_lit t rest) rest ANothing.
Proof. left. exists []. split; [reflexivity|]. intros s. exists s. split; [reflexivity|apply good_refl]. Qed.
Lemma agree_chars k t cs rest : (t = false -> forallb (fun c => c <? 128) cs = true) ->
  agree k t (papp cs (py_lit t rest)) rest (AChars cs).
Proof.
  intros H. left. exists cs. split; [reflexivity|]. intros s. eexists. split; [reflexivity|].
  unfold good, sval. cbn. destruct t; repeat split; auto. unfold b_append. now rewrite ascii_enc by auto.
Qed.
Lemma agree_val k n rest : (kind_is_text k = false -> n < 256) ->
  agree k (kind_is_text k) (pcons n (py_lit (kind_is_text k) rest)) rest (ACharval n).
Proof. intros H. left. exists [n]. split; [reflexivity|]. intros s. eexists. split; [apply act_val|now apply good_val]. Qed.
Lemma agree_val' k n rest :
  agree k (kind_is_text k) (pcons (if kind_is_text k then n else n mod 256) (py_lit (kind_is_text k) rest)) rest (ACharval n).
Proof. left. eexists [_]. split; [reflexivity|]. intros s. eexists. split; [apply act_val|apply good_val']. Qed.
Lemma agree_uesc k n txt rest : agree k true (pcons n (py_lit true rest)) rest (AUescape n txt).
Proof.
  left. exists [n]. split; [reflexivity|]. intros s. eexists. split; [reflexivity|].
  unfold good, sval. cbn. repeat split; auto; discriminate.
Qed.
Lemma agree_err k t rest a : a = AError \/ a = AFatal -> agree k t PyReject rest a.
Proof. intros H. right. now split. Qed.

Lemma esc_agree k e r1 : has_named (92 :: e :: r1) = false ->
  agree k (kind_is_text k) (py_lit (kind_is_text k) (92 :: e :: r1)) (snd (lex_escape (e :: r1)))
        (append_escape_sequence k (fst (lex_escape (e :: r1)))).
Proof.
  intros Hn.
  (* line continuation *)
  destruct (N.eqb_spec e 10) as [->|Hnl]; [rewrite py_lit_esc; exact (agree_nothing k _ r1)|].
  (* one-character escapes *)
  destruct (simple_escape e) as [v|] eqn:Hse.
  { destruct (simple_tok e v r1 k Hse) as (El & Ea & Hv). rewrite El. cbn [fst snd]. rewrite Ea, (py_lit_simple _ _ _ _ Hse).
    apply (agree_chars k _ [v]). intros _. cbn. now rewrite Hv. }
  (* octal *)
  destruct (is_octd e) eqn:Ho.
  { rewrite lx_oct, py_lit_oct by exact Ho. cbn [fst snd]. rewrite aes_oct by exact Ho. apply agree_val'. }
  (* x *)
  destruct (N.eqb_spec e 120) as [->|Hx].
  { rewrite lx_x, py_lit_x. unfold hex_tok. destruct (take_exact is_hexd 2 r1) as [[h r']|] eqn:E; cbn [fst snd].
    - apply take_exact_some in E as (_ & Hl & Hp). rewrite aes_x by exact Hl. apply agree_val. intros _.
      pose proof (of_base16_lt h Hp) as B. now rewrite Hl in B.
    - apply agree_err. left. apply aes_x_bad. }
  destruct (is_uUN e) eqn:EuUN.
  { destruct (kind_is_text k) eqn:Ht.
    - (* text kinds: u, U, N *)
      destruct (N.eqb_spec e 117) as [->|Hu].
      { rewrite lx_u, py_text_u. unfold hex_tok. destruct (take_exact is_hexd 4 r1) as [[h r']|] eqn:E; cbn [fst snd].
        - apply take_exact_some in E as (_ & Hl & Hp). rewrite aes_uU by auto.
          pose proof (of_base16_lt h Hp) as B. rewrite Hl in B. change (16 ^ N.of_nat 4) with 65536 in B.
          replace (1114111 <? of_base 16 h) with false by (clear - B; lia). apply agree_uesc.
        - apply agree_err. left. apply aes_two_text; auto. }
      destruct (N.eqb_spec e 85) as [->|HU].
      { rewrite lx_U, py_text_U. unfold hex_tok. destruct (take_exact is_hexd 8 r1) as [[h r']|] eqn:E; cbn [fst snd].
        - apply take_exact_some in E as (_ & Hl & _). rewrite aes_uU by auto.
          (* the builder tests 1114111 < v, the language v < 1114112 *)
          replace (1114111 <? of_base 16 h) with (negb (of_base 16 h <? 1114112)) by (clear; lia).
          destruct (of_base 16 h <? 1114112); cbn [negb]; [apply agree_uesc|apply agree_err; now right].
        - apply agree_err. left. apply aes_two_text; auto. }
      assert (e = 78) as -> by (unfold is_uUN in EuUN; lia).
      rewrite lx_N, (lex_named_none _ Hn), (py_text_N _ Hn). apply agree_err. left. apply aes_two_text; auto.
    - (* bytes: the token stays as it is *)
      destruct (lex_uUN_bytes e r1 EuUN Hn) as (h & r' & -> & -> & Hp). cbn [fst snd].
      rewrite aes_verbatim_bytes by (auto; unfold is_uUN in EuUN; lia).
      rewrite py_lit_verbatim, app_comm_cons, (py_lit_run _ _ _ Hp) by (auto; discriminate).
      apply (agree_chars k false (92 :: e :: h)). intros _. apply forallb_forall. intros x [<-|Hin]; [reflexivity|].
      rewrite Forall_forall in Hp. destruct (Hp x Hin). lia. }
  (* unknown escape: the backslash stays and the character after it is read again *)
  rewrite lx_unknown; [| exact Ho |].
  2:{ pose proof (simple_none _ Hse). unfold is_uUN in EuUN. unfold is_esc2. cbn [existsb]. lia. }
  rewrite py_lit_verbatim by auto. now apply (agree_chars k _ [92]).
Qed.

Lemma dec_doomed : forall n k body s,
  (length body < n)%nat -> has_named body = false -> doomed k s = true ->
  dec n true k false body s = DError.
Proof.
  induction n as [|f IH]; intros k body s Hlen Hn Hd; [lia|].
  destruct body as [|c r]; [now apply finish_doomed|].
  destruct (N.eq_dec c 92) as [->|Hc].
  - pose proof (lex_escape_len r). pose proof (has_named_rest r Hn). cbn [length] in Hlen.
    rewrite dec_esc. cbv iota. destruct r as [|e r1]; [apply IH; auto; lia|].
    destruct (esc_agree k e r1 Hn) as [(w & _ & Hs)|(_ & [-> | ->])]; [|apply IH; auto; lia|reflexivity].
    destruct (Hs s) as (s1 & Ea & _). rewrite Ea. apply IH; [lia|auto|]. eapply do_action_doomed; eauto.
  - rewrite dec_plain by exact Hc. apply IH; [cbn in Hlen; lia|eapply has_named_tl; eauto|].
    unfold doomed in *. cbn [st_err st_nonascii]. destruct (st_err s); [reflexivity|].
    destruct k; cbn in *; try discriminate. now rewrite Hd.
Qed.

Definition concl (n : nat) (k : kind) (body : list N) (s : bstate) : Prop :=
  match py_lit (kind_is_text k) body with
  | PyValue v => exists s', dec n true k false body s = finish k s' /\ good (kind_is_text k) s s' v
  | PyReject => dec n true k false body s = DError
  | _ => True
  end.

Lemma step_ok k f body rest s s1 w :
  dec (S f) true k false body s = dec f true k false rest s1 ->
  good (kind_is_text k) s s1 w ->
  py_lit (kind_is_text k) body = papp w (py_lit (kind_is_text k) rest) ->
  concl f k rest s1 -> concl (S f) k body s.
Proof.
  unfold concl. intros Hd Hg Hp. rewrite Hp, Hd.
  destruct (py_lit (kind_is_text k) rest) as [v| | |]; [|rewrite papp_other by discriminate; auto ..].
  rewrite papp_value. intros (s' & E & G). exists s'. split; [exact E|]. eapply good_trans; eauto.
Qed.

Lemma step_err k f body rest s s1 :
  dec (S f) true k false body s = dec f true k false rest s1 ->
  doomed k s1 = true -> (length rest < f)%nat -> has_named rest = false ->
  py_lit (kind_is_text k) body = PyReject ->
  concl (S f) k body s.
Proof.
  unfold concl. intros Hd Hdo Hl Hn ->. rewrite Hd. now apply dec_doomed.
Qed.

Lemma dec_main : forall n k body s, k <> KChar ->
  (length body < n)%nat -> has_named body = false -> concl n k body s.
Proof.
  induction n as [|f IH]; intros k body s Hk Hlen Hn; [lia|].
  destruct body as [|c r].
  { unfold concl. cbn [py_lit]. exists s. split; [apply dec_nil | apply good_refl]. }
  assert (Hr : has_named r = false) by (eapply has_named_tl; eauto).
  cbn [length] in Hlen.
  destruct (N.eq_dec c 92) as [->|Hc].
  - destruct r as [|e r1].
    { unfold concl. cbn [py_lit]. change (128 <=? 92) with false. now rewrite andb_false_r. }
    pose proof (lex_escape_len (e :: r1)). pose proof (has_named_rest _ Hn).
    destruct (esc_agree k e r1 Hn) as [(w & Hp & Hs)|(Hp & [Ea|Ea])].
    + destruct (Hs s) as (s1 & Ea & G).
      eapply step_ok; [rewrite dec_esc, Ea; reflexivity|exact G|exact Hp|apply IH; auto; lia].
    + eapply step_err with (s1 := set_err s); [now rewrite dec_esc, Ea, act_err|reflexivity|lia|auto|exact Hp].
    + unfold concl. now rewrite Hp, dec_esc, Ea.
  - destruct (negb (kind_is_text k) && (128 <=? c)) eqn:Ena.
    + eapply step_err; [now apply dec_plain| |lia|exact Hr|now apply py_lit_nonascii].
      destruct k; try discriminate; [|contradiction]. unfold doomed. cbn in *. rewrite Ena. now rewrite !orb_true_r.
    + eapply step_ok; [now apply dec_plain|now apply good_plain|now apply py_lit_plain|apply IH; auto; lia].
Qed.

Lemma finish_good k s' v : k <> KChar ->
  good (kind_is_text k) st0 s' v -> visible k (finish k s') = Some v /\ exists b u, finish k s' = DOk b u.
Proof.
  unfold good, sval, st0. cbn [st_err st_nonascii st_b st_u]. intros Hk (A & B & C).
  destruct k; cbn in *; try contradiction; rewrite rev_append_rev, app_nil_r in A; rewrite B.
  - cbn. rewrite P_LZSS.rev'_rev, A, rev_involutive. eauto.
  - cbn. rewrite P_LZSS.rev'_rev, A, rev_involutive. eauto.
  - rewrite (C eq_refl). cbn. rewrite P_LZSS.rev'_rev, A, rev_involutive. eauto.
Qed.

Theorem decoder_agrees_fixed : forall k body, k <> KChar -> has_named body = false ->
  match py_value k false body with
  | PyValue v => visible k (decode true k false body) = Some v /\ exists b u, decode true k false body = DOk b u
  | PyReject => decode true k false body = DError
  | _ => True
  end.
Proof.
  intros k body Hk Hn.
  pose proof (dec_main (S (length body)) k body st0 Hk (Nat.lt_succ_diag_r _) Hn) as H.
  unfold concl in H. unfold decode.
  assert (E : py_value k false body = py_lit (kind_is_text k) body) by (destruct k; try reflexivity; contradiction).
  rewrite E. destruct (py_lit (kind_is_text k) body); auto.
  destruct H as (s' & -> & G). now apply finish_good.
Qed.

(* totality: with the octal fix no body (any kind, raw or not) gives an internal error, and the
   fuel len+1 always suffices *)
Lemma do_action_stop k a s d : do_action true k a s = SStop d -> d = DError \/ d = DUnmodelled.
Proof.
  destruct a; cbn [do_action]; try discriminate.
  - destruct k; try discriminate; rewrite orb_true_r; discriminate.
  - intros [= <-]. auto.
  - intros [= <-]. auto.
Qed.
Lemma finish_total k s : finish k s <> DInternal /\ finish k s <> DOutOfFuel.
Proof.
  unfold finish. destruct k;
    repeat match goal with |- context [if ?c then _ else _] => destruct c end; split; discriminate.
Qed.
Lemma dec_total : forall n k raw body s, (length body < n)%nat ->
  dec n true k raw body s <> DInternal /\ dec n true k raw body s <> DOutOfFuel.
Proof.
  induction n as [|f IH]; intros k raw body s Hl; [lia|].
  destruct body as [|c r]; [rewrite dec_nil; apply finish_total|].
  destruct (N.eq_dec c 92) as [->|Hc].
  - rewrite dec_esc.
    destruct (do_action true k _ s) as [s'|d] eqn:E.
    + apply IH. pose proof (lex_escape_len r). cbn in Hl. lia.
    + apply do_action_stop in E as [->| ->]; split; discriminate.
  - rewrite dec_plain by exact Hc. apply IH. cbn in Hl. lia.
Qed.
Theorem decoder_total_fixed : forall k raw body,
  decode true k raw body <> DInternal /\ decode true k raw body <> DOutOfFuel.
Proof. intros. apply dec_total. lia. Qed.

Theorem decoder_total_refuted : exists body, decode false KStr false body = DInternal.
Proof. exists [92; 55; 55; 55]. vm_compute. reflexivity. Qed.
Theorem decoder_total_refuted_bytes : exists body, decode false KBytes false body = DInternal /\ py_value KBytes false body = PyValue [255].
Proof. exists [92; 55; 55; 55]. vm_compute. auto. Qed.

Lemma div_mod_split b x : b <> 0 -> x = b * (x / b) + x mod b /\ x mod b < b.
Proof. intros Hb. split; [apply N.div_mod'|now apply N.mod_lt]. Qed.

Lemma dec_utf8_1 b0 r : b0 < 128 -> decode_utf8 (b0 :: r) = ocons b0 (decode_utf8 r).
Proof. intros H. cbn [decode_utf8]. destruct (N.ltb_spec b0 128); [reflexivity|lia]. Qed.
Lemma dec_utf8_2 q m r : 2 <= q < 32 -> m < 64 ->
  decode_utf8 (192 + q :: 128 + m :: r) = ocons (q * 64 + m) (decode_utf8 r).
Proof.
  intros Hq Hm. cbn [decode_utf8]. destruct (N.ltb_spec (192 + q) 128); [lia|].
  destruct (N.ltb_spec (192 + q) 194); [lia|]. destruct (N.ltb_spec (192 + q) 224); [|lia].
  replace (is_cont (128 + m)) with true by (unfold is_cont; lia). f_equal. lia.
Qed.
Lemma dec_utf8_3 q m1 m2 r : q < 16 -> m1 < 64 -> m2 < 64 -> (q = 0 -> 32 <= m1) -> (q = 13 -> m1 < 32) ->
  decode_utf8 (224 + q :: 128 + m1 :: 128 + m2 :: r) = ocons (q * 4096 + m1 * 64 + m2) (decode_utf8 r).
Proof.
  intros Hq H1 H2 Hlo Hhi. cbn [decode_utf8]. destruct (N.ltb_spec (224 + q) 128); [lia|].
  destruct (N.ltb_spec (224 + q) 194); [lia|]. destruct (N.ltb_spec (224 + q) 224); [lia|].
  destruct (N.ltb_spec (224 + q) 240); [|lia].
  assert (E : ((if 224 + q =? 224 then 160 else 128) <=? 128 + m1) && (128 + m1 <=? (if 224 + q =? 237 then 159 else 191))
              && is_cont (128 + m2) = true).
  { unfold is_cont. destruct (N.eqb_spec (224 + q) 224), (N.eqb_spec (224 + q) 237); lia. }
  rewrite E. f_equal. lia.
Qed.
Lemma dec_utf8_4 q m1 m2 m3 r : q < 5 -> m1 < 64 -> m2 < 64 -> m3 < 64 -> (q = 0 -> 16 <= m1) -> (q = 4 -> m1 < 16) ->
  decode_utf8 (240 + q :: 128 + m1 :: 128 + m2 :: 128 + m3 :: r) =
  ocons (q * 262144 + m1 * 4096 + m2 * 64 + m3) (decode_utf8 r).
Proof.
  intros Hq H1 H2 H3 Hlo Hhi. cbn [decode_utf8]. destruct (N.ltb_spec (240 + q) 128); [lia|].
  destruct (N.ltb_spec (240 + q) 194); [lia|]. destruct (N.ltb_spec (240 + q) 224); [lia|].
  destruct (N.ltb_spec (240 + q) 240); [lia|]. destruct (N.ltb_spec (240 + q) 245); [|lia].
  assert (E : ((if 240 + q =? 240 then 144 else 128) <=? 128 + m1) && (128 + m1 <=? (if 240 + q =? 244 then 143 else 191))
              && is_cont (128 + m2) && is_cont (128 + m3) = true).
  { unfold is_cont. destruct (N.eqb_spec (240 + q) 240), (N.eqb_spec (240 + q) 244); lia. }
  rewrite E. f_equal. lia.
Qed.

Lemma decode_enc_char c r : is_scalar c = true -> decode_utf8 (enc_char c ++ r) = ocons c (decode_utf8 r).
Proof.
  unfold is_scalar, is_surrogate, enc_char. intros Hs.
  (* c in base 64: c = 64 a + m0, a = 64 b + m1, b = 64 d + m2 *)
  destruct (div_mod_split 64 c) as [S0 T0]; [discriminate|].
  destruct (div_mod_split 64 (c / 64)) as [S1 T1]; [discriminate|].
  destruct (div_mod_split 64 (c / 64 / 64)) as [S2 T2]; [discriminate|].
  change 4096 with (64 * 64). change 262144 with (64 * 64 * 64). rewrite <- !N.div_div by discriminate.
  set (a := c / 64) in *. set (b := a / 64) in *. set (d := b / 64) in *.
  set (m0 := c mod 64) in *. set (m1 := a mod 64) in *. set (m2 := b mod 64) in *. clearbody a b d m0 m1 m2.
  destruct (N.ltb_spec c 128). { now apply dec_utf8_1. }
  destruct (N.ltb_spec c 2048). { cbn [app]. rewrite dec_utf8_2 by lia. f_equal. lia. }
  destruct (N.ltb_spec c 65536). { cbn [app]. rewrite dec_utf8_3 by lia. f_equal. lia. }
  cbn [app]. rewrite dec_utf8_4 by lia. f_equal. lia.
Qed.

Theorem utf8_roundtrip : forall cs bs, encode_utf8 cs = Some bs -> decode_utf8 bs = Some cs.
Proof.
  unfold encode_utf8. intros cs bs. destruct (forallb is_scalar cs) eqn:E; [|discriminate]. intros [= <-].
  induction cs as [|c cs IH]; [reflexivity|]. cbn [forallb] in E. apply andb_true_iff in E as [E1 E2].
  cbn [flat_map]. rewrite decode_enc_char by exact E1. now rewrite IH.
Qed.
Theorem utf8_encode_defined : forall cs,
  (encode_utf8 cs <> None <-> Forall (fun c => is_scalar c = true) cs)
  /\ (forall bs, encode_utf8 cs = Some bs -> Forall (fun b => b < 256) bs).
Proof.
  intros cs. unfold encode_utf8. split.
  - destruct (forallb is_scalar cs) eqn:E.
    + split; [intros _|discriminate]. apply Forall_forall. now apply forallb_forall.
    + split; [contradiction|]. intros H. rewrite Forall_forall in H. apply forallb_forall in H. congruence.
  - destruct (forallb is_scalar cs) eqn:E; [|discriminate]. intros bs [= <-].
    apply Forall_forall. intros b Hb. apply in_flat_map in Hb as (c & Hc & Hb).
    rewrite forallb_forall in E. specialize (E c Hc). unfold is_scalar in E. unfold enc_char in Hb.
    repeat match type of Hb with context [if ?a <? ?b then _ else _] => destruct (N.ltb_spec a b) end;
      unfold In in Hb; repeat (destruct Hb as [<-|Hb]; [lia|]); contradiction.
Qed.
Theorem utf8_surrogates_rejected : forall cs, contains_surrogates cs = true -> encode_utf8 cs = None.
Proof.
  unfold contains_surrogates, encode_utf8. intros cs H. apply existsb_exists in H as (c & Hc & Hs).
  destruct (forallb is_scalar cs) eqn:E; [|reflexivity]. rewrite forallb_forall in E. specialize (E c Hc).
  unfold is_scalar in E. rewrite Hs in E. cbn in E. now rewrite andb_false_r in E.
Qed.

Lemma hexdig_ok d : d < 16 -> is_hexd (hexdig d) = true /\ hexv (hexdig d) = d /\ hexdig d < 128.
Proof.
  intros H. unfold hexdig, is_hexd, hexv. destruct (N.ltb_spec d 10).
  - destruct (N.leb_spec (48 + d) 57); lia.
  - destruct (N.leb_spec (87 + d) 57); [lia|]. destruct (N.leb_spec (87 + d) 70); lia.
Qed.

(* the n low hexadecimal digits of a number, most significant first *)
Fixpoint places (n : nat) (c : N) : list N :=
  match n with O => [] | S n' => places n' (c / 16) ++ [c mod 16] end.

Lemma places_lt n : forall c, Forall (fun d => d < 16) (places n c).
Proof.
  induction n as [|n IH]; intros c; [constructor|]. apply Forall_app. split; [apply IH|].
  constructor; [now apply N.mod_lt|constructor].
Qed.
Lemma places_length n : forall c, length (places n c) = n.
Proof. induction n as [|n IH]; intros c; [reflexivity|]. cbn [places]. rewrite app_length, IH. cbn. lia. Qed.
Lemma places_value n : forall c, c < 16 ^ N.of_nat n -> of_base 16 (map hexdig (places n c)) = c.
Proof.
  induction n as [|n IH]; intros c Hc; [cbn in *; lia|].
  cbn [places]. rewrite map_app. cbn [map]. rewrite of_base_snoc, IH.
  - rewrite (proj1 (proj2 (hexdig_ok _ (N.mod_lt c 16 ltac:(discriminate))))).
    rewrite N.mul_comm. symmetry. apply N.div_mod'.
  - rewrite Nat2N.inj_succ, N.pow_succ_r' in Hc. apply N.div_lt_upper_bound; [discriminate|exact Hc].
Qed.
Lemma take_places n c r : take_exact is_hexd n (map hexdig (places n c) ++ r) = Some (map hexdig (places n c), r).
Proof.
  apply take_exact_pref; [now rewrite map_length, places_length|].
  apply forallb_forall. intros x Hx. apply in_map_iff in Hx as (d & <- & Hd).
  pose proof (places_lt n c) as H. rewrite Forall_forall in H. now apply hexdig_ok, H.
Qed.

Lemma uesc_char_cases c : c < 1114112 ->
  (exists e, uesc_char c = [92; e] /\ simple_escape e = Some c /\ e < 128)
  \/ (uesc_char c = [c] /\ 32 <= c < 127 /\ c <> 92)
  \/ (exists e n, uesc_char c = 92 :: e :: map hexdig (places n c) /\ c < 16 ^ N.of_nat n
                   /\ ((e = 120 /\ n = 2%nat) \/ (e = 117 /\ n = 4%nat) \/ (e = 85 /\ n = 8%nat))).
Proof.
  intros Hc. unfold uesc_char.
  destruct (N.eqb_spec c 92) as [->|H92]; [left; now exists 92|].
  destruct (N.eqb_spec c 9) as [->|H9]; [left; now exists 116|].
  destruct (N.eqb_spec c 10) as [->|H10]; [left; now exists 110|].
  destruct (N.eqb_spec c 13) as [->|H13]; [left; now exists 114|].
  destruct ((32 <=? c) && (c <? 127)) eqn:Hp; [right; left; repeat split; lia|]. right; right.
  change 268435456 with (16 * 16 * 16 * 16 * 16 * 16 * 16). change 16777216 with (16 * 16 * 16 * 16 * 16 * 16).
  change 1048576 with (16 * 16 * 16 * 16 * 16). change (c / 65536) with (c / (16 * 16 * 16 * 16)).
  change 4096 with (16 * 16 * 16). change (c / 256) with (c / (16 * 16)). rewrite <- !N.div_div by discriminate.
  (* only the leading digit is written without "mod 16": it is below 16 by the range of c *)
  assert (Top : forall x, x < 16 -> x = x mod 16) by (intros; symmetry; now apply N.mod_small).
  destruct (N.ltb_spec c 256) as [B|_]; [|destruct (N.ltb_spec c 65536) as [B|_]].
  - exists 120, 2%nat. split; [|split; [exact B|tauto]]. cbn [places app map].
    rewrite <- (Top (c / 16)); [reflexivity|]. now apply N.div_lt_upper_bound.
  - exists 117, 4%nat. split; [|split; [exact B|tauto]]. cbn [places app map].
    rewrite <- (Top (c / 16 / 16 / 16)); [reflexivity|]. now repeat (apply N.div_lt_upper_bound; [discriminate|]).
  - exists 85, 8%nat. split; [|split; [cbn; lia|tauto]]. cbn [places app map].
    rewrite <- (Top (c / 16 / 16 / 16 / 16 / 16 / 16 / 16)); [reflexivity|].
    repeat (apply N.div_lt_upper_bound; [discriminate|]). cbn. lia.
Qed.

Lemma uesc_char_ok c r : c < 1114112 -> py_text (uesc_char c ++ r) = pcons c (py_text r).
Proof.
  intros Hc. unfold py_text.
  destruct (uesc_char_cases c Hc)
    as [(e & -> & He & _)|[(-> & Hp & H92)|(e & n & -> & B & [[-> ->]|[[-> ->]|[-> ->]]])]]; cbn [app].
  - now apply py_lit_simple.
  - now apply py_lit_plain.
  - now rewrite py_lit_x, take_places, places_value.
  - now rewrite py_text_u, take_places, places_value.
  - rewrite py_text_U, take_places, places_value by exact B. destruct (N.ltb_spec c 1114112); [reflexivity|lia].
Qed.

Theorem unicode_escape_roundtrip : forall cs, Forall (fun c => c < 1114112) cs ->
  unicode_escape_decode (uesc_encode cs) = Some cs.
Proof.
  intros cs H. unfold unicode_escape_decode, uesc_encode.
  assert (E : py_text (flat_map uesc_char cs) = PyValue cs).
  { induction H as [|c cs Hc _ IH]; [reflexivity|]. cbn [flat_map]. rewrite uesc_char_ok by exact Hc. now rewrite IH. }
  now rewrite E.
Qed.

Lemma uesc_char_bytes c : c < 1114112 -> Forall (fun b => b < 256) (uesc_char c).
Proof.
  intros Hc. destruct (uesc_char_cases c Hc) as [(e & -> & _ & He)|[(-> & Hp & _)|(e & n & -> & _ & He)]].
  - repeat constructor. lia.
  - repeat constructor. lia.
  - constructor; [reflexivity|]. constructor; [lia|]. apply Forall_forall. intros x Hx.
    apply in_map_iff in Hx as (d & <- & Hd). pose proof (places_lt n c) as H. rewrite Forall_forall in H.
    destruct (hexdig_ok d (H d Hd)) as (_ & _ & B). lia.
Qed.
Lemma uesc_bytes cs : Forall (fun c => c < 1114112) cs -> Forall (fun b => b < 256) (uesc_encode cs).
Proof.
  intros H. unfold uesc_encode. induction H as [|c cs Hc _ IH]; [constructor|].
  cbn [flat_map]. apply Forall_app. split; [now apply uesc_char_bytes|exact IH].
Qed.

Lemma max_list_ge l v : In v l -> v <= max_list l.
Proof. induction l as [|a l IH]; [contradiction|]. cbn [max_list fold_right]. intros [->|H]; [lia|]. specialize (IH H). unfold max_list in IH. lia. Qed.

Lemma max_list_lt l b : 0 < b -> Forall (fun v => v < b) l -> max_list l < b.
Proof. intros Hb. induction 1; cbn [max_list fold_right]; [exact Hb|]. fold (max_list l). lia. Qed.

Lemma size_bound n : n < 2 ^ 32 -> N.size n <= 32.
Proof.
  intros H. destruct (N.le_gt_cases (N.size n) 32) as [|Hgt]; [assumption|].
  pose proof (N.size_le n) as Hs.
  assert (2 ^ 33 <= 2 ^ N.size n) by (apply N.pow_le_mono_r; lia).
  change (2 ^ 33) with 8589934592 in *. change (2 ^ 32) with 4294967296 in *. unfold N.succ_double in Hs.
  destruct n; lia.
Qed.
Lemma size_pos n : 0 < n -> 0 < N.size n.
Proof. destruct n as [|p]; [lia|]. intros _. cbn. destruct p; cbn; lia. Qed.

(* idx describes real lengths below 2^32; the category is not "all empty" unless the width fix is in *)
Definition index_ok (fx : bool) (idx : list N) : Prop :=
  Forall (fun v => v < 2 ^ 32) idx /\ (fx = true \/ idx = [] \/ 0 < max_list idx).

Lemma index_decl_ok fx idx : index_ok fx idx ->
  index_decl fx idx <> ICompileError /\ stored_of (index_decl fx idx) = idx.
Proof.
  intros [Hb Hne]. unfold index_decl. destruct idx as [|a idx']; [split; [discriminate|reflexivity]|].
  set (idx := a :: idx') in *. set (w := index_width fx idx).
  assert (Hm : max_list idx < 2 ^ 32) by (apply max_list_lt; [reflexivity|exact Hb]).
  assert (Hw32 : w <= 32).
  { unfold w, index_width, bit_length. pose proof (size_bound _ Hm). destruct fx; lia. }
  assert (Hw0 : 0 < w).
  { unfold w, index_width, bit_length. destruct Hne as [->|[Hne|Hne]]; [lia|discriminate|].
    pose proof (size_pos _ Hne). destruct fx; lia. }
  assert (Hfit : forall v, In v idx -> v < 2 ^ w).
  { intros v Hv. pose proof (max_list_ge _ _ Hv). pose proof (N.size_gt (max_list idx)).
    assert (2 ^ N.size (max_list idx) <= 2 ^ w).
    { apply N.pow_le_mono_r; [discriminate|]. unfold w, index_width, bit_length. destruct fx; lia. }
    lia. }
  destruct (N.eqb_spec w 0); [lia|]. destruct (N.ltb_spec 32 w); [lia|]. cbn [orb].
  split; [discriminate|]. cbn [stored_of].
  rewrite <- (map_id idx) at 2. apply map_ext_in. intros v Hv. apply N.mod_small. now apply Hfit.
Qed.

Lemma nlen_nat (l : list N) : N.to_nat (nlen l) = length l.
Proof. unfold nlen. apply Nat2N.id. Qed.

Lemma unpack_loop_ok dec1 parts vals rest :
  Forall2 (fun p v => dec1 p = Some v) parts vals ->
  unpack_loop dec1 (map nlen parts) (concat parts ++ rest) = Some (vals, rest).
Proof.
  induction 1 as [|p v parts vals Hpv _ IH]; [reflexivity|].
  cbn [map concat unpack_loop]. rewrite nlen_nat, <- app_assoc.
  destruct (Nat.ltb_spec (length (p ++ concat parts ++ rest)) (length p)) as [Hlt|_].
  { rewrite app_length in Hlt. lia. }
  rewrite firstn_app, Nat.sub_diag, firstn_all, firstn_O, app_nil_r, Hpv.
  rewrite skipn_app, Nat.sub_diag, skipn_all, skipn_O. cbn [app]. now rewrite IH.
Qed.

Lemma encode_all_ok texts : Forall (Forall (fun c => is_scalar c = true)) texts ->
  exists enc, encode_all texts = Some enc /\ Forall2 (fun e t => decode_utf8 e = Some t) enc texts
              /\ enc = map (flat_map enc_char) texts.
Proof.
  induction 1 as [|t texts Ht _ (enc & E & F & M)]; [exists []; repeat split; constructor|].
  cbn [encode_all]. destruct (encode_utf8 t) as [b|] eqn:Eb.
  - exists (b :: enc). rewrite E. repeat split.
    + constructor; [now apply utf8_roundtrip|exact F].
    + cbn [map]. rewrite <- M. f_equal. unfold encode_utf8 in Eb. destruct (forallb is_scalar t); [|discriminate]. now injection Eb.
  - exfalso. apply (proj1 (utf8_encode_defined t)) in Ht. contradiction.
Qed.

Definition utf8_len (t : list N) : N := nlen (flat_map enc_char t).

Theorem string_table_roundtrip : forall fx texts bstrs,
  Forall (Forall (fun c => is_scalar c = true)) texts ->
  index_ok fx (map utf8_len texts) -> index_ok fx (map nlen bstrs) ->
  exists t, gen_table fx texts bstrs = GOk t
            /\ t_data t = concat (map (flat_map enc_char) texts) ++ concat bstrs
            /\ unpack_table t (t_data t) = Some (texts, bstrs).
Proof.
  intros fx texts bstrs Hs Hi1 Hi2. destruct (encode_all_ok texts Hs) as (enc & E & F & M).
  unfold gen_table. rewrite E.
  assert (Hidx : map nlen enc = map utf8_len texts) by (rewrite M, map_map; reflexivity).
  rewrite Hidx.
  destruct (index_decl_ok fx _ Hi1) as [N1 S1]. destruct (index_decl_ok fx _ Hi2) as [N2 S2].
  set (si := index_decl fx (map utf8_len texts)) in *. set (bi := index_decl fx (map nlen bstrs)) in *.
  assert (G : (match si, bi with ICompileError, _ => GCompileError | _, ICompileError => GCompileError
               | _, _ => GOk {| t_str := si; t_bytes := bi; t_data := concat enc ++ concat bstrs |} end)
              = GOk {| t_str := si; t_bytes := bi; t_data := concat enc ++ concat bstrs |}).
  { destruct si, bi; try reflexivity; contradiction. }
  rewrite G. eexists. split; [reflexivity|]. cbn [t_data]. split; [now rewrite M|].
  unfold unpack_table. cbn [t_str t_bytes]. rewrite S1, S2, <- Hidx.
  rewrite (unpack_loop_ok decode_utf8 enc texts (concat bstrs) F).
  rewrite <- (app_nil_r (concat bstrs)).
  rewrite (unpack_loop_ok (fun b => Some b) bstrs bstrs []); [reflexivity|].
  clear. induction bstrs; constructor; auto.
Qed.

(* as the code is: a category in which every constant is empty gets a zero-width bit-field *)
Theorem string_table_refuted : gen_table false [] [[]] = GCompileError /\
  exists t, gen_table true [] [[]] = GOk t /\ unpack_table t (t_data t) = Some ([], [[]]).
Proof. split; [reflexivity|]. eexists. split; reflexivity. Qed.

Definition bytesN (l : list N) : Prop := Forall (fun b => b < 256) l.

(* contract of zlib / bz2 / compression.zstd (trusted): what the compiler stored decompresses
   at run time to the original, and compressors return byte strings *)
Definition codec_ok (cd : codec) : Prop :=
  forall a d c, bytesN d -> ext_compress cd a d = Some c -> bytesN c /\ ext_decompress cd a c = Some d.

Lemma c_array_ok msvc bs : bytesN bs -> c_array_of msvc bs = Some bs.
Proof.
  intros Hb. unfold c_array_of.
  destruct (msvc && (65536 <=? nlen bs)) eqn:E.
  - apply andb_true_iff in E as [_ E]. apply P_CStr.char_array_form_equal; [exact Hb|].
    intros ->. cbn in E. discriminate.
  - destruct (P_CStr.emit_reads_back bs 2000 Hb) as (txt & E1 & E2); [lia|]. now rewrite E1.
Qed.

Lemma enc_char_bytes c : is_scalar c = true -> bytesN (enc_char c).
Proof.
  intros H. pose proof (proj2 (utf8_encode_defined [c])) as P. unfold encode_utf8 in P. cbn [forallb] in P.
  rewrite H in P. cbn [andb flat_map] in P. rewrite app_nil_r in P. now apply P.
Qed.

Lemma table_data_bytes texts bstrs :
  Forall (Forall (fun c => is_scalar c = true)) texts -> Forall bytesN bstrs ->
  bytesN (concat (map (flat_map enc_char) texts) ++ concat bstrs).
Proof.
  intros Hs Hb. apply Forall_app. split; [|now apply Forall_concat].
  apply Forall_concat, Forall_map. eapply Forall_impl; [|exact Hs]. intros tx Htx.
  apply Forall_flat_map. eapply Forall_impl; [|exact Htx]. intros c Hc. now apply enc_char_bytes.
Qed.

Lemma map_N2Z_id (l : list N) : map Z.to_N (map Z.of_N l) = l.
Proof. rewrite map_map. rewrite <- (map_id l) at 2. apply map_ext, N2Z.id. Qed.

(* C12 on byte strings given as lists of N: the compressed text is a byte string and
   __Pyx_DecompressString_LZSS gives the data back *)
Lemma lzss_roundtrip data : bytesN data -> data <> [] ->
  exists c, lzss_compress data = Some c /\ bytesN c
            /\ M_LZSS.decompress_string (map Z.of_N c) (Z.of_N (nlen c)) (Z.of_N (nlen data)) = M_LZSS.SOk (map Z.of_N data).
Proof.
  intros Hb Hne.
  assert (R : P_LZSS.bytes (map Z.of_N data)).
  { apply Forall_map. eapply Forall_impl; [|exact Hb]. unfold P_LZSS.byte. lia. }
  assert (Hz : map Z.of_N data <> []) by (destruct data; [congruence|discriminate]).
  destruct (P_LZSS.roundtrip _ Hz R) as (cz & E & B & _). unfold P_LZSS.bytes in B.
  destruct (P_LZSS.string_wrapper _ Hz R) as (cz' & E' & W). rewrite E in E'. injection E' as <-.
  assert (Zc : map Z.of_N (map Z.to_N cz) = cz).
  { rewrite map_map. rewrite <- (map_id cz) at 2. apply map_ext_in. intros z Hz'. rewrite Forall_forall in B.
    specialize (B z Hz'). unfold P_LZSS.byte in B. lia. }
  exists (map Z.to_N cz). unfold lzss_compress. rewrite E. split; [reflexivity|]. split.
  - apply Forall_map. eapply Forall_impl; [|exact B]. unfold P_LZSS.byte. lia.
  - rewrite Zc. unfold nlen. rewrite !map_length, !nat_N_Z. rewrite map_length in W. exact W.
Qed.

Lemma select_loop_in cd algs data ms a c :
  In (a, c) (select_loop cd algs data ms) -> compress_with cd a data = Some c /\ nlen c + 200 <= nlen data.
Proof.
  revert ms. induction algs as [|x algs IH]; intros ms; [contradiction|]. cbn [select_loop].
  destruct (compress_with cd x data) as [cx|] eqn:E; [|apply IH].
  destruct (N.ltb_spec (nlen data) (nlen cx + 200)); [apply IH|].
  destruct (match ms with None => true | Some m => nlen cx <? m end).
  - intros [[= <- <-]|H']; [split; [exact E|lia]|eapply IH; eauto].
  - destruct (x =? 90); [|apply IH]. intros [[= <- <-]|H']; [split; [exact E|lia]|eapply IH; eauto].
Qed.

Lemma choose_in comps m p a c : choose comps m p = Some (a, c) -> In (a, c) comps.
Proof. unfold choose. intros H. apply find_some in H as [H _]. now apply in_rev. Qed.

Lemma init_data_ok cd msvc py314 um data (comps : list (N * list N)) :
  codec_ok cd -> bytesN data ->
  (forall a c, In (a, c) comps -> compress_with cd a data = Some c /\ nlen c + 200 <= nlen data) ->
  forall tb, init_data cd msvc py314 um {| im_table := tb; im_comps := comps; im_len := nlen data; im_data := data |} = Some data.
Proof.
  intros Hcd Hb Hin tb. unfold init_data. cbn [im_comps im_data im_len].
  destruct (choose comps _ py314) as [[a c]|] eqn:Ech; [|now apply c_array_ok].
  apply choose_in in Ech. destruct (Hin a c Ech) as [Ec Hsz]. unfold compress_with in Ec.
  destruct (N.eqb_spec a 90) as [->|Ha].
  - (* LZSS: C12 *)
    destruct (lzss_roundtrip data Hb) as (c' & Ec' & Bc & D).
    { intros ->. unfold nlen in Hsz. cbn in Hsz. lia. }
    rewrite Ec in Ec'. injection Ec' as <-. now rewrite (c_array_ok msvc _ Bc), D, map_N2Z_id.
  - destruct (Hcd a data c Hb Ec) as [Bc Dc]. now rewrite (c_array_ok msvc _ Bc).
Qed.

Theorem pipeline_identity : forall cd fx msvc py314 user_macro texts bstrs,
  codec_ok cd ->
  Forall (Forall (fun c => is_scalar c = true)) texts -> Forall bytesN bstrs ->
  index_ok fx (map utf8_len texts) -> index_ok fx (map nlen bstrs) ->
  exists im, gen_image fx cd texts bstrs = Some im
             /\ init_table cd msvc py314 user_macro im = Some (texts, bstrs).
Proof.
  intros cd fx msvc py314 um texts bstrs Hcd Hs Hb Hi1 Hi2.
  destruct (string_table_roundtrip fx texts bstrs Hs Hi1 Hi2) as (t & G & D & U).
  unfold gen_image. rewrite G. eexists. split; [reflexivity|].
  unfold init_table. cbn [im_table]. rewrite init_data_ok; auto.
  - rewrite D. now apply table_data_bytes.
  - intros a c Hin. eapply select_loop_in. exact Hin.
Qed.
