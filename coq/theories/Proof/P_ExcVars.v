(* C22 -- the temp-level code (M_ExcVars.annot / exec_a: exc_vars resolved at generation time,
   one store of temps) computes what the structural scheme M_Exc.exec_sch computes with its single
   run-time field cur; hence (P_Exc) what CPython computes.  Induction on the statement for every
   generation-time exc_vars value ev and every counter n:
     - the temps named by ev were allocated before (ev_lt), the constructs generated from n on
       own temps >= n, so a statement only writes temps >= n and (ReraiseStatNode before its
       repair) the temps ev (frame);
     - cur of the scheme is the content of the temps ev (proj). *)
From Coq Require Import List Bool Arith Lia.
From CyVerif Require Import Model.M_Exc Model.M_ExcVars Proof.P_Exc.
Import ListNotations.

(* the number of constructs of a statement that allocate exception temps *)
Fixpoint asize (s : cstmt) : nat :=
  match s with
  | CSeq a b => asize a + asize b
  | CTry body hs orelse => asize body + asize orelse + asize_h hs
  | CFinally _ body fin => 1 + asize body + asize fin
  | CLoop _ body | CWithScope _ body => asize body
  | _ => 0
  end
with asize_h (hs : chandlers) : nat :=
  match hs with
  | CHNil => 0
  | CHCons _ _ body tl => 1 + asize body + asize_h tl
  end.

Lemma annot_snd :
  (forall s keep ev n, snd (annot keep s ev n) = asize s + n) /\
  (forall hs keep ev n, snd (annot_h keep hs ev n) = asize_h hs + n).
Proof.
  apply cstmt_chandlers_ind; intros; cbn [annot annot_h asize asize_h];
    rewrite ?let_pair; cbn [snd]; rewrite ?H, ?H0, ?H1; lia.
Qed.

Definition proj (ev : option nat) (tm : temps) (c : state) : state :=
  set_cur (match ev with None => None | Some t => Some (tm t) end) c.
Definition ev_lt (ev : option nat) (n : nat) : Prop :=
  match ev with Some t => t < n | None => True end.
Definition frame (ev : option nat) (n : nat) (tm tm' : temps) : Prop :=
  forall i, i < n -> Some i <> ev -> tm' i = tm i.

Lemma frame_refl ev n tm : frame ev n tm tm.
Proof. intros i _ _; reflexivity. Qed.
Lemma frame_trans ev n n1 n2 tm tm1 tm2 :
  n <= n1 -> n <= n2 -> frame ev n1 tm tm1 -> frame ev n2 tm1 tm2 -> frame ev n tm tm2.
Proof. intros L1 L2 F1 F2 i Hi Hn. rewrite F2 by (auto; lia). apply F1; auto; lia. Qed.
Lemma frame_le ev n n1 tm tm1 : n <= n1 -> frame ev n1 tm tm1 -> frame ev n tm tm1.
Proof. intros L F i Hi Hn. apply F; auto; lia. Qed.
(* a construct with its own temps n, generated at counter n, whose part ran with exc_vars = own *)
Lemma own_frame ev n m tm tm1 v :
  ev_lt ev n -> n < m -> frame (Some n) m (tset tm n v) tm1 ->
  frame ev n tm tm1 /\ (forall t, ev = Some t -> tm1 t = tm t).
Proof.
  intros L Lm F.
  assert (A : forall i, i < n -> tm1 i = tm i).
  { intros i Hi. rewrite F by (try lia; intros [= ->]; lia).
    unfold tset. destruct (Nat.eqb_spec i n); [lia | reflexivity]. }
  split; [intros i Hi _; apply A; auto | intros t ->; apply A; exact L].
Qed.
Lemma proj_same ev tm tm' c :
  (forall t, ev = Some t -> tm' t = tm t) -> proj ev tm' c = proj ev tm c.
Proof. intros H. destruct ev as [t|]; [unfold proj; rewrite (H t eq_refl)|]; reflexivity. Qed.
Lemma proj_own n tm e c : 
  set_cur (Some (Some e)) c = proj (Some n) (tset tm n (Some e)) c.
Proof. unfold proj, tset. rewrite Nat.eqb_refl. reflexivity. Qed.
Lemma ev_lt_add ev n k : ev_lt ev n -> ev_lt ev (k + n).
Proof. destruct ev; simpl; auto; lia. Qed.

(* result of the scheme vs result of the temp-level code (after a crash the states are garbage) *)
Definition sim (ev : option nat) (n : nat) (tm : temps) (r : oc * state) (ra : oc * state * temps) : Prop :=
  fst r = fst (fst ra) /\
  (fst (fst ra) <> OCrash ->
   snd r = proj ev (snd ra) (snd (fst ra)) /\ frame ev n tm (snd ra)).

Lemma sim_intro ev n tm o cs c' tm' :
  (o <> OCrash -> cs = proj ev tm' c' /\ frame ev n tm tm') ->
  sim ev n tm (o, cs) (o, c', tm').
Proof. intros H; split; [reflexivity | exact H]. Qed.

(* the temp-level run ended in c', tm' after changing temps at or above n1 (and the temps ev) *)
Lemma sim_ret ev n n1 tm o cs c' tm' :
  n <= n1 -> frame ev n1 tm tm' -> cs = proj ev tm' c' -> sim ev n tm (o, cs) (o, c', tm').
Proof. intros L F E. apply sim_intro. intros _. split; [exact E | eapply frame_le; eassumption]. Qed.

Lemma sim_same ev n tm o cs c' : cs = proj ev tm c' -> sim ev n tm (o, cs) (o, c', tm).
Proof. apply (sim_ret ev n n); auto using frame_refl. Qed.

Lemma sim_crash ev n tm cs c' tm' : sim ev n tm (OCrash, cs) (OCrash, c', tm').
Proof. split; [reflexivity | intros F; exfalso; apply F; reflexivity]. Qed.

(* the rest of a run, after a part that changed temps at or above n1 (and the temps ev) *)
Lemma sim_after ev n n1 n2 tm tm1 r ra :
  frame ev n1 tm tm1 -> sim ev n2 tm1 r ra -> n <= n1 -> n <= n2 -> sim ev n tm r ra.
Proof.
  intros F [E H] L1 L2. split; [exact E|]. intros NC. destruct (H NC) as [A B]. split; [exact A|].
  exact (frame_trans _ _ _ _ _ _ _ L1 L2 F B).
Qed.

(* taking a sub-run apart: both crashed, or both ended with the same outcome, the scheme in the
   projection of the temp-level state; Q is what is to be shown of the two results *)
Lemma sim_run ev n tm r ra : sim ev n tm r ra ->
  forall Q : oc * state -> oc * state * temps -> Prop,
  (forall cs c' tm', Q (OCrash, cs) (OCrash, c', tm')) ->
  (forall o c' tm', o <> OCrash -> frame ev n tm tm' -> Q (o, proj ev tm' c') (o, c', tm')) ->
  Q r ra.
Proof.
  intros [E H] Q C K. destruct r as [o cs], ra as [[o' c'] tm']. cbn [fst snd] in *. subst o'.
  destruct o; try (destruct H as [-> F]; [discriminate | apply K; [discriminate | exact F]]).
  apply C.
Qed.

Section Sim.
Variables fx sx : bool.

Definition PS (s : cstmt) : Prop := forall ev n c tm, ev_lt ev n ->
  sim ev n tm (exec_sch fx sx s (proj ev tm c)) (exec_a fx sx (fst (annot false s ev n)) c tm).
Definition PH (hs : chandlers) : Prop := forall ev n c tm e saved, ev_lt ev n ->
  sim ev n tm (handle_sch fx sx hs e saved (proj ev tm c))
              (handle_a fx sx (fst (annot_h false hs ev n)) e saved c tm).

Lemma reraise_sim ev n c tm : ev_lt ev n ->
  sim ev n tm (reraise_sch fx (proj ev tm c)) (reraise_a fx ev c tm).
Proof.
  intros L. unfold reraise_sch, reraise_a. destruct ev as [t|]; cbn [proj set_cur cur].
  - unfold proj; cbn [cur set_cur]. destruct (tm t) as [e|] eqn:T.
    + apply sim_intro. intros _. destruct fx.
      * split; [unfold proj; rewrite T; reflexivity | apply frame_refl].
      * split.
        -- unfold proj, tset, set_cur; cbn. rewrite Nat.eqb_refl. reflexivity.
        -- intros i Hi Hn. unfold tset. destruct (Nat.eqb_spec i t); [subst; congruence | reflexivity].
    + apply sim_crash.
  - unfold proj; cbn [cur set_cur]. unfold reraise_dynamic.
    change (handled (set_cur None c)) with (handled c).
    destruct (handled c) as [e|].
    + apply sim_intro. intros _. split; [reflexivity | apply frame_refl].
    + unfold lift. change (handled (set_cur None c)) with (handled c).
      change (co (set_cur None c)) with (co c).
      destruct (raise_internal c_runtime (co c) (handled c)) as [o k].
      apply sim_intro. intros _. split; [reflexivity | apply frame_refl].
Qed.

Lemma lift_sim g ev n c tm :
  sim ev n tm (lift g (proj ev tm c)) (lift g c, tm).
Proof.
  unfold lift. change (handled (proj ev tm c)) with (handled c). change (co (proj ev tm c)) with (co c).
  destruct (g (co c) (handled c)) as [o k]. apply sim_intro. intros _.
  split; [reflexivity | apply frame_refl].
Qed.

Lemma ps_seq a b : PS a -> PS b -> PS (CSeq a b).
Proof.
  intros IHa IHb ev n c tm L.
  cbn [annot]. rewrite !let_pair, (proj1 annot_snd). cbn [fst exec_a exec_sch].
  apply (sim_run _ _ _ _ _ (IHa ev n c tm L)); [intros; apply sim_crash|]. intros o c1 tm1 NC F.
  destruct o; try congruence; try (eapply sim_ret; [| exact F | reflexivity]; lia).
  eapply sim_after; [exact F | apply IHb, ev_lt_add, L | lia | lia].
Qed.

Lemma ps_try body hs orelse : PS body -> PH hs -> PS orelse -> PS (CTry body hs orelse).
Proof.
  intros IHbody IHhs IHorelse ev n c tm L.
  cbn [annot]. rewrite !let_pair, !(proj1 annot_snd). cbn [fst exec_a exec_sch].
  change (top (proj ev tm c)) with (top c). change (handled (proj ev tm c)) with (handled c).
  apply (sim_run _ _ _ _ _ (IHbody ev n c tm L)); [intros; apply sim_crash|]. intros o c1 tm1 NC F.
  destruct o; try congruence; try (eapply sim_ret; [| exact F | reflexivity]; lia).
  - eapply sim_after; [exact F | | apply le_n | apply le_n].
    apply (sim_run _ _ _ _ _ (IHorelse ev _ c1 tm1 (ev_lt_add _ _ _ L))); [intros; apply sim_crash|].
    intros o c2 tm2 NC2 F2.
    destruct o; try congruence; (eapply sim_ret; [| exact F2 | reflexivity]; lia).
  - eapply sim_after; [exact F | apply IHhs, ev_lt_add, ev_lt_add, L | lia | lia].
Qed.

Lemma ps_finally herr body fin : PS body -> PS fin -> PS (CFinally herr body fin).
Proof.
  intros IHbody IHfin ev n c tm L.
  cbn [annot fin_exc_vars]. rewrite !let_pair, !(proj1 annot_snd). cbn [fst exec_a exec_sch].
  apply (sim_run _ _ _ _ _ (IHbody ev (S n) c tm (ev_lt_add _ _ 1 L))); [intros; apply sim_crash|].
  intros o c1 tm1 NC F.
  destruct o; try congruence.
  2: { (* exception exit: the clause runs with the statement's own temps as exc_vars *)
    destruct herr; [| eapply sim_ret; [| exact F | reflexivity]; lia].
    eapply sim_after; [exact F | | lia | apply le_n].
    rewrite (proj_own n tm1 e).
    change (proj (Some n) (tset tm1 n (Some e)) (set_top (Some e) (proj ev tm1 c1)))
      with (proj (Some n) (tset tm1 n (Some e)) (set_top (Some e) c1)).
    apply (sim_run _ _ _ _ _ (IHfin (Some n) _ (set_top (Some e) c1) (tset tm1 n (Some e))
                                    (ev_lt_add (Some n) (S n) _ (le_n _))));
      [intros; apply sim_crash|].
    intros o c2 tm2 NC2 F2.
    destruct (own_frame ev n (asize body + S n) tm1 tm2 (Some e) L ltac:(lia) F2) as [FA FB].
    cbn [proj cur set_cur].
    destruct o; try congruence; [destruct (tm2 n) as [e'|]; [| apply sim_crash] |..];
      (eapply sim_ret; [apply le_n | exact FA | rewrite (proj_same ev tm1 tm2 _ FB); reflexivity]). }
  all: eapply sim_after; [exact F | | lia | apply le_n];
    apply (sim_run _ _ _ _ _ (IHfin ev _ c1 tm1 (ev_lt_add _ _ _ (ev_lt_add _ _ 1 L))));
    [intros; apply sim_crash|]; intros o c2 tm2 NC2 F2;
    (eapply sim_ret; [| exact F2 | reflexivity]; lia).
Qed.

Lemma ps_loop k body : PS body -> PS (CLoop k body).
Proof.
  intros IHbody ev n c tm L.
  cbn [annot]. rewrite !let_pair. cbn [fst exec_a exec_sch].
  revert c tm. induction k as [|k IHk]; intros c tm.
  - apply sim_same. reflexivity.
  - apply (sim_run _ _ _ _ _ (IHbody ev n c tm L)); [intros; apply sim_crash|]. intros o c1 tm1 NC F.
    destruct o; try congruence; try (eapply sim_ret; [| exact F | reflexivity]; lia);
      (eapply sim_after; [exact F | apply IHk | lia | lia]).
Qed.

Lemma ps_with_scope k body : PS body -> PS (CWithScope k body).
Proof.
  intros IHbody ev n c tm L.
  cbn [annot]. rewrite !let_pair. cbn [fst exec_a exec_sch].
  change (wx (proj ev tm c)) with (wx c).
  change (set_wx true (logst (fun _ _ => EvEnter k) (proj ev tm c)))
    with (proj ev tm (set_wx true (logst (fun _ _ => EvEnter k) c))).
  apply (sim_run _ _ _ _ _ (IHbody ev n _ tm L)); [intros; apply sim_crash|]. intros o c1 tm1 NC F.
  eapply sim_ret; [| exact F | reflexivity]; lia.
Qed.

Lemma ps_exit_exc k x : PS (CExitExc k x).
Proof.
  intros ev n c tm L.
  cbn [annot fst exec_a exec_sch].
  assert (A : match cur (proj ev tm c) with Some (Some e) => Some e | _ => None end =
              match ev with Some t => tm t | None => None end).
  { destruct ev as [t|]; cbn; [destruct (tm t)|]; reflexivity. }
  rewrite A.
  generalize (match ev with Some t => tm t | None => None end); intros arg.
  change (logst (ev_exit k arg) (set_wx false (proj ev tm c)))
    with (proj ev tm (logst (ev_exit k arg) (set_wx false c))).
  destruct x.
  - apply reraise_sim; auto.
  - apply sim_same. reflexivity.
  - apply lift_sim.
Qed.

Lemma ps_exit_none k x : PS (CExitNone k x).
Proof.
  intros ev n c tm L.
  cbn [annot fst exec_a exec_sch].
  change (wx (proj ev tm c)) with (wx c).
  destruct (wx c); [| apply sim_same; reflexivity].
  change (logst (ev_exit k None) (set_wx false (proj ev tm c)))
    with (proj ev tm (logst (ev_exit k None) (set_wx false c))).
  destruct x; apply sim_same; reflexivity.
Qed.

Lemma ph_cons pat name body tl : PS body -> PH tl -> PH (CHCons pat name body tl).
Proof.
  intros IHbody IHtl ev n c tm e saved L.
  cbn [annot_h]. rewrite !let_pair, (proj1 annot_snd). cbn [fst handle_a handle_sch].
  change (cls_of (proj ev tm c) e) with (cls_of c e).
  destruct (pat_matches pat (cls_of c e)).
  - fold (needs_exception name body) in *.
    destruct (needs_exception name body).
    + rewrite (proj_own n tm e).
      change (proj (Some n) (tset tm n (Some e))
                (set_co (bind_opt name e (co (proj ev tm c))) (set_top (Some e) (proj ev tm c))))
        with (proj (Some n) (tset tm n (Some e)) (set_co (bind_opt name e (co c)) (set_top (Some e) c))).
      apply (sim_run _ _ _ _ _ (IHbody (Some n) (S n) _ (tset tm n (Some e)) (le_n _)));
        [intros; apply sim_crash|].
      intros o c1 tm1 NC F.
      destruct (own_frame ev n (S n) tm tm1 (Some e) L (le_n _) F) as [FA FB].
      destruct o; try congruence;
        (eapply sim_ret; [apply le_n | exact FA | rewrite (proj_same ev tm tm1 _ FB); reflexivity]).
    + apply (sim_run _ _ _ _ _ (IHbody ev (S n) c tm (ev_lt_add _ _ 1 L))); [intros; apply sim_crash|].
      intros o c1 tm1 NC F.
      destruct o; try congruence; (eapply sim_ret; [| exact F | reflexivity]; lia).
  - eapply sim_after; [apply frame_refl | apply IHtl, ev_lt_add, (ev_lt_add _ _ 1 L) | apply le_n | lia].
Qed.

Lemma main_sim : (forall s, PS s) /\ (forall hs, PH hs).
Proof.
  apply cstmt_chandlers_ind;
    auto using ps_seq, ps_try, ps_finally, ps_loop, ps_with_scope, ps_exit_exc, ps_exit_none, ph_cons;
    unfold PS, PH; intros; try (apply sim_same; reflexivity).
  - (* CRaise *) apply lift_sim.
  - (* CReraise *) apply reraise_sim; auto.
Qed.

End Sim.

(* ---------- whole functions ---------- *)
(* the temp-level code of a function computes the scheme's result; the scheme's field cur plays no
   role at function level (exc_vars = None), so it is None in its final state *)
Theorem run_tmp_eq_run_sch : forall fx sx s h t b,
  fst (run_tmp false fx sx s h t b) = fst (run_sch fx sx s h t b) /\
  (fst (run_sch fx sx s h t b) <> OCrash ->
   run_sch fx sx s h t b =
   (fst (run_tmp false fx sx s h t b), set_cur None (snd (run_tmp false fx sx s h t b)))).
Proof.
  intros fx sx s h t b. unfold run_tmp, run_sch.
  pose proof (proj1 (main_sim fx sx) (desugar s) None 0 (init_state h t b) no_temps I) as Q.
  change (proj None no_temps (init_state h t b)) with (init_state h t b) in Q.
  apply (sim_run _ _ _ _ _ Q); cbn [fst snd].
  - intros. split; [reflexivity | intros F; exfalso; apply F; reflexivity].
  - intros. split; reflexivity.
Qed.

(* hence the generated temps hold, at every bare raise, the exception CPython re-raises: same
   outcome, same chain fields, same log of probes, same sys.exc_info() afterwards *)
Theorem tmp_matches_reference : forall sx s h t b,
  same_obs (run_ref s h t b) (run_tmp false true sx s h t b).
Proof.
  intros sx s h t b.
  destruct (repaired_matches_reference sx s h t b) as (A & B & C).
  destruct (run_tmp_eq_run_sch true sx s h t b) as [E1 E2].
  assert (NC : fst (run_sch true sx s h t b) <> OCrash).
  { rewrite A. apply (proj1 ref_no_crash). }
  specialize (E2 NC). rewrite E2 in A, B, C. cbn [fst snd] in *.
  repeat split; assumption.
Qed.

(* the code region itself: a bare raise that is the finally clause, on the exception path,
   re-raises the exception that propagates through the statement -- whatever handler encloses
   the statement (any exc_vars value ev), in any machine state *)
Theorem reraise_in_finally_propagating : forall fx sx body ev n c tm e,
  fst (fst (exec_a fx sx (fst (annot false body ev (S n))) c tm)) = ORaise e ->
  fst (fst (exec_a fx sx (fst (annot false (CFinally true body CReraise) ev n)) c tm)) = ORaise e.
Proof.
  intros fx sx body ev n c tm e H. cbn [annot fin_exc_vars].
  destruct (annot false body ev (S n)) as [b' n1]. cbn [fst exec_a] in *.
  destruct (exec_a fx sx b' c tm) as [[o c1] tm1]. cbn [fst] in H. subst o.
  unfold reraise_a, tset. rewrite Nat.eqb_refl.
  destruct fx; reflexivity.
Qed.

(* ---------- the variant that keeps the enclosing handler's exc_vars ---------- *)
(* try: raise E3 / except: (try: raise E4 / finally: raise) *)
Definition fin_in_handler : stmt :=
  STry (SRaise (RNew 3) NoCause)
       (HCons None None (SFinally (SRaise (RNew 4) NoCause) SReraise) HNil) SSkip.

Theorem keep_outer_exc_vars_refuted :
  exists s h t b,
    fst (run_tmp true true true s h t b) = ORaise 0 /\   (* the handler's exception again *)
    fst (run_ref s h t b) = ORaise 1 /\                  (* CPython: the one propagating *)
    fst (run_tmp false true true s h t b) = ORaise 1.
Proof. exists fin_in_handler, [], None, None. vm_compute. auto. Qed.

(* the resolution differs exactly at the reader in the exception copy *)
Example resolve_fin_in_handler :
  resolve false fin_in_handler = [RBare (Some 0); RBare (Some 1)] /\
  resolve true fin_in_handler = [RBare (Some 0); RBare (Some 0)].
Proof. vm_compute. auto. Qed.
