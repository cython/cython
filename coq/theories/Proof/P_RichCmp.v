(* C28 — rich comparison.  A configuration is finite by nature: the operator, the classes of the two
   operands (T, its subclass X, the opaque U), and per class which comparison methods it defines and
   whether they answer True, False or NotImplemented (cstate).  The two worlds of M_BinopSlot.rc_run
   (slot_tp_richcompare and functools.total_ordering; what ModuleNode.generate_richcmp_function writes)
   have no common structure to induct on, so they are compared configuration by configuration, by
   evaluation (chk_rc_all, chk_tot_all); what a theorem excludes enters the checked boolean as a
   disjunct (chk2). *)
From Coq Require Import List Bool.
From CyVerif Require Import Model.M_BinopSlot Proof.P_BinopSlot.
Import ListNotations.

Definition all_cstate := [CU; CN; CTr; CFa].
Definition all_val := [CN; CTr; CFa].
Definition all_rcls := [rT; rX; rU].
Lemma all_cstate_ok : forall x, In x all_cstate. Proof. destruct x; simpl; tauto. Qed.
Lemma all_rcls_ok : forall x, In x all_rcls. Proof. destruct x; simpl; tauto. Qed.
Lemma all_cop_ok : forall x, In x all_cop. Proof. destruct x; simpl; tauto. Qed.
Definition RM_eq_dec : forall a b : RM, {a = b} + {a <> b}.
Proof. repeat decide equality. Defined.
Definition rnofuel (m : RM) : bool := match snd m with RFuel => false | _ => true end.
Definition chk2 (e : bool) (a b : RM) : bool := e || ((if RM_eq_dec a b then true else false) && rnofuel b).
Lemma chk2_elim : forall e a b, chk2 e a b = true -> e = false -> a = b /\ snd b <> RFuel.
Proof.
  intros e a b H He. unfold chk2 in H. rewrite He in H. simpl in H.
  apply andb_prop in H. destruct H as [H1 H2].
  destruct (RM_eq_dec a b) as [E|E]; [|discriminate].
  split; [exact E|]. unfold rnofuel in H2. intro Hf. rewrite Hf in H2. discriminate.
Qed.

(* a class as seen by operator `op` without total_ordering: the state of the method the operator
   dispatches to (a), of its reflection - for != : of __eq__ - (b), and whether the class defines any
   other comparison method (which only decides whether Cython generates a tp_richcompare for it) *)
Definition view := (cstate * cstate * bool)%type.
Definition all_view : list view := list_prod (list_prod all_cstate all_cstate) all_bool.
Lemma all_view_ok : forall x, In x all_view.
Proof. intros [[a b] o]. repeat apply in_prod; try apply all_cstate_ok. apply all_bool_ok. Qed.
Definition st_of_view (op : cop) (v : view) (m : cop) : cstate :=
  let '(a, b, oth) := v in
  if cop_eqb m op then a
  else if cop_eqb m (match op with NE => EQ | o => swap o end) then b
  else if oth then CN else CU.

Definition exc_ne (op : cop) (tv xv : view) (xpy : bool) (L R : rcls) : bool :=
  let tst := st_of_view op tv in let xst := st_of_view op xv in
  xpy && cop_eqb op NE && existsb (fun m => match tst m with CU => false | _ => true end) all_cop
  && (match tst NE with CU => true | _ => false end)
  && (match xst EQ with CU => false | _ => true end) && (match xst NE with CU => true | _ => false end)
  && (rcls_eqb L rX || rcls_eqb R rX).

Definition rc_plain (w : world) (nefix : bool) (op : cop) (tv xv : view) (xpy : bool) (ub : cstate) (L R : rcls) : RM :=
  rc_run w (st_of_view op tv) (st_of_view op xv) false xpy ub ub nefix L R op.

(* operand pairs with the answer of the opaque class U (never consulted when no operand is a U: fixed to CN there) *)
Definition pair_dom : list (rcls * rcls * cstate) :=
  [(rT, rT, CN); (rT, rX, CN); (rX, rT, CN); (rX, rX, CN); (rU, rU, CN)] ++
  flat_map (fun ub => [(rT, rU, ub); (rU, rT, ub); (rX, rU, ub); (rU, rX, ub)]) all_val.
(* X's view: the two relevant methods (its other methods are taken as undefined) *)
Definition all_xview : list view := list_prod (list_prod all_cstate all_cstate) [false].

(* when no operand is an instance of X, neither X's methods nor its kind are ever looked at: the sweeps
   leave them as variables there, which keeps what is evaluated small *)
Definition noX (p : rcls * rcls * cstate) : bool := negb (rcls_eqb (fst (fst p)) rX || rcls_eqb (snd (fst p)) rX).

Definition chk_rc (e : bool) (op : cop) (tv xv : view) (xpy : bool) (L R : rcls) (ub : cstate) : bool :=
  chk2 e (rc_plain WPy false op tv xv xpy ub L R) (rc_plain WCy false op tv xv xpy ub L R).
(* stated over chk_rc with e a variable: with the literal false, converting chk_rc to chk2 makes the
   kernel evaluate the runs *)
Lemma chk_rc_elim e op tv xv xpy L R ub : chk_rc e op tv xv xpy L R ub = true -> e = false ->
  rc_plain WPy false op tv xv xpy ub L R = rc_plain WCy false op tv xv xpy ub L R
  /\ snd (rc_plain WCy false op tv xv xpy ub L R) <> RFuel.
Proof. apply chk2_elim. Qed.

Lemma chk_rc_all : forall xv0 xpy0, forallb (fun op => forallb (fun tv => forallb (fun p =>
  if noX p then chk_rc false op tv xv0 xpy0 (fst (fst p)) (snd (fst p)) (snd p)
  else forallb (fun xv => forallb (fun xpy =>
         chk_rc (exc_ne op tv xv xpy (fst (fst p)) (snd (fst p))) op tv xv xpy (fst (fst p)) (snd (fst p)) (snd p))
       all_bool) all_xview) pair_dom) all_view) all_cop = true.
Proof. intros. vm_compute. reflexivity. Qed.

Theorem richcmp_eq_partial : forall op tv xv xpy ub L R,
  In xv all_xview -> In (L, R, ub) pair_dom -> exc_ne op tv xv xpy L R = false ->
  rc_plain WPy false op tv xv xpy ub L R = rc_plain WCy false op tv xv xpy ub L R
  /\ snd (rc_plain WCy false op tv xv xpy ub L R) <> RFuel.
Proof.
  intros op tv xv xpy ub L R Hxv Hp He.
  pose proof (chk_rc_all xv xpy) as H.
  rewrite forallb_forall in H. specialize (H op (all_cop_ok op)).
  rewrite forallb_forall in H. specialize (H tv (all_view_ok tv)).
  rewrite forallb_forall in H. specialize (H (L, R, ub) Hp). cbn [fst snd] in H.
  destruct (noX (L, R, ub)); [exact (chk_rc_elim _ _ _ _ _ _ _ _ H eq_refl)|].
  rewrite forallb_forall in H. specialize (H xv Hxv).
  rewrite forallb_forall in H. specialize (H xpy (all_bool_ok xpy)).
  exact (chk_rc_elim _ _ _ _ _ _ _ _ H He).
Qed.

(* finding: `x != y`, X a Python subclass overriding __eq__ of an extension type that has a generated
   tp_richcompare without __ne__: X.__eq__ is not consulted *)
Theorem richcmp_ne_refuted :
  exists tv xv, rc_plain WPy false NE tv xv true CN rX rU = ([(rX, EQ, true)], RB true)
             /\ rc_plain WCy false NE tv xv true CN rX rU = ([(rT, EQ, true)], RB false).
Proof. exists (CU, CTr, false), (CU, CFa, false). vm_compute. split; reflexivity. Qed.

(* total_ordering: T defines __eq__ (answering True/False), no __ne__, at least one ordering method;
   X a plain subclass *)
Definition ordst := (cstate * cstate * cstate * cstate)%type.        (* lt le gt ge *)
Definition all_ordst : list ordst := list_prod (list_prod (list_prod all_cstate all_cstate) all_cstate) all_cstate.
Lemma all_ordst_ok : forall x, In x all_ordst.
Proof. intros [[[a b] c] d]. repeat apply in_prod; apply all_cstate_ok. Qed.
Definition st_of_ord (o : ordst) (e n : cstate) (m : cop) : cstate :=
  let '(a, b, c, d) := o in match m with LT => a | LE => b | GT => c | GE => d | EQ => e | NE => n end.
Definition has_ord (o : ordst) : bool :=
  let '(a, b, c, d) := o in
  negb (match a, b, c, d with CU, CU, CU, CU => true | _, _, _, _ => false end).
Definition no_st (m : cop) : cstate := CU.
Definition rc_tot (w : world) (o : ordst) (e n : cstate) (xpy : bool) (uo ue : cstate) (L R : rcls) (op : cop) : RM :=
  rc_run w (st_of_ord o e n) no_st true xpy uo ue false L R op.

(* every operand pair except those mixing a T instance with a subclass instance (either order: the inner
   `self != other` of functools gives the subclass operand priority) *)
Definition tot_dom : list (rcls * rcls * cstate) :=
  filter (fun p => let '(L, R, _) := p in
                   negb ((rcls_eqb L rT && rcls_eqb R rX) || (rcls_eqb L rX && rcls_eqb R rT))) pair_dom.

Definition chk_tot (o : ordst) (eb xpy : bool) (L R : rcls) (ub : cstate) (op : cop) : bool :=
  chk2 (negb (has_ord o))
       (rc_tot WPy o (if eb then CTr else CFa) CU xpy ub ub L R op)
       (rc_tot WCy o (if eb then CTr else CFa) CU xpy ub ub L R op).
Lemma chk_tot_all : forall xpy0, forallb (fun o => forallb (fun eb => forallb (fun p =>
  if noX p then forallb (chk_tot o eb xpy0 (fst (fst p)) (snd (fst p)) (snd p)) all_cop
  else forallb (fun xpy => forallb (chk_tot o eb xpy (fst (fst p)) (snd (fst p)) (snd p)) all_cop) all_bool)
  tot_dom) all_bool) all_ordst = true.
Proof. intros. vm_compute. reflexivity. Qed.

Theorem richcmp_total_ordering_partial : forall o (eb xpy : bool) ub L R op,
  In (L, R, ub) tot_dom -> has_ord o = true ->
  let e := if eb then CTr else CFa in
  rc_tot WPy o e CU xpy ub ub L R op = rc_tot WCy o e CU xpy ub ub L R op
  /\ snd (rc_tot WCy o e CU xpy ub ub L R op) <> RFuel.
Proof.
  intros o eb xpy ub L R op Hp Ho e.
  pose proof (chk_tot_all xpy) as H.
  rewrite forallb_forall in H. specialize (H o (all_ordst_ok o)).
  rewrite forallb_forall in H. specialize (H eb (all_bool_ok eb)).
  rewrite forallb_forall in H. specialize (H (L, R, ub) Hp). cbn [fst snd] in H.
  destruct (noX (L, R, ub)); [|rewrite forallb_forall in H; specialize (H xpy (all_bool_ok xpy))].
  all: rewrite forallb_forall in H; specialize (H op (all_cop_ok op)).
  all: apply (chk2_elim _ _ _ H); rewrite Ho; reflexivity.
Qed.

Definition ord_lt (s : cstate) : ordst := (s, CU, CU, CU).
(* F23: __eq__ answers NotImplemented: functools evaluates `self == other` (full protocol, reflected
   U.__eq__ consulted, identity fallback), Cython hands the method's NotImplemented on *)
Theorem richcmp_total_ordering_eq_ni_refuted :
  rc_tot WPy (ord_lt CFa) CN CU true CN CTr rT rU LE = ([(rT, LT, true); (rT, EQ, true); (rU, EQ, false)], RB true)
  /\ rc_tot WCy (ord_lt CFa) CN CU true CN CTr rT rU LE = ([(rT, LT, true); (rT, EQ, true); (rU, GE, false)], RTypeErr).
Proof. vm_compute. split; reflexivity. Qed.
(* both __eq__ and __ne__ defined: functools' `self != other` reaches __ne__, Cython calls __eq__ *)
Theorem richcmp_total_ordering_ne_refuted :
  rc_tot WPy (ord_lt CFa) CTr CTr true CN CN rT rT GT = ([(rT, LT, true); (rT, NE, true)], RB true)
  /\ rc_tot WCy (ord_lt CFa) CTr CTr true CN CN rT rT GT = ([(rT, LT, true); (rT, EQ, true)], RB false).
Proof. vm_compute. split; reflexivity. Qed.
(* neither __eq__ nor __ne__: Cython switches the directive off (compile-time warning) *)
Theorem richcmp_total_ordering_no_eq_refuted :
  rc_tot WPy (ord_lt CFa) CU CU true CN CN rT rT GT = ([(rT, LT, true)], RB true)
  /\ rc_tot WCy (ord_lt CFa) CU CU true CN CN rT rT GT = ([(rT, LT, false)], RB false).
Proof. vm_compute. split; reflexivity. Qed.
(* subclass instance on the right: functools' inner `self != other` gives the subclass priority *)
Theorem richcmp_total_ordering_subclass_refuted :
  exists o, rc_tot WPy o CTr CU true CN CN rT rX LT <> rc_tot WCy o CTr CU true CN CN rT rX LT.
Proof. exists (CU, CTr, CN, CU). vm_compute. congruence. Qed.
