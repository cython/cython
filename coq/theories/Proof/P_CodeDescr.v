(* Proofs for Model/M_CodeDescr.v (C25: code-object descriptions and inspect.signature). *)
From Coq Require Import ZArith NArith List Bool Lia ZifyBool Arith.
From CyVerif Require Import Model.M_CodeDescr.
Import ListNotations.
Open Scope Z_scope.

(* ------------------------------------------------------------------ *)
(* 1. bit lengths, maxima, bit-fields                                  *)
(* ------------------------------------------------------------------ *)

Lemma bitlen_nonneg : forall m, 0 <= bitlen m.
Proof.
  intro m. unfold bitlen. destruct (Z.leb_spec m 0); [lia|].
  pose proof (Z.log2_nonneg m). lia.
Qed.

Lemma bitlen_bound : forall v m, 0 <= v <= m -> v < 2 ^ bitlen m.
Proof.
  intros v m H. unfold bitlen. destruct (Z.leb_spec m 0) as [Hm|Hm].
  - assert (v = 0) by lia. subst. reflexivity.
  - pose proof (Z.log2_spec m Hm) as [_ Hs]. unfold Z.succ in Hs. lia.
Qed.

(* the width is also the least one: the maximum itself needs every bit *)
Lemma bitlen_tight : forall m, 0 < m -> 2 ^ (bitlen m - 1) <= m.
Proof.
  intros m Hm. unfold bitlen. destruct (Z.leb_spec m 0); [lia|].
  pose proof (Z.log2_spec m Hm) as [Hl _]. replace (Z.log2 m + 1 - 1) with (Z.log2 m) by lia. exact Hl.
Qed.

Lemma maxl_ge1 : forall l, 1 <= maxl l.
Proof. induction l as [|x l IH]; unfold maxl in *; cbn [fold_right]; lia. Qed.

Lemma maxl_ge : forall l x, In x l -> x <= maxl l.
Proof.
  induction l as [|y l IH]; intros x Hin; [destruct Hin|].
  unfold maxl in *. cbn [fold_right]. destruct Hin as [->|Hin]; [lia|]. specialize (IH x Hin). lia.
Qed.

(* the maximum is attained (or is the initial 1) *)
Lemma maxl_attained : forall l, maxl l = 1 \/ In (maxl l) l.
Proof.
  induction l as [|y l IH]; [left; reflexivity|].
  unfold maxl in *. cbn [fold_right].
  destruct (Z.max_spec y (fold_right Z.max 1 l)) as [[_ E]|[_ E]]; rewrite E.
  - destruct IH as [IH|IH]; [left; exact IH|right; right; exact IH].
  - right; left; reflexivity.
Qed.

Lemma store_field_small : forall w v, 0 <= v < 2 ^ w -> store_field w v = v.
Proof. intros. unfold store_field. apply Z.mod_small. assumption. Qed.

Lemma store_field_0 : forall w, store_field w 0 = 0.
Proof. intro w. unfold store_field. apply Zmod_0_l. Qed.

Lemma store_field_fits : forall v m, 0 <= v <= m -> store_field (bitlen m) v = v.
Proof. intros v m H. apply store_field_small. split; [lia|]. apply bitlen_bound. exact H. Qed.

Lemma store_field_in_max : forall (A : Type) (g : A -> Z) (l : list A) (x : A),
  In x l -> 0 <= g x -> store_field (bitlen (maxl (map g l))) (g x) = g x.
Proof.
  intros A g l x Hin Hnn. apply store_field_fits. split; [exact Hnn|].
  apply maxl_ge. apply in_map. exact Hin.
Qed.

Lemma zlen_nonneg : forall (A : Type) (l : list A), 0 <= zlen l.
Proof. intros. unfold zlen. lia. Qed.

Lemma flags_range : forall k a b, 0 <= flags_gen k a b < 2 ^ bitlen max_flags.
Proof. intros k a b. destruct k, a, b; vm_compute; split; congruence. Qed.

Lemma descr_ext : forall a b : descr,
  d_argcount a = d_argcount b -> d_posonly a = d_posonly b -> d_kwonly a = d_kwonly b ->
  d_nlocals a = d_nlocals b -> d_flags a = d_flags b -> d_line a = d_line b -> a = b.
Proof. intros [] []; cbn; intros; subst; reflexivity. Qed.

Lemma fkind_eqb_eq : forall a b, fkind_eqb a b = true <-> a = b.
Proof. intros a b; destruct a, b; cbn; split; congruence. Qed.

(* the conjuncts of wf_src, one by one: wf_src is a conjunction (&&) of boolean tests, which lia splits
   (it reads && and <=? through ZifyBool and treats the other tests as atoms) *)
Lemma wf_line : forall f, wf_src f = true -> 0 <= s_line f.
Proof. intros f H. unfold wf_src in H. lia. Qed.
Lemma wf_synth : forall f, wf_src f = true -> 0 <= s_synth f.
Proof. intros f H. unfold wf_src in H. lia. Qed.
Lemma wf_suffix : forall f, wf_src f = true -> suffix_defaults (map snd (s_po f ++ s_pk f)) = true.
Proof. intros f H. unfold wf_src in H. lia. Qed.
Lemma wf_nodup : forall f, wf_src f = true -> nodupb (map fst (s_ko f)) = true.
Proof. intros f H. unfold wf_src in H. lia. Qed.
Lemma wf_genexpr : forall f, wf_src f = true -> s_kind f = KGenExpr ->
  s_po f = [] /\ s_pk f = [] /\ s_ko f = [] /\ s_star f = None /\ s_ss f = None.
Proof.
  intros f H K. unfold wf_src in H. rewrite K in H. apply andb_true_iff in H as [_ H]. cbn [fkind_eqb] in H.
  destruct (s_po f); [|discriminate]. destruct (s_pk f); [|discriminate]. destruct (s_ko f); [|discriminate].
  destruct (s_star f); [discriminate|]. destruct (s_ss f); [discriminate|]. repeat split.
Qed.

(* ------------------------------------------------------------------ *)
(* 2. every description survives the module's struct                   *)
(* ------------------------------------------------------------------ *)

(* a field whose width is the maximum over the counted functions only: a function that may be left
   out is a generator expression and stores 0 there *)
Lemma counted_field : forall skip fs f (g : fsrc -> Z) v,
  (forall k, skip k = true -> k = KGenExpr) -> In f fs ->
  (if fkind_eqb (s_kind f) KGenExpr then v = 0 else v = g f /\ 0 <= v) ->
  store_field (bitlen (maxl (map g (counted skip fs)))) v = v.
Proof.
  intros skip fs f g v Hskip Hin Hv. destruct (fkind_eqb (s_kind f) KGenExpr) eqn:EK.
  - rewrite Hv. apply store_field_0.
  - destruct Hv as [-> Hnn]. apply store_field_in_max; [|exact Hnn].
    apply filter_In. split; [exact Hin|]. destruct (skip (s_kind f)) eqn:ES; [|reflexivity].
    apply Hskip, fkind_eqb_eq in ES. congruence.
Qed.

(* for every way of choosing the functions that are left out of the argument maxima, as long as
   only generator expressions are left out *)
Theorem descr_survives_gen : forall skip fs f,
  (forall k, skip k = true -> k = KGenExpr) ->
  In f fs -> wf_src f = true -> store (widths skip fs) (emitted f) = emitted f.
Proof.
  intros skip fs f Hskip Hin Hwf.
  assert (G : fkind_eqb (s_kind f) KGenExpr = true -> s_po f = [] /\ s_ko f = []).
  { intros EK. apply fkind_eqb_eq in EK. destruct (wf_genexpr f Hwf EK) as (Hpo & _ & Hko & _). auto. }
  apply descr_ext; cbn [store widths emitted d_argcount d_posonly d_kwonly d_nlocals d_flags d_line].
  - apply (counted_field skip fs f (fun f => num_args f - num_kwonly f)); try assumption.
    unfold num_args, num_kwonly. destruct (fkind_eqb (s_kind f) KGenExpr).
    + destruct (G eq_refl) as [_ ->]. reflexivity.
    + split; [reflexivity|]. pose proof (zlen_nonneg _ (s_po f)). pose proof (zlen_nonneg _ (s_pk f)). lia.
  - apply (counted_field skip fs f num_posonly); try assumption.
    unfold num_posonly. destruct (fkind_eqb (s_kind f) KGenExpr).
    + destruct (G eq_refl) as [-> _]. reflexivity.
    + split; [reflexivity|apply zlen_nonneg].
  - apply (counted_field skip fs f num_kwonly); try assumption.
    unfold num_kwonly. destruct (fkind_eqb (s_kind f) KGenExpr).
    + destruct (G eq_refl) as [_ ->]. reflexivity.
    + split; [reflexivity|apply zlen_nonneg].
  - apply (store_field_in_max fsrc (fun f => zlen (varnames f))); [exact Hin|apply zlen_nonneg].
  - apply store_field_small, flags_range.
  - apply (store_field_in_max fsrc s_line); [exact Hin|apply wf_line; exact Hwf].
Qed.

Theorem descr_survives : forall fs f, In f fs -> wf_src f = true ->
  store (widths skip_genexpr fs) (emitted f) = emitted f.
Proof.
  intros. apply descr_survives_gen; try assumption.
  intros k Hk. unfold skip_genexpr in Hk. apply fkind_eqb_eq. exact Hk.
Qed.

(* the widths are the least possible: a field of width w > 1 holds a value needing w bits *)
Theorem widths_tight_argcount : forall fs,
  1 < d_argcount (widths skip_genexpr fs) ->
  exists f, In f fs /\ 2 ^ (d_argcount (widths skip_genexpr fs) - 1) <= d_argcount (emitted f).
Proof.
  intros fs H. cbn [widths d_argcount] in *.
  set (l := map (fun f => num_args f - num_kwonly f) (counted skip_genexpr fs)) in *.
  destruct (maxl_attained l) as [E|Hin].
  - rewrite E in H. vm_compute in H. discriminate.
  - unfold l in Hin. apply in_map_iff in Hin. destruct Hin as (f & Ef & Hf).
    unfold counted in Hf. apply filter_In in Hf. destruct Hf as [Hf Hs].
    exists f. split; [exact Hf|]. cbn [emitted d_argcount].
    unfold skip_genexpr in Hs. destruct (fkind_eqb (s_kind f) KGenExpr); [discriminate|].
    rewrite Ef. fold l. apply bitlen_tight. pose proof (maxl_ge1 l). lia.
Qed.

(* ------------------------------------------------------------------ *)
(* 3. the packed bit string                                             *)
(* ------------------------------------------------------------------ *)

Theorem pack_unpack : forall ws vs, length ws = length vs -> Forall (fun w => 0 <= w) ws ->
  unpack ws (pack ws vs) = map (fun wv => store_field (fst wv) (snd wv)) (combine ws vs).
Proof.
  induction ws as [|w ws IH]; intros vs Hlen Hw; [reflexivity|].
  destruct vs as [|v vs]; [discriminate|]. inversion Hw as [|? ? Hw0 Hws]; subst.
  cbn [pack unpack combine map fst snd].
  assert (Hp : 0 < 2 ^ w) by (apply Z.pow_pos_nonneg; lia).
  assert (Hm : 0 <= v mod 2 ^ w < 2 ^ w) by (apply Z.mod_pos_bound; exact Hp).
  f_equal.
  - unfold store_field. rewrite Z.mul_comm, Z_mod_plus_full. apply Z.mod_small. exact Hm.
  - rewrite <- IH by (try exact Hws; cbn in Hlen; lia). f_equal.
    rewrite Z.mul_comm, Z_div_plus_full by lia. rewrite (Z.div_small _ _ Hm). reflexivity.
Qed.

Lemma widths_nonneg : forall skip fs, Forall (fun w => 0 <= w) (fields (widths skip fs)).
Proof.
  intros. unfold fields. cbn [widths d_argcount d_posonly d_kwonly d_nlocals d_flags d_line].
  repeat (constructor; [apply bitlen_nonneg|]). constructor.
Qed.

(* what __Pyx_PyCode_New reads out of the struct are the numbers generate_codeobj wrote *)
Theorem packed_descr_survives : forall fs f, In f fs -> wf_src f = true ->
  unpack (fields (widths skip_genexpr fs)) (pack (fields (widths skip_genexpr fs)) (fields (emitted f)))
  = fields (emitted f).
Proof.
  intros fs f Hin Hwf. rewrite pack_unpack; [|reflexivity|apply widths_nonneg].
  rewrite <- (descr_survives fs f Hin Hwf) at 2. reflexivity.
Qed.

(* ------------------------------------------------------------------ *)
(* 4. inspect.signature of the resulting code object                    *)
(* ------------------------------------------------------------------ *)

Lemma zlen_app : forall (A : Type) (l r : list A), zlen (l ++ r) = zlen l + zlen r.
Proof. intros. unfold zlen. rewrite app_length. lia. Qed.

Lemma zlen_map : forall (A B : Type) (f : A -> B) (l : list A), zlen (map f l) = zlen l.
Proof. intros. unfold zlen. rewrite map_length. reflexivity. Qed.

Lemma zfirstn_app : forall (A : Type) (l r : list A) n, n = zlen l -> zfirstn n (l ++ r) = l.
Proof.
  intros A l r n ->. unfold zfirstn, zlen. rewrite Nat2Z.id, firstn_app, Nat.sub_diag, firstn_all. apply app_nil_r.
Qed.

Lemma zskipn_app : forall (A : Type) (l r : list A) n, n = zlen l -> zskipn n (l ++ r) = r.
Proof. intros A l r n ->. unfold zskipn, zlen. rewrite Nat2Z.id, skipn_app, Nat.sub_diag, skipn_all. reflexivity. Qed.

Lemma py_upto_app : forall (A : Type) (l r : list A) n, n = zlen l -> py_upto n (l ++ r) = l.
Proof. intros A l r n E. unfold py_upto. destruct (Z.ltb_spec n 0); [unfold zlen in E; lia|apply zfirstn_app, E]. Qed.

Lemma py_from_app : forall (A : Type) (l r : list A) n, n = zlen l -> py_from n (l ++ r) = r.
Proof. intros A l r n E. unfold py_from. destruct (Z.ltb_spec n 0); [unfold zlen in E; lia|apply zskipn_app, E]. Qed.

Lemma forallb_some_map : forall l : list (option dflt), forallb is_some l = true -> l = map Some (somes l).
Proof.
  induction l as [|[d|] l IH]; cbn; intro H; [reflexivity| |discriminate].
  f_equal. apply IH. exact H.
Qed.

Lemma combine_fst_snd : forall (A B : Type) (l : list (A * B)), combine (map fst l) (map snd l) = l.
Proof. induction l as [|[a b] l IH]; cbn; [reflexivity|]. f_equal. exact IH. Qed.

(* a parameter list with defaults on a suffix splits into the part without and the part with *)
Lemma suffix_split : forall P : list param, suffix_defaults (map snd P) = true ->
  exists P1 P2, P = P1 ++ P2 /\ P1 = map (fun n => (n, None)) (map fst P1)
                /\ map snd P2 = map Some (somes (map snd P)).
Proof.
  induction P as [|[n [d|]] P IH]; intro H.
  - exists [], []. repeat split.
  - exists [], ((n, Some d) :: P). cbn [map snd somes app]. repeat split.
    f_equal. cbn [suffix_defaults map snd] in H. apply forallb_some_map. exact H.
  - cbn [suffix_defaults map snd] in H. destruct (IH H) as (P1 & P2 & E & E1 & E2).
    exists ((n, None) :: P1), P2. cbn [map fst snd somes app]. repeat split.
    + f_equal. exact E.
    + f_equal. exact E1.
    + exact E2.
Qed.

(* non_default_count splits the positional names where the defaults start, and the two parts get
   their declared defaults back *)
Lemma pos_defaults : forall P : list param, suffix_defaults (map snd P) = true ->
  let nd := zlen P - zlen (somes (map snd P)) in
  map (fun n => (n, None)) (py_upto nd (map fst P))
  ++ combine (py_from nd (map fst P)) (map Some (somes (map snd P))) = P.
Proof.
  intros P H nd. destruct (suffix_split P H) as (P1 & P2 & EP & EP1 & EP2).
  assert (End : nd = zlen (map fst P1)).
  { unfold nd, param in *. rewrite <- (zlen_map _ _ Some (somes (map snd P))), <- EP2, !zlen_map. rewrite EP at 1. rewrite zlen_app. lia. }
  rewrite <- EP2. rewrite EP at 1 2. rewrite map_app, py_upto_app, py_from_app, combine_fst_snd, EP by exact End.
  f_equal. symmetry. exact EP1.
Qed.

Lemma ploop_split : forall po pk, ploop (po ++ pk) (length po) = map (tag POnly) po ++ map (tag PosOrKw) pk.
Proof.
  induction po as [|p po IH]; intro pk.
  - cbn [app length map]. induction pk as [|q pk IHk]; [reflexivity|].
    cbn [ploop map pred]. f_equal. exact IHk.
  - cbn [app length ploop map pred]. f_equal. apply IH.
Qed.

Lemma existsb_eqb_false : forall (n : N) l, existsb (N.eqb n) l = false -> ~ In n l.
Proof.
  intros n l H Hin. assert (existsb (N.eqb n) l = true); [|congruence].
  apply existsb_exists. exists n. split; [exact Hin|apply N.eqb_refl].
Qed.

Lemma lookup_notin : forall n K, ~ In n (map fst K) -> lookup n (kwd_of K) = None.
Proof.
  induction K as [|[m [d|]] K IH]; cbn [kwd_of lookup map fst In]; intro H; [reflexivity| |].
  - destruct (N.eqb_spec n m); [exfalso; apply H; left; congruence|]. apply IH. tauto.
  - apply IH. tauto.
Qed.

Lemma kw_params_ok : forall K, nodupb (map fst K) = true ->
  map (fun n => (n, KwOnly, lookup n (kwd_of K))) (map fst K) = map (tag KwOnly) K.
Proof.
  induction K as [|[m d] K IH]; intro H; [reflexivity|].
  cbn [map fst nodupb] in H. apply andb_prop in H. destruct H as [Hn Hd].
  apply negb_true_iff in Hn. apply existsb_eqb_false in Hn.
  cbn [map fst]. f_equal.
  - unfold tag. cbn [fst snd]. f_equal. destruct d as [d|]; cbn [kwd_of lookup].
    + rewrite N.eqb_refl. reflexivity.
    + apply lookup_notin. exact Hn.
  - rewrite <- (IH Hd). apply map_ext_in. intros n Hin. f_equal.
    destruct d as [d|]; cbn [kwd_of lookup]; [|reflexivity].
    destruct (N.eqb_spec n m); [subst; contradiction|reflexivity].
Qed.

Lemma testbit_flags : forall k a b,
  Z.testbit (flags_gen k a b) 2 = a /\ Z.testbit (flags_gen k a b) 3 = b.
Proof. intros k a b. destruct k, a, b; vm_compute; split; reflexivity. Qed.

Lemma to_nat_zlen : forall (A : Type) (l : list A), Z.to_nat (zlen l) = length l.
Proof. intros. unfold zlen. apply Nat2Z.id. Qed.

(* the code object built from the numbers as written, for any positional list P = po ++ pk *)
Lemma sig_core : forall (po pk K : list param) (st ss : option name) (locals : list name)
                        (k : fkind) (nl ln : Z),
  suffix_defaults (map snd (po ++ pk)) = true -> nodupb (map fst K) = true ->
  sig_of_code {| co_argcount := zlen po + zlen pk; co_posonlyargcount := zlen po;
                 co_kwonlyargcount := zlen K; co_nlocals := nl;
                 co_flags := flags_gen k (is_some st) (is_some ss); co_firstlineno := ln;
                 co_varnames := map fst po ++ map fst pk ++ map fst K
                                ++ opt_list (fun n => n) st ++ opt_list (fun n => n) ss ++ locals |}
              (somes (map snd (po ++ pk))) (kwd_of K)
  = SigOk (map (tag POnly) po ++ map (tag PosOrKw) pk
           ++ opt_list (fun n => (n, VarPos, None)) st
           ++ map (tag KwOnly) K
           ++ opt_list (fun n => (n, VarKw, None)) ss).
Proof.
  intros po pk K st ss locals k nl ln Hsuf Hnd.
  unfold sig_of_code. cbn [co_argcount co_posonlyargcount co_kwonlyargcount co_flags co_varnames].
  destruct (testbit_flags k (is_some st) (is_some ss)) as [-> ->].
  rewrite <- zlen_app, (app_assoc (map fst po)), <- map_app.
  set (rest := opt_list (fun n => n) st ++ opt_list (fun n => n) ss ++ locals).
  rewrite (py_upto_app _ (map fst (po ++ pk))) by (symmetry; apply zlen_map).
  rewrite (zskipn_app _ (map fst (po ++ pk))) by (symmetry; apply zlen_map).
  rewrite (zfirstn_app _ (map fst K)) by (symmetry; apply zlen_map).
  rewrite (pos_defaults _ Hsuf), to_nat_zlen, ploop_split.
  assert (Eidx : Z.to_nat (zlen (po ++ pk) + zlen K) = length (map fst (po ++ pk) ++ map fst K)).
  { unfold zlen. rewrite <- Nat2Z.inj_add, Nat2Z.id, (app_length (map _ _)), !map_length. reflexivity. }
  rewrite Eidx, (app_assoc (map fst (po ++ pk))). clear Eidx.
  pose proof (kw_params_ok K Hnd) as EKW.
  unfold sigparam, param, name, dflt in EKW |- *. rewrite EKW. clear EKW Hsuf Hnd. unfold rest.
  destruct st as [sn|], ss as [kn|]; cbn [is_some opt_list app].
  - rewrite !nth_error_app2 by lia. rewrite Nat.sub_succ_l by lia. rewrite !Nat.sub_diag.
    cbn [nth_error]. rewrite <- !app_assoc. reflexivity.
  - rewrite nth_error_app2 by lia. rewrite Nat.sub_diag. cbn [nth_error].
    rewrite <- !app_assoc. rewrite app_nil_r. reflexivity.
  - rewrite nth_error_app2 by lia. rewrite Nat.sub_diag. cbn [nth_error].
    rewrite <- !app_assoc. reflexivity.
  - rewrite <- !app_assoc. rewrite app_nil_r. reflexivity.
Qed.

Lemma firstn_zlen_all : forall (A : Type) (l : list A), firstn (Z.to_nat (zlen l)) l = l.
Proof. intros. rewrite to_nat_zlen. apply firstn_all. Qed.

(* the code object of a function that is not a generator expression: the declared numbers, all its names *)
Lemma code_of_plain : forall fs f, In f fs -> wf_src f = true -> s_kind f <> KGenExpr ->
  code_of skip_genexpr fs f =
  {| co_argcount := zlen (s_po f) + zlen (s_pk f); co_posonlyargcount := zlen (s_po f);
     co_kwonlyargcount := zlen (s_ko f); co_nlocals := zlen (varnames f); co_flags := flags_of f;
     co_firstlineno := s_line f; co_varnames := varnames f |}.
Proof.
  intros fs f Hin Hwf Hk. unfold code_of. rewrite (descr_survives fs f Hin Hwf).
  unfold code_of_descr. cbn [emitted d_argcount d_posonly d_kwonly d_nlocals d_flags d_line].
  rewrite firstn_zlen_all.
  assert (EK : fkind_eqb (s_kind f) KGenExpr = false).
  { destruct (fkind_eqb (s_kind f) KGenExpr) eqn:E; [|reflexivity]. apply fkind_eqb_eq in E. contradiction. }
  unfold num_args, num_kwonly, num_posonly. rewrite EK. f_equal. lia.
Qed.

(* inspect.signature() of every compiled function of every module lists exactly the declared
   parameters: names, kinds and default values *)
Theorem signature_faithful : forall fs f, In f fs -> wf_src f = true -> s_kind f <> KGenExpr ->
  compiled_sig skip_genexpr fs f = SigOk (source_sig f).
Proof.
  intros fs f Hin Hwf Hk. unfold compiled_sig. rewrite (code_of_plain fs f Hin Hwf Hk).
  unfold varnames, flags_of, defaults_of, kwdefaults_of, source_sig.
  apply sig_core; [apply wf_suffix; exact Hwf|apply wf_nodup; exact Hwf].
Qed.

(* the counts themselves: the code object carries the declared numbers and flags *)
Theorem code_counts_faithful : forall fs f, In f fs -> wf_src f = true -> s_kind f <> KGenExpr ->
  let c := code_of skip_genexpr fs f in
  co_argcount c = zlen (s_po f) + zlen (s_pk f) /\ co_posonlyargcount c = zlen (s_po f) /\
  co_kwonlyargcount c = zlen (s_ko f) /\ co_flags c = flags_of f /\ co_firstlineno c = s_line f /\
  co_varnames c = varnames f.
Proof. intros fs f Hin Hwf Hk c. unfold c. rewrite (code_of_plain fs f Hin Hwf Hk). repeat split. Qed.

(* ------------------------------------------------------------------ *)
(* 5. the variant that leaves every generator out of the maxima          *)
(* ------------------------------------------------------------------ *)

Theorem skip_generators_refuted :
  In w_gen w_module /\ wf_src w_gen = true /\ wf_src w_plain = true /\
  survives skip_generators w_module w_gen = false /\
  compiled_sig skip_generators w_module w_gen <> SigOk (source_sig w_gen) /\
  compiled_sig skip_genexpr w_module w_gen = SigOk (source_sig w_gen).
Proof.
  split; [right; left; reflexivity|].
  split; [reflexivity|]. split; [reflexivity|]. split; [vm_compute; reflexivity|].
  split; [vm_compute; intro H; discriminate H|vm_compute; reflexivity].
Qed.
