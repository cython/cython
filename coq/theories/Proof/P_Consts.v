(* Proofs for property C09 (Model/M_Consts.v). *)
From Coq Require Import ZArith List Bool Lia ZifyBool.
From CyVerif Require Import Lib.CInt Model.M_Consts.
Import ListNotations.
Open Scope Z_scope.

Definition step (base : Z) (a c : Z) : Z := a * base + digit_val c.

Lemma eval_digits_fold base s : eval_digits base s = fold_left (step base) s 0.
Proof. reflexivity. Qed.

(* a character that scan consumes as a digit of the base *)
Definition dig_ok (base c : Z) : Prop := digit_val c < base /\ c <> ch_us.

Definition plain (c : Z) : Prop :=
  is_space c = false /\ c <> ch_minus /\ c <> ch_plus /\ c <> ch_us.

(* _PyLong_DigitValue by ranges, in the form lia can use *)
Lemma digit_val_cases c :
  (48 <= c <= 57 /\ digit_val c = c - 48) \/ (97 <= c <= 122 /\ digit_val c = c - 87) \/
  (65 <= c <= 90 /\ digit_val c = c - 55) \/
  (~ 48 <= c <= 57 /\ ~ 97 <= c <= 122 /\ ~ 65 <= c <= 90 /\ digit_val c = 37).
Proof.
  unfold digit_val.
  destruct ((48 <=? c) && (c <=? 57)) eqn:A; [lia|].
  destruct ((97 <=? c) && (c <=? 122)) eqn:B; [lia|].
  destruct ((65 <=? c) && (c <=? 90)) eqn:C; lia.
Qed.

Lemma digit_val_range c : 0 <= digit_val c.
Proof. pose proof (digit_val_cases c). lia. Qed.

Lemma is_dec_val c : is_dec c = true -> digit_val c = c - 48 /\ 48 <= c <= 57.
Proof. unfold is_dec. pose proof (digit_val_cases c). lia. Qed.

Lemma dig_ok_plain b c : b <= 36 -> dig_ok b c -> plain c.
Proof. unfold dig_ok, plain, is_space, ch_us, ch_minus, ch_plus. pose proof (digit_val_cases c). lia. Qed.

(* b, l, o, x are the digits 11, 21, 24, 33 *)
Lemma dig_ok_letters b c : dig_ok b c ->
  (b <= 11 -> is_b c = false) /\ (b <= 21 -> is_l c = false) /\
  (b <= 24 -> is_o c = false) /\ (b <= 33 -> is_x c = false).
Proof. unfold dig_ok, is_b, is_l, is_o, is_x. pose proof (digit_val_cases c). lia. Qed.

Lemma is_hexd_dig c : is_hexd c = true -> dig_ok 16 c.
Proof. unfold is_hexd, is_dec, dig_ok, ch_us. pose proof (digit_val_cases c). lia. Qed.
Lemma is_dec_dig c : is_dec c = true -> dig_ok 10 c.
Proof. unfold is_dec, dig_ok, ch_us. pose proof (digit_val_cases c). lia. Qed.
Lemma is_dec_ok c : is_dec c = true -> dig_ok 10 c /\ dig_ok 8 c \/ dig_ok 10 c.
Proof. intros H. right. exact (is_dec_dig c H). Qed.
Lemma is_octd_dig c : is_octd c = true -> dig_ok 8 c.
Proof. unfold is_octd, dig_ok, ch_us. pose proof (digit_val_cases c). lia. Qed.
Lemma is_bind_dig c : is_bind c = true -> dig_ok 2 c.
Proof. unfold is_bind, dig_ok, ch_us. pose proof (digit_val_cases c). lia. Qed.

Lemma scan_digits base s : forall acc nd,
  Forall (dig_ok base) s ->
  scan base false acc nd s = Some (fold_left (step base) s acc, nd + Z.of_nat (length s), []).
Proof.
  induction s as [|c t IH]; intros acc nd H.
  - cbn. rewrite Z.add_0_r. reflexivity.
  - inversion H as [|? ? [Hd Hu] Ht]; subst. cbn [scan].
    destruct (Z.eqb_spec c ch_us) as [E|_]; [contradiction|].
    destruct (Z.ltb_spec (digit_val c) base) as [_|L]; [|lia].
    rewrite IH by assumption. cbn [fold_left length]. unfold step at 2.
    f_equal. f_equal. f_equal. lia.
Qed.

(* no 0x/0o/0b prefix is seen, since x, o and b are not digits of the base they announce *)
Lemma py_int_digits b s : b <> 0 -> b <= 36 -> s <> [] -> Forall (dig_ok b) s ->
  py_int b s = if negb (is_pow2_base b) && (max_str_digits <? Z.of_nat (length s)) then None
               else Some (eval_digits b s).
Proof.
  intros Hb0 Hb Hne Hd. destruct s as [|c0 t]; [congruence|].
  inversion Hd as [|? ? Hc0 Ht]; subst.
  destruct (dig_ok_plain b c0 Hb Hc0) as (Hs & Hm & Hp & Hu).
  apply Z.eqb_neq in Hb0, Hm, Hp, Hu.
  unfold py_int. cbn [drop_space]. rewrite Hs, Hm, Hp, Hb0. cbn [orb andb].
  (* py_int's s3 is its s2 *)
  match goal with |- match ?s3 with [] => _ | _ :: _ => _ end = _ => assert (S3 : s3 = c0 :: t) end.
  { destruct Ht as [|c1 t0 Hc1 _]; [reflexivity|].
    destruct (dig_ok_letters b c1 Hc1) as (B & _ & O & X).
    replace ((b =? 16) && is_x c1 || (b =? 8) && is_o c1 || (b =? 2) && is_b c1) with false by lia.
    rewrite andb_false_r. reflexivity. }
  rewrite S3, Hu, scan_digits by assumption.
  cbn [forallb negb andb]. rewrite Z.add_0_l.
  destruct (Z.eqb_spec (Z.of_nat (length (c0 :: t))) 0) as [E|_]; [discriminate E|].
  reflexivity.
Qed.

Lemma py_int_pow2_digits b s : is_pow2_base b = true -> s <> [] -> Forall (dig_ok b) s ->
  py_int b s = Some (eval_digits b s).
Proof.
  intros Hp Hne Hd. rewrite py_int_digits, Hp; try assumption; [reflexivity| |];
    unfold is_pow2_base in Hp; lia.
Qed.

Lemma py_int_0_dec c t : plain c -> c <> ch_0 -> py_int 0 (c :: t) = py_int 10 (c :: t).
Proof.
  intros (Hs & Hm & Hp & _) H0. apply Z.eqb_neq in Hm, Hp, H0.
  unfold py_int. cbn [drop_space]. rewrite Hs, Hm, Hp. cbn [orb].
  destruct t; rewrite ?H0; reflexivity.
Qed.

Lemma py_int_0_decimal c0 t : c0 <> ch_0 -> Forall (dig_ok 10) (c0 :: t) ->
  py_int 0 (c0 :: t) = if max_str_digits <? Z.of_nat (length (c0 :: t)) then None
                       else Some (eval_digits 10 (c0 :: t)).
Proof.
  intros H0 F. rewrite py_int_0_dec; [|apply (dig_ok_plain 10); [lia|inversion F; assumption]|exact H0].
  apply py_int_digits; [lia|lia|discriminate|exact F].
Qed.

Lemma py_int_0_zero : py_int 0 [ch_0] = Some 0.
Proof. reflexivity. Qed.

Lemma eval_digits_zeros b s : Forall (fun c => c = ch_0) s -> eval_digits b s = 0.
Proof. rewrite eval_digits_fold. induction 1 as [|c t -> _ IH]; [reflexivity|exact IH]. Qed.

Lemma strip_us_cons_keep c t : c <> ch_us -> strip_us (c :: t) = c :: strip_us t.
Proof. intros N. unfold strip_us. cbn [filter]. destruct (Z.eqb_spec c ch_us); [contradiction|reflexivity]. Qed.

(* (["_"] d)* of the literal grammar *)
Lemma us_digits_strip isd s : isd ch_us = false -> us_digits isd s = true ->
  Forall (fun c => isd c = true) (strip_us s) /\ (s <> [] -> strip_us s <> []).
Proof.
  intros Hus. induction s as [|c t IH]; intros H; [split; [constructor|congruence]|].
  cbn [us_digits] in H. destruct (Z.eqb_spec c ch_us) as [->|N].
  - (* the character after an underscore is a digit, so the tail is of the same form *)
    destruct t as [|d t']; [discriminate|]. apply andb_prop in H. destruct H as [Hc Ht].
    assert (Nd : d <> ch_us) by congruence.
    destruct IH as [F NE]; [cbn [us_digits]; rewrite (proj2 (Z.eqb_neq _ _) Nd), Hc; exact Ht|].
    split; [exact F|]. intros _. apply NE. discriminate.
  - apply andb_prop in H. destruct H as [Hc Ht]. rewrite strip_us_cons_keep by assumption.
    split; [constructor; [exact Hc|apply IH; exact Ht]|discriminate].
Qed.

(* Utils.strip_py2_long_suffix leaves a text alone that ends in a digit of a base up to 21 *)
Lemma strip_L_digits b pre l : b <= 21 -> l <> [] -> Forall (dig_ok b) l -> strip_L (pre ++ l) = pre ++ l.
Proof.
  intros Hb Hne F. destruct (exists_last Hne) as (l' & a & ->).
  apply Forall_app in F. destruct F as [_ F]. inversion F as [|? ? Fa _]; subst.
  unfold strip_L. rewrite app_assoc, last_last.
  destruct (dig_ok_letters b a Fa) as (_ & L & _). rewrite L by assumption. reflexivity.
Qed.

Lemma str_to_number_minus c t : c <> ch_minus ->
  str_to_number (ch_minus :: c :: t) = match str_to_number (c :: t) with Some v => Some (- v) | None => None end.
Proof.
  intros N. apply Z.eqb_neq in N. unfold str_to_number. change (ch_minus =? ch_minus) with true. rewrite N. cbn iota.
  match goal with |- match ?r with _ => _ end = _ => destruct r end; reflexivity.
Qed.

Lemma str_to_number_0 c1 u :
  str_to_number (ch_0 :: c1 :: u) =
  if is_x c1 then py_int 16 (skipn 2 (strip_L (ch_0 :: c1 :: u)))
  else if is_o c1 then py_int 8 u else if is_b c1 then py_int 2 u else py_int 8 (ch_0 :: c1 :: u).
Proof.
  unfold str_to_number. change (ch_0 =? ch_minus) with false. cbn iota.
  change (ch_0 =? ch_0) with true. cbn iota.
  match goal with |- match ?r with _ => _ end = _ => destruct r end; reflexivity.
Qed.

Lemma str_to_number_dec c t : c <> ch_minus -> c <> ch_0 -> str_to_number (c :: t) = py_int 0 (c :: t).
Proof.
  intros Nm N0. apply Z.eqb_neq in Nm, N0. unfold str_to_number. rewrite Nm. cbn iota.
  destruct t; rewrite ?N0; destruct (py_int 0 _); reflexivity.
Qed.

Lemma str_to_number_0x c1 d : is_x c1 = true -> d <> [] -> Forall (dig_ok 16) d ->
  str_to_number (ch_0 :: c1 :: d) = py_int 16 d.
Proof.
  intros X NE F. pose proof (strip_L_digits 16 [ch_0; c1] d ltac:(lia) NE F) as SL. cbn [app] in SL.
  rewrite str_to_number_0, X, SL. reflexivity.
Qed.

(* "0" followed by octal digits is read in base 8: the legacy form, and CPython's "00...0" *)
Lemma str_to_number_0_octal c1 t : Forall (dig_ok 8) (ch_0 :: c1 :: t) ->
  str_to_number (ch_0 :: c1 :: t) = Some (eval_digits 8 (ch_0 :: c1 :: t)).
Proof.
  intros F. inversion F as [|? ? _ F1]; subst. inversion F1 as [|? ? Hc1 _]; subst.
  destruct (dig_ok_letters 8 c1 Hc1) as (B & _ & O & X).
  rewrite str_to_number_0, X, O, B by lia. apply py_int_pow2_digits; [reflexivity|discriminate|exact F].
Qed.

Lemma str_to_number_decimal c t : c <> ch_0 -> Forall (dig_ok 10) (c :: t) ->
  Z.of_nat (length (c :: t)) <= max_str_digits -> str_to_number (c :: t) = Some (eval_digits 10 (c :: t)).
Proof.
  intros N0 F Len. inversion F as [|? ? Fc _]; subst.
  destruct (dig_ok_plain 10 c ltac:(lia) Fc) as (_ & Nm & _).
  rewrite str_to_number_dec, py_int_0_decimal by assumption.
  apply Z.ltb_ge in Len. rewrite Len. reflexivity.
Qed.

Lemma prefixed_digits isd b u : isd ch_us = false -> (forall c, isd c = true -> dig_ok b c) ->
  is_pow2_base b = true -> nonempty u && us_digits isd u = true ->
  strip_us u <> [] /\ Forall (dig_ok b) (strip_us u) /\ py_int b (strip_us u) = Some (eval_digits b (strip_us u)).
Proof.
  intros Hus Hd Hp G. apply andb_prop in G. destruct G as [Gn Gd].
  destruct (us_digits_strip isd u Hus Gd) as [F NE]. apply (Forall_impl _ Hd) in F.
  assert (NEu : strip_us u <> []) by (apply NE; intros ->; discriminate Gn).
  auto using py_int_pow2_digits.
Qed.

Lemma str_to_number_literal t v :
  python_int_literal t = Some v -> literal_within_limit t = true -> str_to_number (strip_us t) = Some v.
Proof.
  unfold python_int_literal, literal_within_limit.
  destruct (lit_split t) as [[b d]|] eqn:L; [|discriminate]. intros [= <-] Hlim.
  unfold lit_split in L. destruct t as [|c0 t0]; [discriminate|].
  destruct (Z.eqb_spec c0 ch_0) as [->|N0].
  - rewrite (strip_us_cons_keep ch_0) by discriminate.
    destruct t0 as [|c1 u]; [injection L as <- <-; reflexivity|].
    destruct (is_x c1) eqn:X; [|destruct (is_o c1) eqn:O; [|destruct (is_b c1) eqn:B]].
    + destruct (nonempty u && us_digits is_hexd u) eqn:G; [|discriminate]. injection L as <- <-.
      destruct (prefixed_digits is_hexd 16 u eq_refl is_hexd_dig eq_refl G) as (NE & F & P).
      rewrite strip_us_cons_keep by (unfold is_x, ch_us in *; lia).
      rewrite str_to_number_0x by assumption. exact P.
    + destruct (nonempty u && us_digits is_octd u) eqn:G; [|discriminate]. injection L as <- <-.
      destruct (prefixed_digits is_octd 8 u eq_refl is_octd_dig eq_refl G) as (_ & _ & P).
      rewrite strip_us_cons_keep by (unfold is_o, ch_us in *; lia).
      rewrite str_to_number_0, X, O. exact P.
    + destruct (nonempty u && us_digits is_bind u) eqn:G; [|discriminate]. injection L as <- <-.
      destruct (prefixed_digits is_bind 2 u eq_refl is_bind_dig eq_refl G) as (_ & _ & P).
      rewrite strip_us_cons_keep by (unfold is_b, ch_us in *; lia).
      rewrite str_to_number_0, X, O, B. exact P.
    + (* "0" ( ["_"] "0" )* : read in base 8, and zero in any base *)
      destruct (us_digits is_zero_ch (c1 :: u)) eqn:G; [|discriminate]. injection L as <- <-.
      destruct (us_digits_strip is_zero_ch (c1 :: u) eq_refl G) as [F NE].
      rewrite (strip_us_cons_keep ch_0) by discriminate.
      destruct (strip_us (c1 :: u)) as [|z1 zs] eqn:SU; [exfalso; apply NE; [discriminate|reflexivity]|].
      assert (FZ : Forall (fun c => c = ch_0) (ch_0 :: z1 :: zs)).
      { constructor; [reflexivity|]. eapply Forall_impl; [|exact F]. intros c Hc. apply Z.eqb_eq. exact Hc. }
      rewrite str_to_number_0_octal, !eval_digits_zeros; [reflexivity|exact FZ|exact FZ|].
      eapply Forall_impl; [|exact FZ]. intros c ->. split; [reflexivity|discriminate].
  - (* decimal, first digit 1-9 *)
    destruct (is_nonzero_dec c0 && us_digits is_dec t0) eqn:G; [|discriminate]. injection L as <- <-.
    apply andb_prop in G. destruct G as [G0 Gd].
    assert (D0 : dig_ok 10 c0) by (apply is_dec_dig; unfold is_nonzero_dec, is_dec in *; lia).
    destruct (us_digits_strip is_dec t0 eq_refl Gd) as [F _]. apply (Forall_impl _ is_dec_dig) in F.
    rewrite strip_us_cons_keep in * by apply D0.
    rewrite (proj2 (Z.eqb_neq _ _) N0) in Hlim. change (10 =? 10) with true in Hlim. cbn [negb orb] in Hlim.
    apply str_to_number_decimal; [exact N0|constructor; assumption|apply Z.leb_le; exact Hlim].
Qed.

(* a literal of CPython's grammar, optionally signed by the compiler, after the scanner removed the
   underscores *)
Theorem str_to_number_value s v :
  signed_literal s = Some v -> signed_within_limit s = true ->
  str_to_number (strip_us s) = Some v.
Proof.
  unfold signed_literal, signed_within_limit. destruct s as [|c t]; [discriminate|].
  destruct (Z.eqb_spec c ch_minus) as [->|N]; [|apply str_to_number_literal].
  destruct (python_int_literal t) as [w|] eqn:P; [|discriminate]. intros [= <-] Hl.
  pose proof (str_to_number_literal t w P Hl) as R.
  (* the first character of a literal is a digit *)
  assert (D : exists c r, strip_us t = c :: r /\ c <> ch_minus).
  { unfold python_int_literal, lit_split in P. destruct t as [|c r]; [discriminate|].
    exists c, (strip_us r). destruct (Z.eqb_spec c ch_0) as [->|_]; [split; [reflexivity|discriminate]|].
    destruct (is_nonzero_dec c) eqn:Nz; [|discriminate].
    assert (c <> ch_us /\ c <> ch_minus) as [Nu Nm] by (unfold is_nonzero_dec, ch_us, ch_minus in *; lia).
    rewrite strip_us_cons_keep by exact Nu. auto. }
  destruct D as (c & r & E & Nc).
  rewrite (strip_us_cons_keep ch_minus) by discriminate. rewrite E in *.
  rewrite str_to_number_minus, R by assumption. reflexivity.
Qed.

(* the legacy "0NNN" form the lexicon still admits is read as octal *)
Theorem str_to_number_legacy_octal s :
  legacy_octal s = true -> str_to_number s = Some (eval_digits 8 s).
Proof.
  unfold legacy_octal. destruct s as [|c0 [|c1 t]]; try discriminate.
  intros H. apply andb_prop in H. destruct H as [H0 H1]. apply Z.eqb_eq in H0. subst c0.
  apply str_to_number_0_octal. constructor; [split; [reflexivity|discriminate]|].
  apply Forall_forall. intros x Hx. apply is_octd_dig. exact (proj1 (forallb_forall _ _) H1 x Hx).
Qed.

(* the raw token with an underscore directly after the base prefix is NOT accepted by
   str_to_number (int("_1f", 16) raises); harmless because the scanner strips underscores *)
Lemma str_to_number_raw_prefix_underscore :
  python_int_literal [48; 120; 95; 49; 102] = Some 31 /\ str_to_number [48; 120; 95; 49; 102] = None
  /\ str_to_number (strip_us [48; 120; 95; 49; 102]) = Some 31.
Proof. vm_compute. auto. Qed.

Lemma digit_char_dig b d : 0 <= d < b -> b <= 36 ->
  dig_ok b (digit_char d) /\ digit_val (digit_char d) = d.
Proof.
  intros Hd Hb. unfold dig_ok, digit_char, ch_us.
  destruct (Z.ltb_spec d 10); [pose proof (digit_val_cases (48 + d))|pose proof (digit_val_cases (87 + d))]; lia.
Qed.

Lemma dec_digit_char d : 0 <= d < 10 -> is_dec (digit_char d) = true /\ (0 < d -> is_nonzero_dec (digit_char d) = true).
Proof. intros H. unfold digit_char, is_dec, is_nonzero_dec. destruct (Z.ltb_spec d 10); lia. Qed.

Lemma div_eucl_eq n b : Z.div_eucl n b = (n / b, n mod b).
Proof. unfold Z.div, Z.modulo. destruct (Z.div_eucl n b). reflexivity. Qed.

Lemma digits_rev_0 fuel b : digits_rev fuel b 0 = [].
Proof. destruct fuel; reflexivity. Qed.

Lemma digits_rev_spec b : 2 <= b <= 36 -> forall fuel n,
  0 <= n < 2 ^ Z.of_nat fuel ->
  fold_left (step b) (rev (digits_rev fuel b n)) 0 = n
  /\ Forall (dig_ok b) (digits_rev fuel b n)
  /\ (0 < n -> exists l c, digits_rev fuel b n = l ++ [c] /\ digit_val c <> 0).
Proof.
  intros Hb. induction fuel as [|f IH]; intros n Hn.
  - cbn in Hn. assert (n = 0) by lia. subst. cbn. repeat split; [constructor|lia].
  - cbn [digits_rev]. destruct (Z.leb_spec n 0) as [L|G].
    + assert (n = 0) by lia. subst. cbn. repeat split; [constructor|lia].
    + rewrite div_eucl_eq.
      assert (Hq : 0 <= n / b < 2 ^ Z.of_nat f).
      { rewrite Nat2Z.inj_succ, Z.pow_succ_r in Hn by lia.
        split; [apply Z.div_pos; lia|].
        apply Z.div_lt_upper_bound; [lia|]. nia. }
      destruct (IH (n / b) Hq) as (V & F & Lst).
      pose proof (Z.mod_pos_bound n b ltac:(lia)) as Hr.
      pose proof (Z.div_mod n b ltac:(lia)) as DM.
      destruct (digit_char_dig b (n mod b) Hr ltac:(lia)) as (Dk & Dv).
      repeat split.
      * cbn [rev]. rewrite fold_left_app. cbn [fold_left]. rewrite V. unfold step. lia.
      * constructor; assumption.
      * intros _. destruct (Z.eq_dec (n / b) 0) as [E|NE].
        -- exists [], (digit_char (n mod b)). rewrite E, digits_rev_0. split; [reflexivity|lia].
        -- destruct (Lst ltac:(lia)) as (l & c & -> & Hc).
           exists (digit_char (n mod b) :: l), c. split; [reflexivity|assumption].
Qed.

Lemma digits_rev_pow2_eq k : 0 < k -> forall fuel n,
  0 <= n -> digits_rev_pow2 fuel k n = digits_rev fuel (2 ^ k) n.
Proof.
  intros Hk. induction fuel as [|f IH]; intros n Hn; [reflexivity|].
  cbn [digits_rev_pow2 digits_rev]. destruct (n <=? 0); [reflexivity|].
  rewrite div_eucl_eq, Z.land_ones, Z.shiftr_div_pow2 by lia.
  rewrite IH; [reflexivity|]. apply Z.div_pos; [lia|]. apply Z.pow_pos_nonneg; lia.
Qed.

Lemma digit_fuel_ok n : 0 < n -> 0 <= n < 2 ^ Z.of_nat (digit_fuel n).
Proof.
  intros H. unfold digit_fuel. rewrite Nat2Z.inj_succ, Z2Nat.id by apply Z.log2_nonneg.
  pose proof (Z.log2_spec n H). lia.
Qed.

Lemma to_digits_spec b n : 2 <= b <= 36 -> 0 < n ->
  eval_digits b (to_digits b n) = n
  /\ Forall (dig_ok b) (to_digits b n)
  /\ exists c t, to_digits b n = c :: t /\ digit_val c <> 0.
Proof.
  intros Hb Hn. unfold to_digits.
  destruct (digits_rev_spec b Hb (digit_fuel n) n (digit_fuel_ok n Hn)) as (V & F & Lst).
  split; [exact V|]. split; [apply Forall_rev; exact F|].
  destruct (Lst Hn) as (l & c & -> & Hc). exists c, (rev l). rewrite rev_app_distr. auto.
Qed.

Lemma to_digits_pow2_eq k n : 0 < k -> 0 < n -> to_digits_pow2 k n = to_digits (2 ^ k) n.
Proof. intros. unfold to_digits_pow2, to_digits. rewrite digits_rev_pow2_eq by lia. reflexivity. Qed.

Lemma digits_rev_length b : 2 <= b -> forall fuel k n,
  0 <= n < b ^ Z.of_nat k -> (length (digits_rev fuel b n) <= k)%nat.
Proof.
  intros Hb. induction fuel as [|f IH]; intros k n Hn; [cbn; lia|].
  cbn [digits_rev]. destruct (Z.leb_spec n 0); [cbn; lia|].
  rewrite div_eucl_eq. destruct k as [|k]; [cbn in Hn; lia|].
  cbn [length]. apply le_n_S. apply IH.
  rewrite Nat2Z.inj_succ, Z.pow_succ_r in Hn by lia.
  split; [apply Z.div_pos; lia|]. apply Z.div_lt_upper_bound; [lia|]. nia.
Qed.

Lemma to_digits_length b n k : 2 <= b -> 0 <= k -> 0 <= n < b ^ k -> Z.of_nat (length (to_digits b n)) <= k.
Proof.
  intros Hb Hk Hn. unfold to_digits. rewrite rev_length.
  pose proof (digits_rev_length b Hb (digit_fuel n) (Z.to_nat k) n) as B.
  rewrite Z2Nat.id in B by exact Hk. specialize (B Hn). lia.
Qed.

Lemma py_int_to_digits b n : is_pow2_base b = true -> 0 < n -> py_int b (to_digits b n) = Some n.
Proof.
  intros Hp Hn.
  destruct (to_digits_spec b n) as (V & F & c & t & E & _); [unfold is_pow2_base in Hp; lia|exact Hn|].
  rewrite py_int_pow2_digits, V; [reflexivity|exact Hp|rewrite E; discriminate|exact F].
Qed.

Lemma py_int_minus b c t : plain c ->
  py_int b (ch_minus :: c :: t) = match py_int b (c :: t) with Some v => Some (- v) | None => None end.
Proof.
  intros (Hs & Hm & Hp & Hu). apply Z.eqb_neq in Hm, Hp. unfold py_int. cbn [drop_space].
  change (is_space ch_minus) with false. cbn iota. rewrite Hs.
  change (ch_minus =? ch_minus) with true. rewrite Hm, Hp. cbn [orb]. cbn iota.
  (* both sides scan the same string s in the same base b', and differ in the final sign *)
  match goal with |- context [scan ?b' false 0 0 ?s] => generalize s; generalize b' end.
  intros b' s. destruct s as [|c0 s']; [reflexivity|]. destruct (c0 =? ch_us); [reflexivity|].
  destruct (scan b' false 0 0 (c0 :: s')) as [[[v nd] rest]|]; [|reflexivity].
  destruct (nd =? 0); [reflexivity|]. destruct (negb (forallb is_space rest)); [reflexivity|].
  destruct (negb (is_pow2_base b') && (max_str_digits <? nd)); [reflexivity|].
  destruct (_ && negb (v =? 0)); reflexivity.
Qed.

Lemma hex_digits_spec v :
  let d := if v =? 0 then [ch_0] else to_digits_pow2 4 (Z.abs v) in
  d <> [] /\ Forall (dig_ok 16) d /\ py_int 16 d = Some (Z.abs v).
Proof.
  destruct (Z.eqb_spec v 0) as [->|NZ]; cbn zeta.
  - repeat split; [discriminate|repeat constructor; discriminate].
  - rewrite to_digits_pow2_eq by lia. change (2 ^ 4) with 16.
    destruct (to_digits_spec 16 (Z.abs v)) as (_ & F & c & t & E & _); [lia|lia|].
    split; [rewrite E; discriminate|]. split; [exact F|]. apply py_int_to_digits; [reflexivity|lia].
Qed.

Lemma py_hex_roundtrip v : strip_L (py_hex v) = py_hex v /\ str_to_number (py_hex v) = Some v.
Proof.
  unfold py_hex. destruct (hex_digits_spec v) as (NE & F & P). cbn zeta in NE, F, P.
  set (d := if v =? 0 then [ch_0] else to_digits_pow2 4 (Z.abs v)) in *. rewrite app_assoc.
  split; [apply (strip_L_digits 16); [lia|exact NE|exact F]|].
  assert (R : str_to_number (ch_0 :: 120 :: d) = Some (Z.abs v))
    by (rewrite str_to_number_0x; [exact P|reflexivity|exact NE|exact F]).
  destruct (Z.ltb_spec v 0); cbn [app].
  - rewrite str_to_number_minus, R by discriminate. f_equal. lia.
  - rewrite R. f_equal. lia.
Qed.

Lemma py_str_roundtrip v s : py_str v = Some s -> strip_L s = s /\ str_to_number s = Some v.
Proof.
  unfold py_str. destruct (Z.eqb_spec v 0) as [->|NZ]; [intros [= <-]; split; reflexivity|].
  destruct (Z.leb_spec pow10_limit (Z.abs v)) as [|Lim]; [discriminate|].
  destruct (to_digits_spec 10 (Z.abs v)) as (V & F & c & t & E & Hc); [lia|lia|].
  pose proof (to_digits_length 10 (Z.abs v) max_str_digits ltac:(lia) ltac:(unfold max_str_digits; lia)
                ltac:(fold pow10_limit; lia)) as Len.
  rewrite E in *. inversion F as [|? ? Fc _]; subst.
  destruct (dig_ok_plain 10 c ltac:(lia) Fc) as (_ & Nm & _).
  assert (R : str_to_number (c :: t) = Some (Z.abs v)).
  { rewrite str_to_number_decimal, V; [reflexivity|intros ->; apply Hc; reflexivity|exact F|exact Len]. }
  intros [= <-]. destruct (Z.ltb_spec v 0).
  - split; [apply (strip_L_digits 10 [ch_minus]); [lia|discriminate|exact F]|].
    rewrite str_to_number_minus, R by assumption. f_equal. lia.
  - split; [apply (strip_L_digits 10 []); [lia|discriminate|exact F]|]. rewrite R. f_equal. lia.
Qed.

(* the base-32 text is read back by PyLong_FromString(.., 32) *)
Lemma to_base32_roundtrip n : py_int 32 (to_base32 n) = Some n.
Proof.
  unfold to_base32. destruct (Z.eqb_spec n 0) as [->|NZ]; [reflexivity|].
  rewrite to_digits_pow2_eq by lia. change (2 ^ 5) with 32.
  pose proof (py_int_to_digits 32 (Z.abs n) eq_refl ltac:(lia)) as P.
  destruct (Z.ltb_spec n 0); cbn [app]; [|rewrite P; f_equal; lia].
  destruct (to_digits_spec 32 (Z.abs n)) as (_ & F & c & t & E & _); [lia|lia|].
  rewrite E in *. inversion F as [|? ? Fc _]; subst.
  rewrite py_int_minus, P by (apply (dig_ok_plain 32); [lia|exact Fc]). f_equal. lia.
Qed.

Lemma bit_length_bound n : Z.abs n < 2 ^ bit_length n /\ 0 <= bit_length n.
Proof.
  unfold bit_length. destruct (Z.eqb_spec n 0) as [->|NZ]; [cbn; lia|].
  pose proof (Z.log2_spec (Z.abs n) ltac:(lia)). pose proof (Z.log2_nonneg (Z.abs n)). lia.
Qed.

(* a small constant fits the C array element it is put in, whatever size class was reached *)
Lemma c_array_fits cur n : bit_length n <= 63 ->
  wrap (8 * c_array_bytes cur n) true n = n.
Proof.
  intros H. destruct (bit_length_bound n) as [B B0].
  set (need := (bit_length n + 8) / 8).
  assert (Hneed : 8 * need >= bit_length n + 1 /\ 1 <= need <= 8).
  { pose proof (Z.div_mod (bit_length n + 8) 8 ltac:(lia)) as DM.
    pose proof (Z.mod_pos_bound (bit_length n + 8) 8 ltac:(lia)) as MB. fold need in DM. lia. }
  assert (Hb : need <= c_array_bytes cur n).
  { unfold c_array_bytes. fold need. unfold next_size.
    destruct (Z.leb_spec need cur); [lia|]. destruct (Z.leb_spec need 2); [lia|]. destruct (Z.leb_spec need 4); lia. }
  apply wrap_id; [lia|]. unfold in_range, min_int, max_int.
  assert (2 ^ bit_length n <= 2 ^ (8 * c_array_bytes cur n - 1)) by (apply Z.pow_le_mono_r; lia).
  lia.
Qed.

(* 10^4300 is never evaluated: what is needed of it follows from monotonicity of the power.
   Trap: with a bound on pow10_limit among the hypotheses, discriminate without an argument (or easy)
   evaluates it, since an order between closed terms is an equation on their comparison. *)
Lemma pow10_limit_above b : 0 <= b < max_str_digits -> 10 ^ b < pow10_limit.
Proof. intros H. apply Z.pow_lt_mono_r; lia. Qed.

Lemma py_str_none v : pow10_limit <= Z.abs v -> py_str v = None.
Proof.
  intros H. pose proof (pow10_limit_above 0 ltac:(easy)) as P. unfold py_str.
  destruct (Z.eqb_spec v 0); [lia|]. destruct (Z.leb_spec pow10_limit (Z.abs v)); [reflexivity|lia].
Qed.

Lemma py_str_some v : Z.abs v < pow10_limit -> exists s, py_str v = Some s.
Proof.
  intros H. unfold py_str. destruct (v =? 0); [eauto|].
  destruct (Z.leb_spec pow10_limit (Z.abs v)); [lia|eauto].
Qed.

(* the text of an int constant is hex(v) or str(v): both end in a digit, so no 'L' is stripped *)
Lemma int_const_text_inv a v t : int_const_text a v = Some t -> t = py_hex v \/ py_str v = Some t.
Proof.
  unfold int_const_text. destruct (_ >? _); [intros [= <-]; left; apply py_hex_roundtrip|].
  destruct (py_str v) as [s|] eqn:PS; [|discriminate]. intros [= <-]. right. f_equal.
  symmetry. apply (py_str_roundtrip v s PS).
Qed.

Lemma int_const_text_value a v t : int_const_text a v = Some t -> str_to_number t = Some v.
Proof.
  intros T. destruct (int_const_text_inv a v t T) as [->|PS]; [apply py_hex_roundtrip|apply (py_str_roundtrip v t PS)].
Qed.

(* str() is asked only up to 10^13 in absolute value (repaired choice), or for any v <= 10^13
   (current choice): the latter raises below -10^4300 *)
Lemma int_const_text_some a v : a = true \/ - pow10_limit < v -> exists t, int_const_text a v = Some t.
Proof.
  intros H. pose proof (pow10_limit_above 13 ltac:(easy)) as P. unfold int_const_text.
  destruct (Z.gtb_spec (if a then Z.abs v else v) (10 ^ 13)) as [G|L]; [eauto|].
  destruct (py_str_some v) as (s & ->); [|eauto].
  destruct a; [lia|]. destruct H as [E|Hv]; [discriminate E|lia].
Qed.

Lemma int_const_text_current_none v : v <= - pow10_limit -> int_const_text false v = None.
Proof.
  intros H. pose proof (pow10_limit_above 13 ltac:(easy)) as P. unfold int_const_text.
  destruct (Z.gtb_spec v (10 ^ 13)); [lia|]. rewrite py_str_none by lia. reflexivity.
Qed.

Lemma emit_decode cur t v : str_to_number t = Some v ->
  match emit_num cur t with Some e => decode_emitted e | None => None end = Some v.
Proof.
  intros R. unfold emit_num. rewrite R.
  destruct (Z.leb_spec (bit_length v) 63) as [Small|Large]; cbn [decode_emitted].
  - rewrite c_array_fits by assumption. reflexivity.
  - apply to_base32_roundtrip.
Qed.

(* abs_threshold = true is the repaired formatter choice, false the current one *)
Theorem int_emission_roundtrip abs_threshold cur v :
  abs_threshold = true \/ - pow10_limit < v ->
  int_emission abs_threshold cur v = Some v.
Proof.
  intros H. unfold int_emission. destruct (int_const_text_some abs_threshold v H) as (t & T).
  rewrite T. apply emit_decode. exact (int_const_text_value _ _ _ T).
Qed.

(* the current formatter choice does fail from that bound on downwards (finding) *)
Lemma int_emission_current_none cur v : v <= - pow10_limit -> int_emission false cur v = None.
Proof. intros H. unfold int_emission. rewrite int_const_text_current_none by assumption. reflexivity. Qed.

Theorem int_emission_current_refuted : exists v, int_emission false 1 v = None.
Proof. exists (- pow10_limit). apply int_emission_current_none. apply Z.le_refl. Qed.

Theorem int_const_key_injective a v1 l1 v2 l2 k :
  int_const_key a v1 l1 = Some k -> int_const_key a v2 l2 = Some k -> v1 = v2 /\ l1 = l2.
Proof.
  unfold int_const_key.
  destruct (int_const_text a v1) as [t1|] eqn:E1; [|discriminate].
  destruct (int_const_text a v2) as [t2|] eqn:E2; [|discriminate].
  intros K1 K2. inversion K1; subst k. inversion K2; subst.
  apply int_const_text_value in E1, E2. rewrite E1 in E2. inversion E2. auto.
Qed.

(* unop_node: the text of the negated literal reads back as the negated value *)
Theorem negated_literal_roundtrip repaired s v :
  str_to_number s = Some v -> repaired = true \/ Z.abs v < pow10_limit ->
  exists t, negated_literal_text repaired s = Some t /\ str_to_number t = Some (- v).
Proof.
  intros R H. unfold negated_literal_text. rewrite R.
  destruct (repaired && (Z.abs (- v) >? 2 ^ 64)) eqn:C.
  - exists (py_hex (- v)). split; [reflexivity|apply py_hex_roundtrip].
  - destruct (py_str_some (- v)) as (s' & PS).
    + pose proof (pow10_limit_above 20 ltac:(easy)) as P. destruct repaired; [cbn [andb] in C; lia|].
      destruct H as [E|Hv]; [discriminate E|lia].
    + exists s'. split; [exact PS|]. exact (proj2 (py_str_roundtrip _ s' PS)).
Qed.

(* the code as it is fails on every literal from 10^4300 on *)
Lemma negated_literal_current_none s v :
  str_to_number s = Some v -> pow10_limit <= Z.abs v -> negated_literal_text false s = None.
Proof. intros R H. unfold negated_literal_text. rewrite R. cbn [andb]. apply py_str_none. lia. Qed.

Theorem negated_literal_current_refuted :
  exists s v, str_to_number s = Some v /\ negated_literal_text false s = None.
Proof.
  exists (py_hex pow10_limit), pow10_limit. split; [apply py_hex_roundtrip|].
  apply (negated_literal_current_none _ pow10_limit); [apply py_hex_roundtrip|lia].
Qed.

Section cnode_induction.
  Variable P : cnode -> Prop.
  Hypothesis HL : forall ty v, P (NLeaf ty v).
  Hypothesis HQ : forall ty lit mult args,
    (forall m, mult = Some m -> P m) -> Forall P args -> P (NSeq ty lit mult args).
  Hypothesis HS : forall ty a b c, P a -> P b -> P c -> P (NSlice ty a b c).
  Hypothesis HO : P NOpaque.
  Fixpoint cnode_ind2 (n : cnode) : P n :=
    match n with
    | NLeaf ty v => HL ty v
    | NSeq ty lit mult args =>
        HQ ty lit mult args
           (fun m => match mult as o return o = Some m -> P m with
                     | Some m' => fun E => match E in _ = o return match o with Some x => P x | None => True end
                                           with eq_refl => cnode_ind2 m' end
                     | None => fun E => match E with eq_refl => I end
                     end)
           ((fix go (l : list cnode) : Forall P l :=
               match l with [] => Forall_nil P | x :: t => Forall_cons x (cnode_ind2 x) (go t) end) args)
    | NSlice ty a b c => HS ty a b c (cnode_ind2 a) (cnode_ind2 b) (cnode_ind2 c)
    | NOpaque => HO
    end.
End cnode_induction.

Lemma ntype_eqb_eq a b : ntype_eqb a b = true -> a = b.
Proof. destruct a, b; cbn; try discriminate; try reflexivity. intros H. f_equal. lia. Qed.

Lemma ntype_eqb_refl a : ntype_eqb a a = true.
Proof. destruct a; cbn; try reflexivity. lia. Qed.

Lemma zlist_eqb_eq a : forall b, zlist_eqb a b = true -> a = b.
Proof.
  induction a as [|x a IH]; destruct b as [|y b]; cbn; try discriminate; try reflexivity.
  intros H. apply andb_prop in H. destruct H as [H1 H2]. f_equal; [lia|apply IH; assumption].
Qed.

Lemma zlist_eqb_refl a : zlist_eqb a a = true.
Proof. induction a as [|x a IH]; [reflexivity|]. cbn. rewrite Z.eqb_refl, IH. reflexivity. Qed.

Lemma zlist_eqb_iff a b : zlist_eqb a b = true <-> a = b.
Proof. split; [apply zlist_eqb_eq|intros ->; apply zlist_eqb_refl]. Qed.

Lemma zlist_eqb_neq a b : a <> b -> zlist_eqb a b = false.
Proof. intros N. destruct (zlist_eqb a b) eqn:E; [|reflexivity]. apply zlist_eqb_iff in E. contradiction. Qed.

(* IEEE equality plus equal sign bit is equality of bit patterns *)
Lemma float_exact x y : 0 <= x < 2 ^ 64 -> 0 <= y < 2 ^ 64 ->
  float_eq x y = true -> f_sign x = f_sign y -> x = y.
Proof.
  intros Hx Hy E S. unfold float_eq in E. apply andb_prop in E. destruct E as [_ E].
  apply orb_prop in E. destruct E as [E|E]; [lia|].
  apply andb_prop in E. destruct E as [Zx Zy]. unfold f_is_zero, f_sign in *.
  pose proof (Z.div_mod x (2 ^ 63) ltac:(lia)). pose proof (Z.div_mod y (2 ^ 63) ltac:(lia)). lia.
Qed.

Lemma scalar_eq_as_int v1 v2 z1 z2 :
  as_int v1 = Some z1 -> as_int v2 = Some z2 -> scalar_eq v1 v2 = true -> z1 = z2.
Proof.
  destruct v1; try discriminate; destruct v2; try discriminate; cbn;
    intros [= <-] [= <-] E; apply Z.eqb_eq; exact E.
Qed.

Lemma key_eq_leaf_inv t1 v1 c1 s1 t2 v2 c2 s2 : key_eq (KLeaf t1 v1 c1 s1) (KLeaf t2 v2 c2 s2) = true ->
  ntype_eqb t1 t2 = true /\ scalar_eq v1 v2 = true /\ optclass_eqb c1 c2 = true /\ sgn_eqb s1 s2 = true.
Proof. cbn [key_eq]. lia. Qed.

(* the repaired leaf key identifies the constant *)
Lemma leaf_key_exact ty1 v1 ty2 v2 :
  leaf_okb ty1 v1 = true -> leaf_okb ty2 v2 = true -> float_okb v1 = true -> float_okb v2 = true ->
  key_eq (leaf_key true ty1 v1) (leaf_key true ty2 v2) = true -> ty1 = ty2 /\ v1 = v2.
Proof.
  intros O1 O2 F1 F2 K. apply key_eq_leaf_inv in K. destruct K as (Kt & Kv & Kc & Ks).
  apply ntype_eqb_eq in Kt. subst ty2. split; [reflexivity|].
  (* the two values have the same class: by the node type, or by the class component under py_object *)
  assert (SC : class_of v1 = class_of v2)
    by (destruct ty1, v1; try discriminate O1; destruct v2; try discriminate O2; try discriminate Kc; reflexivity).
  destruct v1, v2; try discriminate SC; try reflexivity; cbn in Kv, Ks.
  - f_equal. lia.
  - f_equal. destruct b, b0; cbn in Kv; try reflexivity; discriminate.
  - f_equal. unfold float_okb in *. apply float_exact; try lia.
  - f_equal. apply zlist_eqb_eq. assumption.
  - f_equal. apply zlist_eqb_eq. assumption.
Qed.

Fixpoint keys_eq (l1 l2 : list key) : bool :=
  match l1, l2 with
  | [], [] => true
  | x :: t1, y :: t2 => key_eq x y && keys_eq t1 t2
  | _, _ => false
  end.

Lemma key_eq_cont_list t1 t2 l1 l2 :
  key_eq (KCont t1 false l1) (KCont t2 false l2) = ntype_eqb t1 t2 && keys_eq l1 l2.
Proof. reflexivity. Qed.

Lemma key_eq_leaf_cont ty v c s t f l : key_eq (KLeaf ty v c s) (KCont t f l) = false.
Proof. reflexivity. Qed.
Lemma key_eq_cont_leaf ty v c s t f l : key_eq (KCont t f l) (KLeaf ty v c s) = false.
Proof. reflexivity. Qed.

Lemma key_eq_cont_ty t1 f1 l1 t2 f2 l2 : key_eq (KCont t1 f1 l1) (KCont t2 f2 l2) = true -> t1 = t2.
Proof. cbn [key_eq]. intros E. apply andb_prop in E. apply ntype_eqb_eq, E. Qed.

Lemma all_some_map {A} (f : A -> option key) l ks :
  all_some (map f l) = Some ks -> Forall2 (fun a k => f a = Some k) l ks.
Proof.
  revert ks. induction l as [|a l IH]; intros ks H; cbn in H.
  - inversion H. constructor.
  - destruct (f a) as [k|] eqn:E; [|discriminate].
    destruct (all_some (map f l)) as [r|]; [|discriminate]. inversion H; subst. constructor; auto.
Qed.

Lemma cont_key_inv os ty items k :
  cont_key os ty items = Some k ->
  exists ks, all_some items = Some ks /\ k = KCont ty (ntype_eqb ty TPyFrozenset && negb os) ks.
Proof. unfold cont_key. destruct (all_some items) as [ks|]; [|discriminate]. intros E; inversion E. eauto. Qed.

Lemma wf_seq_inv ty lit mult args : wf_node (NSeq ty lit mult args) = true ->
  (ty = TPyTuple \/ ty = TPyList) /\ mult_okb mult = true /\ forallb wf_node args = true.
Proof.
  cbn [wf_node]. intros W. apply andb_prop in W. destruct W as [W Wa]. apply andb_prop in W. destruct W as [Wt Wm].
  repeat split; try assumption. destruct ty; try discriminate Wt; auto.
Qed.

Lemma wf_slice_inv ty a b c : wf_node (NSlice ty a b c) = true ->
  ty = TPySlice /\ wf_node a = true /\ wf_node b = true /\ wf_node c = true.
Proof. cbn [wf_node]. intros W. repeat split; try lia. apply ntype_eqb_eq. lia. Qed.

Definition eff_mult (lit : bool) (mult : option cnode) : option cnode :=
  match mult with Some m => if lit then Some m else None | None => None end.

Lemma eff_mult_if (lit : bool) (mult : option cnode) : (if lit then mult else None) = eff_mult lit mult.
Proof. destruct mult, lit; reflexivity. Qed.

Lemma eff_mult_ok lit m e : mult_okb m = true -> eff_mult lit m = Some e ->
  exists t v z, e = NLeaf t v /\ as_int v = Some z.
Proof.
  destruct m as [m|]; [|discriminate]. intros Hm He. destruct lit; [|discriminate]. injection He as <-.
  destruct m as [t v| | |]; try discriminate Hm. destruct t, v; try discriminate Hm; do 3 eexists; split; reflexivity.
Qed.

(* On well-formed nodes item_key (with the sign in the leaf key) and denote do not fail; ikey and den
   are their results as total functions.  The proofs about keys are about these, over plain lists
   of nodes instead of lists of options. *)
Fixpoint ikey (n : cnode) : key :=
  match n with
  | NLeaf ty v => leaf_key true ty v
  | NSeq ty lit mult args =>
      KCont ty false
        (match mult with Some m => if lit then ikey m else none_entry true | None => none_entry true end
         :: map ikey args)
  | NSlice ty a b c => KCont ty false [ikey a; ikey b; ikey c]
  | NOpaque => none_entry true
  end.

Definition mult_entry (lit : bool) (mult : option cnode) : key :=
  match eff_mult lit mult with Some m => ikey m | None => none_entry true end.

Lemma ikey_seq ty lit mult args :
  ikey (NSeq ty lit mult args) = KCont ty false (mult_entry lit mult :: map ikey args).
Proof. destruct mult, lit; reflexivity. Qed.

Definition mult_count (lit : bool) (mult : option cnode) : option Z :=
  match eff_mult lit mult with Some (NLeaf _ v) => as_int v | _ => None end.

Fixpoint den (n : cnode) : pyconst :=
  match n with
  | NLeaf _ v => CScalar v
  | NSeq ty lit mult args =>
      CSeq ty (match mult_count lit mult with
               | Some k => repeat_list (Z.to_nat k) (map den args)
               | None => map den args
               end)
  | NSlice _ a b c => CSlice (den a) (den b) (den c)
  | NOpaque => CScalar SNone
  end.

Lemma all_some_opt_list l : all_some l = opt_list l.
Proof. induction l as [|[k|] t IH]; cbn; [|rewrite IH|]; reflexivity. Qed.

Lemma wf_args_total {B} (f : cnode -> option B) (g : cnode -> B) args :
  Forall (fun n => wf_node n = true -> f n = Some (g n)) args -> forallb wf_node args = true ->
  opt_list (map f args) = Some (map g args).
Proof.
  induction 1 as [|a l E _ IH]; intros W; [reflexivity|]. cbn [forallb] in W. apply andb_prop in W.
  cbn [map opt_list]. rewrite (E (proj1 W)), (IH (proj2 W)). reflexivity.
Qed.

Lemma item_key_wf os n : wf_node n = true -> item_key true os n = Some (ikey n).
Proof.
  induction n as [ty v|ty lit mult args _ IHa|ty a b c IHa IHb IHc|] using cnode_ind2; intros W.
  - reflexivity.
  - destruct (wf_seq_inv _ _ _ _ W) as (T & Wm & Wa). rewrite ikey_seq. cbn [item_key]. unfold cont_key. cbn [all_some].
    replace (match mult with Some m => if lit then item_key true os m else Some (none_entry true)
                           | None => Some (none_entry true) end) with (Some (mult_entry lit mult)).
    + rewrite all_some_opt_list, (wf_args_total _ ikey args IHa Wa).
      destruct T as [-> | ->]; reflexivity.
    + unfold mult_entry. destruct (eff_mult lit mult) as [e|] eqn:E.
      * destruct (eff_mult_ok _ _ _ Wm E) as (t & v & _ & -> & _). destruct mult, lit; inversion E. reflexivity.
      * destruct mult, lit; try discriminate E; reflexivity.
  - destruct (wf_slice_inv _ _ _ _ W) as (-> & Wa & Wb & Wc).
    cbn [item_key]. rewrite IHa, IHb, IHc by assumption. reflexivity.
  - discriminate.
Qed.

Lemma denote_wf n : wf_node n = true -> denote n = Some (den n).
Proof.
  induction n as [ty v|ty lit mult args _ IHa|ty a b c IHa IHb IHc|] using cnode_ind2; intros W.
  - reflexivity.
  - destruct (wf_seq_inv _ _ _ _ W) as (_ & Wm & Wa).
    cbn [denote den]. rewrite (wf_args_total _ den args IHa Wa), eff_mult_if. unfold mult_count.
    destruct (eff_mult lit mult) as [e|] eqn:E; [|reflexivity].
    destruct (eff_mult_ok _ _ _ Wm E) as (t & v & z & -> & ->). reflexivity.
  - destruct (wf_slice_inv _ _ _ _ W) as (_ & Wa & Wb & Wc).
    cbn [denote]. rewrite IHa, IHb, IHc by assumption. reflexivity.
  - discriminate.
Qed.

Lemma mult_entry_exact lit1 m1 lit2 m2 : mult_okb m1 = true -> mult_okb m2 = true ->
  key_eq (mult_entry lit1 m1) (mult_entry lit2 m2) = true -> mult_count lit1 m1 = mult_count lit2 m2.
Proof.
  unfold mult_entry, mult_count. intros O1 O2 E.
  destruct (eff_mult lit1 m1) as [e1|] eqn:E1; [destruct (eff_mult_ok _ _ _ O1 E1) as (t1 & v1 & z1 & -> & A1)|];
    (destruct (eff_mult lit2 m2) as [e2|] eqn:E2; [destruct (eff_mult_ok _ _ _ O2 E2) as (t2 & v2 & z2 & -> & A2)|]);
    try reflexivity; apply key_eq_leaf_inv in E; destruct E as (_ & E & _).
  - rewrite A1, A2. f_equal. exact (scalar_eq_as_int v1 v2 z1 z2 A1 A2 E).
  - destruct v1; discriminate.
  - destruct v2; discriminate.
Qed.

Lemma args_exact args1 :
  Forall (fun n1 => forall n2, wf_node n1 = true -> wf_node n2 = true ->
            key_eq (ikey n1) (ikey n2) = true -> den n1 = den n2) args1 ->
  forall args2, forallb wf_node args1 = true -> forallb wf_node args2 = true ->
  keys_eq (map ikey args1) (map ikey args2) = true -> map den args1 = map den args2.
Proof.
  induction 1 as [|a1 r1 Ha _ IH]; intros [|a2 r2] W1 W2 E; try discriminate E; [reflexivity|].
  cbn [map keys_eq forallb] in *. apply andb_prop in E, W1, W2. destruct E, W1, W2. f_equal; auto.
Qed.

Lemma ikey_exact : forall n1 n2, wf_node n1 = true -> wf_node n2 = true ->
  key_eq (ikey n1) (ikey n2) = true -> den n1 = den n2.
Proof.
  induction n1 as [ty1 v1|ty1 lit1 mult1 args1 _ IHa|ty1 a1 b1 c1 IHa IHb IHc|] using cnode_ind2;
    intros n2 W1 W2 E; [| | |discriminate W1];
    destruct n2 as [ty2 v2|ty2 lit2 mult2 args2|ty2 a2 b2 c2|]; try discriminate W2; try discriminate E.
  - cbn [wf_node] in W1, W2. apply andb_prop in W1, W2. destruct W1, W2.
    destruct (leaf_key_exact ty1 v1 ty2 v2) as [_ ->]; auto.
  - destruct (wf_seq_inv _ _ _ _ W1) as (_ & Wm1 & Wa1). destruct (wf_seq_inv _ _ _ _ W2) as (_ & Wm2 & Wa2).
    rewrite !ikey_seq, key_eq_cont_list in E. cbn [keys_eq] in E.
    apply andb_prop in E. destruct E as [Et E]. apply andb_prop in E. destruct E as [Em Er].
    apply ntype_eqb_eq in Et. subst ty2. cbn [den].
    rewrite (mult_entry_exact _ _ _ _ Wm1 Wm2 Em), (args_exact args1 IHa args2 Wa1 Wa2 Er). reflexivity.
  - (* a tuple or list against a slice *)
    destruct (wf_seq_inv _ _ _ _ W1) as (T1 & _). destruct (wf_slice_inv _ _ _ _ W2) as (-> & _).
    rewrite ikey_seq in E. apply key_eq_cont_ty in E. subst ty1. destruct T1; discriminate.
  - destruct (wf_slice_inv _ _ _ _ W1) as (-> & _). destruct (wf_seq_inv _ _ _ _ W2) as (T2 & _).
    rewrite ikey_seq in E. apply key_eq_cont_ty in E. subst ty2. destruct T2; discriminate.
  - destruct (wf_slice_inv _ _ _ _ W1) as (_ & Wa1 & Wb1 & Wc1). destruct (wf_slice_inv _ _ _ _ W2) as (_ & Wa2 & Wb2 & Wc2).
    cbn [ikey] in E. rewrite key_eq_cont_list in E. cbn [keys_eq] in E.
    apply andb_prop in E. destruct E as [_ E]. apply andb_prop in E. destruct E as [Ea E].
    apply andb_prop in E. destruct E as [Eb E]. apply andb_prop in E. destruct E as [Ec _].
    cbn [den]. rewrite (IHa a2), (IHb b2), (IHc c2) by assumption. reflexivity.
Qed.

(* the three kinds of pooled containers: their ordered keys carry different outer types *)
Definition top_ikey (t : topnode) : key :=
  match t with
  | TopSeq n => ikey n
  | TopSlice n => KCont TPySlice false [ikey n]
  | TopFrozen args => KCont TPyFrozenset false (map ikey args)
  end.

Definition top_den (t : topnode) : topconst :=
  match t with
  | TopSeq n | TopSlice n => VConst (den n)
  | TopFrozen args => VFrozen (fs_build (map den args))
  end.

Lemma item_keys_wf os args : forallb wf_node args = true ->
  all_some (map (item_key true os) args) = Some (map ikey args).
Proof.
  intros W. rewrite all_some_opt_list. apply wf_args_total; [|exact W]. apply Forall_forall. intros n _. apply item_key_wf.
Qed.

Lemma denote_args_wf args : forallb wf_node args = true -> opt_list (map denote args) = Some (map den args).
Proof. apply wf_args_total, Forall_forall. intros n _. apply denote_wf. Qed.

Lemma top_key_wf t : wf_top t = true -> top_key true true t = Some (top_ikey t).
Proof.
  destruct t as [[|ty l m a| |]|[| |ty a b c|]|args]; try discriminate; cbn [wf_top top_key top_ikey]; intros W.
  - rewrite <- (item_key_wf true _ W). cbn [item_key]. unfold make_dedup_key. cbn [map]. rewrite map_map.
    do 2 f_equal. destruct m, l; reflexivity.
  - unfold make_dedup_key, cont_key. cbn [map all_some]. rewrite (item_key_wf true _ W).
    destruct (wf_slice_inv _ _ _ _ W) as (-> & _). reflexivity.
  - unfold make_dedup_key, cont_key.
    rewrite map_map. change (fun x : cnode => item_key true true x) with (item_key true true).
    rewrite (item_keys_wf true args W). reflexivity.
Qed.

Lemma denote_top_wf t : wf_top t = true -> denote_top t = Some (top_den t).
Proof.
  destruct t as [[|ty l m a| |]|[| |ty a b c|]|args]; try discriminate; cbn [wf_top denote_top top_den]; intros W.
  - rewrite (denote_wf _ W). reflexivity.
  - rewrite (denote_wf _ W). reflexivity.
  - rewrite (denote_args_wf args W). reflexivity.
Qed.

Lemma top_key_ordered t k : wf_top t = true -> top_key true true t = Some k ->
  exists ty ks, k = KCont ty false ks.
Proof.
  intros W K. rewrite top_key_wf in K by exact W. injection K as <-.
  destruct t as [[]|[]|]; try discriminate W; cbn [top_ikey]; rewrite ?ikey_seq; eauto.
Qed.

Lemma top_ikey_exact t1 t2 : wf_top t1 = true -> wf_top t2 = true ->
  key_eq (top_ikey t1) (top_ikey t2) = true -> identical_top (top_den t1) (top_den t2).
Proof.
  intros W1 W2 E.
  destruct t1 as [[|ty1 l1 m1 a1| |]|[| |ty1 a1 b1 c1|]|args1]; try discriminate W1;
    destruct t2 as [[|ty2 l2 m2 a2| |]|[| |ty2 a2 b2 c2|]|args2]; try discriminate W2;
    cbn [wf_top top_ikey top_den identical_top] in *;
    try (destruct (wf_seq_inv _ _ _ _ W1) as (T1 & _)); try (destruct (wf_seq_inv _ _ _ _ W2) as (T2 & _));
    rewrite ?ikey_seq in E; pose proof (key_eq_cont_ty _ _ _ _ _ _ E) as Et.
  - rewrite <- !ikey_seq in E. exact (ikey_exact _ _ W1 W2 E).
  - subst ty1. destruct T1; discriminate.
  - subst ty1. destruct T1; discriminate.
  - subst ty2. destruct T2; discriminate.
  - rewrite key_eq_cont_list in E. cbn [keys_eq ntype_eqb andb] in E. rewrite andb_true_r in E.
    exact (ikey_exact _ _ W1 W2 E).
  - discriminate Et.
  - subst ty2. destruct T2; discriminate.
  - discriminate Et.
  - (* frozenset / frozenset: ordered keys, so the argument lists denote the same values in order *)
    rewrite key_eq_cont_list in E. cbn [ntype_eqb andb] in E.
    rewrite (args_exact args1 (proj2 (Forall_forall _ _) (fun n _ => ikey_exact n)) args2 W1 W2 E). split; auto.
Qed.

(* top_key true true: the sign of a float is in the leaf key, and the item keys of a frozenset are
   in a tuple (ordered).  The frozenset key of the tree (top_key2) is treated in P_ConstsFrozen.v. *)
Theorem dedup_injective t1 t2 k1 k2 :
  wf_top t1 = true -> wf_top t2 = true ->
  top_key true true t1 = Some k1 -> top_key true true t2 = Some k2 ->
  key_eq k1 k2 = true ->
  exists c1 c2, denote_top t1 = Some c1 /\ denote_top t2 = Some c2 /\ identical_top c1 c2.
Proof.
  intros W1 W2 K1 K2 E. rewrite top_key_wf in K1, K2 by assumption. injection K1 as <-. injection K2 as <-.
  exists (top_den t1), (top_den t2). auto using denote_top_wf, top_ikey_exact.
Qed.

(* without either of the two components top_key merges different constants (findings
   float_zero_sign_merged / frozenset_order_merged): the sign of a float zero is not part of the
   key, and a frozenset's key forgets the order of ==-equal elements.  Each of the two repairs
   alone still leaves a counterexample. *)
Definition wit_tuple (bits : Z) : topnode :=
  TopSeq (NSeq TPyTuple true None [NLeaf TPyFloat (SFloat bits); NLeaf TPyInt (SInt 1)]).
Definition wit_frozen (a b : scalar * ntype) : topnode :=
  TopFrozen [NLeaf (snd a) (fst a); NLeaf (snd b) (fst b)].

Theorem dedup_unrepaired_refuted fx os : fx && os = false ->
  exists t1 t2 k1 k2 c1 c2,
    wf_top t1 = true /\ wf_top t2 = true /\
    top_key fx os t1 = Some k1 /\ top_key fx os t2 = Some k2 /\ key_eq k1 k2 = true /\
    denote_top t1 = Some c1 /\ denote_top t2 = Some c2 /\ ~ identical_top c1 c2.
Proof.
  intros H. destruct fx.
  - (* floats exact, frozensets unordered: frozenset((1.0, 1)) vs frozenset((1, 1.0)) *)
    destruct os; [discriminate|].
    exists (wit_frozen (SFloat 4607182418800017408, TPyFloat) (SInt 1, TPyInt)),
           (wit_frozen (SInt 1, TPyInt) (SFloat 4607182418800017408, TPyFloat)).
    do 2 eexists. exists (VFrozen [CScalar (SFloat 4607182418800017408)]), (VFrozen [CScalar (SInt 1)]).
    repeat split; try (vm_compute; reflexivity).
    intros [A _]. specialize (A (CScalar (SFloat 4607182418800017408)) (or_introl eq_refl)).
    destruct A as [A|A]; [discriminate A|exact A].
  - (* the sign of a float zero is not in the key: (0.0, 1) vs (-0.0, 1) *)
    exists (wit_tuple 0), (wit_tuple (2 ^ 63)).
    do 2 eexists.
    exists (VConst (CSeq TPyTuple [CScalar (SFloat 0); CScalar (SInt 1)])),
           (VConst (CSeq TPyTuple [CScalar (SFloat 9223372036854775808); CScalar (SInt 1)])).
    repeat split; try (vm_compute; reflexivity).
    cbv [identical_top identical]. discriminate.
Qed.

(* the same for a slice and a nested tuple, with neither component (top_key false false) *)
Theorem dedup_current_refuted_slice_nested :
  (exists k, top_key false false (TopSlice (NSlice TPySlice (NLeaf TPyFloat (SFloat 0)) (NLeaf TPyInt (SInt 1)) (NLeaf TPyObject SNone))) = Some k
     /\ exists k', top_key false false (TopSlice (NSlice TPySlice (NLeaf TPyFloat (SFloat (2 ^ 63))) (NLeaf TPyInt (SInt 1)) (NLeaf TPyObject SNone))) = Some k'
     /\ key_eq k k' = true) /\
  (exists k, top_key false false (TopSeq (NSeq TPyTuple true None [NSeq TPyTuple true None [NLeaf TPyFloat (SFloat 0)]; NLeaf TPyInt (SInt 2)])) = Some k
     /\ exists k', top_key false false (TopSeq (NSeq TPyTuple true None [NSeq TPyTuple true None [NLeaf TPyFloat (SFloat (2 ^ 63))]; NLeaf TPyInt (SInt 2)])) = Some k'
     /\ key_eq k k' = true).
Proof. split; eexists; (split; [vm_compute; reflexivity|]); eexists; (split; [vm_compute; reflexivity|]); vm_compute; reflexivity. Qed.

(* the hazard itself: Python == does not separate different constants *)
Lemma py_eq_not_identical :
  scalar_eq (SInt 1) (SFloat 4607182418800017408) = true /\ scalar_eq (SInt 1) (SBool true) = true
  /\ scalar_eq (SFloat 0) (SFloat (2 ^ 63)) = true /\ scalar_eq (SStr [97]) (SBytes [97]) = false
  /\ scalar_eq (SFloat 9221120237041090560) (SFloat 9221120237041090560) = false.
Proof. vm_compute. auto. Qed.

(* Python's result is a bool exactly for a bitwise operator on two bools, which is when the
   folder builds a BoolNode *)
Lemma py_binop_class op a b r : py_binop op a b = Some r ->
  match r with LInt _ => true | LBool _ => false end
  = negb (match a, b with LBool _, LBool _ => true | _, _ => false end) || op_in_arith_string op.
Proof.
  destruct op, a, b; cbn;
    repeat match goal with |- context [if ?c then _ else _] => destruct c end;
    intros [= <-]; reflexivity.
Qed.

(* whenever visit_BinopNode replaces "a op b" (BoolNode/IntNode literals) by a new literal
   node, that node has the class (bool/int) and the value of Python's own result *)
Theorem fold_binop_exact op a b f x :
  fold_binop op a b = Some f ->
  exists r, py_binop op a b = Some r /\ folded_value x f = Some r.
Proof.
  unfold fold_binop. destruct (py_binop op a b) as [r|] eqn:P; [|discriminate].
  apply py_binop_class in P. intros F. exists r. split; [reflexivity|].
  destruct (negb _ || _); destruct r as [v|z]; try discriminate; injection F as <-; cbn [folded_value].
  - destruct (py_hex_roundtrip z) as (-> & ->). reflexivity.
  - reflexivity.
Qed.

(* every constant int/bool operation is folded (the BoolNode branch never meets an int) *)
Theorem fold_binop_total op a b r : py_binop op a b = Some r -> exists f, fold_binop op a b = Some f.
Proof.
  intros P. unfold fold_binop. rewrite P. apply py_binop_class in P.
  destruct (negb _ || _); destruct r; try discriminate; eauto.
Qed.

Theorem fold_unop_exact op a f :
  fold_unop op a = Some f -> folded_value a f = Some (py_unop op a).
Proof.
  unfold fold_unop.
  assert (STR : forall z t, py_str z = Some t -> folded_value a (FInt t) = Some (LInt z)).
  { intros z t PS. cbn [folded_value]. destruct (py_str_roundtrip z t PS) as (_ & R). rewrite R. reflexivity. }
  destruct op, a as [b|z]; cbn [py_unop lit_int int_of_lit bool_of_lit];
    try (destruct (py_str _) as [t|] eqn:PS; [|discriminate]; intros F; inversion F; subst f; apply STR; exact PS);
    try discriminate; intros F; inversion F; subst f; cbn [folded_value]; try reflexivity.
  - f_equal. f_equal. destruct b; reflexivity.
  - f_equal. f_equal. unfold b2z. destruct (Z.eqb_spec z 0); reflexivity.
Qed.

Theorem fold_unop_bool_total op b : exists f, fold_unop op (LBool b) = Some f.
Proof.
  assert (S : forall o, exists t, py_str (int_of_lit (py_unop o (LBool b))) = Some t).
  { intros o. apply py_str_some. pose proof (pow10_limit_above 1 ltac:(easy)).
    destruct o, b; cbv - [pow10_limit Z.lt]; lia. }
  destruct op; cbn [fold_unop];
    [destruct (S UPlus) as (t & ->)|destruct (S UMinus) as (t & ->)|destruct (S UInvert) as (t & ->)|];
    eexists; reflexivity.
Qed.
