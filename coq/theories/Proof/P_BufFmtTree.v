(* C17 -- nested struct dtypes: the checker's struct stack (ctx->head frames with parent_offset)
   walks exactly the members of the flattened tree at their absolute offsets; hence accept <-> layout
   for tree-shaped type infos of any depth follows from the flat theorem (P_BufFmtCount.v). *)
From Coq Require Import ZArith List Bool Lia.
From CyVerif Require Import Model.M_BufFmt Proof.P_BufFmtCount.
Import ListNotations.
Open Scope Z_scope.

(* induction principle for the nested inductive ttype *)
Section TInd.
  Variable P : ttype -> Prop.
  Hypothesis Hl : forall l, P (TLeaf l).
  Hypothesis Hs : forall sz fs, Forall (fun f => P (fst f)) fs -> P (TStruct sz fs).
  Fixpoint ttype_ind2 (t : ttype) : P t :=
    match t with
    | TLeaf l => Hl l
    | TStruct sz fs =>
      Hs sz fs ((fix go (l : list (ttype * Z)) : Forall (fun f => P (fst f)) l :=
                   match l with
                   | [] => Forall_nil _
                   | f :: r => Forall_cons f (ttype_ind2 (fst f)) (go r)
                   end) fs)
    end.
End TInd.

Definition flat_fields (fs : list (ttype * Z)) (a : Z) : list (leaf * Z) :=
  (fix go (l : list (ttype * Z)) : list (leaf * Z) :=
     match l with [] => [] | (t1, o1) :: r => flatten t1 (a + o1) ++ go r end) fs.
Lemma flatten_struct : forall sz fs a, flatten (TStruct sz fs) a = flat_fields fs a.
Proof. reflexivity. Qed.
Lemma flat_fields_cons : forall t1 o1 r a, flat_fields ((t1, o1) :: r) a = flatten t1 (a + o1) ++ flat_fields r a.
Proof. reflexivity. Qed.

(* t begins with a scalar *)
Definition leaf_first (t : ttype) : Prop :=
  match t with
  | TLeaf _ => True
  | TStruct _ ((TLeaf _, _) :: _) => True
  | _ => False
  end.

(* type infos Buffer.py can emit for C structs: scalars as in the flat theorem, structs non-empty
   with the first member at offset 0 (C guarantee); any depth, any member offsets otherwise.
   deep = false (the code as it is) additionally needs: a struct member that is not the first
   member of its parent begins with a scalar (the complement of finding
   nonfirst_substruct_begins_with_struct) *)
Inductive twf (deep : bool) : ttype -> Prop :=
| twf_leaf : forall l, leaf_wf (l, 0) -> twf deep (TLeaf l)
| twf_struct : forall sz t1 r,
    twf deep t1 ->
    Forall (fun f => twf deep (fst f) /\ (deep = true \/ leaf_first (fst f))) r ->
    twf deep (TStruct sz ((t1, 0) :: r)).

(* the walk as a relation (no fuel) *)
Inductive walks (deep : bool) : stack -> list (leaf * Z) -> Prop :=
| walks_nil : walks deep [] []
| walks_cons : forall st x l, s_cur st = Some x -> walks deep (s_advance deep false st) l ->
                              walks deep st (x :: l).

Lemma walks_fuel : forall deep st l, walks deep st l ->
  forall fuel, (length l <= fuel)%nat -> walk_from fuel deep false st = Ok l.
Proof.
  intros deep st l H. induction H as [|st x l Hc Hw IH]; intros fuel Hf.
  - destruct fuel; reflexivity.
  - destruct st as [|fr st']; [discriminate Hc|].
    destruct fuel as [|f]; [cbn [length] in Hf; lia|].
    cbn [walk_from]. rewrite Hc. rewrite IH by (cbn [length] in Hf; lia). reflexivity.
Qed.

(* push_sub with and without the deep descent agree when the member begins with a scalar *)
Lemma push_sub_leaf_first : forall deep t a st, deep = true \/ leaf_first t ->
  push_sub deep t a st = push_sub true t a st.
Proof.
  intros deep t a st [->|H]; [reflexivity|].
  destruct t as [l|sz fs]; [reflexivity|].
  destruct fs as [|[t1 o1] r]; [reflexivity|].
  destruct t1 as [l1|sz1 fs1]; [|destruct H].
  cbn [push_sub]. destruct deep; reflexivity.
Qed.

(* the top frame's current member is t, at absolute offset a *)
Definition top_is (K : stack) (t : ttype) (a : Z) : Prop :=
  exists fo rest po below, K = ((t, fo) :: rest, po) :: below /\ po + fo = a.

(* advancing from a frame that sits on a non-empty stack *)
Lemma advance_frame : forall deep t1 o1 r a K, K <> [] ->
  Forall (fun f => twf deep (fst f) /\ (deep = true \/ leaf_first (fst f))) r ->
  s_advance deep false (((t1, o1) :: r, a) :: K) =
  match r with
  | [] => s_advance deep false K
  | (t2, o2) :: _ => push_sub true t2 (a + o2) ((r, a) :: K)
  end.
Proof.
  intros deep t1 o1 r a [|[ffs gpo] K] HK Hr; [congruence|]. cbn [s_advance tl].
  destruct r as [|[t2 o2] r2]; [reflexivity|].
  apply Forall_inv in Hr. cbn [fst] in Hr. destruct Hr as [Hw Hd].
  destruct t2 as [l2|sz2 sub]; [reflexivity|].
  destruct sub as [|[t3 o3] sub'].
  - inversion Hw.
  - cbn [next_in]. rewrite (push_sub_leaf_first deep _ _ _ Hd). reflexivity.
Qed.

(* main invariant, by induction on the tree: entering member t at absolute offset a (the frames
   pushed by the deep descent carry parent_offset = absolute offset of their struct), the checker
   walks flatten t a and then continues as if K's current member had been a scalar *)
Definition enters (deep : bool) (t : ttype) : Prop := forall a K l,
  top_is K t a -> walks deep (s_advance deep false K) l ->
  walks deep (push_sub true t a K) (flatten t a ++ l).

(* the members of one struct, from any position of its member array on *)
Lemma fields_walk : forall deep a K l, K <> [] -> walks deep (s_advance deep false K) l ->
  forall fs t o, Forall (fun f => twf deep (fst f) -> enters deep (fst f)) ((t, o) :: fs) ->
  twf deep t -> Forall (fun f => twf deep (fst f) /\ (deep = true \/ leaf_first (fst f))) fs ->
  walks deep (push_sub true t (a + o) (((t, o) :: fs, a) :: K)) (flat_fields ((t, o) :: fs) a ++ l).
Proof.
  intros deep a K l HK Hl. induction fs as [|[t2 o2] r IHr]; intros t o HF Hw Hwr;
    rewrite flat_fields_cons, <- app_assoc; apply (Forall_inv HF Hw).
  - exists o, [], a, K. split; reflexivity.
  - rewrite (advance_frame deep t o [] a K HK Hwr). exact Hl.
  - exists o, ((t2, o2) :: r), a, K. split; reflexivity.
  - rewrite (advance_frame deep t o _ a K HK Hwr).
    apply IHr; [exact (Forall_inv_tail HF)|exact (proj1 (Forall_inv Hwr))|exact (Forall_inv_tail Hwr)].
Qed.

Lemma enter_walks : forall deep t, twf deep t -> enters deep t.
Proof.
  intros deep t. induction t as [lf|sz fs IHfs] using ttype_ind2; intros Hw a K l Htop Hl;
    destruct Htop as (fo & rest & po & below & -> & <-).
  - cbn [push_sub flatten app]. apply walks_cons; [reflexivity|exact Hl].
  - inversion Hw as [|sz' t1 r Hw1 Hwr E]; subst fs sz'.
    rewrite flatten_struct. cbn [push_sub]. apply fields_walk; try assumption. discriminate.
Qed.

(* __Pyx_BufFmt_Init pushes the same frames as the deep descent at offset 0 *)
Lemma init_push_deep : forall deep t, twf deep t -> forall st, init_push t st = Ok (push_sub true t 0 st).
Proof.
  intros deep t. induction t as [lf|sz fs IHfs] using ttype_ind2; intros Hw st.
  - reflexivity.
  - inversion Hw as [|sz' t1 r Hw1 Hwr E]; subst fs sz'.
    cbn [init_push push_sub]. apply Forall_inv in IHfs. cbn [fst] in IHfs.
    rewrite (IHfs Hw1). reflexivity.
Qed.

Lemma flatten_length : forall t a, (length (flatten t a) <= tnodes t)%nat.
Proof.
  intros t. induction t as [lf|sz fs IHfs] using ttype_ind2; intros a.
  - cbn. lia.
  - rewrite flatten_struct. cbn [tnodes].
    enough (H : (length (flat_fields fs a) <=
                 (fix go (l : list (ttype * Z)) : nat :=
                    match l with [] => O | (t1, _) :: r => (tnodes t1 + go r)%nat end) fs)%nat) by lia.
    induction fs as [|[t1 o1] r IHr]; [cbn; lia|].
    rewrite flat_fields_cons, app_length.
    pose proof (Forall_inv IHfs (a + o1)) as H1. cbn [fst] in H1.
    specialize (IHr (Forall_inv_tail IHfs)). lia.
Qed.

(* the struct stack yields exactly the flattened members with their absolute offsets *)
Theorem walk_flatten : forall deep t, twf deep t -> walk deep false t = Ok (flatten t 0).
Proof.
  intros deep t Hw. unfold walk, s_init. rewrite (init_push_deep deep t Hw). cbn [bind].
  apply walks_fuel; [|apply flatten_length].
  rewrite <- (app_nil_r (flatten t 0)).
  apply (enter_walks deep t Hw 0 [([(t, 0)], 0)] []).
  - exists 0, [], 0, []. split; reflexivity.
  - cbn [s_advance]. apply walks_nil.
Qed.

Lemma flatten_wf : forall deep t, twf deep t -> forall a, flat_wf (flatten t a).
Proof.
  intros deep t. induction t as [lf|sz fs IHfs] using ttype_ind2; intros Hw a.
  - inversion Hw as [? H|]; subst. constructor; [exact H|constructor].
  - inversion Hw as [|sz' t1 r Hw1 Hwr E]; subst fs sz'. rewrite flatten_struct.
    assert (Hall : Forall (fun f => twf deep (fst f)) ((t1, 0) :: r)).
    { constructor; [exact Hw1|]. eapply Forall_impl; [|exact Hwr]. intros f Hf; exact (proj1 Hf). }
    clear Hw Hw1 Hwr. revert Hall IHfs. generalize ((t1, 0) :: r). intros fs.
    induction fs as [|[t' o'] fs' IH]; intros Hall IHfs; [constructor|].
    rewrite flat_fields_cons. apply Forall_app. split.
    + exact (Forall_inv IHfs (Forall_inv Hall) (a + o')).
    + exact (IH (Forall_inv_tail Hall) (Forall_inv_tail IHfs)).
Qed.

(* for EVERY byte string the tree checker is the flat checker on the flattened type info *)
Theorem check_tree_flat : forall fx deep s t isz, twf deep t ->
  check_tree fx deep false s t isz = check fx s (flat_ti t) isz.
Proof. intros fx deep s t isz Hw. unfold check_tree. rewrite (walk_flatten deep t Hw). reflexivity. Qed.

Definition lf_int : ttype := TLeaf (mkleaf 73 4 []).
Definition t_inner : ttype := TStruct 8 [(lf_int, 0); (lf_int, 4)].                  (* Inner {int c, d} *)
(* Outer {int a; Mid {int b; Inner inn} m}: three levels, the middle struct at offset 4 *)
Definition t_outer : ttype := TStruct 16 [(lf_int, 0); (TStruct 12 [(lf_int, 0); (t_inner, 4)], 4)].
(* OuterA {int a; MidF {Inner inn; int b} m}: a non-first struct member that begins with a struct *)
Definition t_outerA : ttype := TStruct 16 [(lf_int, 0); (TStruct 12 [(t_inner, 0); (lf_int, 8)], 4)].
Definition toks_4i : list tok := [TItem [52] Ci].     (* "4i" *)

Lemma lf_int_wf : forall deep, twf deep lf_int.
Proof. intros. constructor. unfold leaf_wf. cbn. repeat split; auto; try lia; intros [H|H]; discriminate. Qed.

Lemma t_inner_wf : forall deep, twf deep t_inner.
Proof.
  intros. constructor; [apply lf_int_wf|]. constructor; [|constructor]. split; [apply lf_int_wf|right; exact I].
Qed.

Lemma t_outer_wf : twf false t_outer.
Proof.
  constructor; [apply lf_int_wf|]. constructor; [|constructor]. split; [|right; exact I].
  constructor; [apply lf_int_wf|]. constructor; [|constructor]. split; [apply t_inner_wf|right; exact I].
Qed.

Lemma t_outerA_wf : twf true t_outerA.
Proof.
  constructor; [apply lf_int_wf|]. constructor; [|constructor]. split; [|left; reflexivity].
  constructor; [apply t_inner_wf|]. constructor; [|constructor]. split; [apply lf_int_wf|left; reflexivity].
Qed.

Lemma toks_4i_ok : Forall tok_ok toks_4i.
Proof. constructor; [|constructor]. split; [repeat constructor; cbn; lia|right; cbn; unfold INT_MAX; lia]. Qed.

(* taking the sub-struct offset from the grandparent frame rejects the matching buffer *)
Lemma grandparent_witness :
  spec_accept (FPlain toks_4i) (flat_ti t_outer) 16 = true /\
  check_tree fx_all false true (render (FPlain toks_4i)) t_outer 16 = Err /\
  check_tree fx_all false false (render (FPlain toks_4i)) t_outer 16 = Ok tt.
Proof. repeat split; vm_compute; reflexivity. Qed.

(* the code as it is (no deep descent in the advance loop) rejects a matching buffer; the repair accepts *)
Lemma no_descent_witness :
  spec_accept (FPlain toks_4i) (flat_ti t_outerA) 16 = true /\
  check_tree fx_all false false (render (FPlain toks_4i)) t_outerA 16 = Err /\
  check_tree fx_all true false (render (FPlain toks_4i)) t_outerA 16 = Ok tt.
Proof. repeat split; vm_compute; reflexivity. Qed.
