(* Proofs about the trace-event model (M_Trace.v). *)
From Coq Require Import List Bool Arith Lia.
From CyVerif Require Import Model.M_Trace.
Import ListNotations.

Scheme node_mind := Induction for node Sort Prop
with items_mind := Induction for items Sort Prop.
Combined Scheme node_mutind from node_mind, items_mind.

Lemma parse_start : forall k f r cur stk,
  classify k = CStart -> parse ((k, f) :: r) cur stk = parse r [] ((f, cur) :: stk).
Proof. intros k f r cur stk H. cbn [parse]. rewrite H. reflexivity. Qed.

Lemma parse_end : forall k f r cur saved stk,
  classify k = CEnd ->
  parse ((k, f) :: r) cur ((f, saved) :: stk) = parse r (Sh f (rev cur) :: saved) stk.
Proof. intros k f r cur saved stk H. cbn [parse]. rewrite H, Nat.eqb_refl. reflexivity. Qed.

Lemma parse_other : forall k f r cur saved stk,
  classify k = COther ->
  parse ((k, f) :: r) cur ((f, saved) :: stk) = parse r cur ((f, saved) :: stk).
Proof. intros k f r cur saved stk H. cbn [parse]. rewrite H, Nat.eqb_refl. reflexivity. Qed.

Lemma start_cy_one : forall t s f, exists k, start_cy t s f = [(k, f)] /\ classify k = CStart.
Proof. intros [|] [| | | |] f; cbn; eauto. Qed.

Lemma start_py_one : forall t s f, exists k, start_py t s f = [(k, f)] /\ classify k = CStart.
Proof. intros [|] [| | | |] f; cbn; eauto. Qed.

Lemma end_ev_parse : forall t e f rest cur saved stk,
  parse (end_ev t e f ++ rest) cur ((f, saved) :: stk) = parse rest (Sh f (rev cur) :: saved) stk.
Proof.
  intros [|] e f rest cur saved stk.
  - cbn [end_ev app]. apply parse_end. reflexivity.
  - destruct e; cbn [end_ev app];
      try (apply parse_end; reflexivity).
    rewrite parse_other by reflexivity. apply parse_end. reflexivity.
Qed.

Lemma line_ev_parse : forall lt l f rest cur saved stk,
  parse (line_ev lt l f ++ rest) cur ((f, saved) :: stk) = parse rest cur ((f, saved) :: stk).
Proof.
  intros [|] l f rest cur saved stk; cbn [line_ev app]; [|reflexivity].
  apply parse_other. reflexivity.
Qed.

(* [ok fx] : either the repaired placement, or no return inside try/finally *)
Definition ok_node (fx : bool) (n : node) : Prop := fx = false -> clean n = true.
Definition ok_items (fx : bool) (b : items) : Prop := fx = false -> cleans b = true.

Lemma ok_node_inv : forall fx f s b e, ok_node fx (Node f s b e) ->
  ok_items fx b /\ forall t, end_cy t fx e f = end_ev t e f.
Proof.
  intros fx f s b e Hok. split.
  - intros Hfx. specialize (Hok Hfx). cbn [clean] in Hok. apply andb_true_iff in Hok. tauto.
  - intros t. destruct e; try reflexivity. destruct fx; [reflexivity|].
    specialize (Hok eq_refl). cbn [clean] in Hok. rewrite andb_false_r in Hok. discriminate.
Qed.

Lemma ok_call_inv : forall fx n r, ok_items fx (ICall n r) -> ok_node fx n /\ ok_items fx r.
Proof.
  intros fx n r Hok. split; intros Hfx; specialize (Hok Hfx); cbn [cleans] in Hok;
    apply andb_true_iff in Hok; tauto.
Qed.

Lemma ok_ret_inv : forall fx r, ok_items fx (IRet r) -> fx = true /\ ok_items fx r.
Proof.
  intros [|] r Hok; [split; [reflexivity|intros H; discriminate]|]. discriminate (Hok eq_refl).
Qed.

Lemma parse_cy_mut : forall t fx lt,
  (forall n, ok_node fx n -> forall rest cur stk,
      parse (ev_cy t fx lt n ++ rest) cur stk = parse rest (shape_of n :: cur) stk) /\
  (forall b, ok_items fx b -> forall f rest cur saved stk,
      parse (evs_cy t fx lt f b ++ rest) cur ((f, saved) :: stk)
      = parse rest (rev (shapes_of b) ++ cur) ((f, saved) :: stk)).
Proof.
  intros t fx lt. apply node_mutind.
  - (* Node *)
    intros f s b IHb e Hok rest cur stk. destruct (ok_node_inv _ _ _ _ _ Hok) as [Hb He].
    cbn [ev_cy shape_of]. rewrite He.
    destruct (start_cy_one t s f) as [k [Hs Hk]]. rewrite Hs.
    cbn [app]. rewrite parse_start by exact Hk.
    rewrite <- app_assoc, IHb by exact Hb. rewrite end_ev_parse, app_nil_r, rev_involutive. reflexivity.
  - (* INil *)
    intros _ f rest cur saved stk. reflexivity.
  - (* ICall *)
    intros n IHn r IHr Hok f rest cur saved stk. destruct (ok_call_inv _ _ _ Hok) as [Hn Hr].
    cbn [evs_cy shapes_of]. rewrite <- app_assoc.
    rewrite IHn by exact Hn. rewrite IHr by exact Hr.
    cbn [rev]. rewrite <- app_assoc. reflexivity.
  - (* IRet *)
    intros r IHr Hok f rest cur saved stk. destruct (ok_ret_inv _ _ Hok) as [-> Hr].
    apply IHr, Hr.
  - (* ILine *)
    intros l r IHr Hok f rest cur saved stk.
    cbn [evs_cy shapes_of]. rewrite <- app_assoc, line_ev_parse.
    apply IHr, Hok.
Qed.

(* The event sequence of every call tree is a Dyck word with matching function ids (and
   every line / raise event names the innermost open activation), and its nesting structure
   is exactly the call tree. *)
Theorem events_well_nested : forall t fx lt n,
  (fx = false -> clean n = true) ->
  parse (ev_cy t fx lt n) [] [] = Some [shape_of n].
Proof.
  intros t fx lt n H.
  rewrite <- (app_nil_r (ev_cy t fx lt n)).
  rewrite (proj1 (parse_cy_mut t fx lt) n H). reflexivity.
Qed.

Corollary events_well_nested_bool : forall t fx lt n,
  (fx = false -> clean n = true) -> well_nested (ev_cy t fx lt n) = true.
Proof. intros. unfold well_nested. rewrite events_well_nested by assumption. reflexivity. Qed.

(* exactly one start and one end per activation *)
Lemma count_app : forall c a b, count_class c (a ++ b) = count_class c a + count_class c b.
Proof. intros. unfold count_class. rewrite filter_app, app_length. reflexivity. Qed.

Lemma count_start_cy : forall t s f,
  count_class CStart (start_cy t s f) = 1 /\ count_class CEnd (start_cy t s f) = 0.
Proof. intros [|] [| | | |] f; split; reflexivity. Qed.

Lemma count_end_ev : forall t e f,
  count_class CStart (end_ev t e f) = 0 /\ count_class CEnd (end_ev t e f) = 1.
Proof. intros [|] [| | |] f; split; reflexivity. Qed.

Lemma count_line : forall lt l f c, c <> COther -> count_class c (line_ev lt l f) = 0.
Proof. intros [|] l f [| |] H; try reflexivity. congruence. Qed.

Lemma count_mut : forall t fx lt,
  (forall n, ok_node fx n ->
     count_class CStart (ev_cy t fx lt n) = size n /\ count_class CEnd (ev_cy t fx lt n) = size n) /\
  (forall b, ok_items fx b -> forall f,
     count_class CStart (evs_cy t fx lt f b) = sizes b /\ count_class CEnd (evs_cy t fx lt f b) = sizes b).
Proof.
  intros t fx lt. apply node_mutind.
  - intros f s b IHb e Hok. destruct (ok_node_inv _ _ _ _ _ Hok) as [Hb He].
    destruct (IHb Hb f) as [I1 I2].
    destruct (count_start_cy t s f) as [S1 S2]. destruct (count_end_ev t e f) as [E1 E2].
    cbn [ev_cy size]. rewrite He, !count_app, I1, I2, S1, S2, E1, E2. split; lia.
  - intros _ f. split; reflexivity.
  - intros n IHn r IHr Hok f. destruct (ok_call_inv _ _ _ Hok) as [Hn Hr].
    destruct (IHn Hn) as [A1 A2]. destruct (IHr Hr f) as [B1 B2].
    cbn [evs_cy sizes]. rewrite !count_app, A1, A2, B1, B2. split; reflexivity.
  - intros r IHr Hok f. destruct (ok_ret_inv _ _ Hok) as [-> Hr]. apply IHr, Hr.
  - intros l r IHr Hok f.
    destruct (IHr Hok f) as [B1 B2].
    cbn [evs_cy sizes]. rewrite !count_app, B1, B2.
    rewrite !count_line by discriminate. split; reflexivity.
Qed.

Theorem one_start_one_end_per_activation : forall t fx lt n,
  (fx = false -> clean n = true) ->
  count_class CStart (ev_cy t fx lt n) = size n /\ count_class CEnd (ev_cy t fx lt n) = size n.
Proof. intros t fx lt n H. exact (proj1 (count_mut t fx lt) n H). Qed.

(* sys.monitoring variant: RAISE comes after everything the activation did (all callee
   events included) and immediately before its PY_UNWIND; the legacy variant sends no
   exception event at all (the __Pyx_TraceException macros are empty). *)
Theorem raise_event_placement : forall fx lt f s b,
  ev_cy Monitoring fx lt (Node f s b ERaise)
  = start_cy Monitoring s f ++ evs_cy Monitoring fx lt f b ++ [(KRaise, f); (KUnwind, f)].
Proof. reflexivity. Qed.

Theorem legacy_no_exception_event : forall fx lt n,
  count_class COther (ev_cy Legacy fx false n) = 0 /\
  (forall f, ~ In (KRaise, f) (ev_cy Legacy fx lt n)).
Proof.
  intros fx lt n. split.
  - revert n.
    assert (H : (forall n, count_class COther (ev_cy Legacy fx false n) = 0) /\
                (forall b f, count_class COther (evs_cy Legacy fx false f b) = 0)).
    { apply node_mutind.
      - intros f s b IHb e. cbn [ev_cy]. rewrite !count_app, IHb.
        destruct e, fx; reflexivity.
      - reflexivity.
      - intros n IHn r IHr f. cbn [evs_cy]. rewrite count_app, IHn, IHr. reflexivity.
      - intros r IHr f. cbn [evs_cy]. rewrite count_app, IHr. destruct fx; reflexivity.
      - intros l r IHr f. cbn [evs_cy]. rewrite count_app, IHr. reflexivity. }
    exact (proj1 H).
  - revert n.
    assert (H : (forall n g, ~ In (KRaise, g) (ev_cy Legacy fx lt n)) /\
                (forall b f g, ~ In (KRaise, g) (evs_cy Legacy fx lt f b))).
    { apply node_mutind.
      - intros f s b IHb e g. cbn [ev_cy]. rewrite !in_app_iff.
        intros [H|[H|H]].
        + cbn in H. destruct H as [H|[]]. discriminate.
        + exact (IHb f g H).
        + destruct e, fx; cbn in H; try (destruct H as [H|[]]; discriminate); exact H.
      - intros f g [].
      - intros n IHn r IHr f g. cbn [evs_cy]. rewrite in_app_iff. intros [H|H]; [exact (IHn g H)|exact (IHr f g H)].
      - intros r IHr f g. cbn [evs_cy]. rewrite in_app_iff. intros [H|H]; [|exact (IHr f g H)].
        destruct fx; cbn in H; [exact H|]. destruct H as [H|[]]. discriminate.
      - intros l r IHr f g. cbn [evs_cy]. rewrite in_app_iff. intros [H|H]; [|exact (IHr f g H)].
        destruct lt; cbn in H; [|exact H]. destruct H as [H|[]]. discriminate. }
    intros n f. exact (proj1 H n f).
Qed.

Lemma map_tar_end_ev : forall t e f, map throw_as_resume (end_ev t e f) = end_ev t e f.
Proof. intros [|] [| | |] f; reflexivity. Qed.

Lemma map_tar_line : forall lt l f, map throw_as_resume (line_ev lt l f) = line_ev lt l f.
Proof. intros [|] l f; reflexivity. Qed.

Lemma cy_py_mut : forall fx lt,
  (forall n, ok_node fx n -> started n = true ->
     ev_cy Legacy fx lt n = ev_py Legacy lt n /\
     ev_cy Monitoring fx lt n = map throw_as_resume (ev_py Monitoring lt n)) /\
  (forall b, ok_items fx b -> starteds b = true -> forall f,
     evs_cy Legacy fx lt f b = evs_py Legacy lt f b /\
     evs_cy Monitoring fx lt f b = map throw_as_resume (evs_py Monitoring lt f b)).
Proof.
  intros fx lt. apply node_mutind.
  - intros f s b IHb e Hok Hst. destruct (ok_node_inv _ _ _ _ _ Hok) as [Hb He].
    cbn [started] in Hst. apply andb_true_iff in Hst. destruct Hst as [Hsb Hs].
    destruct (IHb Hb Hsb f) as [I1 I2].
    cbn [ev_cy ev_py]. rewrite !He, I1, I2.
    destruct s; try discriminate; cbn [start_cy start_py];
      (split; [reflexivity|]);
      rewrite !map_app, map_tar_end_ev; reflexivity.
  - intros _ _ f. split; reflexivity.
  - intros n IHn r IHr Hok Hst f. destruct (ok_call_inv _ _ _ Hok) as [Hn Hr].
    cbn [starteds] in Hst. apply andb_true_iff in Hst. destruct Hst as [Hsn Hsr].
    destruct (IHn Hn Hsn) as [A1 A2]. destruct (IHr Hr Hsr f) as [B1 B2].
    cbn [evs_cy evs_py]. rewrite A1, A2, B1, B2, map_app. split; reflexivity.
  - intros r IHr Hok Hst f. destruct (ok_ret_inv _ _ Hok) as [-> Hr]. apply IHr; [exact Hr|exact Hst].
  - intros l r IHr Hok Hst f.
    destruct (IHr Hok Hst f) as [B1 B2].
    cbn [evs_cy evs_py]. rewrite B1, B2, map_app, map_tar_line. split; reflexivity.
Qed.

Theorem events_equal_cpython_legacy : forall fx lt n,
  (fx = false -> clean n = true) -> started n = true ->
  ev_cy Legacy fx lt n = ev_py Legacy lt n.
Proof. intros fx lt n H S. exact (proj1 (proj1 (cy_py_mut fx lt) n H S)). Qed.

Theorem events_equal_cpython_monitoring : forall fx lt n,
  (fx = false -> clean n = true) -> started n = true ->
  ev_cy Monitoring fx lt n = map throw_as_resume (ev_py Monitoring lt n).
Proof. intros fx lt n H S. exact (proj2 (proj1 (cy_py_mut fx lt) n H S)). Qed.

(* the specification side is itself well nested (sanity of the oracle model) *)
Corollary cpython_events_well_nested : forall lt n,
  started n = true -> parse (ev_py Legacy lt n) [] [] = Some [shape_of n].
Proof.
  intros lt n S.
  rewrite <- (events_equal_cpython_legacy true lt n) by (try exact S; intros H; discriminate).
  apply events_well_nested. intros H; discriminate.
Qed.

(* the code as it is: return inside try/finally *)
(* def f(): try: return 1 / finally: return 2     ->  call f, return f, return f *)
Definition w_double : node := Node 0 SCall (IRet INil) EReturn.
(* def f(): try: return 1 / finally: g()          ->  call f, return f, call g, return g *)
Definition w_misnest : node := Node 0 SCall (IRet (ICall (Node 1 SCall INil EReturn) INil)) EPending.
(* same with linetrace: a line event of f after f's return event *)
Definition w_line : node := Node 0 SCall (IRet (ILine 5 INil)) EPending.

Theorem early_return_refuted :
  parse (ev_cy Legacy false false w_double) [] [] = None /\
  count_class CEnd (ev_cy Legacy false false w_double) = 2 /\
  (exists sh, parse (ev_cy Legacy false false w_misnest) [] [] = Some sh /\ sh <> [shape_of w_misnest]) /\
  parse (ev_cy Legacy false true w_line) [] [] = None /\
  (* the repaired placement handles all three *)
  parse (ev_cy Legacy true false w_double) [] [] = Some [shape_of w_double] /\
  parse (ev_cy Legacy true false w_misnest) [] [] = Some [shape_of w_misnest] /\
  parse (ev_cy Legacy true true w_line) [] [] = Some [shape_of w_line].
Proof.
  repeat split; try reflexivity.
  eexists. split; [reflexivity|]. discriminate.
Qed.

(* close() of a never-started generator: one extra (balanced) activation that CPython
   does not have *)
Definition w_unstarted : node :=
  Node 0 SCall (ICall (Node 1 SCloseUnstarted INil ERaise) INil) EReturn.

Theorem unstarted_close_differs :
  ev_cy Legacy false false w_unstarted = [(KCall, 0); (KCall, 1); (KRet, 1); (KRet, 0)] /\
  ev_py Legacy false w_unstarted = [(KCall, 0); (KRet, 0)].
Proof. split; reflexivity. Qed.
