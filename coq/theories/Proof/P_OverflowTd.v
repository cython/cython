(* C04: typedef'd integer types - the sizeof dispatch of Overflow.c:Binop and LeftShift at a
   typedef name (model in M_Overflow.v, last section). *)
From Coq Require Import ZArith List Bool Lia ZifyBool.
From CyVerif Require Import Lib.CInt Model.M_CMath Proof.P_CMath Model.M_Overflow Proof.P_Overflow.
Open Scope Z_scope.

Lemma dispatch_v_asis builtin op iw lw llw w s cb ca swap a b :
  binop_dispatch_v false CmpLt builtin op iw lw llw w s cb ca swap a b
  = binop_dispatch builtin op iw lw llw w s cb ca swap a b.
Proof.
  unfold binop_dispatch_v, binop_dispatch, dispatch_choice, cmp_holds, narrow_unchecked.
  destruct (w <? iw); [reflexivity|].
  destruct (w =? iw); [reflexivity|]. destruct (w =? lw); [reflexivity|].
  destruct (w =? llw); reflexivity.
Qed.

(* the callee: for a sane type at least as wide as int the chain picks the base helper of exactly
   that width and signedness; narrower types take the shortcut *)
Lemma dispatch_choice_spec iw lw llw w s : size_sane iw lw llw w = true ->
  dispatch_choice CmpLt iw lw llw w s = if w <? iw then CNarrow else CBase w s.
Proof.
  unfold dispatch_choice, size_sane, cmp_holds. intros S.
  destruct (Z.ltb_spec w iw); [reflexivity|].
  destruct (Z.eqb_spec w iw) as [->|]; [reflexivity|].
  destruct (Z.eqb_spec w lw) as [->|]; [reflexivity|].
  destruct (Z.eqb_spec w llw) as [->|]; [reflexivity|]. lia.
Qed.

Lemma dispatch_sane builtin op iw lw llw w s cb ca swap a b :
  size_sane iw lw llw w = true -> iw <= w ->
  binop_dispatch builtin op iw lw llw w s cb ca swap a b
  = of_pair (base_helper builtin op w s lw llw cb ca swap a b).
Proof.
  intros S I. rewrite <- dispatch_v_asis. unfold binop_dispatch_v. rewrite dispatch_choice_spec by exact S.
  destruct (Z.ltb_spec w iw); [lia | reflexivity].
Qed.

(* the code as it is: exact for every sane type at least as wide as int *)
Theorem dispatch_exact builtin op iw lw llw w s cb ca swap a b :
  size_sane iw lw llw w = true -> iw <= w -> 2 <= w -> wide_ok w lw llw ->
  in_range w s a -> in_range w s b ->
  binop_dispatch builtin op iw lw llw w s cb ca swap a b
  = R (wrap w s (exact_op op a b)) (negb (in_rangeb w s (exact_op op a b))).
Proof.
  intros S I Hw Wd Ha Hb. rewrite dispatch_sane by assumption.
  now rewrite base_helper_exact by assumption.
Qed.

(* the repaired shortcut arm: exact for every type narrower than int *)
Lemma narrow_checked_exact builtin op iw lw llw w s cb ca swap a b :
  2 <= w -> w < iw -> wide_ok iw lw llw -> in_range w s a -> in_range w s b ->
  narrow_checked builtin op iw lw llw w s cb ca swap a b
  = R (wrap w s (exact_op op a b)) (negb (in_rangeb w s (exact_op op a b))).
Proof.
  intros Hw Hi Wd Ha Hb. unfold narrow_checked.
  rewrite base_helper_exact; try assumption; try lia;
    try (eapply in_range_widen; [|eassumption]; lia).
  unfold builtin_res. cbn [fst snd]. set (e := exact_op op a b).
  rewrite wrap_narrow by lia. f_equal.
  destruct (in_rangeb iw true e) eqn:Ri; cbn [negb orb].
  - apply in_rangeb_spec in Ri. rewrite (wrap_id iw true e) by (try assumption; lia).
    rewrite Z.eqb_sym. now rewrite in_rangeb_wrap_iff by lia.
  - destruct (in_rangeb w s e) eqn:Rw; [|reflexivity].
    apply in_rangeb_spec in Rw. apply (in_range_widen w s iw) in Rw; [|lia].
    apply in_rangeb_spec in Rw. congruence.
Qed.

(* with the repair, every sane width and signedness: value wrapped, bit set iff it does not fit *)
Theorem dispatch_fx_exact builtin op iw lw llw w s cb ca swap a b :
  size_sane iw lw llw w = true -> 2 <= w -> wide_ok w lw llw -> wide_ok iw lw llw ->
  in_range w s a -> in_range w s b ->
  binop_dispatch_v true CmpLt builtin op iw lw llw w s cb ca swap a b
  = R (wrap w s (exact_op op a b)) (negb (in_rangeb w s (exact_op op a b))).
Proof.
  intros S Hw Wd Wi Ha Hb. unfold binop_dispatch_v. rewrite dispatch_choice_spec by assumption.
  destruct (Z.ltb_spec w iw) as [L|L].
  - now apply narrow_checked_exact.
  - now rewrite base_helper_exact by assumption.
Qed.

(* operands whose exact result leaves the type exist for every operator, width and signedness *)
Lemma overflowing_operands op w s : 3 <= w ->
  exists a b, in_range w s a /\ in_range w s b /\ ~ in_range w s (exact_op op a b).
Proof.
  intros Hw. pose proof (pow2_pos (w - 1) ltac:(lia)) as P. pose proof (pow2_split w ltac:(lia)) as E.
  assert (4 <= 2 ^ (w - 1)).
  { change 4 with (2 ^ 2). apply pow2_mono. lia. }
  destruct op.
  - exists (max_int w s), 1. unfold in_range, min_int, max_int, exact_op. destruct s; lia.
  - exists (min_int w s), 1. unfold in_range, min_int, max_int, exact_op. destruct s; lia.
  - exists (max_int w s), 2. unfold in_range, min_int, max_int, exact_op. destruct s; lia.
Qed.

(* whenever the guard lets a type of width w >= 2 take the unchecked shortcut, some operands of
   the type give a wrong value with no bit set: for the code as it is (CmpLt) every w < iw, and
   for a guard "sizeof(TYPE) <= sizeof(int)" also w = iw, whatever the signedness and operator *)
Theorem unchecked_arm_refuted builtin op c iw lw llw w s :
  3 <= w -> cmp_holds c w iw = true ->
  exists a b v, in_range w s a /\ in_range w s b /\
    binop_dispatch_v false c builtin op iw lw llw w s false false false a b = R v false
    /\ v <> exact_op op a b.
Proof.
  intros Hw C. destruct (overflowing_operands op w s Hw) as (a & b & Ha & Hb & N).
  exists a, b, (wrap w s (wrap iw true (exact_op op a b))).
  split; [exact Ha | split; [exact Hb | split]].
  - unfold binop_dispatch_v, dispatch_choice. now rewrite C.
  - intros E. apply N. rewrite <- E. apply wrap_in_range. lia.
Qed.

Corollary dispatch_le_guard_refuted builtin op iw lw llw s : 3 <= iw ->
  exists a b v, in_range iw s a /\ in_range iw s b /\
    binop_dispatch_v false CmpLe builtin op iw lw llw iw s false false false a b = R v false
    /\ v <> exact_op op a b.
Proof. intros H. apply unchecked_arm_refuted; [exact H | cbn; lia]. Qed.

Corollary dispatch_narrow_asis_refuted builtin op iw lw llw w s : 3 <= w -> w < iw ->
  exists a b v, in_range w s a /\ in_range w s b /\
    binop_dispatch builtin op iw lw llw w s false false false a b = R v false
    /\ v <> exact_op op a b.
Proof.
  intros H L. destruct (unchecked_arm_refuted builtin op CmpLt iw lw llw w s H) as (a & b & v & X).
  { cbn. lia. }
  exists a, b, v. now rewrite <- dispatch_v_asis.
Qed.

(* ---- LeftShift at a typedef'd type ------------------------------------------------------- *)
Lemma lshift_td_sound iw w s a b v : 8 <= w -> in_range w s a -> in_range w s b ->
  lshift_td iw w s a b = (v, false) -> 0 <= b /\ v = a * 2 ^ b /\ in_range w s v.
Proof.
  intros Hw Ha Hb. unfold lshift_td. destruct ((w <? iw) && negb s); [discriminate|].
  now apply lshift_sound.
Qed.

Lemma lshift_td_complete iw w s a b : 8 <= w -> in_range w s a -> in_range w s b ->
  ~ in_range w s (a * 2 ^ b) \/ b < 0 -> snd (lshift_td iw w s a b) = true.
Proof.
  intros Hw Ha Hb N. destruct (lshift_td iw w s a b) as [v f] eqn:E. destruct f; [reflexivity|].
  destruct (lshift_td_sound iw w s a b v Hw Ha Hb E) as (B & -> & R). destruct N; [contradiction | lia].
Qed.

(* ---- the statement on a typedef'd result type -------------------------------------------- *)
Theorem typedef_node_exact fx builtin op iw lw llw w s cb ca swap a b :
  op <> OLshift -> size_sane iw lw llw w = true -> 2 <= w -> (fx = true \/ iw <= w) ->
  wide_ok w lw llw -> wide_ok iw lw llw -> in_range w s a -> in_range w s b ->
  typedef_node fx CmpLt builtin op iw lw llw w s cb ca swap a b
  = if in_rangeb w s (exact_cop op a b) then Val (exact_cop op a b) else Ovf.
Proof.
  intros Hop S Hw F Wd Wi Ha Hb.
  assert (D : forall bop, binop_dispatch_v fx CmpLt builtin bop iw lw llw w s cb ca swap a b
                = R (wrap w s (exact_op bop a b)) (negb (in_rangeb w s (exact_op bop a b)))).
  { intros bop. destruct fx.
    - now apply dispatch_fx_exact.
    - rewrite dispatch_v_asis. apply dispatch_exact; try assumption. destruct F; [discriminate | assumption]. }
  unfold typedef_node. destruct op; try congruence; rewrite D; apply (raise_builtin_res w s); lia.
Qed.

Theorem typedef_lshift_sound_complete fx c builtin iw lw llw w s cb ca swap a b :
  8 <= w -> in_range w s a -> in_range w s b ->
  (forall v, typedef_node fx c builtin OLshift iw lw llw w s cb ca swap a b = Val v ->
     0 <= b /\ v = a * 2 ^ b /\ in_range w s v)
  /\ (~ in_range w s (a * 2 ^ b) \/ b < 0 ->
      typedef_node fx c builtin OLshift iw lw llw w s cb ca swap a b = Ovf).
Proof.
  intros Hw Ha Hb. unfold typedef_node, raise_if. split.
  - intros v. destruct (lshift_td iw w s a b) as [r f] eqn:E. cbn [fst snd]. destruct f; [discriminate|].
    intros [= <-]. eapply lshift_td_sound; eassumption.
  - intros N. now rewrite (lshift_td_complete iw w s a b Hw Ha Hb N).
Qed.

(* ---- the raise in a nogil context ---------------------------------------------------------- *)
Lemma nogil_node_fixed in_nogil o : nogil_node true in_nogil o = o.
Proof. destruct o; cbn; try reflexivity. now rewrite andb_false_r. Qed.

Lemma nogil_node_partial gil_fixed in_nogil o : o <> Ovf -> nogil_node gil_fixed in_nogil o = o.
Proof. destruct o; cbn; congruence. Qed.

Lemma nogil_node_refuted :
  exists a b, in_range 32 true a /\ in_range 32 true b /\ ~ in_range 32 true (a + b) /\
    nogil_node false true (binop_node true OAdd 32 true 64 64 false false false a b) = Undef.
Proof. exists 2147483647, 1. unfold in_range. vm_compute. intuition congruence. Qed.
